(* Property C15 -- Peer selection returns a least-loaded eligible peer and starves none.
   This file contains only statements, each closed by [exact].

   Model: Model/PeerHeap.v (peer_heap.go + container/heap), Model/PeerList.v (peer.go PeerList,
   Channel.updatePeer, isolated sub-channel lists).  Spec: Spec/PeerSelect.v.
   [lrun pl_empty ops] is the state of one PeerList after the history [ops] of Add / Remove /
   Get / GetNew (arbitrary previously-selected sets) / score changes / SetStrategy, with arbitrary
   scores and arbitrary rng draws; [chan_run (chan_init n) ops] is a channel with n isolated
   sub-channel lists, scores computed by the calculators generated from peer_strategies.go. *)
From Coq Require Import ZArith List Bool Permutation.
From Verif Require Import Base.Wrap Gen.GenPeers Spec.PeerSelect Model.PeerHeap Model.PeerList
  Proofs.PeerHeapP Proofs.PeerListP.
Import ListNotations.
Local Open Scope Z_scope.

(* ---- heap / map bookkeeping -------------------------------------------------------------
   Wanted (DESIGN C15_heap_inv): after every history the map and the heap hold the same peers,
   heap[i].index = i, and the heap order holds for the key (score, order).
   The last clause is FALSE for the pinned code (C15_heap_order_refuted below: addPeer's
   swapOrder calls heap.Fix on stale positions).  Proved: everything else, with the heap order
   on the SCORE, which is what minimality of the selection needs. *)
Theorem C15_heap_inv_partial : forall n ops,
  exists c, chan_run (chan_init n) ops = Some c /\
    forall cl, In cl (ch_lists c) ->
      let l := cl_pl cl in
      NoDup (pl_keys l) /\ Permutation (pl_keys l) (map ps_hp (pl_arr l)) /\
      (forall i, (i < length (pl_arr l))%nat -> ps_index (nth i (pl_arr l) ps_dflt) = Z.of_nat i) /\
      (forall i, (0 < i < length (pl_arr l))%nat ->
         ps_score (nth ((i - 1) / 2) (pl_arr l) ps_dflt) <= ps_score (nth i (pl_arr l) ps_dflt)).
Proof. exact chan_heap_inv. Qed.
Print Assumptions C15_heap_inv_partial.

(* the same for one list with arbitrary (not calculator-produced) scores; no history panics *)
Theorem C15_heap_inv_list_partial : forall ops,
  exists l, lrun pl_empty ops = Some l /\
    NoDup (pl_keys l) /\ Permutation (pl_keys l) (map ps_hp (pl_arr l)) /\
    (forall i, (i < length (pl_arr l))%nat -> ps_index (nth i (pl_arr l) ps_dflt) = Z.of_nat i) /\
    (forall i, (0 < i < length (pl_arr l))%nat ->
       ps_score (nth ((i - 1) / 2) (pl_arr l) ps_dflt) <= ps_score (nth i (pl_arr l) ps_dflt)).
Proof. exact (fun ops => lrun_wf ops pl_empty wf_empty). Qed.
Print Assumptions C15_heap_inv_list_partial.

(* a history (four Adds) after which peerHeap.Less(child, parent) holds for some heap position *)
Theorem C15_heap_order_refuted : exists ops l, lrun pl_empty ops = Some l /\
  ~ (forall i, (0 < i < length (pl_arr l))%nat ->
       pless (nth i (pl_arr l) ps_dflt) (nth ((i - 1) / 2) (pl_arr l) ps_dflt) = false).
Proof. exact lex_order_refuted. Qed.
Print Assumptions C15_heap_order_refuted.

(* ---- selection ----------------------------------------------------------------------------
   After any history, for any previously-selected set and any draw: Get returns a member that is
   eligible at the strictest non-empty tier (host:port and host untried; host:port untried; any)
   with the minimum score within that tier; the list keeps the same members with the same scores.
   Otherwise it reports no-peers, and then the list is empty and unchanged. *)
Theorem C15_min_eligible : forall ops l prev d, lrun pl_empty ops = Some l ->
  match pl_get l prev d with
  | Some (l', SelOk p, _) =>
      least_loaded (eligible_get prev (pl_keys l)) (map (fun x => (ps_hp x, ps_score x)) (pl_arr l)) p /\
      pl_keys l' = pl_keys l /\
      Permutation (map (fun x => (ps_hp x, ps_score x)) (pl_arr l'))
                  (map (fun x => (ps_hp x, ps_score x)) (pl_arr l))
  | Some (l', SelNoPeers, _) => pl_keys l = [] /\ l' = l
  | _ => False
  end.
Proof. exact min_eligible_reachable. Qed.
Print Assumptions C15_min_eligible.

(* GetNew: the same over the first two tiers; ErrNoNewPeers exactly when the list is non-empty and
   every member's host:port was tried *)
Theorem C15_getnew : forall ops l prev d, lrun pl_empty ops = Some l ->
  match pl_getnew l prev d with
  | Some (l', SelOk p, _) =>
      least_loaded (eligible_getnew prev (pl_keys l)) (map (fun x => (ps_hp x, ps_score x)) (pl_arr l)) p /\
      pl_keys l' = pl_keys l /\
      Permutation (map (fun x => (ps_hp x, ps_score x)) (pl_arr l'))
                  (map (fun x => (ps_hp x, ps_score x)) (pl_arr l))
  | Some (l', SelNoPeers, _) => pl_keys l = [] /\ l' = l
  | Some (l', SelNoNewPeers, _) =>
      pl_keys l <> [] /\ (forall q, In q (pl_keys l) -> tier2 prev q = false) /\
      pl_keys l' = pl_keys l /\
      Permutation (map (fun x => (ps_hp x, ps_score x)) (pl_arr l'))
                  (map (fun x => (ps_hp x, ps_score x)) (pl_arr l))
  | None => False
  end.
Proof. exact (fun ops l prev d E => getnew_min_eligible l prev d (lrun_reach_wf ops l E)). Qed.
Print Assumptions C15_getnew.

(* no-peers only for the empty list; Get never fails otherwise and never leaks ErrNoNewPeers *)
Theorem C15_nopeers_iff : forall ops l prev d, lrun pl_empty ops = Some l ->
  ((exists l' n, pl_get l prev d = Some (l', SelNoPeers, n)) <-> pl_keys l = []) /\
  pl_get l prev d <> None /\
  (forall l' n, pl_get l prev d <> Some (l', SelNoNewPeers, n)).
Proof. exact (fun ops l prev d E => get_nopeers_iff l prev d (lrun_reach_wf ops l E)). Qed.
Print Assumptions C15_nopeers_iff.

(* ---- default strategy (generated preferIncomingCalculator / leastPendingCalculator) -------
   with fewer than MaxInt32 pending calls: inbound-connected < connected < unconnected, fewer
   pending first; the scores are exactly pending / MaxInt32 + pending / MaxUint64 *)
Theorem C15_tiers : forall i1 o1 p1 i2 o2 p2,
  0 <= i1 -> 0 <= o1 -> i1 + o1 < 2 ^ 63 -> 0 <= p1 < 2 ^ 31 - 1 ->
  0 <= i2 -> 0 <= o2 -> i2 + o2 < 2 ^ 63 -> 0 <= p2 < 2 ^ 31 - 1 ->
  (preferIncomingScore i1 o1 p1 < preferIncomingScore i2 o2 p2 <->
   rank_lt (default_rank i1 o1 p1) (default_rank i2 o2 p2)).
Proof. exact prefer_incoming_rank. Qed.
Print Assumptions C15_tiers.

Theorem C15_tier_scores : forall inb outb pend,
  0 <= inb -> 0 <= outb -> inb + outb < 2 ^ 63 -> 0 <= pend < 2 ^ 31 ->
  preferIncomingScore inb outb pend =
    (if inb + outb =? 0 then 2 ^ 64 - 1 else if inb =? 0 then 2 ^ 31 - 1 + pend else pend) /\
  leastPendingScore inb outb pend = (if inb + outb =? 0 then 2 ^ 64 - 1 else pend).
Proof. exact tier_scores. Qed.
Print Assumptions C15_tier_scores.

(* ---- fairness -------------------------------------------------------------------------------
   Wanted: after ANY history, with equal scores and no membership change, every one of the n
   peers is chosen in any 3n consecutive selections.  FALSE for the pinned code after the list
   shrank (C15_fair_refuted, known finding peerlist:fairness-after-shrink).
   Proved (C15_fair_partial): the statement under the stamp bound
       order(p) <= counter + n/2 + 1  for every peer p
   at the start of the window (no assumption on the heap layout, any draws): every peer is even
   chosen within the first n + n/2 + 1 <= 3n selections.  C15_stamp_bound: the bound holds after
   every history without Remove (so it holds at the start of any window of such a history).
   Missing: histories with Remove (there the bound, and the clause, fail); the re-establishment
   of the bound n_old/2 selections after a Remove is not proved. *)
Theorem C15_fair_partial : forall ops l s ds, lrun pl_empty ops = Some l ->
  (forall x, In x (pl_arr l) -> ps_score x = s) ->
  (forall o, In o (map ps_order (pl_arr l)) -> o <= pl_ctr l + Z.of_nat (length (pl_arr l)) / 2 + 1) ->
  let n := length (pl_arr l) in
  (0 < n)%nat -> length ds = (3 * n)%nat ->
  pl_ctr l + 3 * Z.of_nat n + Z.of_nat n / 2 + 2 < 2 ^ 64 ->
  exists l' sel, get_nils l ds = Some (l', sel) /\ length sel = (3 * n)%nat /\ pl_keys l' = pl_keys l /\
    forall p, In p (pl_keys l) -> In p (firstn (n + n / 2 + 1) sel).
Proof.
  exact (fun ops l s ds E Hsc Hst =>
           fair_window l ds s (lrun_reach_wf ops l E) Hsc Hst (lrun_ctr ops pl_empty l wf_empty (Z.le_refl 0) E)).
Qed.
Print Assumptions C15_fair_partial.

Theorem C15_stamp_bound : forall ops l,
  forallb (fun op => negb (is_remove op)) ops = true ->
  2 * Z.of_nat (length ops) + 4 < 2 ^ 64 -> lrun pl_empty ops = Some l ->
  forall o, In o (map ps_order (pl_arr l)) -> o <= pl_ctr l + Z.of_nat (length (pl_arr l)) / 2 + 1.
Proof. exact stamp_reachable. Qed.
Print Assumptions C15_stamp_bound.

(* 16 Adds, one selection, 14 Removes: equal scores, and one of the n = 2 members is not chosen in
   3n = 6 consecutive selections *)
Theorem C15_fair_refuted : exists ops l ds p,
  lrun pl_empty ops = Some l /\
  (forall x, In x (pl_arr l) -> ps_score x = 0) /\
  length ds = (3 * length (pl_arr l))%nat /\ In p (pl_keys l) /\
  exists l' sel, get_nils l ds = Some (l', sel) /\ ~ In p sel.
Proof. exact fair_refuted. Qed.
Print Assumptions C15_fair_refuted.

(* ---- non-vacuity --------------------------------------------------------------------------- *)
(* three peers on two hosts with scores 5, 3, 3: a request that already tried b:1 (and host b)
   gets a:1 although b:2 has a smaller score; one that tried everything gets a minimum-score peer *)
Example C15_example_select :
  let a1 := [97; 58; 49] in let b1 := [98; 58; 49] in let b2 := [98; 58; 50] in
  let ops := [LAdd a1 5 0 0; LAdd b1 3 0 0; LAdd b2 3 0 0] in
  match lrun pl_empty ops with
  | Some l =>
      (match pl_get l [b1; [98]] 0 with Some (_, SelOk p, _) => p = a1 | _ => False end) /\
      (match pl_get l [b1] 0 with Some (_, SelOk p, _) => p = b2 | _ => False end) /\
      (match pl_get l [a1; b1; b2; [97]; [98]] 0 with Some (_, SelOk p, _) => p = b1 \/ p = b2 | _ => False end) /\
      (match pl_getnew l [a1; b1; b2] 0 with Some (_, SelNoNewPeers, _) => True | _ => False end)
  | None => False
  end.
Proof. vm_compute. repeat split; auto. Qed.

(* the hypotheses of C15_fair_partial are satisfiable: 5 peers, equal scores, stamp bound *)
Example C15_example_fair :
  match lrun pl_empty (adds 5 ++ [LGet [] 1; LGet [] 2]) with
  | Some l =>
      forallb (fun x => ps_score x =? 0) (pl_arr l) = true /\
      forallb (fun o => o <=? pl_ctr l + Z.of_nat (length (pl_arr l)) / 2 + 1) (map ps_order (pl_arr l)) = true /\
      length (pl_arr l) = 5%nat /\
      match get_nils l (repeat 2 15) with
      | Some (_, sel) => forallb (fun p => mem p (firstn 8 sel)) (pl_keys l) = true
      | None => False
      end
  | None => False
  end.
Proof. vm_compute. repeat split; auto. Qed.

(* the default strategy's three tiers on concrete loads *)
Example C15_example_tiers :
  preferIncomingScore 1 0 7 = 7 /\ preferIncomingScore 0 2 0 = 2147483647 /\
  preferIncomingScore 0 0 0 = 18446744073709551615 /\ leastPendingScore 0 1 4 = 4.
Proof. vm_compute. repeat split; auto. Qed.

(* ==== what selection is FED with: the request's previously-selected set and the peer's load ====
   Gen/GenPeerSel.v is regenerated from retry.go (getHost, RequestState.AddSelectedPeer,
   RequestState.PrevSelectedPeers), peer.go (Peer.NumConnections, Peer.NumPendingOutbound) and
   mex.go (messageExchangeSet.count) on every run, loops included; a map[string]struct{} is a
   nilable set of strings (Base/GoSemColl.v).  Proofs: Proofs/GenPeerSelP.v, Proofs/ReqSelP.v. *)
From Verif Require Import Base.GoSemColl Gen.GenPeerSel Model.ReqSel Proofs.GenPeerSelP Proofs.ReqSelP.

(* the generated getHost never panics and is the specification's host function, for every string:
   the bytes before the LAST ':' (so "[::1]:80" has host "[::1]"), the whole string if there is none *)
Theorem C15_gethost_generated : forall hp, getHost hp = Some (host_of hp).
Proof. exact getHost_host_of. Qed.
Print Assumptions C15_gethost_generated.

(* after attempts that selected p1..pk (any strings, any k) the generated AddSelectedPeer has not
   panicked, PrevSelectedPeers hands selection the very map, and that map holds every pi AND
   every host(pi) -- and nothing else; it is non-nil as soon as one peer was added *)
Theorem C15_selected_set_complete : forall ps, exists rs,
  add_all fresh_request ps = Some rs /\
  RequestState_PrevSelectedPeers rs = Some (RequestState_SelectedPeers rs) /\
  (forall p, In p ps -> sset_mem (RequestState_SelectedPeers rs) p = true /\
                        sset_mem (RequestState_SelectedPeers rs) (host_of p) = true) /\
  (forall s, sset_mem (RequestState_SelectedPeers rs) s = true ->
             exists p, In p ps /\ (s = p \/ s = host_of p)) /\
  (ps <> [] -> sset_isnil (RequestState_SelectedPeers rs) = false).
Proof. exact selected_set_complete. Qed.
Print Assumptions C15_selected_set_complete.

(* the attempts of one request (Get(rs.PrevSelectedPeers()) then rs.AddSelectedPeer(peer), both
   generated), starting from any reachable list, with ANY history on the list between two
   attempts: no attempt panics, and attempt k+1 returns a least-loaded peer of the strictest
   non-empty tier with respect to everything attempts 1..k tried (peers and their hosts) *)
Theorem C15_retry_least_loaded_untried : forall ops l atts, lrun pl_empty ops = Some l ->
  exists log rsf, req_run l fresh_request atts = Some (log, rsf) /\
    forall k lk p, nth_error log k = Some (lk, p) ->
      let T := tried_set (map snd (firstn k log)) in
      least_loaded (eligible_get T (pl_keys lk)) (map (fun x => (ps_hp x, ps_score x)) (pl_arr lk)) p.
Proof. exact retry_least_loaded_untried. Qed.
Print Assumptions C15_retry_least_loaded_untried.

(* the same in plain terms: the peer is a member; while a member on a host that no earlier attempt
   touched exists the attempt gets such a member; while an untried member exists it gets one *)
Theorem C15_retry_avoids_tried_hosts : forall ops l atts, lrun pl_empty ops = Some l ->
  exists log rsf, req_run l fresh_request atts = Some (log, rsf) /\
    forall k lk p, nth_error log k = Some (lk, p) ->
      let T := tried_set (map snd (firstn k log)) in
      In p (pl_keys lk) /\
      ((exists q, In q (pl_keys lk) /\ ~ In q T /\ ~ In (host_of q) T) -> ~ In p T /\ ~ In (host_of p) T) /\
      ((exists q, In q (pl_keys lk) /\ ~ In q T) -> ~ In p T).
Proof. exact retry_avoids_tried_hosts. Qed.
Print Assumptions C15_retry_avoids_tried_hosts.

(* the generated NumPendingOutbound is the number of OUR calls in flight to the peer: the sizes of
   the OUTBOUND exchange sets summed over the outbound AND the inbound connections (a call we make
   over a connection the peer dialled counts; calls the peer makes to us never do);
   NumConnections = (inbound, outbound) list lengths *)
Theorem C15_pending_counts_our_calls : forall p, pending_calls (peerconns_of p) < 2 ^ 63 ->
  Peer_NumPendingOutbound p =
    Some (zsum (map (fun c => zlen (messageExchangeSet_exchanges (Connection_outbound c)))
                    (Peer_outboundConnections p ++ Peer_inboundConnections p))) /\
  Peer_NumConnections p = Some (zlen (Peer_inboundConnections p), zlen (Peer_outboundConnections p)).
Proof. exact pending_counts_our_calls. Qed.
Print Assumptions C15_pending_counts_our_calls.

(* GetScore of the built-in strategies on a peer = the model's score (Model/PeerList.v [calc]) of
   the load (inbound, outbound, pending_calls) that Model/ReqSel.v reads off the connections *)
Theorem C15_score_of_connections : forall strat p, 0 <= strat <= 2 ->
  pending_calls (peerconns_of p) < 2 ^ 63 ->
  gen_score strat p = Some (calc strat (attrs_of (peerconns_of p) 0 0)).
Proof. exact gen_score_model. Qed.
Print Assumptions C15_score_of_connections.

(* hence the default strategy ranks two peers by (tier, our pending calls) whatever connections
   carry the calls *)
Theorem C15_default_rank_of_connections : forall p1 p2 s1 s2,
  let c1 := peerconns_of p1 in let c2 := peerconns_of p2 in
  zlen (pc_inbound c1) + zlen (pc_outbound c1) < 2 ^ 63 -> pending_calls c1 < 2 ^ 31 - 1 ->
  zlen (pc_inbound c2) + zlen (pc_outbound c2) < 2 ^ 63 -> pending_calls c2 < 2 ^ 31 - 1 ->
  gen_score 0 p1 = Some s1 -> gen_score 0 p2 = Some s2 ->
  (s1 < s2 <-> rank_lt (default_rank (zlen (pc_inbound c1)) (zlen (pc_outbound c1)) (pending_calls c1))
                       (default_rank (zlen (pc_inbound c2)) (zlen (pc_outbound c2)) (pending_calls c2))).
Proof. exact default_rank_of_connections. Qed.
Print Assumptions C15_default_rank_of_connections.

(* ---- non-vacuity ---- *)
(* four peers a:1 a:2 b:1 c:1 with scores 0 0 5 9: a request's three attempts get a:1 (or a:2), then
   b:1 (host a tried), then c:1 (hosts a, b tried) although a:2 has the lowest score throughout;
   a fourth attempt falls back to the untried a-peer *)
Example C15_example_retry :
  let a1 := [97; 58; 49] in let a2 := [97; 58; 50] in let b1 := [98; 58; 49] in let c1 := [99; 58; 49] in
  let ops := [LAdd a1 0 0 0; LAdd a2 0 0 0; LAdd b1 5 0 0; LAdd c1 9 0 0] in
  match lrun pl_empty ops with
  | Some l =>
      match req_run l fresh_request [mkAtt [] 0; mkAtt [] 0; mkAtt [] 0; mkAtt [] 0] with
      | Some (log, rs) =>
          match map snd log with
          | [p1; p2; p3; p4] => (p1 = a1 \/ p1 = a2) /\ p2 = b1 /\ p3 = c1 /\ (p4 = a1 \/ p4 = a2) /\ p4 <> p1
          | _ => False
          end /\
          sset_len (RequestState_SelectedPeers rs) = 7
      | None => False
      end
  | None => False
  end.
Proof. vm_compute. repeat split; auto; discriminate. Qed.

(* the host function: no colon => the whole string; empty host; a bracketed IPv6 literal is the
   host of its host:port; several colons => cut at the last one *)
Example C15_example_gethost :
  getHost [110; 48] = Some [110; 48] /\ getHost [58; 49] = Some [] /\
  getHost [91; 58; 58; 49; 93; 58; 56; 48] = Some [91; 58; 58; 49; 93] /\
  getHost [97; 58; 49; 58; 50] = Some [97; 58; 49].
Proof. vm_compute. repeat split. Qed.

(* IPv6 peers [::1]:1 [::1]:2 [::2]:1 with scores 0 0 9: the second attempt of a request leaves the
   host [::1] (score 0 sibling available) for [::2]:1; the third falls back to the untried sibling *)
Example C15_example_retry_ipv6 :
  let x1 := [91; 58; 58; 49; 93; 58; 49] in let x2 := [91; 58; 58; 49; 93; 58; 50] in
  let y1 := [91; 58; 58; 50; 93; 58; 49] in
  match lrun pl_empty [LAdd x1 0 0 0; LAdd x2 0 0 0; LAdd y1 9 0 0] with
  | Some l =>
      match req_run l fresh_request [mkAtt [] 0; mkAtt [] 0; mkAtt [] 0] with
      | Some (log, _) =>
          match map snd log with
          | [p1; p2; p3] => (p1 = x1 \/ p1 = x2) /\ p2 = y1 /\ (p3 = x1 \/ p3 = x2) /\ p3 <> p1
          | _ => False
          end
      | None => False
      end
  | None => False
  end.
Proof. vm_compute. repeat split; auto; discriminate. Qed.

(* a peer that dialled us (one inbound connection) carrying 2 of our calls and 3 of its own, and
   one idle outbound connection: 2 pending, default score 2 (top tier) *)
Example C15_example_load :
  let mex := mk_messageExchange 0 in
  let es n := mk_messageExchangeSet (map (fun i => (Z.of_nat i, mex)) (seq 0 n)) in
  let p := mk_Peer [mk_Connection (es 3%nat) (es 2%nat)] [mk_Connection (es 0%nat) (es 0%nat)] in
  Peer_NumPendingOutbound p = Some 2 /\ Peer_NumConnections p = Some (1, 1) /\ gen_score 0 p = Some 2.
Proof. vm_compute. repeat split. Qed.

(* ==== the score a list STORES for a peer is the score of the peer's LIVE state ==================
   Model/C15Score.v: an interleaving model of everything that reads, computes or stores a score.
   What a calculator reads of a peer is derived from the connections (announced host:port, dialled
   host:port, our calls in flight); an outbound connection dialled through an address other than
   the announced one (TCP relay, NAT, localhost vs 127.0.0.1) belongs to TWO peers.  One atomic
   step per critical section of channel.go / peer.go; operations (connect, accept, close, exchange
   added / removed, Add, Remove, SetStrategy, Get, GetNew, root-list collection) are threads whose
   steps interleave in any order ([srun] over [ESpawn] / [EStep]), on the channel's list and any
   number of isolated sub-channel lists.  [live_score s cl K] = the list's calculator (generated
   from peer_strategies.go) applied to K's current connections and pending calls.
   Gen/GenC15Score.v is regenerated from the source on every run; Proofs/C15ScoreGenP.v proves the
   model's thread programs equal to the compiled statement structure of the Go functions and the
   atomic steps equal to their lock regions.  Proofs: Proofs/C15ScoreP.v. *)
From Verif Require Import Base.GoMap Spec.C15ScoreSpec Gen.GenC15Score Gen.GenC15ScoreFn Model.C15Score Proofs.C15ScoreP Proofs.C15ScoreGenP.

(* no interleaving makes the model panic (heap.Fix / Remove on a stale index, a missing map entry) *)
Theorem C15_score_model_total : forall n es, exists s, srun (s_init n) es = Some s.
Proof. exact srun_total. Qed.
Print Assumptions C15_score_model_total.

(* at EVERY moment of every interleaving: the stored score of every entry of every list is the
   live one, or some running operation still has the re-scoring of exactly this entry ahead of it
   (an onPeerChange on this list for this peer, or an updatePeer that has not passed the list yet) *)
Theorem C15_score_fresh_or_owed : forall n es s, srun (s_init n) es = Some s ->
  forall j cl x, nth_error (ss_lists s) j = Some cl -> In x (pl_arr (cl_pl cl)) ->
    ps_score x = live_score s cl (ps_hp x) \/
    exists t, In t (ss_thr s) /\ owes j (ps_hp x) t = true.
Proof. exact score_fresh_or_owed. Qed.
Print Assumptions C15_score_fresh_or_owed.

(* FRESHNESS: whenever no operation is running, every list (the channel's and every isolated
   sub-channel's, whatever strategy was set) holds for every member -- alias peers included --
   exactly the score its calculator gives the member's live connections and pending calls *)
Theorem C15_score_fresh : forall n es s, srun (s_init n) es = Some s -> quiescent s = true ->
  forall cl x, In cl (ss_lists s) -> In x (pl_arr (cl_pl cl)) -> ps_score x = live_score s cl (ps_hp x).
Proof. exact score_fresh_quiescent. Qed.
Print Assumptions C15_score_fresh.

(* hence Get at a quiescent moment returns a member of the strictest non-empty tier whose LIVE
   score is minimal in that tier (connected before unconnected, fewer pending first by C15_tiers) *)
Theorem C15_get_least_loaded_live : forall n es s, srun (s_init n) es = Some s -> quiescent s = true ->
  forall cl prev d, In cl (ss_lists s) ->
    match pl_get (cl_pl cl) prev d with
    | Some (_, SelOk p, _) =>
        least_loaded (eligible_get prev (pl_keys (cl_pl cl)))
                     (map (fun x => (ps_hp x, live_score s cl (ps_hp x))) (pl_arr (cl_pl cl))) p
    | Some (_, SelNoPeers, _) => pl_keys (cl_pl cl) = []
    | _ => False
    end.
Proof. exact get_least_loaded_live. Qed.
Print Assumptions C15_get_least_loaded_live.

(* THE FAMILY.  Besides the operations of the model, ANY thread program may run ([GProg]), interleaved
   with everything else, as long as it is covered ([good], a decidable syntactic condition): every
   change of a peer's connections or pending calls is followed in the same thread by
   Channel.updatePeer of that very peer (possibly behind a root-list lookup of the same host:port),
   a connection is only added to the peers of its announced / dialled host:port, and a failed test
   skips re-scorings of its own subject only.  Freshness at every quiescent moment, no panic. *)
Theorem C15_score_covered_programs_fresh : forall n gs s, grun (s_init n) gs = Some s -> quiescent s = true ->
  forall cl x, In cl (ss_lists s) -> In x (pl_arr (cl_pl cl)) -> ps_score x = live_score s cl (ps_hp x).
Proof. exact covered_programs_fresh. Qed.
Print Assumptions C15_score_covered_programs_fresh.

Theorem C15_score_covered_programs_total : forall n gs, exists s, grun (s_init n) gs = Some s.
Proof. exact covered_programs_total. Qed.
Print Assumptions C15_score_covered_programs_total.

(* the harness entry point run_c15score runs operations one after the other ([seq_run]); what it
   prints for a quiescent state is therefore the specification: stored score = live score *)
Theorem C15_score_sequential : forall n ops s, seq_run (s_init n) ops = Some s -> quiescent s = true ->
  forall cl x, In cl (ss_lists s) -> In x (pl_arr (cl_pl cl)) -> ps_score x = live_score s cl (ps_hp x).
Proof. exact seq_fresh. Qed.
Print Assumptions C15_score_sequential.

(* ---- ties to the source (Gen/GenC15Score.v) ------------------------------------------------
   the thread programs of the model ARE the statement structure of the Go functions: every peer
   that gains / loses the connection is passed to updatePeer, on the announced AND on the dialled
   host:port; exchangeUpdated re-scores both *)
Theorem C15_score_steps_generated : forall c ann dial,
  compiled c15prog_addToPeer (env_of c false ann dial [] true) c15prog_close = Some (prog_close c ann dial) /\
  (exists p1 p2,
     compiled c15prog_addToPeer (env_of c false ann dial [] true) c15prog_active = Some p1 /\
     compiled c15prog_addToPeer (env_of c false ann dial dial true) c15prog_connectTail = Some p2 /\
     prog_connect c ann dial = p1 ++ p2) /\
  compiled c15prog_addToPeer (env_of c true ann [] [] true) c15prog_active = Some (prog_accept c ann) /\
  compiled c15prog_addToPeer (env_of c false ann dial [] true) c15prog_exch = Some (exch_updated ann dial) /\
  c15prog_updatePeer = [CCall 7 4; CCall 8 4] /\ c15prog_subUpdate = [CLoop [CIf 7 0 [CCall 9 4] []]].
Proof.
  exact (fun c ann dial => conj (close_tie c ann dial) (conj (connect_tie c ann dial)
          (conj (active_tie c true ann []) (conj (exch_tie c ann dial) update_peer_tie)))).
Qed.
Print Assumptions C15_score_steps_generated.

(* the atomic steps ARE the lock regions of peer.go: in Add, onPeerChange, SetStrategy the score is
   computed (GetScore, with the calculator read in the same region) and published (map store,
   updatePeer) under ONE hold of the list's write lock *)
Theorem C15_score_regions_generated :
  (c15reg_listAdd = reg_add /\ c15reg_listExists = reg_exists /\
   c15reg_onPeerChange = reg_on_peer_change /\ c15reg_getPeerScore = reg_get_peer_score /\
   c15reg_setStrategy = reg_set_strategy /\ c15reg_listUpdatePeer = reg_list_update_peer /\
   c15reg_listRemove = reg_remove) /\
  forallb region_safe [c15reg_listAdd; c15reg_listExists; c15reg_onPeerChange; c15reg_setStrategy; c15reg_listRemove] = true.
Proof. exact (conj regions_tie regions_safe). Qed.
Print Assumptions C15_score_regions_generated.

(* the data path inside those regions (statement targets of the classic translator): updatePeer
   always leaves the new score; Add stores GetScore of the peer the root list returned, under the
   host:port, computed in the locked region; onPeerChange's locked region re-scores the entry iff it
   (still) exists, with GetScore of the entry's own peer *)
Theorem C15_score_datapath_generated : forall scores get_score hp p old new,
  c15listUpdateScore old new = new /\
  c15listAddScores scores get_score hp p = (gmap_set scores hp (get_score p), p) /\
  c15listRescore scores get_score hp =
    (if snd (gmap_get scores hp) then gmap_set scores hp (get_score hp) else scores).
Proof.
  exact (fun scores get_score hp p old new =>
           conj (update_score_tie old new) (conj (add_scores_tie scores get_score hp p) (rescore_tie scores get_score hp))).
Qed.
Print Assumptions C15_score_datapath_generated.

(* no other function of the package changes a peer's connection lists, computes or stores a score *)
Theorem C15_score_census_generated : c15_census = census_expected.
Proof. exact census_tie. Qed.
Print Assumptions C15_score_census_generated.

(* ---- the obligations are needed (and the pinned tree broke two of them) ------------------------
   alias peer "a" (a forwarder in front of "r") in the channel's list, connected through the alias:
   closing with "drop from every peer, re-score once" leaves the alias peer ranked as connected
   (2^31-1 instead of 2^64-1) at a quiescent moment; the program is not covered *)
Example C15_example_uncovered_close_stale :
  match seq_run (s_init 0) alias_setup with
  | Some s0 =>
      stale_entries s0 = [] /\ good (ck_of s0) close_rescore_once = false /\
      match run_prog s0 close_rescore_once with
      | Some s1 => quiescent s1 = true /\ stale_entries s1 = [(0%nat, hp_a, 2 ^ 31 - 1, 2 ^ 64 - 1)]
      | None => False
      end
  | None => False
  end.
Proof. exact uncovered_close_goes_stale. Qed.

(* exchangeUpdated as the pinned tree had it (re-score the announced peer only): a call in flight
   over the alias connection leaves the alias peer with the score of an idle connection
   (finding c15:alias-pending-stale, fixed) *)
Example C15_example_uncovered_exch_stale :
  match seq_run (s_init 0) alias_setup with
  | Some s0 =>
      good (ck_of s0) exch_announced_only = false /\
      match run_prog s0 exch_announced_only with
      | Some s1 => quiescent s1 = true /\ stale_entries s1 = [(0%nat, hp_a, 2 ^ 31 - 1, 2 ^ 31)]
      | None => False
      end
  | None => False
  end.
Proof. exact uncovered_exch_goes_stale. Qed.

(* the same history with the model's (= the code's) programs: calls start and finish, the connection
   closes, both peers end as unconnected; the hypotheses of C15_score_fresh are satisfiable *)
Example C15_example_alias_fresh :
  match seq_run (s_init 0) (alias_setup ++ [OExch 1 1; OExch 1 1; OExch 1 (-1); OClose 1]) with
  | Some s =>
      quiescent s = true /\ stale_entries s = [] /\
      map (fun x => (ps_hp x, ps_score x)) (flat_map (fun cl => pl_arr (cl_pl cl)) (ss_lists s)) =
        [(hp_r, 2 ^ 64 - 1); (hp_a, 2 ^ 64 - 1)]
  | None => False
  end.
Proof. exact covered_close_stays_fresh. Qed.

(* lock-region tables that are NOT safe: PeerList.Add scoring the peer before it takes the write
   lock, and onPeerChange as the pinned tree had it (GetScore between the read-locked lookup and
   the write-locked update: finding c15:onpeerchange-lost-update, fixed) *)
Example C15_example_unsafe_regions :
  region_safe [(0, 30); (0, 7); (0, 29); (1, 27); (0, 20); (2, 21); (2, 7); (2, 36); (2, 38); (2, 22); (2, 25); (2, 38); (2, 7)] = false /\
  region_safe [(1, 31); (1, 27); (0, 7); (0, 20); (0, 38); (0, 7); (2, 24); (2, 38)] = false.
Proof. vm_compute. split; reflexivity. Qed.
