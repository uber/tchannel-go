(* Property C18 -- Argument-scheme codecs round-trip and tolerate hostile bytes. *)
From Coq Require Import ZArith List Bool.
From Verif Require Import Base.Wrap Base.Bytes Model.TypedBuf Model.Messages Model.Codecs
  Spec.Protocol Proofs.CodecP Proofs.CodecsP.
Import ListNotations.
Local Open Scope Z_scope.

(* thrift application headers: nh:2 (k~2 v~2)*, for all maps within the 16-bit limits *)
Theorem C18_thrift_write : forall h, kvs16_ok h -> write_theaders h = Some (s_theaders h).
Proof. exact write_theaders_spec. Qed.
Theorem C18_thrift_read : forall h, kvs16_ok h -> h <> [] -> consumes r_theaders (s_theaders h) (Some h).
Proof. exact r_theaders_nonempty. Qed.
Theorem C18_thrift_empty : forall rest, r_theaders (rb (s_theaders [] ++ rest)) = (None, rb rest).
Proof. exact r_theaders_empty. Qed.
Theorem C18_thrift_toolong : forall s w, 65535 < zlen s -> werr w = 0 -> w_len16 s w = mkW (wout w) (wroom w) 2.
Proof. exact w_len16_toolong. Qed.

(* the arg2 iterator: over an encoding it yields exactly the pairs, in order, then EOF;
   over ANY byte buffer what it yields is literally present in the buffer after the count,
   in order, at most `count` pairs and exactly `count` when it ends with EOF *)
Theorem C18_kviter_complete : forall h rest, kvs16_ok h -> kv_iter (s_theaders h ++ rest) = (h, true).
Proof. exact kv_iter_complete. Qed.
Theorem C18_kviter_sound : forall buf ps fin, bytes_ok buf = true -> kv_iter buf = (ps, fin) ->
  (ps = [] /\ (length buf < 2)%nat) \/
  exists count rest, 0 <= count <= 65535 /\ buf = be 2 count ++ flat_map s_pair ps ++ rest /\
    zlen ps <= count /\ (fin = true -> zlen ps = count).
Proof. exact kv_iter_sound. Qed.

(* uvarint as used by the HTTP scheme *)
Theorem C18_uvarint : forall x rest, 0 <= x < 2 ^ 64 -> r_uvarint (rb (put_uvarint 10 x ++ rest)) = (x, rb rest).
Proof. exact uvarint_roundtrip. Qed.

(* HTTP request/response byte layer: round trip within the 10000-byte buffer, multi-valued
   headers as one pair per value in order *)
Theorem C18_http_request : forall method url h,
  zlen method <= 255 -> kvs16_ok (flat_hdrs h) -> zlen (s_http_request method url h) <= http_buf_size ->
  write_http_request method url h = (s_http_request method url h, 0) /\
  read_http_request (s_http_request method url h) = Some (method, url, flat_hdrs h, false).
Proof. exact http_request_roundtrip. Qed.
Theorem C18_http_response : forall status msg h,
  0 <= status < 65536 -> kvs16_ok (flat_hdrs h) -> zlen (s_http_response status msg h) <= http_buf_size ->
  write_http_response status msg h = (s_http_response status msg h, 0) /\
  read_http_response (s_http_response status msg h) = Some (status, msg, flat_hdrs h, false).
Proof. exact http_response_roundtrip. Qed.

(* hostile bytes: for ALL byte strings the HTTP decoders return a value or an error; the
   slice operations behind ReadBytes are guarded for every Go int, negative ones included *)
Theorem C18_total_bytes : forall n r, r_bytes_go n r <> None.
Proof. exact r_bytes_go_total. Qed.
Theorem C18_total_request : forall b, read_http_request b <> None.
Proof. exact read_http_request_total. Qed.
Theorem C18_total_response : forall b, read_http_response b <> None.
Proof. exact read_http_response_total. Qed.

Print Assumptions C18_thrift_read.
Print Assumptions C18_kviter_sound.
Print Assumptions C18_uvarint.
Print Assumptions C18_http_request.
Print Assumptions C18_total_request.

Example C18_example_varint_2_63 :   (* the hostile input that used to panic: length 2^63 *)
  read_http_request ([3; 71; 69; 84] ++ [128;128;128;128;128;128;128;128;128;1] ++ [0; 0]) = Some ([71; 69; 84], [], [], true).
Proof. vm_compute. reflexivity. Qed.
Example C18_example_kviter :
  kv_iter [0; 2; 0; 1; 97; 0; 1; 98; 0; 1; 99; 0] = ([([97], [98])], false).
Proof. vm_compute. reflexivity. Qed.

(* ======================================================================================
   Codec pieces REGENERATED from the source on every run (go2v method translator) and proved
   equal to the hand model above.  Gen/GenCodecs.v: thrift/arg2/kv_iterator.go
   (NewKeyValIterator, Next, Key, Value, Remaining) and http/buf.go readVarintString /
   writeVarintString; Gen/GenTypedBuf.v: typed.ReadBuffer.ReadBytes, NewReadBuffer,
   NewWriteBuffer.  ReadUvarint / WriteUvarint (loops inside encoding/binary) are re-modelled
   by hand over the generated ReadByte / WriteBytes (Model/UvarintG.v) and proved equal to
   r_uvarint / put_uvarint.  Vocabulary: Proofs/GenTypedBufP.v (absR, absW, wfW, viewR, stepW),
   Proofs/GenCodecsP.v (kv_result_ok: what one Next() returns against the model step kv_next:
   io.EOF when the count is exhausted, typed.ErrEOF on a short buffer, else key / value /
   count - 1 / rest of the buffer).
   First clause: the generated ReadBytes equals r_bytes_go for EVERY Go int, so C18_total_bytes
   (no slice panic, negative lengths included) is a statement about the code as it is now:
   removing the `n < 0` test from typed/buffer.go breaks this theorem.
   Still hand-written: http readHeaders / writeHeaders (http.Header = map[string][]string,
   append), thrift WriteHeaders / readHeaders (typed.Reader / io), kv_iter's outer loop (it
   is the caller's loop: Next until an error).
   ====================================================================================== *)
From Verif Require Import Base.GoSem Gen.GenTypedBuf Gen.GenCodecs Model.UvarintG Proofs.GenTypedBufP Proofs.GenCodecsP.

Theorem C18_codecs_generated :
  (forall g n, viewR bs_list (ReadBuffer_ReadBytes g n) = r_bytes_go n (absR g)) /\
  (forall b, option_map absR (NewReadBuffer b) = Some (rb (bs_list b))) /\
  (forall b, exists g, NewWriteBuffer b = Some g /\ wfW g /\ absW g = wb (bs_len b)) /\
  (forall i, bytes_ok (bs_list (KeyValIterator_remaining i)) = true -> KeyValIterator_leftPairCount i < 2 ^ 63 ->
     exists res, KeyValIterator_Next i = Some res /\
                 kv_result_ok res (kv_next (KeyValIterator_leftPairCount i) (bs_list (KeyValIterator_remaining i)))) /\
  (forall buf, bytes_ok (bs_list buf) = true ->
     NewKeyValIterator buf =
       if bs_len buf <? 2 then Some (kv_zero, e_io_EOF)
       else KeyValIterator_Next (mk_KeyValIterator (rd_drop buf 2) (unbe (firstn 2 (bs_list buf))) None None)) /\
  (forall g, viewR (fun v => v) (g_ReadUvarint g) = Some (r_uvarint (absR g))) /\
  (forall g, viewR (fun s => s) (readVarintString g) = r_varint_string (absR g)) /\
  (forall g s, wfW g -> zlen s < 2 ^ 64 -> stepW (writeVarintString g s) g (w_varint_string s)).
Proof.
  exact (conj ReadBytes_go_agrees (conj NewReadBuffer_agrees (conj NewWriteBuffer_agrees (conj KeyValIterator_Next_agrees
          (conj NewKeyValIterator_agrees (conj g_ReadUvarint_agrees (conj readVarintString_agrees writeVarintString_agrees))))))).
Qed.

Print Assumptions C18_codecs_generated.

(* non-vacuity: the generated iterator on the buffer of C18_example_kviter *)
Example C18_example_generated :
  option_map (fun p => (bs_list (KeyValIterator_key (fst p)), bs_list (KeyValIterator_val (fst p)), snd p))
             (NewKeyValIterator (Some [0; 2; 0; 1; 97; 0; 1; 98; 0; 1; 99; 0])) = Some ([97], [98], 0) /\
  option_map snd (match NewKeyValIterator (Some [0; 2; 0; 1; 97; 0; 1; 98; 0; 1; 99; 0]) with
                  | Some (it, _) => KeyValIterator_Next it | None => None end) = Some e_typed_ErrEOF.
Proof. split; vm_compute; reflexivity. Qed.

(* ======================================================================================
   The per-context header slot: contexts that are used for SEVERAL calls.
   A ContextWithHeaders points to one container {request headers, response headers}
   (context_header.go); thrift client.Call, json Client.Call and json wrapCall store the
   response headers of a finished call there.  Spec/HdrPath.v says what a sequence of
   WithHeaders / Child / back-to-parent / call operations must show (an answered call leaves
   exactly ITS handler's response headers, empty included, and the handler sees exactly the
   request headers attached last); Model/HdrSlot.v is the code: request and response headers
   through WriteHeaders / ReadHeaders of the thrift codec above, then the clients' statement
   sequences after the retry loop.  hmap_ok h: h is within the 16-bit limits and in canonical
   form (sorted, distinct keys); [] stands for nil and for the empty map.
   ====================================================================================== *)
From Verif Require Import Base.Wire Spec.HdrPath Model.HdrSlot Proofs.HdrSlotP Gen.GenHdrPath.

(* a header map survives WriteHeaders -> ReadHeaders -> EnsureEmpty -> map *)
Theorem C18_ctx_wire : forall h, hmap_ok h -> thrift_wire h = Some h.
Proof. exact thrift_wire_ok. Qed.

(* for EVERY sequence of operations the model observes exactly what the specification says *)
Theorem C18_ctx_model_is_spec : forall ops, Forall hop_ok ops -> hrun_obs hinit ops = spec_run sinit ops.
Proof. exact hrun_obs_init_spec. Qed.
(* ... hence the harness entry point `hdrseq` computes the specified observation: an
   implementation that disagrees with it on a generated case violates the specification there *)
Theorem C18_ctx_run_is_spec : forall c, Forall hop_ok (fst (take_list take_hop c)) ->
  run_hdrseq c = flat_map put_hobs (spec_run sinit (fst (take_list take_hop c))).
Proof. exact run_hdrseq_spec. Qed.

(* an answered call (handler outcome ok / application error) after ANY earlier operations `pre`
   on the same contexts: the handler saw exactly the current request headers, the caller got the
   handler's outcome, and afterwards the context's response headers are exactly `resp` -- the
   ones THIS handler set, nothing of what earlier calls left *)
Theorem C18_ctx_call_exact : forall pre kind outcome resp,
  Forall hop_ok pre -> hmap_ok resp -> answered outcome = true ->
  let c := fst (hfinal hinit pre) in
  last_obs (hrun_obs hinit (pre ++ [HCall kind outcome resp])) =
  (Some (mkCallObs outcome true (ctx_headers c)), ctx_headers c, resp).
Proof. exact model_call_exact. Qed.

(* history independence: if the CALLER did the same things in two histories (same WithHeaders /
   Child / back-to-parent operations), then whatever calls were made in between, with whatever
   outcomes and response headers, the next answered call shows the same *)
Theorem C18_ctx_history_independent : forall pre1 pre2 kind outcome resp,
  Forall hop_ok pre1 -> Forall hop_ok pre2 -> hmap_ok resp -> answered outcome = true ->
  caller_ops pre1 = caller_ops pre2 ->
  last_obs (hrun_obs hinit (pre1 ++ [HCall kind outcome resp])) =
  last_obs (hrun_obs hinit (pre2 ++ [HCall kind outcome resp])).
Proof. exact model_history_independent. Qed.

(* REGENERATED from the source on every run (go2v statement targets with `After`, Gen/GenHdrPath.v)
   and proved equal to the model: the statements of thrift client.Call after RunWithRetry, of json
   Client.Call after RunWithRetry and of json wrapCall after makeCall (`ctx.SetResponseHeaders(
   respHeaders)` is `let slot := respHeaders`: an answered call stores unconditionally, a failed
   call does not touch the slot), and the slot itself: headerCtx.Headers / ResponseHeaders /
   SetResponseHeaders (replaces; panics without a container) / Child (copy), WrapWithHeaders
   (fresh container without response headers).  Guarding, dropping, moving or merging the store
   breaks this theorem. *)
Theorem C18_ctx_generated :
  (forall slot has_err respHeaders isOK,
     thriftCallTail slot has_err respHeaders isOK = thrift_call_tail slot has_err respHeaders isOK) /\
  (forall slot has_err respHeaders isOK,
     jsonCallTail slot has_err respHeaders isOK = json_call_tail slot has_err respHeaders isOK) /\
  (forall slot has_err respHeaders isOK,
     jsonWrapCallTail slot has_err respHeaders isOK = json_call_tail slot has_err respHeaders isOK) /\
  (forall c, ctxHeaders true (s_req c) (s_resp c) = ctx_headers c) /\
  (forall c, ctxResponseHeaders true (s_req c) (s_resp c) = ctx_resp_headers c) /\
  (forall c h, ctxSetResponseHeaders true (s_req c) (s_resp c) h = Some (s_resp (ctx_set_resp c h))) /\
  (forall c h, ctxSetResponseHeaders false (s_req c) (s_resp c) h = None) /\
  (forall h, ctxWrapWithHeaders h = (s_req (ctx_with_headers h), s_resp (ctx_with_headers h))) /\
  (forall c, ctxChild true (s_req c) (s_resp c) = (s_req (ctx_child c), s_resp (ctx_child c))).
Proof.
  repeat apply conj;
    [ intros slot [] respHeaders isOK | intros slot [] respHeaders [] | intros slot [] respHeaders [] | .. ]; reflexivity.
Qed.

Print Assumptions C18_ctx_model_is_spec.
Print Assumptions C18_ctx_call_exact.
Print Assumptions C18_ctx_history_independent.
Print Assumptions C18_ctx_generated.

(* non-vacuity: hmap_ok is satisfiable; the seed's scenario -- a thrift call whose handler sets
   two headers, then on the same context a call whose handler sets none -- ends with NO response
   headers, through the real codec model *)
Example C18_example_hmap_ok : hmap_ok [([97], [1; 2]); ([98], [])].
Proof. split; [split; [vm_compute; discriminate | repeat constructor; vm_compute; try discriminate; reflexivity] | vm_compute; reflexivity]. Qed.
Example C18_example_ctx_reuse :
  last_obs (hrun_obs hinit [HWith [([114], [113])]; HCall 0 0 [([97], [1; 2]); ([98], [])]; HCall 0 0 []]) =
  (Some (mkCallObs 0 true [([114], [113])]), [([114], [113])], []) /\
  last_obs (hrun_obs hinit [HWith [([114], [113])]; HCall 1 0 [([97], [1; 2])]; HCall 2 1 []]) =
  (Some (mkCallObs 1 true [([114], [113])]), [([114], [113])], []).
Proof. split; vm_compute; reflexivity. Qed.

(* ======================================================================================
   Transport-level keys on the application-header map.
   The caller's tracer serialises its span context INTO the thrift / JSON arg2 header map
   (tracing.go InjectOutboundSpan -> tracingHeadersCarrier.Set: key "$tracing$" ++ k), the callee
   hides those entries again before it builds the handler's context (ExtractInboundSpan ->
   RemoveTracingKeys).  Model/TraceHdr.v is the code; header maps are canonical association lists
   (ksorted = strictly ascending keys = what canon_map produces, C18_trace_canonical);
   app_key kv = the key does NOT start with the prefix;  sets = the pairs the caller's tracer
   passes to carrier.Set (ANY list: any tracer); has_span / nonnil / the callee's tracer: any.
   ====================================================================================== *)
From Verif Require Import Base.GoStrMap Gen.GenConsts Gen.GenTraceHdr Model.TraceHdr Proofs.StrMapP Proofs.TraceHdrP.

Theorem C18_trace_canonical : forall l, canon_map l = l <-> ksorted l.
Proof. exact (fun l => conj (canon_fix_sorted l) (canon_map_fix l)). Qed.

(* RemoveTracingKeys, in whatever order the range loop visits the keys of the map: what is left
   are exactly the entries whose key does not have the prefix *)
Theorem C18_trace_strip_any_order : forall order c,
  (forall kv, In kv c -> In (fst kv) order) -> strip_in order c = filter app_key c.
Proof. exact strip_any_order. Qed.

(* InjectOutboundSpan leaves the application's own entries as they are, whatever the tracer injects *)
Theorem C18_trace_inject_keeps_app : forall has_span sets m, ksorted m ->
  filter app_key (inject_outbound has_span sets m) = filter app_key m.
Proof. exact inject_outbound_app. Qed.

(* ... and the order in which its merge loop ranges over the caller's map does not matter *)
Theorem C18_trace_inject_any_order : forall order has_span sets m, ksorted m -> Permutation.Permutation order m ->
  inject_outbound_in order has_span sets m = inject_outbound has_span sets m.
Proof. exact inject_outbound_any_order. Qed.

(* the request path: the map the handler's context is built from = the caller's map without the
   entries whose key has the prefix -- for every tracer on the caller's side (has_span, sets) and
   independently of the callee's tracer (the result of tracer.Extract and the branch of
   ExtractInboundSpan do not occur: C18_trace_generated shows that the code has no such dependency) *)
Theorem C18_trace_extract_inject : forall has_span sets nonnil m, ksorted m ->
  (nonnil = false -> inject_outbound has_span sets m = []) ->
  extract_inbound nonnil (inject_outbound has_span sets m) = filter app_key m.
Proof. exact extract_inject. Qed.

(* application headers without the prefix reach the handler EXACTLY ... *)
Theorem C18_trace_exact : forall has_span sets nonnil m, ksorted m -> no_reserved m ->
  (nonnil = false -> inject_outbound has_span sets m = []) ->
  extract_inbound nonnil (inject_outbound has_span sets m) = m.
Proof. exact extract_inject_exact. Qed.

(* ... and the clause "exactly" is REFUTED for application keys that themselves start with the
   prefix (known finding c18:reserved-tracing-prefix): they never reach the handler, with or
   without tracers.  The prefix is a reserved name space of the header map. *)
Theorem C18_trace_reserved_refuted :
  exists m, ksorted m /\ kvs16_ok m /\ extract_inbound true (inject_outbound true [] m) <> m.
Proof. exact extract_inject_reserved_refuted. Qed.

(* the calls of the header-slot model (the C18_ctx theorems) with the tracing layer in the request path:
   under ANY tracer configuration a call does to the context and shows to the handler what the
   model without tracers does (the size limits now count the injected entries too) *)
Theorem C18_trace_call_transparent : forall t nonnil c kind outcome resp,
  hmap_ok (s_req c) -> no_reserved (s_req c) ->
  kvs16_ok (inject_outbound (t_span t) (t_sets t) (s_req c)) ->
  (nonnil = false -> inject_outbound (t_span t) (t_sets t) (s_req c) = []) ->
  do_call_tr t nonnil c kind outcome resp = do_call c kind outcome resp.
Proof. exact do_call_tr_transparent. Qed.

(* the harness entry point `tracehdr` computes "the caller's map without the keys that have the
   prefix": an implementation that disagrees with it on a generated case violates that *)
Theorem C18_trace_run_is_spec : forall c kind hs sets m r1 r2 r3 r4,
  take1 c = (kind, r1) -> take1 r1 = (hs, r2) ->
  take_list take_kv r2 = (sets, r3) -> take_list take_kv r3 = (m, r4) ->
  ksorted m -> kvs16_ok (inject_outbound (bz hs) sets m) ->
  run_tracehdr c = put_list put_kv (filter app_key m).
Proof. exact run_tracehdr_spec. Qed.

(* the key cache of tracing_keys.go returns the mapper's value (cache = m.mapping under the read
   lock, cache' under the write lock), and the decoder's slice expression is in range on every key
   that passes the guard of ForeachKey *)
Theorem C18_trace_key_cache : forall mapper cache cache' key,
  cache_sound mapper cache -> cache_sound mapper cache' ->
  snd (map_and_cache mapper cache cache' key) = mapper key /\
  cache_sound mapper (fst (map_and_cache mapper cache cache' key)).
Proof. exact map_and_cache_spec. Qed.
Theorem C18_trace_decode_in_range : forall k, reserved k = true ->
  exists r, k = encode_key r /\ decode_key k = Some r.
Proof. exact decode_reserved. Qed.

(* REGENERATED from the source on every run (go2v/tracetargets.go, Gen/GenTraceHdr.v) and proved
   equal to the model: the two key mappers, both halves of mapAndCache, carrier.Set, one iteration
   of the loops of RemoveTracingKeys / ForeachKey / InjectOutboundSpan and the statements around
   the latter, the WHOLE of ExtractInboundSpan -- for every value of has_span / nonnil /
   extract_ok and every function `strip'` in the place of carrier.RemoveTracingKeys() the result
   is `strip' h` whenever the map is not nil: the call stands on every path -- and the four call
   sites (thrift writeArgs / json makeCall write inject(headers); thrift server.handle / json
   handler.Handle build the handler's context from extract(decoded map)). *)
Theorem C18_trace_generated :
  (forall k, traceEncodeKey k = encode_key k) /\
  (forall k, traceDecodeKey k = decode_key k) /\
  (forall mapper cache cache' key,
     match mapAndCacheFast cache key with
     | Some v => (cache, v)
     | None => mapAndCacheSlow mapper cache' key
     end = map_and_cache mapper cache cache' key) /\
  (forall c k v, carrierSet c k v = carrier_set c k v) /\
  (forall c key, removeKeyStep c key = strip_step c key) /\
  (forall k, foreachKeyVisits k = foreach_visits k) /\
  (forall order has_span sets headers,
     match injectHead has_span sets headers with
     | inl r => r
     | inr nh => injectTail headers (fold_left (fun nh kv => injectMergeStep nh (fst kv) (snd kv)) order nh)
     end = inject_outbound_in order has_span sets headers) /\
  (forall (strip' : kvs -> kvs) has_span nonnil extract_ok h,
     extractInboundHeaders strip' has_span nonnil extract_ok h = if nonnil then strip' h else h) /\
  (forall has_span nonnil extract_ok h,
     extractInboundHeaders strip has_span nonnil extract_ok h = extract_inbound nonnil h) /\
  (forall (inj : kvs -> kvs) h, thriftWrittenHeaders inj h = inj h) /\
  (forall (inj : kvs -> kvs) is_map h, jsonWrittenHeaders inj is_map h = if is_map then inj h else h) /\
  (forall (ex : kvs -> kvs) h, thriftHandlerHeaders ex h = ex h) /\
  (forall (ex : kvs -> kvs) h, jsonHandlerHeaders ex h = ex h).
Proof.
  repeat apply conj;
    [ reflexivity | reflexivity | exact mapAndCache_gen | reflexivity | reflexivity | exact foreachKeyVisits_gen
    | exact injectOutbound_gen | exact extractInbound_gen | exact (extractInbound_gen strip) | reflexivity
    | intros inj [] h; reflexivity | reflexivity | reflexivity ].
Qed.

Print Assumptions C18_trace_extract_inject.
Print Assumptions C18_trace_exact.
Print Assumptions C18_trace_reserved_refuted.
Print Assumptions C18_trace_call_transparent.
Print Assumptions C18_trace_run_is_spec.
Print Assumptions C18_trace_generated.

(* non-vacuity: the seed's scenario -- the caller's tracer injects two ids and a baggage item, the
   application attached {"hdr": "value", "other": ""} -- the wire map has five entries, the handler
   sees the two; and an application key with the prefix is dropped *)
Example C18_example_trace :
  let m := [([104; 100; 114], [118; 97; 108; 117; 101]); ([111; 116; 104; 101; 114], [])] in
  let sets := [([97; 45; 116], [49]); ([97; 45; 115], [50]); ([98], [51])] in
  ksorted m /\ no_reserved m /\
  zlen (inject_outbound true sets m) = 5 /\
  extract_inbound true (inject_outbound true sets m) = m /\
  seen_thrift (mkT true sets false false) m = Some m /\
  seen_thrift (mkT true sets false false) ((c_tracingKeyPrefix ++ [120], [49]) :: m) = Some m.
Proof. vm_compute. repeat split; reflexivity. Qed.

(* ======================================================================================
   The arg2 iterator OFFERED TO RELAY HOSTS: the relay's lazy frame parsers (relay_messages.go).
   A relay parses every call req / call res frame lazily (newLazyCallReq / newLazyCallRes) and
   hands the RelayHost a relay.CallFrame whose Arg2Iterator() / arg2 offsets / Arg2() refer to
   the frame -- a POOLED frame: behind the sized payload the payload array holds whatever an
   earlier frame left there.  Model/RelayLazy.v lazy_callreq (the parser on f.SizedPayload()),
   Model/C18LazyFrame.v (Arg2Iterator / arg2() slice the ARRAY with the parser's 16-bit offsets;
   arg3() slices the sized payload; newLazyCallRes); go_slice = Go's slice expression with its
   panic as None, A2Panic = Arg2Iterator panics.
   Statement: an ACCEPTED frame is one in which every read succeeded, so all offsets lie inside
   the sized payload; hence the iterator cannot panic, cannot show a byte that is not in the
   frame, and yields exactly the pairs present in the arg2 region of the sized payload.
   ====================================================================================== *)
From Verif Require Import Model.RelayLazy Model.C18LazyFrame Proofs.C18LazyP
  Model.C18GoLib Gen.GenMessages Gen.GenC18Lazy Proofs.C18LazyGenP.

(* all offsets of an accepted call req lie inside the sized payload, in order *)
Theorem C18_lazy_offsets : forall p lz, bytes_ok p = true -> zlen p <= 65535 -> lazy_callreq p = (0, lz) ->
  31 <= lz_ctoff lz /\ lz_ctoff lz + 5 <= lz_a2start lz /\
  lz_a2start lz <= lz_a2end lz <= zlen p /\
  (lz_a2frag lz = true -> lz_a2end lz = zlen p /\ lz_a3start lz = 0) /\
  (lz_a2frag lz = false -> lz_a3start lz = lz_a2end lz + 2 /\ lz_a3start lz <= zlen p).
Proof. exact c18_lazy_offsets. Qed.

(* arr = the frame's payload array, n = Header.PayloadSize(): for an accepted frame arg2() and
   arg3() do not panic and ARE the slices of the sized payload; Arg2Iterator does not panic *)
Theorem C18_lazy_arg2_sized : forall arr n lz, bytes_ok arr = true -> 0 <= n <= zlen arr -> n <= 65535 ->
  lazy_callreq (firstn (Z.to_nat n) arr) = (0, lz) ->
  lazy_arg2_arr arr lz = Some (lz_arg2 (firstn (Z.to_nat n) arr) lz) /\
  lazy_arg3_sized (firstn (Z.to_nat n) arr) lz = Some (lz_arg3 (firstn (Z.to_nat n) arr) lz) /\
  lazy_arg2_iter arr lz <> A2Panic.
Proof. exact c18_lazy_arg2_sized. Qed.

(* two frames with the same sized payload offer the same, whatever lies behind it in the arrays *)
Theorem C18_lazy_stale_independent : forall arr arr' n lz, bytes_ok arr = true -> bytes_ok arr' = true ->
  0 <= n <= zlen arr -> 0 <= n <= zlen arr' -> n <= 65535 ->
  firstn (Z.to_nat n) arr = firstn (Z.to_nat n) arr' ->
  lazy_callreq (firstn (Z.to_nat n) arr) = (0, lz) ->
  lazy_arg2_iter arr lz = lazy_arg2_iter arr' lz /\ lazy_arg2_arr arr lz = lazy_arg2_arr arr' lz.
Proof. exact c18_lazy_stale_independent. Qed.

(* the pairs the relay host's iterator yields are literally inside the arg2 region of the sized
   payload, in order; at most the announced count, exactly the count when it ends with io.EOF *)
Theorem C18_lazy_iter_sound : forall arr n lz ps fin, bytes_ok arr = true -> 0 <= n <= zlen arr -> n <= 65535 ->
  lazy_callreq (firstn (Z.to_nat n) arr) = (0, lz) ->
  lazy_arg2_iter arr lz = A2Pairs ps fin ->
  let a2 := lz_arg2 (firstn (Z.to_nat n) arr) lz in
  (ps = [] /\ (length a2 < 2)%nat) \/
  exists count rest, 0 <= count <= 65535 /\ a2 = be 2 count ++ flat_map s_pair ps ++ rest /\
    zlen ps <= count /\ (fin = true -> zlen ps = count).
Proof. exact c18_lazy_iter_sound. Qed.

(* call res: the arg2 a relay host gets is a piece of the sized payload (and its tail when fragmented) *)
Theorem C18_lazyres_arg2 : forall fl p lr, lazy_callres fl p = (0, lr) ->
  exists off, 0 <= off /\ off + zlen (lr_arg2 lr) <= zlen p /\
    lr_arg2 lr = slice p off (off + zlen (lr_arg2 lr)) /\
    (lr_a2frag lr = true -> off + zlen (lr_arg2 lr) = zlen p).
Proof. exact c18_lazyres_arg2. Qed.

(* REGENERATED from the source on every run (go2v/c18lazy.go -> Gen/GenC18Lazy.v: the WHOLE of
   newLazyCallReq and newLazyCallRes with their header loops, Frame.SizedPayload,
   FrameHeader.PayloadSize, ChecksumType.ChecksumSize, hasMoreFragments, lazyCallReq.
   HasMoreFragments / arg2 / arg3 / Arg2Iterator / Arg2StartOffset / Arg2EndOffset) and proved
   equal to the models: for EVERY frame f (payload array not empty, any header size) the generated
   parser does not panic, accepts (error = nil) exactly when the model does -- i.e. exactly when
   every read of the typed.ReadBuffer succeeded, the rbuf.Err() test standing AFTER the last read
   on every path to `return cr, nil` -- and then holds the model's offsets / fields.  An edit
   that returns before the test, drops it, reorders it with a read, or computes an offset
   otherwise breaks this theorem. *)
Theorem C18_lazy_generated :
  (forall f sp, bytes_ok (bs_list (Frame_Payload f)) = true -> 1 <= bs_len (Frame_Payload f) ->
     Frame_SizedPayload f = Some sp ->
     exists cr e, newLazyCallReq f = Some (cr, e) /\
       (e =? 0) = (fst (lazy_callreq (bs_list sp)) =? 0) /\
       (e = 0 -> c18_abs_lazy cr = snd (lazy_callreq (bs_list sp)) /\ lazyCallReq_Frame cr = f)) /\
  (forall f sp, bytes_ok (bs_list (Frame_Payload f)) = true -> Frame_SizedPayload f = Some sp ->
     let fl := nth 0 (bs_list (Frame_Payload f)) 0 in
     exists cr e, newLazyCallRes f = Some (cr, e) /\
       (e =? 0) = (fst (lazy_callres fl (bs_list sp)) =? 0) /\
       (e = 0 -> c18_abs_lazyres cr = snd (lazy_callres fl (bs_list sp)) /\ lazyCallRes_Frame cr = f)) /\
  (forall f, 1 <= bs_len (Frame_Payload f) ->
     Gen.GenC18Lazy.hasMoreFragments f = Some (c18_has_more (Frame_Payload f)) /\
     forall cr, lazyCallReq_Frame cr = f -> lazyCallReq_HasMoreFragments cr = Some (c18_has_more (Frame_Payload f))).
Proof. exact (conj c18_newLazyCallReq_agrees (conj c18_newLazyCallRes_agrees c18_has_more_tie)). Qed.

(* ... hence, about the GENERATED accessors themselves: on a frame the generated parser accepted,
   the generated Arg2Iterator does not panic (None), the generated arg2() / arg3() return the
   slices of the SIZED payload; the generated call res parser's arg2 is a piece of the sized payload *)
Theorem C18_lazy_generated_safe : forall f sp cr,
  bytes_ok (bs_list (Frame_Payload f)) = true -> 1 <= bs_len (Frame_Payload f) ->
  Frame_SizedPayload f = Some sp -> newLazyCallReq f = Some (cr, 0) ->
  exists lz, lazy_callreq (bs_list sp) = (0, lz) /\ c18_abs_lazy cr = lz /\
    lazyCallReq_Arg2Iterator cr <> None /\
    option_map bs_list (lazyCallReq_arg2 cr) = Some (lz_arg2 (bs_list sp) lz) /\
    option_map bs_list (lazyCallReq_arg3 cr) = Some (lz_arg3 (bs_list sp) lz).
Proof. exact c18_gen_lazyreq_safe. Qed.
Theorem C18_lazyres_generated_safe : forall f sp cr,
  bytes_ok (bs_list (Frame_Payload f)) = true -> Frame_SizedPayload f = Some sp ->
  newLazyCallRes f = Some (cr, 0) ->
  exists off, 0 <= off /\ off + bs_len (lazyCallRes_arg2Payload cr) <= bs_len sp /\
    bs_list (lazyCallRes_arg2Payload cr) = slice (bs_list sp) off (off + bs_len (lazyCallRes_arg2Payload cr)) /\
    (lazyCallRes_arg2IsFragmented cr = true -> off + bs_len (lazyCallRes_arg2Payload cr) = bs_len sp).
Proof. exact c18_gen_lazyres_safe. Qed.

Print Assumptions C18_lazy_offsets.
Print Assumptions C18_lazy_iter_sound.
Print Assumptions C18_lazy_generated.
Print Assumptions C18_lazy_generated_safe.
Print Assumptions C18_lazyres_generated_safe.

(* non-vacuity.  The seed's frame: more-fragments flag, as=thrift, the payload ends right after an
   arg2 length of 0xFFFF: rejected (typed.ErrEOF), by the model and by the GENERATED parser; the
   same header with a complete arg2 (one pair k -> v) and the flag: accepted, arg2 fragmented,
   offsets inside, the iterator yields the pair although the array goes on with another pair *)
Definition c18_ex_head (flags : Z) : list Z :=
  [flags; 0; 0; 3; 232] ++ repeat 0 25 ++ [1; 115] ++ [1; 2; 97; 115; 6; 116; 104; 114; 105; 102; 116] ++ [0] ++ [0; 1; 109].
Definition c18_ex_stale : list Z := [0; 1; 0; 1; 88; 0; 1; 89; 7; 7].
Example C18_example_lazy_truncated :
  fst (lazy_callreq (c18_ex_head 1 ++ [255; 255])) = 11 /\
  fst (lazy_callreq (c18_ex_head 1 ++ [0; 24])) = 11 /\
  (let f := mk_Frame (mk_FrameHeader (16 + 49) 3 0 7 []) (Some (c18_ex_head 1 ++ [255; 255] ++ c18_ex_stale)) in
   option_map snd (newLazyCallReq f)) = Some e_typed_ErrEOF.
Proof. vm_compute. repeat split; reflexivity. Qed.
Example C18_example_lazy_accepted :
  let p := c18_ex_head 1 ++ [0; 8] ++ [0; 1; 0; 1; 107; 0; 1; 118] in
  exists lz, lazy_callreq p = (0, lz) /\ lz_a2frag lz = true /\ lz_a2start lz = 49 /\ lz_a2end lz = 57 /\ zlen p = 57 /\
    lazy_arg2_iter (p ++ c18_ex_stale) lz = A2Pairs [([107], [118])] true.
Proof. eexists. vm_compute. repeat split; reflexivity. Qed.
