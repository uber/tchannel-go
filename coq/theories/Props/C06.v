(* Property C06 -- Every protocol message encodes to the specified layout and decodes back.
   Statements only; [writes f bs] = on a buffer with room f appends exactly bs, with too
   little room it fails with ErrBufferFull, errors are sticky; [consumes rd bs v] = on
   bs followed by anything rd returns v and leaves exactly the rest, and on every strict
   prefix of bs it fails. *)
From Coq Require Import ZArith List Bool.
From Verif Require Import Base.Wrap Base.Bytes Gen.GenConsts Gen.GenFrame Model.TypedBuf Model.Messages
  Spec.Protocol Proofs.CodecP Proofs.FrameP.
Import ListNotations.
Local Open Scope Z_scope.

(* message type codes of the code = those of the protocol document *)
Theorem C06_type_codes :
  [c_messageTypeInitReq; c_messageTypeInitRes; c_messageTypeCallReq; c_messageTypeCallRes;
   c_messageTypeCallReqContinue; c_messageTypeCallResContinue; c_messageTypeCancel;
   c_messageTypePingReq; c_messageTypePingRes; c_messageTypeError]
  = [t_init_req; t_init_res; t_call_req; t_call_res; t_call_req_cont; t_call_res_cont; t_cancel;
     t_ping_req; t_ping_res; t_error].
Proof. reflexivity. Qed.

(* ---- (a) layout: bytes produced = independent encoder, for all in-limit values ---- *)
Theorem C06_layout_init : forall m, init_ok m -> writes (w_init m) (s_init (im_version m) (im_params m)).
Proof. exact w_init_writes. Qed.
Theorem C06_layout_callreq : forall m ttl_ms, callreq_ok m ttl_ms ->
  writes (w_callreq m) (s_callreq ttl_ms (spec_span (cq_span m)) (cq_service m) (cq_headers m)).
Proof. exact w_callreq_writes. Qed.
Theorem C06_layout_callres : forall m, callres_ok m ->
  writes (w_callres m) (s_callres (cs_code m) (spec_span (cs_span m)) (cs_headers m)).
Proof. exact w_callres_writes. Qed.
Theorem C06_layout_error : forall m, error_ok m ->
  writes (w_error m) (s_error (em_code m) (spec_span (em_span m)) (em_msg m)).
Proof. exact w_error_writes. Qed.
Theorem C06_layout_cancel : forall m, cancel_ok m ->
  writes (w_cancel m) (s_cancel (cm_ttl m) (spec_span (cm_span m)) (cm_msg m)).
Proof. exact w_cancel_writes. Qed.
Theorem C06_layout_nobody : writes w_nop [].   (* ping req/res, call req/res continue *)
Proof. exact w_nop_writes. Qed.

(* ---- (b)+(c) decode returns the original fields, consumes exactly the encoding, and
        fails on every strict prefix ---- *)
Theorem C06_roundtrip_init : forall m, init_ok m -> consumes r_init (s_init (im_version m) (im_params m)) m.
Proof. exact r_init_consumes. Qed.
Theorem C06_roundtrip_callreq : forall m ttl_ms, callreq_ok m ttl_ms ->
  consumes r_callreq (s_callreq ttl_ms (spec_span (cq_span m)) (cq_service m) (cq_headers m)) m.
Proof. exact r_callreq_consumes. Qed.
Theorem C06_roundtrip_callres : forall m, callres_ok m ->
  consumes r_callres (s_callres (cs_code m) (spec_span (cs_span m)) (cs_headers m)) m.
Proof. exact r_callres_consumes. Qed.
Theorem C06_roundtrip_error : forall m, error_ok m ->
  consumes r_error (s_error (em_code m) (spec_span (em_span m)) (em_msg m)) m.
Proof. exact r_error_consumes. Qed.
Theorem C06_roundtrip_cancel : forall m, cancel_ok m ->
  consumes r_cancel (s_cancel (cm_ttl m) (spec_span (cm_span m)) (cm_msg m)) m.
Proof. exact r_cancel_consumes. Qed.

(* ---- frames: header carries exact size (16 + payload), type and id; reserved bytes 0 ---- *)
Theorem C06_frame_write : forall cap body bs t id,
  writes body bs -> zlen bs <= cap -> cap <= c_MaxFramePayloadSize -> u_ok 1 t ->
  exists h, frame_write cap body t id = Some (h, bs) /\ frame_out h bs = s_frame t id bs.
Proof.
  intros cap body bs t id W H1 H2 Ht. eexists. split; [exact (frame_write_ok cap body bs t id W H1 H2)|].
  apply frame_out_spec; [exact Ht|]. unfold c_MaxFramePayloadSize in H2. 
  exact (Z.le_trans _ _ _ H1 H2).
Qed.
Theorem C06_frame_read : forall t id p rest, u_ok 1 t -> u_ok 4 id -> zlen p <= 65519 ->
  frame_read_in (s_frame t id p ++ rest) = (0, mkFH (16 + zlen p) t 0 id, p, rest).
Proof. exact frame_read_in_spec. Qed.
Theorem C06_frame_prefix : forall t id p pre, u_ok 1 t -> u_ok 4 id -> zlen p <= 65519 ->
  strict_prefix pre (s_frame t id p) -> fst (fst (fst (frame_read_in pre))) = 2.
Proof. exact frame_read_in_prefix. Qed.
(* all 65536 size values: rejected iff below the header size; otherwise payload = size - 16 *)
Theorem C06_size_field : forall size, 0 <= size < 65536 ->
  (PayloadSize size >? c_MaxFramePayloadSize) = (size <? 16) /\ (16 <= size -> PayloadSize size = size - 16).
Proof. exact payload_size_classify. Qed.

(* ---- (d) over-limit values are rejected at encode time, never truncated ---- *)
Theorem C06_overlimit_str8 : forall s w, 255 < zlen s -> zlen s < 2 ^ 62 -> werr w = 0 ->
  w_len8 s w = mkW (wout w) (wroom w) 2.
Proof. exact w_len8_toolong. Qed.
Theorem C06_overlimit_str16 : forall s w, 65535 < zlen s -> werr w = 0 -> w_len16 s w = mkW (wout w) (wroom w) 2.
Proof. exact w_len16_toolong. Qed.
Theorem C06_overlimit_body : forall cap body bs t id, writes body bs -> 0 <= cap < zlen bs ->
  frame_write cap body t id = None.
Proof. exact frame_write_full. Qed.

Print Assumptions C06_layout_callreq.
Print Assumptions C06_roundtrip_callreq.
Print Assumptions C06_roundtrip_init.
Print Assumptions C06_frame_write.
Print Assumptions C06_frame_read.
Print Assumptions C06_frame_prefix.
Print Assumptions C06_size_field.
Print Assumptions C06_overlimit_str8.

(* non-vacuity: a concrete call request *)
Example C06_example :
  let m := mkCallReq (1500 * ms_ns) (mkSpan 1 2 3 1) [115; 118; 99] [([97; 115], [114; 97; 119])] in
  callreq_ok m 1500 /\
  wout (w_callreq m (wb 100)) =
    [0;0;5;220; 0;0;0;0;0;0;0;1; 0;0;0;0;0;0;0;2; 0;0;0;0;0;0;0;3; 1; 3;115;118;99; 1; 2;97;115; 3;114;97;119].
Proof.
  cbv zeta. split; [|vm_compute; reflexivity].
  unfold callreq_ok, span_ok, u_ok, str8_ok, kvs8_ok, str8_ok; cbn.
  repeat split; try (vm_compute; congruence); try constructor; cbn; repeat split; try (vm_compute; congruence); constructor.
Qed.

(* ======================================================================================
   call req / call res INCLUDING the fragment part (checksum type, checksum, arg1~2 arg2~2
   arg3~2), for calls that fit one fragment.

   Vocabulary: Spec/ProtocolCall.v [s_callreq_full], [s_callres_full], [s_csum_input] (the
   independent encoder of the complete payload, literals only); Model/CallWire.v
   [call_frames mt mtc id body kind ops] = the frames reqResWriter puts on the wire:
   newFragment (flags placeholder, message header [body], checksum type, checksum
   placeholder) leaving [frag_capacity] bytes for chunks, the fragmenting writer of
   Model/Frag.v (property C01) run on the script [ops], finish + flushFragment laid out by
   Model/FragWire.v [enc_frag_payload], Frame.WriteOut;
   [fits_one cap a1 a2 a3] = (2+|a1|) + (2+|a2|) + (2+|a3|) <= cap and
   (2+|a1|) + (2+|a2|) + 2 < cap (after arg2 more than a chunk header is left: with an empty
   arg3 and an exact fit the writer opens a second fragment, CallLayoutP.writer_exact_fit_two);
   [kind_ok kind] = checksum kind 0 (none), 1 (crc32), 3 (crc32c);
   [csum_value kind data] = the CRC-32 (IEEE / Castagnoli) of [data] from scratch.
   ====================================================================================== *)
From Verif Require Import Model.Crc Model.Frag Model.FragWire Model.CallWire Spec.ProtocolCall Spec.FragOk
  Proofs.FragWireP Proofs.FragRoundtrip Proofs.CallLayoutP.

(* newFragment leaves exactly frag_capacity = 65519 - (1 + |message header| + 1 + checksum size)
   bytes for chunks (the capacity used in C01_frame_bytes) *)
Theorem C06_fragment_capacity : forall body hdr ck,
  writes body hdr -> 0 <= ck_typecode ck < 256 -> 0 <= frag_capacity hdr ck ->
  new_fragment body ck = Some (hdr, frag_capacity hdr ck).
Proof. exact new_fragment_ok. Qed.

(* for every well-formed call req header, every checksum kind and every three arguments that
   fit the first fragment: exactly ONE frame, of type 0x03, whose payload is the specified
   flags:1(=0) ttl:4 tracing:25 service~1 nh:1 (hk~1 hv~1){nh} csumtype:1 (csum:4){0,1}
   arg1~2 arg2~2 arg3~2 with csum = CRC of arg1 ++ arg2 ++ arg3, and at most 65535 bytes *)
Theorem C06_layout_callreq_full : forall m ttl_ms kind id a1 a2 a3,
  callreq_ok m ttl_ms -> kind_ok kind ->
  fits_one (frag_capacity (s_callreq ttl_ms (spec_span (cq_span m)) (cq_service m) (cq_headers m)) (ck_fresh kind)) a1 a2 a3 ->
  let payload := s_callreq_full 0 ttl_ms (spec_span (cq_span m)) (cq_service m) (cq_headers m)
                   kind (csum_value kind (s_csum_input a1 a2 a3)) a1 a2 a3 in
  call_frames c_messageTypeCallReq c_messageTypeCallReqContinue id (w_callreq m) kind
              (script3 [IWrite a1] [IWrite a2] [IWrite a3])
    = Some [s_frame t_call_req id payload] /\
  zlen (s_frame t_call_req id payload) <= 65535.
Proof. exact callreq_single_layout. Qed.

(* the same for call res: flags:1(=0) code:1 tracing:25 nh:1 (hk~1 hv~1){nh} csumtype:1
   (csum:4){0,1} arg1~2 arg2~2 arg3~2, one frame of type 0x04 *)
Theorem C06_layout_callres_full : forall m kind id a1 a2 a3,
  callres_ok m -> kind_ok kind ->
  fits_one (frag_capacity (s_callres (cs_code m) (spec_span (cs_span m)) (cs_headers m)) (ck_fresh kind)) a1 a2 a3 ->
  let payload := s_callres_full 0 (cs_code m) (spec_span (cs_span m)) (cs_headers m)
                   kind (csum_value kind (s_csum_input a1 a2 a3)) a1 a2 a3 in
  call_frames c_messageTypeCallRes c_messageTypeCallResContinue id (w_callres m) kind
              (script3 [IWrite a1] [IWrite a2] [IWrite a3])
    = Some [s_frame t_call_res id payload] /\
  zlen (s_frame t_call_res id payload) <= 65535.
Proof. exact callres_single_layout. Qed.

(* the checksum field: absent for kind 0, else the big-endian CRC from seed 0 *)
Theorem C06_csum_field : forall data,
  s_csum 0 (csum_value 0 data) = [] /\
  s_csum 1 (csum_value 1 data) = be 4 (crc32_update poly_ieee 0 data) /\
  s_csum 3 (csum_value 3 data) = be 4 (crc32_update poly_castagnoli 0 data).
Proof. exact (fun data => conj eq_refl (conj eq_refl eq_refl)). Qed.

Print Assumptions C06_fragment_capacity.
Print Assumptions C06_layout_callreq_full.
Print Assumptions C06_layout_callres_full.
Print Assumptions C06_csum_field.

(* non-vacuity: the call request of C06_example with arguments "123" "456" "789" and crc32:
   the hypotheses hold and the model emits the frame below; its checksum field cb f4 39 26 is
   the standard CRC-32 check value of "123456789" *)
Example C06_example_call :
  let m := mkCallReq (1500 * ms_ns) (mkSpan 1 2 3 1) [115; 118; 99] [([97; 115], [114; 97; 119])] in
  let a1 := [49; 50; 51] in let a2 := [52; 53; 54] in let a3 := [55; 56; 57] in
  fits_one (frag_capacity (s_callreq 1500 (spec_span (cq_span m)) (cq_service m) (cq_headers m)) (ck_fresh 1)) a1 a2 a3 /\
  call_frames c_messageTypeCallReq c_messageTypeCallReqContinue 7 (w_callreq m) 1
              (script3 [IWrite a1] [IWrite a2] [IWrite a3]) =
  Some [[0;78; 3; 0; 0;0;0;7; 0;0;0;0;0;0;0;0;
         0; 0;0;5;220; 0;0;0;0;0;0;0;1; 0;0;0;0;0;0;0;2; 0;0;0;0;0;0;0;3; 1; 3;115;118;99; 1; 2;97;115; 3;114;97;119;
         1; 203;244;57;38; 0;3;49;50;51; 0;3;52;53;54; 0;3;55;56;57]].
Proof. cbv zeta. split; [unfold fits_one; vm_compute; split; [discriminate|reflexivity]|vm_compute; reflexivity]. Qed.

(* ======================================================================================
   The typed-buffer model is the code: REGENERATED definitions agree with the hand model.

   Gen/GenTypedBuf.v is produced on every run by go2v (method translator) from
   typed/buffer.go: one Gallina function per Go method over the Go state itself
   (ReadBuffer = remaining []byte + err; WriteBuffer = backing array + `remaining` as
   offset/length into it + err), None = the Go code panics (Base/GoSem.v gives the meaning of
   every Go construct used).  Vocabulary (Proofs/GenTypedBufP.v):
     absR g = the model read buffer (bytes of g.remaining, g.err != nil);
     absW g = the model write buffer (bytes written so far, room left, error code);
     wfW g  = g.remaining is a suffix of g.buffer and g.err is nil / ErrBufferFull /
              errStringTooLong (what NewWriteBuffer/Wrap/Reset establish and every method keeps);
     viewR f o = o seen through absR (f on the result);
     stepW o g m = the generated call o does not panic, keeps wfW, and its state seen
              through absW is the model function m applied to absW g.
   Hypotheses are Go typing facts only: a byte argument is 0..255, a []byte holds bytes,
   len(buffer) < 2^63, an int length argument is non-negative where the model takes a nat
   (the negative case is stated separately: error, never a panic or a read).
   ====================================================================================== *)
From Verif Require Import Base.GoSem Gen.GenTypedBuf Proofs.GenTypedBufP.

Theorem C06_typedbuf_generated :
  (* ---- ReadBuffer (typed/buffer.go) ---- *)
  (forall g n, 0 <= n -> viewR bs_list (ReadBuffer_ReadBytes g n) = Some (r_bytes (Z.to_nat n) (absR g))) /\
  (forall g n, n < 0 -> ReadBuffer_err g = 0 ->
     viewR bs_list (ReadBuffer_ReadBytes g n) = Some ([], mkR (rrem (absR g)) true)) /\
  (forall g n, ReadBuffer_ReadBytes g n <> None) /\
  (forall g n, 0 <= n -> option_map absR (ReadBuffer_SkipBytes g n) = Some (snd (r_bytes (Z.to_nat n) (absR g)))) /\
  (forall g n, 0 <= n -> viewR (fun s => s) (ReadBuffer_ReadString g n) = Some (r_string n (absR g))) /\
  (forall g, viewR (fun v => v) (ReadBuffer_ReadSingleByte g) = Some (r_u8 (absR g))) /\
  (forall g, viewR (fun v => v) (ReadBuffer_ReadUint16 g) = Some (r_u16 (absR g))) /\
  (forall g, viewR (fun v => v) (ReadBuffer_ReadUint32 g) = Some (r_u32 (absR g))) /\
  (forall g, viewR (fun v => v) (ReadBuffer_ReadUint64 g) = Some (r_u64 (absR g))) /\
  (forall g, bytes_ok (bs_list (ReadBuffer_remaining g)) = true ->
     viewR (fun s => s) (ReadBuffer_ReadLen8String g) = Some (r_len8 (absR g))) /\
  (forall g, bytes_ok (bs_list (ReadBuffer_remaining g)) = true ->
     viewR (fun s => s) (ReadBuffer_ReadLen16String g) = Some (r_len16 (absR g))) /\
  (forall g, ReadBuffer_BytesRemaining g = Some (zlen (rrem (absR g)))) /\
  (forall g, option_map (fun e => negb (e =? 0)) (ReadBuffer_Err g) = Some (rerr (absR g))) /\
  (* ---- WriteBuffer ---- *)
  (forall g v, wfW g -> 0 <= v < 256 -> stepW (WriteBuffer_WriteSingleByte g v) g (w_u8 v)) /\
  (forall g b, wfW g -> stepW (WriteBuffer_WriteBytes g b) g (w_bytes (bs_list b))) /\
  (forall g s, wfW g -> stepW (WriteBuffer_WriteString g s) g (w_bytes s)) /\
  (forall g v, wfW g -> stepW (WriteBuffer_WriteUint16 g v) g (w_u16 v)) /\
  (forall g v, wfW g -> stepW (WriteBuffer_WriteUint32 g v) g (w_u32 v)) /\
  (forall g v, wfW g -> stepW (WriteBuffer_WriteUint64 g v) g (w_u64 v)) /\
  (forall g s, wfW g -> stepW (WriteBuffer_WriteLen8String g s) g (w_len8 s)) /\
  (forall g s, wfW g -> stepW (WriteBuffer_WriteLen16String g s) g (w_len16 s)) /\
  (forall g e, wfW g -> e = e_typed_ErrBufferFull \/ e = e_typed_errStringTooLong ->
     stepW (WriteBuffer_setErr g e) g (w_seterr (abs_werr e))) /\
  (forall g n, wfW g -> 0 <= n ->
     exists g', WriteBuffer_DeferBytes g n = Some (deferred_ref g n, g') /\ wfW g' /\
                absW g' = w_bytes (repeat 0 (Z.to_nat n)) (absW g)) /\
  (forall g, WriteBuffer_DeferUint16 g = WriteBuffer_DeferBytes g 2 /\ WriteBuffer_DeferUint32 g = WriteBuffer_DeferBytes g 4 /\
             WriteBuffer_DeferUint64 g = WriteBuffer_DeferBytes g 8) /\
  (forall g, wfW g -> WriteBuffer_err g = 0 ->
     exists r g', WriteBuffer_DeferByte g = Some (r, g') /\ wfW g' /\ absW g' = w_bytes [0] (absW g) /\
                  r = (if rs_len (WriteBuffer_remaining g) =? 0 then None else WriteBuffer_remaining g)) /\
  (forall g, WriteBuffer_BytesRemaining g = Some (wroom (absW g))) /\
  (forall g, wfW g -> bs_len (WriteBuffer_buffer g) < 2 ^ 63 -> WriteBuffer_BytesWritten g = Some (zlen (wout (absW g)))) /\
  (forall g, option_map abs_werr (WriteBuffer_Err g) = Some (werr (absW g))) /\
  (forall g, exists g', WriteBuffer_Reset g = Some g' /\ wfW g' /\ absW g' = wb (bs_len (WriteBuffer_buffer g))) /\
  (forall b, exists g', WriteBuffer_Wrap (mk_WriteBuffer None None 0) b = Some g' /\ wfW g' /\ absW g' = wb (bs_len b)) /\
  (* ---- deferred references: Update = patching the bytes written ---- *)
  (forall l pos n, 0 <= pos -> pos + 2 <= zlen l ->
     Uint16Ref_Update (Some l) (Some (mkSref pos 2)) n
       = Some (Some (firstn (Z.to_nat pos) l ++ be 2 n ++ skipn (Z.to_nat pos + 2) l))) /\
  (forall l pos len b, 0 < len ->
     ByteRef_Update (Some l) (Some (mkSref pos len)) b
       = Some (Some (firstn (Z.to_nat pos) l ++ [b] ++ skipn (Z.to_nat pos + 1) l))) /\
  (forall l pos len b, zlen (bs_list b) = len ->
     BytesRef_Update (Some l) (Some (mkSref pos len)) b
       = Some (Some (firstn (Z.to_nat pos) l ++ bs_list b ++ skipn (Z.to_nat pos + length (bs_list b)) l))) /\
  (forall m v, ByteRef_Update m None v = Some m /\ Uint16Ref_Update m None v = Some m).
Proof.
  repeat apply conj;
    [ exact ReadBytes_agrees | exact ReadBytes_negative | exact ReadBytes_total | exact SkipBytes_agrees
    | exact ReadString_agrees | exact ReadSingleByte_agrees | exact ReadUint16_agrees | exact ReadUint32_agrees
    | exact ReadUint64_agrees | exact ReadLen8String_agrees | exact ReadLen16String_agrees | exact BytesRemaining_agrees
    | exact Err_agrees | exact WriteSingleByte_agrees | exact WriteBytes_agrees | exact WriteString_agrees
    | exact WriteUint16_agrees | exact WriteUint32_agrees | exact WriteUint64_agrees | exact WriteLen8String_agrees
    | exact WriteLen16String_agrees | exact setErr_agrees | exact DeferBytes_agrees | exact DeferUint_is
    | exact DeferByte_agrees | exact W_BytesRemaining_agrees | exact BytesWritten_agrees | exact W_Err_agrees
    | exact Reset_agrees | exact (fun b => Wrap_agrees (mk_WriteBuffer None None 0) b (or_introl eq_refl))
    | exact Uint16Ref_Update_patch | exact ByteRef_Update_patch | exact BytesRef_Update_patch
    | exact (fun m v => conj eq_refl eq_refl) ].
Qed.

(* DeferByte is the one write that does not look at the sticky error (stated above under
   err = nil): on an errored buffer with room it still advances.  Witness: *)
Theorem C06_deferbyte_not_sticky :
  let g := mk_WriteBuffer (Some [7]) (Some (mkSref 0 1)) e_typed_errStringTooLong in
  wfW g /\ option_map (fun p => absW (snd p)) (WriteBuffer_DeferByte g) = Some (mkW [0] 0 2) /\
  w_bytes [0] (absW g) = mkW [] 1 2.
Proof. exact DeferByte_ignores_error. Qed.
(* DeferBytes(n) with a negative n panics (slice bounds out of range) *)
Theorem C06_deferbytes_negative_panics : forall g n, n < 0 -> WriteBuffer_err g = 0 ->
  0 <= rs_len (WriteBuffer_remaining g) -> WriteBuffer_DeferBytes g n = None.
Proof. exact DeferBytes_negative_panics. Qed.

Print Assumptions C06_typedbuf_generated.

(* non-vacuity: the generated code run on a concrete buffer, next to the model *)
Example C06_example_generated :
  let g := mk_WriteBuffer (Some [9; 9; 9; 9; 9; 9]) (Some (mkSref 0 6)) 0 in
  wfW g /\
  option_map absW (match WriteBuffer_WriteUint16 g 258 with Some w => WriteBuffer_WriteLen8String w [104; 105] | None => None end)
    = Some ((w_u16 258 >> w_len8 [104; 105]) (wb 6)) /\
  (w_u16 258 >> w_len8 [104; 105]) (wb 6) = mkW [1; 2; 2; 104; 105] 1 0 /\
  viewR (fun s => s) (ReadBuffer_ReadLen8String (mk_ReadBuffer (Some [2; 104; 105; 7]) 0)) = Some ([104; 105], rb [7]).
Proof.
  cbv zeta. split; [split; [cbn; repeat split; vm_compute; congruence|left; reflexivity]|].
  split; [reflexivity|]. split; reflexivity.
Qed.

(* ======================================================================================
   The message codecs are the code: Gen/GenMessages.v is regenerated on every run from
   messages.go (callReq, callRes, errorMessage, cancelMessage, initMessage, transportHeaders,
   noBodyMsg, callResContinue read/write), tracing.go (Span read/write) and frame.go
   (FrameHeader read/write), LOOPS INCLUDED (`for i := 0; i < n; i++` => go_for, `for k, v :=
   range m` => go_range over the map's entries in iteration order, a universally quantified
   list; m[k] = v => the entry appended to the insertion log), calling the generated buffer
   primitives of Gen/GenTypedBuf.v.  Vocabulary (Proofs/GenMessagesP.v):
     absSpan / absCallReq / ... = the model record of a Go message struct (the id field dropped);
     bokR g = the unread bytes of g are bytes (Go typing), kept by every read;
     stepWE o g m = the generated write method o: no panic, wfW kept, new buffer seen through
        absW = m applied to the old view, returned error = the buffer's error;
     stepRE abs o g m = the generated read method o: no panic, (abs message, view of the new
        buffer) = m applied to the old view, bokR kept, returned error = the buffer's error.
   Hypotheses are Go typing facts (a byte field is 0..255) and, for FrameHeader.write, that
   fh.reserved is the zero array (nothing in the library assigns it; read drops the 8 bytes).
   Still hand-written (tied by correspondence only): Frame.write / Frame.read / ReadBody /
   ReadIn / WriteOut (interface-typed message, io.Reader / io.Writer).
   ====================================================================================== *)
From Verif Require Import Gen.GenMessages Proofs.GenMessagesP.

Theorem C06_messages_generated :
  (* ---- write methods (messages.go, tracing.go, frame.go) ---- *)
  (forall s g, wfW g -> 0 <= Span_flags s < 256 -> stepWE (Span_write s g) g (w_span (absSpan s))) /\
  (forall h g, wfW g -> stepW (transportHeaders_write h g) g (w_headers h)) /\
  (forall m g, wfW g -> 0 <= Span_flags (callReq_Tracing m) < 256 ->
     stepWE (callReq_write m g) g (w_callreq (absCallReq m))) /\
  (forall m g, wfW g -> 0 <= Span_flags (callRes_Tracing m) < 256 ->
     stepWE (callRes_write m g) g (w_callres (absCallRes m))) /\
  (forall m g, wfW g -> 0 <= Span_flags (errorMessage_tracing m) < 256 ->
     stepWE (errorMessage_write m g) g (w_error (absError m))) /\
  (forall m g, wfW g -> 0 <= Span_flags (cancelMessage_tracing m) < 256 ->
     stepWE (cancelMessage_write m g) g (w_cancel (absCancel m))) /\
  (forall m g, wfW g -> stepWE (initMessage_write m g) g (Messages.w_init (absInit m))) /\
  (forall h g, wfW g -> 0 <= FrameHeader_reserved1 h < 256 -> FrameHeader_reserved h = repeat 0 8 ->
     stepWE (FrameHeader_write h g) g (w_fheader (absFH h))) /\
  (* ---- read methods ---- *)
  (forall s g, bokR g -> stepRE absSpan (Span_read s g) g r_span) /\
  (forall ch g, bokR g ->
     exists h g', transportHeaders_read ch g = Some (ch ++ h, g') /\ (h, absR g') = r_headers (absR g) /\ bokR g') /\
  (forall m g, bokR g -> stepRE absCallReq (callReq_read m g) g r_callreq) /\
  (forall m g, bokR g -> stepRE absCallRes (callRes_read m g) g r_callres) /\
  (forall m g, bokR g -> stepRE absError (errorMessage_read m g) g r_error) /\
  (forall m g, bokR g -> stepRE absCancel (cancelMessage_read m g) g r_cancel) /\
  (forall m g, bokR g -> stepRE absInit (initMessage_read m g) g Messages.r_init) /\
  (forall h g, bokR g -> stepRE absFH (FrameHeader_read h g) g r_fheader) /\
  (forall h g e h' g', FrameHeader_read h g = Some (e, h', g') -> FrameHeader_reserved h' = FrameHeader_reserved h) /\
  (* ---- messages without a body: ping req/res, call req continue (noBodyMsg), call res continue ---- *)
  (forall x r, noBodyMsg_read x r = Some 0) /\ (forall x w, noBodyMsg_write x w = Some 0) /\
  (forall c r, callResContinue_read c r = Some 0) /\ (forall c w, callResContinue_write c w = Some 0).
Proof.
  repeat apply conj;
    [ exact Span_write_agrees | exact transportHeaders_write_agrees | exact callReq_write_agrees
    | exact callRes_write_agrees | exact errorMessage_write_agrees | exact cancelMessage_write_agrees
    | exact initMessage_write_agrees | exact FrameHeader_write_agrees | exact Span_read_agrees
    | exact transportHeaders_read_agrees | exact callReq_read_agrees | exact callRes_read_agrees
    | exact errorMessage_read_agrees | exact cancelMessage_read_agrees | exact initMessage_read_agrees
    | exact FrameHeader_read_agrees | exact FrameHeader_read_keeps_reserved
    | reflexivity | reflexivity | reflexivity | reflexivity ].
Qed.

Print Assumptions C06_messages_generated.

(* non-vacuity: the generated callReq.write on a concrete message, next to the model, and the
   generated callReq.read of the bytes written *)
Example C06_example_messages_generated :
  let m := mk_callReq 7 (1500 * 1000000) (mk_Span 3 2 1 1) [([97; 115], [114; 97; 119])] [115; 118; 99] in
  let g := mk_WriteBuffer (Some (repeat 0 64)) (Some (mkSref 0 64)) 0 in
  let bytes := [0;0;5;220; 0;0;0;0;0;0;0;1; 0;0;0;0;0;0;0;2; 0;0;0;0;0;0;0;3; 1; 3;115;118;99; 1; 2;97;115; 3;114;97;119] in
  option_map (fun p => (fst p, wout (absW (snd p)))) (callReq_write m g) = Some (0, bytes) /\
  wout (w_callreq (absCallReq m) (wb 64)) = bytes /\
  option_map (fun p => (fst (fst p), absCallReq (snd (fst p)), absR (snd p)))
             (callReq_read (mk_callReq 7 0 (mk_Span 0 0 0 0) [] []) (mk_ReadBuffer (Some (bytes ++ [9])) 0))
    = Some (0, absCallReq m, rb [9]).
Proof. cbv zeta. split; [vm_compute; reflexivity|]. split; vm_compute; reflexivity. Qed.

(* ======================================================================================
   "Frame headers carry the exact ... type and id" for the messages the library sends IN ANSWER
   to a frame: the header of a response carries the id of the request and the type the protocol
   document pairs with it -- init req -> init res, ping req -> ping res, call req -> call res
   (+ call res continue) or error, handshake refusals -> error -- for every id.

   Vocabulary.  Spec/ReplyHdr.v (literals only): s_answer_init / s_answer_ping / s_answer_call /
   s_answer_error id = the (type, id) headers of the answer; s_replyhdr = a scripted connection.
   Model/MsgRun.v: reply_init / reply_init_refused / reply_ping / reply_call / reply_error (one
   function per kind of request, generated type codes), run_replyhdr / run_replyhdr_out = the
   entry points replayed against the implementation by engine "msgreply".
   Proofs/ReplyHdrP.v code_*: the id hand-over chains of the Go code, assembled from definitions
   REGENERATED from the source on every run -- Gen/GenReplySites.v: for each function that builds
   an answer, the list of the id expressions at ALL its sites of one kind (argument of
   getInitMessage / initError / SendSystemError / protocolError / newExchange, key id of pingRes /
   errorMessage / initMessage / cancelMessage literals, key msgID of the exchange, assignments to
   frame.Header.ID / .messageType, index of the exchange map), local variables resolved to their
   definitions; Gen/GenReplyIds.v: ID() and messageType() of every message struct, the header
   assignments of Frame.write, the id readMessage returns, outboundHandshake's id test.
   ctl_hdr t i = the header Frame.write produces for a message reporting type t and id i.
   ====================================================================================== *)
From Verif Require Import Gen.GenReplyIds Gen.GenReplySites Model.MsgRun Spec.ReplyHdr Proofs.ReplySpecP Proofs.ReplyHdrP.

(* the reply-header model is the protocol document's pairing, for every script and every id *)
Theorem C06_reply_spec : forall c, run_replyhdr c = s_replyhdr c.
Proof. exact run_replyhdr_spec. Qed.
Theorem C06_reply_out_spec : forall c, run_replyhdr_out c = s_replyhdr_out 1 c.
Proof. exact run_replyhdr_out_spec. Qed.
(* every header of every answer carries the id of its request *)
Theorem C06_reply_ids : forall id frag,
  Forall (fun h => snd h = id)
         (reply_init id ++ reply_init_refused id ++ reply_ping id ++ reply_call frag id ++ reply_error id).
Proof. exact reply_ids_are_the_requests. Qed.

(* the code's hand-over chains, regenerated from the source, ARE the model's reply headers: for
   the frame id fid read from the request, whatever the other inputs of the functions on the way
   (mm / ie = readMessage's type tests), the init res, the handshake's error frame, the ping res,
   the protocol error of a ping on a closed connection, both refusals of a call req on a closing
   connection, the duplicate-id protocol error, a handler's system error, the first and every
   further response fragment, the id of the decoded call req and the exchange a cancel frame
   cancels all carry exactly fid (and the specified type) *)
Theorem C06_reply_headers_generated :
  (forall mm ie fid, code_reply_init mm ie fid = map Some (reply_init fid)) /\
  (forall mm ie fid, code_reply_init_refused mm ie fid = map Some (reply_init_refused fid)) /\
  (forall fid, code_reply_ping fid = map Some (reply_ping fid)) /\
  (forall fid, code_ping_proto fid = map Some (reply_error fid)) /\
  (forall fid, code_callreq_refusals fid = map Some (reply_error fid ++ reply_error fid)) /\
  (forall fid, code_callreq_proto fid = map Some (reply_error fid)) /\
  (forall fid, code_handler_error fid = map Some (reply_error fid)) /\
  (forall (frag : bool) fid, code_fragment true fid ++ (if frag then code_fragment false fid else []) = reply_call frag fid) /\
  (forall fid, map callReq_ID (callReqMsgIds fid) = [fid]) /\
  (forall fid, cancelLookupIds fid = [fid]).
Proof.
  exact (conj code_reply_init_ok (conj code_reply_init_refused_ok (conj code_reply_ping_ok (conj code_ping_proto_ok
          (conj code_callreq_refusals_ok (conj code_callreq_proto_ok (conj code_handler_error_ok (conj code_fragment_ok
          (conj code_callreq_msg_id_ok code_cancel_lookup_ok))))))))).
Qed.

(* the connecting side: the init req carries out_init_id (= 1), a refused init res is answered
   with an error frame of that id, an init res is accepted exactly when it carries that id, and
   the cancel frame sent for a call carries the id of the call's exchange *)
Theorem C06_out_headers_generated :
  code_out_init_req = [Some (c_messageTypeInitReq, out_init_id)] /\
  code_out_init_err = [Some (c_messageTypeError, out_init_id)] /\
  (forall id, map (outboundInitResAccept id) (flat_map getInitMessageIds outboundInitReqIds) = [out_accepts id]) /\
  (forall id, out_accepts id = true <-> id = out_init_id) /\
  (forall mex_id, code_cancel_sent mex_id = [Some (c_messageTypeCancel, mex_id)]).
Proof.
  exact (conj code_out_init_req_ok (conj code_out_init_err_ok (conj code_out_accept_ok
          (conj (fun id => Z.eqb_eq id out_init_id) code_cancel_sent_ok)))).
Qed.

(* messageType() of every message struct = the code of the protocol document; Frame.write copies
   the message's id and type into the header unchanged; readMessage hands the handshake the id of
   the frame it read (0 only when no frame could be read) *)
Theorem C06_message_types_generated :
  [initReq_messageType; initRes_messageType; callReq_messageType; callRes_messageType;
   callReqContinue_messageType; callResContinue_messageType; cancelMessage_messageType;
   pingReq_messageType; pingRes_messageType; errorMessage_messageType]
  = [1; 2; 3; 4; 19; 20; 192; 208; 209; 255].
Proof. exact message_types_ok. Qed.
Theorem C06_frame_write_header : forall failed t i,
  frameWriteType failed t = (if failed then None else Some t) /\ frameWriteId failed i = (if failed then None else Some i).
Proof. exact frame_write_hdr. Qed.
Theorem C06_read_message_id : forall rf mm ie fid, readMessageId rf mm ie fid = if rf then 0 else fid.
Proof. exact read_message_id. Qed.

(* no other place of the package writes a header id / type, sends an error frame or builds an
   id-carrying message: every such site (table regenerated from the source) is in a function of
   the chains above -- whose site lists are complete (counts agree) --, in a function that only
   decodes a received frame or originates a request, or in relay.go *)
Theorem C06_reply_sites_closed :
  forallb rid_row_ok reply_id_table = true /\
  forallb (fun e : String.string * Z * nat => let '(fn, kind, n) := e in Nat.eqb (rid_count fn kind) n) rid_expected = true.
Proof. exact reply_id_table_covered. Qed.

Print Assumptions C06_reply_spec.
Print Assumptions C06_reply_sites_closed.
Print Assumptions C06_reply_headers_generated.
Print Assumptions C06_out_headers_generated.
Print Assumptions C06_read_message_id.

(* non-vacuity: a connection opened with init req id 0xFFFFFFFE, a ping with id 0, a fragmented
   answer to call 0x01000000, two calls 7 and 2 answered in reverse order *)
Example C06_example_reply :
  run_replyhdr [0; 4294967294;  0; 0; 0;  2; 16777216; 0;  4; 7; 2]
  = [2; 4294967294;  209; 0;  4; 16777216; 20; 16777216;  4; 2; 4; 7] /\
  run_replyhdr [1; 7] = [255; 7] /\
  run_replyhdr_out [0; 2] = [1; 1; 1; 192; 2] /\ run_replyhdr_out [4294967295; 0] = [1; 1; 0; 255; 1] /\
  code_reply_init false false 4294967294 = [Some (2, 4294967294)].
Proof. repeat split; vm_compute; reflexivity. Qed.

(* ======================================================================================
   SECONDARY, IN-PLACE decoders / encoders of message fields.  Next to the read / write method of
   every message the library reads (and once overwrites) single fields straight at their offset
   in a frame's payload: messages.go callReqSpan (the tracing of a call req a closing connection
   or a relay answers with an error frame), relay_messages.go lazyCallReq.Span / TTL / SetTTL /
   Service / HasMoreFragments, lazyError.Code, isCallResOK / lazyCallRes.OK, hasMoreFragments,
   finishesCall, frame.go SizedPayload.  "Decoding returns the original fields, for every span bit
   pattern" and "the bytes equal the specification's" hold for them too:

   Vocabulary.  Spec/C06InPlaceSpec.v (literals only, field encoders of Spec/Protocol.v):
     s_ip_callreq flags ttl_ms tracing service rest = flags:1 ttl:4 tracing:25 service~1 rest
     (the complete call req of Spec/ProtocolCall.v is the instance rest = headers ++ csumtype ...),
     s_ip_callres flags code rest = flags:1 code:1 rest, s_ip_more = bit 0x01 of the flags,
     s_ip_finishes = "this frame ends the call", s_run_c06inplace = the specified observable of a
     harness case (the case carries FIELDS).
   Model/C06InPlace.v: ip_span / ip_ttl / ip_set_ttl / ip_service / ip_more / ip_err_code /
     ip_res_ok / ip_finishes / ip_error_payload = one definition per Go function over the payload
     bytes at the GENERATED offsets (None = the Go code panics); run_c06inplace = the accessors run
     on the payload the specification encoder lays out (engine c06inplace replays it on the real code).
   Gen/GenC06InPlace.v (go2v/c06inplace.go, regenerated on every run): ip_callReqSpan, ip_lazyCallReq_*
     ... = the Go functions themselves; ip_frame h p = a Frame with header h and payload bytes p.
   ====================================================================================== *)
From Verif Require Import Gen.GenC06InPlace Spec.C06InPlaceSpec Model.C06InPlace Proofs.C06InPlaceP Proofs.C06InPlaceGenP.

(* the offsets used by the code are the places of the specified layout *)
Theorem C06_inplace_offsets :
  [c_u_flagsIndex; c_u_ttlIndex; c_u_ttlLen; c_u_spanIndex; c_u_spanLength; c_u_serviceLenIndex; c_u_serviceNameIndex;
   c_u_resCodeIndex; c_u_resCodeOK; c_u_errCodeIndex; c_hasMoreFragmentsFlag]
  = [0; 1; 4; 5; 25; 30; 31; 1; 0; 0; 1].
Proof. exact ip_offsets. Qed.

(* for every call req laid out by the specification -- every span bit pattern, every ttl, every
   service name, anything behind it -- the in-place decoders return the fields: the span in WIRE
   order (spanid, parentid, traceid, flags), the ttl in ns, the service name; SetTTL changes the
   ttl field and nothing else; the error frame built for the call carries the call's tracing *)
Theorem C06_inplace_callreq : forall flags ttl_ms a b c d service rest,
  u_ok 8 a -> u_ok 8 b -> u_ok 8 c -> u_ok 1 d -> 0 <= ttl_ms < 4294967296 -> zlen service <= 255 ->
  let tr := s_tracing a b c d in
  let p := s_ip_callreq flags ttl_ms tr service rest in
  ip_span p = Some (mkSpan a b c d) /\
  ip_ttl p = Some (ttl_ms * 1000000) /\
  ip_service p = Some service /\
  (forall dns, 0 <= dns < 4294967296000000 ->
     ip_set_ttl p dns = Some (s_ip_callreq flags (dns / 1000000) tr service rest)) /\
  (forall code msg, 0 <= code < 256 -> zlen msg <= 65491 -> bytes_ok msg = true ->
     ip_error_payload p code msg = Some (s_error code tr msg)).
Proof.
  intros flags ttl_ms a b c d service rest Ha Hb Hc Hd Ht Hs. pose proof (conj Ha (conj Hb (conj Hc Hd))) as Hsp.
  exact (conj (ip_span_spec flags ttl_ms a b c d service rest Hsp) (conj (ip_ttl_spec flags ttl_ms a b c d service rest Ht)
          (conj (ip_service_spec flags ttl_ms a b c d service rest Hs) (conj (ip_set_ttl_spec flags ttl_ms a b c d service rest)
          (ip_error_payload_spec flags ttl_ms a b c d service rest Hsp))))).
Qed.

(* the flag / code bytes: more-fragments bit, "ends the call", call res ok, error code *)
Theorem C06_inplace_bytes :
  (forall flags r, 0 <= flags < 256 -> ip_more (flags :: r) = Some (s_ip_more flags)) /\
  (forall mtype flags r, 0 <= flags < 256 -> ip_finishes mtype (flags :: r) = Some (s_ip_finishes mtype flags)) /\
  (forall flags code r, ip_res_ok (s_ip_callres flags code r) = Some (code =? 0)) /\
  (forall code tr msg, 0 <= code < 256 -> ip_err_code (s_error code tr msg) = Some code).
Proof. exact (conj ip_more_spec (conj ip_finishes_spec (conj ip_res_ok_spec ip_err_code_spec))). Qed.

(* the entry point the engine replays against the implementation IS the specified observable *)
Theorem C06_inplace_spec : forall c, run_c06inplace c = s_run_c06inplace c.
Proof. exact run_c06inplace_spec. Qed.

(* the model is the code: every in-place function REGENERATED from the source agrees with its
   model definition, on every frame (header h, payload bytes p); no panic iff the model has a value *)
Theorem C06_inplace_generated :
  (forall h p, bytes_ok p = true -> option_map absSpan (ip_callReqSpan (ip_frame h p)) = ip_span p) /\
  (forall h p, bytes_ok p = true -> option_map absSpan (ip_lazyCallReq_Span (mk_lazyCallReq (ip_frame h p))) = ip_span p) /\
  (forall h p, ip_lazyCallReq_TTL (mk_lazyCallReq (ip_frame h p)) = ip_ttl p) /\
  (forall h p d,
     option_map (fun r => (Frame_Header (lazyCallReq_Frame r), bs_list (Frame_Payload (lazyCallReq_Frame r))))
                (ip_lazyCallReq_SetTTL (mk_lazyCallReq (ip_frame h p)) d) = option_map (fun q => (h, q)) (ip_set_ttl p d)) /\
  (forall h p, option_map bs_list (ip_lazyCallReq_Service (mk_lazyCallReq (ip_frame h p))) = ip_service p) /\
  (forall h p, ip_hasMoreFragments (ip_frame h p) = ip_more p /\
               ip_lazyCallReq_HasMoreFragments (mk_lazyCallReq (ip_frame h p)) = ip_more p) /\
  (forall h p, ip_lazyError_Code (mk_lazyError (ip_frame h p)) = ip_err_code p) /\
  (forall h p, ip_isCallResOK (ip_frame h p) = ip_res_ok p /\ ip_lazyCallRes_OK (mk_lazyCallRes (ip_frame h p)) = ip_res_ok p) /\
  (forall h p, ip_finishesCall (ip_frame h p) = ip_finishes (FrameHeader_messageType h) p) /\
  (forall h p, option_map bs_list (ip_Frame_SizedPayload (ip_frame h p)) = ip_slice p 0 (wrapU 16 (FrameHeader_size h - 16))).
Proof.
  exact (conj gen_callReqSpan (conj gen_lazyCallReq_Span (conj gen_lazyCallReq_TTL (conj gen_lazyCallReq_SetTTL
          (conj gen_lazyCallReq_Service (conj gen_hasMoreFragments (conj gen_lazyError_Code (conj gen_isCallResOK
          (conj gen_finishesCall gen_SizedPayload))))))))).
Qed.

(* composed: the REGENERATED callReqSpan / lazyCallReq.Span on a call req laid out by the
   specification return a Go Span whose spanID / parentID / traceID / flags are the specification's
   spanid / parentid / traceid / traceflags -- for every bit pattern *)
Theorem C06_inplace_span_generated : forall h flags ttl_ms a b c d service rest,
  u_ok 8 a -> u_ok 8 b -> u_ok 8 c -> u_ok 1 d -> 0 <= flags < 256 ->
  zlen service <= 255 -> bytes_ok service = true -> bytes_ok rest = true ->
  let f := ip_frame h (s_ip_callreq flags ttl_ms (s_tracing a b c d) service rest) in
  exists s, ip_callReqSpan f = Some s /\ ip_lazyCallReq_Span (mk_lazyCallReq f) = Some s /\
            Span_spanID s = a /\ Span_parentID s = b /\ Span_traceID s = c /\ Span_flags s = d.
Proof. exact gen_span_on_spec. Qed.

(* ... and the REGENERATED errorMessage.write of the error frame SendSystemError builds with that
   span appends code:1, THE CALL REQ'S 25 tracing bytes, message~2 *)
Theorem C06_inplace_error_frame_generated : forall h flags ttl_ms a b c d service rest,
  u_ok 8 a -> u_ok 8 b -> u_ok 8 c -> u_ok 1 d -> 0 <= flags < 256 ->
  zlen service <= 255 -> bytes_ok service = true -> bytes_ok rest = true ->
  forall s id code msg g,
  ip_callReqSpan (ip_frame h (s_ip_callreq flags ttl_ms (s_tracing a b c d) service rest)) = Some s ->
  wfW g -> 0 <= code < 256 -> zlen msg <= 65535 -> bytes_ok msg = true ->
  WriteBuffer_err g = 0 -> zlen (s_error code (s_tracing a b c d) msg) <= rs_len (WriteBuffer_remaining g) ->
  exists e g', errorMessage_write (mk_errorMessage id code s msg) g = Some (e, g') /\
               wout (absW g') = wout (absW g) ++ s_error code (s_tracing a b c d) msg /\ werr (absW g') = 0.
Proof. exact gen_error_frame_on_spec. Qed.

(* the in-place parts of the relay's hand model (Model/RelayLazy.v: C08 / C14) are the same functions *)
Theorem C06_inplace_relay_model : forall p, 30 <= zlen p ->
  ip_span p = Some (RelayLazy.span_of p) /\
  ip_ttl p = Some (GenRelayFwd.lazyTTL (RelayLazy.lazy_ttl_ms p)) /\
  (forall d, ip_set_ttl p d = Some (RelayLazy.set_ttl p d)).
Proof. exact ip_relaylazy_agree. Qed.

Print Assumptions C06_inplace_callreq.
Print Assumptions C06_inplace_spec.
Print Assumptions C06_inplace_generated.
Print Assumptions C06_inplace_span_generated.
Print Assumptions C06_inplace_error_frame_generated.

(* non-vacuity: a call req with a NON-ROOT span (span id 0x2122..28, parent 0x1112..18, trace
   0x0102..08), more-fragments flag set, ttl 1500 ms, service "svc": the regenerated decoders on
   the specified bytes, and the tracing bytes of the error frame *)
Example C06_example_inplace :
  let a := 2387509390608836392 in let b := 1230066625199609624 in let c := 72623859790382856 in
  let p := s_ip_callreq 1 1500 (s_tracing a b c 1) [115; 118; 99] [0; 0; 0; 0; 0; 0; 0; 0; 0] in
  let f := ip_frame (mk_FrameHeader 56 3 0 7 (repeat 0 8)) p in
  ip_callReqSpan f = Some (mk_Span c b a 1) /\
  ip_lazyCallReq_TTL (mk_lazyCallReq f) = Some 1500000000 /\
  option_map bs_list (ip_lazyCallReq_Service (mk_lazyCallReq f)) = Some [115; 118; 99] /\
  ip_hasMoreFragments f = Some true /\ ip_finishesCall f = Some false /\
  ip_error_payload p 3 [98; 117; 115; 121]
    = Some ([3; 33;34;35;36;37;38;39;40; 17;18;19;20;21;22;23;24; 1;2;3;4;5;6;7;8; 1; 0;4; 98;117;115;121]) /\
  run_c06inplace ([0; 1; 1500; 555885348; 623257384; 286397204; 353769240; 16909060; 84281096; 1; 2000000000; 3]
                  ++ [3; 115; 118; 99] ++ [1; 0] ++ [4; 98; 117; 115; 121])
    = [0; 555885348; 623257384; 286397204; 353769240; 16909060; 84281096; 1; 1500000000; 1; 0; 3; 115; 118; 99]
      ++ [35; 1; 0;0;7;208; 33;34;35;36;37;38;39;40; 17;18;19;20;21;22;23;24; 1;2;3;4;5;6;7;8; 1; 3;115;118;99; 0]
      ++ [32; 3; 33;34;35;36;37;38;39;40; 17;18;19;20;21;22;23;24; 1;2;3;4;5;6;7;8; 1; 0;4; 98;117;115;121].
Proof. cbv zeta. repeat split; vm_compute; reflexivity. Qed.
