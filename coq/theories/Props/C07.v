(* Property C07 -- Graceful close drains in-flight calls, rejects new ones, then terminates.
   This file contains only statements, each closed by [exact].

   Three interleaving systems (Model/ConnClose.v: one connection; Model/ChanClose.v: the channel
   over its connections; Model/ListenerClose.v: the tnet listener wrapper).  [Reach step init s]
   = s is reached by SOME finite interleaving of thread starts (any number of closers, failers,
   call requests with any ids, callers, exchange removals/expiries, relayed calls, ...) and atomic
   thread steps: the theorems quantify over all of them.

   The models describe the REPAIRED code (three fix: commits): Channel.Close only raises the state;
   handleCallReq's re-check branch answers with the declined error; connectionCloseStateChange
   applies its update whenever it raises the state. *)
From Coq Require Import ZArith List Bool.
From Verif Require Import Base.Wrap Gen.GenConsts Model.CloseKernel Model.ConnClose Model.ChanClose
  Model.ListenerClose Proofs.ConnCloseP Proofs.ChanCloseP Proofs.ListenerCloseP.
Import ListNotations.
Local Open Scope Z_scope.

(* ---- (e) states only move forward --------------------------------------------------- *)

(* Connection: between any two points of any run the state (generated numeric order
   Active=1 < StartClose=2 < InboundClosed=3 < Closed=4) does not decrease and stays in range. *)
Theorem C07_conn_monotone : forall relay ls1 ls2 s1 s2,
  run ConnClose.step (ConnClose.init relay) ls1 = Some s1 -> run ConnClose.step s1 ls2 = Some s2 ->
  st (sh s1) <= st (sh s2) /\ c_connectionActive <= st (sh s1) /\ st (sh s2) <= c_connectionClosed.
Proof. exact conn_monotone. Qed.
Print Assumptions C07_conn_monotone.

(* Channel: same for Client=1 < Listening=2 < StartClose=3 < InboundClosed=4 < Closed=5, under any
   interleaving of any number of Close calls, callbacks, new connections and connection moves. *)
Theorem C07_chan_monotone : forall ls1 ls2 s1 s2,
  run cstep cinit ls1 = Some s1 -> run cstep s1 ls2 = Some s2 ->
  chst (csh s1) <= chst (csh s2) /\ c_ChannelClient <= chst (csh s1) /\ chst (csh s2) <= c_ChannelClosed.
Proof. exact chan_monotone. Qed.
Print Assumptions C07_chan_monotone.

(* ---- (d) closed is signalled exactly once ------------------------------------------- *)

Theorem C07_conn_signal_once : forall relay s, Reach ConnClose.step (ConnClose.init relay) s ->
  0 <= g_stop_closes (sh s) <= 1 /\
  (st (sh s) <> sCl -> g_stop_closes (sh s) = 0 /\ owed s = 0) /\
  (st (sh s) = sCl -> g_stop_closes (sh s) + owed s = 1) /\
  (st (sh s) = sCl -> (forall n p, nth_error (thr s) n = Some p -> is_pce9 p = false) -> g_stop_closes (sh s) = 1).
Proof. exact conn_signal_once. Qed.
Print Assumptions C07_conn_signal_once.

Theorem C07_chan_signal_once : forall s, Reach cstep cinit s ->
  0 <= g_closed (csh s) <= 1 /\
  (chst (csh s) <> hCl -> g_closed (csh s) = 0 /\ cowed s = 0) /\
  (chst (csh s) = hCl -> g_closed (csh s) + cowed s = 1) /\
  (chst (csh s) = hCl -> (forall n p, nth_error (cthr s) n = Some p -> cowing p = false) -> g_closed (csh s) = 1).
Proof. exact chan_signal_once. Qed.
Print Assumptions C07_chan_signal_once.

(* ---- (a) accepted calls keep the connection / channel open --------------------------- *)

(* Without a connection failure: a dispatched inbound call whose exchange is still registered
   keeps the connection <= StartClose, a begun outbound call keeps it <= InboundClosed, the relay
   pending counter is exactly the number of admitted unfinished relayed calls and keeps the
   connection <= StartClose while non-zero. *)
Theorem C07_drain : forall relay s, Reach ConnClose.step (ConnClose.init relay) s -> stopped (sh s) = false ->
  ((exists id, In (id, true) (inb (sh s))) -> st (sh s) <= sSC) /\
  ((exists id, In (id, true) (outb (sh s))) -> st (sh s) <= sIC) /\
  pending (sh s) = zlen (g_live (sh s)) /\
  (g_live (sh s) <> [] -> st (sh s) <= sSC).
Proof. exact conn_drain. Qed.
Print Assumptions C07_drain.

(* The channel never reports more progress than its slowest tracked connection. *)
Theorem C07_chan_drain : forall s, Reach cstep cinit s ->
  (hIC <= chst (csh s) -> forall c, In c (conns (csh s)) -> kIC <= cstate (csh s) c) /\
  (chst (csh s) = hCl -> forall c, In c (conns (csh s)) -> cstate (csh s) c = kCl).
Proof. exact chan_drain. Qed.
Print Assumptions C07_chan_drain.

(* ---- (b) calls arriving after Close are declined, never served, never dropped ---------- *)

(* Every finished handler of a call req [id] that did not dispatch the call queued exactly one
   error frame, (id, Declined) -- or (id, Protocol) on the duplicate-id path --, or queued none
   and the connection is Closed; a dispatched call produced no error frame. *)
Theorem C07_refuse : forall relay s n o id, Reach ConnClose.step (ConnClose.init relay) s ->
  nth_error (thr s) n = Some (PDone o id) ->
  ((o = oRefused1 \/ o = oRefused2 \/ o = oRelRefused) -> answered (sh s) n id eDeclined) /\
  (o = oProto -> answered (sh s) n id eProtocol) /\
  (o = oDispatched -> replies_of n (sh s) = []).
Proof. exact conn_refuse. Qed.
Print Assumptions C07_refuse.

(* Once the state is not Active both state tests of handleCallReq and the relay admission take
   the refusing branch, whose next step is the SendSystemError of ErrChannelClosed. *)
Theorem C07_refuse_steps : forall s n id, st s <> sA ->
  tstep s n (PR1 id) = Some (s, PRRef id) /\
  tstep s n (PR3 id) = Some (s, PR4 id) /\
  tstep s n (PRel1 id false) = Some (s, PRelRef id) /\
  tstep s n (PRRef id) = Some (send_err s n id eDeclined, PDone oRefused1 id) /\
  tstep s n (PR4 id) = Some (send_err s n id eDeclined, PR5 id) /\
  tstep s n (PRelRef id) = Some (send_err s n id eDeclined, PDone oRelRefused id).
Proof. exact conn_refuse_steps. Qed.
Print Assumptions C07_refuse_steps.

(* A handleCallReq thread can only finish dispatched / refused (first check) / refused (re-check) /
   protocol error: there is no path on which the request is dropped without one of these. *)
Theorem C07_reader_outcomes : forall id,
  reader_pc id (start_pc (TReader id)) = true /\
  (forall s n p s' p', reader_pc id p = true -> tstep s n p = Some (s', p') -> reader_pc id p' = true) /\
  (forall o i, reader_pc id (PDone o i) = true ->
     i = id /\ (o = oDispatched \/ o = oRefused1 \/ o = oRefused2 \/ o = oProto)).
Proof. exact conn_reader_outcomes. Qed.
Print Assumptions C07_reader_outcomes.

(* ---- (c) new outbound calls / connections fail locally -------------------------------- *)

Theorem C07_outbound_local :
  (forall s n, st s <> sA -> tstep s n PC1 = Some (s, PDone oCClosed1 0)) /\
  (forall s n id, st s <> sA -> tstep s n (PC3 id) = Some (s, PC4 id)) /\
  (forall s n id, exists s', tstep s n (PC4 id) = Some (s', if has_key id (outb s) then PCE0 (KDone oCClosed2 id) else PDone oCClosed2 id)
                   /\ has_key id (outb s') = false /\ st s' = st s /\ inb s' = inb s) /\
  (forall relay s, Reach ConnClose.step (ConnClose.init relay) s -> forall id,
     (In (id, false) (outb (sh s)) -> exists n, nth_error (thr s) n = Some (PC3 id) \/ nth_error (thr s) n = Some (PC4 id)) /\
     (In (id, false) (inb (sh s)) -> exists n, nth_error (thr s) n = Some (PR3 id) \/ nth_error (thr s) n = Some (PR4 id)
                                             \/ nth_error (thr s) n = Some (PR5 id))).
Proof. exact conn_outbound_local. Qed.
Print Assumptions C07_outbound_local.

Theorem C07_connect_local : forall s arg, hSC <= chst s ->
  ctstep s PConn arg = Some (s, CDone oConnErr) /\
  (forall c, ctstep s (PAd1 c) arg = Some (s, PAd2 c)).
Proof. exact chan_connect_local. Qed.
Print Assumptions C07_connect_local.

(* ---- (d) nothing in flight => Closed -------------------------------------------------- *)

Theorem C07_conn_reaches_closed : forall relay s, Reach ConnClose.step (ConnClose.init relay) s ->
  st (sh s) <> sA ->
  (forall n p, nth_error (thr s) n = Some p -> exists o id, p = PDone o id) ->
  inb (sh s) = [] -> outb (sh s) = [] -> pending (sh s) = 0 ->
  st (sh s) = sCl /\ g_stop_closes (sh s) = 1.
Proof. exact conn_reaches_closed. Qed.
Print Assumptions C07_conn_reaches_closed.

Theorem C07_chan_reaches_closed : forall s, Reach cstep cinit s ->
  hSC <= chst (csh s) ->
  (forall c, In c (conns (csh s)) -> cstate (csh s) c = kCl) ->
  g_owed (csh s) = [] ->
  (forall n p, nth_error (cthr s) n = Some p -> exists o, p = CDone o) ->
  chst (csh s) = hCl /\ g_closed (csh s) = 1.
Proof. exact chan_reaches_closed. Qed.
Print Assumptions C07_chan_reaches_closed.

(* ---- listener: no accept after Close returned ------------------------------------------ *)

Theorem C07_listener : forall s, Reach lstep linit s ->
  (exists n, nth_error (lthr s) n = Some (LKDone true)) ->
  (forall n p, nth_error (lthr s) n = Some p -> can_yield p = false) /\
  refs s = Z.of_nat (count_if in_accept (lthr s)).
Proof. exact listener_no_accept_after_close. Qed.
Print Assumptions C07_listener.

(* ---- non-vacuity ---------------------------------------------------------------------- *)

(* call 5 is dispatched; call 9 passes the first state check and is parked before newExchange;
   Close runs (state StartClose, held by call 5); call 9 continues: registered, re-check fails,
   declined reply (9, 4); call 7 arrives: declined at the first check (7, 4); call 5 finishes:
   the connection reaches Closed (4), stopCh closed once.
   Output tail: 2 replies (9,4) (7,4); outcomes dispatched 5 / refused-at-re-check 9 / close ok /
   refused 7 / removed 5. *)
Example C07_example_conn :
  let out := run_connclose [0; 11;  0;3;5;0;  1;0;0;0;  0;3;9;0;  1;1;4;0;  0;1;0;0;  1;2;0;0;  1;1;0;0;
                            0;3;7;0;  1;3;0;0;  0;5;5;0;  1;4;0;0] in
  skipn 70 out = [0; 4; 0; 0; 0; 1; 0;   2; 9; 4; 7; 4;   5; 10; 5; 12; 9; 50; 0; 11; 7; 40; 5].
Proof. vm_compute. reflexivity. Qed.

(* listen; one connection is added; Close (state StartClose=3), its loop closes connection 0 and
   the callback sees StartClose; the connection reaches Closed; its callback removes it and moves
   the channel to Closed (5) with exactly one signal; all threads done. *)
Example C07_example_chan :
  run_chanclose [16; 0;0;0; 1;0;0; 6;0;0; 8;0;0; 3;0;0; 6;1;2; 8;0;0; 7;1;0; 4;0;0; 6;2;0; 6;1;0; 2;0;4; 4;0;0; 8;0;0; 6;3;0; 8;0;0]
  = [0;  2; 1; 0;  1;  3; 1; 0;  1; 0; 0;  3; 1; 0;  0;  5; 0; 1;   4; 4; 1; 3; 3].
Proof. vm_compute. reflexivity. Qed.

(* the hypotheses of the reaches-closed theorems are met by reachable states *)
Example C07_example_reach :
  exists s, Reach cstep cinit s /\ chst (csh s) = hCl /\ g_closed (csh s) = 1 /\ g_owed (csh s) = [] /\ conns (csh s) = [].
Proof.
  eexists. split.
  - exists ([LListen; LNewConn; LRunC 0 0; LClose; LRunC 1 0; LRunC 1 0; LCallback 0] ++ repeat (LRunC 2 2) 4
            ++ [LRunC 1 0; LConnMove 0 4; LCallback 0; LRunC 3 0; LRunC 3 0; LRunC 3 0; LRunC 3 0; LRunC 3 4; LRunC 3 0; LRunC 3 0]).
    vm_compute. reflexivity.
  - vm_compute. repeat split.
Qed.

(* ==== the pinned tree: the three repaired defects, as refuted clauses ======================= *)
From Verif Require Import Model.ClosePinned Proofs.ClosePinnedP.

(* Model/ClosePinned.v parameterises the step functions by a flag: [step_v false] / [cstep_v false]
   are the repaired models all theorems above are about; [.. true] has (a) Channel.Close assigning
   StartClose unconditionally, (b) handleCallReq's re-check branch shutting the exchange down without
   an error frame, (c) connectionCloseStateChange applying its update only while the channel state
   still equals the value read before the scan. *)
Theorem C07_pinned_flag_false_is_repaired :
  (forall s ls, run (step_v false) s ls = run ConnClose.step s ls) /\
  (forall s ls, run (cstep_v false) s ls = run cstep s ls) /\
  (forall relay s, Reach (step_v false) (ConnClose.init relay) s <-> Reach ConnClose.step (ConnClose.init relay) s) /\
  (forall s, Reach (cstep_v false) cinit s <-> Reach cstep cinit s).
Proof. exact pinned_false_is_repaired. Qed.
Print Assumptions C07_pinned_flag_false_is_repaired.

(* (a) C07_chan_monotone fails on the pinned tree.  Schedule: listen; one connection; Close; the
   connection drains its inbound side; its callback moves the channel to InboundClosed (4); a
   second Close puts it back to StartClose (3). *)
Theorem C07_chan_monotone_pinned_refuted : exists ls1 ls2 s1 s2,
  run (cstep_v true) cinit ls1 = Some s1 /\ run (cstep_v true) s1 ls2 = Some s2 /\
  ~ (chst (csh s1) <= chst (csh s2)) /\ chst (csh s1) = hIC /\ chst (csh s2) = hSC.
Proof. exact chan_monotone_pinned_refuted. Qed.
Print Assumptions C07_chan_monotone_pinned_refuted.

(* (b) C07_refuse fails on the pinned tree: a handleCallReq thread finishes "refused at the
   re-check" although no error frame at all was queued and the connection is still open
   (StartClose, held by another call).  Schedule: call 7 dispatched; frame 5 passes the first
   check and registers; Close; frame 5 fails the re-check. *)
Theorem C07_refuse_pinned_refuted : exists relay s n id,
  Reach (step_v true) (ConnClose.init relay) s /\
  nth_error (thr s) n = Some (PDone oRefused2 id) /\
  ~ answered (sh s) n id eDeclined /\
  g_replies (sh s) = [] /\ st (sh s) = sSC.
Proof. exact refuse_pinned_refuted. Qed.
Print Assumptions C07_refuse_pinned_refuted.

(* (c) C07_chan_reaches_closed fails on the pinned tree: every hypothesis holds (Close issued, no
   tracked connection, every state change had its callback, no thread mid-step) and the channel
   is stuck in InboundClosed with ch.closed never closed.  Schedule: callback A (connection at
   InboundClosed) and callback B (connection Closed and removed) both read chState = StartClose;
   A applies InboundClosed first; B's update to Closed is dropped because state <> chState. *)
Theorem C07_chan_reaches_closed_pinned_refuted : exists s,
  Reach (cstep_v true) cinit s /\
  hSC <= chst (csh s) /\
  (forall c, In c (conns (csh s)) -> cstate (csh s) c = kCl) /\
  g_owed (csh s) = [] /\
  (forall n p, nth_error (cthr s) n = Some p -> exists o, p = CDone o) /\
  ~ (chst (csh s) = hCl /\ g_closed (csh s) = 1) /\
  chst (csh s) = hIC /\ conns (csh s) = [] /\ g_closed (csh s) = 0.
Proof. exact chan_reaches_closed_pinned_refuted. Qed.
Print Assumptions C07_chan_reaches_closed_pinned_refuted.

(* the same three schedules on the repaired model: state kept / declined reply queued / Closed *)
Example C07_example_witnesses_repaired :
  (exists s, run (cstep_v false) cinit (pinned_mono_prefix ++ pinned_mono_suffix) = Some s /\ chst (csh s) = hIC) /\
  (exists s, run (step_v false) (ConnClose.init false) (pinned_refuse_witness ++ [LRun 1]) = Some s /\
             nth_error (thr s) 1 = Some (PDone oRefused2 5) /\ g_replies (sh s) = [(1%nat, 5, eDeclined)]) /\
  (exists s, run (cstep_v false) cinit pinned_stuck_witness = Some s /\ chst (csh s) = hCl).
Proof. exact (conj chan_monotone_witness_repaired (conj refuse_witness_repaired stuck_witness_repaired)). Qed.

(* ==== the admission and close decisions are the ones regenerated from the source ============ *)
From Coq Require Import Permutation.
From Verif Require Import Gen.GenClose Proofs.CloseGenP.

(* Gen/GenClose.v is produced by go2v on every run from relay.go (canClose, canHandleNewCall),
   inbound.go (handleCallReq: state switch, re-check), outbound.go (beginCall: state switch,
   re-check) and channel.go (getMinConnectionState, connectionCloseStateChange, Close).  The steps
   of the hand models that take these decisions are equal to the generated definitions:
   1 = the call proceeds, 0 = the refusing branch (which go2v only accepts when it contains the
   SendSystemError(ErrChannelClosed) resp. mex.shutdown() statements). *)
Theorem C07_decisions_generated :
  (forall s n k moved,
     tstep s n (PCE3 k) = Some (s, if relayCanClose (has_relay s) (pending s) then PCE4 k else resume k) /\
     tstep s n (PCE6 moved k) = Some (s, if relayCanClose (has_relay s) (pending s) then PCE7 moved k else resume k)) /\
  (forall s n id remote,
     tstep s n (PRel1 id remote) =
       if relayCanHandle (st s)
       then Some (set_pending s (relayPendingAfter true (pending s)) (g_live s ++ [n]), PRelLive id)
       else Some (set_pending s (relayPendingAfter false (pending s)) (g_live s),
                  if remote then PDone oRelRemote id else PRelRef id)) /\
  (forall s n id, sA <= st s <= sCl ->
     exists d, callReqStateSwitch (st s) = Some d /\
               tstep s n (PR1 id) = Some (s, if d =? 1 then PR2 id else PRRef id)) /\
  (forall c, ~ (sA <= c <= sCl) -> callReqStateSwitch c = None) /\
  (forall s n id,
     tstep s n (PR3 id) = if callReqRecheck (st s) =? 1
                          then Some (set_inb s (set_flag id (inb s)), PDone oDispatched id)
                          else Some (s, PR4 id)) /\
  (forall s n id,
     tstep s n PC1 = Some (s, if beginCallStateSwitch (st s) =? 1 then PC2 else PDone oCClosed1 0) /\
     (sA <= st s <= sCl -> beginCallStateSwitch (st s) <> 2) /\
     tstep s n (PC3 id) = if beginCallRecheck (st s) =? 1
                          then Some (set_outb s (set_flag id (outb s)), PDone oBegun id)
                          else Some (s, PC4 id)) /\
  (forall s l, Permutation l (conns s) ->
     fold_left (fun m c => minStateStep m (cstate s c)) l minStateInit = minstate s) /\
  (forall m c, update_to m c = chanUpdateTo m c) /\
  (forall s c cs u arg,
     ctstep s (PCb5 c cs u) arg =
       Some (set_chst s (chanApplyUpdate (chst s) u),
             if chst s <? u then (if u =? hCl then PCb6 else CDone oCbDone) else CDone oCbDone)) /\
  (forall s arg, chst s <> hCl ->
     ctstep s PCl1 arg =
       match conns s with
       | [] => Some (set_chst (set_chst s (chanCloseState (chst s))) hCl, PCl2 [] true)
       | _ => Some (set_chst s (chanCloseState (chst s)), PCl2 (conns s) false)
       end).
Proof.
  exact (conj gen_can_close (conj gen_relay_admit (conj gen_callreq_switch (conj gen_callreq_switch_panics
        (conj gen_callreq_recheck (conj gen_begincall (conj gen_minstate_any_order (conj gen_update_to
        (conj gen_apply_update gen_close_state))))))))).
Qed.
Print Assumptions C07_decisions_generated.

(* ==== the listener correspondence engine stays inside the model's reachable states ========= *)
From Verif Require Import Proofs.ListenerRunP.

(* Every operation of a listenerclose script (an Accept / Close call in a new goroutine, the
   return of a parked Accept) followed by the settling of the waiting Close calls is a sequence
   of steps of the listener system: the states compared with the real tnet wrapper are states
   C07_listener quantifies over; and after settling no Close call waits although refs = 0. *)
Theorem C07_listener_entry_reachable : forall s op a,
  Reach lstep linit s -> Reach lstep linit (lsettle (fst (lop s op a))).
Proof. exact listener_entry_reachable. Qed.
Print Assumptions C07_listener_entry_reachable.

Theorem C07_listener_settled : forall s j p,
  nth_error (lthr (lsettle s)) j = Some p -> refs (lsettle s) = 0 -> p <> LK2.
Proof. exact listener_settled. Qed.
Print Assumptions C07_listener_settled.

(* two Accept calls park; Close: underlying closed, blocked (refs = 2); a third Accept fails at
   once; the first parked Accept still returns a connection (refs = 1, Close still blocked); the
   second returns an error: refs = 0 and Close returns nil.
   observation per op: code refs closed #parked #acc-conn #acc-err #close-blocked #close-nil #close-err *)
Example C07_example_listener :
  run_listenerclose [6; 0;0; 0;0; 3;0; 0;0; 1;0; 2;1]
  = [0;1;0;1;0;0;0;0;0;  0;2;0;2;0;0;0;0;0;  0;2;1;2;0;0;1;0;0;  0;2;1;2;0;1;1;0;0;
     0;1;1;1;1;1;1;0;0;  0;0;1;0;1;2;0;1;0].
Proof. vm_compute. reflexivity. Qed.

(* ==== second strengthening: error results, pings, forced Close races, relay pending ========= *)
From Verif Require Import Model.CloseRace Model.ClosePinned2 Proofs.ConnCloseXP Proofs.CloseRaceP
  Proofs.ClosePinned2P Gen.GenClose2 Proofs.CloseGen2P.

(* Model/ConnClose.v now has two more thread kinds: TFinInErr id code -- the handler of a call
   answers with a SYSTEM ERROR (InboundCallResponse.SendSystemError: the error frame is queued,
   then doneSending removes the exchange) -- and TPing id -- a ping req from the peer (answered
   unless the connection is Closed).  Every theorem above is stated over Reach ConnClose.step and
   therefore quantifies over all interleavings with any number of such threads too.  The model
   describes the REPAIRED code (two more fix: commits). *)

(* (a) for ERROR results: a finished handler thread that answered call [id] with system error
   [code] (one byte) queued exactly one error frame (id, code), or none and the connection is
   Closed. *)
Theorem C07_error_result : forall relay s n id code, Reach ConnClose.step (ConnClose.init relay) s ->
  code_ok code = true ->
  nth_error (thr s) n = Some (PDone (oErrBase + code) id) -> answered (sh s) n id code.
Proof. exact conn_error_result. Qed.
Print Assumptions C07_error_result.

(* ... and without a connection failure the second alternative is excluded for an accepted
   call: when the handler of a dispatched call whose exchange is still registered is about to
   send, the connection is at most in StartClose, its step queues exactly the frame (id, code),
   and the exchange is still registered afterwards -- the removal that may close the connection
   follows the frame. *)
Theorem C07_error_result_queued : forall relay s n id code, Reach ConnClose.step (ConnClose.init relay) s ->
  stopped (sh s) = false -> code_ok code = true ->
  nth_error (thr s) n = Some (PErr id code) -> In (id, true) (inb (sh s)) ->
  st (sh s) <= sSC /\
  exists s', ConnClose.step s (LRun n) = Some s' /\
    nth_error (thr s') n = Some (PErrRm id code) /\
    replies_of n (sh s') = [(n, id, code)] /\
    In (id, true) (inb (sh s')) /\ st (sh s') = st (sh s).
Proof. exact conn_error_queued. Qed.
Print Assumptions C07_error_result_queued.

(* the handler thread can only finish with the outcome "answered with code", and its first step
   is the send *)
Theorem C07_error_outcomes : forall id code,
  err_pc id code (start_pc (TFinInErr id code)) = true /\
  (forall s n p s' p', err_pc id code p = true -> tstep s n p = Some (s', p') -> err_pc id code p' = true) /\
  (forall s n s' p', tstep s n (PErr id code) = Some (s', p') -> s' = send_err s n id code /\ p' = PErrRm id code).
Proof. exact conn_err_outcomes. Qed.
Print Assumptions C07_error_outcomes.

(* Pings.  On a connection that is not Closed -- also while it drains -- a ping req is answered
   in two steps that change no shared variable (state, exchanges, stoppedExchanges: the calls
   being drained are untouched); only a Closed connection takes the protocol-error path. *)
Theorem C07_ping_steps : forall s n id,
  (st s <> sCl -> tstep s n (PPing id) = Some (s, PPong id)) /\
  (st s = sCl -> tstep s n (PPing id) = Some (s, PProtoSend id)) /\
  tstep s n (PPong id) = Some (s, PDone oPong id).
Proof. exact conn_ping_steps. Qed.
Print Assumptions C07_ping_steps.

(* while an accepted call holds the connection open (no connection failure) a ping is answered *)
Theorem C07_ping_drain : forall relay s n id idc, Reach ConnClose.step (ConnClose.init relay) s ->
  stopped (sh s) = false -> nth_error (thr s) n = Some (PPing id) -> In (idc, true) (inb (sh s)) ->
  exists s', ConnClose.step s (LRun n) = Some s' /\ sh s' = sh s /\ nth_error (thr s') n = Some (PPong id).
Proof. exact conn_ping_drain. Qed.
Print Assumptions C07_ping_drain.

Theorem C07_ping_outcomes : forall id,
  ping_pc id (start_pc (TPing id)) = true /\
  (forall s n p s' p', ping_pc id p = true -> tstep s n p = Some (s', p') -> ping_pc id p' = true) /\
  (forall o i, ping_pc id (PDone o i) = true -> i = id /\ (o = oPong \/ o = oProto)).
Proof. exact conn_ping_outcomes. Qed.
Print Assumptions C07_ping_outcomes.

(* The forced Close races of engine closerace (Model/CloseRace.v): on the whole domain of the
   engine -- ten scenario kinds (V07: 6 .. 9 = a beginCall parked between its state check and its
   registration, or between its registration and its re-check, while Close lands with an outbound /
   an inbound / no call in flight: it fails locally with the closed-connection error, outcome 22,
   and leaves no exchange), 0..3 other calls in flight, every one-byte error code, every
   position of the target in the completion order -- the model's observable EQUALS the
   specification written from the statement (a raced request is answered with exactly one
   declined frame while the connection is open; an accepted call's result, response or error,
   reaches the peer; a ping on a draining connection is answered; then Closed, signalled once),
   and the scenario only visits reachable states of the connection system. *)
Theorem C07_closerace_spec : forall kind k code pos rest,
  0 <= kind <= 9 -> 0 <= k <= 3 -> 0 <= code <= 255 -> 0 <= pos <= k ->
  run_closerace (kind :: k :: code :: pos :: rest) = spec_closerace kind k code.
Proof. exact closerace_spec. Qed.
Print Assumptions C07_closerace_spec.

Theorem C07_closerace_reachable : forall kind k code pos,
  Reach ConnClose.step (ConnClose.init false) (race_state kind k code pos).
Proof. exact closerace_reachable. Qed.
Print Assumptions C07_closerace_reachable.

(* ---- the code before the two fix: commits, as refuted clauses ------------------------------- *)
Theorem C07_pinned2_flag_false_is_repaired :
  (forall s ls, run (step_p false) s ls = run ConnClose.step s ls) /\
  (forall relay s, Reach (step_p false) (ConnClose.init relay) s <-> Reach ConnClose.step (ConnClose.init relay) s).
Proof. exact pinned2_false_is_repaired. Qed.
Print Assumptions C07_pinned2_flag_false_is_repaired.

(* (d) handlePingReq refusing every state but Active: with no connection failure in the schedule
   (call 5 dispatched; Close; ping req 9) the ping ends in protocolError -- stoppedExchanges set,
   both exchange sets shut down under the accepted call 5, a Protocol error frame queued. *)
Theorem C07_ping_drain_pinned_refuted : exists s,
  Reach (step_p true) (ConnClose.init false) s /\
  thr s = [PDone oDispatched 5; PDone oCloseOk 0; PDone oProto 9] /\
  In (5, true) (inb (sh s)) /\ st (sh s) = sSC /\
  stopped (sh s) = true /\ inb_shut (sh s) = true /\ outb_shut (sh s) = true /\
  g_replies (sh s) = [(2%nat, 9, eProtocol)].
Proof. exact ping_drain_pinned_refuted. Qed.
Print Assumptions C07_ping_drain_pinned_refuted.

(* (e) InboundCallResponse.SendSystemError shutting the exchange down BEFORE sending: after the
   handler's removal (thread 2) has run to its end the connection is Closed, with no connection
   failure, and the SendSystemError issued next queues nothing whatever the code. *)
Theorem C07_error_result_pinned_order_refuted : exists s,
  Reach ConnClose.step (ConnClose.init false) s /\
  thr s = [PDone oDispatched 5; PDone oCloseOk 0; PDone oRemoved 5] /\
  st (sh s) = sCl /\ stopped (sh s) = false /\ g_replies (sh s) = [] /\
  forall n code, send_err (sh s) n 5 code = sh s.
Proof. exact error_result_pinned_order_refuted. Qed.
Print Assumptions C07_error_result_pinned_order_refuted.

(* the same two histories on the repaired model: ping res, nothing else changed / exactly one
   error frame (5, Busy), then Closed and signalled once *)
Example C07_example_witnesses2_repaired :
  (exists s, run ConnClose.step (ConnClose.init false) (ping_witness 2) = Some s /\
     thr s = [PDone oDispatched 5; PDone oCloseOk 0; PDone oPong 9] /\
     In (5, true) (inb (sh s)) /\ st (sh s) = sSC /\ stopped (sh s) = false /\ inb_shut (sh s) = false /\
     g_replies (sh s) = []) /\
  (exists s, run ConnClose.step (ConnClose.init false) err_sent_first = Some s /\
     thr s = [PDone oDispatched 5; PDone oCloseOk 0; PDone (oErrBase + 3) 5] /\
     st (sh s) = sCl /\ g_replies (sh s) = [(2%nat, 5, 3)] /\ g_stop_closes (sh s) = 1).
Proof. exact (conj ping_witness_repaired error_witness_repaired). Qed.

(* ---- statement ties regenerated from inbound.go, connection.go and relay.go ------------------ *)
(* Gen/GenClose2.v: (1) InboundCallResponse.SendSystemError is accepted only with the send before
   doneSending() (marker lets) and is the model's PErr step; (2) the state test of handlePingReq is
   the model's PPing step; (3) the three functions that END a relay item (timeoutRelayItem,
   failRelayItem, finishRelayItem) and the no-destination branch of Relayer.handleCallReq give
   back the unit of Relayer.pending exactly when they took the item -- on the originating and on
   the forwarding side alike -- which is the model's single decrement step PRelLive; C07_drain's
   "pending = number of admitted unfinished relayed calls" rests on it. *)
Theorem C07_decisions2_generated :
  (forall s n id code, code_ok code = true ->
     handlerErrOrder = 1 /\
     tstep s n (PErr id code) = Some (send_err s n id code, if handlerErrOrder =? 1 then PErrRm id code else PDone 0 0)) /\
  (forall s n id,
     tstep s n (PPing id) = Some (s, if pingReqAnswer (st s) =? 1 then PPong id else PProtoSend id)) /\
  (pingReqAnswer sA = 1 /\ pingReqAnswer sSC = 1 /\ pingReqAnswer sIC = 1 /\ pingReqAnswer sCl = 0) /\
  (forall s n id orig slow,
     let done p := Some (set_pending s p (deln n (g_live s)), PCE0 (KDone oRelDone id)) in
     tstep s n (PRelLive id) = done (relayTimeoutPending true orig (pending s)) /\
     tstep s n (PRelLive id) = done (relayFinishPending true orig (pending s)) /\
     tstep s n (PRelLive id) = done (relayFailPending true true true orig slow (pending s)) /\
     tstep s n (PRelLive id) = done (relayNoDestPending true (pending s))) /\
  (forall orig p, relayTimeoutPending false orig p = p /\ relayFinishPending false orig p = p) /\
  (forall found stopped ok orig slow p, found && stopped && ok = false ->
     relayFailPending found stopped ok orig slow p = p) /\
  (forall p, relayNoDestPending false p = p).
Proof. exact (conj gen2_handler_error (conj gen2_ping (conj gen2_ping_states gen2_relay_pending))). Qed.
Print Assumptions C07_decisions2_generated.

(* non-vacuity: kind 0 with nothing else in flight -- request 200 registered, Close, re-check:
   declined frame (200, 4), then its own removal closes the connection, signalled once;
   kind 2: the last call in flight answers with system error 3 while the connection drains *)
Example C07_example_closerace :
  run_closerace [0; 0; 0; 0; 1] = [4; 1; 1; 200; 4; 0] /\
  run_closerace [2; 1; 3; 1; 0] = [4; 1; 1; 200; 3; 0] /\
  run_closerace [3; 2; 0; 0; 1] = [4; 1; 0; 1].
Proof. vm_compute. repeat split. Qed.

(* ==== third strengthening: Serve / ListenAndServe, the order inside the close callback ========= *)
From Verif Require Import Gen.GenClose3 Proofs.ChanServeP Proofs.CloseGen3P.

(* Channel.Serve and Channel.ListenAndServe are threads of the channel model (labels LServe /
   LListenServe start one at ANY point of a run, any number of times; PSrv is the single Lock
   region of Serve, PLs1 the unlocked test of ListenAndServe that precedes it).  Every theorem
   above that is stated over [run cstep] / [Reach cstep cinit] -- C07_chan_monotone,
   C07_chan_signal_once, C07_chan_drain, C07_chan_reaches_closed -- therefore holds for every
   interleaving WITH Serve calls: before Close, after Close, between the locked region of Close and
   its loop, between the state read and the update of a callback, repeated. *)

(* What one Serve does: it succeeds exactly on a channel in state Client whose listener is not set
   (-> Listening, listener set); with the listener set it fails with errAlreadyListening and
   changes nothing; in every other state it fails with errInvalidStateForOp and leaves the state
   alone (the listener stays set, as in the code).  Connections and the closed signal are untouched. *)
Theorem C07_chan_serve_step : forall s arg,
  exists s' o, ctstep s PSrv arg = Some (s', CDone o) /\
    conns s' = conns s /\ cstates s' = cstates s /\ g_closed s' = g_closed s /\ g_owed s' = g_owed s /\
    ((o = oSrvOk /\ chst s = hClient /\ lis s = false /\ chst s' = hListening /\ lis s' = true) \/
     (o = oSrvInvalid /\ chst s <> hClient /\ lis s = false /\ chst s' = chst s /\ lis s' = true) \/
     (o = oSrvAlready /\ lis s = true /\ s' = s)).
Proof. exact chan_serve_step. Qed.
Print Assumptions C07_chan_serve_step.

Theorem C07_chan_listen_serve_step : forall s arg,
  ctstep s PLs1 arg = Some (s, if lis s then CDone oSrvAlready else PSrv).
Proof. exact chan_listen_serve_step. Qed.
Print Assumptions C07_chan_listen_serve_step.

(* (b) at channel level: once the state has reached StartClose, then along EVERY continuation of
   the run (Serve, ListenAndServe, further Close calls, connection events, callbacks) it stays at
   or beyond StartClose; every connection whose handshake completes is refused (not tracked, then
   closed: no call on it is served), Connect fails locally, and every Serve fails without
   touching the state or the connections. *)
Theorem C07_chan_no_service_after_close : forall ls1 ls2 s1 s2,
  run cstep cinit ls1 = Some s1 -> hSC <= chst (csh s1) -> run cstep s1 ls2 = Some s2 ->
  hSC <= chst (csh s2) /\
  (forall c arg, ctstep (csh s2) (PAd1 c) arg = Some (csh s2, PAd2 c)) /\
  (forall arg, ctstep (csh s2) PConn arg = Some (csh s2, CDone oConnErr)) /\
  (forall arg, exists s' o, ctstep (csh s2) PSrv arg = Some (s', CDone o) /\
                            (o = oSrvAlready \/ o = oSrvInvalid) /\ chst s' = chst (csh s2) /\ conns s' = conns (csh s2)).
Proof. exact chan_no_service_after_close. Qed.
Print Assumptions C07_chan_no_service_after_close.

(* At most one Serve call ever returns nil (one accept loop), and a listening channel has its
   listener set (so Close finds it). *)
Theorem C07_chan_serve_once : forall s, Reach cstep cinit s ->
  0 <= srv_count s <= 1 /\
  (srv_count s = 1 -> lis (csh s) = true) /\
  (chst (csh s) = hListening -> lis (csh s) = true).
Proof. exact chan_serve_once. Qed.
Print Assumptions C07_chan_serve_once.

(* Gen/GenClose3.v (regenerated from channel.go on every run): the Lock region of Serve with its
   two assignments, the listener test of ListenAndServe, removeClosedConn, the part of
   connectionCloseStateChange between the schedule points enter and afterRead -- accepted by go2v
   only with ch.removeClosedConn(c) BEFORE chState := ch.State(), the generated state test being the
   model's PCb3, which the model runs after PCb1 / PCb2 -- and the len(conns) == 0 decision of
   Channel.Close are the steps PSrv, PLs1, PCb1, PCb2, PCb3 and PCl1 of the model. *)
Theorem C07_decisions3_generated :
  (forall s arg,
     ctstep s PSrv arg =
       let '(e, l, st) := chanServe (lis s) (chst s) in
       Some (set_chst (set_lis s l) st, CDone (srv_outcome e))) /\
  (forall l st,
     chanServe l st = if l then (1, true, st)
                      else if st =? c_ChannelClient then (0, true, c_ChannelListening) else (2, true, st)) /\
  (forall s arg,
     ctstep s PLs1 arg = Some (s, if chanListenTest (lis s) =? 1 then CDone oSrvAlready else PSrv)) /\
  (forall s c arg,
     ctstep s (PCb1 c) arg = Some (s, if chanRemoveTest (cstate s c) =? 1 then PCb2 c else PCb3 c) /\
     chanRemoveDeletes = 1 /\
     ctstep s (PCb2 c) arg = Some (set_conns s (remn c (conns s)), PCb3 c)) /\
  (forall s c arg,
     ctstep s (PCb3 c) arg =
       Some (s, if chanCallbackRead (chst s) =? 0 then CDone oCbDone else PCb4 c (chanCallbackRead (chst s)))) /\
  (forall s arg, chst s <> hCl ->
     ctstep s PCl1 arg =
       let '(st, cc) := chanCloseEmpty (zlen (conns s)) (chanCloseState (chst s)) in
       Some (set_chst s st, PCl2 (if cc then [] else conns s) cc)).
Proof.
  exact (conj gen_serve (conj gen_serve_spec (conj gen_listen_test (conj gen_remove (conj gen_callback_read gen_close_empty))))).
Qed.
Print Assumptions C07_decisions3_generated.

(* non-vacuity.  (1) a client channel: connection 0 is added (op 1, thread 0); Close (thread 1)
   parks after its locked region: StartClose (3), one connection tracked; ListenAndServe (op 10,
   thread 2) and Serve (op 9, thread 3) are both refused and the state stays 3; outcomes at the end:
   added (4), Close still before its loop (-1), errInvalidStateForOp (10) -- which set the
   listener --, errAlreadyListening (9).
   (2) the forced schedule of the engine: listen; connection 0 added; it closes on its own (2 0 4);
   its callback (thread 1) runs to chan.removeClosedConn.beforeLock (class 5): Listening (2), one
   connection tracked; Close (thread 2) runs to its end: StartClose (3), the closed connection
   still tracked; the callback resumes: removes it, reads StartClose, finds no connection left and
   closes the channel: Closed (5), nothing tracked, one signal. *)
Example C07_example_serve :
  run_chanclose [10; 1;0;0; 6;0;0; 3;0;0; 6;1;2; 8;0;0; 10;0;0; 6;2;0; 9;0;0; 6;3;0; 8;0;0]
    = [0;  1;  3; 1; 0;  0;  0;  3; 1; 0;   4; 4; -1; 10; 9] /\
  run_chanclose [14; 0;0;0; 1;0;0; 6;0;0; 2;0;4; 4;0;0; 6;1;32; 8;0;0; 3;0;0; 6;2;2; 7;2;0; 6;2;0; 8;0;0; 6;1;0; 8;0;0]
    = [0;  5;  2; 1; 0;  1; 1; 0;  3; 1; 0;  0;  5; 0; 1;   3; 4; 3; 1].
Proof. vm_compute. split; reflexivity. Qed.

Example C07_example_no_service :
  exists ls1 s1, run cstep cinit ls1 = Some s1 /\ chst (csh s1) = hIC /\ conns (csh s1) = [0%nat] /\ lis (csh s1) = false.
Proof.
  exists [LNewConn; LRunC 0 0; LClose; LRunC 1 0; LRunC 1 0; LRunC 1 0; LConnMove 0 3; LCallback 0;
          LRunC 2 0; LRunC 2 0; LRunC 2 0; LRunC 2 3; LRunC 2 0].
  eexists. split; [vm_compute; reflexivity|]. vm_compute. repeat split.
Qed.

(* ---- the two wrong variants of channel.go this pass is about, as refuted clauses -------------- *)
From Verif Require Import Model.ClosePinned3 Proofs.ClosePinned3P.

(* Model/ClosePinned3.v: [vstep serve_late read_first]; both flags false = the channel model
   (same runs as [cstep], thread by thread). *)
Theorem C07_pinned3_flags_false_is_model :
  (forall ls, run (vstep false false) vinit ls = vembed_opt (run cstep cinit ls)) /\
  (forall s, Reach cstep cinit s -> Reach (vstep false false) vinit (vembed s)).
Proof. exact pinned3_false_is_model. Qed.
Print Assumptions C07_pinned3_flags_false_is_model.

(* serve_late (Serve refuses only a Closed channel): a client channel with an outbound call in
   flight is closed (InboundClosed); Serve returns nil and the state is Listening again -- (e) is
   false --, and the next connection that completes its handshake is tracked -- (b) is false. *)
Theorem C07_chan_monotone_serve_late_refuted : exists s1 s2,
  run (vstep true false) vinit serve_late_prefix = Some s1 /\
  run (vstep true false) s1 serve_late_suffix = Some s2 /\
  chst (vsh s1) = hIC /\ chst (vsh s2) = hListening /\ ~ (chst (vsh s1) <= chst (vsh s2)) /\
  nth_error (vthr s2) 3 = Some (VN (CDone oSrvOk)) /\
  nth_error (vthr s2) 4 = Some (VN (CDone oAdded)) /\ conns (vsh s2) = [0%nat; 1%nat].
Proof. exact chan_monotone_serve_late_refuted. Qed.
Print Assumptions C07_chan_monotone_serve_late_refuted.

(* read_first (the callback reads the channel state before it removes the closed connection): the
   connection closes on its own, Close lands between the callback's read and its removal: every
   hypothesis of C07_chan_reaches_closed holds in the final state, the channel is stuck in
   StartClose with no connection and no signal -- (d) is false. *)
Theorem C07_chan_reaches_closed_read_first_refuted : exists s,
  Reach (vstep false true) vinit s /\
  hSC <= chst (vsh s) /\
  (forall c, In c (conns (vsh s)) -> cstate (vsh s) c = kCl) /\
  g_owed (vsh s) = [] /\
  (forall n p, nth_error (vthr s) n = Some p -> exists o, p = VN (CDone o)) /\
  ~ (chst (vsh s) = hCl /\ g_closed (vsh s) = 1) /\
  chst (vsh s) = hSC /\ conns (vsh s) = [] /\ g_closed (vsh s) = 0.
Proof. exact chan_reaches_closed_read_first_refuted. Qed.
Print Assumptions C07_chan_reaches_closed_read_first_refuted.

(* the same two schedules on the model itself: Serve is refused and the connection is not tracked;
   the callback closes the channel *)
Example C07_example_witnesses3_model :
  (exists s2,
     run (vstep false false) vinit (serve_late_prefix ++ serve_late_suffix) = Some s2 /\
     chst (vsh s2) = hIC /\ nth_error (vthr s2) 3 = Some (VN (CDone oSrvInvalid)) /\
     nth_error (vthr s2) 4 = Some (VN (PAd2 1)) /\ conns (vsh s2) = [0%nat]) /\
  (exists s,
     run (vstep false false) vinit (read_first_witness ++ [LRunC 1 0; LRunC 1 4; LRunC 1 0; LRunC 1 0]) = Some s /\
     chst (vsh s) = hCl /\ g_closed (vsh s) = 1 /\ conns (vsh s) = []).
Proof. exact (conj serve_late_witness_model read_first_witness_model). Qed.

(* ==== fourth strengthening (V07): the optional components a closing channel stops ============== *)
From Verif Require Import Gen.GenC07Stop Model.C07CloseStop Proofs.C07CloseStopP Proofs.C07CloseStopGenP.

(* Model/C07CloseStop.v: the channel system [cstep] extended with the idle sweeper (started flag,
   ghost count of close(is.stopCh)), a ghost count of ch.mutable.l.Close() and a ghost count of
   PANICS inside Channel.Close (close of a closed channel).  [xinit interval]: IdleCheckInterval.
   Under EVERY interleaving of any number of Close calls (before, while and after the channel
   drains) with connection moves, callbacks, new connections and Serve calls: no Close panics, no
   thread ends with the panic outcome, and the run projects onto a run of the channel system, so
   all C07_chan_* theorems hold of the channel with its optional components. *)
Theorem C07_close_stop_no_panic : forall interval s, Reach xstep (xinit interval) s ->
  x_panics s = 0 /\ Reach cstep cinit (xb s) /\
  (forall n o, nth_error (cthr (xb s)) n = Some (CDone o) -> o <> oClosePanic).
Proof. exact c07stop_no_panic. Qed.
Print Assumptions C07_close_stop_no_panic.

(* The sweeper's stop action runs AT MOST ONCE and exactly when it should: the poller is running
   iff it is configured and no Close has passed its locked region (state below StartClose); from
   then on it is stopped and its stopCh has been closed exactly once. *)
Theorem C07_close_stop_once : forall interval s, Reach xstep (xinit interval) s ->
  sw_started (xw s) = (0 <? interval) && negb (hSC <=? chst (csh (xb s))) /\
  sw_closes (xw s) = (if (0 <? interval) && (hSC <=? chst (csh (xb s))) then 1 else 0) /\
  0 <= sw_closes (xw s) <= 1.
Proof. exact c07stop_once. Qed.
Print Assumptions C07_close_stop_once.

(* The locked region of Channel.Close, as one step of ANY variant: listener closes, sweeper, state
   and the rest of the call are what [close_region] (tied to the source below) says; where Stop
   panics the state is NOT raised and no connection is closed by that call. *)
Theorem C07_close_stop_region_step : forall keep s tid arg,
  nth_error (cthr (xb s)) tid = Some PCl1 ->
  let sh := csh (xb s) in
  let '(lcl, stops, st', cc) := close_region (lis sh) (zlen (conns sh)) (chst sh) in
  match (if stops =? 0 then Some (xw s) else sweep_stop_v keep (xw s)) with
  | None => exists s', xstep_v keep s (LRunC tid arg) = Some s' /\ x_panics s' = x_panics s + 1 /\
                       csh (xb s') = sh /\ nth_error (cthr (xb s')) tid = Some (CDone oClosePanic)
  | Some w' => exists s', xstep_v keep s (LRunC tid arg) = Some s' /\ x_panics s' = x_panics s /\
                       xw s' = w' /\ x_lcloses s' = x_lcloses s + lcl /\ chst (csh (xb s')) = st' /\
                       nth_error (cthr (xb s')) tid = Some (PCl2 (if (stops =? 0) || cc then [] else conns sh) cc)
  end.
Proof. exact c07stop_region_step. Qed.
Print Assumptions C07_close_stop_region_step.

(* The wrong variant (idleSweep.Stop does not clear is.started), as a refuted clause: one
   connection, Close (StartClose), a second Close while the channel drains -- panic; the channel
   stays in StartClose and the second Close never closes the connections. *)
Theorem C07_close_stop_keep_started_refuted : exists s,
  run (xstep_v true) (xinit 1) keep_started_witness = Some s /\
  x_panics s = 1 /\ chst (csh (xb s)) = hSC /\ conns (csh (xb s)) = [0%nat] /\
  nth_error (cthr (xb s)) 2 = Some (CDone oClosePanic).
Proof. exact c07stop_keep_started_refuted. Qed.
Print Assumptions C07_close_stop_keep_started_refuted.

(* the same schedule on the model (no panic, stopCh closed once, the second Close goes on to close
   the connections), and on the wrong variant with the DEFAULT options (invisible) *)
Example C07_example_keep_started_model :
  (exists s, run xstep (xinit 1) keep_started_witness = Some s /\ x_panics s = 0 /\ sw_closes (xw s) = 1 /\
             nth_error (cthr (xb s)) 2 = Some (PCl2 [0%nat] false)) /\
  (exists s, run (xstep_v true) (xinit 0) keep_started_witness = Some s /\ x_panics s = 0 /\ sw_closes (xw s) = 0).
Proof. exact keep_started_witness_model. Qed.

(* Engine c07closecfg, component observable (started, #close(stopCh), #panics at every observation):
   the model's output EQUALS the specification written from the statement ("the sweeper runs until
   the first Close, is stopped exactly once, no Close panics") on EVERY input: any interval, any
   number of connections, any script of Close batches / connection moves / observations. *)
Theorem C07_closestop_spec : forall c, run_c07closestop c = spec_c07closestop c.
Proof. exact c07closestop_spec. Qed.
Print Assumptions C07_closestop_spec.

Theorem C07_closecfg_reachable : forall interval listening nconns,
  Reach xstep (xinit interval) (xstart interval listening nconns).
Proof. exact c07closecfg_reachable. Qed.
Print Assumptions C07_closecfg_reachable.

(* Connection.stopHealthCheck (Model/C07CloseStop.v part 2): any number of calls, from outside and
   from the health-check goroutine itself, in any interleaving.  Health checks off: nothing behind
   the first guard is touched; the goroutine never waits for its own exit; close(healthCheckDone)
   at most once; a waiting caller has cancelled the context. *)
Theorem C07_health_stop_safe : forall on s, Reach hstep (hinit on) s ->
  (on = false -> forall n p, nth_error (hthr s) n = Some p -> p = HDone \/ p = HS1) /\
  (forall n p, nth_error (hthr s) n = Some p -> p <> HGs3 /\ p <> HGs4) /\
  0 <= h_exits (hsh s) <= 1 /\
  (forall n, nth_error (hthr s) n = Some HS4 -> h_cancelled (hsh s) = true).
Proof. exact c07hc_safe. Qed.
Print Assumptions C07_health_stop_safe.

(* ... and every call returns: no reachable state with an unfinished thread is stuck. *)
Theorem C07_health_stop_progress : forall on s, Reach hstep (hinit on) s ->
  (exists n p, nth_error (hthr s) n = Some p /\ p <> HDone) ->
  exists l s', hstep s l = Some s'.
Proof. exact c07hc_progress. Qed.
Print Assumptions C07_health_stop_progress.

Example C07_example_health_stop :
  exists s, run hstep (hinit true)
              [LHStop; LHRun 1 0; LHRun 0 1; LHRun 0 0; LHStop; LHRun 1 0; LHRun 2 0; LHRun 2 0;
               LHRun 0 0; LHRun 0 0; LHRun 0 0] = Some s /\
            hthr s = [HDone; HDone; HDone] /\ h_exits (hsh s) = 1 /\ h_cancelled (hsh s) = true.
Proof. exact c07hc_example. Qed.

(* TIE (Gen/GenC07Stop.v, regenerated from idle_sweep.go, health.go, channel.go, inbound.go,
   outbound.go on every run): idleSweep.start and Stop, the two guards of stopHealthCheck, the locked
   region of Channel.Close (early return before anything is stopped, l.Close() only with a listener,
   Stop() exactly once and inside the closure, the state only raised) and the two admission
   re-checks selected by their POSITION after the registration are the model's functions / steps. *)
Theorem C07_decisions4_generated :
  (forall w iv,
     sweep_start iv w =
       if c07SweepStartGuard (sw_started w) iv =? 1
       then (let '(st', cl') := c07SweepStartSets (sw_started w) (sw_closes w) in mkSw st' cl')
       else w) /\
  (forall w, 0 <= sw_closes w <= 1 ->
     sweep_stop w =
       (let '(st', cl') := c07SweepStop (sw_started w) (sw_closes w) in
        if 2 <=? cl' then None else Some (mkSw st' cl'))) /\
  (forall e, hc_guard1 e = c07StopHealthGuard e) /\
  (forall c, hc_guard2 c = c07StopHealthRest c) /\
  (forall has_l n cur, close_region has_l n cur = c07CloseRegion has_l n cur) /\
  (forall s n id,
     tstep s n (PR3 id) = (if c07CallReqRecheckAt (st s) =? 1
                           then Some (set_inb s (set_flag id (inb s)), PDone oDispatched id)
                           else Some (s, PR4 id)) /\
     tstep s n (PC3 id) = (if c07BeginCallRecheckAt (st s) =? 1
                           then Some (set_outb s (set_flag id (outb s)), PDone oBegun id)
                           else Some (s, PC4 id))).
Proof.
  exact (conj gen_sweep_start (conj gen_sweep_stop (conj (proj1 gen_stop_health) (conj (proj2 gen_stop_health)
        (conj gen_close_region gen_rechecks_at))))).
Qed.
Print Assumptions C07_decisions4_generated.

(* non-vacuity of the closerace kinds added in this pass: a beginCall parked between its state
   check and its registration while Close lands on an idle connection (Closed), on a connection
   with one outbound call in flight (InboundClosed), with two inbound calls in flight (StartClose) *)
Example C07_example_closerace_outbound :
  run_closerace [6; 0; 0; 0; 1] = [4; 1; 0; 0; 22; 0] /\
  run_closerace [6; 1; 0; 0; 0] = [4; 1; 0; 0; 22; 0] /\
  run_closerace [7; 2; 0; 0; 1] = [4; 1; 0; 0; 22; 0] /\
  run_closerace [8; 0; 0; 0; 1] = [4; 1; 0; 0; 22; 0] /\
  run_closerace [9; 1; 0; 0; 0] = [4; 1; 0; 0; 22; 0].
Proof. vm_compute. repeat split. Qed.
