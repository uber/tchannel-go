(* Property C12 -- Pooled frame buffers have exactly one owner at a time.
   "A frame obtained from the configured frame pool is handed back at most once, and the
    library neither reads nor writes it after handing it back, under any traffic including
    timeouts, malformed or truncated messages, relay drops and connection failures; on calls
    that complete without a fault every frame is handed back."

   Statements only.  [run false (init cap) ls] = the repaired code (Model/FrameOwn.v) started
   with an empty pool history and send buffers of capacity [cap], driven through the label
   list [ls]: ANY interleaving of reader loops, writer loops, handlers, callers, relay
   forwarding, timeouts ([LCtx]), connection failures ([LErrN], [LWrite _ true], [LStop]),
   truncated ([LReadFail]), malformed ([LFetch _ false _ _], [LFetch _ _ false _], frame
   kinds other than 0) and unroutable ([LReadFwd _ None _], [LReadLeak]) frames, full send
   buffers, with unboundedly many connections, calls and frames.  [run] only admits labels
   that satisfy [app_ok] (a handler does not read request arguments after it called
   InboundCallResponse.SendSystemError).  [history s] is the chronological list of pool
   events; the three predicates are those of Spec/FrameOwnSpec.v. *)
From Coq Require Import ZArith List Bool.
From Verif Require Import Gen.GenSites Spec.FrameOwnSpec Model.FrameOwn Proofs.FrameOwnP.
From Verif Require Import Model.FrameOwnCall Proofs.FrameOwnCallP.
Import ListNotations.
Local Open Scope Z_scope.

(* no frame is handed back twice, for every schedule and every fault history *)
Theorem C12_at_most_once : forall cap ls s,
  run false (init cap) ls = Some s -> released_at_most_once (history s).
Proof. intros cap ls s H. apply (safety cap ls s H). Qed.
Print Assumptions C12_at_most_once.

(* after a frame was handed back no later event concerns it: no access at any of the
   modelled access sites, no hand-over to another goroutine, no second release *)
Theorem C12_no_use_after_release : forall cap ls s,
  run false (init cap) ls = Some s -> no_use_after_release (history s).
Proof. intros cap ls s H. apply (safety cap ls s H). Qed.
Print Assumptions C12_no_use_after_release.

(* only frames that came out of the pool are released or touched, and the pool never sees
   the same frame obtained twice *)
Theorem C12_only_pool_frames : forall cap ls s,
  run false (init cap) ls = Some s -> only_pool_frames (history s).
Proof. intros cap ls s H. apply (safety cap ls s H). Qed.
Print Assumptions C12_only_pool_frames.

(* Completeness.  [run_noloss] = runs none of whose steps is one of the enumerated
   frame-dropping steps [loses] (frame for an unknown or finished exchange or swallowed by
   the relay; unparsable or unexpected frame taken from an exchange; message.write failing on
   a fresh frame; control message for a full send buffer) -- timeouts, error frames,
   connection failures and full relay buffers are NOT excluded.  Then every frame ever
   obtained is released or still referenced by an exchange queue, a send queue, a reader's
   fragment or a writer's fragment ... *)
Theorem C12_no_frame_lost : forall cap ls s,
  run_noloss (init cap) ls = Some s ->
  forall t, In t (gets (history s)) -> In t (rels (history s)) \/ held s t.
Proof. exact no_loss. Qed.
Print Assumptions C12_no_frame_lost.

(* ... hence, when nothing is in flight any more, every frame has been handed back *)
Theorem C12_faultfree_all_released : forall cap ls s,
  run_noloss (init cap) ls = Some s -> quiescent s -> all_released (history s).
Proof. exact noloss_quiescent. Qed.
Print Assumptions C12_faultfree_all_released.

(* such runs are runs: the safety theorems apply to them *)
Theorem C12_noloss_is_run : forall cap ls s, run_noloss (init cap) ls = Some s -> run false (init cap) ls = Some s.
Proof. intros cap ls s. apply run_noloss_run. Qed.
Print Assumptions C12_noloss_is_run.

(* Tie to the source: the model's site table is exactly the list of FramePool.Get/Release
   call sites that go2v extracted from the Go source on this run (Gen/GenSites.v), in the
   same order; a call site added, removed or moved to another function breaks this proof. *)
Theorem C12_sites_generated : map snd site_table = pool_sites.
Proof. exact site_table_is_generated. Qed.
Print Assumptions C12_sites_generated.

(* and every Get/Release event the model can produce names a site of that table *)
Theorem C12_sites_known : forall cap ls s,
  run false (init cap) ls = Some s -> Forall site_known (s_trace s).
Proof. intros cap ls s H. exact (run_sites ls (init cap) s H (Forall_nil _)). Qed.
Print Assumptions C12_sites_known.

(* The pinned tree (dispatchInbound releasing its frame parameter when readMethod fails)
   refutes the first clause: call req with the more-fragments flag, then a continuation
   whose checksum does not match. *)
Theorem C12_pinned_at_most_once_refuted :
  exists s, run true (init 8) pinned_witness = Some s /\ ~ released_at_most_once (history s).
Proof. exact pinned_double_release. Qed.
Print Assumptions C12_pinned_at_most_once_refuted.

(* The application contract in [run] is necessary: without it the reader copies out of a
   released frame. *)
Theorem C12_contract_needed :
  exists s, run_any false (init 8) [LReadCallReq 1 7; LFetch 7 true true true; LRespSysErr 7; LAcc 7] = Some s /\
            ~ no_use_after_release (history s).
Proof. exact contract_needed. Qed.
Print Assumptions C12_contract_needed.

(* ---- non-vacuity ---- *)

(* a complete inbound call with a two-fragment request (handshake, call req, continuation,
   arguments read to the end, response written and sent): accepted by run_noloss, ends
   with nothing in flight in the queues, four pool frames plus two handshake frames all released *)
Definition example_call : list label :=
  [LLocal 1 0; LLocal 1 1; LReadCallReq 1 7; LFetch 7 true true true; LAcc 7;
   LReadFwd 1 (Some 7) 0; LFetch 7 true true true; LAcc 7; LCloseLast 7;
   LWNew 7 true; LWAcc 7; LWFlush 7 false; LWNew 7 true; LWAcc 7; LWFlush 7 true; LWrite 1 false; LWrite 1 false].
Example C12_example_call :
  exists s, run_noloss (init 8) example_call = Some s /\
            gets (history s) = [0; 1; 2; 3; 4; 5] /\ rels (history s) = [0; 1; 2; 3; 4; 5] /\
            x_q (s_mex s 7) = [] /\ s_send s 1 = [] /\ r_complete (s_rdr s 7) = true /\ w_complete (s_wr s 7) = true.
Proof. eexists. split; [vm_compute; reflexivity|]. repeat split. Qed.

(* a faulty run: timeout while the response is being written (the response fragment is never
   sent: code 200000 = obtained by reqResWriter.newFragment, not released), a frame for a finished
   exchange (30000: dropped), a full relay buffer (30400: released by the reader loop), a failed
   connection write (30900) and the drain that follows (30900) *)
Definition example_faults : list label :=
  [LReadCallReq 1 7; LFetch 7 true true true; LCloseLast 7; LWNew 7 true; LCtx 7; LWFlush 7 true;
   LReadFwd 1 (Some 7) 0; LRelaySend 1 2; LRelaySend 1 2; LRelaySend 1 2; LWrite 2 true; LStop 2; LDrain 2].
Example C12_example_faults :
  exists s, run false (init 2) example_faults = Some s /\ tr_okb (s_trace s) = true /\
            map (tok_code (history s)) (gets (history s)) = [31900; 200000; 30000; 30900; 30900; 30400].
Proof. eexists. split; [vm_compute; reflexivity|]. split; reflexivity. Qed.

(* every site of the table is exercised by the model *)
Definition example_sites : list label :=
  [LLocal 1 0; LLocal 1 1; LReadFail 1; LReadRel 1 false; LReadRel 1 true;
   LConnSysErr 1 true false; LConnSysErr 1 true false; LRfsFrag 2 1 false; LWrite 1 false;
   LSendMsg 1 true; LSendMsg 1 false; LWrite 1 true; LSendMsg 1 true; LStop 1; LDrain 1;
   LNewMex 9 1 2; LReadFwd 1 (Some 9) 0; LReadFwd 1 (Some 9) 1; LRecvMsg 9; LRecvMsg 9;
   LReadCallReq 1 7; LFetch 7 true true true; LCloseLast 7; LWNew 7 true].
Example C12_example_sites :
  exists s, run false (init 1) example_sites = Some s /\
    forallb (fun x => existsb (fun e => match e with EGet y _ _ | ERel y _ => y =? x | _ => false end) (s_trace s))
            (map fst site_table) = true.
Proof. eexists. split; [vm_compute; reflexivity|]. vm_compute. reflexivity. Qed.

(* ==================================================================== per completed call

   "on calls that complete without a fault every frame is handed back", stated for ONE call
   while other calls may be in any state (Model/FrameOwnCall.v):
     call_done s k     the call's argument reader reached fragmentingReadComplete, its writer
                       reqResWriterComplete without an error, and completion did not come from
                       InboundCallResponse.SendSystemError / a failed dispatch;
     call_settled s k  call_done and the call's recvCh is empty (the peer sent nothing beyond
                       the last fragment);
     call_holds s k t  frame t waits in the call's recvCh, is an unreleased fragment of its
                       reader, or the unsent fragment of its writer;
     call_toks h k     the frames history h attributes to call k (ever in its recvCh, a
                       fragment of its reader or of its writer). *)

(* On EVERY run -- any schedule, any fault history -- the reader and the writer of a call that
   completed without a fault refer to no frame. *)
Theorem C12_completed_call_reader_writer_hold_nothing : forall cap ls s k,
  run false (init cap) ls = Some s -> call_done s k ->
  forall t, ~ rdr_holds s k t /\ ~ wr_holds s k t.
Proof. exact completed_call_rw_thm. Qed.
Print Assumptions C12_completed_call_reader_writer_hold_nothing.

(* ... so a completed call whose recvCh is drained holds no frame. *)
Theorem C12_completed_call_holds_no_frame : forall cap ls s k,
  run false (init cap) ls = Some s -> call_settled s k -> forall t, ~ call_holds s k t.
Proof. exact completed_call_thm. Qed.
Print Assumptions C12_completed_call_holds_no_frame.

(* C12_faultfree_all_released per completed call, no global quiescence: on a run without
   frame-dropping steps every frame the history attributes to a settled call has been released,
   except fragments it wrote that still wait in a send queue for the connection's writer loop. *)
Theorem C12_faultfree_call_released : forall cap ls s k,
  run_noloss (init cap) ls = Some s -> call_settled s k ->
  forall t, In t (call_toks (history s) k) -> In t (rels (history s)) \/ exists c, In t (s_send s c).
Proof. exact call_frames_released. Qed.
Print Assumptions C12_faultfree_call_released.

(* the same seen from the frame: an unreleased frame that is not in a send queue is held by a
   call that has not settled *)
Theorem C12_faultfree_unreleased_has_open_call : forall cap ls s,
  run_noloss (init cap) ls = Some s ->
  forall t, In t (gets (history s)) ->
    In t (rels (history s)) \/ (exists c, In t (s_send s c)) \/
    (exists k, call_holds s k t /\ ~ call_settled s k).
Proof. exact noloss_per_call. Qed.
Print Assumptions C12_faultfree_unreleased_has_open_call.

(* Each side condition is needed (witness runs, none of whose steps is in [loses]):
   a frame the peer sent beyond the last fragment stays in recvCh of the completed call; *)
Theorem C12_call_drained_needed :
  exists s, run_noloss (init 8) extra_frame_witness = Some s /\ call_done s 9 /\
            exists t, In t (x_q (s_mex s 9)) /\ In t (gets (history s)) /\ ~ In t (rels (history s)).
Proof. exact drained_needed. Qed.
Print Assumptions C12_call_drained_needed.

(* SendSystemError after the handler began to write the response strands the response fragment; *)
Theorem C12_call_quit_needed :
  exists s, run_noloss (init 8) syserr_midwrite_witness = Some s /\
            r_complete (s_rdr s 7) = true /\ w_complete (s_wr s 7) = true /\ w_err (s_wr s 7) = false /\
            x_q (s_mex s 7) = [] /\ wr_holds s 7 1 /\ ~ In 1 (rels (history s)).
Proof. exact quit_needed. Qed.
Print Assumptions C12_call_quit_needed.

(* a deadline that passes while the last fragment is flushed strands that fragment. *)
Theorem C12_call_werr_needed :
  exists s, run_noloss (init 8) timeout_lastflush_witness = Some s /\
            r_complete (s_rdr s 7) = true /\ w_complete (s_wr s 7) = true /\ r_quit (s_rdr s 7) = false /\
            x_q (s_mex s 7) = [] /\ wr_holds s 7 1 /\ ~ In 1 (rels (history s)).
Proof. exact werr_needed. Qed.
Print Assumptions C12_call_werr_needed.

(* non-vacuity: call 7 of [example_call] completes and settles while call 8 on the same
   connection is still reading its request (the state is NOT quiescent: call 8 holds frame 6);
   the history attributes frames 2..5 to call 7, all released *)
Definition example_two_calls : list label :=
  example_call ++ [LReadCallReq 1 8; LFetch 8 true true true; LAcc 8].
Example C12_example_two_calls :
  exists s, run_noloss (init 8) example_two_calls = Some s /\ call_settled s 7 /\
            call_toks (history s) 7 = [2; 3; 3; 4; 5] /\ rels (history s) = [0; 1; 2; 3; 4; 5] /\
            rdr_holds s 8 6 /\ ~ quiescent s.
Proof.
  eexists. split; [vm_compute; reflexivity|]. split; [repeat split|]. split; [reflexivity|]. split; [reflexivity|].
  assert (Hh : rdr_holds (match run_noloss (init 8) example_two_calls with Some s => s | None => init 8 end) 8 6).
  { vm_compute. right. split; reflexivity. }
  split; [exact Hh|]. intros Q. apply (Q 6). left. exists 8. right. left. exact Hh.
Qed.

(* the frame handed to a failed exchange: stopExchanges has latched the error of outbound call 9
   (LErrN), the next response fragment still finds room in recvCh and is queued -- it belongs to
   the call, is read by the application and released exactly once, by the fragment's done() *)
Definition example_latched : list label :=
  [LNewMex 9 1 2; LWNew 9 true; LWAcc 9; LWFlush 9 true; LWrite 1 false;
   LReadFwd 1 (Some 9) 0; LFetch 9 true true true; LAcc 9;
   LErrN 9; LReadFwd 1 (Some 9) 0; LReadFwd 1 (Some 9) 0; LReadFwd 1 (Some 9) 0;
   LFetch 9 true true true; LAcc 9; LReadFwd 1 (Some 9) 0; LFetch 9 true true true; LAcc 9; LFetch 9 true true true].
Example C12_example_latched :
  exists s, run false (init 8) example_latched = Some s /\ tr_okb (s_trace s) = true /\
            (* request fragment; response fragments 1..3 released by done(); fragment 4 refused (recvCh
               full, error latched) and fragment 5 refused although recvCh has room again (frameDropped):
               both released by the reader loop *)
            map (tok_code (history s)) (gets (history s)) = [200900; 31900; 31900; 31900; 30400; 30400] /\
            x_dropped (s_mex s 9) = true /\ r_err (s_rdr s 9) = true.
Proof. eexists. split; [vm_compute; reflexivity|]. repeat split. Qed.

(* ==================================================================== hand-over discipline

   "the library neither reads nor writes it after handing it back" -- statement by statement.
   The interleaving model above treats "a stretch of code that only touches a frame the acting
   goroutine holds" as one atomic step that ENDS with the hand-over (ch <- f, Release(f), go ..).
   That is only faithful if no function of the library touches a frame after the statement that
   hands it over: from that statement on the frame belongs to the pool, or to another goroutine
   that may release it at any moment (the destination connection's writeFrames releases a relayed
   frame as soon as it is written).  The following theorems are about the Go source itself:
   go2v regenerates, on every run, one abstract program per function that hands a frame over
   (Gen/GenFrameUse.v frame_use_table; syntax and path semantics in Spec/FrameUseSpec.v):
   its uses of the frame, (re)bindings, hand-overs, calls that may take the frame, the bool/error
   variables that tell whether they did, and the control flow between them. *)
From Coq Require Import String.
From Verif Require Import Spec.FrameUseSpec Model.FrameUse Gen.GenFrameUse Proofs.FrameUseP.
Local Open Scope string_scope.

(* For every function of the regenerated table and every execution path of its abstract
   program (every choice at every branch, every behaviour of its callees that their ownership
   signatures allow, any number of loop iterations): the trace of what happens to the frame is
   disciplined -- no use, no hand-over, no passing-on after a successful hand-over (sent on a
   channel, released, given to a goroutine, taken by a callee), until the variable is bound to a
   fresh frame.  Uses on the failure branch (the frame was NOT taken) are allowed.
   [row_live0 kind]: parameters and heap fields start owned, local variables start without a frame. *)
Theorem C12_no_touch_after_handover : forall fn cls kind body, In (fn, cls, kind, body) frame_use_table ->
  forall e tr e' k, exec conv_of body e tr e' k -> disciplined (row_live0 kind) tr.
Proof. exact no_touch_after_handover. Qed.
Print Assumptions C12_no_touch_after_handover.

(* The assumption made about callees is discharged: every function with a frame parameter keeps
   its own ownership signature (Model/FrameUse.v conv_table) -- whenever it returns after the
   frame is gone, the returned values say so (release flag false / sent = true / nil error) -- *)
Theorem C12_handover_signatures_kept : forall fn cls body, In (fn, cls, 0, body) frame_use_table ->
  forall e tr e' vs c live', exec conv_of body e tr e' (KRet vs c) -> disc true tr = Some live' ->
  conv_holds (conv_of fn) vs live'.
Proof. exact handover_signatures_kept. Qed.
Print Assumptions C12_handover_signatures_kept.

(* ... and every callee that is given a frame for keeps is such a function of the table, or an
   interface method all of whose implementations are (with the same signature, unless the caller
   assumes the frame gone in any case). *)
Theorem C12_handover_callees_checked : forall fn cls kind body f, In (fn, cls, kind, body) frame_use_table ->
  In f (callees body) -> callee_ok conv_of frame_use_table frame_use_impls f = true.
Proof. exact handover_callees_checked. Qed.
Print Assumptions C12_handover_callees_checked.

(* The checker is sound for ANY table and any signatures, not only today's (this is what turns
   an edit of the source into a failed obligation rather than into a changed definition): *)
Theorem C12_checker_sound : forall cv fn cls kind body, row_check cv (fn, cls, kind, body) = true ->
  forall e tr e' k, exec cv body e tr e' k -> disciplined (row_live0 kind) tr.
Proof. exact checked_row_disciplined. Qed.
Print Assumptions C12_checker_sound.

(* The failure branches: the returns at which a function still owns the frame but neither
   releases it nor hands it on nor tells its caller to release it are exactly the documented
   leaks on fault paths (each is a [loses] step of the interleaving model); everywhere else a
   frame that was not taken goes back to the caller with "release it", who releases it once. *)
Theorem C12_drops_are_the_documented_leaks : table_drops conv_of frame_use_table = expected_drops.
Proof. exact drops_are_expected. Qed.
Print Assumptions C12_drops_are_the_documented_leaks.

(* A frame can also be reached through the heap: the statements that store a frame (or a struct
   bearing one) into a field are exactly the reviewed ones, each of which is a place of the
   interleaving model (fragment of a reader / of a writer) or a view that lives only while the
   reader loop holds the frame. *)
Theorem C12_frame_stores_are_the_reviewed_ones : frame_escapes = expected_escapes.
Proof. exact escapes_are_expected. Qed.
Print Assumptions C12_frame_stores_are_the_reviewed_ones.

(* Tie to the interleaving model.  The hand-over statements of the source (chan send of a
   frame, FramePool.Release, go statement with a frame, fragment.done(), the onDone closure) are
   exactly the model's list, in source order; its Release statements are, function by function,
   the FramePool.Release call sites of Gen/GenSites.v; *)
Theorem C12_handover_sites_generated : map xfer_site xfer_model = frame_xfer_sites.
Proof. exact xfer_sites_generated. Qed.
Print Assumptions C12_handover_sites_generated.

Theorem C12_release_sites_agree :
  forallb (fun f => Nat.eqb (release_count_xfer f) (release_count_pool f))
          (map (fun r => fst (fst (fst r))) xfer_model ++ map fst pool_sites) = true.
Proof. exact release_sites_agree. Qed.
Print Assumptions C12_release_sites_agree.

(* in every run of the model, every hand-over event (a release; a frame entering a send queue,
   an exchange's receive queue or a call's reader) of a step is performed by a hand-over
   statement that the list attributes to that step's label; *)
Theorem C12_model_handovers_are_source_sites : forall ls s,
  Forall (fun te => forallb (handover_okb (fst te)) (snd te) = true) (run_events false s ls).
Proof. exact run_handovers_explained. Qed.
Print Assumptions C12_model_handovers_are_source_sites.

(* and every hand-over statement of the source is performed by one of its labels in a run. *)
Theorem C12_handover_sites_exercised :
  exists s, run false (init 1) xfer_witness = Some s /\
            forallb (row_hit (run_events false (init 1) xfer_witness)) xfer_model = true.
Proof. exact xfer_rows_exercised. Qed.
Print Assumptions C12_handover_sites_exercised.

(* ---- non-vacuity ---- *)

(* the relay's fragment sender as it is: report the size, hand the fragment to the destination,
   release it if it was not taken -- accepted; the same with the report moved after the
   hand-over (a read of a frame the destination's writer may already have released) -- rejected,
   and indeed one of its paths is undisciplined *)
Example C12_example_flush :
  row_check conv_of (s2z "relayFragmentSender.flushFragment", s2z "wf", 0, ex_flush_good) = true /\
  row_check conv_of (s2z "relayFragmentSender.flushFragment", s2z "wf", 0, ex_flush_bad) = false /\
  exists e tr e' k, exec conv_of ex_flush_bad e tr e' k /\ ~ disciplined true tr.
Proof. exact example_flush_thm. Qed.

(* the table is not empty and contains the functions the property is about *)
Example C12_example_table :
  List.length frame_use_table = 30%nat /\ List.length frame_xfer_sites = 23%nat /\
  existsb (fun r => str_eqb (fst (fst (fst r))) (s2z "relayFragmentSender.flushFragment")) frame_use_table = true /\
  existsb (fun r => str_eqb (fst (fst (fst r))) (s2z "Connection.writeFrames")) frame_use_table = true.
Proof. vm_compute. repeat split. Qed.
