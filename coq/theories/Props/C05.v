(* Property C05 -- Every call ends in exactly one outcome by its deadline, under any fault.
   This file contains only statements, each closed by [exact].
   Definitions used: Spec/FragSpec.v (denote), Spec/FragOk.v (frames_ok, ck_chain),
   Proofs/FragRP.v (wf, arg_read, arg_ok, data_of), Model/Cut.v (read_frames, recv_outcome,
   call_outcome, cut_at), Proofs/CutP.v (stream_of, msg_frames, fits, hdr_parses),
   Spec/WaitSpec.v (wsite, has_deadline_exit), Gen/GenWaitSites.v (wait_sites: regenerated
   from the Go source on every run), Model/CallPath.v (run_path, lstep, lrun). *)
From Coq Require Import ZArith List Bool.
From Verif Require Import Base.Wrap Base.Bytes Gen.GenConsts Gen.GenFrame Gen.GenWaitSites
  Model.TypedBuf Model.Messages Model.Crc Model.Frag Model.FragWire Model.Cut Model.CallPath
  Spec.FragSpec Spec.FragOk Spec.Protocol Spec.WaitSpec
  Proofs.CodecP Proofs.FrameP Proofs.FragRP Proofs.CutP Proofs.CallPathP.
Import ListNotations.
Local Open Scope Z_scope.

(* ======================= clause (a): complete correct response or error ================== *)

(* CUT BETWEEN FRAGMENTS, any read pattern.  For every well-formed fragment sequence fs with
   valid running checksums that denotes [a1;a2;a3], every k < |fs| (the receiver gets an error
   after the first k fragments: connection closed, half-closed or stalled), and ALL read
   sizes >= 0: the reader does not panic, never reads all three arguments successfully,
   never becomes Complete; an argument whose Begin/reads/Close all succeeded is exactly the
   argument that was sent; all data handed out is a prefix of the right argument. *)
Theorem C05_prefix_never_success : forall fs ck0 a1 a2 a3,
  wf fs -> ck_new (first_ctype fs) = Some ck0 -> ck_chain ck0 fs ->
  denote (chunks_of fs) = [a1; a2; a3] ->
  forall k, (k < length fs)%nat ->
  forall ns1 ns2 ns3,
  Forall (fun n => 0 <= n) ns1 -> Forall (fun n => 0 <= n) ns2 -> Forall (fun n => 0 <= n) ns3 ->
  exists cb1 l1 cc1 st1 cb2 l2 cc2 st2 cb3 l3 cc3 st3,
    arg_read false ns1 (r_init (firstn k fs)) = Some (cb1, l1, cc1, st1) /\
    arg_read false ns2 st1 = Some (cb2, l2, cc2, st2) /\
    arg_read true ns3 st2 = Some (cb3, l3, cc3, st3) /\
    ~ (arg_ok cb1 l1 cc1 /\ arg_ok cb2 l2 cc2 /\ arg_ok cb3 l3 cc3) /\
    rs_state st3 <> c_fragmentingReadComplete /\
    (arg_ok cb1 l1 cc1 -> data_of l1 = a1) /\ (arg_ok cb2 l2 cc2 -> data_of l2 = a2) /\
    (exists r1, a1 = data_of l1 ++ r1) /\ (exists r2, a2 = data_of l2 ++ r2) /\ (exists r3, a3 = data_of l3 ++ r3).
Proof. exact cut_reader_safe. Qed.

(* the caller's three ArgReadHelper reads (raw.Call): an error for every proper prefix of the
   fragments, exactly [a1;a2;a3] for the whole sequence; no other success value exists *)
Theorem C05_outcome_fragments : forall fs ck0 a1 a2 a3,
  wf fs -> ck_new (first_ctype fs) = Some ck0 -> ck_chain ck0 fs ->
  denote (chunks_of fs) = [a1; a2; a3] ->
  forall n1 n2 n3, 0 < n1 -> 0 < n2 -> 0 < n3 ->
  forall k, (k <= length fs)%nat ->
  call_outcome n1 n2 n3 (firstn k fs) = if (k <? length fs)%nat then OErr else OOk [a1; a2; a3].
Proof. exact cut_call_outcome. Qed.

(* CUT AT ANY BYTE.  The frame loop on the first n bytes of a stream of well-formed frames
   yields exactly the frames completely contained in those bytes (a truncated header or
   payload is a short read, never a frame): all of them iff n is the stream length. *)
Theorem C05_frames_of_prefix : forall frs, Forall wframe_ok frs ->
  forall n fuel, (n <= length (stream_of frs))%nat -> (n < fuel)%nat ->
  exists k, (k <= length frs)%nat /\
            fst (read_frames fuel (firstn n (stream_of frs))) = map hp_of (firstn k frs) /\
            ((n < length (stream_of frs))%nat -> (k < length frs)%nat) /\
            (n = length (stream_of frs) -> k = length frs).
Proof. exact read_frames_cut. Qed.

(* END TO END on the receiving side of either direction (mt0/mtc = call res/call res continue
   at the caller, call req/call req continue at the handler): for every message id, header
   that the message type parses, fragment sequence as above whose frames fit, and EVERY
   byte offset 0 <= n <= |stream|: frame loop + dispatch by id + fragment parser + reader +
   three helper reads give an error when n < |stream| and exactly [a1;a2;a3] when n = |stream|. *)
Theorem C05_cut_any_byte : forall mt0 mtc id hdr0,
  u_ok 1 mt0 -> u_ok 1 mtc -> u_ok 4 id -> hdr_parses mt0 hdr0 -> hdr_parses mtc [] ->
  forall fs ck0 a1 a2 a3,
  wf fs -> ck_new (first_ctype fs) = Some ck0 -> ck_chain ck0 fs ->
  denote (chunks_of fs) = [a1; a2; a3] -> fits hdr0 fs ->
  forall n1 n2 n3, 0 < n1 -> 0 < n2 -> 0 < n3 ->
  let stream := stream_of (msg_frames true mt0 mtc id hdr0 fs) in
  forall n, 0 <= n <= zlen stream ->
  recv_outcome id mt0 mtc n1 n2 n3 (cut_at n stream) = if n <? zlen stream then OErr else OOk [a1; a2; a3].
Proof. exact cut_stream_outcome. Qed.

(* the header hypotheses hold for every in-limit call res / call req header and for continuations *)
Theorem C05_headers_parse :
  (forall m, callres_ok m -> hdr_parses c_messageTypeCallRes (spec_callres m)) /\
  (forall m ttl, callreq_ok m ttl -> hdr_parses c_messageTypeCallReq (spec_callreq m ttl)) /\
  hdr_parses c_messageTypeCallResContinue [] /\ hdr_parses c_messageTypeCallReqContinue [].
Proof. exact headers_parse. Qed.

(* ONE OUTCOME (partial; superseded by C05_one_outcome / C05_success_is_denotation below, which
   cover hostile fragments and arbitrary scripts).  Wanted: for every input (also hostile fragments) the caller sees
   exactly one terminal event, success xor error, and nothing after an error succeeds.
   Proved here: once the reader's error is set (any state, any input), every later argument
   read returns that error, no data, and does not change the state.  That every error CODE
   returned also sets the error is proved for well-formed sequences only (C01_exact_read:
   sticky); the delivery race between the exchange's error latch and queued frames
   (mex.recvPeerFrame) is checked by the engine's oracle only. *)
Theorem C05_one_outcome_partial : forall last ns st e, rs_err st = e -> e <> 0 ->
  arg_read last ns st = Some (e, map (fun _ => ([], e)) ns, e, st).
Proof. exact arg_read_err. Qed.

(* ======================= clause (b): control returns by the deadline ===================== *)

(* THE GENERATED TABLE: every blocking statement on the outbound call path (closure of the
   call API under the static call graph, see Gen/GenWaitSites.v) offers an exit bound to the
   caller's deadline (ctx.Done() or a connection deadline set from the context) -- except the
   release of the new-connection semaphore, which never blocks (C05_release_never_blocks). *)
Theorem C05_wait_exits : Forall (fun w => has_deadline_exit w \/ is_release w) wait_sites.
Proof. exact wait_sites_ok. Qed.

(* no mutex of the package is held across network I/O, and no such Lock is on the path *)
Theorem C05_no_lock_across_io : io_lock_count = 0 /\ Forall (fun w => ws_kind w <> WLock) wait_sites.
Proof. exact no_lock_across_io. Qed.

(* the semaphore of peer.go: any number of callers, any interleaving of enter / acquire /
   give up / release: at most one holder, the slot holds a token exactly while there is a
   holder, and the holder's release is always enabled *)
Theorem C05_release_never_blocks : forall ca n ls s, lrun ca (linit n) ls = Some s ->
  holders s <= 1 /\ l_tok s = holders s /\
  forall i, nth i (l_pcs s) LDone = LHold -> lstep ca s (LRelease i) <> None.
Proof. exact connlock_safe. Qed.

(* ... and a waiting caller can always leave through its context *)
Theorem C05_waiter_can_leave : forall s i, nth i (l_pcs s) LDone = LWait -> lstep true s (LGiveUp i) <> None.
Proof. exact connlock_waiter_can_leave. Qed.

(* DEADLINE (partial: time-abstract).  Wanted: raw.Call returns by deadline + slack on the
   wall clock.  Proved: in the model where code between blocking statements takes no time
   and a blocked goroutine wakes as soon as an exit fires, for every deadline dl, every
   moment dc <= dl at which the context is done (deadline or cancellation), EVERY sequence
   of waits each of which has a deadline exit or finds its event already there, every
   timing of data / error / timer events and every start time t, the goroutine is past the
   last wait no later than max(t, dl).  Missing (measured by the engine, not provable
   here): wake-up latency of the Go runtime, run time of the non-blocking code, accuracy
   of timers; and the table is a syntactic approximation of the code (trusted base). *)
Theorem C05_deadline_partial : forall dc dl, dc <= dl -> forall path,
  Forall (fun s => p_ready s = true \/ has_deadline_exit (p_site s)) path ->
  forall t, exists t', run_path dc dl path t = Some t' /\ t <= t' /\ t' <= Z.max t dl.
Proof. exact path_by_deadline. Qed.

(* the criterion is necessary in that model: a wait without a deadline exit blocks for ever
   when none of its events happens *)
Theorem C05_exit_needed : forall w, has_deadline_exitb w = false ->
  forall dc dl t, wait_leave dc dl w (mkEv None None None) t = None.
Proof. exact no_deadline_exit_blocks. Qed.

(* the shape the pinned tree had (a plain mutex around Connect, repaired by the fix: commit
   in peer.go): a caller queued behind a holder has no enabled step at all *)
Theorem C05_plain_mutex_would_block : exists ls s,
  lrun false (linit 2) ls = Some s /\ nth 1 (l_pcs s) LDone = LWait /\ nth 0 (l_pcs s) LDone = LHold /\
  lstep false s (LEnter 1) = None /\ lstep false s (LAcquire 1) = None /\
  lstep false s (LGiveUp 1) = None /\ lstep false s (LRelease 1) = None.
Proof. exact connlock_mutex_blocks. Qed.

(* dial and handshake run under the caller's deadline (or the earlier connect timeout);
   without a deadline the handshake gets 5 s *)
Theorem C05_ttl_budget :
  (forall now d ct, connect_deadline now d ct <= d) /\
  (forall now d, init_deadline now (Some d) = d /\ init_deadline now None = now + 5 * 1000000000).
Proof. exact (conj connect_budget init_budget). Qed.

Print Assumptions C05_prefix_never_success.
Print Assumptions C05_outcome_fragments.
Print Assumptions C05_frames_of_prefix.
Print Assumptions C05_cut_any_byte.
Print Assumptions C05_headers_parse.
Print Assumptions C05_one_outcome_partial.
Print Assumptions C05_wait_exits.
Print Assumptions C05_no_lock_across_io.
Print Assumptions C05_release_never_blocks.
Print Assumptions C05_waiter_can_leave.
Print Assumptions C05_deadline_partial.
Print Assumptions C05_exit_needed.
Print Assumptions C05_plain_mutex_would_block.
Print Assumptions C05_ttl_budget.

(* ---------------- non-vacuity ---------------- *)
(* the premises hold for a concrete 3-fragment message with each checksum type, and the
   outcome over ALL byte offsets of its call res stream is as stated *)
Definition ex_res_hdr : list Z := spec_callres (mkCallRes 0 (mkSpan 1 2 3 1) [([97;115], [114;97;119])]).
Definition ex_stream (c : ckst) : list Z :=
  stream_of (msg_frames true c_messageTypeCallRes c_messageTypeCallResContinue 7 ex_res_hdr (seal c ex_layout)).

Example C05_example_premises : forall c, In c [mkCk 0 0; mkCk 1 0; mkCk 3 0] ->
  wf (seal c ex_layout) /\ ck_new (first_ctype (seal c ex_layout)) = Some c /\ ck_chain c (seal c ex_layout) /\
  denote (chunks_of (seal c ex_layout)) = [[1;2]; [3;4]; [5;6]].
Proof. exact ex_premises. Qed.

Example C05_example_all_offsets :
  forallb (fun c =>
    forallb (fun n =>
      match recv_outcome 7 c_messageTypeCallRes c_messageTypeCallResContinue 512 512 512 (cut_at (Z.of_nat n) (ex_stream c)) with
      | OErr => Z.of_nat n <? zlen (ex_stream c)
      | OOk args => (Z.of_nat n =? zlen (ex_stream c)) &&
                    match args with [a1; a2; a3] => bytes_eqb a1 [1;2] && bytes_eqb a2 [3;4] && bytes_eqb a3 [5;6] | _ => false end
      | OPanic => false
      end) (seq 0 (S (length (ex_stream c)))))
    [mkCk 0 0; mkCk 1 0; mkCk 3 0] = true /\ (length (ex_stream (mkCk 1 0)) > 100)%nat.
Proof.
  split; [|vm_compute; repeat constructor].
  apply forallb_forall. intros c Hc. apply forallb_forall. intros n Hn. apply in_seq in Hn.
  (* every offset at once: the stream meets the premises of C05_cut_any_byte *)
  destruct (C05_example_premises c Hc) as (Hwf & Hck & Hch & Hden).
  assert (Hh : hdr_parses c_messageTypeCallRes ex_res_hdr).
  { apply (proj1 C05_headers_parse). repeat split; repeat constructor; vm_compute; (discriminate || reflexivity). }
  assert (Hf : fits ex_res_hdr (seal c ex_layout)).
  { destruct Hc as [<-|[<-|[<-|[]]]]; repeat constructor; vm_compute; discriminate. }
  assert (U : u_ok 1 c_messageTypeCallRes /\ u_ok 1 c_messageTypeCallResContinue /\ u_ok 4 7)
    by (repeat split; (discriminate || reflexivity)).
  assert (Hl : Z.of_nat n <= zlen (ex_stream c)) by (apply Nat2Z.inj_le, Nat.lt_succ_r, Hn).
  unfold ex_stream in *.
  rewrite (C05_cut_any_byte _ _ 7 ex_res_hdr (proj1 U) (proj1 (proj2 U)) (proj2 (proj2 U)) Hh
             (proj1 (proj2 (proj2 C05_headers_parse))) _ c _ _ _ Hwf Hck Hch Hden Hf
             512 512 512 eq_refl eq_refl eq_refl) by (split; [apply Nat2Z.is_nonneg|exact Hl]).
  destruct (Z.of_nat n <? _) eqn:E; [reflexivity|].
  rewrite (proj2 (Z.eqb_eq _ _) (Z.le_antisymm _ _ Hl (proj1 (Z.ltb_ge _ _) E))). reflexivity.
Qed.

(* the table is not empty and contains the sites the property text names; the shape of the
   pinned tree's lock site fails the criterion *)
Example C05_example_table :
  (7 <= length wait_sites)%nat /\
  existsb (fun w => wkind_eqb (ws_kind w) WDial) wait_sites = true /\
  existsb (fun w => wkind_eqb (ws_kind w) WNetIO) wait_sites = true /\
  (3 <= length (filter (fun w => wkind_eqb (ws_kind w) WSelect && existsb (wexit_eqb XErrLatch) (ws_exits w)) wait_sites))%nat /\
  has_deadline_exitb (mkWsite [80;101;101;114;46;71;101;116;67;111;110;110;101;99;116;105;111;110] WLock []) = false.
Proof. vm_compute. repeat split; repeat constructor. Qed.

(* a path through the real table: lock wait, dial, handshake write+read, send, receive --
   with a peer that never answers (no data event anywhere) control is back at the deadline *)
Example C05_example_path :
  let silent := mkEv None None None in
  run_path 1000 1000 (map (fun w => mkStep w silent false) (filter has_deadline_exitb wait_sites)) 0 = Some 1000.
Proof. vm_compute. reflexivity. Qed.

(* ===================================================================================== *)
(* HOSTILE INPUT (strengthening).  Definitions: Proofs/HostileP.v (r_step, r_trace, op_ok,     *)
(* frag_parsed, tr_obs, completions, complete_ok, dfrag), Model/Budget.v, Gen/GenBudget.v.     *)
(* ===================================================================================== *)
From Verif Require Import Gen.GenBudget Model.Budget Proofs.PeerInputP Proofs.HostileP Proofs.BudgetP.

(* every fragment the fragment parser accepts, for ANY payload bytes and message type, has a
   known checksum type and a checksum field of that type's size: the premise of the next theorems *)
Theorem C05_parser_output_parsed : forall mt payload f, bytes_ok payload = true ->
  parse_frag_payload mt payload = (0, f) -> frag_parsed f.
Proof. exact parsed_frag_parsed. Qed.

(* ONE OUTCOME, for ANY fragment list (any chunk structure, checksum fields, more-flags) whose
   fragments passed the parser and ANY script of Begin / Read(n) / Close / helper reads (helper
   buffer size > 0): the reader model never panics; every error code returned (anything but
   nil and io.EOF) is also the reader's sticky error, and from the first error on every
   operation returns that error and no data ([sticky]); at most one operation of the script
   takes the reader into state Complete; and whenever the reader is Complete the fragments it
   consumed form a well-formed message (each fragment has a chunk, the more-fragments flag is
   set on all but the last, clear on the last) whose every checksum verified against the
   running checksum of the first fragment's type. *)
Theorem C05_one_outcome : forall fs ops, Forall frag_parsed fs -> Forall op_ok ops ->
  exists t, r_trace ops (r_init fs) = Some t /\ length t = length ops /\
    Forall (fun x => is_err (snd (fst x)) -> rs_err (snd x) = snd (fst x)) t /\
    sticky (tr_obs t) /\
    (completions (r_init fs) t <= 1)%nat /\
    Forall (fun x => rs_state (snd x) = c_fragmentingReadComplete -> complete_ok fs (snd x)) t.
Proof. exact hostile_reader. Qed.

(* ... and Complete is absorbing: once there, every operation fails without handing out data *)
Theorem C05_complete_absorbing : forall o st, op_ok o -> hs st -> rs_state st = c_fragmentingReadComplete ->
  exists c st', r_step o st = Some ([], c, st') /\ is_err c /\ rs_state st' = c_fragmentingReadComplete /\ rs_in st' = rs_in st.
Proof. exact complete_absorbing. Qed.

(* the caller's three helper reads on a prefix of ANY fragment list: an error, or exactly the
   outcome on the whole list (fragments that follow never turn a success into something else) *)
Theorem C05_more_fragments_never_alter : forall n1 n2 n3 pre post, 0 < n1 -> 0 < n2 -> 0 < n3 ->
  call_outcome n1 n2 n3 pre = OErr \/ call_outcome n1 n2 n3 (pre ++ post) = call_outcome n1 n2 n3 pre.
Proof. exact call_outcome_ext. Qed.

(* PREFIX NEVER SUCCESS, ARBITRARY PEER STREAMS.  For ANY byte stream (not only one a writer
   produced), any message id / message types and EVERY byte offset n at which the stream is
   cut, half-closed or stalled: the receiving side (frame loop, dispatch by id, fragment
   parser, reader, three helper reads) does not panic, and its outcome on the first n bytes
   is an error or is the outcome on the whole stream -- a cut never produces a success and
   never alters one. *)
Theorem C05_prefix_never_success_hostile : forall id mt0 mtc n1 n2 n3 stream, 0 < n1 -> 0 < n2 -> 0 < n3 ->
  bytes_ok stream = true -> forall n,
  recv_outcome id mt0 mtc n1 n2 n3 (cut_at n stream) <> OPanic /\
  (recv_outcome id mt0 mtc n1 n2 n3 (cut_at n stream) = OErr \/
   recv_outcome id mt0 mtc n1 n2 n3 (cut_at n stream) = recv_outcome id mt0 mtc n1 n2 n3 stream).
Proof. exact hostile_stream_cut. Qed.

(* BUDGETS AGAINST THE SOURCE.  The hand-written handshake deadline is the function go2v
   regenerates from setInitDeadline on every run; the connect budget is Channel.Connect's
   context.WithTimeout on a context with a deadline; for every context and connect timeout
   the dialer's context ends no later than the caller's and the handshake deadline is the
   dialer context's deadline (5 s from the handshake when there is none). *)
Theorem C05_init_deadline_generated : forall now od,
  init_deadline now od =
  setInitDeadline now (match od with Some _ => true | None => false end) (match od with Some d => d | None => 0 end).
Proof. exact init_deadline_generated. Qed.

Theorem C05_connect_ctx_deadline : forall now d ct, connect_ctx now (Some d) ct = Some (connect_deadline now d ct).
Proof. exact connect_ctx_deadline. Qed.

Theorem C05_budget_bounds : forall now now' od ct,
  (forall d, od = Some d -> exists d', connect_ctx now od ct = Some d' /\ d' <= d /\ handshake_deadline now now' od ct = d') /\
  (0 < ct -> exists d', connect_ctx now od ct = Some d' /\ d' <= now + ct /\ handshake_deadline now now' od ct = d') /\
  (od = None -> ct <= 0 -> connect_ctx now od ct = None /\ handshake_deadline now now' od ct = now' + 5000000000).
Proof. exact budget_bounds. Qed.

(* SUCCESS ON HOSTILE INPUT IS A DENOTATION.  For ANY fragment list that passed the parser: if
   the caller's three helper reads all succeed, the list splits into the consumed fragments
   [pre] and an untouched rest; [pre] is a well-formed message (each fragment has a chunk, the
   more-fragments flag is set on all but the last) whose every checksum verified; and the
   arguments returned are exactly what [pre] denotes by the protocol document (Spec/FragSpec.v).
   So a partial, altered or foreign response is reported as success only if it carries
   valid running checksums over a complete message (C02 bounds how likely that is). *)
Theorem C05_success_is_denotation : forall n1 n2 n3 fs args, 0 < n1 -> 0 < n2 -> 0 < n3 ->
  Forall frag_parsed fs -> call_outcome n1 n2 n3 fs = OOk args ->
  exists pre post c0, fs = pre ++ post /\ wf pre /\ ck_new (first_ctype pre) = Some c0 /\ ck_chain c0 pre /\
    f_more (last pre dfrag) = false /\ args = denote (chunks_of pre).
Proof. exact hostile_success_denote. Qed.

(* ... end to end for ARBITRARY peer bytes: the receiving side of a call (frame loop, dispatch
   by id, fragment parser, reader, helper reads) reports success only with the denotation of a
   checksum-verified well-formed message among the fragments the stream delivered *)
Theorem C05_stream_success_is_denotation : forall id mt0 mtc n1 n2 n3 stream args, 0 < n1 -> 0 < n2 -> 0 < n3 ->
  bytes_ok stream = true -> recv_outcome id mt0 mtc n1 n2 n3 stream = OOk args ->
  exists pre post c0, delivered id mt0 mtc stream = pre ++ post /\ wf pre /\ ck_new (first_ctype pre) = Some c0 /\
    ck_chain c0 pre /\ f_more (last pre dfrag) = false /\ args = denote (chunks_of pre).
Proof. exact hostile_stream_success. Qed.

Print Assumptions C05_success_is_denotation.
Print Assumptions C05_stream_success_is_denotation.
Print Assumptions C05_parser_output_parsed.
Print Assumptions C05_one_outcome.
Print Assumptions C05_complete_absorbing.
Print Assumptions C05_more_fragments_never_alter.
Print Assumptions C05_prefix_never_success_hostile.
Print Assumptions C05_init_deadline_generated.
Print Assumptions C05_connect_ctx_deadline.
Print Assumptions C05_budget_bounds.

(* ---------------- non-vacuity (hostile) ---------------- *)
(* hostile fragment lists: a forged checksum, a more-flag on the last fragment, a fragment
   after the last one, a fragment without chunks -- all [frag_parsed]; a script with reads
   of size 0, 1 and 1000 and stray operations: the trace exists (no panic), errors are
   sticky, and the reader is Complete only in the one list whose checksums are right *)
Definition hx_good : list frag := seal (mkCk 1 0) ex_layout.
Definition hx_forged : list frag :=
  match hx_good with f :: r => mkFrag (f_more f) (f_ctype f) [1; 2; 3; 4] (f_chunks f) :: r | [] => [] end.
Definition hx_trailing : list frag := hx_good ++ hx_good.
Definition hx_nochunks : list frag := [mkFrag false 0 [] []].
Definition hx_script : list rop :=
  [RClose; RBegin false; RRead 0; RRead 1; RRead 1000; RClose; RBegin false; RHelper 512; RBegin true; RHelper 7; RBegin true; RRead 3; RClose].

Definition frag_parsedb (f : frag) : bool :=
  match ck_new (f_ctype f) with None => false | Some _ => zlen (f_ck f) =? ChecksumSize (f_ctype f) end.

Example C05_example_hostile :
  forallb (fun fs => forallb frag_parsedb fs) [hx_good; hx_forged; hx_trailing; hx_nochunks] = true /\
  (* the well-formed list read by helpers: success, Complete exactly at the end *)
  call_outcome 512 512 512 hx_good = OOk [[1;2]; [3;4]; [5;6]] /\
  (* trailing fragments after a complete message do not alter the success; the forged checksum,
     and the chunk-less fragment, are errors *)
  call_outcome 512 512 512 hx_trailing = OOk [[1;2]; [3;4]; [5;6]] /\
  call_outcome 512 512 512 hx_forged = OErr /\ call_outcome 512 512 512 hx_nochunks = OErr /\
  (* the stray script never panics on any of them *)
  forallb (fun fs => match r_trace hx_script (r_init fs) with Some _ => true | None => false end)
          [hx_good; hx_forged; hx_trailing; hx_nochunks] = true /\
  (* without the parser's guarantee the model DOES panic (unknown checksum type 9): the premise is needed *)
  r_trace [RBegin false] (r_init [mkFrag false 9 [] [[1]]]) = None.
Proof. vm_compute. repeat split; reflexivity. Qed.

(* the success on the list with trailing fragments is the denotation of its verified prefix *)
Example C05_example_denotation :
  call_outcome 512 512 512 hx_trailing = OOk (denote (chunks_of hx_good)) /\ hx_trailing = hx_good ++ hx_good /\
  ck_chain (mkCk 1 0) hx_good /\ denote (chunks_of hx_trailing) <> denote (chunks_of hx_good).
Proof. split; [vm_compute; reflexivity|]. split; [reflexivity|]. split; [apply seal_chain|]. vm_compute. discriminate. Qed.

(* arbitrary bytes as a peer stream: garbage, and a valid stream with garbage appended, at all offsets *)
Example C05_example_hostile_stream :
  let s := ex_stream (mkCk 1 0) ++ [0; 16; 4; 0; 0; 0; 0; 7; 0; 0; 0; 0; 0; 0; 0; 0; 255; 255] in
  forallb (fun n =>
    match recv_outcome 7 c_messageTypeCallRes c_messageTypeCallResContinue 512 512 512 (cut_at (Z.of_nat n) s) with
    | OErr => Z.of_nat n <? zlen (ex_stream (mkCk 1 0))
    | OOk args => (zlen (ex_stream (mkCk 1 0)) <=? Z.of_nat n) &&
                  match args with [a1; a2; a3] => bytes_eqb a1 [1;2] && bytes_eqb a2 [3;4] && bytes_eqb a3 [5;6] | _ => false end
    | OPanic => false
    end) (seq 0 (S (length s))) = true.
Proof. vm_compute. reflexivity. Qed.

(* the budget model on concrete numbers: connect timeout below / above the deadline, none *)
Example C05_example_budget :
  connect_ctx 10 (Some 300) 100 = Some 110 /\ connect_ctx 10 (Some 300) 1000 = Some 300 /\ connect_ctx 10 (Some 300) 0 = Some 300 /\
  connect_ctx 10 None 0 = None /\ handshake_deadline 10 12 None 0 = 12 + 5000000000 /\ handshake_deadline 10 12 (Some 300) 100 = 110.
Proof. vm_compute. repeat split; reflexivity. Qed.

(* ===================================================================================== *)
(* LOCKS AS BLOCKING SITES (strengthening).  A sync.Mutex acquisition has no exit bound to   *)
(* the caller's deadline; it is bounded only through the lock discipline of EVERY user of    *)
(* the mutex.  Definitions: Spec/LockProgSpec.v (lock programs, their executions xs/xb with the  *)
(* trace of lock events, exit_clean, ev_ok, lock_disciplined, plain_mutex), Model/LockProg.v *)
(* (checker fn_ok; thread model tstep/trun, ops_ok, sections_left), Gen/GenLockProgs.v       *)
(* (lockp_progs, lockp_mutexes, lockp_sites, lockp_sites_conn: regenerated from the Go source on *)
(* every run by go2v/lockprogs.go), Proofs/LockProgP.v.                                      *)
(* ===================================================================================== *)
From Verif Require Import Spec.LockProgSpec Gen.GenLockProgs Model.LockProg Proofs.LockProgP.

(* THE GENERATED LOCK PROGRAMS.  For every function and function literal of package tchannel
   that performs a lock operation (control-flow skeleton regenerated from the source), EVERY
   execution of the skeleton -- all branches, any number of loop iterations --
     - that ends in a return or at the end of the body holds no lock after the deferred
       unlocks have run, and never releases a lock it does not hold           (balance),
     - executes a blocking statement (select without default, channel operation, network
       I/O, dial, Wait, Sleep; here or in a callee of the static call graph) only while no
       plain mutex is held (the context-aware semaphore of peer.go may be)  (no blocking),
     - takes a mutex (here or in a callee) only if it is strictly smaller, in the numbering
       of lockp_mutexes, than every lock held at that moment            (order, no re-entry). *)
Theorem C05_lock_discipline_generated : Forall (lock_disciplined (sem_of lockp_mutexes)) lockp_progs.
Proof. exact lock_progs_disciplined. Qed.

(* the checker that decides this over the generated programs is sound for every execution,
   for any program and any set of semaphores *)
Theorem C05_lock_checker_sound : forall sem f, fn_ok sem f = true -> lock_disciplined sem f.
Proof. exact fn_ok_sound. Qed.

(* THE COMBINED TABLE.  Every blocking site on the call path -- the waits of C05_wait_exits
   and the lock acquisitions in the closure of the caller-side entry points, of the connection
   goroutines, the inbound side, the relay and the connection failure path -- is either a wait
   with an exit bound to the caller's deadline (ctx.Done() / context-derived connection
   deadline; or the never-blocking semaphore release), or the acquisition of a plain mutex of
   the table, inside a function whose lock program is in the table, all of whose users follow
   the lock discipline. *)
Theorem C05_every_blocking_site_bounded : Forall (bsite_bounded lockp_mutexes lockp_progs) call_path_sites.
Proof. exact all_blocking_sites_bounded. Qed.

(* WHY THE DISCIPLINE BOUNDS A LOCK WAIT.  Threads whose lock operations follow the discipline
   (ops_ok: acquisitions strictly downwards, releases of held mutexes, waits only with nothing
   held, nothing held at the end), any number of them, any interleaving, any timing of the
   environment's events: in every reachable state
     - if some mutex is held, a thread that holds one has an enabled step of its own (no
       deadlock among lock holders, no holder waits for the environment), and
     - the holders alone -- without any event of the environment, timer or step of a thread
       that holds nothing -- reach a state in which every mutex is free in exactly
       sections_left s steps, the number of operations left in the open critical sections.
   A goroutine waiting for a mutex therefore waits no longer than the holders' critical
   sections take, and those contain no blocking statement. *)
Theorem C05_lock_wait_bounded : forall threads ls s,
  Forall (fun ops => ops_ok [] ops = true) threads -> trun (tinit threads) ls = Some s ->
  (~ all_free s -> exists i held ops, nth i s ([], []) = (held, ops) /\ held <> [] /\ exists s1, tstep s (TStep i) = Some s1) /\
  (exists ls' s', Forall is_tstep ls' /\ length ls' = sections_left s /\ trun s ls' = Some s' /\ all_free s').
Proof. exact lock_wait_bounded. Qed.

(* the discipline is necessary: a thread that returns with the mutex held (a return path
   without the matching Unlock) is refused by ops_ok, and a second thread that then wants the
   mutex waits for ever -- no label is enabled in that state, whatever the environment does *)
Theorem C05_leaked_lock_blocks_forever :
  ops_ok [] [OAcq 4] = false /\
  exists s, trun (tinit [[OAcq 4]; [OAcq 4; ORel 4]]) [TStep 0] = Some s /\
    nth 1 s ([], []) = ([], [OAcq 4; ORel 4]) /\ forall l, tstep s l = None.
Proof. exact leaked_lock_blocks. Qed.

(* ... and the lock program of that shape is refused by the checker because it HAS an
   execution that returns holding the lock *)
Theorem C05_leaking_program_refused :
  fn_ok (fun _ => false) ex_leak = false /\ ~ lock_disciplined (fun _ => false) ex_leak /\
  fn_ok (fun _ => false) ex_block = false /\ fn_ok (fun _ => false) ex_order = false /\ fn_ok (fun _ => false) ex_good = true.
Proof. exact (conj (proj1 checker_refuses) (conj leak_not_disciplined (proj2 checker_refuses))). Qed.

(* THE LINK between the two: every execution of a disciplined lock program that does not end
   in a panic performs -- events of its trace, then the deferred unlocks at the exit, operations
   on semaphores left out -- a list of lock operations that the thread model accepts *)
Theorem C05_program_runs_are_threads : forall sem f, lock_disciplined sem f ->
  forall c s tr, xb (lf_body f) hinit c s tr -> c <> CPanic -> ops_ok [] (thread_of_run sem tr s) = true.
Proof. exact run_is_thread. Qed.

(* ... hence for ANY number of goroutines, each executing ANY of the generated lock programs
   along ANY of its paths, in ANY interleaving: in every reachable state a lock holder can move,
   and the holders alone free every mutex within the length of the open critical sections *)
Theorem C05_generated_programs_bound_lock_waits : forall runs : list (lfunc * ltrace * hst),
  Forall (fun r => let '(f, tr, s) := r in In f lockp_progs /\ exists c, c <> CPanic /\ xb (lf_body f) hinit c s tr) runs ->
  forall ls st, trun (tinit (map (fun r => let '(f, tr, s) := r in thread_of_run (sem_of lockp_mutexes) tr s) runs)) ls = Some st ->
  (~ all_free st -> exists i held ops, nth i st ([], []) = (held, ops) /\ held <> [] /\ exists s1, tstep st (TStep i) = Some s1) /\
  (exists ls' s', Forall is_tstep ls' /\ length ls' = sections_left st /\ trun st ls' = Some s' /\ all_free s').
Proof. exact generated_programs_bound_lock_waits. Qed.

Print Assumptions C05_program_runs_are_threads.
Print Assumptions C05_generated_programs_bound_lock_waits.
Print Assumptions C05_lock_discipline_generated.
Print Assumptions C05_lock_checker_sound.
Print Assumptions C05_every_blocking_site_bounded.
Print Assumptions C05_lock_wait_bounded.
Print Assumptions C05_leaked_lock_blocks_forever.
Print Assumptions C05_leaking_program_refused.

(* ---------------- non-vacuity ---------------- *)
(* the generated tables contain the functions, mutexes and acquisitions the property is about *)
Example C05_example_lock_tables :
  (60 <= length lockp_progs)%nat /\ (25 <= length lockp_sites)%nat /\ (50 <= length call_path_sites)%nat /\
  has_prog [109; 101; 115; 115; 97; 103; 101; 69; 120; 99; 104; 97; 110; 103; 101; 83; 101; 116; 46; 110; 101; 119; 69; 120; 99; 104; 97; 110; 103; 101] = true /\ has_prog [109; 101; 115; 115; 97; 103; 101; 69; 120; 99; 104; 97; 110; 103; 101; 83; 101; 116; 46; 114; 101; 109; 111; 118; 101; 69; 120; 99; 104; 97; 110; 103; 101] = true /\ has_prog [109; 101; 115; 115; 97; 103; 101; 69; 120; 99; 104; 97; 110; 103; 101; 83; 101; 116; 46; 115; 116; 111; 112; 69; 120; 99; 104; 97; 110; 103; 101; 115] = true /\ has_prog [67; 111; 110; 110; 101; 99; 116; 105; 111; 110; 46; 114; 101; 97; 100; 83; 116; 97; 116; 101] = true /\
  has_prog [114; 101; 108; 97; 121; 73; 116; 101; 109; 115; 46; 65; 100; 100] = true /\ has_prog [80; 101; 101; 114; 46; 71; 101; 116; 67; 111; 110; 110; 101; 99; 116; 105; 111; 110] = true /\
  has_mutex [109; 101; 115; 115; 97; 103; 101; 69; 120; 99; 104; 97; 110; 103; 101; 83; 101; 116] = true /\ has_mutex [67; 111; 110; 110; 101; 99; 116; 105; 111; 110; 46; 115; 116; 97; 116; 101; 77; 117; 116] = true /\ has_mutex [114; 101; 108; 97; 121; 73; 116; 101; 109; 115] = true /\ has_mutex [80; 101; 101; 114] = true /\
  Nat.leb 5 (sites_of_mutex [109; 101; 115; 115; 97; 103; 101; 69; 120; 99; 104; 97; 110; 103; 101; 83; 101; 116]) = true /\ Nat.leb 3 (sites_of_mutex [67; 111; 110; 110; 101; 99; 116; 105; 111; 110; 46; 115; 116; 97; 116; 101; 77; 117; 116]) = true /\ Nat.leb 4 (sites_of_mutex [114; 101; 108; 97; 121; 73; 116; 101; 109; 115]) = true.
Proof. vm_compute. repeat split; repeat constructor. Qed.

(* the thread model's hypotheses hold for a concrete system with a nested acquisition, and a
   waiter exists in a reachable state of it *)
Example C05_example_threads : Forall (fun ops => ops_ok [] ops = true) ex_threads /\
  exists s, trun (tinit ex_threads) [TStep 1; TStep 1] = Some s /\ sections_left s = 2%nat /\ tstep s (TStep 0) = None.
Proof. exact ex_threads_ok. Qed.

(* ===================================================================================== *)
(* ERROR NOTIFICATION AGAINST PENDING FRAMES (strengthening).  Clause (a) under every          *)
(* scheduling of the error notification against pending frames: between the byte stream and    *)
(* the fragment reader sits the call's exchange (mex.go): a bounded queue filled by the       *)
(* connection reader (forwardPeerFrame), emptied by the caller (recvPeerFrame), with an error *)
(* latch that any goroutine may set (stopExchanges after a connection error).                 *)
(* Definitions: Spec/ChanProg.v (the vocabulary of channel programs), Gen/GenMexProg.v        *)
(* (mexForwardPeerFrame, mexRecvPeerFrame: REGENERATED from mex.go on every run by            *)
(* go2v/chanprog.go), Model/MexProg.v (meaning of a channel program on an exchange;            *)
(* prog_step_obs), Model/Mex.v (the interleaving system of C04: step_obs, run, ghost history  *)
(* g_received, s_wire), Proofs/MexP.v (window), Proofs/ErrQP.v (prog_run, frs_of, gap_fs),    *)
(* Model/ErrQ.v (the scenario semantics the engine errq compares the implementation with).    *)
(* ===================================================================================== *)
From Verif Require Import Spec.ChanProg Gen.GenMexProg Spec.Demux Model.Mex Proofs.MexP Model.MexProg Proofs.MexProgP
  Model.ErrQ Proofs.ErrQP.

(* THE TIE TO THE SOURCE.  The order of the tests in messageExchange.forwardPeerFrame -- context
   error, frameDropped, then the select {room in recvCh | context done | error latch: one last
   non-blocking send, else set frameDropped and refuse} -- and in messageExchange.recvPeerFrame --
   context error, then select {a queued frame (checked against the exchange's id) | context done |
   error latch: one last non-blocking receive, else the latched error} -- as regenerated from
   mex.go, interpreted as one atomic action per run-to-select / per communication, give EXACTLY
   the steps LFwdCheck, LFwdSend, LFwdCtxDone, LFwdErr, LRecvCheck, LRecvFrame, LRecvCtxDone,
   LRecvErr of the exchange model, in every state.  Any edit of the two functions that changes
   a test, a case, a result or their order changes the generated programs and breaks this proof. *)
Theorem C05_exchange_steps_generated : forall s l,
  prog_step_obs mexForwardPeerFrame mexRecvPeerFrame s l = step_obs true s l.
Proof. exact prog_step_generated. Qed.

(* ... hence every schedule of the regenerated system is a schedule of the model (and C04's
   theorems about [run] hold of it) *)
Theorem C05_generated_runs : forall ls, prog_run ls = run ls.
Proof. exact prog_run_is_run. Qed.

(* NO GAP => SUCCESS IS WHAT WAS SENT.  For EVERY schedule of the exchange set -- any
   interleaving of frame arrivals (of any number of calls), deliveries, refusals (context done;
   error latch set with a full buffer; an earlier frame dropped), takes by the receiver, error
   notifications from any goroutine (stopExchanges), shutdowns, expiries -- and every exchange e:
   if the frames that arrived for e carry, in order, an initial part of the fragments fs the
   peer's writer produced for (a1,a2,a3), then after ANY number k of frames taken by e's receiver
   the fragments it holds are an initial part of fs (no hole, no reordering, nothing foreign), the
   caller's three reads on them give an error or exactly [a1;a2;a3], and they give a success only
   when the receiver holds ALL of fs. *)
Theorem C05_queue_success_is_sent : forall ls s r e (payload : Z -> frag) fs ck0 a1 a2 a3,
  prog_run ls = Some s -> nth_error (s_mexes s) r = Some e ->
  prefix (frs_of payload (window e (s_wire s))) fs ->
  wf fs -> ck_new (first_ctype fs) = Some ck0 -> ck_chain ck0 fs ->
  denote (chunks_of fs) = [a1; a2; a3] ->
  forall n1 n2 n3, 0 < n1 -> 0 < n2 -> 0 < n3 ->
  forall k, let got := frs_of payload (firstn k (g_received (m_g e))) in
    prefix got fs /\
    (call_outcome n1 n2 n3 got = OErr \/ call_outcome n1 n2 n3 got = OOk [a1; a2; a3]) /\
    (call_outcome n1 n2 n3 got <> OErr -> got = fs).
Proof. exact errq_success_is_sent. Qed.

(* ... and for ANY frames a peer may send (C05_success_is_denotation behind the exchange): a
   success is the denotation of a checksum-verified well-formed message that is an INITIAL PART,
   in arrival order, of the frames that reached the exchange -- never of a sequence with a frame
   left out *)
Theorem C05_queue_success_is_denotation : forall ls s r e (payload : Z -> frag) n1 n2 n3 k args,
  0 < n1 -> 0 < n2 -> 0 < n3 ->
  prog_run ls = Some s -> nth_error (s_mexes s) r = Some e ->
  (forall t, frag_parsed (payload t)) ->
  call_outcome n1 n2 n3 (frs_of payload (firstn k (g_received (m_g e)))) = OOk args ->
  exists pre post c0, frs_of payload (window e (s_wire s)) = pre ++ post /\ wf pre /\
    ck_new (first_ctype pre) = Some c0 /\ ck_chain c0 pre /\ f_more (last pre dfrag) = false /\
    args = denote (chunks_of pre).
Proof. exact errq_success_is_denotation. Qed.

(* THE CLAUSE HAS TEETH.  The same statement is FALSE of the code without the frameDropped flag
   (Mex.v's [run_pinned]; the pinned tree, finding c04:frame-gap-after-error-latch): with frames
   that carry no checksum, the schedule {frames 1, 2 queued; error notified; frame 3 dropped on
   the full buffer; the receiver takes frame 1; frame 4 accepted} ends in SUCCESS with arg3 =
   [5;6;8] where the peer sent [5;6;7;8]. *)
Theorem C05_queue_gap_pinned_refuted : exists ls s e args,
  run_pinned ls = Some s /\ nth_error (s_mexes s) 0 = Some e /\
  frs_of gap_payload (window e (s_wire s)) = gap_fs /\
  call_outcome 512 512 512 (frs_of gap_payload (g_received (m_g e))) = OOk args /\
  args <> denote (chunks_of gap_fs).
Proof. exact errq_pinned_refuted. Qed.

(* THE SCENARIO SEMANTICS IS A SCHEDULE.  Every state of the scenario model that the engine errq
   compares the real client with (Model/ErrQ.v: the peer writes frame by frame, the receiver takes
   frame by frame, the connection error comes from a failed write / a failed ping send / a protocol
   error frame) is reached by a schedule of the regenerated system ... *)
Theorem C05_errq_scenario_reachable : forall id cap kind code n evs,
  exists ls, prog_run ls = Some (x_st (x_run id cap kind code n evs)).
Proof. exact errq_scenario_reachable. Qed.

(* ... so a success predicted by the scenario model is the denotation of a verified initial part
   of the frames that reached the exchange *)
Theorem C05_errq_scenario_success : forall id cap kind code n evs (payload : Z -> frag) args,
  (forall t, frag_parsed (payload t)) ->
  let x := x_run id cap kind code n evs in
  call_outcome 512 512 512 (frs_of payload (x_recvd x)) = OOk args ->
  exists e pre post c0, nth_error (s_mexes (x_st x)) 0 = Some e /\
    frs_of payload (window e (s_wire (x_st x))) = pre ++ post /\ wf pre /\
    ck_new (first_ctype pre) = Some c0 /\ ck_chain c0 pre /\ f_more (last pre dfrag) = false /\
    args = denote (chunks_of pre).
Proof. exact errq_scenario_success. Qed.

Print Assumptions C05_exchange_steps_generated.
Print Assumptions C05_generated_runs.
Print Assumptions C05_queue_success_is_sent.
Print Assumptions C05_queue_success_is_denotation.
Print Assumptions C05_queue_gap_pinned_refuted.
Print Assumptions C05_errq_scenario_reachable.
Print Assumptions C05_errq_scenario_success.

(* ---------------- non-vacuity ---------------- *)
(* the premises of C05_queue_success_is_sent hold for four checksum-less fragments ... *)
Example C05_example_gap_premises :
  wf gap_fs /\ ck_new (first_ctype gap_fs) = Some (mkCk 0 0) /\ ck_chain (mkCk 0 0) gap_fs /\
  denote (chunks_of gap_fs) = [[]; [3; 4]; [5; 6; 7; 8]].
Proof. exact gap_fs_premises. Qed.

(* ... and on the regenerated system the schedule that breaks the pinned code refuses frame 4:
   the exchange is marked dropped, LFwdSend is not enabled, frames 1, 2 were delivered *)
Example C05_example_gap_refused : exists s e,
  prog_run (firstn 16 gap_trace) = Some s /\ nth_error (s_mexes s) 0 = Some e /\
  prog_step s LFwdSend = None /\ map f_tag (g_delivered (m_g e)) = [1; 2] /\ m_dropped e = true.
Proof. exact errq_gap_trace_generated. Qed.

(* the scenario model on the words AAEATA (error against a full buffer, then a frame, a take, a
   frame) and AAAETA (the third frame in the reader's hands when the error comes), error kinds 1
   and 3, four frames: the receiver gets frames 1, 2 and then the connection error; without an
   error a lagging receiver gets all four *)
Example C05_example_errq :
  map (fun x => (x_res x, x_rerr x, map f_tag (x_recvd x)))
      [x_run 7 2 1 11 4 [0;0;2;0;1;0]; x_run 7 2 1 11 4 [0;0;0;2;1;0]; x_run 7 2 3 13 4 [0;0;2;0;1;0]; x_run 7 2 0 10 4 [0;0;0;0;1;1]] =
  [([0; 0; 11], 11, [1; 2]); ([0; 0; 11], 11, [1; 2]); ([0; 0; 13], 13, [1; 2]); ([0; 0; 0; 0], 0, [1; 2; 3; 4])].
Proof. vm_compute. reflexivity. Qed.

(* ========================================================================================= *)
(* Strengthening: lock waits on the FAILURE paths a caller runs itself -- giving up on a      *)
(* stalled connection, and a connection that dies while it is being registered with its peer *)
(* Definitions: Model/C05VLockFam.v (c05v_results, run_c05vlock = concat of it: the scenario  *)
(* model of sub c05vlock of engine cutbegin, paths over Gen/GenWaitSites.v and               *)
(* Gen/GenLockProgs.v), Proofs/C05VLockFamP.v (c05v_wf: the times of a scenario are not       *)
(* negative; c05v_back_in_time r: r = [class; 1] with class 0 or 1; c05v_names).              *)
(* ========================================================================================= *)
From Verif Require Import Model.CallScen Model.CutBegin Model.C05VLockFam Proofs.C05VLockFamP.

(* Over the tables regenerated from the source: EVERY call of EVERY scenario of the two families
   has control back by its bound (its deadline; for the caller that cancels, the moment of the
   cancellation), for all deadlines, cancellation moments, buffer sizes, and any number of
   follow-up calls:
   family 3 -- the connection is stalled in the send direction with its send buffer full; X is
     blocked in flushFragment on a multi-frame argument, W (optional) waits for a withheld
     response; one of them cancels (with or without SendCancelOnContextCanceled) or lets its
     deadline expire; with the option set the cancelling caller's OWN goroutine runs
     Connection.onCancel -> sendMessage fails -> connectionError -> close (withStateLock) ->
     stopExchanges (both sets) -> checkExchanges (readState) -> removeExchange; the other call
     is woken by the error latch; Z then calls the same host:port;
   family 4 -- the goroutine establishing a connection is between the unlocked and the locked
     state check of Peer.addConnection when the connection leaves the active state; it takes
     the peer's lock, finds the connection inactive, returns; the first call fails on the dead
     connection; every follow-up call takes the same peer's lock, connects and registers anew.
   Each lock acquisition on these paths passes only if its site is in the generated lock-site
   table and the WHOLE generated lock-program table passes the checker (Model/CutBegin.v lock_in);
   each wait must have a deadline exit in the generated wait-site table. *)
Theorem C05_failure_path_scenarios_back : forall c, c05v_wf c -> Forall c05v_back_in_time (c05v_results c).
Proof. exact c05vlock_all_back. Qed.

(* the tie is not vacuous: every function in which those paths take a lock (Peer.addConnection,
   Connection.withStateLock, messageExchangeSet.stopExchanges, Peer.getActiveConn,
   Connection.readState, messageExchangeSet.newExchange / removeExchange) has its acquisition in
   the generated lock-site table on a plain mutex, and its lock program is in the generated table
   and follows the lock discipline in every execution *)
Theorem C05_failure_path_locks_tied : Forall (fun n =>
  (exists l, In l (lockp_sites ++ lockp_sites_conn) /\ ls_fn l = n /\ plain_mutex lockp_mutexes (ls_mutex l)) /\
  (exists f, In f lockp_progs /\ lf_name f = n /\ lock_disciplined (sem_of lockp_mutexes) f)) c05v_names.
Proof. exact c05vlock_names_tied. Qed.

(* and the prediction really depends on the tables: one lock acquisition that is not a site of
   the table (or any acquisition when the table fails the checker: lock_in then has this shape)
   anywhere on a path turns the prediction into "may be blocked for ever" *)
Theorem C05_failure_path_unknown_lock_blocks : forall class dc bound pre post,
  forallb c05v_step_ok pre = true ->
  c05v_back class dc bound (pre ++ mkStep (mkWsite [] WLock []) (mkEv None None None) false :: post) = [class; 0].
Proof. exact c05v_unknown_site_blocks. Qed.

Print Assumptions C05_failure_path_scenarios_back.
Print Assumptions C05_failure_path_locks_tied.
Print Assumptions C05_failure_path_unknown_lock_blocks.

(* non-vacuity: a family-3 scenario (SendCancelOnContextCanceled, buffer of 2, X cancels 30 ms in,
   W present) and a family-4 scenario (through a forwarder, second registration, reset, two
   follow-ups) are well-formed, and the model's output for them *)
Example C05_example_failure_path_scenarios :
  c05v_wf [3; 1; 2; 0; 0; 1; 600; 700; 400; 30] /\ c05v_wf [4; 0; 1; 2; 3; 500; 300; 400] /\
  run_c05vlock [3; 1; 2; 0; 0; 1; 600; 700; 400; 30] = [1; 1; 1; 1; 0; 1] /\
  run_c05vlock [4; 0; 1; 2; 3; 500; 300; 400] = [0; 1; 0; 1; 0; 1].
Proof. exact c05vlock_examples. Qed.

(* ========================================================================================= *)
(* Strengthening: the blocking statements the caller's goroutine reaches THROUGH THE PACKAGE'S  *)
(* OWN CALLBACKS.  Definitions: Spec/C05VWideSpec.v (wjoin, join_bounded, is_bounded_join),     *)
(* c05v_wait_sites / c05v_wait_joins (end of Gen/GenLockProgs.v, regenerated from the source by  *)
(* go2v/c05vwide.go), Proofs/C05VWideP.v.                                                       *)
(* ========================================================================================= *)
From Verif Require Import Spec.C05VWideSpec Proofs.C05VWideP.

(* THE WIDE TABLE.  C05_wait_exits follows declared functions and methods only.  The caller's
   goroutine also runs the function values the package itself stores into func-typed struct
   fields -- messageExchangeSet.onCancel / onRemoved / onAdded, connectionEvents.OnActive /
   OnCloseStateChange / OnExchangeUpdated -- directly or through a local variable holding the
   field's value: a caller that gives up runs Connection.onCancel (-> connectionError -> close
   -> Channel.connectionCloseStateChange ...) itself.  Every blocking statement of THAT closure
   (same extraction per function) offers an exit bound to the caller's deadline, or is the
   release of the new-connection semaphore, or is the join of a goroutine of the package
   (`<-c.healthCheckDone`) that was told to stop by the statement before (a context.CancelFunc)
   and whose own blocking statements can all be left through a context, a timer or a connection
   deadline. *)
Theorem C05_wait_exits_through_callbacks :
  Forall (fun w => has_deadline_exit w \/ is_release w \/ is_bounded_join c05v_wait_joins w) c05v_wait_sites.
Proof. exact wide_wait_sites_ok. Qed.

(* the wide table contains every site of the narrow one, its closure is strictly larger, and no
   acquisition of a mutex held across network I/O is in it *)
Theorem C05_wide_table_includes_narrow : (forall w, In w wait_sites -> In w c05v_wait_sites) /\
  c05v_narrow_root_count < c05v_wide_root_count /\ Forall (fun w => ws_kind w <> WLock) c05v_wait_sites.
Proof. exact wide_includes_narrow. Qed.

Print Assumptions C05_wait_exits_through_callbacks.
Print Assumptions C05_wide_table_includes_narrow.
