(* Property C02 -- Checksums follow the protocol and expose any corruption. *)
From Coq Require Import ZArith List Bool.
From Verif Require Import Base.Wrap Base.Bytes Gen.GenConsts Gen.GenFrame Model.Crc Model.Frag
  Spec.FragSpec Spec.FragOk Proofs.FragWP Proofs.CkP Proofs.CrcP.
Import ListNotations.
Local Open Scope Z_scope.

(* (a) every fragment the writer emits -- for any three arguments, any write sizes and
   flushes, any capacities -- carries the checksum, computed from scratch by the
   table-free CRC definition, of ALL argument bytes of the message up to and including
   that fragment, and a constant type byte *)
Theorem C02_running : forall (capf : bool -> Z) kind a1 a2 a3 k f,
  3 <= capf true -> 5 <= capf false -> kind = 1 \/ kind = 3 ->
  exists codes st,
    w_run capf (script3 a1 a2 a3) (w_init (mkCk kind 0)) [] = Some (codes, st) /\
    (nth_error (ws_out st) k = Some f ->
       f_ck f = be 4 (crc32_update (if kind =? 1 then poly_ieee else poly_castagnoli) 0 (data_upto k (ws_out st)))
       /\ f_ctype f = kind).
Proof.
  intros capf kind a1 a2 a3 k f H1 H2 Hk.
  destruct (writer_correct capf (mkCk kind 0) a1 a2 a3 H1 H2) as [codes [st [R [_ [_ [_ [_ [_ C]]]]]]]].
  exists codes, st. split; [exact R|]. intros Hn.
  destruct (ck_chain_closed _ _ _ _ C Hn) as [A B]. rewrite A, B. split; [apply ck_sum_crc; exact Hk|reflexivity].
Qed.

(* pooled checksum objects: New() starts from the initial state whatever was released *)
Theorem C02_pool_reset : forall t c, ck_new t = Some c -> ck_val c = 0.
Proof.
  intros t c. unfold ck_new. destruct ((t <? 0) || (t >=? c_checksumCount)); [discriminate|].
  destruct (t =? c_ChecksumTypeCrc32); [intros H; inversion H; reflexivity|].
  destruct (t =? c_ChecksumTypeCrc32C); intros H; inversion H; reflexivity.
Qed.

(* a checksum type byte outside the known range never reaches the pool lookup: the fragment
   parser rejects it (all 256 byte values) *)
Theorem C02_type_range : forall t, 0 <= t < 256 -> (ck_new t = None <-> c_checksumCount <= t).
Proof.
  intros t Ht. unfold ck_new, c_checksumCount.
  destruct (t <? 0) eqn:A; [apply Z.ltb_lt in A; exfalso; destruct Ht; apply (Z.lt_irrefl 0); eapply Z.le_lt_trans; eassumption|].
  destruct (t >=? 4) eqn:B; cbn [orb].
  - split; [intros _; apply Z.geb_le in B; exact B|reflexivity].
  - split; [|intros H; apply Z.geb_le in H; congruence].
    destruct (t =? c_ChecksumTypeCrc32); [discriminate|]. destruct (t =? c_ChecksumTypeCrc32C); discriminate.
Qed.

(* (b) detection.  one_byte_diff d d' = the byte strings agree except at exactly one position
   where two different bytes stand.  rs_with_in st fs = reader state st about to receive fs. *)

(* the CRC itself: a single altered byte always changes the CRC, for both polynomials, any
   initial value, any position, any surrounding bytes *)
Theorem C02_crc_detects_one_byte : forall P c pre x y post,
  P = poly_ieee \/ P = poly_castagnoli -> 0 <= x < 256 -> 0 <= y < 256 -> x <> y ->
  crc32_update P c (pre ++ x :: post) <> crc32_update P c (pre ++ y :: post).
Proof. exact crc_detect_one_byte. Qed.

(* an argument byte of a fragment altered in transit (checksum field intact, crc32/crc32c):
   wherever the reader would have accepted the fragment, it now fails AT THAT FRAGMENT with
   errMismatchedChecksums, and the error is sticky (the message is never reported complete) *)
Theorem C02_detect_data : forall st f f' rest rest' st1,
  r_recv (rs_with_in st (f :: rest)) = Some (0, st1) ->
  f_ctype f = c_ChecksumTypeCrc32 \/ f_ctype f = c_ChecksumTypeCrc32C ->
  f_ctype f' = f_ctype f -> f_ck f' = f_ck f ->
  one_byte_diff (concat (f_chunks f)) (concat (f_chunks f')) ->
  exists st2, r_recv (rs_with_in st (f' :: rest')) = Some (8, st2) /\ rs_err st2 = 8.
Proof. exact r_recv_detect_data. Qed.

(* a checksum byte altered in transit (any change of the checksum field, data intact) *)
Theorem C02_detect_cksum : forall st f f' rest rest' st1,
  r_recv (rs_with_in st (f :: rest)) = Some (0, st1) ->
  f_ctype f' = f_ctype f -> f_chunks f' = f_chunks f -> f_ck f' <> f_ck f ->
  exists st2, r_recv (rs_with_in st (f' :: rest')) = Some (8, st2) /\ rs_err st2 = 8.
Proof. exact r_recv_detect_ck. Qed.

(* the checksum type changing mid-message fails the read at that fragment *)
Theorem C02_type_change : forall st c f rest, rs_err st = 0 -> rs_ck st = Some c ->
  ck_typecode c <> f_ctype f ->
  exists st2, r_recv (rs_with_in st (f :: rest)) = Some (7, st2) /\ rs_err st2 = 7.
Proof. exact recv_type_change. Qed.

Print Assumptions C02_running.
Print Assumptions C02_crc_detects_one_byte.
Print Assumptions C02_detect_data.
Print Assumptions C02_detect_cksum.
Print Assumptions C02_type_change.
Print Assumptions C02_pool_reset.

(* the standard check values of the two polynomials ("123456789") *)
Example C02_crc_check_values :
  crc32_update poly_ieee 0 [49;50;51;52;53;54;55;56;57] = 3421780262 /\      (* 0xCBF43926 *)
  crc32_update poly_castagnoli 0 [49;50;51;52;53;54;55;56;57] = 3808858755.  (* 0xE3069283 *)
Proof. vm_compute. split; reflexivity. Qed.

(* ------------------------------------------------------------------------------------------
   Pooled checksum objects reused across messages: the running CRC is private to one message
   between ChecksumType.New() and Release().  (Model/CkOwn.v, Proofs/CkOwnP.v)               *)
From Verif Require Import Gen.GenCkSites Model.CkOwn Proofs.CkOwnP.

(* The table of EVERY operation on a pooled checksum in the non-test source of the package
   -- New, Release, Add, Sum, Reset, pool Get/Put, noReleaseChecksum wraps, stores into struct
   fields, hand-overs as arguments; each with its enclosing function, receiver expression and
   the conditions guarding it -- regenerated by go2v on this run (Gen/GenCkSites.ck_sites), is
   the model's table: of the tree as pinned (finishRelayItem releases the relay's mutated
   checksum), or of the tree without that Release.  A Release added to failRelayItem or
   timeoutRelayItem, a Release moved out of its `if`, a dropped noReleaseChecksum wrap, a new
   user of item.mutatedChecksum ... make both alternatives false. *)
Theorem C02_ck_sites_generated :
  map snd (ck_site_table true) = ck_sites \/ map snd (ck_site_table false) = ck_sites.
Proof. exact ck_table_generated. Qed.

(* every New/Add/Sum/Release event of the life-cycle model happens at a row of that table whose
   kind is the event's operation *)
Theorem C02_ck_model_sites_in_table : forall fr strict ls s es s',
  ck_run_lc fr strict s ls = Some (es, s') -> forallb (ck_ev_site_ok fr) es = true.
Proof. exact ck_run_sites. Qed.

(* OWNERSHIP DISCIPLINE.  For every interleaving [ls] of any number of request writers,
   response writers, readers and mutated relay items -- whichever pooled object each New()
   draws, errors / failRelayItem / timeouts at any point, any number of frames of a relayed
   call in flight -- the trace [es] of pooled-checksum operations satisfies [ck_ok]: an object
   is acquired only while nobody holds it; Add, Sum and Release happen only through the life
   cycle that holds it, at a site of that life cycle; after its Release nobody holds it (no
   use after release, no second release, no running CRC shared by two messages).
   fr = false: the tree without the Release in finishRelayItem -- unconditional.
   fr = true (the pinned tree): under [strict] -- finishRelayItem does not run while a frame
   of the call is between the relay's item lookup and the end of its checksum update. *)
Theorem C02_ck_discipline : forall fr strict ls es s,
  (fr = false \/ strict = true) ->
  ck_run_lc fr strict ck_init ls = Some (es, s) -> ck_ok fr es = true.
Proof. exact ck_discipline. Qed.

(* ... and the pinned tree without that restriction REFUTES the discipline (a genuine defect,
   known finding c02:relay-checksum-released-under-inflight-frame, reproduced on the
   implementation by engine ckown, scenario "overlap"): the origin connection's reader is still
   feeding the item's checksum when the destination connection's reader finishes the call and
   releases it -- event 2 of the trace is an Add on an object nobody holds. *)
Theorem C02_ck_discipline_refuted_by_overlap :
  exists ls es s, ck_run_lc true false ck_init ls = Some (es, s) /\ ck_run true [] 0 es = inr (2, 3).
Proof. exact ck_discipline_refuted_by_overlap. Qed.

(* released exactly once: in every run a completed life cycle (writer: last fragment finished;
   reader: doneReading; relay item: finished, on a tree that releases there) has exactly one
   Release event and every other life cycle none *)
Theorem C02_ck_released_once : forall fr strict ls es s k,
  ck_run_lc fr strict ck_init ls = Some (es, s) ->
  ck_rel_count k es = if o_phase (cs_own s k) =? 4 then 1 else 0.
Proof. exact ck_released_once. Qed.

Print Assumptions C02_ck_sites_generated.
Print Assumptions C02_ck_model_sites_in_table.
Print Assumptions C02_ck_discipline.
Print Assumptions C02_ck_discipline_refuted_by_overlap.
Print Assumptions C02_ck_released_once.

(* non-vacuity: a run with all four kinds of life cycle, pool reuse, a send failure in the
   middle of a re-fragmented request followed by further Add/Sum of the fragmenting writer,
   a continuation frame and the finish of the item is accepted by the strict model of both
   variants, satisfies the discipline, and exercises every New/Add/Sum/Release row of the
   table outside checksum.go *)
Example C02_ck_sample : forall fr,
  match ck_run_lc fr true ck_init (ck_sample_run fr) with
  | Some (es, _) =>
      ck_ok fr es = true /\
      forallb (fun row => (row <=? 7) || existsb (fun e => ce_site e =? row) es) (ck_op_rows fr) = true
  | None => False
  end.
Proof. exact ck_sample_ok. Qed.

(* the reviewer's change in the model: a Release at the failure inside fragmentingSend, then the
   fragmenting writer goes on -- the discipline checker rejects the trace at the Release (a site
   foreign to the item's life cycle), and without that check at the next Add *)
Example C02_ck_release_on_fail_rejected :
  ck_run true [] 0 [mkCkev K_it_new 0 1 1; mkCkev K_wr_add 1 1 1; mkCkev K_wr_rel 3 1 1; mkCkev K_wr_add 1 1 1] = inr (2, 7)
  /\ ck_run true [] 0 [mkCkev K_it_new 0 1 1; mkCkev K_it_rel 3 1 1; mkCkev K_wr_add 1 1 1] = inr (2, 3).
Proof. vm_compute. split; reflexivity. Qed.

(* ------------------------------------------------------------------------------------------
   The checksum type of a message is fixed by its first fragment.  (Gen/GenC02TypeCk.v,
   Proofs/C02TypeCkP.v)                                                                       *)
From Verif Require Import Base.Wire Gen.GenC02TypeCk Model.FragWire Proofs.C02TypeCkP.

(* TIE.  The reader step of the model (r_recv, Model/Frag.v) IS the step whose decision between
   the receipt of a fragment and the chunk loop is the definition c02ReaderTypeCk that go2v
   regenerates on this run from fragmenting_reader.go recvAndParseNextFragment -- every statement
   between `r.curFragment, r.err = r.receiver.recvNextFragment(initial)` and
   `r.hasMoreFragments = ...`: the receiver-error return, `r.checksum = <type byte of this
   fragment>.New()` when there is no checksum yet (the first fragment), and otherwise
   `r.checksum.TypeCode() != r.curFragment.checksumType => errMismatchedChecksumTypes`.
   (c02_r_recv: Proofs/C02TypeCkP.v.)  A further conjunct or disjunct in that comparison, another
   operand, a checksum re-created mid-message, a dropped return, a statement inserted in between:
   the definition changes or is not generated, and this obligation fails. *)
Theorem C02_reader_typecheck_generated : forall st, r_recv st = c02_r_recv st.
Proof. exact c02_r_recv_generated. Qed.

(* The generated decision itself, ALL 256 values of the type byte, each base type b (none,
   crc32, crc32c: the types whose checksum object reports its own type code): on a non-initial
   fragment no checksum is created (-1) and the step returns errMismatchedChecksumTypes (7)
   exactly when the type byte is not b.  (Proved on the generated term by the one case split
   t = b / t <> b; the equation holds of all integers, the ranges are those of the wire.) *)
Theorem C02_typecheck_all_bytes : forall b t, In b c02_base_types -> 0 <= t < 256 ->
  c02ReaderTypeCk 0 true b t = (-1, if t =? b then 0 else 7).
Proof. exact c02_typeck_later_all_bytes. Qed.

(* ... and on the first fragment the checksum is created for that fragment's own type byte *)
Theorem C02_typecheck_first_fragment : forall x t, 0 <= x < 256 -> 0 <= t < 256 ->
  c02ReaderTypeCk 0 false x t = (t, 0).
Proof. exact c02_typeck_first_all_bytes. Qed.

(* the re-typed fragment: the generated decision says 7 and the model step fails with
   errMismatchedChecksumTypes, sticky, whatever checksum bytes and chunks the fragment carries *)
Theorem C02_retyped_fragment_fails : forall st c f rest t,
  rs_err st = 0 -> rs_ck st = Some c -> c02_base (ck_typecode c) -> 0 <= t < 256 ->
  f_ctype f = t -> t <> ck_typecode c ->
  snd (c02ReaderTypeCk 0 true (ck_typecode c) t) = 7 /\
  exists st2, r_recv (rs_with_in st (f :: rest)) = Some (7, st2) /\ rs_err st2 = 7.
Proof. exact c02_retyped_fragment_fails. Qed.

(* NEVER COMPLETE.  A message f0 :: pre ++ f :: post whose first fragment has a base type and in
   which a later fragment f of the same message (f0 and all of pre announce more fragments)
   carries ANY other type byte -- with any checksum bytes, any chunks, anything after it: for
   EVERY script of reader operations (BeginArgument, Read of any size, Close, ArgReadHelper.Read,
   in any order, also after errors) that does not panic, the reader does not reach
   fragmentingReadComplete, doneReading is not called, and the reader has taken at most the
   fragments up to and including f: the read has failed by the end of that fragment. *)
Theorem C02_type_change_never_complete : forall f0 pre f post ops obs st,
  c02_base (f_ctype f0) -> f_more f0 = true -> Forall (fun g => f_more g = true) pre ->
  f_ctype f <> f_ctype f0 ->
  r_run_lin ops (r_init (f0 :: pre ++ f :: post)) = Some (obs, st) ->
  rs_state st <> c_fragmentingReadComplete /\ rs_fin st = false /\ rs_got st <= 2 + zlen pre.
Proof. exact c02_type_change_never_complete. Qed.

Print Assumptions C02_reader_typecheck_generated.
Print Assumptions C02_typecheck_all_bytes.
Print Assumptions C02_typecheck_first_fragment.
Print Assumptions C02_retyped_fragment_fails.
Print Assumptions C02_type_change_never_complete.

(* non-vacuity: a three-fragment crc32 message read with ArgReadHelper completes; the same
   message with the type byte of its last fragment replaced by 2 (Farmhash; same four checksum
   bytes, which still equal the running CRC) fails with code 7 when that fragment arrives *)
Example C02_type_change_sample :
  (exists obs st, r_run_lin c02_ex_ops (r_init (c02_ex_msg 1)) = Some (obs, st) /\
     rs_state st = c_fragmentingReadComplete /\ rs_fin st = true /\ rs_err st = 0) /\
  (exists obs st, r_run_lin c02_ex_ops (r_init (c02_ex_msg 2)) = Some (obs, st) /\
     rs_state st <> c_fragmentingReadComplete /\ rs_fin st = false /\ rs_err st = 7 /\ rs_got st = 3).
Proof. exact (conj c02_ex_conforming_completes c02_ex_retyped_fails). Qed.
