(* Facts about the functions of Model/PeerBook.v, independent of steps and invariants. *)
From Coq Require Import ZArith List Bool Lia Permutation.
From Verif Require Import Base.Wrap Gen.GenConsts Model.PeerBook Spec.PeerBookSpec.
Import ListNotations.
Local Open Scope Z_scope.

Lemma upd_same {A} (f : Z -> A) x v : upd f x v x = v.
Proof. unfold upd. now rewrite Z.eqb_refl. Qed.

Lemma upd_other {A} (f : Z -> A) x v y : y <> x -> upd f x v y = f y.
Proof. intros H. unfold upd. destruct (Z.eqb_spec y x); [contradiction|reflexivity]. Qed.

Lemma upd_cases {A} (f : Z -> A) x v y :
  (y = x /\ upd f x v y = v) \/ (y <> x /\ upd f x v y = f y).
Proof.
  destruct (Z.eq_dec y x) as [->|H]; [left|right]; split; auto using upd_same, upd_other.
Qed.

Lemma upd_peer_hp (f : Z -> peer) pid P' x : p_hp P' = p_hp (f pid) -> p_hp (upd f pid P' x) = p_hp (f x).
Proof. intros E. destruct (upd_cases f pid P' x) as [[-> ->]|[_ ->]]; [exact E|reflexivity]. Qed.

Lemma nodup_app_r {A} (a b : list A) : NoDup (a ++ b) -> NoDup b.
Proof. induction a as [|x a IH]; cbn [app]; intros H; [assumption|]. inversion H; subst. auto. Qed.

Lemma is_active_iff k : is_active k = true <-> k_st k = c_connectionActive.
Proof. apply Z.eqb_eq. Qed.

Lemma is_active_false k : is_active k = false -> k_st k <> c_connectionActive.
Proof. intros E Hk. apply is_active_iff in Hk. congruence. Qed.

(* what LNew admits: inbound connections have no dialled host:port, outbound ones have one *)
Definition conn_wf (k : conn) : Prop :=
  k_rhp k <> 0 /\
  ((k_dir k = c_inbound /\ k_ohp k = 0) \/ (k_dir k = c_outbound /\ k_ohp k <> 0)).

Lemma act_todo_nodup k : NoDup (act_todo k).
Proof.
  unfold act_todo. destruct ((k_dir k =? c_outbound) && negb (k_ohp k =? k_rhp k)) eqn:E.
  - apply andb_true_iff in E as [_ E]. apply negb_true_iff, Z.eqb_neq in E.
    constructor; [intros [H|[]]; congruence|constructor; [intros []|constructor]].
  - constructor; [intros []|constructor].
Qed.

Lemma act_in_cb k hp : conn_wf k -> In hp (act_todo k) -> In hp (cb_todo k).
Proof.
  intros [_ Hv]. unfold act_todo, cb_todo. intros [H|H]; [now left|right].
  destruct Hv as [[Hd Ho]|[Hd Ho]].
  - rewrite Hd in H. destruct H.
  - rewrite Hd, Z.eqb_refl in H. destruct (Z.eqb_spec (k_ohp k) 0); [contradiction|exact H].
Qed.

Lemma last_removelast_perm (r : list Z) d : r <> [] -> Permutation r (last r d :: removelast r).
Proof.
  intros H. rewrite (app_removelast_last d H) at 1.
  apply Permutation_sym, Permutation_cons_append.
Qed.

Lemma swap_remove_some c l l' : swap_remove c l = Some l' -> Permutation l (c :: l').
Proof.
  revert l'. induction l as [|x r IH]; intros l' H; cbn [swap_remove] in H; [discriminate|].
  destruct (Z.eqb_spec x c) as [->|Hne].
  - inversion H; subst l'; clear H. apply perm_skip.
    destruct r as [|y r']; [constructor|]. apply last_removelast_perm. discriminate.
  - destruct (swap_remove c r) as [l0|] eqn:E; cbn [option_map] in H; [|discriminate].
    inversion H; subst l'; clear H.
    eapply perm_trans; [apply perm_skip, IH; reflexivity|]. apply perm_swap.
Qed.

Lemma swap_remove_none c l : swap_remove c l = None -> ~ In c l.
Proof.
  induction l as [|x r IH]; intros H; cbn [swap_remove] in H; [intros []|].
  destruct (Z.eqb_spec x c) as [->|Hne]; [discriminate|].
  destruct (swap_remove c r) eqn:E; cbn [option_map] in H; [discriminate|].
  intros [Hx|Hin]; [congruence|]. now apply IH.
Qed.

Lemma swap_remove_in c l l' x : swap_remove c l = Some l' -> In x l' -> In x l.
Proof.
  intros H Hin. apply swap_remove_some in H.
  eapply Permutation_in; [apply Permutation_sym; exact H|]. now right.
Qed.

Lemma swap_remove_in_inv c l l' x : swap_remove c l = Some l' -> In x l -> x = c \/ In x l'.
Proof.
  intros H Hin. apply swap_remove_some in H.
  eapply Permutation_in in Hin; [|exact H]. destruct Hin as [E|E]; auto.
Qed.

Definition cnt (c : Z) (l : list Z) : nat := length (filter (Z.eqb c) l).

Lemma cnt_perm c a b : Permutation a b -> cnt c a = cnt c b.
Proof.
  intros H. unfold cnt. induction H; cbn [filter]; auto.
  - destruct (c =? x); cbn [length]; congruence.
  - destruct (c =? y), (c =? x); cbn [length]; congruence.
  - congruence.
Qed.

Lemma cnt_cons c x l : cnt c (x :: l) = ((if Z.eqb c x then 1 else 0) + cnt c l)%nat.
Proof. unfold cnt. cbn [filter]. destruct (c =? x); reflexivity. Qed.

Lemma cnt_zero_notin c l : ~ In c l -> cnt c l = O.
Proof.
  induction l as [|x r IH]; intros H; [reflexivity|].
  rewrite cnt_cons. destruct (Z.eqb_spec c x) as [->|Hne].
  - exfalso. apply H. now left.
  - rewrite IH; [reflexivity|]. intros Hin. apply H. now right.
Qed.

Lemma cnt_in_pos c l : In c l -> (1 <= cnt c l)%nat.
Proof.
  induction l as [|x r IH]; intros H; [destruct H|].
  rewrite cnt_cons. destruct H as [->|H].
  - rewrite Z.eqb_refl. lia.
  - specialize (IH H). lia.
Qed.

Lemma nodup_cnt l : NoDup l <-> (forall c, (cnt c l <= 1)%nat).
Proof.
  induction l as [|x r IH]; split.
  - intros _ c. cbn. lia.
  - constructor.
  - intros H c. inversion H as [|? ? Hx Hr]; subst. rewrite cnt_cons.
    destruct (Z.eqb_spec c x) as [->|Hne].
    + rewrite (cnt_zero_notin _ _ Hx). lia.
    + pose proof (proj1 IH Hr c). lia.
  - intros H. constructor.
    + intros Hin. apply cnt_in_pos in Hin. specialize (H x). rewrite cnt_cons, Z.eqb_refl in H. lia.
    + apply IH. intros c. specialize (H c). rewrite cnt_cons in H. lia.
Qed.

Definition plist (P : peer) : list Z := p_in P ++ p_out P.

(* step PApp appends to the list of the connection's direction; step PCbRem removes from the
   inbound list, else from the outbound one (Peer.connectionCloseStateChange) *)
Definition peer_add (k : conn) (P : peer) (c : Z) : peer :=
  if k_dir k =? c_inbound then p_with_in P (p_in P ++ [c]) 1 else p_with_out P (p_out P ++ [c]) 1.

Definition peer_rem (c : Z) (P : peer) : option peer :=
  match swap_remove c (p_in P) with
  | Some l => Some (p_with_in P l 2)
  | None => option_map (fun l => p_with_out P l 2) (swap_remove c (p_out P))
  end.

Lemma peer_add_fields k P c :
  p_hp (peer_add k P c) = p_hp P /\ p_sc (peer_add k P c) = p_sc P /\ p_last (peer_add k P c) = 1.
Proof. unfold peer_add. destruct (k_dir k =? c_inbound); repeat split. Qed.

Lemma peer_add_perm k P c : Permutation (plist (peer_add k P c)) (c :: plist P).
Proof.
  unfold peer_add, plist. destruct (k_dir k =? c_inbound); cbn [p_in p_out p_with_in p_with_out].
  - rewrite <- app_assoc. apply Permutation_sym, Permutation_middle.
  - rewrite app_assoc. apply Permutation_sym, Permutation_cons_append.
Qed.

Lemma peer_add_in k P c d :
  In d (p_in (peer_add k P c)) <-> In d (p_in P) \/ (d = c /\ k_dir k = c_inbound).
Proof.
  unfold peer_add. destruct (Z.eqb_spec (k_dir k) c_inbound) as [E|E]; cbn [p_in p_with_in p_with_out].
  - rewrite in_app_iff. cbn [In]. intuition congruence.
  - intuition congruence.
Qed.

Lemma peer_add_out k P c d :
  In d (p_out (peer_add k P c)) <-> In d (p_out P) \/ (d = c /\ k_dir k <> c_inbound).
Proof.
  unfold peer_add. destruct (Z.eqb_spec (k_dir k) c_inbound) as [E|E]; cbn [p_out p_with_in p_with_out].
  - intuition congruence.
  - rewrite in_app_iff. cbn [In]. intuition congruence.
Qed.

Lemma peer_rem_some c P P' :
  peer_rem c P = Some P' ->
  p_hp P' = p_hp P /\ p_sc P' = p_sc P /\ p_last P' = 2 /\
  Permutation (plist P) (c :: plist P') /\
  (forall d, In d (p_in P') -> In d (p_in P)) /\ (forall d, In d (p_out P') -> In d (p_out P)) /\
  (forall d, d <> c -> In d (p_in P) -> In d (p_in P')) /\ (forall d, d <> c -> In d (p_out P) -> In d (p_out P')).
Proof.
  unfold peer_rem, plist. destruct (swap_remove c (p_in P)) as [l|] eqn:Ei.
  - intros H; inversion H; subst P'; clear H. cbn [p_hp p_sc p_last p_in p_out p_with_in].
    repeat split; auto.
    + apply (Permutation_app_tail _ (swap_remove_some _ _ _ Ei)).
    + intros d. apply (swap_remove_in _ _ _ _ Ei).
    + intros d Hd Hi. destruct (swap_remove_in_inv _ _ _ _ Ei Hi); [contradiction|assumption].
  - destruct (swap_remove c (p_out P)) as [l|] eqn:Eo; cbn [option_map]; [|discriminate].
    intros H; inversion H; subst P'; clear H. cbn [p_hp p_sc p_last p_in p_out p_with_out].
    repeat split; auto.
    + eapply perm_trans; [apply Permutation_app_head, (swap_remove_some _ _ _ Eo)|].
      apply Permutation_sym, Permutation_middle.
    + intros d. apply (swap_remove_in _ _ _ _ Eo).
    + intros d Hd Hi. destruct (swap_remove_in_inv _ _ _ _ Eo Hi); [contradiction|assumption].
Qed.

Lemma peer_rem_none c P : peer_rem c P = None -> ~ In c (plist P).
Proof.
  unfold peer_rem, plist. destruct (swap_remove c (p_in P)) eqn:Ei; [discriminate|].
  destruct (swap_remove c (p_out P)) eqn:Eo; [discriminate|]. intros _ H.
  apply in_app_or in H as [H|H]; [exact (swap_remove_none _ _ Ei H)|exact (swap_remove_none _ _ Eo H)].
Qed.

(* the states after PApp has appended c to pid's list, and after PCbRem has removed it *)
Definition appended (s : st) (t c pid : Z) (todo : list Z) : st :=
  set_thr (add_log (add_gain (set_peer s pid (peer_add (s_conn s c) (s_peer s pid) c))
                             (p_hp (s_peer s pid), pid, c)) (p_hp (s_peer s pid))) t (Some (PGet c todo)).
Definition removed (s : st) (t c pid : Z) (todo : list Z) (P' : peer) : st :=
  set_thr (add_log (add_loss (set_peer s pid P') (p_hp (s_peer s pid), pid, c))
                   (p_hp (s_peer s pid))) t (Some (PCol1 c (p_hp (s_peer s pid)) todo)).

Lemma step_thread_PApp s t c pid todo :
  step_thread true s t (PApp c pid todo) =
  if is_active (s_conn s c)
  then appended s t c pid todo
  else set_thr s t (Some (PGet c todo)).
Proof. unfold peer_add. cbn [step_thread andb]. destruct (is_active (s_conn s c)); reflexivity. Qed.

Lemma step_thread_PCbRem s t c pid todo :
  step_thread true s t (PCbRem c pid todo) =
  if is_active (s_conn s c) then set_thr s t (Some (PCbGet c todo))
  else match peer_rem c (s_peer s pid) with
       | Some P' => removed s t c pid todo P'
       | None => set_thr s t (Some (PCbGet c todo))
       end.
Proof.
  unfold peer_rem. cbn [step_thread]. destruct (is_active (s_conn s c)); [reflexivity|].
  destruct (swap_remove c (p_in (s_peer s pid))); [reflexivity|].
  destruct (swap_remove c (p_out (s_peer s pid))); reflexivity.
Qed.

(* ---- child-list entries, keyed by (list, host:port) ---- *)
Definition ent_pid (pid : Z) (e : Z * Z * Z) : bool := snd e =? pid.

Lemma key_eqb_spec a b lid hp : reflect ((a, b) = (lid, hp)) ((a =? lid) && (b =? hp)).
Proof.
  destruct (Z.eqb_spec a lid) as [->|Ha], (Z.eqb_spec b hp) as [->|Hb]; constructor; congruence.
Qed.

Lemma list_find_in l lid hp pid : list_find l lid hp = Some pid -> In (lid, hp, pid) l.
Proof.
  induction l as [|[[a b] q] r IH]; cbn [list_find]; intros H; [discriminate|].
  destruct (key_eqb_spec a b lid hp) as [Hk|_]; [|right; now apply IH].
  inversion Hk; inversion H; subst. now left.
Qed.

Lemma list_find_none_key l lid hp : list_find l lid hp = None -> ~ In (lid, hp) (map fst l).
Proof.
  induction l as [|[[a b] q] r IH]; cbn [list_find map In]; intros H; [intros []|].
  destruct (key_eqb_spec a b lid hp) as [_|Hne]; [discriminate|].
  intros [Hk|Hk]; [exact (Hne Hk)|exact (IH H Hk)].
Qed.

Lemma list_del_in l lid hp e : In e (list_del l lid hp) -> In e l.
Proof.
  induction l as [|[[a b] q] r IH]; cbn [list_del]; intros H; [destruct H|].
  destruct ((a =? lid) && (b =? hp)); [now right|].
  destruct H as [H|H]; [now left|right; now apply IH].
Qed.

Lemma list_del_nodup l lid hp : NoDup (map fst l) -> NoDup (map fst (list_del l lid hp)).
Proof.
  induction l as [|[[a b] q] r IH]; cbn [list_del map]; intros H; [exact H|].
  apply NoDup_cons_iff in H as [Hn Hr].
  destruct ((a =? lid) && (b =? hp)); [exact Hr|].
  cbn [map]. constructor; [|exact (IH Hr)].
  rewrite in_map_iff. intros (e & He & Hin). apply Hn. rewrite <- He. exact (in_map fst _ _ (list_del_in _ _ _ _ Hin)).
Qed.

Lemma list_del_find_other l lid hp lid' hp' :
  lid' <> lid \/ hp' <> hp ->
  list_find (list_del l lid hp) lid' hp' = list_find l lid' hp'.
Proof.
  intros Hne. induction l as [|[[a b] q] r IH]; cbn [list_del list_find]; [reflexivity|].
  destruct (key_eqb_spec a b lid hp) as [Hk|_].
  - destruct (key_eqb_spec a b lid' hp') as [Hk'|_]; [|reflexivity].
    destruct Hne; congruence.
  - cbn [list_find]. now rewrite IH.
Qed.

Lemma list_del_find_same l lid hp :
  NoDup (map fst l) -> list_find (list_del l lid hp) lid hp = None.
Proof.
  induction l as [|[[a b] q] r IH]; cbn [list_del map]; intros H; [reflexivity|].
  apply NoDup_cons_iff in H as [Hn Hr].
  destruct (key_eqb_spec a b lid hp) as [Hk|Hne].
  - (* the deleted entry was the only one with its key *)
    destruct (list_find r lid hp) as [z|] eqn:F; [|reflexivity].
    destruct Hn. cbn [fst]. rewrite Hk. exact (in_map fst _ _ (list_find_in _ _ _ _ F)).
  - cbn [list_find]. destruct (key_eqb_spec a b lid hp); [contradiction|exact (IH Hr)].
Qed.

Lemma list_del_count l lid hp pid q :
  list_find l lid hp = Some pid ->
  length (filter (ent_pid q) l) =
  ((if Z.eqb q pid then 1 else 0) + length (filter (ent_pid q) (list_del l lid hp)))%nat.
Proof.
  induction l as [|[[a b] p0] r IH]; cbn [list_find list_del]; intros H; [discriminate|].
  destruct ((a =? lid) && (b =? hp)).
  - inversion H; subst p0. cbn [filter]. unfold ent_pid at 1. cbn [snd].
    rewrite (Z.eqb_sym pid q). destruct (q =? pid); reflexivity.
  - cbn [filter]. specialize (IH H). change (ent_pid q (a, b, p0)) with (p0 =? q).
    destruct (p0 =? q); cbn [length]; lia.
Qed.

Lemma any_thread_false f thr n :
  any_thread f thr n = false -> forall t, 0 <= t < Z.of_nat n -> f (thr t) = false.
Proof.
  induction n as [|n IH]; intros H t Ht; [lia|].
  cbn [any_thread] in H. apply orb_false_iff in H as [H1 H2].
  destruct (Z.eq_dec t (Z.of_nat n)) as [->|Hne]; [exact H1|].
  apply IH; [exact H2|lia].
Qed.
