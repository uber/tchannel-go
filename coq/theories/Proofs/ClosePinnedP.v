(* C07: the flag-parameterised close models (Model/ClosePinned.v).
   1. [*_v false] are the repaired step functions, so every C07 theorem is a theorem about [*_v false].
   2. [*_v true] (the pinned tree) refutes three clauses, each with a concrete schedule. *)
From Coq Require Import ZArith List Bool Lia.
From Verif Require Import Base.Wrap Gen.GenConsts Model.CloseKernel Model.ConnClose Model.ChanClose
  Model.ClosePinned Proofs.CloseKernelP Proofs.ConnCloseP Proofs.ChanCloseP.
Import ListNotations.
Local Open Scope Z_scope.

Lemma tstep_v_false : forall s n p, tstep_v false s n p = tstep s n p.
Proof. intros s n p. destruct p; reflexivity. Qed.

Lemma step_v_false : forall s l, step_v false s l = ConnClose.step s l.
Proof.
  intros s l. destruct l as [k|tid]; cbn [step_v ConnClose.step]; [reflexivity|].
  destruct (nth_error (thr s) tid) as [p|]; [|reflexivity]. rewrite tstep_v_false. reflexivity.
Qed.

Lemma ctstep_v_false : forall s p arg, ctstep_v false s p arg = ctstep s p arg.
Proof. intros s p arg. destruct p; reflexivity. Qed.

Lemma cstep_v_false : forall s l, cstep_v false s l = cstep s l.
Proof.
  intros s l. destruct l; cbn [cstep_v cstep]; try reflexivity.
  destruct (nth_error (cthr s) tid) as [p|]; [|reflexivity]. rewrite ctstep_v_false. reflexivity.
Qed.

Lemma pinned_false_is_repaired :
  (forall s ls, run (step_v false) s ls = run ConnClose.step s ls) /\
  (forall s ls, run (cstep_v false) s ls = run cstep s ls) /\
  (forall relay s, Reach (step_v false) (ConnClose.init relay) s <-> Reach ConnClose.step (ConnClose.init relay) s) /\
  (forall s, Reach (cstep_v false) cinit s <-> Reach cstep cinit s).
Proof.
  split; [intros; apply run_ext, step_v_false|]. split; [intros; apply run_ext, cstep_v_false|].
  split; intros; apply reach_ext; auto using step_v_false, cstep_v_false.
Qed.

(* (a) Pinned Channel.Close moves the state backwards.
   listen; connection 0 is added; Close #1: StartClose, closes connection 0 (-> StartClose); its
   callback sees nothing to do; the connection drains its inbound calls (-> InboundClosed); the
   callback moves the channel to InboundClosed. *)
Definition pinned_mono_prefix : list clabel :=
  [LListen; LNewConn; LRunC 0 0; LClose; LRunC 1 0; LRunC 1 0; LRunC 1 0;
   LCallback 0; LRunC 2 0; LRunC 2 0; LRunC 2 0; LRunC 2 2;
   LConnMove 0 3; LCallback 0; LRunC 3 0; LRunC 3 0; LRunC 3 0; LRunC 3 3; LRunC 3 0].
(* Close #2, its locked region *)
Definition pinned_mono_suffix : list clabel := [LClose; LRunC 4 0].

Lemma chan_monotone_pinned_refuted : exists ls1 ls2 s1 s2,
  run (cstep_v true) cinit ls1 = Some s1 /\ run (cstep_v true) s1 ls2 = Some s2 /\
  ~ (chst (csh s1) <= chst (csh s2)) /\ chst (csh s1) = hIC /\ chst (csh s2) = hSC.
Proof.
  exists pinned_mono_prefix, pinned_mono_suffix. eexists. eexists.
  split; [vm_compute; reflexivity|]. split; [vm_compute; reflexivity|].
  vm_compute. repeat split. intros H. apply H. reflexivity.
Qed.

Lemma chan_monotone_witness_repaired : exists s2,
  run (cstep_v false) cinit (pinned_mono_prefix ++ pinned_mono_suffix) = Some s2 /\ chst (csh s2) = hIC.
Proof. eexists. split; vm_compute; reflexivity. Qed.

(* (b) Pinned handleCallReq drops the racing request without a reply.
   call 7 is dispatched (it keeps the connection open); the frame of call 5 passes the first state
   check and registers its exchange; Close; call 5's re-check fails: exchange shut down,
   checkExchanges finds call 7, the handler of the frame returns. *)
Definition pinned_refuse_witness : list label :=
  [LSpawn (TReader 7); LRun 0; LRun 0; LRun 0;
   LSpawn (TReader 5); LRun 1; LRun 1;
   LSpawn TCloser; LRun 2; LRun 2; LRun 2; LRun 2; LRun 2; LRun 2;
   LRun 1; LRun 1; LRun 1; LRun 1; LRun 1; LRun 1].

Lemma refuse_pinned_refuted : exists relay s n id,
  Reach (step_v true) (ConnClose.init relay) s /\
  nth_error (thr s) n = Some (PDone oRefused2 id) /\
  ~ answered (sh s) n id eDeclined /\
  g_replies (sh s) = [] /\ st (sh s) = sSC.
Proof.
  exists false. eexists. exists 1%nat, 5. split; [exists pinned_refuse_witness; vm_compute; reflexivity|].
  split; [vm_compute; reflexivity|]. split.
  - unfold answered. vm_compute. intros [H|[_ H]]; discriminate.
  - vm_compute. repeat split.
Qed.

(* the repaired model on the same schedule + the extra SendSystemError step answers (5, Declined) *)
Lemma refuse_witness_repaired : exists s,
  run (step_v false) (ConnClose.init false) (pinned_refuse_witness ++ [LRun 1]) = Some s /\
  nth_error (thr s) 1 = Some (PDone oRefused2 5) /\ g_replies (sh s) = [(1%nat, 5, eDeclined)].
Proof. eexists. split; [vm_compute; reflexivity|]. split; vm_compute; reflexivity. Qed.

(* (c) Pinned connectionCloseStateChange loses the transition to Closed.
   listen; connection 0 added; Close (StartClose; connection 0 -> StartClose), its callback does
   nothing.  The connection reaches InboundClosed: callback A reads chState = StartClose, scans
   min = InboundClosed, computes updateTo = InboundClosed and is about to take the lock.  The
   connection reaches Closed: callback B removes it, reads chState = StartClose, scans min = Closed
   (no connections), computes updateTo = Closed.  A applies its update (InboundClosed).  B finds
   state <> chState and drops its update.  No thread is left, one callback ran per state change. *)
Definition pinned_stuck_witness : list clabel :=
  [LListen; LNewConn; LRunC 0 0; LClose; LRunC 1 0; LRunC 1 0; LRunC 1 0;
   LCallback 0; LRunC 2 0; LRunC 2 0; LRunC 2 0; LRunC 2 2;
   LConnMove 0 3; LCallback 0; LRunC 3 0; LRunC 3 0; LRunC 3 0; LRunC 3 3;
   LConnMove 0 4; LCallback 0; LRunC 4 0; LRunC 4 0; LRunC 4 0; LRunC 4 0; LRunC 4 4;
   LRunC 3 0; LRunC 4 0].

Lemma chan_reaches_closed_pinned_refuted : exists s,
  Reach (cstep_v true) cinit s /\
  hSC <= chst (csh s) /\
  (forall c, In c (conns (csh s)) -> cstate (csh s) c = kCl) /\
  g_owed (csh s) = [] /\
  (forall n p, nth_error (cthr s) n = Some p -> exists o, p = CDone o) /\
  ~ (chst (csh s) = hCl /\ g_closed (csh s) = 1) /\
  chst (csh s) = hIC /\ conns (csh s) = [] /\ g_closed (csh s) = 0.
Proof.
  eexists. split; [exists pinned_stuck_witness; vm_compute; reflexivity|].
  split; [vm_compute; discriminate|].
  split; [vm_compute; intros c []|].
  split; [vm_compute; reflexivity|].
  split.
  - intros n p H. vm_compute in H.
    do 5 (destruct n as [|n]; [inversion H; eexists; reflexivity|]).
    destruct n; discriminate H.
  - vm_compute. repeat split. intros [H _]. discriminate H.
Qed.

Lemma stuck_witness_repaired : exists s,
  run (cstep_v false) cinit pinned_stuck_witness = Some s /\ chst (csh s) = hCl.
Proof. eexists. split; vm_compute; reflexivity. Qed.
