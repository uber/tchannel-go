(* The complete payload of an unfragmented call req / call res (property C06, fragment part
   included): the model of reqResWriter (Model/CallWire.v [call_frames]) -- newFragment (flags
   placeholder, message header, checksum type, checksum placeholder), the fragmenting writer of
   Model/Frag.v, and finish/flushFragment as laid out by Model/FragWire.v [enc_frag_payload] --
   emits, for three arguments that fit one fragment, exactly ONE frame whose bytes are those of
   the independent encoder Spec/ProtocolCall.v. *)
From Coq Require Import ZArith List Bool Lia.
From Verif Require Import Base.Wrap Base.Bytes Gen.GenConsts Gen.GenFrame Model.TypedBuf Model.Messages
  Model.Crc Model.Frag Model.FragWire Model.CallWire Spec.Protocol Spec.ProtocolCall Spec.FragSpec Spec.FragOk
  Proofs.CodecP Proofs.FrameP Proofs.FragWP Proofs.FragWireP Proofs.CkP Proofs.FragRoundtrip.
Import ListNotations.
Local Open Scope Z_scope.

(* ---- newFragment leaves exactly frag_capacity bytes for chunks ---- *)

Lemma zlen_repeat {A} (x : A) n : zlen (repeat x n) = Z.of_nat n.
Proof. unfold zlen. rewrite repeat_length. reflexivity. Qed.

Lemma ck_size_range ck : 0 <= ck_size ck <= 4.
Proof. unfold ck_size. destruct (ck_kind ck =? 0); lia. Qed.

Lemma new_fragment_ok body hdr ck :
  writes body hdr -> 0 <= ck_typecode ck < 256 -> 0 <= frag_capacity hdr ck ->
  new_fragment body ck = Some (hdr, frag_capacity hdr ck).
Proof.
  intros [W _] Ht Hc. pose proof (ck_size_range ck) as Hs. pose proof (zlen_nonneg hdr) as Hh.
  unfold frag_capacity, c_MaxFramePayloadSize in Hc.
  unfold new_fragment, c_MaxFramePayloadSize.
  rewrite W; cbn [werr wroom wout]; [|reflexivity|lia].
  destruct (w_u8_writes (ck_typecode ck) Ht) as [W8 _].
  rewrite W8; cbn [werr wroom wout]; [|reflexivity|change (zlen [ck_typecode ck]) with 1; lia].
  change (zlen [ck_typecode ck]) with 1.
  destruct (w_bytes_writes (repeat 0 (Z.to_nat (ck_size ck)))) as [WB _].
  rewrite WB; cbn [werr wroom wout]; [|reflexivity|rewrite zlen_repeat; lia].
  rewrite zlen_repeat. cbn [Z.eqb app skipn]. f_equal. f_equal.
  unfold frag_capacity, c_MaxFramePayloadSize. lia.
Qed.

Lemma new_fragment_cont ck : 0 <= ck_typecode ck < 256 ->
  new_fragment w_nop ck = Some ([], frag_capacity [] ck).
Proof.
  intros Ht. apply new_fragment_ok; [exact w_nop_writes|exact Ht|].
  pose proof (ck_size_range ck). unfold frag_capacity, c_MaxFramePayloadSize. change (zlen (@nil Z)) with 0. lia.
Qed.

(* ---- the writer on three arguments that fit one fragment ---- *)

(* The three chunks (2-byte length + data each) fit the fragment, and after arg2 more than a
   chunk header is left.  (With an empty arg3 and an exact fit the Go writer's Close of arg2
   sees BytesRemaining = 2, flushes the fragment and opens a second one: [writer_exact_fit_two].) *)
Definition fits_one (cap : Z) (a1 a2 a3 : list Z) : Prop :=
  (2 + zlen a1) + (2 + zlen a2) + (2 + zlen a3) <= cap /\
  (2 + zlen a1) + (2 + zlen a2) + 2 < cap.

Section Single.
  Variable capf : bool -> Z.

  (* a Write that fits the current fragment appends to the open chunk, no flush *)
  Lemma write_fits last out pre room ck done b : zlen b <= room ->
    w_write capf b (mkWst (arg_state last) 0 out true (pre ++ [[]]) room ck done) =
    Some (0, mkWst (arg_state last) 0 out true (pre ++ [b]) (room - zlen b) (ck_add ck b) done).
  Proof.
    intros H. pose proof (zlen_nonneg b) as Hb. unfold w_write.
    cbn [ws_err ws_state]. change (0 =? 0) with true. rewrite arg_state_writing. cbn [negb].
    cbn [w_write_loop ws_room ws_state ws_out ws_chunks ws_ck ws_done].
    replace (Z.min (zlen b) (Z.max room 0)) with (zlen b) by lia.
    rewrite Z.eqb_refl. rewrite firstn_all_z, app_last_snoc. reflexivity.
  Qed.

  Lemma writer_single ck a1 a2 a3 : fits_one (capf true) a1 a2 a3 ->
    w_run capf (script3 [IWrite a1] [IWrite a2] [IWrite a3]) (Frag.w_init ck) [] =
    Some ([0;0;0; 0;0;0; 0;0;0],
          mkWst c_fragmentingWriteComplete 0
                [mkFrag false (ck_typecode ck) (ck_sum (ck_add ck (a1 ++ a2 ++ a3))) [a1; a2; a3]]
                false [] 0 (ck_add ck (a1 ++ a2 ++ a3)) true).
  Proof.
    intros [F1 F2]. pose proof (zlen_nonneg a1) as H1. pose proof (zlen_nonneg a2) as H2. pose proof (zlen_nonneg a3) as H3.
    unfold script3, arg_ops. cbn [map item_op app w_run w_step].
    rewrite w_begin_init by lia. cbn [app].
    rewrite (write_fits false [] []) by lia. cbn [app].
    rewrite w_close_keep by (cbn; try reflexivity; lia).
    rewrite w_begin_waiting by (cbn; try reflexivity; lia). cbn [app ws_out ws_chunks ws_room ws_ck ws_done].
    rewrite (write_fits false [] [a1]) by lia. cbn [app].
    rewrite w_close_keep by (cbn; try reflexivity; lia).
    rewrite w_begin_waiting by (cbn; try reflexivity; lia). cbn [app ws_out ws_chunks ws_room ws_ck ws_done].
    rewrite (write_fits true [] [a1; a2]) by lia. cbn [app].
    rewrite w_close_last by reflexivity. unfold emit. cbn [app ws_out ws_chunks ws_ck].
    rewrite !ck_add_app, !ck_add_typecode. reflexivity.
  Qed.
End Single.

Lemma ops3_script a1 a2 a3 : ops3 a1 a2 a3 = script3 [IWrite a1] [IWrite a2] [IWrite a3].
Proof. reflexivity. Qed.

(* the second clause of [fits_one] is needed: exact fit with an empty arg3 gives two fragments *)
Example writer_exact_fit_two :
  (2 + zlen [7]) + (2 + zlen [8]) + (2 + zlen (@nil Z)) <= 8 /\
  option_map (fun p => map f_chunks (ws_out (snd p)))
    (w_run (fun _ => 8) (script3 [IWrite [7]] [IWrite [8]] [IWrite []]) (Frag.w_init (mkCk 0 0)) [])
  = Some [[[7]; [8]]; [[]; []]].
Proof. split; [vm_compute; discriminate|reflexivity]. Qed.

(* ---- layout of the single fragment = the spec payload ---- *)

(* checksum field value the protocol prescribes for the CRC types, from scratch over
   arg1 ++ arg2 ++ arg3 (0 for type none, where the field is absent) *)
Definition csum_value (kind : Z) (data : list Z) : Z :=
  if kind =? 1 then crc32_update poly_ieee 0 data
  else if kind =? 3 then crc32_update poly_castagnoli 0 data
  else 0.

Lemma ck_sum_fresh kind data : kind_ok kind ->
  ck_sum (ck_add (ck_fresh kind) data) = s_csum kind (csum_value kind data).
Proof. intros [-> | [-> | ->]]; reflexivity. Qed.

Lemma single_layout msghdr kind a1 a2 a3 : kind_ok kind ->
  enc_frag_payload msghdr
    (mkFrag false (ck_typecode (ck_fresh kind)) (ck_sum (ck_add (ck_fresh kind) (a1 ++ a2 ++ a3))) [a1; a2; a3])
  = [0] ++ msghdr ++ s_call_args kind (csum_value kind (s_csum_input a1 a2 a3)) a1 a2 a3.
Proof.
  intros Hk. unfold enc_frag_payload, s_call_args, s_csum_input. cbn [f_more f_ctype f_ck f_chunks].
  rewrite (ck_sum_fresh kind _ Hk). unfold enc_chunks. cbn [flat_map]. rewrite app_nil_r.
  unfold s_str2. rewrite <- !app_assoc. reflexivity.
Qed.

Lemma frag_frame_spec mt id payload : u_ok 1 mt -> zlen payload <= 65519 ->
  frag_frame mt id payload = s_frame mt id payload.
Proof.
  intros Ht Hp. pose proof (zlen_nonneg payload) as H0. unfold frag_frame.
  rewrite SetPayloadSize_ok by lia. apply frame_out_spec; assumption.
Qed.

Lemma zlen_s_frame mt id payload : zlen (s_frame mt id payload) = 16 + zlen payload.
Proof. unfold s_frame. rewrite !zlen_app, !zlen_be. unfold zlen. cbn [length]. lia. Qed.

(* ---- main lemma, for any initial message (call req and call res below are its instances) ---- *)

Lemma call_single mt mtc id body msghdr kind a1 a2 a3 :
  writes body msghdr -> kind_ok kind -> u_ok 1 mt ->
  fits_one (frag_capacity msghdr (ck_fresh kind)) a1 a2 a3 ->
  let payload := [0] ++ msghdr ++ s_call_args kind (csum_value kind (s_csum_input a1 a2 a3)) a1 a2 a3 in
  call_frames mt mtc id body kind (script3 [IWrite a1] [IWrite a2] [IWrite a3]) = Some [s_frame mt id payload] /\
  zlen (s_frame mt id payload) <= 65535.
Proof.
  intros W Hk Ht Hfit payload.
  pose proof (zlen_nonneg a1) as H1. pose proof (zlen_nonneg a2) as H2. pose proof (zlen_nonneg a3) as H3.
  assert (Htc : 0 <= ck_typecode (ck_fresh kind) < 256) by (destruct Hk as [-> | [-> | ->]]; cbn; lia).
  assert (Hcap : 0 <= frag_capacity msghdr (ck_fresh kind)) by (destruct Hfit as [F _]; lia).
  set (f := mkFrag false (ck_typecode (ck_fresh kind)) (ck_sum (ck_add (ck_fresh kind) (a1 ++ a2 ++ a3))) [a1; a2; a3]).
  assert (Epl : enc_frag_payload msghdr f = payload) by (apply single_layout; exact Hk).
  assert (Hlen : c_FrameHeaderSize + zlen (enc_frag_payload msghdr f) <= c_MaxFrameSize).
  { apply (frame_bytes_bound msghdr (ck_fresh kind) f).
    - unfold f. cbn [f_chunks]. unfold chunks_size. cbn [fold_right]. destruct Hfit as [F _]. lia.
    - unfold f. cbn [f_ck]. destruct Hk as [-> | [-> | ->]]; reflexivity. }
  rewrite Epl in Hlen. unfold c_FrameHeaderSize, c_MaxFrameSize in Hlen.
  split; [|rewrite zlen_s_frame; lia].
  unfold call_frames. rewrite (ck_new_kind kind Hk).
  rewrite (new_fragment_ok body msghdr _ W Htc Hcap), (new_fragment_cont _ Htc).
  rewrite writer_single by exact Hfit.
  cbn [forallb Z.eqb andb ws_out map]. fold f. rewrite Epl.
  rewrite frag_frame_spec; [reflexivity|exact Ht|lia].
Qed.

Theorem callreq_single_layout : forall m ttl_ms kind id a1 a2 a3,
  callreq_ok m ttl_ms -> kind_ok kind ->
  fits_one (frag_capacity (s_callreq ttl_ms (spec_span (cq_span m)) (cq_service m) (cq_headers m)) (ck_fresh kind)) a1 a2 a3 ->
  let payload := s_callreq_full 0 ttl_ms (spec_span (cq_span m)) (cq_service m) (cq_headers m)
                   kind (csum_value kind (s_csum_input a1 a2 a3)) a1 a2 a3 in
  call_frames c_messageTypeCallReq c_messageTypeCallReqContinue id (w_callreq m) kind
              (script3 [IWrite a1] [IWrite a2] [IWrite a3])
    = Some [s_frame t_call_req id payload] /\
  zlen (s_frame t_call_req id payload) <= 65535.
Proof.
  intros m ttl_ms kind id a1 a2 a3 OK Hk Hfit payload.
  assert (Ht : u_ok 1 c_messageTypeCallReq) by (apply u_ok_1; cbv; split; congruence).
  destruct (call_single c_messageTypeCallReq c_messageTypeCallReqContinue id (w_callreq m) _ kind a1 a2 a3
              (w_callreq_writes m ttl_ms OK) Hk Ht Hfit) as [A B].
  assert (E : payload = [0] ++ spec_callreq m ttl_ms ++ s_call_args kind (csum_value kind (s_csum_input a1 a2 a3)) a1 a2 a3).
  { unfold payload, s_callreq_full, spec_callreq, s_callreq. rewrite <- !app_assoc. reflexivity. }
  rewrite E. split; [exact A|exact B].
Qed.

Theorem callres_single_layout : forall m kind id a1 a2 a3,
  callres_ok m -> kind_ok kind ->
  fits_one (frag_capacity (s_callres (cs_code m) (spec_span (cs_span m)) (cs_headers m)) (ck_fresh kind)) a1 a2 a3 ->
  let payload := s_callres_full 0 (cs_code m) (spec_span (cs_span m)) (cs_headers m)
                   kind (csum_value kind (s_csum_input a1 a2 a3)) a1 a2 a3 in
  call_frames c_messageTypeCallRes c_messageTypeCallResContinue id (w_callres m) kind
              (script3 [IWrite a1] [IWrite a2] [IWrite a3])
    = Some [s_frame t_call_res id payload] /\
  zlen (s_frame t_call_res id payload) <= 65535.
Proof.
  intros m kind id a1 a2 a3 OK Hk Hfit payload.
  assert (Ht : u_ok 1 c_messageTypeCallRes) by (apply u_ok_1; cbv; split; congruence).
  destruct (call_single c_messageTypeCallRes c_messageTypeCallResContinue id (w_callres m) _ kind a1 a2 a3
              (w_callres_writes m OK) Hk Ht Hfit) as [A B].
  assert (E : payload = [0] ++ spec_callres m ++ s_call_args kind (csum_value kind (s_csum_input a1 a2 a3)) a1 a2 a3).
  { unfold payload, s_callres_full, spec_callres, s_callres. rewrite <- !app_assoc. reflexivity. }
  rewrite E. split; [exact A|exact B].
Qed.

Print Assumptions callreq_single_layout.
Print Assumptions callres_single_layout.
