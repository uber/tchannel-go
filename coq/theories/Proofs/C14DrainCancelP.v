(* C14: the caller's cancel on connections that are not active.  (1) The regenerated decisions
   of the cancel path (Gen/GenC14Cancel.v) depend on the option only, never on the connection or
   channel state; (2) hence the state-carrying system of Model/C14DrainCancel.v projects onto
   Model/Cancel.v for every schedule and every assignment of states; (3) hence the cancel
   reaches the running handler in every connection state. *)
From Coq Require Import ZArith List Bool Lia.
From Verif Require Import Base.Wrap Base.Wire Gen.GenConsts Gen.GenTTL Gen.GenFrame Gen.GenC14Cancel
  Model.Cancel Model.C14DrainCancel Proofs.CancelP Proofs.CancelInvP.
Import ListNotations.
Local Open Scope Z_scope.

(* ---- (1) the generated decisions ---------------------------------------------------------- *)
Lemma c14dc_gen_on_cancel sc cs chs serr tr :
  c14OnCancel sc cs chs serr tr =
  if sc then (if serr then (tr ++ [6]) ++ [7] else tr ++ [6]) else tr.
Proof. unfold c14OnCancel. destruct sc, serr; reflexivity. Qed.

Lemma c14dc_gen_route mt p cs chs : c14RelayCancelRoute mt p cs chs = relayRoute mt p.
Proof. reflexivity. Qed.

Lemma c14dc_gen_route_cancel p cs chs :
  c14RelayCancelRoute c_messageTypeCancel p cs chs = if p then 1 else 0.
Proof. destruct p; reflexivity. Qed.

Lemma c14dc_gen_handle_cancel p cs chs tr :
  c14HandleCancel p cs chs tr =
  ((if p then ((tr ++ [1]) ++ [2]) ++ [3] else tr ++ [1]), true).
Proof. unfold c14HandleCancel. destruct p; reflexivity. Qed.

Lemma c14dc_gen_mexset reg tr : c14MexsetCancel reg tr = if reg then tr ++ [4] else tr.
Proof. unfold c14MexsetCancel. destruct reg; reflexivity. Qed.

Lemma c14dc_gen_mex h tr : c14MexCancel h tr = if h then tr ++ [5] else tr.
Proof. unfold c14MexCancel. destruct h; reflexivity. Qed.

Lemma c14dc_gen_all : forall (opt : bool) (cs chs : Z) (tr : list Z),
  (forall serr, c14OnCancel opt cs chs serr tr =
     if opt then (if serr then (tr ++ [6]) ++ [7] else tr ++ [6]) else tr) /\
  (forall mt, c14RelayCancelRoute mt opt cs chs = relayRoute mt opt) /\
  c14RelayCancelRoute c_messageTypeCancel opt cs chs = (if opt then 1 else 0) /\
  c14HandleCancel opt cs chs tr = ((if opt then ((tr ++ [1]) ++ [2]) ++ [3] else tr ++ [1]), true) /\
  (forall reg, c14MexsetCancel reg tr = if reg then tr ++ [4] else tr) /\
  (forall has, c14MexCancel has tr = if has then tr ++ [5] else tr).
Proof.
  intros opt cs chs tr. split; [intros serr; apply c14dc_gen_on_cancel|].
  split; [intros mt; apply c14dc_gen_route|]. split; [apply c14dc_gen_route_cancel|].
  split; [apply c14dc_gen_handle_cancel|]. split; [intros reg; apply c14dc_gen_mexset|intros h; apply c14dc_gen_mex].
Qed.

(* ---- (2) projection onto Model/Cancel.v ----------------------------------------------------- *)
Lemma c14dc_server_cancel_eq c k s : c14dc_server_cancel c k s = server_cancel c s.
Proof.
  unfold c14dc_server_cancel, server_cancel. destruct (dc_server k) as [cs chs].
  rewrite c14dc_gen_handle_cancel. destruct (srv_prop c); cbn [fst negb app c14dc_has existsb Z.eqb Pos.eqb orb].
  - rewrite c14dc_gen_mexset, c14dc_gen_mex. destruct s; cbn.
    destruct mex_reg; cbn; [destruct (hctx =? 0)|]; reflexivity.
  - reflexivity.
Qed.

Lemma c14dc_hops_forward_eq ps : forall ks, c14dc_hops_forward ps ks = all_true ps.
Proof.
  induction ps as [|p ps IH]; intros ks; [reflexivity|].
  cbn [c14dc_hops_forward]. destruct (hd c14dc_active ks) as [cs chs].
  rewrite c14dc_gen_route_cancel, IH. destruct p; reflexivity.
Qed.

Lemma c14dc_travel_eq c k s : c14dc_travel_cancel c k s = travel_cancel c s.
Proof.
  unfold c14dc_travel_cancel, travel_cancel.
  rewrite c14dc_hops_forward_eq, !c14dc_server_cancel_eq. reflexivity.
Qed.

Lemma c14dc_notify_eq c k s : c14dc_notify_cancel c k s = notify_cancel c s.
Proof.
  unfold c14dc_notify_cancel, notify_cancel. destruct (dc_client k) as [cs chs].
  rewrite c14dc_gen_on_cancel, c14dc_travel_eq.
  destruct (cancel_notified s); [reflexivity|]. destruct (send_cancel c); reflexivity.
Qed.

Lemma c14dc_ctx_err_eq c k s : c14dc_caller_ctx_err c k s = caller_ctx_err c s.
Proof. unfold c14dc_caller_ctx_err, caller_ctx_err. rewrite c14dc_notify_eq. reflexivity. Qed.

Lemma c14dc_base_step_eq c k s l : c14dc_base_step c k s l = step c s l.
Proof.
  destruct l; try reflexivity;
    unfold c14dc_base_step, c14dc_caller_write, step, caller_write; rewrite c14dc_ctx_err_eq; reflexivity.
Qed.

Lemma c14dc_drain_base d who : d_base (c14dc_drain d who) = d_base d.
Proof.
  unfold c14dc_drain. destruct (negb _); [reflexivity|].
  destruct (c14dc_get _ _) as [cs chs]. destruct (negb _); reflexivity.
Qed.

Lemma c14dc_step_base c d l :
  d_base (c14dc_step c d l) = match l with DL bl => step c (d_base d) bl | _ => d_base d end.
Proof.
  destruct l as [bl|who|who cs chs]; cbn [c14dc_step d_base].
  - apply c14dc_base_step_eq.
  - apply c14dc_drain_base.
  - reflexivity.
Qed.

Lemma c14dc_fold_base c ls : forall d,
  d_base (fold_left (c14dc_step c) ls d) = fold_left (step c) (c14dc_erase ls) (d_base d).
Proof.
  induction ls as [|l ls IH]; intros d; [reflexivity|].
  cbn [fold_left]. rewrite IH, c14dc_step_base. destruct l; reflexivity.
Qed.

(* every schedule with graceful Closes and arbitrary state changes of any party behaves, for the
   call, as the schedule without them *)
Lemma c14dc_erasure c ls : d_base (c14dc_run c ls) = run c (c14dc_erase ls).
Proof. unfold c14dc_run, run. rewrite c14dc_fold_base. reflexivity. Qed.

Lemma c14dc_erase_lift ls : c14dc_erase (map DL ls) = ls.
Proof. induction ls as [|l ls IH]; [reflexivity|]. cbn. rewrite IH. reflexivity. Qed.

(* ---- (3) the cancel reaches the handler in every connection state ---------------------- *)
Lemma c14dc_cancel_reaches c ls k l :
  let s := d_base (c14dc_run c ls) in
  all_on c = true ->
  hstarted s = true -> hctx s = 0 -> cctx s = 2 -> conn_failed s = false -> caller_waits s l ->
  mex_reg s = true /\
  hctx (c14dc_base_step c k s l) = 2 /\ cres (c14dc_base_step c k s l) = Some c_ErrCodeCancelled.
Proof.
  cbv zeta. rewrite c14dc_erasure, c14dc_base_step_eq. intros A B C D E F.
  split.
  - destruct (reach_run c (c14dc_erase ls)) as (_ & _ & (_ & P6) & _). apply (P6 B C).
  - apply cancel_reaches_handler; auto using reach_run.
Qed.

(* the server alone: a cancel frame that arrives for a registered exchange of a running handler
   is counted as honoured and cancels the handler's context, whatever the states *)
Lemma c14dc_server_honours c k s :
  srv_prop c = true -> mex_reg s = true -> hctx s = 0 ->
  hctx (c14dc_server_cancel c k s) = 2 /\ honored (c14dc_server_cancel c k s) = honored s + 1.
Proof.
  intros A B C. rewrite c14dc_server_cancel_eq. unfold server_cancel. rewrite A.
  destruct s; cbn in *. subst. cbn. split; reflexivity.
Qed.

(* what the obligation excludes: a handleCancel that also requires an active connection leaves
   the handler of a draining server running (the reviewers' edit, as a function) *)
Definition c14dc_bad_handle_cancel (p : bool) (cs chs : Z) (tr : list Z) : list Z * bool :=
  let tr := tr ++ [1] in
  if negb p || negb (cs =? c_connectionActive) then (tr, true)
  else ((tr ++ [2]) ++ [3], true).

Lemma c14dc_bad_differs :
  exists p cs chs, fst (c14dc_bad_handle_cancel p cs chs []) <> fst (c14HandleCancel p cs chs []).
Proof. exists true, c_connectionStartClose, c_ChannelStartClose. vm_compute. discriminate. Qed.

(* non-vacuity: the server starts a graceful Close with the call in flight, every relay hop and
   the caller's channel too; the caller cancels and goes on writing *)
Definition c14dc_ex_cfg : cfg := {| send_cancel := true; hops := [true; true]; srv_prop := true |}.
Definition c14dc_ex_ls : list c14dc_label :=
  [DL LBegin; DL LWFrag; DDrain 0; DDrain 2; DDrain 3; DDrain 1; DL LCancel].

Lemma c14dc_example :
  let d := c14dc_run c14dc_ex_cfg c14dc_ex_ls in
  dc_server (d_conns d) = (c_connectionStartClose, c_ChannelStartClose) /\
  dc_hops (d_conns d) = [(c_connectionStartClose, c_ChannelStartClose); (c_connectionStartClose, c_ChannelStartClose)] /\
  dc_client (d_conns d) = (c_connectionInboundClosed, c_ChannelStartClose) /\
  hstarted (d_base d) = true /\ hctx (d_base d) = 0 /\ cctx (d_base d) = 2 /\
  hctx (d_base (c14dc_step c14dc_ex_cfg d (DL LWFrag))) = 2.
Proof. vm_compute. repeat split; reflexivity. Qed.
