(* The tie between the library's pool sites and the model (property C04, pool discipline), and
   the discipline of the life cycles.

     syncpool_site_offenders_none / syncpool_sites_generated
         the table of every sync.Pool Get / Put site and every call of a put wrapper that go2v
         extracts from the source on this run IS the model's table (row for row, in order);
         stated first as "no offending row numbers" so that a new, removed, moved or re-guarded
         site is reported by its number in Gen/GenSyncPools.v (generated rows unknown to the
         model: n; rows of the model that were not generated: 1000 + n)
     syncpool_decls_generated   the same for the declared pools
     pools_covered              every declared pool is under census in the harness or listed, with
                                the reason, as not tracked
     pool_roles_ok              the roles are well-formed: Get rows begin a cycle, Put / PutVia
                                rows end one or hand on; every cycle is entered and left
     pool_double_release_fns    two release sites of one cycle within one function occur only
                                in the listed function(s)
     lc_disciplined             any interleaving of any number of holders, each taking one object
                                and giving it back at most once, is a disciplined trace -- hence
                                (Proofs/PoolTraceP.v) exclusive after every prefix *)
From Coq Require Import ZArith List Bool Lia String Ascii.
From Verif Require Import Base.Wrap Base.Wire Spec.PoolTraceSpec Model.PoolTrace Model.PoolSites Gen.GenSyncPools Proofs.PoolTraceP.
Import ListNotations.
Local Open Scope Z_scope.

Lemma syncpool_site_offenders_none : ps_offenders syncpool_sites = [].
Proof. vm_compute. reflexivity. Qed.

Lemma syncpool_decl_offenders_none : pd_offenders syncpool_decls = [].
Proof. vm_compute. reflexivity. Qed.

(* The model writes its rows as strings, and ps_s2z turns a string into numbers through unary nat:
   slow in the kernel's own reduction (coqchk has no VM).  For the equality of whole tables the
   generated numbers are turned into strings instead (binary all the way): the kernel then compares
   the string arguments of ps_s2z on both sides and never converts the model's strings. *)
Definition ps_z2s (l : list Z) : string := string_of_list_ascii (map (fun z => ascii_of_N (Z.to_N z)) l).
Definition ps_bytes (l : list Z) : bool := forallb (fun z => (0 <=? z) && (z <? 256)) l.

Lemma ps_s2z_z2s l : ps_bytes l = true -> ps_s2z (ps_z2s l) = l.
Proof.
  intros H. unfold ps_s2z, ps_z2s. rewrite list_ascii_of_string_of_list_ascii, map_map.
  induction l as [|z r IH]; cbn [map ps_bytes forallb] in *; [reflexivity|]. apply andb_true_iff in H as [Hz Hr].
  rewrite (IH Hr). f_equal. unfold nat_of_ascii. rewrite N_ascii_embedding, N_nat_Z, Z2N.id; lia.
Qed.

Definition ps_unrow (r : ps_row) : ps_row :=
  let '(a, b, c, d, e) := r in psr (ps_z2s a) (ps_z2s b) (ps_z2s c) (ps_z2s d) (ps_z2s e).
Definition ps_row_bytes (r : ps_row) : bool :=
  let '(a, b, c, d, e) := r in ps_bytes a && ps_bytes b && ps_bytes c && ps_bytes d && ps_bytes e.
Definition ps_undecl (d : ps_decl) : ps_decl := psd (ps_z2s (fst d)) (ps_z2s (snd d)).

Lemma map_id_on {A} (f : A -> A) (ok : A -> bool) l :
  (forall x, ok x = true -> f x = x) -> forallb ok l = true -> map f l = l.
Proof.
  intros Hf H. rewrite <- (map_id l) at 2. apply map_ext_in. intros x Hx.
  exact (Hf x (proj1 (forallb_forall _ _) H x Hx)).
Qed.

Lemma syncpool_sites_generated : map fst pool_site_table = syncpool_sites.
Proof.
  transitivity (map ps_unrow syncpool_sites); [reflexivity|]. apply (map_id_on _ ps_row_bytes).
  - intros [[[[a b] c] d] e] H. cbn [ps_row_bytes ps_unrow] in *. unfold psr.
    repeat (apply andb_true_iff in H as [H ?]). rewrite !ps_s2z_z2s by assumption. reflexivity.
  - vm_compute. reflexivity.
Qed.

Lemma syncpool_decls_generated : pool_decl_table = syncpool_decls.
Proof.
  transitivity (map ps_undecl syncpool_decls); [reflexivity|].
  apply (map_id_on _ (fun d => ps_bytes (fst d) && ps_bytes (snd d))).
  - intros [a b] H. apply andb_true_iff in H as [Ha Hb]. unfold ps_undecl, psd. cbn [fst snd] in *.
    rewrite !ps_s2z_z2s by assumption. reflexivity.
  - vm_compute. reflexivity.
Qed.

(* the model's table with its rows as numbers *)
Lemma pool_site_table_rows : pool_site_table = combine syncpool_sites (map snd pool_site_table).
Proof.
  rewrite <- syncpool_sites_generated. generalize pool_site_table.
  induction l as [|[r x] l IH]; cbn [map combine fst snd]; [reflexivity|f_equal; exact IH].
Qed.

Lemma pools_covered_b : forallb pool_covered syncpool_decls = true.
Proof. vm_compute. reflexivity. Qed.

Lemma pools_covered : forall d, In d syncpool_decls -> pool_covered d = true.
Proof. apply forallb_forall. exact pools_covered_b. Qed.

Lemma pool_tracked_bytes : pool_tracked_z = pool_tracked.
Proof. vm_compute. reflexivity. Qed.

Lemma run_pooltracked_spec : forall names,
  run_pooltracked (put_list put_bytes names) = [1] -> ps_lzl_eq (fst (take_list take_bytes (put_list put_bytes names))) pool_tracked = true.
Proof.
  intros names. unfold run_pooltracked. rewrite pool_tracked_bytes.
  destruct (take_list take_bytes (put_list put_bytes names)) as [ns rest]. cbn [fst].
  destruct (ps_lzl_eq ns pool_tracked); [reflexivity|discriminate].
Qed.

Lemma pool_roles_ok : forallb ps_role_ok pool_site_table = true /\ ps_cycles_ok = true.
Proof. unfold ps_cycles_ok. rewrite pool_site_table_rows. split; vm_compute; reflexivity. Qed.

Lemma pool_double_release_fns : ps_same_fn_releases pool_site_table = ps_double_release_fns.
Proof. rewrite pool_site_table_rows. vm_compute. reflexivity. Qed.

Lemma pool_release_rows : forall r, In r syncpool_sites ->
  exists role, In (r, role) pool_site_table.
Proof.
  intros r Hr. rewrite <- syncpool_sites_generated in Hr. apply in_map_iff in Hr.
  destruct Hr as [[r' role] [Hf Hin]]. cbn [fst] in Hf. subst r'. exists role. exact Hin.
Qed.

(* ------------------------------------------------------------------ the life cycles *)

Lemma pw_rm1p_keeps : forall x y l, In x l -> x <> y -> In x (pw_rm1p y l).
Proof.
  intros x y l. induction l as [|z r IH]; cbn [pw_rm1p In]; [tauto|].
  intros Hin Hne. destruct (pw_pair_eqb z y) eqn:E.
  - apply pw_pair_eqb_eq in E. subst z. destruct Hin as [Hz|Hin]; [congruence|exact Hin].
  - destruct Hin as [Hz|Hin]; [left; exact Hz|right; apply IH; assumption].
Qed.

Lemma lc_memz_in : forall x l, lc_memz x l = true -> In x l.
Proof.
  intros x l. induction l as [|y r IH]; cbn [lc_memz In]; [discriminate|].
  rewrite orb_true_iff, Z.eqb_eq. intros [H|H]; [left; exact H|right; apply IH; exact H].
Qed.

Lemma max_seen_fresh : forall l x, In x l -> x <= fold_right Z.max 0 l.
Proof.
  induction l as [|y r IH]; intros x; cbn [In fold_right]; [tauto|].
  intros [->|H]; [lia|]. specialize (IH x H). lia.
Qed.

Lemma lc_new_fresh : forall w, ~ In (lc_new w) (pw_seen w).
Proof. intros w Hc. apply max_seen_fresh in Hc. unfold lc_new in Hc. lia. Qed.

Definition lc_inv (s : lc_st) : Prop :=
  forall h, lc_phase s h = 1 -> In (lc_obj s h, h) (pw_held (lc_world s)).

Lemma lc_step_ok : forall s l ev s', lc_inv s -> lc_step s l = Some (ev, s') ->
  disc_from (lc_world s) ev /\ lc_world s' = pw_run (lc_world s) ev /\ lc_inv s'.
Proof.
  intros s l ev s' Hinv. destruct l as [h pick|h|h]; cbn [lc_step].
  - destruct (lc_phase s h =? 0) eqn:E0; cbn [negb]; [|discriminate]. apply Z.eqb_eq in E0.
    assert (Hnew : forall o w', In (o, h) (pw_held w') -> (forall h', lc_phase s h' = 1 -> In (lc_obj s h', h') (pw_held w')) ->
              lc_inv (mkLc w' (lc_upd (lc_phase s) h 1) (lc_upd (lc_obj s) h o))).
    { intros o w' Hoh Hrest h' Hp. unfold lc_inv, lc_upd in *. cbn [lc_phase lc_obj lc_world] in *.
      destruct (Z.eqb_spec h' h) as [Heq|Hne]; [rewrite Heq; exact Hoh|]. apply Hrest. exact Hp. }
    destruct pick as [o|].
    + destruct (lc_memz o (pw_bag (lc_world s))) eqn:Em; [|discriminate].
      intros H; inversion H; subst ev s'. cbn [disc_from ev_ok pw_run fold_left lc_world].
      split; [split; [left; apply lc_memz_in; exact Em|exact I]|]. split; [reflexivity|].
      apply Hnew; cbn [pw_step pw_held]; [left; reflexivity|]. intros h' Hp. right. apply Hinv. exact Hp.
    + intros H; inversion H; subst ev s'. cbn [disc_from ev_ok pw_run fold_left lc_world].
      split.
      * split; [|exact I]. right. apply lc_new_fresh.
      * split; [reflexivity|].
        apply Hnew; cbn [pw_step pw_held]; [left; reflexivity|]. intros h' Hp. right. apply Hinv. exact Hp.
  - destruct (lc_phase s h =? 1) eqn:E1; [|discriminate]. apply Z.eqb_eq in E1.
    intros H; inversion H; subst ev s'. cbn [disc_from ev_ok pw_run fold_left lc_world].
    split; [split; [apply Hinv; exact E1|exact I]|]. split; [reflexivity|].
    intros h' Hp. unfold lc_upd in Hp. cbn [lc_phase lc_obj lc_world pw_step pw_held] in *.
    destruct (Z.eqb_spec h' h) as [Heq|Hne]; [discriminate|].
    apply pw_rm1p_keeps; [apply Hinv; exact Hp|]. intros Hc. inversion Hc. congruence.
  - destruct (lc_phase s h =? 1) eqn:E1; [|discriminate].
    intros H; inversion H; subst ev s'. cbn [disc_from pw_run fold_left lc_world].
    split; [exact I|]. split; [reflexivity|].
    intros h' Hp. unfold lc_upd in Hp. cbn [lc_phase lc_obj lc_world] in *.
    destruct (Z.eqb_spec h' h) as [Heq|Hne]; [discriminate|]. apply Hinv. exact Hp.
Qed.

Lemma disc_from_app_intro : forall a b w, disc_from w a -> disc_from (pw_run w a) b -> disc_from w (a ++ b).
Proof.
  induction a as [|e r IH]; intros b w; cbn [app disc_from pw_run fold_left]; [tauto|].
  intros [Hok Hr] Hb. split; [exact Hok|]. apply IH; assumption.
Qed.

Lemma pw_run_app : forall a b w, pw_run w (a ++ b) = pw_run (pw_run w a) b.
Proof. intros a b w. unfold pw_run. apply fold_left_app. Qed.

Lemma lc_run_ok : forall ls s evs s', lc_inv s -> lc_run s ls = Some (evs, s') ->
  disc_from (lc_world s) evs /\ lc_world s' = pw_run (lc_world s) evs /\ lc_inv s'.
Proof.
  induction ls as [|l r IH]; intros s evs s' Hinv; cbn [lc_run].
  - intros H; inversion H; subst. cbn [disc_from pw_run fold_left]. tauto.
  - destruct (lc_step s l) as [[ev s1]|] eqn:E; [|discriminate].
    destruct (lc_run s1 r) as [[evr s2]|] eqn:Er; [|discriminate].
    intros H; inversion H; subst evs s'.
    destruct (lc_step_ok s l ev s1 Hinv E) as (Hd1 & Hw1 & Hi1).
    destruct (IH s1 evr s2 Hi1 Er) as (Hd2 & Hw2 & Hi2).
    split; [apply disc_from_app_intro; [exact Hd1|rewrite <- Hw1; exact Hd2]|].
    split; [rewrite pw_run_app, <- Hw1; exact Hw2|exact Hi2].
Qed.

Theorem lc_disciplined : forall ls evs s', lc_run lc_init ls = Some (evs, s') -> disciplined evs.
Proof.
  intros ls evs s' H. apply disciplined_iff.
  assert (Hinv : lc_inv lc_init) by (intros h Hp; cbn [lc_init lc_phase] in Hp; discriminate).
  apply (lc_run_ok ls lc_init evs s' Hinv H).
Qed.

Theorem lc_no_sharing : forall ls evs s', lc_run lc_init ls = Some (evs, s') ->
  forall pre post, evs = pre ++ post -> exclusive (pw_run pw_init pre) /\ no_sharing (pw_run pw_init pre).
Proof.
  intros ls evs s' H pre post Heq. pose proof (lc_disciplined ls evs s' H) as Hd. split.
  - eapply pool_discipline_exclusive; eassumption.
  - eapply pool_discipline_no_sharing; eassumption.
Qed.

(* non-vacuity: three holders overlapping, one of them dropping its object, the pool reusing one *)
Example lc_example :
  exists evs s', lc_run lc_init [LcGet 1 None; LcGet 2 None; LcPut 1; LcGet 3 (Some 1); LcDrop 2; LcPut 3] = Some (evs, s')
    /\ evs = [PGet 1 1; PGet 2 2; PPut 1 1; PGet 1 3; PPut 1 3].
Proof. eexists. eexists. split; vm_compute; reflexivity. Qed.

(* non-vacuity of the tables: the two sites whose combination a missed change exploited *)
Example pool_sites_example :
  existsb (fun p => ps_row_eq (fst p) ps_row_writer_release) pool_site_table = true /\
  existsb (fun p => ps_row_eq (fst p) ps_row_readheaders_release) pool_site_table = true.
Proof. rewrite pool_site_table_rows. split; vm_compute; reflexivity. Qed.
