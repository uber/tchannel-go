(* Proofs about the per-frame dispatch model Model/PeerInput.v (C03): every iteration of the
   reader loop has one of a few outcomes ([outcome]); the theorems of Props/C03.v are read off
   that classification. *)
From Coq Require Import ZArith List Bool Lia.
From Verif Require Import Base.Wrap Base.Bytes Base.Wire Gen.GenConsts Gen.GenFrame Model.TypedBuf Model.Messages
  Model.Crc Model.Frag Model.FragWire Model.PeerInput Proofs.CodecP Proofs.CodecsP Proofs.PeerInputP.
Import ListNotations.
Local Open Scope Z_scope.

Lemma mx_put_keys id e m : mx_keys (mx_put id e m) = mx_keys m.
Proof.
  induction m as [|[k e0] m IH]; [reflexivity|]. cbn [mx_put]. destruct (k =? id); cbn [mx_keys map fst] in *; [reflexivity|].
  f_equal. exact IH.
Qed.
Lemma mx_put_other id id' e m : id' <> id -> mx_lookup id' (mx_put id e m) = mx_lookup id' m.
Proof.
  intros Hne. induction m as [|[k e0] m IH]; [reflexivity|]. cbn [mx_put]. destruct (k =? id) eqn:E.
  - cbn [mx_lookup]. destruct (k =? id') eqn:E'; [lia|reflexivity].
  - cbn [mx_lookup]. destruct (k =? id'); [reflexivity|exact IH].
Qed.
Lemma notify_keys m : mx_keys (notify_all m) = mx_keys m.
Proof. unfold mx_keys, notify_all. rewrite map_map. apply map_ext. intros [k e]. reflexivity. Qed.
Lemma notify_lookup id m : mx_lookup id (notify_all m) = option_map mx_set_err (mx_lookup id m).
Proof.
  induction m as [|[k e] m IH]; [reflexivity|]. cbn [notify_all map fst snd mx_lookup].
  destruct (k =? id); [reflexivity|exact IH].
Qed.

Definition st_code_ok (s : Z) : Prop :=
  s = c_connectionActive \/ s = c_connectionStartClose \/ s = c_connectionInboundClosed \/ s = c_connectionClosed.

Lemma set_state_same st : set_state (cs_state st) st = st.
Proof. destruct st. reflexivity. Qed.

(* checkExchanges is three steps, each of which sets the close state or does nothing *)
Lemma shape_step st0 st (b : bool) x : st_code_ok x ->
  (exists s, st = set_state s st0 /\ (state_ok st0 -> st_code_ok s)) ->
  exists s, (if b then set_state x st else st) = set_state s st0 /\ (state_ok st0 -> st_code_ok s).
Proof.
  intros Hx (s & -> & Hs). destruct b; [exists x; split; [destruct st0; reflexivity|intros _; exact Hx]|exists s; auto].
Qed.

Lemma check_exchanges_shape st : exists s, check_exchanges st = set_state s st /\ (state_ok st -> st_code_ok s).
Proof.
  assert (N : forall (a b : bool) (x y : cstate), (if a then (if b then x else y) else y) = if a && b then x else y)
    by (intros [] []; reflexivity).
  unfold check_exchanges. cbv zeta. rewrite !N. repeat apply shape_step; try (unfold st_code_ok; auto).
  exists (cs_state st). split; [symmetry; apply set_state_same|auto].
Qed.

Lemma conn_close_shape st : exists s, conn_close st = set_state s st /\ (state_ok st -> st_code_ok s).
Proof.
  unfold conn_close. destruct (cs_state st =? c_connectionActive).
  - destruct (check_exchanges_shape (set_state c_connectionStartClose st)) as [s [E H]].
    exists s. split; [rewrite E; destruct st; reflexivity|]. intros _. apply H. unfold state_ok. cbn. auto.
  - exists (cs_state st). split; [symmetry; apply set_state_same|]. intros H. exact H.
Qed.

(* what a shutdown of the connection may do to the rest of the state *)
Definition shut (st st' : cstate) : Prop :=
  (cs_in st' = cs_in st \/ cs_in st' = notify_all (cs_in st)) /\
  (cs_out st' = cs_out st \/ cs_out st' = notify_all (cs_out st)) /\
  cs_cancel st' = cs_cancel st /\ state_ok st' /\ cs_stopped st' = true.

Lemma shut_keys st st' : shut st st' -> mx_keys (cs_in st') = mx_keys (cs_in st) /\ mx_keys (cs_out st') = mx_keys (cs_out st).
Proof. intros [[A|A] [[B|B] _]]; rewrite A, B, ?notify_keys; split; reflexivity. Qed.

Lemma stop_close_shut st0 st : state_ok st0 ->
  cs_in st = cs_in st0 -> cs_out st = cs_out st0 -> cs_cancel st = cs_cancel st0 -> cs_stopped st = cs_stopped st0 -> state_ok st ->
  shut st0 (stop_exchanges (conn_close st)) /\ shut st0 (check_exchanges (stop_exchanges (conn_close st))).
Proof.
  intros Hok0 Ein Eout Ec Es Hok.
  destruct (conn_close_shape st) as [s [E Hs]]. specialize (Hs Hok). rewrite E.
  assert (S1 : shut st0 (stop_exchanges (set_state s st))).
  { unfold stop_exchanges. cbn [cs_stopped set_state cs_in cs_out cs_state cs_sendroom cs_cancel].
    destruct (cs_stopped st) eqn:St.
    - unfold shut. cbn [cs_in cs_out cs_cancel cs_stopped set_state]. rewrite Ein, Eout, Ec. unfold state_ok. cbn [cs_state set_state]. auto.
    - unfold shut. cbn [cs_in cs_out cs_cancel cs_stopped]. rewrite Ein, Eout, Ec. unfold state_ok. cbn [cs_state]. auto. }
  split; [exact S1|].
  destruct (check_exchanges_shape (stop_exchanges (set_state s st))) as [s2 [E2 H2]]. rewrite E2.
  destruct S1 as [A [B [C [D F]]]]. specialize (H2 D).
  unfold shut. cbn [cs_in cs_out cs_cancel cs_stopped set_state]. unfold state_ok. cbn [cs_state set_state]. auto.
Qed.

Lemma send_system_error_shape st id code st1 e : send_system_error st id code = (st1, e) ->
  (e = [] /\ st1 = st) \/ (e = [SendFrame c_messageTypeError id code] /\ st1 = set_room (cs_sendroom st - 1) st /\ cs_sendroom st > 0).
Proof.
  unfold send_system_error. destruct (cs_state st =? c_connectionClosed); [intros H; inversion H; auto|].
  destruct (cs_sendroom st >? 0) eqn:R; intros H; inversion H; subst; [right|left]; auto.
  split; [reflexivity|]. split; [reflexivity|lia].
Qed.

Lemma connection_error_shut st st' es : state_ok st -> connection_error st = (st', es) -> es = [CloseConn] /\ shut st st'.
Proof.
  intros Hok H. unfold connection_error in H. inversion H; subst. split; [reflexivity|].
  apply (stop_close_shut st st Hok); auto.
Qed.

Lemma protocol_error_shut st id st' es : state_ok st -> protocol_error st id = (st', es) ->
  shut st st' /\ (es = [CloseConn] \/ es = [SendFrame c_messageTypeError id c_ErrCodeProtocol; CloseConn]).
Proof.
  intros Hok H. unfold protocol_error in H. destruct (send_system_error st id c_ErrCodeProtocol) as [st1 e] eqn:E.
  inversion H; subst. apply send_system_error_shape in E. destruct E as [[E1 E2]|[E1 [E2 _]]]; subst.
  - split; [apply (stop_close_shut st st Hok); auto|left; reflexivity].
  - split; [|right; reflexivity].
    apply (stop_close_shut st (set_room (cs_sendroom st - 1) st) Hok); auto.
Qed.

(* a call req accepted by parseInboundFragment carries a known checksum type: the pool lookup
   checksumType.New() in handleCallReq cannot go out of range *)
Lemma pif_ctype_known payload ct : bytes_ok payload = true -> parse_inbound_fragment payload = (0, ct) -> ck_new ct <> None.
Proof.
  intros Hb. unfold parse_inbound_fragment. destruct (r_u8 (rb payload)) as [flags r0] eqn:E0.
  assert (B0 : bytes_ok (rrem r0) = true).
  { pose proof (suffix_bytes_ok r_u8 (rb payload) (suffix_uint 1) Hb) as X. rewrite E0 in X. exact X. }
  pose proof (suffix_bytes_ok r_callreq r0 suffix_callreq B0) as B1.
  destruct (rerr (snd (r_callreq r0))); [discriminate|].
  destruct (r_u8 (snd (r_callreq r0))) as [c r2] eqn:E1.
  pose proof (r_u8_range _ _ _ B1 E1) as Rct.
  destruct (c >=? c_checksumCount) eqn:G; [discriminate|].
  destruct (r_bytes (Z.to_nat (ChecksumSize c)) r2) as [ck r3]. destruct (rerr r3); [discriminate|].
  intros H. inversion H; subst. apply ctype_known. lia.
Qed.

(* ---------------- the outcomes of one reader iteration ---------------- *)
Inductive outcome (st : cstate) (mt id : Z) (payload : list Z) : cstate -> list effect -> Prop :=
| O_drop : frame_legal st mt id payload = false -> outcome st mt id payload st [Drop]
| O_declined : frame_legal st mt id payload = false -> cs_sendroom st > 0 ->
    outcome st mt id payload (set_room (cs_sendroom st - 1) st) [SendFrame c_messageTypeError id c_ErrCodeDeclined]
| O_close st' es : frame_legal st mt id payload = false -> shut st st' ->
    (es = [CloseConn] \/ es = [SendFrame c_messageTypeError id c_ErrCodeProtocol; CloseConn]) ->
    outcome st mt id payload st' es
| O_pong_full st' : mt = c_messageTypePingReq -> cs_state st <> c_connectionClosed -> cs_sendroom st <= 0 -> shut st st' ->
    outcome st mt id payload st' [CloseConn]
| O_pong : mt = c_messageTypePingReq -> cs_state st <> c_connectionClosed -> cs_sendroom st > 0 ->
    outcome st mt id payload (set_room (cs_sendroom st - 1) st) [SendFrame c_messageTypePingRes id 0]
| O_dispatch f : mt = c_messageTypeCallReq -> cs_state st = c_connectionActive -> cs_stopped st = false ->
    mx_lookup id (cs_in st) = None -> parse_inbound_fragment payload = (0, f) ->
    outcome st mt id payload (set_in ((id, mx_new) :: cs_in st) st) [Dispatch id]
| O_fwd_in m m' ok : mt = c_messageTypeCallReqContinue -> mx_lookup id (cs_in st) = Some m -> mex_forward m = (m', ok) ->
    outcome st mt id payload (set_in (mx_put id m' (cs_in st)) st) [if ok then Deliver id else Drop]
| O_fwd_out m m' ok : frame_legal st mt id payload = true ->
    mx_lookup id (cs_out st) = Some m -> mex_forward m = (m', ok) ->
    outcome st mt id payload (set_out (mx_put id m' (cs_out st)) st) [if ok then Deliver id else Drop]
| O_cancel m : mt = c_messageTypeCancel -> cs_cancel st = true -> mx_lookup id (cs_in st) = Some m ->
    outcome st mt id payload (set_in (mx_put id (mex_cancel m) (cs_in st)) st) [Cancel id].

Ltac rw_tests := repeat match goal with H : (_ =? _) = _ |- _ => rewrite H end.

Lemma forward_outcome_out st mt id payload st' es : frame_legal st mt id payload = has id (cs_out st) ->
  (let '(ex, e) := forward (cs_out st) id in (set_out ex st, e)) = (st', es) -> outcome st mt id payload st' es.
Proof.
  intros Hl. unfold forward. unfold has in Hl. destruct (mx_lookup id (cs_out st)) as [m|] eqn:L.
  - destruct (mex_forward m) as [m' ok] eqn:F. intros H. inversion H; subst.
    apply (O_fwd_out st mt id payload m m' ok); auto.
  - intros H. inversion H; subst. replace (set_out (cs_out st) st) with st by (destruct st; reflexivity).
    apply O_drop. exact Hl.
Qed.

Lemma span_in_buffer : (c_u_spanIndex + c_u_spanLength >? c_MaxFramePayloadSize) = false.
Proof. reflexivity. Qed.

Theorem hfnr_outcome st mt id payload st' es : state_ok st -> bytes_ok payload = true ->
  handle_frame_no_relay st mt id payload = (st', es) -> outcome st mt id payload st' es.
Proof.
  intros Hok Hb. unfold handle_frame_no_relay.
  destruct (mt =? c_messageTypeCallReq) eqn:T1.
  {
    assert (mt = c_messageTypeCallReq) by lia. subst mt. unfold handle_call_req.
    destruct (cs_state st =? c_connectionActive) eqn:A.
    - destruct (parse_inbound_fragment payload) as [code f] eqn:P.
      destruct (negb (code =? 0)) eqn:C.
      + intros H. inversion H; subst. apply O_drop. unfold frame_legal. rewrite T1, P. cbn [fst]. lia.
      + assert (code = 0) by lia. subst code.
        destruct (cs_stopped st || match mx_lookup id (cs_in st) with Some _ => true | None => false end) eqn:D.
        * intros H. destruct (protocol_error_shut st id st' es Hok H) as [S E].
          apply O_close; [|exact S|exact E]. unfold frame_legal, has. rewrite T1. lia.
        * pose proof (pif_ctype_known _ _ Hb P) as Hn.
          destruct (ck_new f) eqn:K; [|congruence].
          intros H. inversion H; subst. apply orb_false_iff in D. destruct D as [D1 D2].
          apply (O_dispatch st _ id payload f); auto; [lia|].
          destruct (mx_lookup id (cs_in st)); [discriminate|reflexivity].
    - assert (NA : cs_state st <> c_connectionActive) by lia.
      assert (L : frame_legal st c_messageTypeCallReq id payload = false).
      { unfold frame_legal. rewrite T1, A. reflexivity. }
      destruct ((cs_state st =? c_connectionStartClose) || (cs_state st =? c_connectionInboundClosed) || (cs_state st =? c_connectionClosed)) eqn:B.
      + rewrite span_in_buffer. destruct (send_system_error st id c_ErrCodeDeclined) as [st1 e] eqn:S.
        intros H. inversion H; subst. apply send_system_error_shape in S. destruct S as [[E1 E2]|[E1 [E2 R]]]; subst.
        * cbn [or_drop]. apply O_drop. exact L.
        * cbn [or_drop]. apply O_declined; assumption.
      + exfalso. unfold state_ok in Hok. lia. }
  destruct (mt =? c_messageTypeCallReqContinue) eqn:T2.
  { assert (mt = c_messageTypeCallReqContinue) by lia. subst mt.
    unfold forward. destruct (mx_lookup id (cs_in st)) as [m|] eqn:L.
    - destruct (mex_forward m) as [m' ok] eqn:F. intros H. inversion H; subst.
      apply (O_fwd_in st _ id payload m m' ok); auto.
    - intros H. inversion H; subst. replace (set_in (cs_in st) st) with st by (destruct st; reflexivity).
      apply O_drop. unfold frame_legal, has. rewrite T1, T2, L. reflexivity. }
  destruct (mt =? c_messageTypeCallRes) eqn:T3.
  { apply forward_outcome_out. unfold frame_legal. rw_tests. reflexivity. }
  destruct (mt =? c_messageTypeCallResContinue) eqn:T4.
  { apply forward_outcome_out. unfold frame_legal. rw_tests. reflexivity. }
  destruct (mt =? c_messageTypePingReq) eqn:T5.
  { assert (mt = c_messageTypePingReq) by lia. subst mt. unfold handle_ping_req.
    destruct (cs_state st =? c_connectionClosed) eqn:A.
    - intros H. destruct (protocol_error_shut st id st' es Hok H) as [S E].
      apply O_close; [|exact S|exact E]. unfold frame_legal. rw_tests. cbn [orb]. rw_tests. reflexivity.
    - destruct (cs_sendroom st >? 0) eqn:R.
      + intros H. inversion H; subst. apply O_pong; [reflexivity|lia|lia].
      + intros H. destruct (connection_error_shut st st' es Hok H) as [E S]. subst es.
        apply O_pong_full; [reflexivity|lia|lia|exact S]. }
  destruct (mt =? c_messageTypePingRes) eqn:T6.
  { apply forward_outcome_out. unfold frame_legal. rw_tests. reflexivity. }
  destruct (mt =? c_messageTypeError) eqn:T7.
  { unfold handle_error. destruct (r_error (rb payload)) as [m r] eqn:E.
    assert (L : frame_legal st mt id payload = negb (rerr r) && negb (em_code m =? c_ErrCodeProtocol) && has id (cs_out st)).
    { unfold frame_legal. rw_tests. cbn [orb]. rw_tests. rewrite E. reflexivity. }
    destruct (rerr r) eqn:R.
    - intros H. destruct (connection_error_shut st st' es Hok H) as [Es S]. subst es.
      apply O_close; [rewrite L; reflexivity|exact S|left; reflexivity].
    - destruct (em_code m =? c_ErrCodeProtocol) eqn:C.
      + intros H. destruct (connection_error_shut st st' es Hok H) as [Es S]. subst es.
        apply O_close; [rewrite L; reflexivity|exact S|left; reflexivity].
      + apply forward_outcome_out. exact L. }
  destruct (mt =? c_messageTypeCancel) eqn:T8.
  { assert (mt = c_messageTypeCancel) by lia. subst mt. unfold handle_cancel.
    assert (L : frame_legal st c_messageTypeCancel id payload = cs_cancel st && has id (cs_in st)).
    { unfold frame_legal. rw_tests. cbn [orb]. rw_tests. destruct (r_error (rb payload)). reflexivity. }
    destruct (cs_cancel st) eqn:C; cbn [negb].
    - destruct (mx_lookup id (cs_in st)) as [m|] eqn:Lk.
      + intros H. inversion H; subst. apply (O_cancel st _ id payload m); auto.
      + intros H. inversion H; subst. apply O_drop. rewrite L. unfold has. rewrite Lk. reflexivity.
    - intros H. inversion H; subst. apply O_drop. rewrite L. reflexivity. }
  intros H. inversion H; subst. apply O_drop. unfold frame_legal. rw_tests. cbn [orb]. rw_tests. reflexivity.
Qed.

(* ---------------- consequences of the classification ---------------- *)
Lemma outcome_state_ok st mt id payload st' es : state_ok st -> outcome st mt id payload st' es -> state_ok st'.
Proof.
  intros Hok O. destruct O; try exact Hok;
    try (match goal with H : shut _ _ |- _ => destruct H as [_ [_ [_ [H _]]]]; exact H end).
Qed.

Lemma outcome_no_panic st mt id payload st' es : outcome st mt id payload st' es -> forallb (fun e => negb (is_panic e)) es = true.
Proof.
  intros O. destruct O; try reflexivity.
  - destruct H1; subst; reflexivity.
  - destruct ok; reflexivity.
  - destruct ok; reflexivity.
Qed.

(* an illegal or malformed frame: only Drop / one error frame / CloseConn, the key sets are
   unchanged, and without CloseConn the exchange maps, close state and stopped flag are unchanged *)
Definition quiet (st st' : cstate) : Prop :=
  cs_in st' = cs_in st /\ cs_out st' = cs_out st /\ cs_state st' = cs_state st /\ cs_stopped st' = cs_stopped st.

Lemma outcome_illegal st mt id payload st' es : outcome st mt id payload st' es -> frame_legal st mt id payload = false ->
  forallb allowed_effect es = true /\ (length (filter is_send es) <= 1)%nat /\
  mx_keys (cs_in st') = mx_keys (cs_in st) /\ mx_keys (cs_out st') = mx_keys (cs_out st) /\
  (existsb is_close es = false -> quiet st st') /\
  (forall mt' i c, In (SendFrame mt' i c) es ->
     mt' = c_messageTypeError /\ i = id /\ (c = c_ErrCodeDeclined \/ c = c_ErrCodeProtocol)).
Proof.
  intros O L. destruct O.
  - split; [reflexivity|]. split; [cbn; lia|]. split; [reflexivity|]. split; [reflexivity|].
    split; [intros _; unfold quiet; auto|]. intros ? ? ? [F|[]]; discriminate.
  - split; [reflexivity|]. split; [cbn; lia|]. split; [reflexivity|]. split; [reflexivity|].
    split; [intros _; unfold quiet; cbn; auto|]. intros ? ? ? [F|[]]. inversion F; auto.
  - split; [destruct H1; subst; reflexivity|]. split; [destruct H1; subst; cbn; lia|].
    split; [exact (proj1 (shut_keys _ _ H0))|]. split; [exact (proj2 (shut_keys _ _ H0))|].
    split; [destruct H1; subst; cbn; discriminate|].
    intros mt' i c Hin. destruct H1; subst; cbn in Hin.
    + destruct Hin as [F|[]]; discriminate.
    + destruct Hin as [F|[F|[]]]; [inversion F; auto|discriminate].
  - exfalso. subst mt. unfold frame_legal in L. cbn in L. lia.
  - exfalso. subst mt. unfold frame_legal in L. cbn in L. lia.
  - exfalso. subst mt. unfold frame_legal, has in L. rewrite H0, H1, H2, H3 in L. discriminate.
  - exfalso. subst mt. unfold frame_legal, has in L. cbn in L. rewrite H0 in L. discriminate.
  - congruence.
  - exfalso. subst mt. unfold frame_legal, has in L. cbn in L. rewrite H0, H1 in L. destruct (r_error (rb payload)). discriminate.
Qed.

(* any frame: an exchange with another id is untouched, except that a shutdown of the
   connection sets its error latch *)
Definition other_kept (ex ex' : exmap) (closing : bool) (id : Z) : Prop :=
  forall id', id' <> id -> mx_lookup id' ex' = mx_lookup id' ex \/
                          (closing = true /\ mx_lookup id' ex' = option_map mx_set_err (mx_lookup id' ex)).

Lemma shut_other st st' id : shut st st' -> other_kept (cs_in st) (cs_in st') true id /\ other_kept (cs_out st) (cs_out st') true id.
Proof.
  intros [A [B _]]. split; intros id' _.
  - destruct A as [A|A]; rewrite A; [left; reflexivity|right; split; [reflexivity|apply notify_lookup]].
  - destruct B as [B|B]; rewrite B; [left; reflexivity|right; split; [reflexivity|apply notify_lookup]].
Qed.

Lemma outcome_local st mt id payload st' es : outcome st mt id payload st' es ->
  other_kept (cs_in st) (cs_in st') (existsb is_close es) id /\ other_kept (cs_out st) (cs_out st') (existsb is_close es) id.
Proof.
  intros O. destruct O.
  - split; intros id' _; left; reflexivity.
  - split; intros id' _; left; reflexivity.
  - replace (existsb is_close es) with true by (destruct H1; subst; reflexivity). apply shut_other. assumption.
  - apply (shut_other st st' id). assumption.
  - split; intros id' _; left; reflexivity.
  - split; intros id' Hne; left; [|reflexivity]. cbn [cs_in set_in mx_lookup]. destruct (id =? id') eqn:E; [lia|reflexivity].
  - split; intros id' Hne; left; [|reflexivity]. cbn [cs_in set_in]. apply mx_put_other. exact Hne.
  - split; intros id' Hne; left; [reflexivity|]. cbn [cs_out set_out]. apply mx_put_other. exact Hne.
  - split; intros id' Hne; left; [|reflexivity]. cbn [cs_in set_in]. apply mx_put_other. exact Hne.
Qed.

Lemma outcome_dispatch st mt id payload st' es i : outcome st mt id payload st' es -> In (Dispatch i) es ->
  i = id /\ es = [Dispatch id] /\ mt = c_messageTypeCallReq /\ cs_state st = c_connectionActive /\ cs_stopped st = false /\
  mx_lookup id (cs_in st) = None /\ exists ct, parse_inbound_fragment payload = (0, ct).
Proof.
  intros O Hin. destruct O; cbn in Hin.
  - destruct Hin as [F|[]]; discriminate.
  - destruct Hin as [F|[]]; discriminate.
  - destruct H1; subst; cbn in Hin; [destruct Hin as [F|[]]; discriminate|destruct Hin as [F|[F|[]]]; discriminate].
  - destruct Hin as [F|[]]; discriminate.
  - destruct Hin as [F|[]]; discriminate.
  - destruct Hin as [F|[]]. inversion F; subst. split; [reflexivity|]. split; [reflexivity|]. split; [reflexivity|].
    split; [assumption|]. split; [assumption|]. split; [assumption|]. exists f. assumption.
  - destruct ok; destruct Hin as [F|[]]; discriminate.
  - destruct ok; destruct Hin as [F|[]]; discriminate.
  - destruct Hin as [F|[]]; discriminate.
Qed.

(* ---------------- one reader iteration including ReadBody ---------------- *)
Lemma frame_read_body_payload_ok hdr body code h payload rest : bytes_ok body = true ->
  frame_read_body hdr body = (code, h, payload, rest) -> bytes_ok payload = true /\ bytes_ok rest = true.
Proof.
  intros Hb. unfold frame_read_body. destruct (r_fheader (rb hdr)) as [h0 r0].
  destruct (rerr r0); [intros H; inversion H; subst; split; [reflexivity|exact Hb]|].
  destruct (PayloadSize (fh_size h0) >? c_MaxFramePayloadSize); [intros H; inversion H; subst; split; [reflexivity|exact Hb]|].
  destruct (PayloadSize (fh_size h0) >? 0).
  - destruct (zlen body <? PayloadSize (fh_size h0)); intros H; inversion H; subst; (split; [|try exact Hb]); try reflexivity.
    + apply bytes_ok_firstn, Hb.
    + apply bytes_ok_skipn, Hb.
  - intros H; inversion H; subst; split; [reflexivity|exact Hb].
Qed.

Lemma handle_frame_cases st hdr body st' es : state_ok st -> bytes_ok body = true -> handle_frame st hdr body = (st', es) ->
  exists code h payload rest, frame_read_body hdr body = (code, h, payload, rest) /\
    ((code <> 0 /\ es = [CloseConn] /\ shut st st') \/ (code = 0 /\ outcome st (fh_type h) (fh_id h) payload st' es)).
Proof.
  intros Hok Hb. unfold handle_frame. destruct (frame_read_body hdr body) as [[[code h] payload] rest] eqn:F.
  exists code, h, payload, rest. split; [reflexivity|].
  destruct (frame_read_body_payload_ok _ _ _ _ _ _ Hb F) as [Hp _].
  destruct (negb (code =? 0)) eqn:C.
  - left. destruct (connection_error_shut st st' es Hok H) as [E S]. split; [lia|]. split; assumption.
  - right. split; [lia|]. apply hfnr_outcome; assumption.
Qed.

Theorem handle_frame_state_ok st hdr body : state_ok st -> bytes_ok body = true -> state_ok (fst (handle_frame st hdr body)).
Proof.
  intros Hok Hb. destruct (handle_frame st hdr body) as [st' es] eqn:H.
  destruct (handle_frame_cases _ _ _ _ _ Hok Hb H) as [code [h [payload [rest [_ [[_ [_ S]]|[_ O]]]]]]]; cbn [fst].
  - destruct S as [_ [_ [_ [S _]]]]. exact S.
  - apply (outcome_state_ok _ _ _ _ _ _ Hok O).
Qed.

Theorem handle_frame_no_panic st hdr body : state_ok st -> bytes_ok body = true ->
  forall e, In e (snd (handle_frame st hdr body)) -> is_panic e = false.
Proof.
  intros Hok Hb e Hin. destruct (handle_frame st hdr body) as [st' es] eqn:H. cbn [snd] in Hin.
  destruct (handle_frame_cases _ _ _ _ _ Hok Hb H) as [code [h [payload [rest [_ [[_ [E _]]|[_ O]]]]]]].
  - subst es. destruct Hin as [F|[]]. subst e. reflexivity.
  - pose proof (outcome_no_panic _ _ _ _ _ _ O) as P. rewrite forallb_forall in P. specialize (P e Hin).
    destruct (is_panic e); [discriminate|reflexivity].
Qed.

Theorem handle_frame_effects st hdr body st' es : state_ok st -> bytes_ok body = true ->
  frame_wf_legal st hdr body = false -> handle_frame st hdr body = (st', es) ->
  forallb allowed_effect es = true /\ (length (filter is_send es) <= 1)%nat /\
  mx_keys (cs_in st') = mx_keys (cs_in st) /\ mx_keys (cs_out st') = mx_keys (cs_out st) /\
  (existsb is_close es = false ->
     cs_in st' = cs_in st /\ cs_out st' = cs_out st /\ cs_state st' = cs_state st /\ cs_stopped st' = cs_stopped st).
Proof.
  intros Hok Hb L H. destruct (handle_frame_cases _ _ _ _ _ Hok Hb H) as [code [h [payload [rest [F [[_ [E S]]|[C O]]]]]]].
  - subst es. split; [reflexivity|]. split; [cbn; lia|].
    split; [exact (proj1 (shut_keys _ _ S))|]. split; [exact (proj2 (shut_keys _ _ S))|]. cbn. discriminate.
  - unfold frame_wf_legal in L. rewrite F in L. subst code. cbn [Z.eqb andb] in L.
    destruct (outcome_illegal _ _ _ _ _ _ O L) as [A [B [C [D [E _]]]]]. auto.
Qed.

Theorem handle_frame_error_frame_id st hdr body st' es : state_ok st -> bytes_ok body = true ->
  frame_wf_legal st hdr body = false -> handle_frame st hdr body = (st', es) ->
  forall mt i c, In (SendFrame mt i c) es ->
    mt = c_messageTypeError /\ i = fh_id (fst (r_fheader (rb hdr))) /\ (c = c_ErrCodeDeclined \/ c = c_ErrCodeProtocol).
Proof.
  intros Hok Hb L H mt i c Hin. destruct (handle_frame_cases _ _ _ _ _ Hok Hb H) as [code [h [payload [rest [F [[_ [E S]]|[C O]]]]]]].
  - subst es. destruct Hin as [X|[]]; discriminate.
  - unfold frame_wf_legal in L. rewrite F in L. subst code. cbn [Z.eqb andb] in L.
    assert (Hh : h = fst (r_fheader (rb hdr))).
    { unfold frame_read_body in F. destruct (r_fheader (rb hdr)) as [h0 r0]. cbn [fst].
      destruct (rerr r0); [inversion F|]. destruct (PayloadSize (fh_size h0) >? c_MaxFramePayloadSize); [inversion F|].
      destruct (PayloadSize (fh_size h0) >? 0); [destruct (zlen body <? PayloadSize (fh_size h0))|]; inversion F; reflexivity. }
    rewrite <- Hh. exact (proj2 (proj2 (proj2 (proj2 (proj2 (outcome_illegal _ _ _ _ _ _ O L))))) mt i c Hin).
Qed.

Theorem handle_frame_local st hdr body st' es code h payload rest : state_ok st -> bytes_ok body = true ->
  handle_frame st hdr body = (st', es) -> frame_read_body hdr body = (code, h, payload, rest) ->
  other_kept (cs_in st) (cs_in st') (existsb is_close es) (fh_id h) /\
  other_kept (cs_out st) (cs_out st') (existsb is_close es) (fh_id h).
Proof.
  intros Hok Hb H F. destruct (handle_frame_cases _ _ _ _ _ Hok Hb H) as [code' [h' [payload' [rest' [F' [[_ [E S]]|[C O]]]]]]].
  - subst es. apply shut_other. exact S.
  - rewrite F in F'. inversion F'; subst. apply (outcome_local _ _ _ _ _ _ O).
Qed.

Theorem handle_frame_dispatch st hdr body st' es i : state_ok st -> bytes_ok body = true ->
  handle_frame st hdr body = (st', es) -> In (Dispatch i) es ->
  exists h payload rest f, frame_read_body hdr body = (0, h, payload, rest) /\ fh_type h = c_messageTypeCallReq /\ fh_id h = i /\
    parse_inbound_fragment payload = (0, f) /\
    cs_state st = c_connectionActive /\ cs_stopped st = false /\ mx_lookup i (cs_in st) = None /\ es = [Dispatch i].
Proof.
  intros Hok Hb H Hin. destruct (handle_frame_cases _ _ _ _ _ Hok Hb H) as [code [h [payload [rest [F [[_ [E S]]|[C O]]]]]]].
  - subst es. destruct Hin as [X|[]]; discriminate.
  - subst code. destruct (outcome_dispatch _ _ _ _ _ _ _ O Hin) as [A [B [C [D [E [G [f P]]]]]]]. subst i.
    exists h, payload, rest, f. repeat split; auto.
Qed.

Theorem read_frames_no_panic fuel : forall st stream, state_ok st -> bytes_ok stream = true ->
  forall es e, In es (snd (read_frames fuel st stream)) -> In e es -> is_panic e = false.
Proof.
  induction fuel as [|fuel IH]; intros st stream Hok Hb es e Hes He; [destruct Hes|].
  cbn [read_frames] in Hes. destruct (zlen stream <? c_FrameHeaderSize).
  - unfold connection_error in Hes. cbn in Hes. destruct Hes as [X|[]]. subst es. destruct He as [X|[]]. subst e. reflexivity.
  - destruct (frame_read_body (firstn 16 stream) (skipn 16 stream)) as [[[code h] payload] rest] eqn:F.
    destruct (frame_read_body_payload_ok _ _ _ _ _ _ (bytes_ok_skipn 16 _ Hb) F) as [Hp Hr].
    destruct (negb (code =? 0)).
    + unfold connection_error in Hes. cbn in Hes. destruct Hes as [X|[]]. subst es. destruct He as [X|[]]. subst e. reflexivity.
    + destruct (handle_frame_no_relay st (fh_type h) (fh_id h) payload) as [st1 e1] eqn:H1.
      pose proof (hfnr_outcome _ _ _ _ _ _ Hok Hp H1) as O.
      destruct (read_frames fuel st1 rest) as [st2 es2] eqn:R. cbn [snd] in Hes. destruct Hes as [X|Hes].
      * subst es. pose proof (outcome_no_panic _ _ _ _ _ _ O) as P. rewrite forallb_forall in P. specialize (P e He).
        destruct (is_panic e); [discriminate|reflexivity].
      * apply (IH st1 rest (outcome_state_ok _ _ _ _ _ _ Hok O) Hr es e); [rewrite R; exact Hes|exact He].
Qed.

Theorem handle_frame_local_unfolded : forall st hdr body st' es code h payload rest, state_ok st -> bytes_ok body = true ->
  handle_frame st hdr body = (st', es) -> frame_read_body hdr body = (code, h, payload, rest) ->
  forall id', id' <> fh_id h ->
    (mx_lookup id' (cs_in st') = mx_lookup id' (cs_in st) \/
     (existsb is_close es = true /\ mx_lookup id' (cs_in st') = option_map mx_set_err (mx_lookup id' (cs_in st)))) /\
    (mx_lookup id' (cs_out st') = mx_lookup id' (cs_out st) \/
     (existsb is_close es = true /\ mx_lookup id' (cs_out st') = option_map mx_set_err (mx_lookup id' (cs_out st)))).
Proof.
  intros st hdr body st' es code h payload rest Hok Hb H F id' Hne.
  destruct (handle_frame_local _ _ _ _ _ _ _ _ _ Hok Hb H F) as [A B]. split; [apply A|apply B]; exact Hne.
Qed.

Theorem cancel_ping_body_ignored : forall st mt id p1 p2,
  mt = c_messageTypeCancel \/ mt = c_messageTypePingReq \/ mt = c_messageTypePingRes ->
  handle_frame_no_relay st mt id p1 = handle_frame_no_relay st mt id p2.
Proof. intros st mt id p1 p2 [H|[H|H]]; subst mt; reflexivity. Qed.

(* ---------------- ping requests: the state test of Connection.handlePingReq ---------------- *)
From Verif Require Import Gen.GenClose2.

(* TIE: the model's decision whether a ping req is answered IS the state test go2v regenerates
   from the `if state := c.readState(); state == connectionClosed {` statement of
   Connection.handlePingReq on every run (Gen/GenClose2.v pingReqAnswer: 1 = control falls out
   of the statement and the ping res is sent, 0 = the branch that calls protocolError) *)
Theorem ping_state_test_generated : forall st id,
  handle_ping_req st id =
  (if pingReqAnswer (cs_state st) =? 1
   then (if cs_sendroom st >? 0 then (set_room (cs_sendroom st - 1) st, [SendFrame c_messageTypePingRes id 0])
         else connection_error st)
   else protocol_error st id).
Proof.
  intros st id. unfold handle_ping_req, pingReqAnswer. destruct (cs_state st =? c_connectionClosed); reflexivity.
Qed.

(* ... and so is the specification's notion of a legal ping req *)
Theorem ping_legal_generated : forall st id payload,
  frame_legal st c_messageTypePingReq id payload = (pingReqAnswer (cs_state st) =? 1).
Proof.
  intros st id payload. unfold frame_legal, pingReqAnswer. cbn. destruct (cs_state st =? c_connectionClosed); reflexivity.
Qed.

Theorem ping_refused_only_closed :
  pingReqAnswer c_connectionActive = 1 /\ pingReqAnswer c_connectionStartClose = 1 /\
  pingReqAnswer c_connectionInboundClosed = 1 /\ pingReqAnswer c_connectionClosed = 0.
Proof. repeat split; reflexivity. Qed.

(* a ping req on a connection that is not Closed -- Active or draining after Close, whatever
   is in flight -- with room in the send queue: exactly one effect, the ping res with the
   request's id; the close state, both exchange maps (every exchange in every detail) and the
   stopped flag are what they were: the drain goes on *)
Theorem ping_answered_unless_closed : forall st id payload, cs_state st <> c_connectionClosed -> cs_sendroom st > 0 ->
  handle_frame_no_relay st c_messageTypePingReq id payload
  = (set_room (cs_sendroom st - 1) st, [SendFrame c_messageTypePingRes id 0]).
Proof.
  intros st id payload Hs Hr. unfold handle_frame_no_relay. cbn. unfold handle_ping_req.
  replace (cs_state st =? c_connectionClosed) with false by lia.
  replace (cs_sendroom st >? 0) with true by lia. reflexivity.
Qed.

(* a Closed connection refuses and nothing is sent: SendSystemError refuses on a Closed
   connection *)
Theorem ping_refused_closed : forall st id payload, cs_state st = c_connectionClosed ->
  snd (handle_frame_no_relay st c_messageTypePingReq id payload) = [CloseConn] /\
  frame_legal st c_messageTypePingReq id payload = false.
Proof.
  intros st id payload Hs. unfold handle_frame_no_relay, frame_legal. cbn. unfold handle_ping_req, protocol_error, send_system_error.
  rewrite Hs. cbn. split; reflexivity.
Qed.
