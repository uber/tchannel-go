(* Property C17 -- several calls per attempt (Model/C17Calls.v).

   1. (Proofs/C17CallsTieP.v -- the only file that depends on the regenerated definitions, so that
      this one still builds on a tree that breaks the tie.)  The mirrors of
      RequestState.PrevSelectedPeers / RetryCount, Peer.BeginCall, SubChannel.BeginCall,
      Channel.BeginCall and of the RequestState entry of the retrying clients' call options are
      EQUAL to the definitions regenerated from the source (Gen/GenC17Calls.v).
   2. Every sub-channel call made with the run's RequestState -- in whatever attempt, after
      whatever calls -- is handed the request's selected set, which is exactly what the earlier
      calls of the run recorded; the peer it goes to is untried whenever the list has an
      untried member.
   3. The variant that hands the set over on a retry only is refuted. *)
From Coq Require Import ZArith List Bool Lia Permutation.
From Verif Require Import Base.Wrap Base.Wire Base.GoErr Base.C17CallSem Gen.GenConsts Gen.GenRetry
  Spec.PeerSelect Model.Retry Model.RetryRuns Model.PeerHeap Model.PeerList Model.C17Calls
  Proofs.PeerListP Proofs.RetryAvoidP.
Import ListNotations.
Local Open Scope Z_scope.

(* ------------------------------------------------------------------ 2. what a call does *)

Lemma peer_begin_of_spec p co : peer_begin_of p co = ((m_record p co, p), 7).
Proof. reflexivity. Qed.

Lemma obj_rs_roundtrip ob : obj_of_rs (rs_of_obj ob) = ob.
Proof. destruct ob; reflexivity. Qed.

(* a call that carries the RequestState and reaches Peer.BeginCall of [p] records p: the
   RequestState afterwards is LMark's *)
Lemma record_is_mark ob p :
  obj_of_rs (rs_after 0 (rs_of_obj ob) (m_record p (co_of 0 (rs_of_obj ob)))) = obj_mark ob p.
Proof. destruct ob as [a sel]. reflexivity. Qed.

Lemma record_no_rs opts ob p : (opts =? 0) = false ->
  obj_of_rs (rs_after opts (rs_of_obj ob) (m_record p (co_of opts (rs_of_obj ob)))) = ob.
Proof. intros H. unfold rs_after. rewrite H. apply obj_rs_roundtrip. Qed.

(* SubChannel.BeginCall on list l *)
Lemma sub_call_model l co :
  sub_call sc_model l co =
  let co1 := match co with None => c17_default_co | Some _ => co end in
  match pl_get l (m_prev_selected (c17_co_rs co1)) 0 with
  | Some (l', SelOk hp, _) => ((l', m_record hp co1, hp), 7)
  | Some (l', SelNoPeers, _) => ((l, co, []), 1)
  | Some (l', SelNoNewPeers, _) => ((l, co, []), 2)
  | None => ((l, co, []), 99)
  end.
Proof.
  unfold sub_call, sc_model, m_sc_begin_call, peers_get_of. cbv zeta.
  destruct (pl_get l _ 0) as [[[l' [hp| |]] n]|]; cbn [negb Z.eqb fst snd]; try reflexivity.
Qed.

Lemma set_nth_list_Forall (Q : plist -> Prop) ls j l : Forall Q ls -> Q l -> Forall Q (set_nth_list ls j l).
Proof.
  intros H Hl. revert j. induction H as [|x r Hx Hr IH]; intros j; destruct j; cbn [set_nth_list]; auto.
Qed.

Lemma set_nth_list_keys ls : forall j l l', nth_error ls j = Some l -> pl_keys l' = pl_keys l ->
  map pl_keys (set_nth_list ls j l') = map pl_keys ls.
Proof.
  induction ls as [|x r IH]; intros j l l' Hn Hk; destruct j; cbn [set_nth_list map nth_error] in *; try discriminate.
  - injection Hn as ->. now rewrite Hk.
  - f_equal. eapply IH; eassumption.
Qed.

Lemma sub_call_list l co : wf l ->
  exists l' co' p err, sub_call sc_model l co = ((l', co', p), err) /\ (err =? 99) = false /\
    wf l' /\ pl_keys l' = pl_keys l.
Proof.
  intros Wl. rewrite sub_call_model. cbv zeta.
  match goal with |- context [pl_get l ?prev 0] => pose proof (get_min_eligible l prev 0 Wl) as G end.
  destruct (pl_get l _ 0) as [[[l' [hp| |]] n]|]; try contradiction.
  - destruct G as (_ & W & K & _). eauto 10.
  - eauto 10.
Qed.

Lemma sub_call_step s j l ir :
  Forall wf (cs_lists s) -> cs_run s = Some ir -> ctl_can_mark (ir_ctl ir) = true ->
  nth_error (cs_lists s) j = Some l ->
  exists s' p, c_step sc_model s (ACall (CSub j 0)) = Some s' /\
    cs_picks s' = cs_picks s ++ [p] /\
    Forall wf (cs_lists s') /\ map pl_keys (cs_lists s') = map pl_keys (cs_lists s) /\
    ((pl_keys l = [] /\ p = [] /\ cs_run s' = cs_run s /\ cs_marks s' = cs_marks s /\ cs_labels s' = cs_labels s) \/
     (In p (pl_keys l) /\
      cs_run s' = Some (mkIso (obj_mark (ir_obj ir) p) (ir_ctl ir)) /\
      cs_marks s' = cs_marks s ++ [p] /\ cs_labels s' = cs_labels s ++ [LMark 1 p] /\
      ((exists q, In q (pl_keys l) /\ tier2 (ro_sel (ir_obj ir)) q = true) -> tier2 (ro_sel (ir_obj ir)) p = true) /\
      ((exists q, In q (pl_keys l) /\ tier1 (ro_sel (ir_obj ir)) q = true) -> tier1 (ro_sel (ir_obj ir)) p = true))).
Proof.
  intros Hwf Hr Hm Hn.
  pose proof (nth_error_Forall wf _ _ _ Hwf Hn) as Wl.
  unfold c_step. rewrite Hr, Hm. cbn [negb]. rewrite Hn. rewrite sub_call_model. cbv zeta.
  change (co_of 0 (rs_of_obj (ir_obj ir))) with (Some (Some (rs_of_obj (ir_obj ir)))).
  cbn [c17_co_rs m_prev_selected rs_of_obj c17rs_sel].
  pose proof (get_min_eligible l (ro_sel (ir_obj ir)) 0 Wl) as G.
  destruct (pl_get l (ro_sel (ir_obj ir)) 0) as [[[l' [hp| |]] n]|] eqn:Eg; try contradiction.
  - destruct (get_avoids_wf l _ 0 l' hp n Wl Eg) as (W' & K' & Hin & A2 & A1).
    cbn [Z.eqb]. eexists; exists hp. split; [reflexivity|]. cbn [cs_picks cs_lists cs_run cs_marks cs_labels].
    split; [reflexivity|]. split; [apply set_nth_list_Forall; assumption|].
    split; [eapply set_nth_list_keys; eassumption|].
    right. split; [exact Hin|].
    cbn [andb negb Z.eqb]. rewrite record_is_mark. repeat split; auto.
  - destruct G as [K ->]. cbn [Z.eqb]. eexists; exists []. split; [reflexivity|].
    cbn [cs_picks cs_lists cs_run cs_marks cs_labels andb negb].
    split; [reflexivity|]. split; [apply set_nth_list_Forall; assumption|].
    split; [eapply set_nth_list_keys; [eassumption|reflexivity]|].
    left. split; [exact K|]. split; [reflexivity|]. cbn [Pos.eqb].
    unfold rs_after. cbn [Z.eqb c17_co_rs].
    rewrite obj_rs_roundtrip. destruct ir; auto.
Qed.

Definition c_inv (keys0 : list (list hostport)) (s : cstate) : Prop :=
  Forall wf (cs_lists s) /\ map pl_keys (cs_lists s) = keys0 /\
  iso_exec None (cs_labels s) = Some (cs_run s) /\
  match cs_run s with
  | None => cs_marks s = []
  | Some ir => ro_sel (ir_obj ir) = fold_left add_selected (cs_marks s) []
  end.

Lemma iso_exec_app s ls l s1 : iso_exec s ls = Some s1 -> iso_exec s (ls ++ [l]) = iso_step s1 l.
Proof.
  revert s. induction ls as [|x r IH]; intros s H; cbn [iso_exec app] in *.
  - injection H as ->. destruct (iso_step s1 l); reflexivity.
  - destruct (iso_step s x); [now apply IH|discriminate].
Qed.

Lemma fold_add_app marks p : fold_left add_selected (marks ++ [p]) [] = add_selected (fold_left add_selected marks []) p.
Proof. now rewrite fold_left_app. Qed.

Lemma run_label_inv keys0 s l s' : c_inv keys0 s -> (forall r hp, l <> LMark r hp) -> run_label l s = Some s' -> c_inv keys0 s'.
Proof.
  intros (W & K & I & M) Hl E. unfold run_label in E.
  destruct (iso_step (cs_run s) l) as [r|] eqn:Es; [|discriminate]. injection E as <-.
  unfold c_inv. cbn [cs_lists cs_labels cs_run cs_marks].
  split; [exact W|]. split; [exact K|]. split; [rewrite (iso_exec_app _ _ _ _ I); exact Es|].
  destruct l as [r0 o k|r0 k|r0 hp|r0 e]; [| | exfalso; eapply Hl; reflexivity|].
  - destruct (cs_run s) as [ir|]; cbn [iso_step] in Es; [discriminate|]. injection Es as <-. cbn. now rewrite M.
  - destruct (cs_run s) as [ir|]; cbn [iso_step] in Es; [|discriminate].
    destruct (ctl_enter _ _); [|discriminate]. injection Es as <-. cbn. exact M.
  - destruct (cs_run s) as [ir|]; cbn [iso_step] in Es; [|discriminate].
    destruct (ctl_exit _ _ _); [|discriminate]. injection Es as <-. cbn. exact M.
Qed.

Lemma direct_call_spec hp co : direct_call hp co = ((m_record hp co, hp), 7).
Proof. reflexivity. Qed.

Lemma c_step_inv keys0 s a s' : c_inv keys0 s -> c_step sc_model s a = Some s' -> c_inv keys0 s'.
Proof.
  intros Hi E. destruct a as [o| |c|e].
  - apply (run_label_inv keys0 s (LStart 1 o 1) s' Hi); [intros; discriminate|exact E].
  - apply (run_label_inv keys0 s (LEnter 1 1) s' Hi); [intros; discriminate|exact E].
  - destruct Hi as (W & K & I & M). pose proof E as E0. cbn [c_step] in E.
    destruct (cs_run s) as [ir|] eqn:Hr; [|discriminate].
    destruct (ctl_can_mark (ir_ctl ir)) eqn:Hm; cbn [negb] in E; [|discriminate].
    destruct c as [hp opts|j opts].
    + rewrite direct_call_spec in E. injection E as <-.
      unfold c_inv. cbn [cs_lists cs_labels cs_run cs_marks].
      split; [exact W|]. split; [exact K|].
      destruct (opts =? 0) eqn:Eo.
      * apply Z.eqb_eq in Eo. subst opts. rewrite record_is_mark.
        split; [rewrite (iso_exec_app _ _ _ _ I); cbn [iso_step]; rewrite Hm; reflexivity|].
        cbn [ir_obj obj_mark ro_sel]. now rewrite fold_add_app, M.
      * rewrite (record_no_rs opts _ _ Eo). split; [destruct ir; exact I|]. destruct ir; exact M.
    + destruct (nth_error (cs_lists s) j) as [l|] eqn:Hn; [|discriminate].
      destruct (opts =? 0) eqn:Eo.
      * apply Z.eqb_eq in Eo. subst opts.
        destruct (sub_call_step s j l ir W Hr Hm Hn) as (s1 & p & E1 & _ & W1 & K1 & Hc).
        rewrite E1 in E0. injection E0 as <-. clear E.
        unfold c_inv. split; [exact W1|]. split; [now rewrite K1|].
        destruct Hc as [(_ & _ & R & Mk & L)|(_ & R & Mk & L & _)].
        -- rewrite R, Mk, L, Hr. split; [exact I|exact M].
        -- rewrite R, Mk, L. split; [rewrite (iso_exec_app _ _ _ _ I); cbn [iso_step]; rewrite Hm; reflexivity|].
           cbn [ir_obj obj_mark ro_sel]. now rewrite fold_add_app, M.
      * (* no RequestState: the run does not change *)
        destruct (sub_call_list l (co_of opts (rs_of_obj (ir_obj ir))) (nth_error_Forall wf _ _ _ W Hn))
          as (l' & co' & p & err & Es & E9 & W' & K').
        rewrite Es, E9 in E. injection E as <-.
        unfold c_inv. cbn [cs_lists cs_labels cs_run cs_marks andb].
        split; [apply set_nth_list_Forall; assumption|].
        split; [rewrite (set_nth_list_keys _ _ _ _ Hn K'); exact K|].
        unfold rs_after. rewrite Eo, obj_rs_roundtrip. destruct ir; split; [exact I|exact M].
  - apply (run_label_inv keys0 s (LExit 1 e) s' Hi); [intros; discriminate|exact E].
Qed.

Lemma c_exec_inv keys0 : forall acts s s', c_inv keys0 s -> c_exec sc_model s acts = Some s' -> c_inv keys0 s'.
Proof.
  induction acts as [|a r IH]; intros s s' Hi E; cbn [c_exec] in E; [injection E as <-; exact Hi|].
  destruct (c_step sc_model s a) as [s1|] eqn:E1; [|discriminate].
  eapply IH; [eapply c_step_inv; eassumption|exact E].
Qed.

Lemma c_init_inv lists : Forall wf lists -> c_inv (map pl_keys lists) (c_init lists).
Proof. intros W. unfold c_inv, c_init. cbn. auto. Qed.

Lemma reachable_lists_wf lists :
  Forall (fun l => exists ops, lrun pl_empty ops = Some l) lists -> Forall wf lists.
Proof. intros H. eapply Forall_impl; [|exact H]. intros l (ops & E). eapply lrun_reach_wf; exact E. Qed.

Lemma tried_members marks : forall x,
  In x (fold_left add_selected marks []) <-> exists p, In p marks /\ (x = p \/ x = host_of p).
Proof.
  induction marks as [|m r IH] using rev_ind; intros x.
  - cbn. split; [tauto|intros (p & [] & _)].
  - rewrite fold_add_app. unfold add_selected. rewrite in_app_iff, IH. cbn [In].
    split.
    + intros [(p & Hp & Hx)|[<-|[<-|[]]]].
      * exists p. split; [apply in_or_app; now left|exact Hx].
      * exists m. split; [apply in_or_app; right; now left|now left].
      * exists m. split; [apply in_or_app; right; now left|right; reflexivity].
    + intros (p & Hp & Hx). apply in_app_or in Hp as [Hp|[<-|[]]].
      * left. exists p. auto.
      * right. destruct Hx as [->| ->]; [now left|right; left; reflexivity].
Qed.

(* The run is a run of the private-state specification (Model/RetryRuns.v [iso_step]: the loop of
   RunWithRetry, C17_run_alone / C17_runs_private) on the labels start / enter / one LMark per
   peer a call recorded / exit: the attempt numbers, the budget and the stop rule of a run whose
   attempts make calls are those of C17_budget / C17_stop. *)
Theorem calls_run_is_iso : forall lists acts s,
  Forall (fun l => exists ops, lrun pl_empty ops = Some l) lists ->
  c_exec sc_model (c_init lists) acts = Some s ->
  iso_exec None (cs_labels s) = Some (cs_run s) /\
  map pl_keys (cs_lists s) = map pl_keys lists.
Proof.
  intros lists acts s HL E.
  destruct (c_exec_inv _ acts _ s (c_init_inv lists (reachable_lists_wf _ HL)) E) as (_ & K & I & _).
  split; [exact I|exact K].
Qed.

(* EVERY sub-channel call made with the run's RequestState -- in the first attempt or a later
   one, first call of the attempt or not, after direct calls, sub-channel calls on this or other
   lists, calls without RequestState -- is enabled, is handed as "previously selected" exactly
   what the calls of this run have recorded so far (their host:ports and hosts), and goes to a
   member of the list that is untried whenever the list has an untried member (host:port
   untried; host:port and host untried). *)
Theorem every_call_avoids : forall lists acts s j l ir,
  Forall (fun l => exists ops, lrun pl_empty ops = Some l) lists ->
  c_exec sc_model (c_init lists) acts = Some s ->
  cs_run s = Some ir -> ctl_can_mark (ir_ctl ir) = true ->
  nth_error (cs_lists s) j = Some l ->
  let tried := fold_left add_selected (cs_marks s) [] in
  ro_sel (ir_obj ir) = tried /\
  exists s' p, c_step sc_model s (ACall (CSub j 0)) = Some s' /\ cs_picks s' = cs_picks s ++ [p] /\
    ((pl_keys l = [] /\ p = [] /\ cs_marks s' = cs_marks s) \/
     (In p (pl_keys l) /\ cs_marks s' = cs_marks s ++ [p] /\
      ((exists q, In q (pl_keys l) /\ tier2 tried q = true) -> tier2 tried p = true) /\
      ((exists q, In q (pl_keys l) /\ tier1 tried q = true) -> tier1 tried p = true))).
Proof.
  intros lists acts s j l ir HL E Hr Hm Hn tried.
  destruct (c_exec_inv _ acts _ s (c_init_inv lists (reachable_lists_wf _ HL)) E) as (W & K & I & M).
  rewrite Hr in M. split; [exact M|].
  destruct (sub_call_step s j l ir W Hr Hm Hn) as (s' & p & E1 & P1 & _ & _ & Hc).
  exists s', p. split; [exact E1|]. split; [exact P1|].
  destruct Hc as [(K0 & -> & _ & Mk & _)|(Hin & _ & Mk & _ & A2 & A1)].
  - left. auto.
  - right. rewrite M in A2, A1. auto.
Qed.

(* ------------------------------------------------------------------ 3. the discipline is needed *)

Definition ex_A : hostport := [49; 48; 46; 48; 46; 48; 46; 49; 58; 49].   (* "10.0.0.1:1" *)
Definition ex_B : hostport := [49; 48; 46; 48; 46; 48; 46; 50; 58; 49].   (* "10.0.0.2:1" *)
Definition ex_lists : option (list plist) := build_lists [[(ex_A, 0); (ex_B, 1)]].
(* one attempt, two sub-channel calls with the RequestState *)
Definition ex_acts : list c17act :=
  [AStart (Some {| max_attempts := 1; retry_on := 2 |}); AEnter; ACall (CSub 0%nat 0); ACall (CSub 0%nat 0)].

Definition ex_picks (sc : sc_fun) : option (list hostport) :=
  match ex_lists with
  | Some ls => option_map cs_picks (c_exec sc (c_init ls) ex_acts)
  | None => None
  end.

(* the code: the second call of the FIRST attempt goes to the untried peer B although A ranks first;
   handing the selected set over on a retry only sends it back to A *)
Lemma first_attempt_second_call :
  ex_picks sc_model = Some [ex_A; ex_B] /\ ex_picks sc_retry_only = Some [ex_A; ex_A].
Proof. vm_compute. split; reflexivity. Qed.
