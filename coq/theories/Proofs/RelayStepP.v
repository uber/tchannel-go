(* Relay model: what one instruction pushes ([pushes]) and what one label does ([Step]), each read
   off [exec] / [step] once, and the frame lemmas of a step (thread code, item table, send log,
   seen ids, id allocation) that the invariants of RelayWireP ... RelayGrammarP are proved from. *)
From Coq Require Import ZArith List Bool Lia.
From Verif Require Import Base.Wrap Gen.GenConsts Gen.GenFrame Model.RelayItems Model.RelayCalm
  Proofs.RelayAssocP Proofs.RelayCoreP Proofs.RelayInv9P Proofs.RelayTimerP Proofs.RelaySilentP Proofs.RelayCalmP.
Import ListNotations.
Local Open Scope Z_scope.

Lemma items_entomb_tomb : forall cf st t st' g it, items_entomb cf st t = (st', g) -> klookup t (items st') = Some it -> it_tomb it = true.
Proof.
  intros cf st t st' g it H Hl. apply items_entomb_spec in H. destruct H as (_&_&_&_&_&_&H).
  destruct (klookup t (items st)) as [it0|] eqn:El.
  - destruct H as [(_&Hi&_)|[(Ht&_&Hi&_)|(_&_&Hi&_)]]; rewrite Hi in Hl.
    + rewrite (lookup_remove_eq key_eqb key_eqb_ok) in Hl. discriminate.
    + rewrite El in Hl. inversion Hl. subst. exact Ht.
    + rewrite (lookup_insert_eq key_eqb key_eqb_ok) in Hl. inversion Hl. reflexivity.
  - destruct H as (_&Hi&_). rewrite Hi, El in Hl. discriminate.
Qed.

Lemma items_delete_call_done : forall st t lk st' it b, items_delete_call st t lk = (st', Some (it, b)) -> klookup t (items st) = Some it.
Proof.
  intros st t lk st' it b H. apply items_delete_call_spec in H. destruct H as (_&_&_&_&_&_&_&H).
  destruct (klookup t (items st)) as [it0|]; [|destruct H; discriminate].
  destruct H as [[Hg _]|[Hg _]]; inversion Hg. reflexivity.
Qed.

(* the Receive of the next fragment of a fragmenting send *)
Definition next_frag (r : rcv) : rcv :=
  {| r_d := r_d r; r_f := req_frame (f_id (r_f r)) true (1 <? r_more r); r_ft := r_ft r;
     r_own := r_own r; r_call := r_call r; r_more := r_more r - 1 |}.

Section Pushes.
  Variables st st1 : state.

  (* [pushes i j]: executing i in state st (leaving st1) may push j.  Callback kinds and the
     error codes / reasons of the admission path are left open. *)
  Inductive pushes : instr -> instr -> Prop :=
  | PsStart : forall k f e, pushes (IStart k f e) (ICanHandle k f e (next_call st))
  | PsStartCb : forall k f e x, pushes (IStart k f e) (ICb (next_call st) x)
  | PsStartErr : forall k f e, pushes (IStart k f e) (ISendErr k (f_id f) (e_code e))
  | PsStartClose : forall k f e, pushes (IStart k f e) (IConnClose k)
  | PsCan : forall k f e c, pushes (ICanHandle k f e c) (IGetDest k f e c)
  | PsCanCb : forall k f e c x, pushes (ICanHandle k f e c) (ICb c x)
  | PsCanErr : forall k f e c, pushes (ICanHandle k f e c) (ISendErr k (f_id f) c_ErrCodeDeclined)
  | PsDest : forall k f e c, pushes (IGetDest k f e c) (IRemoteCan k f e c (e_dest e))
  | PsDestCb : forall k f e c x, pushes (IGetDest k f e c) (ICb c x)
  | PsDestErr : forall k f e c code, pushes (IGetDest k f e c) (ISendErr k (f_id f) code)
  | PsDestDec : forall k f e c, pushes (IGetDest k f e c) (IDec k)
  | PsRemote : forall k f e c d, pushes (IRemoteCan k f e c d) (IAddDest k f e c d)
  | PsRemoteCb : forall k f e c d x, pushes (IRemoteCan k f e c d) (ICb c x)
  | PsRemoteErr : forall k f e c d, pushes (IRemoteCan k f e c d) (ISendErr k (f_id f) c_ErrCodeDeclined)
  | PsRemoteDec : forall k f e c d, pushes (IRemoteCan k f e c d) (IDec k)
  | PsAddDest : forall k f e c d, pushes (IAddDest k f e c d) (IAddOrig k f e c d (c_nextid (get_conn st d)))
  | PsAddOrigFail : forall k f e c d did, pushes (IAddOrig k f e c d did) (IFailGet (k, 0, f_id f) reason_arg2_modify)
  | PsAddOrigCb : forall k f e c d did, pushes (IAddOrig k f e c d did) (ICb c CbSent)
  | PsAddOrigGet : forall k f e c d did more n,
      pushes (IAddOrig k f e c d did)
             (IRcvGet {| r_d := d; r_f := req_frame did false more; r_ft := c_requestFrame; r_own := (k, 0, f_id f); r_call := c; r_more := n |})
  | PsDec : forall k, pushes (IDec k) (ICheck k)
  | PsNcGet : forall k f ft g, frameTypeFor (f_mt f) = Some ft ->
      items_get st (k, (if ft =? c_responseFrame then 1 else 0), f_id f) (fin_of f) = (st1, g) ->
      pushes (INcGet k f) (INcChk k f ft (k, (if ft =? c_responseFrame then 1 else 0), f_id f) g)
  | PsNcChkCb : forall k f ft own it s x, it_tomb it || (fin_of f && negb s) = false ->
      pushes (INcChk k f ft own (Some (it, s))) (ICb (it_call it) x)
  | PsNcChkGet : forall k f ft own it s, it_tomb it || (fin_of f && negb s) = false ->
      pushes (INcChk k f ft own (Some (it, s)))
             (IRcvGet {| r_d := it_dest it; r_f := with_id f (it_remap it); r_ft := ft; r_own := own; r_call := it_call it; r_more := 0 |})
  | PsRcvGet : forall r g, items_get st (rcv_key r) (fin_of (r_f r)) = (st1, g) -> pushes (IRcvGet r) (IRcvChk r (rcv_key r) g)
  | PsChkNone : forall r rk, pushes (IRcvChk r rk None) (IFailGet (r_own r) reason_not_found)
  | PsChkCb : forall r rk it s x, it_tomb it || (fin_of (r_f r) && negb s) = false ->
      pushes (IRcvChk r rk (Some (it, s))) (ICb (it_call it) x)
  | PsChkEnq : forall r rk it s, it_tomb it || (fin_of (r_f r) && negb s) = false ->
      pushes (IRcvChk r rk (Some (it, s))) (IRcvEnq r rk (it_dest it, it_remap it))
  (* a swallowed frame counts as sent: [after_sent] *)
  | PsChkDel : forall r rk g, fin_of (r_f r) = true -> pushes (IRcvChk r rk g) (IDelete (r_own r) (r_d r, f_id (r_f r)))
  | PsChkSent : forall r rk g, pushes (IRcvChk r rk g) (ICb (r_call r) CbSent)
  | PsChkNext : forall r rk g, 0 < r_more r -> pushes (IRcvChk r rk g) (IRcvGet (next_frag r))
  | PsEnqDel : forall r rk lk, fin_of (r_f r) = true -> pushes (IRcvEnq r rk lk) (IDelete rk lk)
  | PsEnqOwnDel : forall r rk lk, fin_of (r_f r) = true -> pushes (IRcvEnq r rk lk) (IDelete (r_own r) (r_d r, f_id (r_f r)))
  | PsEnqSent : forall r rk lk, pushes (IRcvEnq r rk lk) (ICb (r_call r) CbSent)
  | PsEnqNext : forall r rk lk, 0 < r_more r -> pushes (IRcvEnq r rk lk) (IRcvGet (next_frag r))
  | PsEnqFail : forall r rk lk, pushes (IRcvEnq r rk lk) (IFailGet rk (if r_ft r =? c_responseFrame then reason_source_slow else reason_dest_slow))
  | PsEnqOwnFail : forall r rk lk,
      pushes (IRcvEnq r rk lk) (IFailGet (r_own r) (if r_ft r =? c_responseFrame then reason_source_slow else reason_dest_slow))
  | PsFailGet : forall t reason it, klookup t (items st) = Some it -> pushes (IFailGet t reason) (IEntomb t (FromFail reason))
  (* only the Entomb of a live originating item sends an error frame and reports to the call *)
  | PsEntombErr : forall t s it, klookup t (items st) = Some it -> it_tomb it = false ->
      match s with FromFail _ => it_orig it | FromTimeout o => o end = true ->
      match s with FromFail r => (r =? reason_source_slow) = false | FromTimeout _ => True end ->
      pushes (IEntomb t s) (ISendErr (key_conn t) (key_id t) match s with FromFail _ => c_ErrCodeUnexpected | FromTimeout _ => c_ErrCodeTimeout end)
  | PsEntombCb : forall t s it x, klookup t (items st) = Some it -> it_tomb it = false ->
      match s with FromFail _ => it_orig it | FromTimeout o => o end = true ->
      pushes (IEntomb t s) (ICb (it_call it) x)
  | PsEntombDec : forall t s, pushes (IEntomb t s) (IDec (key_conn t))
  | PsDeleteCb : forall t lk it, klookup t (items st) = Some it -> pushes (IDelete t lk) (ICb (it_call it) CbEnd)
  | PsDeleteDec : forall t lk, pushes (IDelete t lk) (IDec (key_conn t))
  | PsTimerRun : forall tm x, zlookup tm (timers st) = Some x -> pushes (ITimerRun tm) (IEntomb (tm_key x) (FromTimeout (tm_orig x))).
End Pushes.

Lemma after_sent_cases : forall r j, In j (after_sent r) ->
  (fin_of (r_f r) = true /\ j = IDelete (r_own r) (r_d r, f_id (r_f r))) \/ j = ICb (r_call r) CbSent \/
  (0 < r_more r /\ j = IRcvGet (next_frag r)).
Proof.
  intros r j Hj. unfold after_sent in Hj. apply in_app_or in Hj. destruct Hj as [Hj|Hj].
  - destruct (fin_of (r_f r)); [|contradiction]. destruct Hj as [<-|[]]. left. split; reflexivity.
  - destruct (0 <? r_more r) eqn:E; [|contradiction]. apply Z.ltb_lt in E.
    destruct Hj as [<-|[<-|[]]]; [right; left; reflexivity|right; right; split; [exact E|reflexivity]].
Qed.

Lemma exec_pushes : forall cf st i room st1 pushed j, exec cf st i room = (st1, pushed) -> In j pushed -> pushes st st1 i j.
Proof.
  intros cf st i room st1 pushed j H Hj.
  destruct (exec_cases _ _ _ _ _ _ H); unfold timer_new; cbn [fst snd];
    try (in_cases Hj; constructor; assumption).
  - destruct (after_sent_cases _ _ Hj) as [[Hf ->]|[->|[Hm ->]]]; constructor; assumption.
  - apply in_app_or in Hj. destruct Hj as [Hj|Hj]; [destruct (fin_of (r_f r)) eqn:Ef; in_cases Hj; apply PsEnqDel; exact Ef|].
    destruct (after_sent_cases _ _ Hj) as [[Hf ->]|[->|[Hm ->]]]; constructor; assumption.
  - destruct g as [[it [|]]|]; try contradiction. in_cases Hj. eapply PsFailGet. eapply items_get_found. exact Eget.
  - destruct g as [[it [|]]|]; try contradiction.
    destruct (items_entomb_done _ _ _ _ _ Eent) as (it0&Hl&Hlive&Hc&Ho). rewrite Hc, Ho in Hj.
    apply in_app_or in Hj. destruct Hj as [Hj|Hj]; [|in_cases Hj; constructor].
    destruct (match s with FromFail _ => it_orig it0 | FromTimeout o => o end) eqn:Eo; [|contradiction].
    pose proof (fun s1 x => PsEntombCb _ s1 t s it0 x Hl Hlive Eo) as Hcb.
    pose proof (fun s1 => PsEntombErr _ s1 t s it0 Hl Hlive Eo) as Herr.
    unfold orig_tail in Hj. destruct s; in_cases Hj; first [apply Hcb|apply Herr; first [reflexivity|exact I]].
  - destruct g as [[it [|]]|]; try contradiction.
    in_cases Hj; [|constructor]. apply PsDeleteCb. eapply items_delete_call_done. exact Edel.
Qed.

(* Opens [exec] on a given instruction: one goal per branch of its definition; the results of
   the table operations are kept as equations. *)
Ltac exec_open H :=
  cbn [exec] in H; unfold timer_new in H; cbn [fst snd] in H;
  repeat match type of H with
         | (let '(_, _) := ?x in _) = _ => destruct x as [? ?] eqn:?
         | (if ?b then _ else _) = _ => destruct b eqn:?
         | match ?x with _ => _ end = _ => destruct x eqn:?
         end;
  inversion H; subst; clear H.

(* the frames an instruction puts on a send queue *)
Definition enq (st : state) (i : instr) (room : bool) : list (Z * frame) :=
  match i with
  | ISendErr k id code =>
      if (c_state (get_conn st k) =? c_connectionClosed) || negb room then []
      else [(k, {| f_mt := c_messageTypeError; f_id := id; f_flags := 0; f_code := code; f_wf := true |})]
  | IRcvEnq r _ _ => if room then [(r_d r, r_f r)] else []
  | _ => []
  end.

Lemma exec_sent : forall cf st i room st1 pushed, exec cf st i room = (st1, pushed) ->
  seen st1 = seen st /\ sent st1 = enq st i room ++ sent st.
Proof.
  intros cf st i room st1 pushed H.
  destruct (exec_cases _ _ _ _ _ _ H); cbn [enq app]; rewrite ?Edrop, ?Eroom; try (split; reflexivity).
  all: first [apply items_get_spec in Eget; destruct Eget as [(_&_&_&_&_&A&B&_) _]
             |apply items_entomb_spec in Eent; destruct Eent as (_&_&_&A&B&_)
             |apply items_delete_call_spec in Edel; destruct Edel as (_&_&_&_&A&B&_)]; split; assumption.
Qed.

Lemma exec_nextid : forall cf st i room st1 pushed, exec cf st i room = (st1, pushed) -> forall k0,
  c_nextid (getc (conns st1) k0) =
  c_nextid (getc (conns st) k0) + match i with IAddDest _ _ _ _ d => b2z (k0 =? d) | _ => 0 end.
Proof.
  intros cf st i room st1 pushed H k0.
  destruct (exec_cases _ _ _ _ _ _ H);
    try (first [apply items_get_spec in Eget; destruct Eget as [(A&_) _]
               |apply items_entomb_spec in Eent; destruct Eent as (A&_)
               |apply items_delete_call_spec in Edel; destruct Edel as (A&_)]; rewrite A).
  all: unfold timer_new; cbn [fst snd put_conn set_conns conns set_next_call set_sent log_cb set_cblog set_panic set_timers set_items set_next_tm];
       rewrite ?getc_insert.
  all: try match goal with |- context [if ?b then _ else _] => destruct b eqn:Ek end.
  all: try (apply Z.eqb_eq in Ek; subst); cbn [c_nextid b2z set_next_call conns]; rewrite ?get_conn_getc; lia.
Qed.

Lemma exec_items_same : forall cf st i room st1 pushed, exec cf st i room = (st1, pushed) ->
  match i with
  | IAddDest _ _ _ _ _ | IAddOrig _ _ _ _ _ _ | IEntomb _ _ | IDelete _ _ => True
  | _ => items st1 = items st
  end.
Proof.
  intros cf st i room st1 pushed H. destruct (exec_cases _ _ _ _ _ _ H); try exact I; try reflexivity;
    eapply items_get_items; eassumption.
Qed.

(* the two Add alternatives are excluded by the freshness of keys: [step_items_keep] *)
Lemma exec_items_keep : forall cf st i room st1 pushed t it, exec cf st i room = (st1, pushed) ->
  klookup t (items st) = Some it ->
  klookup t (items st1) = Some it \/ (exists s, i = IEntomb t s) \/ (exists lk, i = IDelete t lk) \/
  (exists k f e c d, i = IAddDest k f e c d /\ t = (d, 1, c_nextid (get_conn st d))) \/
  (exists k f e c d did, i = IAddOrig k f e c d did /\ t = (k, 0, f_id f)).
Proof.
  intros cf st i room st1 pushed t it H Hl. pose proof (exec_items_same _ _ _ _ _ _ H) as Hs.
  destruct i; try (left; rewrite Hs; exact Hl); clear Hs.
  - exec_open H. cbn [set_items items set_next_tm set_timers put_conn set_conns].
    destruct (eqb_dec key_eqb key_eqb_ok t (d, 1, c_nextid (get_conn st d))) as [->|Hn].
    + right. right. right. left. exists k, f, e, c, d. split; reflexivity.
    + left. rewrite (lookup_insert_neq key_eqb key_eqb_ok) by exact Hn. exact Hl.
  - destruct (eqb_dec key_eqb key_eqb_ok t (k, 0, f_id f)) as [->|Hn].
    + right. right. right. right. exists k, f, e, c, d, did. split; reflexivity.
    + left. exec_open H; cbn [set_items items set_next_tm set_timers];
        rewrite (lookup_insert_neq key_eqb key_eqb_ok) by exact Hn; exact Hl.
  - destruct (eqb_dec key_eqb key_eqb_ok t t0) as [->|Hn]; [right; left; exists s; reflexivity|left].
    cbn [exec] in H. destruct (items_entomb cf st t0) as [st' g] eqn:E.
    assert (Hst : items st1 = items st') by (destruct g as [[it0 [|]]|]; inversion H; reflexivity).
    apply items_entomb_spec in E. destruct E as (_&_&_&_&_&_&E). rewrite Hst.
    destruct (klookup t0 (items st)) as [it0|]; [destruct E as [(_&Hi&_)|[(_&_&Hi&_)|(_&_&Hi&_)]]|destruct E as (_&Hi&_)]; rewrite Hi;
      rewrite ?(lookup_remove_neq key_eqb key_eqb_ok), ?(lookup_insert_neq key_eqb key_eqb_ok) by exact Hn; exact Hl.
  - destruct (eqb_dec key_eqb key_eqb_ok t t0) as [->|Hn]; [right; right; left; exists lk; reflexivity|left].
    cbn [exec] in H. destruct (items_delete_call st t0 lk) as [st' g] eqn:E.
    assert (Hst : items st1 = items st') by (destruct g as [[it0 [|]]|]; inversion H; reflexivity).
    apply items_delete_call_spec in E. destruct E as (_&_&_&_&_&_&_&E). rewrite Hst.
    destruct (klookup t0 (items st)) as [it0|]; [destruct E as [[_ Hi]|[_ ->]]|destruct E as [_ Hi]]; try exact Hl; rewrite Hi;
      rewrite ?(lookup_remove_neq key_eqb key_eqb_ok) by exact Hn; exact Hl.
Qed.

Inductive Step (cf : config) (st : state) : label -> state -> Prop :=
| SIgnore : forall k f e, tlookup (TR k) (threads st) = None -> (relayRoute (f_mt f) (cf_cancel cf) =? 1) = false ->
    Step cf st (LArrive k f e) st
| SCallReq : forall k f e, tlookup (TR k) (threads st) = None -> (relayRoute (f_mt f) (cf_cancel cf) =? 1) = true ->
    (f_mt f =? c_messageTypeCallReq) = true ->
    Step cf st (LArrive k f e) (set_thread (set_seen st ((k, f_id f) :: seen st)) (TR k) [IStart k f e])
| SNonCall : forall k f e, tlookup (TR k) (threads st) = None -> (relayRoute (f_mt f) (cf_cancel cf) =? 1) = true ->
    (f_mt f =? c_messageTypeCallReq) = false ->
    Step cf st (LArrive k f e) (set_thread st (TR k) [INcGet k f])
| SExec : forall th room i rest st1 pushed, tlookup th (threads st) = Some (i :: rest) -> exec cf st i room = (st1, pushed) ->
    Step cf st (LStep th room) (set_thread st1 th (pushed ++ rest))
| SFire : forall tm x, zlookup tm (timers st) = Some x -> tm_armed x = true -> tlookup (TT tm) (threads st) = None ->
    Step cf st (LFire tm) (set_thread (set_timers st (zinsert tm (fired_timer x) (timers st))) (TT tm) [ITimerRun tm])
| SGc : forall t, mem_key t (gcs st) = true -> Step cf st (LGc t) (items_delete_tomb (set_gcs st (remove_one t (gcs st))) t)
| SClose : forall k s,
    Step cf st (LClose k) (put_conn st k {| c_state := s; c_pending := c_pending (get_conn st k); c_nextid := c_nextid (get_conn st k) |})
| SLost : forall k s,
    Step cf st (LLost k) (put_conn st k {| c_state := s; c_pending := c_pending (get_conn st k); c_nextid := c_nextid (get_conn st k) |})
| SDrained : forall k s,
    Step cf st (LDrained k) (put_conn st k {| c_state := s; c_pending := c_pending (get_conn st k); c_nextid := c_nextid (get_conn st k) |}).

Lemma Step_of_step : forall cf st l st', step cf st l = Some st' -> Step cf st l st'.
Proof.
  intros cf st l st' H. destruct (step_cases _ _ _ _ H) as [_ Hc].
  destruct Hc; try (econstructor; eassumption). destruct Elab as [-> | [-> | ->]]; constructor.
Qed.

Lemma gc_fields : forall st t, let st' := items_delete_tomb (set_gcs st (remove_one t (gcs st))) t in
  conns st' = conns st /\ threads st' = threads st /\ sent st' = sent st /\ seen st' = seen st /\
  forall t0 it, In (t0, it) (items st') -> In (t0, it) (items st).
Proof.
  intros st t st'. destruct (items_delete_tomb_spec (set_gcs st (remove_one t (gcs st))) t) as (A&_&B&_&C&D&_).
  repeat (split; [assumption|]). intros t0 it Hin.
  destruct (items_delete_tomb_items (set_gcs st (remove_one t (gcs st))) t) as [Hi|Hi]; fold st' in Hi; rewrite Hi in Hin; [exact Hin|].
  apply (in_remove key_eqb key_eqb_ok) in Hin. apply Hin.
Qed.

Lemma step_code : forall cf st l st' th' code' j, step cf st l = Some st' -> In (th', code') (threads st') -> In j code' ->
  (exists code0, In (th', code0) (threads st) /\ In j code0 /\
      (forall th room, l = LStep th room -> th' = th -> exists i rest, lookup tid_eqb th (threads st) = Some (i :: rest) /\ In j rest)) \/
  (exists th room i rest st1 pushed, l = LStep th room /\ th' = th /\ lookup tid_eqb th (threads st) = Some (i :: rest) /\
      exec cf st i room = (st1, pushed) /\ In j pushed) \/
  (exists k f e, l = LArrive k f e /\ th' = TR k /\ code' = [j] /\ lookup tid_eqb (TR k) (threads st) = None /\
      ((j = IStart k f e /\ (f_mt f =? c_messageTypeCallReq) = true) \/ (j = INcGet k f /\ (f_mt f =? c_messageTypeCallReq) = false /\ relayRoute (f_mt f) (cf_cancel cf) = 1))) \/
  (exists tm, l = LFire tm /\ th' = TT tm /\ j = ITimerRun tm).
Proof.
  intros cf st l st' th' code' j H Hin Hj.
  assert (Hold : In (th', code') (threads st) -> (forall th room, l <> LStep th room) ->
            exists code0, In (th', code0) (threads st) /\ In j code0 /\
              (forall th room, l = LStep th room -> th' = th -> exists i rest, lookup tid_eqb th (threads st) = Some (i :: rest) /\ In j rest)).
  { intros Hi Hn. exists code'. split; [exact Hi|]. split; [exact Hj|]. intros th room Heq. exfalso. eapply Hn. exact Heq. }
  destruct (Step_of_step _ _ _ _ H) as [k f e El Er|k f e El Er Em|k f e El Er Em|th room i rest st1 pushed El E|tm x Ex Ea El|t Em|k s|k s|k s];
    try (left; apply Hold; [exact Hin|intros; discriminate]).
  - apply set_thread_in in Hin. destruct Hin as [[-> ->]|[_ Hin]]; [|left; apply Hold; [exact Hin|intros; discriminate]].
    right. right. left. destruct Hj as [<-|[]]. exists k, f, e. repeat split; try assumption. left. split; [reflexivity|exact Em].
  - apply set_thread_in in Hin. destruct Hin as [[-> ->]|[_ Hin]]; [|left; apply Hold; [exact Hin|intros; discriminate]].
    right. right. left. destruct Hj as [<-|[]]. exists k, f, e. repeat split; try assumption. right. apply Z.eqb_eq in Er. repeat split; assumption.
  - apply set_thread_in in Hin. rewrite (exec_threads _ _ _ _ _ _ E) in Hin. destruct Hin as [[-> ->]|[Hne Hin]].
    + apply in_app_or in Hj. destruct Hj as [Hj|Hj].
      * right. left. exists th, room, i, rest, st1, pushed. repeat split; assumption.
      * left. exists (i :: rest). split; [eapply (lookup_in tid_eqb tid_eqb_ok); exact El|]. split; [right; exact Hj|].
        intros th0 room0 Heq _. inversion Heq. subst. exists i, rest. split; [exact El|exact Hj].
    + left. exists code'. split; [exact Hin|]. split; [exact Hj|]. intros th0 room0 Heq Heq2. inversion Heq. subst. contradiction.
  - apply set_thread_in in Hin. destruct Hin as [[-> ->]|[_ Hin]]; [|left; apply Hold; [exact Hin|intros; discriminate]].
    right. right. right. destruct Hj as [<-|[]]. exists tm. repeat split.
  - destruct (gc_fields st t) as (_&A&_). rewrite A in Hin. left. apply Hold; [exact Hin|intros; discriminate].
Qed.

Lemma step_code_keep : forall cf st l st' th0 code0 j, Inv st -> step cf st l = Some st' -> In (th0, code0) (threads st) -> In j code0 ->
  (exists code', In (th0, code') (threads st') /\ In j code') \/
  (exists room rest, l = LStep th0 room /\ code0 = j :: rest).
Proof.
  intros cf st l st' th0 code0 j HI H Hin Hj.
  pose proof (in_lookup tid_eqb tid_eqb_ok _ _ _ (inv_threads_nd _ HI) Hin) as L.
  assert (Hnew : forall s th code, threads s = threads st -> tlookup th (threads st) = None ->
            exists code', In (th0, code') (threads (set_thread s th code)) /\ In j code').
  { intros s th code Hs El. exists code0. split; [|exact Hj]. apply in_set_thread_other; [congruence|]. rewrite Hs. exact Hin. }
  destruct (Step_of_step _ _ _ _ H) as [k f e El Er|k f e El Er Em|k f e El Er Em|th room i rest st1 pushed El E|tm x Ex Ea El|t Em|k s|k s|k s];
    try (left; exists code0; split; assumption); try (left; apply Hnew; [reflexivity|assumption]).
  - pose proof (exec_threads _ _ _ _ _ _ E) as Hth.
    destruct (eqb_dec tid_eqb tid_eqb_ok th0 th) as [->|Hne].
    + rewrite El in L. inversion L. subst code0.
      destruct Hj as [->|Hj]; [right; exists room, rest; split; reflexivity|].
      left. exists (pushed ++ rest). split; [|apply in_or_app; right; exact Hj].
      apply in_set_thread_self. intro Hnil. apply app_eq_nil in Hnil. destruct Hnil as [_ ->]. contradiction.
    + left. exists code0. split; [|exact Hj]. apply in_set_thread_other; [exact Hne|]. rewrite Hth. exact Hin.
  - left. destruct (gc_fields st t) as (_&A&_). rewrite A. exists code0. split; assumption.
Qed.

Lemma step_lookup_other : forall cf st l st' th2 c, step cf st l = Some st' -> (forall room, l <> LStep th2 room) ->
  lookup tid_eqb th2 (threads st) = Some c -> lookup tid_eqb th2 (threads st') = Some c.
Proof.
  intros cf st l st' th2 c H Hn Hl.
  destruct (Step_of_step _ _ _ _ H) as [k f e El Er|k f e El Er Em|k f e El Er Em|th room i rest st1 pushed El E|tm x Ex Ea El|t Em|k s|k s|k s];
    try exact Hl; try (rewrite tlookup_set_thread_other by congruence; exact Hl).
  - rewrite tlookup_set_thread_other by (intro; subst; eapply Hn; reflexivity). rewrite (exec_threads _ _ _ _ _ _ E). exact Hl.
  - destruct (gc_fields st t) as (_&A&_). rewrite A. exact Hl.
Qed.

Lemma item_lookup : forall st t it, Inv st -> In (t, it) (items st) -> klookup t (items st) = Some it.
Proof. intros st t it HI Hin. apply (in_lookup key_eqb key_eqb_ok); [apply (inv_items_nd _ HI)|exact Hin]. Qed.

Lemma thread_lookup : forall st th code, Inv st -> In (th, code) (threads st) -> tlookup th (threads st) = Some code.
Proof. intros st th code HI Hin. apply (in_lookup tid_eqb tid_eqb_ok); [apply (inv_threads_nd _ HI)|exact Hin]. Qed.

(* the key of an item in an inbound table is an id allocated on that connection *)
Lemma dest_key_alloc : forall st t it, Inv st -> klookup t (items st) = Some it -> key_dir t = 1 ->
  key_id t < c_nextid (getc (conns st) (key_conn t)).
Proof.
  intros st t it HI Hl Hd. destruct (inv_keys _ HI t) as [[Hd0 _]|[_ Hlt]]; [|congruence|exact Hlt].
  left. apply (lookup_in key_eqb key_eqb_ok) in Hl. apply (in_map fst) in Hl. exact Hl.
Qed.

Definition same_item (it it0 : item) : Prop :=
  it_call it = it_call it0 /\ it_dest it = it_dest it0 /\ it_remap it = it_remap it0 /\ it_orig it = it_orig it0 /\
  it_tm it = it_tm it0 /\ (it_tomb it0 = true -> it_tomb it = true).

Lemma same_item_refl : forall it, same_item it it.
Proof. intro it. unfold same_item. tauto. Qed.

Lemma step_items : forall cf st l st' t it, step cf st l = Some st' -> In (t, it) (items st') ->
  (exists it0, In (t, it0) (items st) /\ same_item it it0) \/
  (exists th room rest k f e c d, l = LStep th room /\ lookup tid_eqb th (threads st) = Some (IAddDest k f e c d :: rest) /\
      t = (d, 1, c_nextid (get_conn st d)) /\ it_call it = c /\ it_dest it = k /\ it_remap it = f_id f /\ it_tomb it = false) \/
  (exists th room rest k f e c d did, l = LStep th room /\ lookup tid_eqb th (threads st) = Some (IAddOrig k f e c d did :: rest) /\
      t = (k, 0, f_id f) /\ it_call it = c /\ it_dest it = d /\ it_remap it = did /\ it_tomb it = false).
Proof.
  intros cf st l st' t it H Hin.
  destruct (Step_of_step _ _ _ _ H) as [k f e El Er|k f e El Er Em|k f e El Er Em|th room i rest st1 pushed El E|tm x Ex Ea El|t0 Em|k s|k s|k s];
    try (left; exists it; split; [exact Hin|apply same_item_refl]).
  - cbn [set_thread set_threads items] in Hin.
    destruct (exec_items_fields _ _ _ _ _ _ _ _ E Hin) as [(it0&A&B)|[(k&f&e&c&d&A&B&C&D&F&_&G&_)|(k&f&e&c&d&did&A&B&C&D&F&_&G&_)]].
    + left. exists it0. split; [exact A|exact B].
    + right. left. subst i. exists th, room, rest, k, f, e, c, d. repeat split; try assumption; reflexivity.
    + right. right. subst i. exists th, room, rest, k, f, e, c, d, did. repeat split; try assumption; reflexivity.
  - left. exists it. split; [|apply same_item_refl]. apply (gc_fields st t0). exact Hin.
Qed.

Lemma step_items_keep : forall cf st l st' t it, Inv st -> step cf st l = Some st' -> klookup t (items st) = Some it -> it_tomb it = false ->
  klookup t (items st') = Some it \/
  (exists th room rest i, l = LStep th room /\ lookup tid_eqb th (threads st) = Some (i :: rest) /\ ((exists s, i = IEntomb t s) \/ exists lk, i = IDelete t lk)).
Proof.
  intros cf st l st' t it HI H Hl Hlive.
  destruct (Step_of_step _ _ _ _ H) as [k f e El Er|k f e El Er Em|k f e El Er Em|th room i rest st1 pushed El E|tm x Ex Ea El|t0 Em|k s|k s|k s];
    try (left; exact Hl).
  - cbn [set_thread set_threads items].
    pose proof (lookup_in tid_eqb tid_eqb_ok _ _ _ El) as Hin0.
    destruct (inv_code _ HI _ _ Hin0) as [Hfo _]. inversion Hfo as [|? ? Hiok _]. subst.
    destruct (exec_items_keep _ _ _ _ _ _ _ _ E Hl) as [Hk|[(s&Hi)|[(lk0&Hi)|[(k&f&e&c&d&Hi&Ht)|(k&f&e&c&d&did&Hi&Ht)]]]].
    + left. exact Hk.
    + right. exists th, room, rest, i. split; [reflexivity|]. split; [exact El|]. left. exists s. exact Hi.
    + right. exists th, room, rest, i. split; [reflexivity|]. split; [exact El|]. right. exists lk0. exact Hi.
    + (* the key of a new destination item has not been allocated yet *)
      exfalso. subst t. pose proof (dest_key_alloc _ _ _ HI Hl eq_refl) as Hlt. cbn in Hlt. rewrite get_conn_getc in Hlt. lia.
    + exfalso. subst i t. destruct (iok_adm _ _ _ _ (IAddOrig k f e c d did) k f eq_refl Hiok) as [_ (_&Hfree&_)]. congruence.
  - (* the collection only meets tombstones *)
    left. gc_delete HI.
    destruct (items_delete (set_gcs st (remove_one t0 (gcs st))) t0) as [st' g] eqn:E. cbn [fst].
    apply items_delete_spec in E. cbn [set_gcs items] in E. destruct E as (_&_&_&_&_&_&_&D).
    assert (Hne : t <> t0).
    { intro Heq. subst t0. unfold mem_key in Em. apply existsb_exists in Em. destruct Em as (t'&Hin'&Heq). apply key_eqb_ok in Heq. subst t'.
      rewrite (inv_gcs _ HI _ _ Hin' Hl) in Hlive. discriminate. }
    destruct (klookup t0 (items st)); destruct D as [_ Hi]; rewrite Hi; [|exact Hl].
    rewrite (lookup_remove_neq key_eqb key_eqb_ok) by exact Hne. exact Hl.
Qed.

Lemma nextid_put_same : forall st k cn, c_nextid cn = c_nextid (get_conn st k) ->
  forall k0, c_nextid (getc (conns (put_conn st k cn)) k0) = c_nextid (getc (conns st) k0).
Proof.
  intros st k cn H k0. cbn [put_conn set_conns conns]. rewrite getc_insert.
  destruct (k0 =? k) eqn:E; [|reflexivity]. apply Z.eqb_eq in E. subst. rewrite H. reflexivity.
Qed.

Lemma exec_nextid_le : forall cf st i room st1 pushed, exec cf st i room = (st1, pushed) ->
  forall k, c_nextid (getc (conns st) k) <= c_nextid (getc (conns st1) k).
Proof.
  intros cf st i room st1 pushed H k. rewrite (exec_nextid _ _ _ _ _ _ H k).
  destruct i; try lia. pose proof (b2z_nonneg (k =? d)). lia.
Qed.

Lemma step_nextid_mono : forall cf st l st' d, step cf st l = Some st' -> c_nextid (getc (conns st) d) <= c_nextid (getc (conns st') d).
Proof.
  intros cf st l st' d H.
  destruct (Step_of_step _ _ _ _ H) as [k f e El Er|k f e El Er Em|k f e El Er Em|th room i rest st1 pushed El E|tm x Ex Ea El|t0 Em|k s|k s|k s];
    try (rewrite nextid_put_same by reflexivity); try (cbn; lia).
  - apply (exec_nextid_le _ _ _ _ _ _ E).
  - destruct (gc_fields st t0) as (A&_). rewrite A. lia.
Qed.

Lemma step_seen : forall cf st l st', step cf st l = Some st' ->
  seen st' = seen st \/ (exists k0 f e, l = LArrive k0 f e /\ seen st' = (k0, f_id f) :: seen st /\ (f_mt f =? c_messageTypeCallReq) = true).
Proof.
  intros cf st l st' H.
  destruct (Step_of_step _ _ _ _ H) as [k f e El Er|k f e El Er Em|k f e El Er Em|th room i rest st1 pushed El E|tm x Ex Ea El|t0 Em|k s|k s|k s];
    try (left; reflexivity).
  - right. exists k, f, e. repeat split. exact Em.
  - left. apply (exec_sent _ _ _ _ _ _ E).
  - left. apply (gc_fields st t0).
Qed.

Lemma step_seen_incl : forall cf st l st', step cf st l = Some st' -> incl (seen st) (seen st').
Proof.
  intros cf st l st' H. destruct (step_seen _ _ _ _ H) as [->|(k&f&e&_&->&_)]; [apply incl_refl|apply incl_tl; apply incl_refl].
Qed.

Lemma step_sent : forall cf st l st', step cf st l = Some st' ->
  sent st' = sent st \/
  exists th room i rest, l = LStep th room /\ lookup tid_eqb th (threads st) = Some (i :: rest) /\ sent st' = enq st i room ++ sent st.
Proof.
  intros cf st l st' H.
  destruct (Step_of_step _ _ _ _ H) as [k f e El Er|k f e El Er Em|k f e El Er Em|th room i rest st1 pushed El E|tm x Ex Ea El|t0 Em|k s|k s|k s];
    try (left; reflexivity).
  - right. exists th, room, i, rest. split; [reflexivity|]. split; [exact El|]. apply (exec_sent _ _ _ _ _ _ E).
  - left. apply (gc_fields st t0).
Qed.

Lemma fresh_unseen : forall st k f e, fresh_label st (LArrive k f e) = true -> (f_mt f =? c_messageTypeCallReq) = true ->
  ~ In (k, f_id f) (seen st).
Proof.
  intros st k f e Hfresh Em Hs. cbn [fresh_label] in Hfresh. rewrite Em in Hfresh. cbn [andb] in Hfresh. apply negb_true_iff in Hfresh.
  assert (Hex : existsb (fun p => (fst p =? k) && (snd p =? f_id f)) (seen st) = true).
  { apply existsb_exists. exists (k, f_id f). split; [exact Hs|]. cbn. rewrite !Z.eqb_refl. reflexivity. }
  congruence.
Qed.

(* an Entomb that is to report to the call (failRelayItem on an originating item, or the timeout
   of an originating item's timer) acts on a key of an outbound table *)
Lemma entomb_orig_dir : forall st th code t s it, Inv st -> In (th, code) (threads st) -> In (IEntomb t s) code ->
  klookup t (items st) = Some it -> match s with FromFail _ => it_orig it | FromTimeout o => o end = true -> key_dir t = 0.
Proof.
  intros st th code t s it HI Hin Hj Hl Ho. apply Z.eqb_eq. destruct s as [r|o].
  - rewrite <- (inv_orig _ HI _ _ (lookup_in key_eqb key_eqb_ok _ _ _ Hl)). exact Ho.
  - destruct (inv_code _ HI _ _ Hin) as [Hf _]. rewrite Forall_forall in Hf. pose proof (Hf _ Hj) as Hiok.
    unfold iok in Hiok. cbn in Hiok. rewrite <- Hiok. exact Ho.
Qed.

(* the key of an item in an outbound table is a request id read on that connection *)
Lemma orig_key_seen : forall st t it, Inv st -> klookup t (items st) = Some it -> key_dir t = 0 -> In (key_conn t, key_id t) (seen st).
Proof.
  intros st t it HI Hl Hd. destruct (inv_keys _ HI t) as [[_ Hs]|[Hd1 _]]; [|exact Hs|congruence].
  left. apply (lookup_in key_eqb key_eqb_ok) in Hl. apply (in_map fst) in Hl. exact Hl.
Qed.

Lemma step_exec_eq : forall cf st th room i rest st1 pushed st', step cf st (LStep th room) = Some st' ->
  lookup tid_eqb th (threads st) = Some (i :: rest) -> exec cf st i room = (st1, pushed) -> st' = set_thread st1 th (pushed ++ rest).
Proof.
  intros cf st th room i rest st1 pushed st' H El E. unfold step in H. destruct (negb (panicked st =? 0)); [discriminate|].
  rewrite El, E in H. inversion H. reflexivity.
Qed.

(* A property of the timer table that Stop, Release, Start of a fresh timer and the run of
   OnTimer keep is kept by every table operation and every instruction (firing is a label). *)
Section TimerPred.
  Variable T : list (Z * timer) -> Prop.
  Hypothesis T_stop : forall st tm st' b, timer_stop st tm = (st', b) -> T (timers st) -> T (timers st').
  Hypothesis T_release : forall st tm, T (timers st) -> T (timers (timer_release st tm)).
  Hypothesis T_new : forall st t o st' tm, (forall tm0 x, zlookup tm0 (timers st) = Some x -> tm0 < next_tm st) ->
    timer_new st t o = (st', tm) -> T (timers st) -> T (timers st').
  Hypothesis T_run : forall tms tm x, zlookup tm tms = Some x -> tm_released x = false -> T tms ->
    T (zinsert tm {| tm_armed := tm_armed x; tm_active := false; tm_stopped := tm_stopped x; tm_released := false;
                     tm_key := tm_key x; tm_orig := tm_orig x |} tms).

  Lemma items_get_T : forall st t stop st' g, items_get st t stop = (st', g) -> T (timers st) -> T (timers st').
  Proof.
    intros st t stop st' g H HT. unfold items_get in H. destruct (klookup t (items st)) as [it|]; [|inversion H; subst; exact HT].
    destruct stop; [|inversion H; subst; exact HT].
    destruct (timer_stop st (it_tm it)) as [st2 b] eqn:E. inversion H. subst. eapply T_stop; eassumption.
  Qed.

  Lemma items_delete_T : forall st t st' g, items_delete st t = (st', g) -> T (timers st) -> T (timers st').
  Proof.
    intros st t st' g H HT. unfold items_delete in H. destruct (klookup t (items st)) as [it|]; inversion H; subst; [|exact HT].
    apply T_release. exact HT.
  Qed.

  Lemma items_delete_tomb_T : forall st t, T (timers st) -> T (timers (items_delete_tomb st t)).
  Proof.
    intros st t HT. unfold items_delete_tomb. destruct (klookup t (items st)) as [it|]; [|exact HT].
    destruct (it_tomb it); [|exact HT]. apply T_release. exact HT.
  Qed.

  Lemma exec_T : forall cf st i room st1 pushed, (forall tm x, zlookup tm (timers st) = Some x -> tm < next_tm st) ->
    exec cf st i room = (st1, pushed) -> T (timers st) -> T (timers st1).
  Proof.
    intros cf st i room st1 pushed Hal H HT.
    destruct (is_pure i) eqn:Ep; [destruct (exec_pure_frame _ _ _ _ _ _ Ep H) as (-> & _); exact HT|].
    destruct i; try discriminate; cbn [exec] in H.
    - match type of H with context [timer_new ?s ?t ?o] => destruct (timer_new s t o) as [st2 tm] eqn:E end.
      inversion H. subst. cbn [set_items timers]. eapply T_new; [|exact E|exact HT]. exact Hal.
    - destruct (timer_new st (k, 0, f_id f) true) as [st2 tm] eqn:E.
      inversion H. subst. cbn [set_items timers]. eapply T_new; [|exact E|exact HT]. exact Hal.
    - destruct (frameTypeFor (f_mt f)); [|inversion H; subst; exact HT].
      match type of H with context [items_get ?a ?b ?cc] => destruct (items_get a b cc) as [st' g] eqn:E end.
      inversion H. subst. eapply items_get_T; eassumption.
    - match type of H with context [items_get ?a ?b ?cc] => destruct (items_get a b cc) as [st' g] eqn:E end.
      inversion H. subst. eapply items_get_T; eassumption.
    - destruct (items_get st t true) as [st' g] eqn:E.
      assert (st1 = st') by (destruct g as [[it [|]]|]; inversion H; reflexivity). subst. eapply items_get_T; eassumption.
    - destruct (items_entomb cf st t) as [st' g] eqn:E.
      assert (st1 = st') by (destruct g as [[it [|]]|]; inversion H; reflexivity). subst. unfold items_entomb in E.
      destruct (cf_maxtombs cf <? tomb_count st (key_conn t) (key_dir t)); [eapply items_delete_T; eassumption|].
      destruct (klookup t (items st)) as [it|]; [destruct (it_tomb it)|]; inversion E; subst; exact HT.
    - destruct (items_delete_call st t lk) as [st' g] eqn:E.
      assert (st1 = st') by (destruct g as [[it [|]]|]; inversion H; reflexivity). subst.
      destruct (items_delete_call_cases st t lk) as [Ec|[Ec _]]; rewrite Ec in E; [eapply items_delete_T; eassumption|].
      inversion E. subst. exact HT.
    - destruct (zlookup tm (timers st)) as [x|] eqn:El; [|inversion H; subst; exact HT].
      destruct (tm_released x) eqn:Er; inversion H; subst; [exact HT|]. apply T_run; assumption.
  Qed.
End TimerPred.
