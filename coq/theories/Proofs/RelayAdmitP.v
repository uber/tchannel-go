(* C03, id re-use on a relay connection (relay.go getDestination / relayItems.Entomb).

   1. The admission step of the relay model (Model/RelayItems.v, instruction IGetDest, the model
      used by C09/C10) IS the decision go2v regenerates from Relayer.getDestination on every
      run (Gen/GenRelayAdmit.v): a call req is refused as a duplicate exactly when the
      connection's outbound table holds ANY item for its id -- live or tombstone.
   2. Why that matters: the tombstone collection deletes BY ID; if it meets a live item (whose
      timer is active) the model reaches the Go panic of relayTimer.Release.
   3. A re-used id that finds an item is dropped without touching items, timers or collections. *)
From Coq Require Import ZArith List Bool Lia.
From Verif Require Import Base.Wrap Gen.GenConsts Gen.GenFrame Gen.GenRelayAdmit Model.RelayItems
  Proofs.RelayAssocP.
Import ListNotations.
Local Open Scope Z_scope.

(* what r.outbound.Get(id, false) returns for the id of a call req read on connection k *)
Definition out_found (st : state) (k id : Z) : bool :=
  match lookup key_eqb (k, 0, id) (items st) with Some _ => true | None => false end.
Definition out_tomb (st : state) (k id : Z) : bool :=
  match lookup key_eqb (k, 0, id) (items st) with Some it => it_tomb it | None => false end.

(* the model's getDestination step, written with the generated decision functions *)
Definition getdest_generated (st : state) (k : Z) (f : frame) (e : env) (c : Z) : state * list instr :=
  let found := out_found st k (f_id f) in
  let tomb := out_tomb st k (f_id f) in
  let dest_ok := negb (e_dest e =? -1) in
  let conn_ok := 0 <=? e_dest e in
  if relayGetDestOk found tomb dest_ok conn_ok then (st, [IRemoteCan k f e c (e_dest e)])
  else if relayGetDestErr found tomb dest_ok conn_ok =? 1 then
    (st, [ICb c (CbFailed reason_duplicate); IDec k; ICb c CbEnd])
  else if relayGetDestErr found tomb dest_ok conn_ok =? 2 then
    (st, [ICb c (CbFailed reason_bad_host); ISendErr k (f_id f) c_ErrCodeDeclined; IDec k; ICb c CbEnd])
  else (st, [ICb c (CbFailed reason_conn_failed); ISendErr k (f_id f) c_ErrCodeNetwork; IDec k; ICb c CbEnd]).

Lemma getdest_tie : forall cf st k f e c room,
  exec cf st (IGetDest k f e c) room = getdest_generated st k f e c.
Proof.
  intros cf st k f e c room. unfold getdest_generated, out_found, out_tomb. cbn [exec].
  destruct (lookup key_eqb (k, 0, f_id f) (items st)) as [it|].
  - reflexivity.
  - rewrite Z.leb_antisym. destruct (e_dest e =? -1), (e_dest e <? 0); reflexivity.
Qed.

(* the generated decision: admitted only if no item -- tombstone or not -- is present, and a
   present item always gives the duplicate refusal (no error frame, no destination lookup) *)
Lemma admit_needs_no_item : forall found tomb dest_ok conn_ok,
  relayGetDestOk found tomb dest_ok conn_ok = true -> found = false.
Proof. intros [] tomb dest_ok conn_ok H; [discriminate H|reflexivity]. Qed.

Lemma present_is_duplicate : forall tomb dest_ok conn_ok,
  relayGetDestOk true tomb dest_ok conn_ok = false /\ relayGetDestErr true tomb dest_ok conn_ok = 1.
Proof. intros tomb dest_ok conn_ok. split; reflexivity. Qed.

(* ... hence in the model: a call req whose id has an item (live or tomb) is dropped, and the
   step changes nothing at all in the state *)
Lemma reuse_dropped : forall cf st k f e c room it,
  lookup key_eqb (k, 0, f_id f) (items st) = Some it ->
  exec cf st (IGetDest k f e c) room = (st, [ICb c (CbFailed reason_duplicate); IDec k; ICb c CbEnd]).
Proof. intros cf st k f e c room it H. cbn [exec]. rewrite H. reflexivity. Qed.

(* the scheduled tombstone collection (relayItems.deleteTomb, the code after the fix "the relay's
   tombstone collection deletes only the tombstone it was scheduled for") that meets a LIVE item
   leaves it -- and its active timer, and everything else -- alone: only the pending collection
   is consumed.  (Before the fix the collection was relayItems.Delete: the live item was deleted
   and the release of its active timer was the Go panic "only stopped or completed timers can be
   released".) *)
Lemma gc_of_live_item_noop : forall cf st t it,
  panicked st = 0 -> mem_key t (gcs st) = true ->
  lookup key_eqb t (items st) = Some it -> it_tomb it = false ->
  step cf st (LGc t) = Some (set_gcs st (remove_one t (gcs st))).
Proof.
  intros cf st t it Hp Hm Hi Ht. unfold step. rewrite Hp, Hm. cbn [Z.eqb negb].
  rewrite (items_delete_tomb_live _ t it); [reflexivity|exact Hi|exact Ht].
Qed.

Definition ex_cf : config := {| cf_maxtombs := 30000; cf_cancel := false |}.
Definition ex_env : env := {| e_start := 0; e_code := 0; e_dest := 1; e_mode := 0 |}.
Definition ex_req (id : Z) : frame := {| f_mt := c_messageTypeCallReq; f_id := id; f_flags := 0; f_code := 0; f_wf := true |}.

(* call req 7 on connection 0 is relayed to connection 1 (timers 1 = destination item, 2 =
   originating item); the originating timer fires: error frame, tombstone, collection scheduled *)
Definition ex_timed_out : list label :=
  [LArrive 0 (ex_req 7) ex_env] ++ repeat (LStep (TR 0) true) 10 ++ [LFire 2] ++ repeat (LStep (TT 2) true) 7.
(* ... the same id arrives again while the tombstone exists: the reader handles it completely *)
Definition ex_reuse : list label := [LArrive 0 (ex_req 7) ex_env] ++ repeat (LStep (TR 0) true) 7.
(* ... and the collection fires *)
Definition ex_collect : list label := [LGc (0, 0, 7)].

(* ---------------------------------------------------------------- the re-use guard is necessary

   1. The schedule that was the witness for the code BEFORE the fix (two reader goroutines race on
   one call: the reader of the destination connection has looked the originating item up for the
   FINAL call res -- relay.Receive.afterGet: timer stopped, item copy held --; the reader of the
   source connection forwards a non-final call req continue into a full send queue and fails the
   call: tombstone, collection scheduled; the first reader goes on and finishRelayItem DELETES THE
   TOMBSTONE while its collection is pending; the id is re-used and admitted; the stale collection
   fires).  With relayItems.deleteTomb the stale collection meets a live item and leaves it alone:
   no panic, the re-using call stays in flight with its timer armed. *)
Definition race_req_more : frame := {| f_mt := c_messageTypeCallReq; f_id := 7; f_flags := 1; f_code := 0; f_wf := true |}.
Definition race_req_cont : frame := {| f_mt := c_messageTypeCallReqContinue; f_id := 7; f_flags := 1; f_code := 0; f_wf := true |}.
Definition race_res_last : frame := {| f_mt := c_messageTypeCallRes; f_id := 1; f_flags := 0; f_code := 0; f_wf := true |}.
Definition ex_early_delete : list label :=
  [LArrive 0 race_req_more ex_env] ++ repeat (LStep (TR 0) true) 10 ++
  [LArrive 1 race_res_last ex_env] ++ repeat (LStep (TR 1) true) 5 ++          (* parked after Receive's Get *)
  [LArrive 0 race_req_cont ex_env] ++ repeat (LStep (TR 0) false) 17 ++        (* destination queue full: fail, entomb *)
  repeat (LStep (TR 1) true) 5 ++                                              (* resumes: deletes the tombstones *)
  [LArrive 0 (ex_req 7) ex_env] ++ repeat (LStep (TR 0) true) 10 ++            (* id 7 re-used: admitted *)
  [LGc (0, 0, 7)].                                                             (* the stale collection *)

Lemma stale_collection_harmless :
  exists st it x, run ex_cf init ex_early_delete = Some st /\ panicked st = 0 /\ gcs st = [(1, 1, 1)] /\
    lookup key_eqb (0, 0, 7) (items st) = Some it /\ it_tomb it = false /\
    lookup Z.eqb (it_tm it) (timers st) = Some x /\ tm_armed x = true.
Proof. do 3 eexists. vm_compute. repeat split; reflexivity. Qed.

(* 2. The schedule that refuted the unguarded statement before the fix "the relay finishes
   (deletes) a relay item only if it still belongs to the call the frame path looked up": the
   reader of the destination connection has looked the originating item up for the final call res
   (timer stopped, copy held); the caller cancels the call (cancel relayed: both items deleted,
   End) and re-uses the id at once: admitted, a live item with an armed timer under the same key;
   the first reader goes on with its stale copy: finishRelayItem -> relayItems.deleteCall finds an
   item of ANOTHER call (different destination-side id) and leaves it alone.  No panic; the
   re-using call keeps its items and its armed timer. *)
Definition cn_cf : config := {| cf_maxtombs := 30000; cf_cancel := true |}.
Definition race_cancel : frame := {| f_mt := c_messageTypeCancel; f_id := 7; f_flags := 0; f_code := 0; f_wf := true |}.
Definition ex_stale_finish : list label :=
  [LArrive 0 (ex_req 7) ex_env] ++ repeat (LStep (TR 0) true) 10 ++
  [LArrive 1 race_res_last ex_env] ++ repeat (LStep (TR 1) true) 5 ++          (* parked after Receive's Get *)
  [LArrive 0 race_cancel ex_env] ++ repeat (LStep (TR 0) true) 14 ++           (* cancel relayed: both items deleted, End *)
  [LArrive 0 (ex_req 7) ex_env] ++ repeat (LStep (TR 0) true) 10 ++            (* id 7 re-used: admitted *)
  repeat (LStep (TR 1) true) 4.                                                (* resumes: finishRelayItem with the stale copy *)

Lemma stale_finish_harmless :
  exists st it x, run cn_cf init ex_stale_finish = Some st /\ panicked st = 0 /\
    lookup key_eqb (0, 0, 7) (items st) = Some it /\ it_tomb it = false /\ it_call it = 2 /\
    lookup Z.eqb (it_tm it) (timers st) = Some x /\ tm_armed x = true /\ c_pending (get_conn st 0) = 1.
Proof. do 3 eexists. vm_compute. repeat split; reflexivity. Qed.

(* 3. The guard is STILL necessary: failRelayItem looks the item up (Get, timer stopped) and
   entombs BY ID in a second lock region, and with more than RelayMaxTombs tombstones Entomb
   deletes by id at once.  Witness (RelayMaxTombs = 1, two earlier calls timed out: two
   tombstones): the reader of the destination connection forwards a non-final call res into the
   caller's full send queue and fails the call: failRelayItem's Get has stopped the originating
   item's timer, its Entomb is still to come; the caller cancels the call (both items deleted,
   End) and re-uses the id at once (admitted, live item, armed timer); the first reader's Entomb
   finds too many tombstones and DELETES the live item of the new call: release of an active
   timer, Go panic "only stopped or completed timers can be released". *)
Definition tt_cf : config := {| cf_maxtombs := 1; cf_cancel := true |}.
Definition race_res_more : frame := {| f_mt := c_messageTypeCallRes; f_id := 3; f_flags := 1; f_code := 0; f_wf := true |}.
Definition ex_stale_fail : list label :=
  [LArrive 0 (ex_req 5) ex_env] ++ repeat (LStep (TR 0) true) 10 ++ [LFire 2] ++ repeat (LStep (TT 2) true) 7 ++   (* tombstone 1 *)
  [LArrive 0 (ex_req 6) ex_env] ++ repeat (LStep (TR 0) true) 10 ++ [LFire 4] ++ repeat (LStep (TT 4) true) 7 ++   (* tombstone 2 *)
  [LArrive 0 (ex_req 7) ex_env] ++ repeat (LStep (TR 0) true) 10 ++
  [LArrive 1 race_res_more ex_env] ++ repeat (LStep (TR 1) true) 7 ++
  [LStep (TR 1) false; LStep (TR 1) true] ++                                   (* caller's queue full; failRelayItem's Get done *)
  [LArrive 0 race_cancel ex_env] ++ repeat (LStep (TR 0) true) 14 ++           (* cancel relayed: both items deleted, End *)
  [LArrive 0 (ex_req 7) ex_env] ++ repeat (LStep (TR 0) true) 10 ++            (* id 7 re-used: admitted *)
  [LStep (TR 1) true].                                                         (* failRelayItem's Entomb: too many tombstones, Delete by id *)

Lemma reuse_unguarded_refuted :
  exists ls st, run tt_cf init ls = Some st /\ panicked st = panic_release_active.
Proof. exists ex_stale_fail. eexists. split; vm_compute; reflexivity. Qed.
