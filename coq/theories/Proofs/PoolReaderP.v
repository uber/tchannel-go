(* The tie of the pooled typed.Reader model (Model/PoolReader.v) to the source: the reset statements
   of the model's Get path / Put path and the fields of the model's record are the ones go2v extracts
   from typed/reader.go (Gen/GenPoolReset.v).  The theorems about the model are in
   Proofs/PoolReaderSpecP.v and do not depend on the generated table. *)
From Coq Require Import ZArith List Bool Lia.
From Verif Require Import Base.Wrap Spec.PoolSpec Gen.GenPoolReset Model.PoolReset Model.PoolReader.
From Verif Require Export Proofs.PoolReaderSpecP.
Import ListNotations.
Local Open Scope Z_scope.

Lemma reader_get_resets_generated :
  pr_get_resets_of pool_reset_table pr_k_readerPool pr_k_NewReader = [tr_new_resets].
Proof.
  first [ vm_compute; reflexivity
        | fail 1 "the reset statements of typed.NewReader regenerated from the source (Gen/GenPoolReset.v) are not [r.reader = <parameter>; r.err = nil]: the model Model/PoolReader.tr_new no longer describes the Get path of the pooled Reader" ].
Qed.

Lemma reader_put_resets_generated :
  pr_put_resets_of pool_reset_table pr_k_readerPool pr_k_Release = [tr_release_resets].
Proof.
  first [ vm_compute; reflexivity
        | fail 1 "typed.Reader.Release regenerated from the source is not a plain readerPool.Put(r): the model's Release no longer describes the Put path of the pooled Reader" ].
Qed.

Lemma reader_fields_generated : pr_fields_of pool_reset_table pr_k_readerPool = tr_fields.
Proof.
  first [ vm_compute; reflexivity
        | fail 1 "the fields of typed.Reader regenerated from the source are not reader, err, buf: the model record Model/PoolReader.treader is incomplete" ].
Qed.

