(* Lemmas about the response grammar of Spec/WireOk.v: automaton characterisation,
   prefix closure, uniqueness and finality of the terminal frame. *)
From Coq Require Import List Bool Lia.
From Verif Require Import Spec.WireOk.
Import ListNotations.

Lemma wire_run_app q l1 l2 :
  wire_run q (l1 ++ l2) =
  match wire_run q l1 with Some q' => wire_run q' l2 | None => None end.
Proof.
  revert q; induction l1 as [|k r IH]; intros q; cbn [wire_run app].
  - reflexivity.
  - destruct (wire_step q k) as [q'|]; [apply IH | reflexivity].
Qed.

Lemma wire_run_end l : wire_run WEnd l = match l with [] => Some WEnd | _ => None end.
Proof. destruct l as [|k r]; reflexivity. Qed.

Lemma wire_step_end k : wire_step WEnd k = None.
Proof. destruct k as [[]|[]|]; reflexivity. Qed.

Lemma wire_step_terminal q k q' :
  wire_step q k = Some q' -> (terminal k = true <-> q' = WEnd).
Proof.
  destruct q, k as [[]|[]|]; cbn; intros H; inversion H; subst; split; intros E;
    try reflexivity; try discriminate.
Qed.

Lemma wire_step_never_W0 q k : wire_step q k <> Some W0.
Proof. destruct q, k as [[]|[]|]; cbn; discriminate. Qed.

Lemma wire_run_mid l :
  wire_run WMid l =
  if conts_more l then Some WMid
  else if conts_last l || conts_err l then Some WEnd else None.
Proof.
  induction l as [|k r IH].
  - reflexivity.
  - destruct k as [[]|[]|]; cbn [wire_run wire_step].
    + reflexivity.
    + reflexivity.
    + rewrite IH. cbn [conts_more conts_last conts_err].
      destruct r; reflexivity.
    + rewrite wire_run_end. destruct r; reflexivity.
    + rewrite wire_run_end. destruct r; reflexivity.
Qed.

Lemma wire_run_init l :
  wire_run W0 l =
  match l with
  | [] => Some W0
  | _ => if wire_open l then Some WMid else if wire_ok l then Some WEnd else None
  end.
Proof.
  destruct l as [|k r]; [reflexivity|].
  destruct k as [[]|[]|]; cbn [wire_run wire_step].
  - rewrite wire_run_mid. unfold wire_ok. cbn [wire_open wire_complete wire_cut].
    destruct (conts_more r); reflexivity.
  - rewrite wire_run_end. destruct r; reflexivity.
  - reflexivity.
  - reflexivity.
  - rewrite wire_run_end. destruct r; reflexivity.
Qed.

Lemma conts_more_not_last l : conts_more l = true -> conts_last l = false /\ conts_err l = false.
Proof.
  induction l as [|k r IH]; cbn.
  - split; reflexivity.
  - destruct k as [[]|[]|]; try discriminate. intros H. destruct (IH H) as [A B].
    split; destruct r; auto.
Qed.

Lemma wire_open_not_ok l : wire_open l = true -> wire_ok l = false.
Proof.
  destruct l as [|k r]; [reflexivity|].
  destruct k as [[]|[]|]; cbn; try discriminate.
  intros H. destruct (conts_more_not_last _ H) as [A B]. unfold wire_ok; cbn.
  rewrite A, B. reflexivity.
Qed.

Theorem wire_ok_run l : wire_ok l = true <-> wire_run W0 l = Some WEnd.
Proof.
  rewrite wire_run_init. destruct l as [|k r].
  - split; discriminate.
  - destruct (wire_open (k :: r)) eqn:O.
    + rewrite (wire_open_not_ok _ O). split; discriminate.
    + destruct (wire_ok (k :: r)); split; intros H; try reflexivity; discriminate.
Qed.

Theorem wire_prefix_ok_run l : wire_prefix_ok l = true <-> exists q, wire_run W0 l = Some q.
Proof.
  rewrite wire_run_init. unfold wire_prefix_ok. destruct l as [|k r].
  - split; [intros _; eexists; reflexivity | reflexivity].
  - destruct (wire_open (k :: r)) eqn:O.
    + rewrite orb_true_r. split; [intros _; eexists; reflexivity | reflexivity].
    + rewrite orb_false_r. destruct (wire_ok (k :: r)).
      * split; [intros _; eexists; reflexivity | reflexivity].
      * split; [discriminate | intros [q H]; discriminate].
Qed.

Corollary wire_prefix_ok_run_none l : wire_prefix_ok l = false <-> wire_run W0 l = None.
Proof.
  split; intros H.
  - destruct (wire_run W0 l) as [q|] eqn:E; [|reflexivity].
    assert (P : wire_prefix_ok l = true) by (apply wire_prefix_ok_run; eauto). congruence.
  - destruct (wire_prefix_ok l) eqn:E; [|reflexivity].
    apply wire_prefix_ok_run in E as [q E]. congruence.
Qed.

Theorem wire_ok_prefix l : wire_ok l = true -> wire_prefix_ok l = true.
Proof. intros H; unfold wire_prefix_ok; rewrite H; reflexivity. Qed.

Theorem wire_prefix_ok_app_inv l1 l2 :
  wire_prefix_ok (l1 ++ l2) = true -> wire_prefix_ok l1 = true.
Proof.
  rewrite !wire_prefix_ok_run, wire_run_app. intros [q H].
  destruct (wire_run W0 l1) as [q1|]; [eauto | discriminate].
Qed.

Lemma wire_run_completable q : exists s, wire_run q s = Some WEnd.
Proof.
  destruct q; [exists [Err] | exists [Err] | exists []]; reflexivity.
Qed.

Theorem wire_prefix_ok_spec l :
  wire_prefix_ok l = true <-> exists s, wire_ok (l ++ s) = true.
Proof.
  split.
  - intros H. apply wire_prefix_ok_run in H as [q H].
    destruct (wire_run_completable q) as [s Hs]. exists s.
    apply wire_ok_run. rewrite wire_run_app, H. exact Hs.
  - intros [s H]. apply wire_ok_prefix in H. eapply wire_prefix_ok_app_inv; exact H.
Qed.

(* a terminal frame drives the automaton to WEnd, whence nothing is accepted *)
Lemma wire_run_terminal_end q l k q' :
  wire_run q (l ++ [k]) = Some q' -> terminal k = true -> q' = WEnd.
Proof.
  rewrite wire_run_app. destruct (wire_run q l) as [q1|]; [|discriminate].
  cbn [wire_run]. destruct (wire_step q1 k) as [q2|] eqn:S; [|discriminate].
  intros H T. inversion H; subst. apply (wire_step_terminal _ _ _ S). exact T.
Qed.

Theorem prefix_ok_terminal_last l1 k l2 :
  wire_prefix_ok (l1 ++ k :: l2) = true -> terminal k = true -> l2 = [].
Proof.
  intros H T. apply wire_prefix_ok_run in H as [q H].
  replace (l1 ++ k :: l2) with ((l1 ++ [k]) ++ l2) in H by (rewrite <- app_assoc; reflexivity).
  rewrite wire_run_app in H.
  destruct (wire_run W0 (l1 ++ [k])) as [q1|] eqn:E; [|discriminate].
  apply wire_run_terminal_end in E; [|exact T]. subst q1.
  rewrite wire_run_end in H. destruct l2; [reflexivity | discriminate].
Qed.

Theorem prefix_ok_one_terminal l :
  wire_prefix_ok l = true -> (length (filter terminal l) <= 1)%nat.
Proof.
  intros H.
  destruct (filter terminal l) as [|a [|b r]] eqn:F; cbn; try lia.
  exfalso.
  (* locate the first terminal frame: something follows it *)
  assert (S : exists l1 k l2, l = l1 ++ k :: l2 /\ terminal k = true /\ l2 <> []).
  { clear H. revert a b r F. induction l as [|x l IH]; intros a b r F; [discriminate|].
    cbn [filter] in F. destruct (terminal x) eqn:T.
    - inversion F; subst. exists [], a, l. split; [reflexivity|]. split; [exact T|].
      intros ->. discriminate.
    - destruct (IH _ _ _ F) as (l1 & k & l2 & E & Tk & N). exists (x :: l1), k, l2.
      subst l. split; [reflexivity|]. split; assumption. }
  destruct S as (l1 & k & l2 & E & T & N). subst l.
  apply N. eapply prefix_ok_terminal_last; eassumption.
Qed.

(* one more frame: the step form used by invariant proofs *)
Lemma wire_run_snoc q l k :
  wire_run q (l ++ [k]) =
  match wire_run q l with Some q1 => wire_step q1 k | None => None end.
Proof.
  rewrite wire_run_app. destruct (wire_run q l) as [q1|]; [|reflexivity].
  cbn [wire_run]. destruct (wire_step q1 k); reflexivity.
Qed.

Lemma wire_run_W0_nil l : wire_run W0 l = Some W0 -> l = [].
Proof.
  destruct l as [|k r]; [reflexivity|]. rewrite wire_run_init.
  destruct (wire_open (k :: r)); [discriminate|]. destruct (wire_ok (k :: r)); discriminate.
Qed.

Lemma wire_run_end_ok l : wire_run W0 l = Some WEnd -> wire_ok l = true.
Proof. apply wire_ok_run. Qed.

Lemma wire_run_mid_open l : wire_run W0 l = Some WMid -> wire_open l = true /\ l <> [].
Proof.
  destruct l as [|k r]; [discriminate|]. rewrite wire_run_init.
  destruct (wire_open (k :: r)); [intros _; split; [reflexivity | discriminate]|].
  destruct (wire_ok (k :: r)); discriminate.
Qed.
