(* Proofs about Model/Cancel.v (property C14, clause d): which events end a handler's
   context, for every option combination and every interleaving of the model's steps.
   The cancel path is summarised once (ctx_err_shape); what one step does to a field is a
   statement of its own (hctx_step, cctx_step, cres_step, dl_step); the invariants follow. *)
From Coq Require Import ZArith List Bool Lia.
From Verif Require Import Base.Wrap Base.Wire Gen.GenConsts Gen.GenTTL Model.Cancel.
Import ListNotations.
Local Open Scope Z_scope.

Definition all_on (c : cfg) : bool := send_cancel c && all_true (hops c) && srv_prop c.

Lemma run_snoc c ls l : run c (ls ++ [l]) = step c (run c ls) l.
Proof. unfold run. rewrite fold_left_app. reflexivity. Qed.

Lemma direct_all_true c : direct c = true -> all_true (hops c) = true.
Proof. unfold direct, all_true. destruct (hops c); [reflexivity|discriminate]. Qed.

Lemma gce1 : GetContextError 1 = c_ErrCodeTimeout. Proof. reflexivity. Qed.
Lemma gce2 : GetContextError 2 = c_ErrCodeCancelled. Proof. reflexivity. Qed.

Lemma all_on_intro c : send_cancel c = true -> all_true (hops c) = true -> srv_prop c = true -> all_on c = true.
Proof. unfold all_on. intros -> -> ->. reflexivity. Qed.

Lemma all_on_elim c : all_on c = true -> send_cancel c = true /\ all_true (hops c) = true /\ srv_prop c = true.
Proof. unfold all_on. intros H. apply andb_true_iff in H as [H H3]. apply andb_true_iff in H as [H1 H2]. auto. Qed.

Ltac break_if :=
  match goal with
  | |- context [if ?b then _ else _] =>
      lazymatch b with
      | context [if _ then _ else _] => fail
      | _ => let E := fresh "E" in destruct b eqn:E
      end
  end.

(* a field of an updated state; the state itself stays a variable *)
Ltac fld :=
  cbn [cctx cres begun req_sent req_closed cancel_notified cancels_sent resp_read
       relay_alive conn_failed resp_avail resp_final hstarted hctx mex_reg resp_failed
       resp_done requested honored dl_passed
       set_cctx set_cres set_begun set_req_sent set_req_closed set_cancel_notified
       set_cancels_sent set_resp_read set_relay_alive set_conn_failed set_resp_avail
       set_resp_final set_hstarted set_hctx set_mex_reg set_resp_failed set_resp_done
       set_requested set_honored set_dl_passed] in *.

Ltac bool_norm :=
  repeat match goal with
  | H : _ && _ = true |- _ => apply andb_true_iff in H; destruct H
  | H : _ || _ = false |- _ => apply orb_false_iff in H; destruct H
  | H : negb _ = true |- _ => apply negb_true_iff in H
  | H : negb _ = false |- _ => apply negb_false_iff in H
  | H : (_ =? _) = true |- _ => apply Z.eqb_eq in H
  | H : (_ =? _) = false |- _ => apply Z.eqb_neq in H
  | H : (_ <? _) = true |- _ => apply Z.ltb_lt in H
  | H : (_ <? _) = false |- _ => apply Z.ltb_ge in H
  | H : false = true |- _ => discriminate H
  end.

(* A caller operation that finds its context ended writes the caller's result and at most
   seven more fields; the handler's context and registration change only together, only from
   "registered, live" to "cancelled", and only when the cancel message is sent, forwarded by
   every hop and honoured by the server. *)
Lemma ctx_err_shape c s : exists n k r h a x m,
  caller_ctx_err c s =
    set_cres (Some (GetContextError (cctx s)))
      (set_mex_reg m (set_hctx x (set_relay_alive a (set_honored h (set_requested r
        (set_cancels_sent k (set_cancel_notified n s))))))) /\
  (x = hctx s /\ m = mex_reg s \/
   all_on c = true /\ cctx s = 2 /\ mex_reg s = true /\ hctx s = 0 /\ x = 2 /\ m = false).
Proof.
  unfold caller_ctx_err, notify_cancel, travel_cancel, server_cancel.
  destruct s. fld. repeat (break_if; fld).
  all: do 7 eexists; (split; [unfold set_cres; fld; reflexivity|]).
  all: try (left; split; reflexivity).
  all: right; bool_norm; repeat split; auto using all_on_intro, direct_all_true.
Qed.

(* every branch of one step; the cancel path stays folded and is read through ctx_err_shape
   ([Hx]: what it did to the handler's context) *)
Ltac step_branches c s l Hx :=
  let Q := fresh "Q" in
  destruct (ctx_err_shape c s) as (? & ? & ? & ? & ? & ? & ? & Q & Hx);
  destruct l; unfold step, caller_write, handler_write, deliver_request;
  repeat (break_if; fld); rewrite ?Q; clear Q; fld; bool_norm.

Lemma hctx_step c s l :
  hctx (step c s l) = hctx s \/
  hctx s = 0 /\
  (l = LDeadline /\ hctx (step c s l) = 1 \/
   hctx (step c s l) = 2 /\
   (l = LHClose \/ l = LHBlackhole \/ l = LConnFail \/
    all_on c = true /\ cctx s = 2 /\ (l = LWFrag \/ l = LWClose \/ l = LRead))).
Proof.
  step_branches c s l Hx; auto.
  all: try (destruct Hx as [[-> _]|(A & B & _ & C & -> & _)]; [left; reflexivity|]).
  all: right; split; [assumption|auto 12].
Qed.

Lemma cctx_step c s l :
  cctx (step c s l) = cctx s \/
  cctx s = 0 /\ (l = LCancel /\ cctx (step c s l) = 2 \/ l = LDeadline /\ cctx (step c s l) = 1).
Proof. step_branches c s l Hx; auto. Qed.

Lemma dl_step c s l : dl_passed (step c s l) = dl_passed s \/ l = LDeadline.
Proof. step_branches c s l Hx; auto. Qed.

Lemma cres_step c s l :
  cres (step c s l) = cres s \/
  cres (step c s l) = Some c_ErrCodeTimeout /\ dl_passed s = true \/
  cres (step c s l) = Some (GetContextError (cctx s)) /\ cctx s <> 0 \/
  In (cres (step c s l)) [Some e_network; Some e_blocked; Some 0].
Proof. step_branches c s l Hx; cbn [In]; auto 8. Qed.

Lemma ctx_sticky c s l :
  (hctx s <> 0 -> hctx (step c s l) = hctx s) /\ (cctx s <> 0 -> cctx (step c s l) = cctx s).
Proof.
  split; intros H; [destruct (hctx_step c s l) as [E|[E _]]|destruct (cctx_step c s l) as [E|[E _]]];
    solve [exact E|contradiction].
Qed.

Definition hctx_caused (c : cfg) (ls : list label) (h : Z) : Prop :=
  (h = 0 \/ h = 1 \/ h = 2) /\
  (h = 1 -> In LDeadline ls) /\
  (h = 2 -> In LHClose ls \/ In LHBlackhole ls \/ In LConnFail ls \/ (In LCancel ls /\ all_on c = true)).

Definition cctx_caused (ls : list label) (v : Z) : Prop :=
  (v = 0 \/ v = 1 \/ v = 2) /\ (v = 1 -> In LDeadline ls) /\ (v = 2 -> In LCancel ls).

Definition cres_caused (ls : list label) (r : option Z) : Prop :=
  (r = Some c_ErrCodeTimeout -> In LDeadline ls) /\ (r = Some c_ErrCodeCancelled -> In LCancel ls).

Definition causes_ok (c : cfg) (ls : list label) (s : st) : Prop :=
  hctx_caused c ls (hctx s) /\ cctx_caused ls (cctx s) /\ cres_caused ls (cres s) /\
  (dl_passed s = true -> In LDeadline ls).

Lemma in_snoc_l {A} (x y : A) ls : In x ls -> In x (ls ++ [y]).
Proof. intros H. apply in_or_app. left. exact H. Qed.

Lemma in_snoc_r {A} (x : A) ls : In x (ls ++ [x]).
Proof. apply in_or_app. right. left. reflexivity. Qed.

#[local] Hint Resolve in_snoc_l in_snoc_r : c14.

(* field by field: an unchanged field keeps its cause, a changed one names the label that is
   being appended, or (the cancel path) rests on the cause of the caller's context *)
Lemma causes_step c ls s l : causes_ok c ls s -> causes_ok c (ls ++ [l]) (step c s l).
Proof.
  intros ((H0 & H1 & H2) & (C0 & C1 & C2) & (R1 & R2) & D).
  split; [|split; [|split]].
  - destruct (hctx_step c s l) as [->|(Z0 & [(-> & ->)|(-> & K)])].
    + repeat split; intros; auto with c14.
      destruct H2 as [K|[K|[K|[K ?]]]]; auto 6 with c14.
    + repeat split; intros; auto with c14; discriminate.
    + repeat split; intros; auto; try discriminate.
      destruct K as [->|[->|[->|(A & B & _)]]]; auto 8 with c14.
  - destruct (cctx_step c s l) as [->|(Z0 & [(-> & ->)|(-> & ->)])];
      repeat split; intros; auto with c14; discriminate.
  - destruct (cres_step c s l) as [->|[(-> & K)|[(-> & K)|K]]].
    + split; auto with c14.
    + split; intros; [auto with c14|discriminate].
    + destruct C0 as [K0|[K0|K0]]; [contradiction| |]; rewrite K0; split; intros; auto with c14; discriminate.
    + destruct K as [<-|[<-|[<-|[]]]]; split; intros; discriminate.
  - destruct (dl_step c s l) as [->| ->]; auto with c14.
Qed.
