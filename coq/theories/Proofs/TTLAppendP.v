(* Proofs about Model/TTLAppend.v: the ttl field of a relayed call req on both send paths of
   Relayer.handleCallReq (forward-as-is and arg2 append / re-fragmentation) is the clamped one
   of Model/TTL.v (C14 clause c). *)
From Coq Require Import ZArith List Bool Lia.
From Verif Require Import Base.Wrap Base.Bytes Base.Wire Gen.GenConsts Gen.GenFrame Gen.GenTTL
  Model.TypedBuf Model.Messages Model.Crc Model.Frag Model.FragWire Spec.FragOk Model.RelayLazy
  Model.Codecs Model.RelayAppend Model.TTL Model.TTLAppend Spec.Protocol Spec.FragSpec Spec.RelaySpec
  Proofs.CodecP Proofs.CodecsP Proofs.FragWP Proofs.RelayFwdP Proofs.RelayAppendP Proofs.TTLP.
Import ListNotations.
Local Open Scope Z_scope.

(* a call req the lazy parser accepts: the checksum type lies beyond the ttl *)
Lemma lazy_callreq_ctoff p lz : lazy_callreq p = (0, lz) -> zlen p <= 65535 ->
  31 <= lz_ctoff lz <= zlen p.
Proof.
  intros H Hl. destruct (lazy_callreq_reads p lz H) as (rest & L & ->).
  unfold zlen in *. rewrite wrapU_id; lia.
Qed.

(* SetTTL in the frame = the clamp of Model/TTL.v *)
Lemma valid_max_ok m : valid_max m -> max_ok m /\ Z.quot m ms_ns = m / ms_ns.
Proof.
  unfold valid_max, max_ok. rewrite ms_pos, p32. intros V.
  Z.to_euclidean_division_equations. lia.
Qed.

Lemma clamp_is_relay_ttl m p : valid_max m -> bytes_ok p = true -> 5 <= zlen p ->
  lazy_ttl_ms (clamp_ttl m p) = snd (relay_ttl m (lazy_ttl_ms p)) /\
  is_u32 (lazy_ttl_ms p) /\
  zlen (clamp_ttl m p) = zlen p /\ bytes_ok (clamp_ttl m p) = true.
Proof.
  intros V Hb Hl. destruct (valid_max_ok m V) as [Mo Eq].
  pose proof (ttl_range p Hb Hl) as Ht. rewrite <- lazy_ttl_is_spec in Ht.
  assert (U : is_u32 (lazy_ttl_ms p)) by exact Ht.
  destruct (set_ttl_field_valid m V) as [_ [Q Lq]].
  rewrite (clamp_ttl_spec m p Mo Hb Hl), Eq.
  split.
  - rewrite lazy_ttl_is_spec, sp_clamp_ttl by (try assumption; lia).
    rewrite <- lazy_ttl_is_spec.
    destruct (relay_ttl_spec m (lazy_ttl_ms p) V U) as [_ [S _]]. rewrite S.
    pose proof (Z.mul_succ_div_gt m ms_ns ltac:(rewrite ms_pos; lia)) as G.
    rewrite ms_pos in *. unfold is_u32 in U.
    destruct (lazy_ttl_ms p * 1000000 >? m) eqn:C; nia.
  - split; [exact U|]. split; [apply sp_clamp_len, Hl|apply sp_clamp_bytes_ok, Hb].
Qed.

Lemma ttl_of_prefixed (x : Z) (pre rest : list Z) : (4 <= length pre)%nat ->
  lazy_ttl_ms ([x] ++ pre ++ rest) = unbe (firstn 4 pre).
Proof.
  intros L. rewrite lazy_ttl_is_spec. unfold sp_ttl. cbn [app skipn].
  rewrite firstn_app. replace (4 - length pre)%nat with 0%nat by lia.
  cbn [firstn]. rewrite app_nil_r. reflexivity.
Qed.

Lemma slice_ttl_prefix p hi : 5 <= hi <= zlen p -> firstn 4 (slice p 1 hi) = firstn 4 (skipn 1 p) /\ (4 <= length (slice p 1 hi))%nat.
Proof.
  intros H. unfold slice, zlen in *. change (Z.to_nat 1) with 1%nat.
  split.
  - rewrite firstn_firstn. replace (Init.Nat.min 4 (Z.to_nat (hi - 1))) with 4%nat by lia. reflexivity.
  - rewrite firstn_length, skipn_length. lia.
Qed.

Lemma frag_payloads_cont fl pre fs : Forall (fun x => fst x = false) (relay_frag_payloads fl pre false fs).
Proof. induction fs as [|f r IH]; cbn [relay_frag_payloads]; constructor; [reflexivity|exact IH]. Qed.

Lemma frag_payloads_initial fl pre fs pl : In (true, pl) (relay_frag_payloads fl pre true fs) ->
  exists f r, fs = f :: r /\ pl = relay_frag_payload fl pre true f.
Proof.
  destruct fs as [|f r]; cbn [relay_frag_payloads]; [intros []|].
  intros [E|I].
  - inversion E. exists f, r. split; reflexivity.
  - exfalso. pose proof (frag_payloads_cont fl pre r) as F. rewrite Forall_forall in F.
    specialize (F _ I). discriminate F.
Qed.

(* fragmentingSend: a successful send yields the frames of relay_frag_payloads over the frame's own prefix *)
Lemma append_send_frames p lz appends ck frames ck' :
  append_send p lz appends ck = (0, frames, ck') ->
  exists fs, frames = relay_frag_payloads (nth 0 p 0) (slice p 1 (lz_ctoff lz)) true fs.
Proof.
  unfold append_send.
  destruct (lz_a2frag lz); [discriminate|].
  destruct (negb (bytes_eqb (lz_as lz) c_Thrift)); [discriminate|].
  destruct (relay_capf lz ck true - (c_chunkHeaderSize + zlen (lz_method lz)) <? 0); [discriminate|].
  destruct (relay_capf lz ck true - (c_chunkHeaderSize + zlen (lz_method lz)) <=? c_chunkHeaderSize); [discriminate|].
  destruct (zlen (lz_arg2 p lz) <? 2); [discriminate|].
  destruct (w_run _ _ _ _) as [[codes st]|]; [|discriminate].
  intros E. inversion E. exists (ws_out st). reflexivity.
Qed.

Theorem tfwd_ttl_clamped : forall cfg p appends,
  is_duration cfg -> bytes_ok p = true -> zlen p <= c_MaxFramePayloadSize ->
  let m := relay_max cfg in
  let out := snd (tfwd_callreq m p appends) in
  (* every call req frame handed to the destination carries the clamped ttl ... *)
  (forall pl, In (true, pl) out ->
     lazy_ttl_ms pl = snd (relay_ttl m (lazy_ttl_ms p)) /\ is_u32 (lazy_ttl_ms p)) /\
  (* ... and only the first frame is a call req (continuations have no ttl field) *)
  (forall f rest, out = f :: rest -> Forall (fun x => fst x = false) rest).
Proof.
  intros cfg p appends D Hb Hl m out. subst out.
  pose proof (relay_max_valid cfg D) as V. fold m in V.
  unfold tfwd_callreq.
  destruct (lazy_callreq p) as [code lz] eqn:EL.
  destruct (code =? 0) eqn:Ec; cbn [negb snd].
  2:{ split; [intros pl []|intros f rest E; discriminate E]. }
  assert (code = 0) by lia. subst code.
  unfold c_MaxFramePayloadSize, c_MaxFrameSize, c_FrameHeaderSize in Hl.
  destruct (lazy_callreq_ctoff p lz EL ltac:(lia)) as [C1 C2].
  destruct (clamp_is_relay_ttl m p V Hb ltac:(lia)) as [T [U [Zl Bo]]].
  destruct appends as [|a appends].
  - cbn [snd]. split.
    + intros pl [E|[]]. inversion E. subst pl. split; [exact T|exact U].
    + intros f rest E. inversion E. constructor.
  - destruct (ck_new (lz_ctype lz)) as [ck|]; cbn [snd].
    2:{ split; [intros pl []|intros f rest E; discriminate E]. }
    destruct (append_send (clamp_ttl m p) lz (a :: appends) ck) as [[acode frames] ck'] eqn:EA.
    cbn [snd]. destruct (acode =? 0) eqn:Ea.
    2:{ split; [intros pl []|intros f rest E; discriminate E]. }
    assert (acode = 0) by lia. subst acode.
    destruct (append_send_frames _ _ _ _ _ _ EA) as [fs ->].
    destruct (slice_ttl_prefix (clamp_ttl m p) (lz_ctoff lz) ltac:(lia)) as [S1 S2].
    split.
    + intros pl I. destruct (frag_payloads_initial _ _ _ _ I) as (f & r & _ & ->).
      split; [|exact U].
      unfold relay_frag_payload. rewrite (ttl_of_prefixed _ _ _ S2), S1.
      rewrite <- T. rewrite lazy_ttl_is_spec. reflexivity.
    + intros f rest E. destruct fs as [|f0 r0]; cbn [relay_frag_payloads] in E; [discriminate E|].
      inversion E. apply frag_payloads_cont.
Qed.

Lemma tfwd_first_in r pl : tfwd_first r = Some pl -> In (true, pl) (snd r).
Proof.
  unfold tfwd_first. destruct (snd r) as [|[[|] q] rest]; try discriminate.
  intros E. inversion E. left. reflexivity.
Qed.

Lemma tfwd_hops_core : forall hops p p',
  Forall (fun h => is_duration (fst h)) hops ->
  tfwd_hops hops p = Some p' ->
  lazy_ttl_ms p' = hops_ttl (map fst hops) (lazy_ttl_ms p) /\ (hops <> [] -> is_u32 (lazy_ttl_ms p)).
Proof.
  induction hops as [|[cfg app] r IH]; intros p p' D H; cbn [tfwd_hops map hops_ttl fst] in *.
  - inversion H. split; [reflexivity|]. intros N. exfalso. apply N. reflexivity.
  - inversion D as [|? ? Dc Dr]; subst. cbn [fst] in Dc.
    destruct (tfwd_frame_ok p) eqn:F; [|discriminate H].
    unfold tfwd_frame_ok in F. apply andb_true_iff in F as [Fb Fl].
    destruct (tfwd_first (tfwd_callreq (relay_max cfg) p app)) as [p1|] eqn:E1; [|discriminate H].
    destruct (tfwd_ttl_clamped cfg p app Dc Fb ltac:(lia)) as [T _].
    destruct (T p1 (tfwd_first_in _ _ E1)) as [T1 U].
    destruct (IH p1 p' Dr H) as [I1 _].
    split; [rewrite I1, T1; reflexivity|]. intros _. exact U.
Qed.

Theorem tfwd_hops_ttl : forall hops p p',
  Forall (fun h => is_duration (fst h)) hops -> hops <> [] ->
  tfwd_hops hops p = Some p' ->
  let f := lazy_ttl_ms p in
  is_u32 f /\ lazy_ttl_ms p' = hops_ttl (map fst hops) f /\
  lazy_ttl_ms p' <= f /\
  Forall (fun h => lazy_ttl_ms p' * ms_ns <= relay_max (fst h)) hops.
Proof.
  intros hops p p' D N H f. subst f.
  destruct (tfwd_hops_core hops p p' D H) as [E U]. specialize (U N).
  assert (D' : Forall is_duration (map fst hops)).
  { rewrite Forall_forall in *. intros x I. apply in_map_iff in I as [h [<- Ih]]. apply D, Ih. }
  destruct (hops_ttl_spec (map fst hops) (lazy_ttl_ms p) D' U) as [_ [Le F]].
  split; [exact U|]. split; [exact E|]. rewrite E. split; [exact Le|].
  rewrite Forall_forall in *. intros h Ih. apply F. apply in_map, Ih.
Qed.

(* the append path does forward (canonical call reqs) *)
Lemma lazy_callreq_sp_clamp x p : 30 <= zlen p -> lazy_callreq (sp_clamp x p) = lazy_callreq p.
Proof.
  intros Hl. set (p' := sp_clamp x p).
  assert (Zl : zlen p' = zlen p) by (apply sp_clamp_len; lia).
  assert (N0 : nth 0 p' 0 = nth 0 p 0).
  { subst p'. unfold sp_clamp. destruct p as [|f t]; [unfold zlen in Hl; cbn in Hl; lia|]. reflexivity. }
  assert (S30 : skipn 30 p' = skipn 30 p).
  { subst p'. unfold sp_clamp.
    assert (L1 : length (firstn 1 p) = 1%nat) by (unfold zlen in Hl; rewrite firstn_length; lia).
    change 30%nat with (1 + (4 + 25))%nat. rewrite <- !skipn_skipn_add.
    rewrite (skipn_app_exact (firstn 1 p) _ 1 L1).
    rewrite (skipn_app_exact (be 4 _) _ 4 (be_length 4 _)).
    rewrite !skipn_skipn_add. reflexivity. }
  assert (R : forall q, 30 <= zlen q -> r_bytes 30 (rb q) = (firstn 30 q, mkR (skipn 30 q) false)).
  { intros q Hq. unfold r_bytes, rb. cbn [rerr rrem].
    replace (length q <? 30)%nat with false; [reflexivity|]. symmetry. apply Nat.ltb_ge. unfold zlen in Hq. lia. }
  unfold lazy_callreq. change (Z.to_nat c_u_serviceLenIndex) with 30%nat.
  rewrite (R p' ltac:(lia)), (R p Hl), S30. unfold bytes_read. rewrite Zl, N0. reflexivity.
Qed.

Lemma sp_clamp_callreq_first x flags ttl tr service hdrs ct ckb a1 a2 a3 : 0 <= ttl < 2 ^ 32 ->
  sp_clamp x (callreq_first flags ttl tr service hdrs ct ckb a1 a2 a3)
  = callreq_first flags (Z.min ttl x) tr service hdrs ct ckb a1 a2 a3 /\
  sp_ttl (callreq_first flags ttl tr service hdrs ct ckb a1 a2 a3) = ttl.
Proof.
  intros U. unfold callreq_first, s_callreq. rewrite <- !app_assoc.
  set (rest := tr ++ _).
  change ([flags] ++ be 4 ttl ++ rest) with (flags :: be 4 ttl ++ rest).
  unfold sp_clamp, sp_ttl.
  change (skipn 1 (flags :: be 4 ttl ++ rest)) with (be 4 ttl ++ rest).
  change (firstn 1 (flags :: be 4 ttl ++ rest)) with [flags].
  change (skipn 5 (flags :: be 4 ttl ++ rest)) with (skipn 4 (be 4 ttl ++ rest)).
  rewrite (firstn_app_exact (be 4 ttl) rest 4 (be_length 4 ttl)).
  rewrite (skipn_app_exact (be 4 ttl) rest 4 (be_length 4 ttl)).
  rewrite unbe_be by (change (256 ^ Z.of_nat 4) with (2 ^ 32); exact U).
  split; reflexivity.
Qed.

Theorem tfwd_append_forwards : forall cfg flags ttl tr service hdrs ct ckb a1 h a3 a appends ck0,
  is_duration cfg -> is_u32 ttl ->
  first_ok tr service hdrs ct ckb a1 (s_theaders h) a3 ->
  let p := callreq_first flags ttl tr service hdrs ct ckb a1 (s_theaders h) a3 in
  bytes_ok p = true -> zlen p <= c_MaxFramePayloadSize ->
  hs_as (hsel_fold hdrs (mkHsel [] [] [] [])) = c_Thrift ->
  ck_new ct = Some ck0 ->
  kvs16_ok h -> kvs16_ok (a :: appends) -> zlen h + zlen (a :: appends) <= 65535 ->
  let m := relay_max cfg in
  exists pl rest,
    tfwd_callreq m p (a :: appends) = (0, (true, pl) :: rest) /\
    Forall (fun x => fst x = false) rest /\
    lazy_ttl_ms p = ttl /\
    lazy_ttl_ms pl = snd (relay_ttl m ttl) /\
    lazy_ttl_ms pl <= ttl /\ lazy_ttl_ms pl * ms_ns <= m.
Proof.
  intros cfg flags ttl tr service hdrs ct ckb a1 h a3 a appends ck0 D U Hf p Hb Hl Has Hck Hh Ha Hsum m.
  pose proof (relay_max_valid cfg D) as V. fold m in V.
  destruct (valid_max_ok m V) as [Mo Eq].
  destruct (sp_clamp_callreq_first (Z.quot m ms_ns) flags ttl tr service hdrs ct ckb a1 (s_theaders h) a3 U) as [Ec Et].
  fold p in Ec, Et.
  destruct (lazy_callreq_layout flags ttl tr service hdrs ct ckb a1 (s_theaders h) a3 Hf Hl)
    as (lz0 & EL0 & _ & Ect & _). fold p in EL0.
  assert (H30 : 31 <= zlen p).
  { unfold c_MaxFramePayloadSize, c_MaxFrameSize, c_FrameHeaderSize in Hl.
    destruct (lazy_callreq_ctoff p lz0 EL0 ltac:(lia)). lia. }
  assert (Ecl : clamp_ttl m p = sp_clamp (Z.quot m ms_ns) p) by (apply clamp_ttl_spec; [exact Mo|exact Hb|lia]).
  set (ttl' := Z.min ttl (Z.quot m ms_ns)) in *.
  assert (Zl : zlen (clamp_ttl m p) = zlen p) by (rewrite Ecl; apply sp_clamp_len; lia).
  (* C08's theorem on the clamped frame *)
  destruct (relay_append_correct flags ttl' tr service hdrs ct ckb a1 h a3 (a :: appends) ck0 Hf
              ltac:(rewrite <- Ec, <- Ecl, Zl; exact Hl) Has Hck Hh Ha Hsum)
    as (lz & fs & EL & EA & Dn & _).
  rewrite <- Ec, <- Ecl in EL, EA.
  assert (ELp : lazy_callreq p = (0, lz)).
  { rewrite <- EL, Ecl. symmetry. apply lazy_callreq_sp_clamp. lia. }
  rewrite ELp in EL0. inversion EL0; subst lz0.
  (* at least one frame *)
  destruct fs as [|f0 r0]; [vm_compute in Dn; discriminate Dn|].
  cbn [relay_frag_payloads] in EA.
  exists (relay_frag_payload flags (s_callreq ttl' tr service hdrs) true f0),
         (relay_frag_payloads flags (s_callreq ttl' tr service hdrs) false r0).
  assert (ET : tfwd_callreq m p (a :: appends)
               = (0, (true, relay_frag_payload flags (s_callreq ttl' tr service hdrs) true f0)
                     :: relay_frag_payloads flags (s_callreq ttl' tr service hdrs) false r0)).
  { unfold tfwd_callreq. rewrite ELp. cbn [negb Z.eqb]. rewrite Ect, Hck, EA. reflexivity. }
  split; [exact ET|]. split; [apply frag_payloads_cont|].
  split; [rewrite lazy_ttl_is_spec; exact Et|].
  destruct (tfwd_ttl_clamped cfg p (a :: appends) D Hb Hl) as [T _]. fold m in T.
  rewrite ET in T. cbn [snd] in T.
  destruct (T _ (or_introl eq_refl)) as [T1 _].
  rewrite (lazy_ttl_is_spec p), Et in T1.
  split; [exact T1|]. rewrite T1.
  destruct (relay_ttl_spec m ttl V U) as [_ [_ [_ [Le [Lm _]]]]].
  split; assumption.
Qed.

Print Assumptions tfwd_ttl_clamped.
Print Assumptions tfwd_hops_ttl.
Print Assumptions tfwd_append_forwards.

(* the statement of C14 (c) for every call req frame a relay hands on, whichever path it took *)
Theorem tfwd_ttl_statement : forall cfg p appends pl,
  is_duration cfg -> bytes_ok p = true -> zlen p <= c_MaxFramePayloadSize ->
  let m := relay_max cfg in
  In (true, pl) (snd (tfwd_callreq m p appends)) ->
  let f := lazy_ttl_ms p in
  is_u32 f /\ lazy_ttl_ms pl = snd (relay_ttl m f) /\
  lazy_ttl_ms pl <= f /\ lazy_ttl_ms pl * ms_ns <= m /\
  lazy_ttl_ms pl = (if f * ms_ns >? m then m / ms_ns else f).
Proof.
  intros cfg p appends pl D Hb Hl m I f.
  destruct (tfwd_ttl_clamped cfg p appends D Hb Hl) as [T _]. fold m in T.
  destruct (T pl I) as [T1 U]. fold f in T1, U.
  destruct (relay_ttl_spec m f (relay_max_valid cfg D) U) as [_ [S [_ [Le [Lm _]]]]].
  split; [exact U|]. split; [exact T1|]. rewrite T1. split; [exact Le|]. split; [exact Lm|exact S].
Qed.
Print Assumptions tfwd_ttl_statement.
