(* Proofs about Model/C07CloseStop.v: the optional components a closing channel stops. *)
From Coq Require Import ZArith List Bool Lia Arith.
From Verif Require Import Base.Wrap Base.Wire Gen.GenConsts Model.CloseKernel Model.ChanClose Model.C07CloseStop
  Proofs.CloseKernelP Proofs.ChanCloseP.
Import ListNotations.
Local Open Scope Z_scope.

Definition xchst (s : xsys) : Z := chst (csh (xb s)).

(* "some Close has got through its locked region": the channel state is at StartClose or beyond *)
Definition called (s : xsys) : bool := hSC <=? xchst s.

(* the label runs the locked region of a Channel.Close *)
Definition closing (b : csys) (l : clabel) : bool :=
  match l with
  | LRunC tid _ => match nth_error (cthr b) tid with Some PCl1 => true | _ => false end
  | _ => false
  end.

(* ---------- the locked region of Close is the only step that crosses StartClose ---------- *)
Lemma ctstep_called : forall s p arg s' p', I_ch s -> A_ch s p -> ctstep s p arg = Some (s', p') ->
  p' <> PCl1 /\ p' <> CDone oClosePanic /\
  match p with
  | PCl1 => hSC <= chst s'
  | _ => (hSC <=? chst s') = (hSC <=? chst s)
  end.
Proof.
  intros s p arg s' p' (Hr & _) HA H.
  ctstep_inv H; cbn [A_ch] in *; (split; [discriminate|split; [discriminate|]]); auto; zprop; try (cconsts; lia).
  (* PCb5 applies its update at StartClose or beyond; Serve takes Client to Listening *)
  all: transitivity true; [apply Z.leb_le|symmetry; apply Z.leb_le]; cconsts; lia.
Qed.

Lemma cstep_called : forall b l b', ch_Inv b -> cstep b l = Some b' ->
  chst (csh b) <= chst (csh b') /\ closing b' l = false /\
  (forall n o, nth_error (cthr b') n = Some (CDone o) -> nth_error (cthr b) n = Some (CDone o) \/ o <> oClosePanic) /\
  (if closing b l then hSC <= chst (csh b') else (hSC <=? chst (csh b')) = (hSC <=? chst (csh b))).
Proof.
  intros b l b' HI H. destruct (ch_step b l b' HI H) as [(Hg & _) _]. split; [exact Hg|]. destruct HI as [HI HA].
  assert (Snoc : forall p n o, (forall o', p <> CDone o') -> nth_error (cthr b ++ [p]) n = Some (CDone o) ->
            nth_error (cthr b) n = Some (CDone o) \/ o <> oClosePanic).
  { intros p n o Hp Hn. apply nth_error_snoc in Hn. destruct Hn as [[_ Hn]|[_ Hn]]; [auto|]. destruct (Hp _ (eq_sym Hn)). }
  destruct (cstep_inv _ _ _ H) as [Hc Hl|c v Hc Hlt Hv| |c Hc|l p Hp|tid arg p sh' p' Ep Et]; cbn [closing csh cthr]; cfields.
  - rewrite Hc. auto.
  - auto.
  - split; [reflexivity|]. split; [|reflexivity]. intros n o. apply Snoc. discriminate.
  - split; [reflexivity|]. split; [|reflexivity]. intros n o. apply Snoc. discriminate.
  - split; [destruct Hp as [E|[E|[E|E]]]; injection E as -> _; reflexivity|]. split.
    + intros n o. apply Snoc. destruct Hp as [E|[E|[E|E]]]; injection E as _ ->; discriminate.
    + destruct Hp as [E|[E|[E|E]]]; injection E as -> _; reflexivity.
  - destruct (ctstep_called _ _ _ _ _ HI (HA _ _ Ep) Et) as (Hn1 & Hn2 & Hk).
    rewrite Ep, nth_error_upd_same by (eapply nth_error_lt; eauto). split; [destruct p'; congruence|]. split.
    + intros n o Hn. apply nth_error_upd in Hn. destruct Hn as [[_ Hn]|[_ Hn]]; [right; congruence|auto].
    + destruct p; exact Hk.
Qed.

(* ---------- the invariant of the extended system ---------- *)
Definition XInv (iv : Z) (s : xsys) : Prop :=
  Reach cstep cinit (xb s) /\ x_panics s = 0 /\
  (forall n o, nth_error (cthr (xb s)) n = Some (CDone o) -> o <> oClosePanic) /\
  sw_started (xw s) = (0 <? iv) && negb (called s) /\
  sw_closes (xw s) = (if (0 <? iv) && called s then 1 else 0).

Lemma xinit_inv : forall iv, XInv iv (xinit iv).
Proof.
  intros iv. unfold XInv, xinit, called, xchst, sweep_start. cbn [xb xw x_panics sw_started sw_closes].
  split; [apply reach_init|]. split; [reflexivity|]. split; [intros [|n] o H; discriminate|].
  replace (hSC <=? chst (csh cinit)) with false by reflexivity. rewrite Z.leb_antisym.
  destruct (0 <? iv); split; reflexivity.
Qed.

(* Stop on a sweeper in the state the invariant describes: no panic, and afterwards it is stopped *)
Lemma sweep_stop_inv : forall (on c : bool) w,
  sw_started w = on && negb c -> sw_closes w = (if on && c then 1 else 0) ->
  exists w', sweep_stop w = Some w' /\ sw_started w' = false /\ sw_closes w' = (if on then 1 else 0).
Proof.
  intros on c [st0 cl0] Hs Hc. cbn [sw_started sw_closes] in *. subst. unfold sweep_stop, sweep_stop_v.
  destruct on, c; cbn; eexists; repeat split.
Qed.

Lemma xstep_lift : forall keep s l, closing (xb s) l = false -> xstep_v keep s l = xlift s (cstep (xb s) l).
Proof.
  intros keep s l H. destruct l; try reflexivity. cbn [closing xstep_v] in *.
  destruct (nth_error (cthr (xb s)) tid) as [[]|]; (reflexivity || discriminate).
Qed.

Lemma closing_true : forall b l, closing b l = true -> exists tid arg, l = LRunC tid arg /\ nth_error (cthr b) tid = Some PCl1.
Proof.
  intros b l H. destruct l; try discriminate. cbn [closing] in H. exists tid, arg.
  destruct (nth_error (cthr b) tid) as [[]|]; try discriminate. auto.
Qed.

Lemma xstep_props : forall iv s l s', XInv iv s -> xstep s l = Some s' ->
  XInv iv s' /\ xchst s <= xchst s' /\ closing (xb s') l = false /\
  called s' = called s || closing (xb s) l.
Proof.
  intros iv s l s' (HR & HP & HO & HS & HC) H. pose proof (ch_inv _ HR) as HI.
  assert (Lift : forall b', cstep (xb s) l = Some b' ->
            let s1 := mkXS b' (xw s) (x_lcloses s) (x_panics s) in
            Reach cstep cinit b' /\ xchst s <= xchst s1 /\ closing b' l = false /\
            (forall n o, nth_error (cthr b') n = Some (CDone o) -> o <> oClosePanic) /\
            (if closing (xb s) l then called s1 = true else called s1 = called s)).
  { intros b' Hs. destruct (cstep_called _ _ _ HI Hs) as (Hm & Hn & Ho & Hk).
    split; [eapply reach_step; eauto|]. split; [exact Hm|]. split; [exact Hn|]. split.
    - intros n o Hno. destruct (Ho n o Hno) as [Hold|Hne]; eauto.
    - unfold called, xchst. cbn [xb]. destruct (closing (xb s) l); [apply Z.leb_le|]; exact Hk. }
  destruct (closing (xb s) l) eqn:Ecl.
  - destruct (closing_true _ _ Ecl) as (tid & arg & -> & Ep). unfold xstep in H. cbn [xstep_v] in H. rewrite Ep in H.
    destruct (chst (csh (xb s)) =? hCl) eqn:Ecd.
    + (* the early return: the state is Closed, nothing is stopped *)
      destruct (cstep (xb s) (LRunC tid arg)) as [b'|] eqn:Es; [|discriminate]. injection H as <-.
      destruct (Lift b' eq_refl) as (L1 & L2 & L3 & L4 & L5). cbv zeta in *.
      assert (Hc : called s = true) by (unfold called, xchst; zprop; apply Z.leb_le; cconsts; lia).
      unfold XInv. cbn [xb xw x_panics]. rewrite L5, Hc in *. auto 10.
    + destruct (sweep_stop_inv _ _ _ HS HC) as (w' & Ew & Ws & Wc). fold sweep_stop in H. rewrite Ew in H.
      destruct (cstep (xb s) (LRunC tid arg)) as [b'|] eqn:Es; [|discriminate]. injection H as <-.
      destruct (Lift b' eq_refl) as (L1 & L2 & L3 & L4 & L5). cbv zeta in *. unfold called, xchst in L5. cbn [xb] in L5.
      unfold XInv, called, xchst. cbn [xb xw x_panics]. rewrite L5, Ws, Wc, orb_true_r, andb_false_r, andb_true_r. auto 10.
  - unfold xstep in H. rewrite xstep_lift in H by exact Ecl. unfold xlift in H.
    destruct (cstep (xb s) l) as [b'|] eqn:Es; [|discriminate]. injection H as <-.
    destruct (Lift b' eq_refl) as (L1 & L2 & L3 & L4 & L5). cbv zeta in *.
    unfold XInv. cbn [xb xw x_panics]. rewrite L5, orb_false_r. auto 10.
Qed.

Lemma xinv_reach : forall iv s, Reach xstep (xinit iv) s -> XInv iv s.
Proof.
  intros iv. apply reach_ind; [apply xinit_inv|].
  intros s l s' _ IH Hs. exact (proj1 (xstep_props iv s l s' IH Hs)).
Qed.

(* NO PANIC, and the channel theorems carry over.  For every interleaving of any number of Close
   calls with everything else the channel model does (connection moves, callbacks, new connections,
   Serve / ListenAndServe), with or without the idle sweeper: no Close ever panics, and the run of
   the extended system projects onto a run of the channel system of Model/ChanClose.v -- so every
   theorem about [Reach cstep cinit] (monotone, signal once, drain, reaches closed, no service after
   close) holds of the channel with its optional components. *)
Theorem c07stop_no_panic : forall iv s, Reach xstep (xinit iv) s ->
  x_panics s = 0 /\ Reach cstep cinit (xb s) /\
  (forall n o, nth_error (cthr (xb s)) n = Some (CDone o) -> o <> oClosePanic).
Proof. intros iv s HR. destruct (xinv_reach iv s HR) as (Hb & Hp & Ho & _). auto. Qed.

(* STOPPED EXACTLY ONCE.  In every reachable state: the poller is running (started, its stopCh
   open) exactly when the idle sweeper is configured and no Close has got through its locked region
   yet (state below StartClose); once the state is at StartClose or beyond the poller is stopped
   and its stopCh has been closed exactly once -- never a second time, however many Close calls
   there are and wherever they land. *)
Theorem c07stop_once : forall iv s, Reach xstep (xinit iv) s ->
  sw_started (xw s) = (0 <? iv) && negb (hSC <=? xchst s) /\
  sw_closes (xw s) = (if (0 <? iv) && (hSC <=? xchst s) then 1 else 0) /\
  0 <= sw_closes (xw s) <= 1.
Proof.
  intros iv s HR. destruct (xinv_reach iv s HR) as (_ & _ & _ & HS & HC). split; [exact HS|]. split; [exact HC|].
  rewrite HC. destruct ((0 <? iv) && called s); lia.
Qed.
(* the idle sweeper is off (default options): Stop is a no-op at every call *)
Corollary c07stop_default_options : forall iv s, iv <= 0 -> Reach xstep (xinit iv) s ->
  sw_started (xw s) = false /\ sw_closes (xw s) = 0.
Proof.
  intros iv s Hiv HR. destruct (c07stop_once iv s HR) as (HS & HC & _).
  assert (E : (0 <? iv) = false) by (apply Z.ltb_ge; lia). rewrite E in HS, HC. auto.
Qed.

(* the locked region of Channel.Close as one step: what it does to the listener counter, the
   sweeper, the state and the rest of the Close call is what [close_region] says *)
Theorem c07stop_region_step : forall keep s tid arg,
  nth_error (cthr (xb s)) tid = Some PCl1 ->
  let sh := csh (xb s) in
  let '(lcl, stops, st', cc) := close_region (lis sh) (zlen (conns sh)) (chst sh) in
  match (if stops =? 0 then Some (xw s) else sweep_stop_v keep (xw s)) with
  | None => exists s', xstep_v keep s (LRunC tid arg) = Some s' /\ x_panics s' = x_panics s + 1 /\
                       csh (xb s') = sh /\ nth_error (cthr (xb s')) tid = Some (CDone oClosePanic)
  | Some w' => exists s', xstep_v keep s (LRunC tid arg) = Some s' /\ x_panics s' = x_panics s /\
                       xw s' = w' /\ x_lcloses s' = x_lcloses s + lcl /\ chst (csh (xb s')) = st' /\
                       nth_error (cthr (xb s')) tid = Some (PCl2 (if (stops =? 0) || cc then [] else conns sh) cc)
  end.
Proof.
  intros keep s tid arg Ep. cbv zeta. unfold close_region, xstep_v. rewrite Ep.
  assert (Hl : forall (A : Type) (l : list A) (x : A), nth_error l tid = Some x -> (tid < length l)%nat).
  { intros A l x H. eapply nth_error_lt; eauto. }
  destruct (chst (csh (xb s)) =? hCl) eqn:Ecl.
  - cbn [Z.eqb]. cbn [cstep]. rewrite Ep. cbn [ctstep]. rewrite Ecl. cbn [xlift].
    eexists. split; [reflexivity|]. cbn [x_panics xw x_lcloses xb csh cthr].
    rewrite nth_error_upd_same by (eapply Hl; eauto).
    repeat split; lia.
  - replace (1 =? 0) with false by reflexivity.
    destruct (sweep_stop_v keep (xw s)) as [w'|] eqn:Ew.
    + cbn [cstep]. rewrite Ep. cbn [ctstep]. rewrite Ecl.
      destruct (conns (csh (xb s))) as [|c0 cs] eqn:Ec.
      * eexists. split; [reflexivity|]. cbn [x_panics xw x_lcloses xb csh cthr].
        rewrite nth_error_upd_same by (eapply Hl; eauto).
        replace (zlen [] =? 0) with true by reflexivity.
        repeat split; try reflexivity. destruct (lis (csh (xb s))); lia.
      * eexists. split; [reflexivity|]. cbn [x_panics xw x_lcloses xb csh cthr].
        rewrite nth_error_upd_same by (eapply Hl; eauto).
        assert (En : (zlen (c0 :: cs) =? 0) = false).
        { unfold zlen. cbn [length]. apply Z.eqb_neq. lia. }
        rewrite En. repeat split; try reflexivity.
        -- destruct (lis (csh (xb s))); lia.
        -- destruct (chst (csh (xb s)) <? hSC); reflexivity.
    + eexists. split; [reflexivity|]. cbn [x_panics xw x_lcloses xb csh cthr].
      rewrite nth_error_upd_same by (eapply Hl; eauto). repeat split; reflexivity.
Qed.

(* ---------- the wrong variant: Stop does not clear is.started ---------- *)
(* one connection, Close (StartClose: the connection is still open), a second Close: panic *)
Definition keep_started_witness : list clabel :=
  [LNewConn; LRunC 0 0; LClose; LRunC 1 0; LClose; LRunC 2 0].

Theorem c07stop_keep_started_refuted : exists s,
  run (xstep_v true) (xinit 1) keep_started_witness = Some s /\
  x_panics s = 1 /\ chst (csh (xb s)) = hSC /\ conns (csh (xb s)) = [0%nat] /\
  nth_error (cthr (xb s)) 2 = Some (CDone oClosePanic).
Proof. eexists. split; [vm_compute; reflexivity|]. vm_compute. repeat split. Qed.

(* the same schedule: on the model nothing panics; with the default options the variant is invisible *)
Lemma keep_started_witness_model :
  (exists s, run xstep (xinit 1) keep_started_witness = Some s /\ x_panics s = 0 /\ sw_closes (xw s) = 1 /\
             nth_error (cthr (xb s)) 2 = Some (PCl2 [0%nat] false)) /\
  (exists s, run (xstep_v true) (xinit 0) keep_started_witness = Some s /\ x_panics s = 0 /\ sw_closes (xw s) = 0).
Proof. split; eexists; (split; [vm_compute; reflexivity|]); vm_compute; repeat split. Qed.

(* ---------- the entry points of engine c07closecfg ---------- *)
Definition XR (iv : Z) (s : xsys) : Prop := Reach xstep (xinit iv) s.

Lemma xstep_P : forall iv s l s', XR iv s -> xstep s l = Some s' ->
  XR iv s' /\ closing (xb s') l = false /\ called s' = called s || closing (xb s) l.
Proof.
  intros iv s l s' HR Hs. destruct (xstep_props iv s l s' (xinv_reach iv s HR) Hs) as (_ & _ & H2 & H3).
  split; [eapply reach_step; eauto|auto].
Qed.

(* running a thread: the states stay reachable, "Close was called" is kept, and a thread that is
   not at the start of Close never gets there, so running it changes nothing about it *)
Lemma xrun_thread_P : forall iv f s tid, XR iv s ->
  XR iv (xrun_thread f s tid) /\
  (called s = true -> called (xrun_thread f s tid) = true) /\
  (nth_error (cthr (xb s)) tid <> Some PCl1 -> called (xrun_thread f s tid) = called s).
Proof.
  intros iv f. induction f as [|f IH]; intros s tid HR; cbn [xrun_thread]; [auto|].
  destruct (nth_error (cthr (xb s)) tid) as [p|] eqn:Ep; [|auto].
  assert (Go : forall arg, let r := match xstep s (LRunC tid arg) with Some s' => xrun_thread f s' tid | None => s end in
            XR iv r /\ (called s = true -> called r = true) /\ (Some p <> Some PCl1 -> called r = called s)).
  { intros arg. cbv zeta. destruct (xstep s (LRunC tid arg)) as [s'|] eqn:Es; [|auto].
    destruct (xstep_P iv s _ s' HR Es) as (HR' & Hn & Hc). destruct (IH s' tid HR') as (I1 & I2 & I3).
    cbn [closing] in Hn, Hc. rewrite Ep in Hc. split; [exact I1|]. split.
    - intros E. apply I2. rewrite Hc, E. reflexivity.
    - intros Hp. rewrite I3; [rewrite Hc; destruct p; try congruence; apply orb_false_r|].
      destruct (nth_error (cthr (xb s')) tid) as [[]|]; congruence. }
  destruct p; try apply Go. auto.
Qed.

Lemma xstep_PCl1_enabled : forall iv s tid arg, XR iv s -> nth_error (cthr (xb s)) tid = Some PCl1 ->
  exists s', xstep s (LRunC tid arg) = Some s'.
Proof.
  intros iv s tid arg HR Ep.
  pose proof (c07stop_region_step false s tid arg Ep) as H. cbv zeta in H.
  destruct (close_region _ _ _) as [[[lcl stops] st'] cc].
  destruct (if stops =? 0 then Some (xw s) else sweep_stop_v false (xw s)) as [w'|];
    destruct H as (s' & Hs & _); exists s'; exact Hs.
Qed.

Lemma xrun_thread_close : forall iv f s tid, XR iv s -> nth_error (cthr (xb s)) tid = Some PCl1 ->
  called (xrun_thread (S f) s tid) = true.
Proof.
  intros iv f s tid HR Ep. cbn [xrun_thread]. rewrite Ep.
  destruct (xstep_PCl1_enabled iv s tid (xarg s PCl1) HR Ep) as [s' Hs]. rewrite Hs.
  destruct (xstep_P iv s _ s' HR Hs) as (HR' & _ & Hc). apply (xrun_thread_P iv f s' tid HR').
  rewrite Hc. cbn [closing]. rewrite Ep. apply orb_true_r.
Qed.

(* the thread that a label other than a thread step starts is at the start of Close only for LClose *)
Lemma cstep_started : forall b l b' arg, cstep b l = Some b' -> (forall tid a, l <> LRunC tid a) ->
  closing b' (LRunC (length (cthr b)) arg) = match l with LClose => true | _ => false end.
Proof.
  intros b l b' arg H Hl. cbn [closing].
  destruct (cstep_inv _ _ _ H) as [? ?|c v ? ? ?| |c ?|l p Hp|tid a p sh' p' ? ?]; cbn [cthr];
    rewrite ?nth_error_app2, ?Nat.sub_diag, ?(proj2 (nth_error_None _ _) (le_n _)) by lia; try reflexivity.
  - destruct Hp as [E|[E|[E|E]]]; injection E as -> ->; reflexivity.
  - destruct (Hl tid a eq_refl).
Qed.

Lemma xspawn_P : forall iv s l, XR iv s -> (forall tid arg, l <> LRunC tid arg) ->
  XR iv (xspawn_run s l) /\
  called (xspawn_run s l) = called s || match l with LClose => true | _ => false end.
Proof.
  intros iv s l HR Hl. unfold xspawn_run.
  assert (Ecl : closing (xb s) l = false) by (destruct l; try reflexivity; destruct (Hl tid arg eq_refl)).
  destruct (xstep s l) as [s1|] eqn:Es.
  2:{ split; [exact HR|]. destruct l; rewrite ?orb_false_r; try reflexivity. discriminate Es. }
  destruct (xstep_P iv s l s1 HR Es) as (HR1 & _ & Hc). rewrite Ecl, orb_false_r in Hc.
  destruct (xrun_thread_P iv 64 s1 (length (cthr (xb s))) HR1) as (R1 & R2 & R3). split; [exact R1|].
  unfold xstep in Es. rewrite xstep_lift in Es by exact Ecl. unfold xlift in Es.
  destruct (cstep (xb s) l) as [b'|] eqn:Ec; [|discriminate]. injection Es as <-. cbn [xb] in *.
  pose proof (cstep_started _ _ _ 0 Ec Hl) as Hnew. cbn [closing] in Hnew.
  destruct l; try (rewrite R3, Hc, orb_false_r; [reflexivity|]; intros E; rewrite E in Hnew; discriminate).
  rewrite orb_true_r. apply (xrun_thread_close iv 63); [assumption|]. cbn [xb].
  destruct (nth_error (cthr b') (length (cthr (xb s)))) as [[]|]; try discriminate Hnew; reflexivity.
Qed.

Lemma iter_S : forall (A : Type) (f : A -> A) k x, Nat.iter (S k) f x = f (Nat.iter k f x).
Proof. reflexivity. Qed.

Lemma xiter_close : forall iv k s, XR iv s ->
  let s' := Nat.iter k (fun s => xspawn_run s LClose) s in
  XR iv s' /\ called s' = called s || negb (Nat.eqb k 0).
Proof.
  intros iv k. induction k as [|k IH]; intros s HR; cbv zeta; rewrite ?iter_S; cbn [Nat.eqb negb].
  - rewrite orb_false_r. auto.
  - destruct (IH s HR) as [HR' _]. destruct (xspawn_P iv _ LClose HR') as [H1 H2]; [discriminate|].
    split; [exact H1|]. rewrite H2, !orb_true_r. reflexivity.
Qed.

Lemma xobs_spec : forall iv s, XR iv s ->
  xobs false s = [zb ((0 <? iv) && negb (called s)); zb ((0 <? iv) && called s); 0].
Proof.
  intros iv s HR. destruct (xinv_reach iv s HR) as (_ & HP & _ & HS & HC).
  unfold xobs. cbn [app]. rewrite HS, HC, HP. destruct ((0 <? iv) && called s); reflexivity.
Qed.

Lemma xrun_ops_spec : forall iv n s l, XR iv s ->
  xrun_ops false n s l = spec_stop_ops n (0 <? iv) (called s) l.
Proof.
  intros iv n. induction n as [|n IH]; intros s l HR; cbn [xrun_ops spec_stop_ops]; [reflexivity|].
  destruct l as [|op [|a [|b r]]]; try reflexivity.
  destruct (op =? 1).
  - destruct (xiter_close iv (Z.to_nat a) s HR) as [HR' Hc]. cbv zeta in HR', Hc.
    rewrite (IH _ r HR'), Hc. f_equal. f_equal.
    destruct (Z.ltb_spec 0 a) as [L|L].
    + destruct (Z.to_nat a) eqn:E; [lia|reflexivity].
    + replace (Z.to_nat a) with O by lia. reflexivity.
  - destruct (op =? 2).
    + destruct (xstep s (LConnMove (Z.to_nat a) b)) as [s1|] eqn:Es; [|apply IH; exact HR].
      destruct (xstep_P iv s _ s1 HR Es) as (HR1 & _ & Hc1).
      destruct (xspawn_P iv s1 (LCallback (Z.to_nat a)) HR1) as [HR2 Hc2]; [discriminate|].
      rewrite (IH _ r HR2), Hc2, Hc1, !orb_false_r. reflexivity.
    + rewrite (xobs_spec iv s HR), (IH s r HR). reflexivity.
Qed.

Lemma xstart_reach : forall iv lis n, XR iv (xstart iv lis n) /\ called (xstart iv lis n) = false.
Proof.
  intros iv lis n. unfold xstart.
  set (s1 := if lis =? 1 then match xstep (xinit iv) LListen with Some s => s | None => xinit iv end else xinit iv).
  assert (H1 : XR iv s1 /\ called s1 = false).
  { assert (H0 : XR iv (xinit iv)) by apply reach_init.
    unfold s1. destruct (lis =? 1); [|split; [exact H0|reflexivity]].
    destruct (xstep (xinit iv) LListen) as [s|] eqn:Es; [|split; [exact H0|reflexivity]].
    destruct (xstep_P iv _ _ s H0 Es) as (HR & _ & Hc). split; [exact HR|]. rewrite Hc. reflexivity. }
  clearbody s1. induction (Z.to_nat n) as [|k IH]; [exact H1|]. rewrite iter_S.
  destruct IH as [HRk Hck]. destruct (xspawn_P iv _ LNewConn HRk) as [H2 H3]; [discriminate|].
  split; [exact H2|]. rewrite H3, orb_false_r. exact Hck.
Qed.

(* MODEL = SPECIFICATION for the component observable of engine c07closecfg, on EVERY input (any
   number of connections, any script of Close batches, connection moves and observations). *)
Theorem c07closestop_spec : forall c, run_c07closestop c = spec_c07closestop c.
Proof.
  intros c. unfold run_c07closestop, run_c07close, spec_c07closestop.
  destruct c as [|iv [|lis [|n [|nops r]]]]; try reflexivity.
  destruct (xstart_reach iv lis n) as [HR Hc]. rewrite (xrun_ops_spec iv _ _ r HR), Hc. reflexivity.
Qed.

(* the full entry point visits reachable states only (the states the theorems are about) *)
Theorem c07closecfg_reachable : forall iv lis n, Reach xstep (xinit iv) (xstart iv lis n).
Proof. intros iv lis n. exact (proj1 (xstart_reach iv lis n)). Qed.

(* ================= Part 2: Connection.stopHealthCheck ================================= *)
Definition is_hg (p : hpc) : bool :=
  match p with HG0 | HGq | HGs1 | HGs2 | HGs3 | HGs4 | HGx => true | _ => false end.

(* what holds of a thread at program counter p (thread number n) *)
Definition H_thr (on : bool) (s : hshared) (n : nat) (p : hpc) : Prop :=
  match p with
  | HDone | HS1 => True
  | HS2 | HS3 => on = true
  | HS4 => on = true /\ h_cancelled s = true
  | HG0 | HGq | HGx => n = 0%nat /\ on = true /\ h_exits s = 0
  | HGs1 | HGs2 => n = 0%nat /\ on = true /\ h_exits s = 0 /\ h_cancelled s = true
  | HGs3 | HGs4 => False
  end.

Definition HInv (on : bool) (s : hsys) : Prop :=
  h_on (hsh s) = on /\
  (forall n p, nth_error (hthr s) n = Some p -> H_thr on (hsh s) n p) /\
  0 <= h_exits (hsh s) <= 1 /\
  (on = true -> exists p0, nth_error (hthr s) 0 = Some p0 /\
                 ((is_hg p0 = true /\ h_exits (hsh s) = 0) \/ (p0 = HDone /\ h_exits (hsh s) = 1))) /\
  (on = false -> h_exits (hsh s) = 0).

Lemma H_thr_stable : forall on s s' n p,
  n <> 0%nat \/ h_exits s' = h_exits s -> (h_cancelled s = true -> h_cancelled s' = true) ->
  H_thr on s n p -> H_thr on s' n p.
Proof.
  intros on s s' n p He Hc H. destruct p; cbn [H_thr] in *; try tauto;
    (destruct He as [He|He]; [tauto|rewrite He; tauto]).
Qed.

Lemma hinv_init : forall on, HInv on (hinit on).
Proof.
  intros on. unfold HInv, hinit. cbn [hsh hthr h_on h_exits]. split; [reflexivity|].
  split.
  - intros n p H. destruct on; [|destruct n; discriminate].
    destruct n as [|n]; [|destruct n; discriminate]. inversion H; subst. cbn. auto.
  - split; [lia|]. split; [|reflexivity].
    intros ->. exists HG0. split; [reflexivity|]. left. split; reflexivity.
Qed.

(* one step of a thread: health checks stay as configured, the context is never un-cancelled, the
   thread's next assertion holds, and only the goroutine's deferred close(healthCheckDone) -- its
   last step -- touches h_exits *)
Lemma htstep_props : forall on s n p arg s' p', h_on s = on -> H_thr on s n p ->
  htstep s p arg = Some (s', p') ->
  h_on s' = on /\ (h_cancelled s = true -> h_cancelled s' = true) /\ H_thr on s' n p' /\
  ((p = HGx /\ p' = HDone /\ h_exits s' = h_exits s + 1) \/
   (p <> HGx /\ h_exits s' = h_exits s /\ is_hg p' = is_hg p)).
Proof.
  intros on s n p arg s' p' Hon HT H.
  destruct p; cbn [htstep H_thr] in *; unfold hc_guard1, hc_guard2 in H;
    destruct (h_on s) eqn:Eo, (h_cancelled s) eqn:Ec; cbn [negb Z.eqb] in H;
    repeat match type of H with context [if ?c then _ else _] => destruct c eqn:? end;
    try discriminate; try contradiction; injection H as <- <-; cbn [H_thr h_on h_cancelled h_exits is_hg];
    (split; [congruence|split; [intros; congruence|split; [intuition congruence|]]]);
    first [left; repeat split; reflexivity | right; split; [discriminate|split; reflexivity]].
Qed.

Lemma hinv_step : forall on s l s', HInv on s -> hstep s l = Some s' -> HInv on s'.
Proof.
  intros on s l s' (Hon & Hthr & Hex & Hg & Hoff) H. destruct l as [|tid arg]; cbn [hstep] in H.
  - injection H as <-. unfold HInv. cbn [hsh hthr]. split; [exact Hon|]. split.
    + intros n p Hn. apply nth_error_snoc in Hn. destruct Hn as [[_ Hn]|[_ ->]]; [apply Hthr; exact Hn|exact I].
    + split; [exact Hex|]. split; [|exact Hoff].
      intros E. destruct (Hg E) as (p0 & Hp0 & Hc). exists p0. split; [|exact Hc].
      apply nth_error_snoc_old. exact Hp0.
  - destruct (nth_error (hthr s) tid) as [p|] eqn:Ep; [|discriminate].
    destruct (htstep (hsh s) p arg) as [[sh' p']|] eqn:Et; [|discriminate].
    injection H as <-. pose proof (Hthr _ _ Ep) as HT.
    assert (Hlen : (tid < length (hthr s))%nat) by (eapply nth_error_lt; eauto).
    destruct (htstep_props _ _ _ _ _ _ _ Hon HT Et) as (F1 & F2 & HT' & Hcase).
    unfold HInv. cbn [hsh hthr]. split; [exact F1|].
    (* the threads that do not step: only the goroutine (thread 0) looks at h_exits *)
    assert (Hoth : tid = 0%nat \/ h_exits sh' = h_exits (hsh s) ->
              forall n q, nth_error (upd (hthr s) tid p') n = Some q -> H_thr on sh' n q).
    { intros Ht n q Hn. apply nth_error_upd in Hn. destruct Hn as [[-> ->]|[Hne Hn]]; [exact HT'|].
      apply (H_thr_stable on (hsh s)); auto. destruct Ht as [->|Ht]; auto. }
    destruct Hcase as [(-> & -> & He)|(Hne & He & Hgp)].
    + (* the goroutine's deferred close(healthCheckDone) *)
      cbn [H_thr] in HT. destruct HT as (-> & Eon & Hz). split; [apply Hoth; auto|]. split; [lia|].
      split; [|intros E; congruence].
      intros _. exists HDone. split; [apply nth_error_upd_same; exact Hlen|]. right. split; [reflexivity|lia].
    + split; [apply Hoth; auto|]. rewrite He. split; [exact Hex|]. split; [|exact Hoff].
      intros E. destruct (Hg E) as (p0 & Hp0 & Hc).
      destruct (Nat.eq_dec tid 0) as [->|Hn0].
      * (* the goroutine stepped: it is still the goroutine *)
        rewrite Ep in Hp0. injection Hp0 as <-. exists p'. split; [apply nth_error_upd_same; exact Hlen|].
        destruct Hc as [[Hgq Hz]|[-> _]]; [|discriminate Et]. left. split; [congruence|exact Hz].
      * exists p0. split; [rewrite nth_error_upd_other by auto; exact Hp0|exact Hc].
Qed.

Lemma hinv_reach : forall on s, Reach hstep (hinit on) s -> HInv on s.
Proof.
  intros on. apply reach_ind; [apply hinv_init|]. intros s l s' _ IH Hs. eapply hinv_step; eauto.
Qed.

(* STOPPING THE HEALTH CHECKS IS SAFE AND IDEMPOTENT, for any number of stopHealthCheck calls in
   any interleaving with the health-check goroutine (which may fail and call stopHealthCheck on
   itself through connectionError at any moment):
   (1) health checks not enabled: no call gets past the first guard -- healthCheckCtx /
       healthCheckQuit / healthCheckDone (all nil) are never touched;
   (2) the goroutine never gets to wait for its own healthCheckDone (it cancelled first, so its own
       stopHealthCheck returns at the second guard);
   (3) close(healthCheckDone) runs at most once; a caller that waits has cancelled the context. *)
Theorem c07hc_safe : forall on s, Reach hstep (hinit on) s ->
  (on = false -> forall n p, nth_error (hthr s) n = Some p -> p = HDone \/ p = HS1) /\
  (forall n p, nth_error (hthr s) n = Some p -> p <> HGs3 /\ p <> HGs4) /\
  0 <= h_exits (hsh s) <= 1 /\
  (forall n, nth_error (hthr s) n = Some HS4 -> h_cancelled (hsh s) = true).
Proof.
  intros on s HR. destruct (hinv_reach on s HR) as (Hon & Hthr & Hex & Hg & Hoff).
  split; [|split; [|split; [exact Hex|]]].
  - intros -> n p Hn. pose proof (Hthr _ _ Hn) as HT.
    destruct p; cbn [H_thr] in HT; auto; try discriminate; try (destruct HT as [? ?]; discriminate);
      try contradiction; destruct HT as (_ & E & _); discriminate.
  - intros n p Hn. pose proof (Hthr _ _ Hn) as HT. split; intros ->; exact HT.
  - intros n Hn. pose proof (Hthr _ _ Hn) as HT. cbn [H_thr] in HT. tauto.
Qed.

(* every program counter but the two waits for healthCheckDone has a step; the waits have one once it is closed *)
Lemma htstep_enabled : forall s p, p <> HDone -> (p = HS4 \/ p = HGs4 -> 1 <= h_exits s) ->
  exists arg r, htstep s p arg = Some r.
Proof.
  intros s p Hd Hw. exists 1. destruct p; try congruence; cbn [htstep]; try (eexists; reflexivity).
  - rewrite (proj2 (Z.leb_le _ _) (Hw (or_introl eq_refl))). eexists; reflexivity.
  - destruct (h_cancelled s); eexists; reflexivity.
  - rewrite (proj2 (Z.leb_le _ _) (Hw (or_intror eq_refl))). eexists; reflexivity.
Qed.

(* EVERY CALL RETURNS: no reachable state is stuck while some stopHealthCheck call (or the
   goroutine) has not finished -- a waiting caller is released by the goroutine's exit, and the
   goroutine can always get there. *)
Theorem c07hc_progress : forall on s, Reach hstep (hinit on) s ->
  (exists n p, nth_error (hthr s) n = Some p /\ p <> HDone) ->
  exists l s', hstep s l = Some s'.
Proof.
  intros on s HR (n & p & Hn & Hp). destruct (hinv_reach on s HR) as (Hon & Hthr & Hex & Hg & Hoff).
  (* the thread to run: the goroutine while it has not exited, any unfinished thread afterwards *)
  assert (Run : exists tid q, nth_error (hthr s) tid = Some q /\ q <> HDone /\
                  (q = HS4 \/ q = HGs4 -> 1 <= h_exits (hsh s))).
  { destruct on.
    - destruct (Hg eq_refl) as (p0 & Hp0 & [[Hgp Hz]|[-> Hone]]).
      + exists 0%nat, p0. split; [exact Hp0|]. pose proof (Hthr _ _ Hp0) as HT. split; [intros ->; discriminate|].
        intros [->| ->]; [discriminate|destruct HT].
      + exists n, p. split; [exact Hn|]. split; [exact Hp|]. intros _. lia.
    - exists n, p. split; [exact Hn|]. split; [exact Hp|]. pose proof (Hthr _ _ Hn) as HT.
      intros [->| ->]; cbn [H_thr] in HT; [destruct HT; discriminate|destruct HT]. }
  destruct Run as (tid & q & Hq & Hd & Hw). destruct (htstep_enabled (hsh s) q Hd Hw) as (arg & [sh' q'] & Ht).
  exists (LHRun tid arg). eexists. cbn [hstep]. rewrite Hq, Ht. reflexivity.
Qed.

(* non-vacuity: health checks on, two outside callers, the goroutine fails on its own in between:
   everything finishes, healthCheckDone closed once *)
Lemma c07hc_example :
  exists s, run hstep (hinit true)
              [LHStop; LHRun 1 0; LHRun 0 1; LHRun 0 0; LHStop; LHRun 1 0; LHRun 2 0; LHRun 2 0;
               LHRun 0 0; LHRun 0 0; LHRun 0 0] = Some s /\
            hthr s = [HDone; HDone; HDone] /\ h_exits (hsh s) = 1 /\ h_cancelled (hsh s) = true.
Proof. eexists. split; [vm_compute; reflexivity|]. vm_compute. repeat split. Qed.
