(* Reasoning principles for the typed-buffer model: [writes], [consumes] and [decodes], and their
   instances for every message codec. *)
From Coq Require Import ZArith List Bool Lia.
From Verif Require Import Base.Wrap Base.Bytes Gen.GenConsts Gen.GenFrame Model.TypedBuf Model.Messages Spec.Protocol.
Import ListNotations.
Local Open Scope Z_scope.

Lemma slen_zlen {A} (l : list A) : slen l = zlen l.
Proof. reflexivity. Qed.

Lemma firstn_exact {A} (a b : list A) : firstn (length a) (a ++ b) = a.
Proof. rewrite firstn_app, Nat.sub_diag, firstn_all. apply app_nil_r. Qed.

Lemma skipn_exact {A} (a b : list A) : skipn (length a) (a ++ b) = b.
Proof. rewrite skipn_app, Nat.sub_diag, skipn_all. reflexivity. Qed.

Lemma zlen_cons {A} (x : A) l : zlen (x :: l) = 1 + zlen l.
Proof. unfold zlen. cbn [length]. lia. Qed.

Lemma zlen_pos {A} (l : list A) : l <> [] -> 0 < zlen l.
Proof. destruct l; [congruence|]. intros _. rewrite zlen_cons. pose proof (zlen_nonneg l). lia. Qed.

Lemma bytes_ok_split a b : bytes_ok (a ++ b) = true -> bytes_ok a = true /\ bytes_ok b = true.
Proof. rewrite bytes_ok_app. apply andb_true_iff. Qed.

(* ---- well-formedness of values (protocol limits) ---- *)
Definition u_ok (n : nat) (v : Z) : Prop := 0 <= v < 256 ^ Z.of_nat n.
Definition str8_ok (s : list Z) : Prop := zlen s <= 255 /\ bytes_ok s = true.
Definition str16_ok (s : list Z) : Prop := zlen s <= 65535 /\ bytes_ok s = true.
Definition kvs8_ok (h : kvs) : Prop := zlen h <= 255 /\ Forall (fun kv => str8_ok (fst kv) /\ str8_ok (snd kv)) h.
Definition kvs16_ok (h : kvs) : Prop := zlen h <= 65535 /\ Forall (fun kv => str16_ok (fst kv) /\ str16_ok (snd kv)) h.
Definition span_ok (s : span) : Prop :=
  u_ok 8 (sp_span s) /\ u_ok 8 (sp_parent s) /\ u_ok 8 (sp_trace s) /\ u_ok 1 (sp_flags s).

Lemma u_ok_1 v : 0 <= v < 256 -> u_ok 1 v. Proof. exact (fun H => H). Qed.
Lemma u_ok_2 v : 0 <= v < 65536 -> u_ok 2 v. Proof. exact (fun H => H). Qed.

Lemma u_ok_len1 {A} (l : list A) : zlen l <= 255 -> u_ok 1 (zlen l).
Proof. intros H. apply u_ok_1. pose proof (zlen_nonneg l). lia. Qed.
Lemma u_ok_len2 {A} (l : list A) : zlen l <= 65535 -> u_ok 2 (zlen l).
Proof. intros H. apply u_ok_2. pose proof (zlen_nonneg l). lia. Qed.

Lemma be1_small v : u_ok 1 v -> be 1 v = [v].
Proof. intros H. change (be 1 v) with [v mod 256]. rewrite Z.mod_small by exact H. reflexivity. Qed.

(* ================= writers ================= *)

Definition sticky (f : wbuf -> wbuf) : Prop := forall w, werr w <> 0 -> f w = w.

Definition writes (f : wbuf -> wbuf) (bs : list Z) : Prop :=
  (forall w, werr w = 0 -> zlen bs <= wroom w -> f w = mkW (wout w ++ bs) (wroom w - zlen bs) 0) /\
  (forall w, werr w = 0 -> 0 <= wroom w < zlen bs -> werr (f w) = 1) /\
  sticky f.

Lemma w_seterr_sticky e : sticky (w_seterr e).
Proof. intros w H. unfold w_seterr. destruct (werr w =? 0) eqn:E; [lia|reflexivity]. Qed.

Lemma w_bytes_sticky bs : sticky (w_bytes bs).
Proof. intros w H. unfold w_bytes. destruct (werr w =? 0) eqn:E; [lia|reflexivity]. Qed.

Lemma w_bytes_writes bs : writes (w_bytes bs) bs.
Proof.
  unfold writes. split; [|split; [|apply w_bytes_sticky]]; intros w H Hr; unfold w_bytes; rewrite H; cbn.
  - destruct (wroom w <? zlen bs) eqn:E; [lia|reflexivity].
  - destruct (wroom w <? zlen bs) eqn:E; [|lia]. unfold w_seterr. rewrite H. reflexivity.
Qed.

Lemma w_nop_writes : writes w_nop [].
Proof.
  unfold writes, sticky, w_nop. split; [|split]; intros w H; auto.
  - intros _. destruct w; cbn in *. subst. rewrite app_nil_r, Z.sub_0_r. reflexivity.
  - change (zlen (@nil Z)) with 0. lia.
Qed.

Lemma seq_sticky f g : sticky f -> sticky g -> sticky (f >> g).
Proof. intros Hf Hg w H. unfold seqW. rewrite (Hf w H). apply Hg, H. Qed.

Lemma seq_writes f g a b : writes f a -> writes g b -> writes (f >> g) (a ++ b).
Proof.
  intros [F1 [F2 F3]] [G1 [G2 G3]]. unfold writes. split; [|split; [|apply seq_sticky; auto]].
  - intros w H Hr. rewrite zlen_app in Hr. pose proof (zlen_nonneg a). pose proof (zlen_nonneg b).
    unfold seqW. rewrite F1 by lia. rewrite G1; cbn; try lia. rewrite app_assoc, zlen_app. f_equal. lia.
  - intros w H Hr. rewrite zlen_app in Hr. unfold seqW.
    destruct (Z_lt_le_dec (wroom w) (zlen a)) as [L|L].
    + assert (E : werr (f w) = 1) by (apply F2; lia).
      rewrite G3; [exact E|lia].
    + rewrite F1 by lia. apply G2; cbn; lia.
Qed.

Lemma w_uint_writes n v : writes (w_uint n v) (be n v).
Proof. apply w_bytes_writes. Qed.

Lemma w_u8_writes v : 0 <= v < 256 -> writes (w_u8 v) [v].
Proof. intros H. unfold w_u8. rewrite Z.mod_small by lia. apply w_bytes_writes. Qed.

Lemma w_check_len_ok bits s : 0 <= bits -> zlen s < 2 ^ bits -> w_check_len bits s = w_nop.
Proof.
  intros Hb H. unfold w_check_len, w_nop. pose proof (zlen_nonneg s).
  rewrite wrapU_id by lia. rewrite Z.eqb_refl. reflexivity.
Qed.

Lemma w_check_len_sticky bits s : sticky (w_check_len bits s).
Proof. intros w H. unfold w_check_len. destruct (_ =? _); [reflexivity|]. apply w_seterr_sticky, H. Qed.

(* an over-long string sets errStringTooLong (2) *)
Lemma w_check_len_toolong bits s w : 0 <= bits -> 2 ^ bits <= zlen s -> werr w = 0 ->
  w_check_len bits s w = mkW (wout w) (wroom w) 2.
Proof.
  intros Hb H Hw. unfold w_check_len, w_seterr. rewrite Hw.
  pose proof (wrapU_range bits (zlen s) Hb). destruct (wrapU bits (zlen s) =? zlen s) eqn:E; [lia|reflexivity].
Qed.

Lemma w_len8_writes s : zlen s <= 255 -> writes (w_len8 s) (s_str1 s).
Proof.
  intros H. unfold w_len8. rewrite w_check_len_ok by (cbn; lia).
  apply (seq_writes w_nop _ [] ([zlen s] ++ s) w_nop_writes). apply seq_writes; [|apply w_bytes_writes].
  apply w_u8_writes, u_ok_len1, H.
Qed.

Lemma w_len16_writes s : zlen s <= 65535 -> writes (w_len16 s) (s_str2 s).
Proof.
  intros H. unfold w_len16. rewrite w_check_len_ok by (cbn; lia).
  apply (seq_writes w_nop _ [] (be 2 (zlen s) ++ s) w_nop_writes).
  apply seq_writes; [apply w_uint_writes|apply w_bytes_writes].
Qed.

Lemma w_len8_sticky s : sticky (w_len8 s).
Proof. repeat apply seq_sticky; try apply w_bytes_sticky. apply w_check_len_sticky. Qed.
Lemma w_len16_sticky s : sticky (w_len16 s).
Proof. repeat apply seq_sticky; try apply w_bytes_sticky. apply w_check_len_sticky. Qed.

(* over-long: nothing is written *)
Lemma w_len8_toolong s w : 255 < zlen s -> zlen s < 2 ^ 62 -> werr w = 0 -> w_len8 s w = mkW (wout w) (wroom w) 2.
Proof. intros H _ Hw. unfold w_len8, seqW. rewrite w_check_len_toolong by (cbn; lia). reflexivity. Qed.
Lemma w_len16_toolong s w : 65535 < zlen s -> werr w = 0 -> w_len16 s w = mkW (wout w) (wroom w) 2.
Proof. intros H Hw. unfold w_len16, seqW. rewrite w_check_len_toolong by (cbn; lia). reflexivity. Qed.

Definition spec_span (s : span) : list Z := s_tracing (sp_span s) (sp_parent s) (sp_trace s) (sp_flags s).

Lemma w_span_writes s : u_ok 1 (sp_flags s) -> writes (w_span s) (spec_span s).
Proof.
  intros H. unfold w_span, spec_span, s_tracing.
  repeat (apply seq_writes; [apply w_uint_writes|]). apply w_u8_writes. exact H.
Qed.

Lemma w_kv8s_writes h : Forall (fun kv => str8_ok (fst kv) /\ str8_ok (snd kv)) h ->
  writes (w_kv8s h) (flat_map (fun kv => s_str1 (fst kv) ++ s_str1 (snd kv)) h).
Proof.
  induction 1 as [|kv h [[A _] [B _]] _ IH]; cbn [w_kv8s flat_map]; [apply w_nop_writes|].
  apply seq_writes; [|exact IH]. apply seq_writes; apply w_len8_writes; assumption.
Qed.

Lemma w_headers_writes h : kvs8_ok h -> writes (w_headers h) (s_headers1 h).
Proof.
  intros [A B]. apply seq_writes; [|apply w_kv8s_writes; exact B]. apply w_u8_writes, u_ok_len1, A.
Qed.

Lemma w_kv16s_writes h : Forall (fun kv => str16_ok (fst kv) /\ str16_ok (snd kv)) h ->
  writes (w_kv16s h) (flat_map (fun kv => s_str2 (fst kv) ++ s_str2 (snd kv)) h).
Proof.
  induction 1 as [|kv h [[A _] [B _]] _ IH]; cbn [w_kv16s flat_map]; [apply w_nop_writes|].
  apply seq_writes; [|exact IH]. apply seq_writes; apply w_len16_writes; assumption.
Qed.

Lemma zlen_spec_span sp : zlen (spec_span sp) = 25.
Proof. unfold spec_span, s_tracing. rewrite !zlen_app, !zlen_be. reflexivity. Qed.

Definition init_ok (m : initmsg) := u_ok 2 (im_version m) /\ kvs16_ok (im_params m).
Definition spec_init (m : initmsg) := s_init (im_version m) (im_params m).
Lemma w_init_writes m : init_ok m -> writes (w_init m) (spec_init m).
Proof.
  intros [A [B C]]. repeat (apply seq_writes; [apply w_uint_writes|]). apply w_kv16s_writes, C.
Qed.

Definition callreq_ok (m : callreq) (ttl_ms : Z) :=
  0 <= ttl_ms < 2 ^ 32 /\ cq_ttl_ns m = ttl_ms * ms_ns /\ span_ok (cq_span m) /\
  str8_ok (cq_service m) /\ kvs8_ok (cq_headers m).
Definition spec_callreq (m : callreq) (ttl_ms : Z) :=
  s_callreq ttl_ms (spec_span (cq_span m)) (cq_service m) (cq_headers m).
Lemma w_callreq_writes m ttl : callreq_ok m ttl -> writes (w_callreq m) (spec_callreq m ttl).
Proof.
  intros [A [B [[_ [_ [_ C]]] [[D _] E]]]]. unfold w_callreq.
  replace (wrapU 32 (Z.quot (cq_ttl_ns m) ms_ns)) with ttl.
  2:{ rewrite B. unfold ms_ns. rewrite Z.quot_mul by lia. rewrite wrapU_id; lia. }
  apply seq_writes; [apply w_uint_writes|]. apply seq_writes; [apply w_span_writes, C|].
  apply seq_writes; [apply w_len8_writes, D|]. apply w_headers_writes, E.
Qed.

Definition callres_ok (m : callres) := u_ok 1 (cs_code m) /\ span_ok (cs_span m) /\ kvs8_ok (cs_headers m).
Definition spec_callres (m : callres) := s_callres (cs_code m) (spec_span (cs_span m)) (cs_headers m).
Lemma w_callres_writes m : callres_ok m -> writes (w_callres m) (spec_callres m).
Proof.
  intros [A [[_ [_ [_ C]]] E]].
  apply seq_writes; [apply w_u8_writes, A|]. apply seq_writes; [apply w_span_writes, C|].
  apply w_headers_writes, E.
Qed.

Lemma w_error_layout code sp msg : u_ok 1 code -> u_ok 1 (sp_flags sp) -> zlen msg <= 65535 ->
  writes (w_error (mkErr code sp msg)) (s_error code (spec_span sp) msg).
Proof.
  intros A C E. apply seq_writes; [apply w_u8_writes, A|]. apply seq_writes; [apply w_span_writes, C|].
  apply w_len16_writes, E.
Qed.

Lemma zlen_s_error code tr msg : zlen (s_error code tr msg) = 1 + zlen tr + 2 + zlen msg.
Proof. unfold s_error, s_str2. rewrite !zlen_app, zlen_be. unfold zlen at 1. cbn [length]. lia. Qed.

Definition error_ok (m : errmsg) := u_ok 1 (em_code m) /\ span_ok (em_span m) /\ str16_ok (em_msg m).
Definition spec_error (m : errmsg) := s_error (em_code m) (spec_span (em_span m)) (em_msg m).
Lemma w_error_writes m : error_ok m -> writes (w_error m) (spec_error m).
Proof. destruct m. intros [A [[_ [_ [_ C]]] [E _]]]. apply w_error_layout; assumption. Qed.

Definition cancel_ok (m : cancelmsg) := u_ok 4 (cm_ttl m) /\ span_ok (cm_span m) /\ str16_ok (cm_msg m).
Definition spec_cancel (m : cancelmsg) := s_cancel (cm_ttl m) (spec_span (cm_span m)) (cm_msg m).
Lemma w_cancel_writes m : cancel_ok m -> writes (w_cancel m) (spec_cancel m).
Proof.
  intros [A [[_ [_ [_ C]]] [E _]]].
  apply seq_writes; [apply w_uint_writes|]. apply seq_writes; [apply w_span_writes, C|].
  apply w_len16_writes, E.
Qed.

(* ================= readers ================= *)

Definition strict_prefix (p a : list Z) : Prop := exists q, q <> [] /\ a = p ++ q.

Definition rsticky {A} (rd : rbuf -> A * rbuf) : Prop := forall r, rerr r = true -> rerr (snd (rd r)) = true.

Definition consumes {A} (rd : rbuf -> A * rbuf) (a : list Z) (v : A) : Prop :=
  (forall rest, rd (rb (a ++ rest)) = (v, rb rest)) /\
  (forall p, strict_prefix p a -> rerr (snd (rd (rb p))) = true).

Lemma strict_prefix_app p a b : strict_prefix p (a ++ b) ->
  strict_prefix p a \/ exists p2, p = a ++ p2 /\ strict_prefix p2 b.
Proof.
  intros [q [Hq E]]. destruct (app_eq_app _ _ _ _ E) as [l [[-> ->]|[-> ->]]].
  - destruct l as [|x l]; [right; exists []|left; exists (x :: l); split; [discriminate|reflexivity]].
    rewrite !app_nil_r. split; [reflexivity|]. exists b. auto.
  - right. exists l. split; [reflexivity|]. exists q. auto.
Qed.

Lemma bind_sticky {A B} (m : rbuf -> A * rbuf) (k : A -> rbuf -> B * rbuf) :
  rsticky m -> (forall x, rsticky (k x)) -> rsticky (bindR m k).
Proof.
  intros Hm Hk r H. unfold bindR. specialize (Hm r H). destruct (m r) as [x r1]. cbn in Hm. apply Hk, Hm.
Qed.

Lemma ret_sticky {A} (v : A) : rsticky (retR v).
Proof. intros r H. exact H. Qed.

Lemma r_bytes_sticky n : rsticky (r_bytes n).
Proof. intros r H. unfold r_bytes. rewrite H. exact H. Qed.

Lemma r_uint_sticky n : rsticky (r_uint n).
Proof. unfold r_uint. apply bind_sticky; [apply r_bytes_sticky|]. intros x r H. exact H. Qed.

(* Every reader of the model is a chain of binds over [retR], [r_bytes], [r_uint] and readers
   already proved sticky (database [rsticky]): [sticky_tac] walks the chain. *)
Create HintDb rsticky.
Ltac sticky_tac :=
  intros; repeat first [ apply ret_sticky | apply r_bytes_sticky | apply r_uint_sticky
                       | solve [auto with rsticky] | (apply bind_sticky; [|intros]) ].

Lemma consumes_bind {A B} (m : rbuf -> A * rbuf) (k : A -> rbuf -> B * rbuf) a1 a2 x y :
  consumes m a1 x -> consumes (k x) a2 y -> (forall x', rsticky (k x')) ->
  consumes (bindR m k) (a1 ++ a2) y.
Proof.
  intros [M1 M2] [K1 K2] Hk. split.
  - intros rest. unfold bindR. rewrite <- app_assoc, M1. apply K1.
  - intros p Hp. unfold bindR. destruct (strict_prefix_app _ _ _ Hp) as [S|[p2 [E S]]].
    + specialize (M2 p S). destruct (m (rb p)) as [x' r1]. cbn in M2. apply Hk, M2.
    + subst p. rewrite M1. apply K2, S.
Qed.

Lemma consumes_ret {A} (v : A) : consumes (retR v) [] v.
Proof. split; [reflexivity|]. intros p [q [Hq E]]. destruct p; cbn in E; [subst; congruence|discriminate]. Qed.

Lemma consumes_bind_ret {A B} (m : rbuf -> A * rbuf) (f : A -> B) a x :
  consumes m a x -> consumes (bindR m (fun x => retR (f x))) a (f x).
Proof.
  intros H. rewrite <- (app_nil_r a). eapply consumes_bind; [exact H|apply consumes_ret|sticky_tac].
Qed.

Lemma r_bytes_consumes s : consumes (r_bytes (length s)) s s.
Proof.
  split.
  - intros rest. unfold r_bytes, rb. cbn [rerr rrem]. rewrite app_length.
    destruct (Nat.ltb_spec (length s + length rest) (length s)); [lia|].
    rewrite firstn_exact, skipn_exact. reflexivity.
  - intros p [q [Hq E]]. unfold r_bytes, rb. cbn [rerr rrem]. subst s. rewrite app_length.
    destruct q; [congruence|]. cbn [length].
    destruct (Nat.ltb_spec (length p) (length p + S (length q))); [reflexivity|lia].
Qed.

Lemma r_uint_consumes n v : u_ok n v -> consumes (r_uint n) (be n v) v.
Proof.
  intros H. unfold r_uint. pose proof (r_bytes_consumes (be n v)) as [C1 C2]. rewrite be_length in *. split.
  - intros rest. unfold bindR. rewrite C1. cbn. rewrite unbe_be by exact H. reflexivity.
  - intros p Hp. unfold bindR. specialize (C2 p Hp). destruct (r_bytes n (rb p)) as [b r1]. cbn in *. exact C2.
Qed.

Lemma r_u8_consumes v : u_ok 1 v -> consumes r_u8 [v] v.
Proof. intros H. rewrite <- (be1_small v H). apply r_uint_consumes, H. Qed.

Lemma r_u8_byte' b rest : 0 <= b < 256 -> r_u8 (rb (b :: rest)) = (b, rb rest).
Proof. intros H. apply (proj1 (r_u8_consumes b H) rest). Qed.

Lemma r_string_consumes s : consumes (r_string (zlen s)) s s.
Proof. unfold r_string, zlen. rewrite Nat2Z.id. apply r_bytes_consumes. Qed.

Lemma r_len8_sticky : rsticky r_len8.
Proof. unfold r_len8. sticky_tac. Qed.
Lemma r_len16_sticky : rsticky r_len16.
Proof. unfold r_len16. sticky_tac. Qed.
#[export] Hint Resolve r_len8_sticky r_len16_sticky : rsticky.

Lemma r_len8_consumes s : zlen s <= 255 -> consumes r_len8 (s_str1 s) s.
Proof.
  intros H. eapply consumes_bind; [apply r_u8_consumes, u_ok_len1, H|apply r_string_consumes|].
  intros; apply r_bytes_sticky.
Qed.

Lemma r_len16_consumes s : zlen s <= 65535 -> consumes r_len16 (s_str2 s) s.
Proof.
  intros H. eapply consumes_bind; [apply r_uint_consumes, u_ok_len2, H|apply r_string_consumes|].
  intros; apply r_bytes_sticky.
Qed.

Lemma r_span_sticky : rsticky r_span.
Proof. unfold r_span. sticky_tac. Qed.
#[export] Hint Resolve r_span_sticky : rsticky.

Lemma r_span_consumes s : span_ok s -> consumes r_span (spec_span s) s.
Proof.
  intros [A [B [C D]]]. destruct s as [a b c d].
  eapply consumes_bind; [apply r_uint_consumes, A| |sticky_tac].
  eapply consumes_bind; [apply r_uint_consumes, B| |sticky_tac].
  eapply consumes_bind; [apply r_uint_consumes, C| |sticky_tac].
  apply (consumes_bind_ret r_u8 (fun d => mkSpan a b c d)). apply r_u8_consumes, D.
Qed.

Lemma r_kv8s_sticky n : rsticky (r_kv8s n).
Proof. induction n as [|n IH]; cbn [r_kv8s]; sticky_tac. Qed.
#[export] Hint Resolve r_kv8s_sticky : rsticky.

Lemma r_kv8s_consumes h : Forall (fun kv => str8_ok (fst kv) /\ str8_ok (snd kv)) h ->
  consumes (r_kv8s (length h)) (flat_map (fun kv => s_str1 (fst kv) ++ s_str1 (snd kv)) h) h.
Proof.
  induction 1 as [|[k v] h [[A _] [B _]] _ IH]; cbn [r_kv8s flat_map length fst snd] in *; [apply consumes_ret|].
  rewrite <- app_assoc.
  eapply consumes_bind; [apply r_len8_consumes, A| |sticky_tac].
  eapply consumes_bind; [apply r_len8_consumes, B| |sticky_tac].
  apply (consumes_bind_ret (r_kv8s (length h)) (fun rest => (k, v) :: rest)). exact IH.
Qed.

Lemma r_headers_sticky : rsticky r_headers.
Proof. unfold r_headers. sticky_tac. Qed.
#[export] Hint Resolve r_headers_sticky : rsticky.

Lemma r_headers_consumes h : kvs8_ok h -> consumes r_headers (s_headers1 h) h.
Proof.
  intros [A B]. eapply consumes_bind; [apply r_u8_consumes, u_ok_len1, A| |sticky_tac].
  unfold slen. rewrite Nat2Z.id. apply r_kv8s_consumes, B.
Qed.

Lemma r_kv16s_sticky n : rsticky (r_kv16s n).
Proof. induction n as [|n IH]; cbn [r_kv16s]; sticky_tac. Qed.
#[export] Hint Resolve r_kv16s_sticky : rsticky.

Lemma r_kv16s_consumes h : Forall (fun kv => str16_ok (fst kv) /\ str16_ok (snd kv)) h ->
  consumes (r_kv16s (length h)) (flat_map (fun kv => s_str2 (fst kv) ++ s_str2 (snd kv)) h) h.
Proof.
  induction 1 as [|[k v] h [[A _] [B _]] _ IH]; cbn [r_kv16s flat_map length fst snd] in *; [apply consumes_ret|].
  rewrite <- app_assoc.
  eapply consumes_bind; [apply r_len16_consumes, A| |sticky_tac].
  eapply consumes_bind; [apply r_len16_consumes, B| |sticky_tac].
  apply (consumes_bind_ret (r_kv16s (length h)) (fun rest => (k, v) :: rest)). exact IH.
Qed.

Lemma r_init_consumes m : init_ok m -> consumes r_init (spec_init m) m.
Proof.
  intros [A C]. destruct m as [v p].
  eapply consumes_bind; [apply r_uint_consumes, A| |sticky_tac].
  eapply consumes_bind; [apply r_uint_consumes, u_ok_len2, C| |sticky_tac].
  unfold slen. rewrite Nat2Z.id.
  apply (consumes_bind_ret (r_kv16s (length p)) (fun p => mkInit v p)). apply r_kv16s_consumes, C.
Qed.

Lemma ttl_roundtrip ttl : 0 <= ttl < 2 ^ 32 -> wrapS 64 (ttl * ms_ns) = ttl * ms_ns.
Proof. intros H. apply wrapS_id; [lia|]. unfold ms_ns. cbn in *. lia. Qed.

Lemma r_callreq_consumes m ttl : callreq_ok m ttl -> consumes r_callreq (spec_callreq m ttl) m.
Proof.
  intros [A [B [C [[D _] E]]]]. destruct m as [t s svc h]; cbn [cq_ttl_ns] in B. subst t.
  rewrite <- (ttl_roundtrip ttl A).
  eapply consumes_bind; [apply r_uint_consumes; exact A| |sticky_tac].
  eapply consumes_bind; [apply r_span_consumes, C| |sticky_tac].
  eapply consumes_bind; [apply r_len8_consumes, D| |sticky_tac].
  apply (consumes_bind_ret r_headers (fun h => mkCallReq (wrapS 64 (ttl * ms_ns)) s svc h)).
  apply r_headers_consumes, E.
Qed.

Lemma r_callres_consumes m : callres_ok m -> consumes r_callres (spec_callres m) m.
Proof.
  intros [A [C E]]. destruct m as [c s h].
  eapply consumes_bind; [apply r_u8_consumes, A| |sticky_tac].
  eapply consumes_bind; [apply r_span_consumes, C| |sticky_tac].
  apply (consumes_bind_ret r_headers (fun h => mkCallRes c s h)). apply r_headers_consumes, E.
Qed.

Lemma r_error_consumes m : error_ok m -> consumes r_error (spec_error m) m.
Proof.
  intros [A [C [E _]]]. destruct m as [c s msg].
  eapply consumes_bind; [apply r_u8_consumes, A| |sticky_tac].
  eapply consumes_bind; [apply r_span_consumes, C| |sticky_tac].
  apply (consumes_bind_ret r_len16 (fun x => mkErr c s x)). apply r_len16_consumes, E.
Qed.

Lemma r_cancel_consumes m : cancel_ok m -> consumes r_cancel (spec_cancel m) m.
Proof.
  intros [A [C [E _]]]. destruct m as [c s msg].
  eapply consumes_bind; [apply r_uint_consumes, A| |sticky_tac].
  eapply consumes_bind; [apply r_span_consumes, C| |sticky_tac].
  apply (consumes_bind_ret r_len16 (fun x => mkCancel c s x)). apply r_len16_consumes, E.
Qed.

(* ================= readers, the other way round ================= *)
(* The counterpart of [consumes] for input that is not known to be an encoding: whatever bytes
   [rd] accepts are related to the result by R. *)
Definition decodes {A} (rd : rbuf -> A * rbuf) (R : A -> list Z -> Prop) : Prop :=
  forall r0 v r1, rd r0 = (v, r1) -> rerr r1 = false -> bytes_ok (rrem r0) = true ->
    rerr r0 = false /\ bytes_ok (rrem r1) = true /\ exists bs, rrem r0 = bs ++ rrem r1 /\ R v bs.

Lemma decodes_imp {A} (rd : rbuf -> A * rbuf) (R R' : A -> list Z -> Prop) :
  decodes rd R -> (forall v bs, R v bs -> R' v bs) -> decodes rd R'.
Proof. intros D I r0 v r1 E H B. destruct (D r0 v r1 E H B) as [R0 [B1 [bs [Eq Rv]]]]. eauto 6. Qed.

Lemma decodes_ret {A} (v : A) : decodes (retR v) (fun y bs => y = v /\ bs = []).
Proof. intros r0 y r1 E H B. inversion E; subst. split; [exact H|]. split; [exact B|]. exists []. auto. Qed.

Lemma sticky_ok {A} (rd : rbuf -> A * rbuf) r x r' :
  rsticky rd -> rd r = (x, r') -> rerr r' = false -> rerr r = false.
Proof.
  intros S E H. destruct (rerr r) eqn:R; [|reflexivity].
  specialize (S r R). rewrite E in S. cbn in S. congruence.
Qed.

Lemma decodes_bind {A B} (m : rbuf -> A * rbuf) (k : A -> rbuf -> B * rbuf) R1 R2 :
  decodes m R1 -> (forall x, rsticky (k x)) -> (forall x, decodes (k x) (R2 x)) ->
  decodes (bindR m k) (fun y bs => exists x b1 b2, bs = b1 ++ b2 /\ R1 x b1 /\ R2 x y b2).
Proof.
  intros Dm Sk Dk r0 y r2 E H Hb. unfold bindR in E. destruct (m r0) as [x r1] eqn:Em.
  destruct (Dm _ _ _ Em (sticky_ok _ _ _ _ (Sk x) E H) Hb) as [R0 [B1 [b1 [Eq1 Rx]]]].
  destruct (Dk x _ _ _ E H B1) as [_ [B2 [b2 [Eq2 Ry]]]].
  split; [exact R0|]. split; [exact B2|]. exists (b1 ++ b2).
  split; [rewrite Eq1, Eq2, app_assoc; reflexivity|eauto 6].
Qed.

Lemma r_bytes_decodes n : decodes (r_bytes n) (fun b bs => bs = b /\ length b = n /\ bytes_ok b = true).
Proof.
  intros r0 b r1. unfold r_bytes. destruct (rerr r0) eqn:R.
  - intros E H. inversion E; subst. congruence.
  - destruct (Nat.ltb_spec (length (rrem r0)) n) as [L|L]; intros E H B; inversion E; subst; cbn in *; [discriminate|].
    rewrite <- (firstn_skipn n (rrem r0)) in B. apply bytes_ok_split in B as [Bb Br].
    split; [reflexivity|]. split; [exact Br|]. exists (firstn n (rrem r0)).
    split; [symmetry; apply firstn_skipn|]. split; [reflexivity|]. split; [apply firstn_length_le, L|exact Bb].
Qed.

Lemma r_uint_decodes n : decodes (r_uint n) (fun v bs => bs = be n v /\ u_ok n v).
Proof.
  intros r0 v r1 E H B. unfold r_uint, bindR in E. destruct (r_bytes n r0) as [b r'] eqn:E1.
  inversion E; subst r1. rewrite H in *. subst v.
  destruct (r_bytes_decodes n _ _ _ E1 H B) as [R0 [Br [bs [Eq [-> [L Bb]]]]]].
  split; [exact R0|]. split; [exact Br|]. exists b. split; [exact Eq|]. rewrite <- L.
  split; [symmetry; apply be_unbe, Bb|apply unbe_range, Bb].
Qed.

Lemma count16 {A} (l : list A) n : u_ok 2 n -> length l = Z.to_nat n -> slen l = n /\ slen l <= 65535.
Proof.
  intros [N0 N1] L. unfold slen. rewrite L, Z2Nat.id by exact N0. split; [reflexivity|]. apply Z.lt_succ_r, N1.
Qed.

Lemma r_len16_decodes : decodes r_len16 (fun s bs => bs = s_str2 s /\ str16_ok s).
Proof.
  eapply decodes_imp.
  { apply decodes_bind; [apply (r_uint_decodes 2)|intros; apply r_bytes_sticky|intros n; apply r_bytes_decodes]. }
  intros s bs (n & b1 & b2 & -> & [-> U] & -> & L & B). destruct (count16 s n U L) as [Z Z1].
  split; [unfold s_str2; rewrite Z; reflexivity|exact (conj Z1 B)].
Qed.

Lemma r_kv16s_decodes n :
  decodes (r_kv16s n) (fun p bs => bs = flat_map (fun kv => s_str2 (fst kv) ++ s_str2 (snd kv)) p /\
                                   length p = n /\ Forall (fun kv => str16_ok (fst kv) /\ str16_ok (snd kv)) p).
Proof.
  induction n as [|n IH]; cbn [r_kv16s].
  - eapply decodes_imp; [apply decodes_ret|]. intros p bs [-> ->]. cbn. auto.
  - eapply decodes_imp.
    { apply decodes_bind; [apply r_len16_decodes|sticky_tac|intros k].
      apply decodes_bind; [apply r_len16_decodes|sticky_tac|intros v].
      apply decodes_bind; [apply IH|sticky_tac|intros rest]. apply decodes_ret. }
    intros p bs (k & b1 & b2 & -> & [-> Sk] & v & b3 & b4 & -> & [-> Sv] & rest & b5 & b6 & -> & (-> & L & F) & -> & ->).
    cbn [flat_map fst snd length]. rewrite app_nil_r, <- !app_assoc.
    split; [reflexivity|]. split; [rewrite L; reflexivity|constructor; [exact (conj Sk Sv)|exact F]].
Qed.
