(* Proofs about Model/PeerList.v: well-formedness of every PeerList after every history
   (map and heap agree, back-pointers, heap order on the score), minimality of the
   selection, no-peers, stamp bound and fairness. *)
From Coq Require Import ZArith List Bool Arith Lia ZifyNat Permutation.
From Verif Require Import Base.Wrap Gen.GenPeers Spec.PeerSelect Model.Retry Model.PeerHeap Model.PeerList Proofs.PeerHeapP.
Import ListNotations.
Ltac Zify.zify_post_hook ::= Z.to_euclidean_division_equations.
Local Open Scope Z_scope.

Definition ek_score (a b : Z * Z) : Prop := fst a <= fst b.
Lemma ek_score_le a b : kless b a = false -> ek_score a b.
Proof.
  unfold kless, ek_score. destruct a as [a1 a2], b as [b1 b2]; cbn [fst snd].
  destruct (Z.eqb_spec b1 a1); lia.
Qed.
Lemma ek_score_trans a b c : ek_score a b -> ek_score b c -> ek_score a c.
Proof. unfold ek_score; lia. Qed.

(* elements above the threshold K are in heap order *)
Definition ek_big (K a b : Z * Z) : Prop := kless K a = true -> kless b a = false.
Lemma ek_big_le K a b : kless b a = false -> ek_big K a b.
Proof. intros H _. exact H. Qed.
Lemma klt_le_trans K a b : kless K a = true -> kless b a = false -> kless K b = true.
Proof.
  unfold kless. destruct K as [k1 k2], a as [a1 a2], b as [b1 b2]; cbn [fst snd].
  destruct (Z.eqb_spec k1 a1), (Z.eqb_spec b1 a1), (Z.eqb_spec k1 b1); lia.
Qed.
Lemma ek_big_trans K a b c : ek_big K a b -> ek_big K b c -> ek_big K a c.
Proof.
  unfold ek_big. intros H1 H2 Ha. specialize (H1 Ha).
  eapply kle_trans; [exact H1|]. apply H2. eapply klt_le_trans; eassumption.
Qed.

Definition svalid := valid ek_score.

Lemma root_min h n : svalid h n -> forall k, (k < n)%nat -> ps_score (hget h 0) <= ps_score (hget h k).
Proof. apply (valid_root ek_score ek_score_trans). intros a. apply Z.le_refl. Qed.

Lemma root_big K h n : valid (ek_big K) h n -> kless K (key (hget h 0)) = true ->
  forall k, (k < n)%nat -> kless K (key (hget h k)) = true.
Proof.
  intros Hv H0 k Hk. eapply klt_le_trans; [exact H0|].
  apply (valid_root (ek_big K) (ek_big_trans K) h n); [intros a _; apply kless_irrefl|exact Hv|exact Hk|exact H0].
Qed.

Definition hps (h : list pscore) : list hostport := map ps_hp h.
Definition hs (x : pscore) : hostport * Z := (ps_hp x, ps_score x).

Lemma ident_hp_perm a b : Permutation (map ident a) (map ident b) -> Permutation (hps a) (hps b).
Proof.
  intros H. apply (Permutation_map (fun t : list Z * Z * Z => fst (fst t))) in H.
  rewrite !map_map in H. exact H.
Qed.
Lemma ident_hs_perm a b : Permutation (map ident a) (map ident b) -> Permutation (map hs a) (map hs b).
Proof.
  intros H. apply (Permutation_map (fun t : list Z * Z * Z => (fst (fst t), snd (fst t)))) in H.
  rewrite !map_map in H. exact H.
Qed.
Lemma ident_order_perm a b : Permutation (map ident a) (map ident b) -> Permutation (map ps_order a) (map ps_order b).
Proof.
  intros H. apply (Permutation_map (fun t : list Z * Z * Z => snd t)) in H.
  rewrite !map_map in H. exact H.
Qed.

Lemma mem_In hp s : mem hp s = true <-> In hp s.
Proof.
  unfold mem. rewrite existsb_exists. split.
  - intros (x & Hx & E). apply bytes_eqb_eq in E. now subst.
  - intros H. exists hp. split; [exact H|now apply bytes_eqb_eq].
Qed.
Lemma mem_false hp s : mem hp s = false <-> ~ In hp s.
Proof. rewrite <- mem_In. destruct (mem hp s); split; congruence. Qed.

Lemma existsb_false_forall {A} (f : A -> bool) l : existsb f l = false <-> forall x, In x l -> f x = false.
Proof.
  induction l as [|a l IH]; cbn; [split; [intros _ x []|reflexivity]|].
  rewrite orb_false_iff, IH. split.
  - intros [Ha Hl] x [<-|Hx]; auto.
  - intros H. split; [apply H; now left|intros x Hx; apply H; now right].
Qed.

Lemma del_In hp s x : In x (del hp s) <-> In x s /\ x <> hp.
Proof.
  induction s as [|k s IH]; cbn; [tauto|].
  destruct (bytes_eqb hp k) eqn:E.
  - apply bytes_eqb_eq in E. subst k. rewrite IH. split; [tauto|]. intros [[->|H] Hne]; tauto.
  - assert (hp <> k) by (intros ->; rewrite (proj2 (bytes_eqb_eq k k) eq_refl) in E; discriminate).
    cbn. rewrite IH. split; [intros [->|[H1 H2]]; split; auto; congruence|tauto].
Qed.
Lemma del_NoDup hp s : NoDup s -> NoDup (del hp s).
Proof.
  induction 1 as [|k s Hk Hs IH]; cbn; [constructor|].
  destruct (bytes_eqb hp k); [exact IH|]. constructor; [|exact IH].
  rewrite del_In. tauto.
Qed.
Lemma del_perm hp s : NoDup s -> In hp s -> Permutation s (hp :: del hp s).
Proof.
  induction 1 as [|k s Hk Hs IH]; intros Hin; [destruct Hin|]. cbn.
  destruct (bytes_eqb hp k) eqn:E.
  - apply bytes_eqb_eq in E. subst k.
    assert (Ed : del hp s = s).
    { clear -Hk. induction s as [|y s IH]; [reflexivity|]. cbn.
      destruct (bytes_eqb hp y) eqn:E; [apply bytes_eqb_eq in E; subst; cbn in Hk; tauto|].
      f_equal. apply IH. cbn in Hk. tauto. }
    now rewrite Ed.
  - destruct Hin as [->|Hin]; [rewrite (proj2 (bytes_eqb_eq hp hp) eq_refl) in E; discriminate|].
    eapply perm_trans; [apply perm_skip, IH, Hin|apply perm_swap].
Qed.

Lemma find_pos_some h hp p : find_pos h hp = Some p -> (p < length h)%nat /\ ps_hp (hget h p) = hp.
Proof.
  revert p; induction h as [|x h IH]; intros p H; [discriminate|]. cbn in H.
  destruct (bytes_eqb (ps_hp x) hp) eqn:E.
  - injection H as <-. apply bytes_eqb_eq in E. cbn. split; [lia|exact E].
  - destruct (find_pos h hp) as [k|]; [|discriminate]. injection H as <-.
    destruct (IH k eq_refl) as [H1 H2]. cbn [length]. split; [lia|exact H2].
Qed.
Lemma find_pos_in h hp : In hp (hps h) -> exists p, find_pos h hp = Some p.
Proof.
  induction h as [|x h IH]; intros H; [destruct H|]. cbn.
  destruct (bytes_eqb (ps_hp x) hp) eqn:E; [eauto|].
  destruct H as [H|H]; [apply bytes_eqb_eq in H; congruence|].
  destruct (IH H) as [p ->]. eauto.
Qed.

Lemma hget_In h k : (k < length h)%nat -> In (hget h k) h.
Proof. intros. unfold hget. now apply nth_In. Qed.
Lemma In_hget h x : In x h -> exists k, (k < length h)%nat /\ hget h k = x.
Proof. intros H. destruct (In_nth h x ps_dflt H) as (k & Hk & E). eauto. Qed.

(* ---------------------------------------------------------------- peerHeap operations *)
Definition hinv (h : list pscore) : Prop := idx_ok h /\ svalid h (length h).

Lemma svalid_hs h h' n : map hs h' = map hs h -> svalid h n -> svalid h' n.
Proof.
  intros E Hv k Hk. specialize (Hv k Hk). unfold edge, ek_score, key in *. cbn [fst] in *.
  assert (Es : forall g j, ps_score (hget g j) = snd (nth j (map hs g) (hs ps_dflt)))
    by (intros; unfold hget; now rewrite map_nth).
  now rewrite !Es, E, <- !Es.
Qed.

Definition stamp (ctr d : Z) (len : nat) : Z :=
  wrapU 64 (wrapU 64 (ctr + 1) + intn d (Z.of_nat len / 2 + 1)).

Lemma push_peer_spec h ctr x d :
  let r := push_peer h ctr x d in
  length (fst r) = S (length h) /\ snd r = wrapU 64 (ctr + 1) /\
  (hinv h -> hinv (fst r)) /\
  Permutation (map ident (fst r)) (ident (set_order x (stamp ctr d (length h))) :: map ident h).
Proof.
  cbv zeta. unfold push_peer. cbn [fst snd].
  set (x' := set_order x _).
  destruct (heap_push_spec ek_score ek_score_le ek_score_trans h x') as (L & I & P & V).
  split; [exact L|]. split; [reflexivity|]. split; [|exact P].
  intros [Hi Hv]. split; [now apply I|]. unfold svalid. rewrite L. now apply V.
Qed.

Lemma find_ps_spec h hp : idx_ok h -> In hp (hps h) ->
  exists y, find_ps h hp = Some y /\ ps_hp y = hp /\ 0 <= ps_index y < Z.of_nat (length h).
Proof.
  intros Hi Hin. unfold find_ps.
  destruct (find (fun x => bytes_eqb (ps_hp x) hp) h) as [y|] eqn:E.
  - apply find_some in E as [Hy E]. apply bytes_eqb_eq in E.
    exists y. split; [reflexivity|]. split; [exact E|].
    destruct (In_hget h y Hy) as (k & Hk & <-). rewrite Hi by exact Hk. lia.
  - exfalso. unfold hps in Hin. apply in_map_iff in Hin as (x & Ex & Hx).
    pose proof (find_none _ _ E x Hx) as Hf. cbn in Hf. rewrite Ex in Hf.
    rewrite (proj2 (bytes_eqb_eq hp hp) eq_refl) in Hf. discriminate.
Qed.

Lemma idx_ok_set h i x : idx_ok h -> ps_index x = ps_index (hget h i) -> idx_ok (set_nth h i x).
Proof.
  intros Hi E k Hk. rewrite length_set_nth in Hk.
  destruct (Nat.eq_dec i k) as [->|Hne].
  - rewrite hget_set_eq by exact Hk. rewrite E. now apply Hi.
  - rewrite hget_set_neq by exact Hne. now apply Hi.
Qed.

Lemma heap_fix_hinv h0 h i : hinv h0 -> idx_ok h -> length h = length h0 -> 0 <= i < Z.of_nat (length h) ->
  (forall k, (k < length h)%nat -> k <> Z.to_nat i -> key (hget h k) = key (hget h0 k)) ->
  exists h', heap_fix h i = Some h' /\ same (length h) h h' /\ hinv h'.
Proof.
  intros [_ Hv] Hi L Hr He.
  destruct (heap_fix_spec ek_score ek_score_le ek_score_trans h i Hr) as (h' & E & S & V).
  exists h'. split; [exact E|]. split; [exact S|]. split; [apply S, Hi|].
  rewrite (same_len _ _ _ S). apply V.
  apply (fix_pre_changed _ ek_score_trans h0); [lia|exact He|now rewrite L].
Qed.

Lemma swap_order_spec h i j : hinv h -> 0 <= i < Z.of_nat (length h) -> 0 <= j < Z.of_nat (length h) ->
  exists h', swap_order h i j = Some h' /\ length h' = length h /\ hinv h' /\
    Permutation (map hs h') (map hs h) /\ Permutation (map ps_order h') (map ps_order h).
Proof.
  intros [Hi Hv] Hri Hrj. unfold swap_order.
  destruct (Z.eqb_spec i j) as [Eij|Nij].
  { exists h. repeat split; auto. }
  destruct ((0 <=? i) && (i <? Z.of_nat (length h)) && (0 <=? j) && (j <? Z.of_nat (length h))) eqn:E; [|lia].
  set (i' := Z.to_nat i). set (j' := Z.to_nat j).
  assert (Hi' : (i' < length h)%nat) by (unfold i'; lia).
  assert (Hj' : (j' < length h)%nat) by (unfold j'; lia).
  set (a := hget h i'). set (b := hget h j').
  set (h1 := set_nth h i' (set_order a (ps_order b))).
  set (h2 := set_nth h1 j' (set_order b (ps_order a))).
  assert (Eb : hget h1 j' = b) by (unfold h1; rewrite hget_set_neq by (unfold i', j'; lia); reflexivity).
  assert (L2 : length h2 = length h) by (unfold h2, h1; now rewrite !length_set_nth).
  assert (Hs2 : map hs h2 = map hs h).
  { unfold h2. rewrite map_set_nth_same by (now rewrite Eb). unfold h1. now rewrite map_set_nth_same. }
  assert (I2 : hinv h2).
  { split; [|rewrite L2; now apply (svalid_hs h)].
    unfold h2. apply idx_ok_set; [unfold h1; apply idx_ok_set; [exact Hi|reflexivity]|now rewrite Eb]. }
  assert (Ho2 : Permutation (map ps_order h2) (map ps_order h)).
  { unfold h2, h1, a, b, hget. rewrite !map_set_nth. cbn [set_order ps_order].
    rewrite <- !(map_nth ps_order). apply lswap_perm; now rewrite map_length. }
  destruct (heap_fix_hinv h2 h2 i I2 (proj1 I2) eq_refl ltac:(lia) (fun _ _ _ => eq_refl)) as (h3 & E3 & S3 & I3).
  rewrite E3. pose proof (same_len _ _ _ S3) as L3.
  destruct (heap_fix_hinv h3 h3 j I3 (proj1 I3) eq_refl ltac:(lia) (fun _ _ _ => eq_refl)) as (h4 & E4 & S4 & I4).
  exists h4. split; [exact E4|]. split; [rewrite (same_len _ _ _ S4); lia|]. split; [exact I4|].
  assert (P : Permutation (map ident h4) (map ident h2)).
  { eapply perm_trans; [apply (same_perm _ _ _ S4)|apply (same_perm _ _ _ S3)]. }
  split.
  - rewrite <- Hs2. now apply ident_hs_perm.
  - eapply perm_trans; [apply ident_order_perm, P|exact Ho2].
Qed.

Lemma add_peer_spec h ctr x d1 d2 : hinv h ->
  exists h' , add_peer h ctr x d1 d2 = Some (h', wrapU 64 (ctr + 1)) /\
    length h' = S (length h) /\ hinv h' /\
    Permutation (map hs h') (hs x :: map hs h) /\
    Permutation (map ps_order h') (stamp ctr d1 (length h) :: map ps_order h).
Proof.
  intros Hinv. unfold add_peer.
  pose proof (push_peer_spec h ctr x d1) as Hp. cbv zeta in Hp.
  rewrite (surjective_pairing (push_peer h ctr x d1)).
  destruct Hp as (L1 & C1 & I1 & P1). specialize (I1 Hinv).
  set (h1 := fst (push_peer h ctr x d1)) in *. rewrite C1.
  assert (P1' : Permutation (map ident h1) (map ident (set_order x (stamp ctr d1 (length h)) :: h))) by exact P1.
  assert (Hin : In (ps_hp x) (hps h1)).
  { eapply Permutation_in; [apply Permutation_sym, ident_hp_perm; exact P1'|].
    cbn. left. reflexivity. }
  destruct (find_ps_spec h1 (ps_hp x) (proj1 I1) Hin) as (y & Ey & _ & Hy).
  rewrite Ey.
  assert (Hr : 0 <= intn d2 (Z.of_nat (length h1)) < Z.of_nat (length h1)).
  { unfold intn. apply Z.mod_pos_bound. lia. }
  destruct (swap_order_spec h1 (ps_index y) _ I1 Hy Hr) as (h2 & E2 & L2 & I2 & Ps & Po).
  rewrite E2. exists h2. split; [reflexivity|]. split; [lia|]. split; [exact I2|].
  split.
  - eapply perm_trans; [exact Ps|]. apply (ident_hs_perm _ _ P1').
  - eapply perm_trans; [exact Po|]. apply (ident_order_perm _ _ P1').
Qed.

Lemma update_score_spec h hp s : hinv h -> In hp (hps h) ->
  exists p h', find_pos h hp = Some p /\ update_score h hp s = Some h' /\ length h' = length h /\ hinv h' /\
    Permutation (map ident h') (map ident (set_nth h p (set_score (hget h p) s))).
Proof.
  intros Hinv Hin. unfold update_score.
  destruct (find_pos_in h hp Hin) as [p Ep]. rewrite Ep.
  destruct (find_pos_some h hp p Ep) as [Hp _].
  set (h1 := set_nth h p (set_score (hget h p) s)).
  assert (L1 : length h1 = length h) by apply length_set_nth.
  assert (Ey : ps_index (hget h p) = Z.of_nat p) by (apply Hinv; exact Hp).
  destruct (heap_fix_hinv h h1 (ps_index (hget h p)) Hinv) as (h2 & E2 & S2 & I2);
    [apply idx_ok_set; [apply Hinv|reflexivity]|exact L1|lia| |].
  { intros k _ Hk. unfold h1. rewrite hget_set_neq by lia. reflexivity. }
  exists p, h2. split; [reflexivity|]. split; [exact E2|].
  split; [rewrite (same_len _ _ _ S2); exact L1|]. split; [exact I2|exact (same_perm _ _ _ S2)].
Qed.

Lemma remove_peer_spec h hp : hinv h -> In hp (hps h) ->
  exists h' x, remove_peer h hp = Some h' /\ length h' = (length h - 1)%nat /\ hinv h' /\
    ps_hp x = hp /\ Permutation (map ident h) (ident x :: map ident h').
Proof.
  intros [Hi Hv] Hin. unfold remove_peer.
  destruct (find_pos_in h hp Hin) as [p Ep]. rewrite Ep.
  destruct (find_pos_some h hp p Ep) as [Hp Ehp].
  assert (Ey : ps_index (hget h p) = Z.of_nat p) by (apply Hi; exact Hp).
  destruct (heap_remove_spec ek_score ek_score_le ek_score_trans h (ps_index (hget h p)) ltac:(lia))
    as (h' & x & E & L & I & P & Ex & _ & V).
  rewrite E. exists h', x. split; [reflexivity|]. split; [exact L|].
  split; [split; [now apply I|unfold svalid; rewrite L; now apply V]|].
  split; [|exact P].
  rewrite Ey, Nat2Z.id in Ex. unfold ident in Ex. congruence.
Qed.

(* ---------------------------------------------------------------- PeerList well-formedness *)
Definition wf (l : plist) : Prop :=
  NoDup (pl_keys l) /\ Permutation (pl_keys l) (hps (pl_arr l)) /\ hinv (pl_arr l).
Definition peers_of (l : plist) : list (hostport * Z) := map hs (pl_arr l).
Definition orders_of (l : plist) : list Z := map ps_order (pl_arr l).

Lemma wf_empty : wf pl_empty.
Proof.
  split; [constructor|]. split; [constructor|]. split; [intros k Hk; cbn in Hk; lia|intros k Hk; cbn in Hk; lia].
Qed.

Lemma hs_hp_perm a b : Permutation (map hs a) (map hs b) -> Permutation (hps a) (hps b).
Proof.
  intros H. apply (Permutation_map fst) in H. rewrite !map_map in H. exact H.
Qed.

Lemma wf_len l : wf l -> length (pl_keys l) = length (pl_arr l).
Proof. intros (_ & P & _). apply Permutation_length in P. unfold hps in P. now rewrite map_length in P. Qed.

Lemma pl_add_spec l hp s d1 d2 : wf l ->
  exists l' n, pl_add l hp s d1 d2 = Some (l', n) /\ wf l' /\
    (In hp (pl_keys l) -> l' = l /\ n = 0) /\
    (~ In hp (pl_keys l) ->
       pl_keys l' = pl_keys l ++ [hp] /\ n = 2 /\ pl_ctr l' = wrapU 64 (pl_ctr l + 1) /\
       length (pl_arr l') = S (length (pl_arr l)) /\
       Permutation (peers_of l') ((hp, s) :: peers_of l) /\
       Permutation (orders_of l') (stamp (pl_ctr l) d1 (length (pl_arr l)) :: orders_of l)).
Proof.
  intros (Hnd & Hperm & Hinv). unfold pl_add.
  destruct (mem hp (pl_keys l)) eqn:Em.
  - apply mem_In in Em. exists l, 0. split; [reflexivity|]. split; [exact (conj Hnd (conj Hperm Hinv))|].
    split; [auto|tauto].
  - apply mem_false in Em.
    destruct (add_peer_spec (pl_arr l) (pl_ctr l) (mkPS hp s 0 (-1)) d1 d2 Hinv) as (h' & E & L & I & Ps & Po).
    rewrite E. eexists; eexists. split; [reflexivity|].
    assert (Hk : Permutation (pl_keys l ++ [hp]) (hps h')).
    { eapply perm_trans; [apply Permutation_sym, Permutation_cons_append|].
      eapply perm_trans; [apply perm_skip, Hperm|]. apply Permutation_sym. apply (hs_hp_perm _ (_ :: _)) in Ps. exact Ps. }
    split.
    { split; [|split; [exact Hk|exact I]]. cbn [pl_keys].
      eapply Permutation_NoDup; [apply Permutation_cons_append|]. now constructor. }
    split; [tauto|]. intros _. cbn. repeat split; auto.
Qed.

Lemma pl_remove_spec l hp : wf l ->
  exists l' ok, pl_remove l hp = Some (l', ok) /\ wf l' /\
    (ok = false -> l' = l /\ ~ In hp (pl_keys l)) /\
    (ok = true -> In hp (pl_keys l) /\ pl_keys l' = del hp (pl_keys l) /\ pl_ctr l' = pl_ctr l /\
       length (pl_arr l') = (length (pl_arr l) - 1)%nat /\
       exists x, ps_hp x = hp /\ Permutation (map ident (pl_arr l)) (ident x :: map ident (pl_arr l'))).
Proof.
  intros (Hnd & Hperm & Hinv). unfold pl_remove.
  destruct (mem hp (pl_keys l)) eqn:Em.
  - apply mem_In in Em.
    assert (Hin : In hp (hps (pl_arr l))) by (eapply Permutation_in; eassumption).
    destruct (remove_peer_spec (pl_arr l) hp Hinv Hin) as (h' & x & E & L & I & Ex & P).
    rewrite E. eexists; eexists. split; [reflexivity|]. split.
    + split; [apply del_NoDup, Hnd|]. split; [|exact I]. cbn [pl_keys pl_arr].
      apply (Permutation_cons_inv (a := hp)).
      eapply perm_trans; [apply Permutation_sym, del_perm; assumption|].
      eapply perm_trans; [exact Hperm|].
      apply (ident_hp_perm _ (x :: h')) in P. rewrite <- Ex. exact P.
    + split; [discriminate|]. intros _. cbn. repeat split; auto. exists x. auto.
  - apply mem_false in Em. exists l, false. split; [reflexivity|]. split; [exact (conj Hnd (conj Hperm Hinv))|].
    split; [auto|discriminate].
Qed.

(* ---------------------------------------------------------------- choosePeer *)
Definition opt_list (c : option pscore) : list pscore := match c with Some x => [x] | None => [] end.

Lemma ident_In_score h y : In (ident y) (map ident h) -> exists y0, In y0 h /\ ps_score y0 = ps_score y /\ ps_hp y0 = ps_hp y.
Proof.
  intros H. apply in_map_iff in H as (y0 & E & Hy). exists y0. unfold ident in E. split; [exact Hy|]. split; congruence.
Qed.

Lemma choose_loop_spec can : forall fuel h popped, (fuel <= length h)%nat -> hinv h ->
  exists h' newp chosen, choose_loop fuel h popped can = Some (h', popped ++ newp, chosen) /\ hinv h' /\
    Forall (fun x => can (ps_hp x) = false) newp /\
    Permutation (map ident h) (map ident newp ++ map ident (opt_list chosen) ++ map ident h') /\
    match chosen with
    | Some x => can (ps_hp x) = true /\ forall y, In y h' -> ps_score x <= ps_score y
    | None => length newp = fuel
    end.
Proof.
  induction fuel as [|f IH]; intros h popped Hf Hinv.
  { exists h, [], None. cbn [choose_loop opt_list map app length]. rewrite app_nil_r.
    split; [reflexivity|]. split; [exact Hinv|]. split; [constructor|]. split; [apply Permutation_refl|reflexivity]. }
  assert (Hne : h <> []) by (intros ->; cbn in Hf; lia).
  destruct Hinv as [Hi Hv].
  destruct (heap_pop_spec ek_score ek_score_le ek_score_trans h Hne) as (h1 & x & E & L & I & P & Ex & _ & V).
  cbn [choose_loop]. rewrite E.
  assert (Hinv1 : hinv h1) by (split; [now apply I|unfold svalid; rewrite L; now apply V]).
  destruct (can (ps_hp x)) eqn:Ec.
  - exists h1, [], (Some x). rewrite app_nil_r. split; [reflexivity|]. split; [exact Hinv1|].
    split; [constructor|]. split; [exact P|]. split; [exact Ec|].
    intros y Hy.
    assert (Hy' : In (ident y) (map ident h)).
    { eapply Permutation_in; [apply Permutation_sym, P|]. right. now apply in_map. }
    destruct (ident_In_score h y Hy') as (y0 & Hy0 & Es & _).
    destruct (In_hget h y0 Hy0) as (k & Hk & <-).
    replace (ps_score x) with (ps_score (hget h 0)) by (unfold ident in Ex; congruence).
    rewrite <- Es. apply (root_min h (length h)); assumption.
  - destruct (IH h1 (popped ++ [x]) ltac:(lia) Hinv1) as (h' & newp & chosen & E' & I' & F' & P' & M').
    exists h', (x :: newp), chosen. rewrite E'. rewrite <- app_assoc. split; [reflexivity|].
    split; [exact I'|]. split; [constructor; assumption|].
    split.
    { cbn [map app]. eapply perm_trans; [exact P|]. apply perm_skip. exact P'. }
    destruct chosen; [exact M'|]. cbn [length]. lia.
Qed.

Lemma fold_push_spec : forall popped h, hinv h ->
  hinv (fold_left heap_push popped h) /\
  Permutation (map ident (fold_left heap_push popped h)) (map ident popped ++ map ident h) /\
  length (fold_left heap_push popped h) = (length popped + length h)%nat.
Proof.
  induction popped as [|x r IH]; intros h Hinv; [cbn; auto|].
  cbn [fold_left].
  destruct (heap_push_spec ek_score ek_score_le ek_score_trans h x) as (L & I & P & V).
  assert (Hinv1 : hinv (heap_push h x)).
  { destruct Hinv as [Hi Hv]. split; [now apply I|]. unfold svalid. rewrite L. now apply V. }
  destruct (IH _ Hinv1) as (I2 & P2 & L2). split; [exact I2|]. split.
  - eapply perm_trans; [exact P2|]. cbn [map app].
    eapply perm_trans; [apply Permutation_app_head, P|]. apply Permutation_sym, Permutation_middle.
  - rewrite L2, L. cbn [length]. lia.
Qed.

Definition chosen_spec (can : hostport -> bool) (l l' : plist) (d : Z) (hp : hostport) : Prop :=
  can hp = true /\ pl_ctr l' = wrapU 64 (pl_ctr l + 1) /\
  exists x R, ps_hp x = hp /\
    Permutation (map ident (pl_arr l)) (map ident (x :: R)) /\
    Permutation (map ident (pl_arr l'))
      (map ident (set_order x (stamp (pl_ctr l) d (length (pl_arr l) - 1)) :: R)) /\
    (forall y, In y R -> can (ps_hp y) = true -> ps_score x <= ps_score y).

Lemma choose_peer_spec l prev avoid d : wf l ->
  exists l' chosen n, choose_peer l prev avoid d = Some (l', chosen, n) /\ wf l' /\
    pl_keys l' = pl_keys l /\ length (pl_arr l') = length (pl_arr l) /\
    match chosen with
    | None => n = 0 /\ pl_ctr l' = pl_ctr l /\
              Permutation (map ident (pl_arr l')) (map ident (pl_arr l)) /\
              (forall q, In q (pl_keys l) -> can_choose prev avoid q = false)
    | Some hp => n = 1 /\ chosen_spec (can_choose prev avoid) l l' d hp
    end.
Proof.
  intros (Hnd & Hperm & Hinv). unfold choose_peer.
  set (can := can_choose prev avoid).
  destruct (choose_loop_spec can (length (pl_arr l)) (pl_arr l) [] (le_n _) Hinv)
    as (h' & newp & chosen & E & I' & F & P & M).
  rewrite E. cbn [app].
  destruct (fold_push_spec newp h' I') as (I1 & P1 & L1).
  set (h1 := fold_left heap_push newp h') in *.
  assert (Plen : length (pl_arr l) = (length newp + length (opt_list chosen) + length h')%nat).
  { apply Permutation_length in P. rewrite !app_length, !map_length in P. lia. }
  destruct chosen as [x|].
  - destruct M as [Mc Mmin].
    pose proof (push_peer_spec h1 (pl_ctr l) x d) as Hp. cbv zeta in Hp.
    rewrite (surjective_pairing (push_peer h1 (pl_ctr l) x d)).
    destruct Hp as (L2 & C2 & I2 & P2). specialize (I2 I1).
    set (h2 := fst (push_peer h1 (pl_ctr l) x d)) in *.
    cbn [opt_list length] in Plen.
    assert (Eh1 : length h1 = (length (pl_arr l) - 1)%nat) by lia.
    exists (mkPL (pl_keys l) h2 (snd (push_peer h1 (pl_ctr l) x d))), (Some (ps_hp x)), 1.
    split; [reflexivity|].
    assert (PR : Permutation (map ident (pl_arr l)) (ident x :: map ident h1)).
    { eapply perm_trans; [exact P|]. cbn [opt_list map app].
      eapply perm_trans; [apply Permutation_sym, Permutation_middle|]. apply perm_skip.
      apply Permutation_sym. exact P1. }
    split.
    { split; [exact Hnd|]. split; [|exact I2]. cbn [pl_keys pl_arr].
      eapply perm_trans; [exact Hperm|].
      eapply perm_trans; [apply (ident_hp_perm _ (x :: h1)); exact PR|].
      apply Permutation_sym. apply (ident_hp_perm h2 (set_order x (stamp (pl_ctr l) d (length h1)) :: h1)). exact P2. }
    split; [reflexivity|]. split; [cbn [pl_arr]; lia|]. split; [reflexivity|].
    split; [exact Mc|]. split; [exact C2|].
    exists x, h1. split; [reflexivity|]. split; [exact PR|].
    split; [cbn [pl_arr]; rewrite <- Eh1; exact P2|].
    intros y Hy Hcan. apply (in_map ident) in Hy.
    eapply Permutation_in in Hy; [|exact P1].
    apply in_app_or in Hy as [Hy|Hy]; apply ident_In_score in Hy as (y0 & Hy0 & <- & Eh); rewrite <- Eh in Hcan.
    + rewrite Forall_forall in F. specialize (F y0 Hy0). fold can in F. congruence.
    + now apply Mmin.
  - cbn [opt_list length] in Plen.
    exists (mkPL (pl_keys l) h1 (pl_ctr l)), None, 0. split; [reflexivity|].
    assert (Eh' : h' = []) by (destruct h'; [reflexivity|cbn [length] in Plen; lia]).
    assert (PR : Permutation (map ident h1) (map ident (pl_arr l))).
    { eapply perm_trans; [exact P1|]. apply Permutation_sym. exact P. }
    split.
    { split; [exact Hnd|]. split; [|exact I1]. cbn [pl_keys pl_arr].
      eapply perm_trans; [exact Hperm|]. apply Permutation_sym. now apply ident_hp_perm. }
    split; [reflexivity|]. split; [cbn [pl_arr]; lia|]. split; [reflexivity|]. split; [reflexivity|].
    split; [exact PR|].
    intros q Hq.
    assert (Hq' : In q (hps newp)).
    { eapply Permutation_in in Hq; [|exact Hperm].
      subst h'. cbn [opt_list map app] in P. rewrite app_nil_r in P.
      eapply Permutation_in in Hq; [|apply ident_hp_perm; exact P]. exact Hq. }
    unfold hps in Hq'. apply in_map_iff in Hq' as (y & <- & Hy).
    rewrite Forall_forall in F. now apply F.
Qed.

(* ---------------------------------------------------------------- Get / GetNew *)
Lemma host_of_get_host hp : host_of hp = get_host hp.
Proof. reflexivity. (* the two host functions are the same fixpoint *) Qed.

Lemma can_tier1 prev hp : can_choose prev true hp = tier1 prev hp.
Proof.
  unfold can_choose, tier1, tried, mem. pose proof (host_of_get_host hp) as E. destruct E.
  destruct (existsb (bytes_eqb hp) prev); [reflexivity|]. destruct (existsb (bytes_eqb (host_of hp)) prev); reflexivity.
Qed.
Lemma can_tier2 prev hp : can_choose prev false hp = tier2 prev hp.
Proof. unfold can_choose, tier2, tried, mem. destruct (existsb (bytes_eqb hp) prev); reflexivity. Qed.
Lemma can_tier3 hp : can_choose [] false hp = true.
Proof. reflexivity. Qed.

Definition nochg (l l1 : plist) : Prop :=
  pl_keys l1 = pl_keys l /\ length (pl_arr l1) = length (pl_arr l) /\ pl_ctr l1 = pl_ctr l /\
  Permutation (map ident (pl_arr l1)) (map ident (pl_arr l)).

Lemma nochg_refl l : nochg l l.
Proof. repeat split; auto. Qed.
Lemma nochg_trans a b c : nochg a b -> nochg b c -> nochg a c.
Proof.
  intros (K1 & L1 & C1 & P1) (K2 & L2 & C2 & P2). split; [congruence|]. split; [congruence|].
  split; [congruence|]. eapply perm_trans; eassumption.
Qed.

Lemma chosen_transport can l l1 l2 d hp : nochg l l1 -> chosen_spec can l1 l2 d hp -> chosen_spec can l l2 d hp.
Proof.
  intros (K1 & L1 & C1 & P1) (Hc & Hctr & x & R & Ex & Pa & Pb & Hmin).
  split; [exact Hc|]. split; [now rewrite <- C1|].
  exists x, R. split; [exact Ex|]. split; [eapply perm_trans; [apply Permutation_sym, P1|exact Pa]|].
  split; [now rewrite <- C1, <- L1|exact Hmin].
Qed.

Lemma least_loaded_ext e e' peers p : (forall q, e q = e' q) -> least_loaded e peers p -> least_loaded e' peers p.
Proof.
  intros He (s & Hin & Hp & Hmin). exists s. split; [exact Hin|]. split; [now rewrite <- He|].
  intros q sq Hq Hel. apply (Hmin q sq Hq). now rewrite He.
Qed.

Lemma wf_key_entry l K sc : wf l -> In (K, sc) (peers_of l) -> In K (pl_keys l).
Proof.
  intros (_ & Hperm & _) Hin. eapply Permutation_in; [apply Permutation_sym, Hperm|].
  apply (in_map fst) in Hin. unfold peers_of in Hin. rewrite map_map in Hin. exact Hin.
Qed.

Lemma eligible_get_tiers prev keys p : eligible_get prev keys p = true ->
  ((exists q, In q keys /\ tier2 prev q = true) -> tier2 prev p = true) /\
  ((exists q, In q keys /\ tier1 prev q = true) -> tier1 prev p = true).
Proof.
  unfold eligible_get. intros He.
  assert (Ex : forall t q, In q keys -> t q = true -> existsb t keys = true)
    by (intros t q Hq Ht; apply existsb_exists; eauto).
  split; intros (q & Hq & Ht).
  - destruct (existsb (tier1 prev) keys).
    + unfold tier1 in He. now apply andb_true_iff in He.
    + now rewrite (Ex _ q Hq Ht) in He.
  - now rewrite (Ex _ q Hq Ht) in He.
Qed.

Lemma chosen_least can l l' d hp : chosen_spec can l l' d hp ->
  least_loaded can (peers_of l) hp /\ Permutation (peers_of l') (peers_of l) /\ In hp (hps (pl_arr l)).
Proof.
  intros (Hc & Hctr & x & R & Ex & Pa & Pb & Hmin).
  pose proof (ident_hs_perm _ _ Pa) as Pa'. pose proof (ident_hs_perm _ _ Pb) as Pb'.
  fold (peers_of l) in Pa'. fold (peers_of l') in Pb'.
  split; [|split].
  - exists (ps_score x). split.
    { eapply Permutation_in; [apply Permutation_sym, Pa'|]. left. unfold hs. now rewrite Ex. }
    split; [exact Hc|]. intros q sq Hq Hel.
    eapply Permutation_in in Hq; [|exact Pa']. destruct Hq as [Hq|Hq].
    + injection Hq as _ <-. lia.
    + apply in_map_iff in Hq as (y & Ey & Hy). injection Ey as <- <-. now apply Hmin.
  - eapply perm_trans; [exact Pb'|apply Permutation_sym, Pa'].
  - eapply Permutation_in; [apply Permutation_sym, (ident_hp_perm _ _ Pa)|]. left. exact Ex.
Qed.

Lemma keys_of_chosen can l l' d p : wf l -> chosen_spec can l l' d p -> In p (pl_keys l).
Proof.
  intros (_ & P & _) Hs. destruct (chosen_least _ _ _ _ _ Hs) as (_ & _ & Hin).
  eapply Permutation_in; [apply Permutation_sym, P|exact Hin].
Qed.

Lemma eligible_getnew_1 prev keys p : In p keys -> tier1 prev p = true ->
  forall q, eligible_getnew prev keys q = tier1 prev q.
Proof.
  intros Hp Ht q. unfold eligible_getnew.
  replace (existsb (tier1 prev) keys) with true; [reflexivity|]. symmetry. apply existsb_exists. eauto.
Qed.
Lemma eligible_getnew_2 prev keys : (forall q, In q keys -> tier1 prev q = false) ->
  forall q, eligible_getnew prev keys q = tier2 prev q.
Proof. intros F q. unfold eligible_getnew. now rewrite (proj2 (existsb_false_forall _ _) F). Qed.
Lemma eligible_get_new prev keys p : In p keys -> eligible_getnew prev keys p = true ->
  forall q, eligible_get prev keys q = eligible_getnew prev keys q.
Proof.
  intros Hp He q. unfold eligible_get, eligible_getnew in *.
  destruct (existsb (tier1 prev) keys); [reflexivity|].
  replace (existsb (tier2 prev) keys) with true; [reflexivity|]. symmetry. apply existsb_exists. eauto.
Qed.
Lemma eligible_get_3 prev keys : (forall q, In q keys -> tier2 prev q = false) ->
  forall q, eligible_get prev keys q = true.
Proof.
  intros F q. unfold eligible_get. rewrite (proj2 (existsb_false_forall (tier2 prev) keys) F).
  replace (existsb (tier1 prev) keys) with false; [reflexivity|]. symmetry. apply existsb_false_forall.
  intros x Hx. unfold tier1. specialize (F x Hx). unfold tier2 in F. now rewrite F.
Qed.

Lemma wf_keys_nil l : wf l -> (pl_len l =? 0) = true <-> pl_keys l = [].
Proof.
  intros Hwf. pose proof (wf_len l Hwf) as E. unfold pl_len.
  destruct (pl_keys l); cbn [length] in E; split; intros H; try lia; try discriminate; reflexivity.
Qed.

Definition getnew_spec (l : plist) (prev : list hostport) (d : Z) (l' : plist) (r : sel) (n : Z) : Prop :=
  wf l' /\ pl_keys l' = pl_keys l /\
  match r with
  | SelNoPeers => pl_keys l = [] /\ l' = l /\ n = 0
  | SelNoNewPeers => pl_keys l <> [] /\ nochg l l' /\ n = 0 /\
                     (forall q, In q (pl_keys l) -> tier2 prev q = false)
  | SelOk p => n = 1 /\ exists can, chosen_spec can l l' d p /\
                                    forall q, can q = eligible_getnew prev (pl_keys l) q
  end.

Lemma pl_getnew_spec l prev d : wf l ->
  exists l' r n, pl_getnew l prev d = Some (l', r, n) /\ getnew_spec l prev d l' r n.
Proof.
  intros Hwf. unfold pl_getnew.
  destruct (pl_len l =? 0) eqn:E0.
  { exists l, SelNoPeers, 0. split; [reflexivity|]. split; [exact Hwf|]. split; [reflexivity|].
    split; [now apply (wf_keys_nil l Hwf)|auto]. }
  assert (Hne : pl_keys l <> []) by (intros H; apply (wf_keys_nil l Hwf) in H; congruence).
  destruct (choose_peer_spec l prev true d Hwf) as (l1 & c1 & n1 & E1 & W1 & K1 & L1 & M1).
  rewrite E1. destruct c1 as [hp|].
  { destruct M1 as [-> Hs]. exists l1, (SelOk hp), 1. split; [reflexivity|].
    split; [exact W1|]. split; [exact K1|]. split; [reflexivity|].
    exists (can_choose prev true). split; [exact Hs|]. intros q. rewrite can_tier1. symmetry.
    apply (eligible_getnew_1 prev _ hp); [exact (keys_of_chosen _ _ _ _ _ Hwf Hs)|rewrite <- can_tier1; apply Hs]. }
  destruct M1 as (-> & C1 & P1 & F1).
  assert (N1 : nochg l l1) by (repeat split; assumption).
  destruct (choose_peer_spec l1 prev false d W1) as (l2 & c2 & n2 & E2 & W2 & K2 & L2 & M2).
  rewrite E2. destruct c2 as [hp|].
  { destruct M2 as [-> Hs]. exists l2, (SelOk hp), 1. split; [reflexivity|].
    split; [exact W2|]. split; [congruence|]. split; [reflexivity|].
    exists (can_choose prev false). split; [eapply chosen_transport; eassumption|].
    intros q. rewrite can_tier2. symmetry. apply eligible_getnew_2.
    intros x Hx. rewrite <- can_tier1. now apply F1. }
  destruct M2 as (-> & C2 & P2 & F2).
  exists l2, SelNoNewPeers, 0. split; [reflexivity|]. split; [exact W2|]. split; [congruence|].
  split; [exact Hne|]. split.
  { eapply nochg_trans; [exact N1|]. repeat split; assumption. }
  split; [reflexivity|]. intros q Hq. rewrite <- can_tier2. apply F2. now rewrite K1.
Qed.

Definition get_spec (l : plist) (prev : list hostport) (d : Z) (l' : plist) (r : sel) (n : Z) : Prop :=
  wf l' /\ pl_keys l' = pl_keys l /\
  match r with
  | SelNoPeers => pl_keys l = [] /\ l' = l /\ n = 0
  | SelNoNewPeers => False
  | SelOk p => n = 1 /\ exists can, chosen_spec can l l' d p /\
                                    forall q, can q = eligible_get prev (pl_keys l) q
  end.

Lemma pl_get_spec l prev d : wf l ->
  exists l' r n, pl_get l prev d = Some (l', r, n) /\ get_spec l prev d l' r n.
Proof.
  intros Hwf. unfold pl_get.
  destruct (pl_getnew_spec l prev d Hwf) as (l1 & r1 & n1 & E1 & W1 & K1 & M1).
  rewrite E1. destruct r1 as [hp| |].
  - exists l1, (SelOk hp), n1. split; [reflexivity|]. split; [exact W1|]. split; [exact K1|].
    destruct M1 as (-> & can & Hs & Hag). split; [reflexivity|]. exists can. split; [exact Hs|].
    intros q. rewrite Hag. symmetry.
    apply (eligible_get_new prev _ hp); [exact (keys_of_chosen _ _ _ _ _ Hwf Hs)|rewrite <- Hag; apply Hs].
  - exists l1, SelNoPeers, n1. split; [reflexivity|]. split; [exact W1|]. split; [exact K1|exact M1].
  - destruct M1 as (Hne & N1 & -> & F1).
    destruct (choose_peer_spec l1 [] false d W1) as (l2 & c2 & n2 & E2 & W2 & K2 & L2 & M2).
    rewrite E2. destruct c2 as [hp|].
    + destruct M2 as [-> Hs]. exists l2, (SelOk hp), 1. split; [reflexivity|].
      split; [exact W2|]. split; [congruence|]. split; [reflexivity|].
      exists (can_choose [] false). split; [eapply chosen_transport; eassumption|].
      intros q. symmetry. now apply eligible_get_3.
    + exfalso. destruct M2 as (_ & _ & _ & F2).
      destruct (pl_keys l) as [|q ks] eqn:Ek; [congruence|].
      specialize (F2 q). rewrite K1 in F2. specialize (F2 (or_introl eq_refl)). discriminate.
Qed.

Lemma get_min_eligible l prev d : wf l ->
  match pl_get l prev d with
  | Some (l', SelOk p, _) =>
      least_loaded (eligible_get prev (pl_keys l)) (peers_of l) p /\
      wf l' /\ pl_keys l' = pl_keys l /\ Permutation (peers_of l') (peers_of l)
  | Some (l', SelNoPeers, _) => pl_keys l = [] /\ l' = l
  | _ => False
  end.
Proof.
  intros Hwf. destruct (pl_get_spec l prev d Hwf) as (l' & r & n & E & W' & K' & M). rewrite E.
  destruct r as [p| |]; [|tauto|exact M].
  destruct M as (_ & can & Hs & Hag). destruct (chosen_least _ _ _ _ _ Hs) as (LL & PP & _).
  split; [exact (least_loaded_ext _ _ _ _ Hag LL)|auto].
Qed.

Lemma getnew_min_eligible l prev d : wf l ->
  match pl_getnew l prev d with
  | Some (l', SelOk p, _) =>
      least_loaded (eligible_getnew prev (pl_keys l)) (peers_of l) p /\
      pl_keys l' = pl_keys l /\ Permutation (peers_of l') (peers_of l)
  | Some (l', SelNoPeers, _) => pl_keys l = [] /\ l' = l
  | Some (l', SelNoNewPeers, _) =>
      pl_keys l <> [] /\ (forall q, In q (pl_keys l) -> tier2 prev q = false) /\
      pl_keys l' = pl_keys l /\ Permutation (peers_of l') (peers_of l)
  | None => False
  end.
Proof.
  intros Hwf. destruct (pl_getnew_spec l prev d Hwf) as (l' & r & n & E & W' & K' & M). rewrite E.
  destruct r as [p| |]; [|tauto|].
  - destruct M as (_ & can & Hs & Hag). destruct (chosen_least _ _ _ _ _ Hs) as (LL & PP & _).
    split; [exact (least_loaded_ext _ _ _ _ Hag LL)|auto].
  - destruct M as (Hne & (_ & _ & _ & P) & _ & F). split; [exact Hne|]. split; [exact F|].
    split; [exact K'|now apply ident_hs_perm].
Qed.

(* ---------------------------------------------------------------- score updates *)
Definition upd_spec (l l' : plist) : Prop :=
  wf l' /\ pl_keys l' = pl_keys l /\ pl_ctr l' = pl_ctr l /\ length (pl_arr l') = length (pl_arr l) /\
  Permutation (orders_of l') (orders_of l).

Lemma upd_spec_refl l : wf l -> upd_spec l l.
Proof. intros H. repeat split; auto; apply H. Qed.
Lemma upd_spec_trans a b c : upd_spec a b -> upd_spec b c -> upd_spec a c.
Proof.
  intros (W1 & K1 & C1 & L1 & P1) (W2 & K2 & C2 & L2 & P2).
  split; [exact W2|]. split; [congruence|]. split; [congruence|]. split; [congruence|].
  eapply perm_trans; eassumption.
Qed.

Lemma pl_update_spec l hp s : wf l -> exists l', pl_update l hp s = Some l' /\ upd_spec l l'.
Proof.
  intros Hwf. pose proof Hwf as (Hnd & Hperm & Hinv). unfold pl_update.
  destruct (mem hp (pl_keys l)) eqn:Em; [|exists l; split; [reflexivity|now apply upd_spec_refl]].
  apply mem_In in Em.
  assert (Hin : In hp (hps (pl_arr l))) by (eapply Permutation_in; eassumption).
  destruct (find_pos_in _ _ Hin) as [p Ep]. rewrite Ep.
  destruct (ps_score (hget (pl_arr l) p) =? s); [exists l; split; [reflexivity|now apply upd_spec_refl]|].
  destruct (update_score_spec (pl_arr l) hp s Hinv Hin) as (p' & h' & Ep' & E & L & I & P).
  rewrite E. eexists. split; [reflexivity|].
  assert (Ph : Permutation (hps h') (hps (pl_arr l))).
  { eapply perm_trans; [apply ident_hp_perm, P|]. unfold hps. now rewrite map_set_nth_same. }
  split; [|cbn; repeat split; auto].
  - split; [exact Hnd|]. split; [|exact I]. cbn [pl_keys pl_arr].
    eapply perm_trans; [exact Hperm|apply Permutation_sym, Ph].
  - eapply perm_trans; [apply ident_order_perm, P|]. now rewrite map_set_nth_same.
Qed.

Lemma pl_update_all_spec score_of : forall order l, wf l ->
  exists l', pl_update_all l score_of order = Some l' /\ upd_spec l l'.
Proof.
  induction order as [|hp r IH]; intros l Hwf; cbn [pl_update_all].
  { exists l. split; [reflexivity|now apply upd_spec_refl]. }
  destruct (pl_update_spec l hp (score_of hp) Hwf) as (l1 & E1 & S1). rewrite E1.
  destruct (IH l1 (proj1 S1)) as (l2 & E2 & S2). exists l2. split; [exact E2|].
  eapply upd_spec_trans; eassumption.
Qed.

Lemma pl_set_strategy_spec l score_of order : wf l ->
  exists l', pl_set_strategy l score_of order = Some l' /\ upd_spec l l'.
Proof. intros Hwf. unfold pl_set_strategy. now apply pl_update_all_spec. Qed.

(* ---------------------------------------------------------------- histories on one list *)
Inductive lop :=
| LAdd (hp : hostport) (score d1 d2 : Z)
| LRemove (hp : hostport)
| LGet (prev : list hostport) (d : Z)
| LGetNew (prev : list hostport) (d : Z)
| LUpdate (hp : hostport) (score : Z)
| LSetStrategy (score_of : hostport -> Z) (order : list hostport).

Definition lstep (l : plist) (op : lop) : option plist :=
  match op with
  | LAdd hp s d1 d2 => match pl_add l hp s d1 d2 with Some (l', _) => Some l' | None => None end
  | LRemove hp => match pl_remove l hp with Some (l', _) => Some l' | None => None end
  | LGet prev d => match pl_get l prev d with Some (l', _, _) => Some l' | None => None end
  | LGetNew prev d => match pl_getnew l prev d with Some (l', _, _) => Some l' | None => None end
  | LUpdate hp s => pl_update l hp s
  | LSetStrategy f order => pl_set_strategy l f order
  end.

Fixpoint lrun (l : plist) (ops : list lop) : option plist :=
  match ops with
  | [] => Some l
  | op :: r => match lstep l op with Some l' => lrun l' r | None => None end
  end.

Lemma lstep_wf l op : wf l -> exists l', lstep l op = Some l' /\ wf l'.
Proof.
  intros Hwf. destruct op as [hp s d1 d2|hp|prev d|prev d|hp s|f order]; cbn [lstep].
  - destruct (pl_add_spec l hp s d1 d2 Hwf) as (l' & n & E & W & _). rewrite E. eauto.
  - destruct (pl_remove_spec l hp Hwf) as (l' & ok & E & W & _). rewrite E. eauto.
  - destruct (pl_get_spec l prev d Hwf) as (l' & r & n & E & W & _). rewrite E. eauto.
  - destruct (pl_getnew_spec l prev d Hwf) as (l' & r & n & E & W & _). rewrite E. eauto.
  - destruct (pl_update_spec l hp s Hwf) as (l' & E & W & _). eauto.
  - destruct (pl_set_strategy_spec l f order Hwf) as (l' & E & W & _). eauto.
Qed.

Lemma lrun_wf ops : forall l, wf l -> exists l', lrun l ops = Some l' /\ wf l'.
Proof.
  induction ops as [|op r IH]; intros l Hwf; cbn [lrun]; [eauto|].
  destruct (lstep_wf l op Hwf) as (l1 & E & W). rewrite E. now apply IH.
Qed.

(* ---------------------------------------------------------------- stamp bound *)
Definition stamp_ok (l : plist) : Prop :=
  forall o, In o (orders_of l) -> o <= pl_ctr l + Z.of_nat (length (pl_arr l)) / 2 + 1.

Definition is_remove (op : lop) : bool := match op with LRemove _ => true | _ => false end.

Lemma stamp_val ctr d len : 0 <= ctr -> ctr + Z.of_nat len / 2 + 2 < 2 ^ 64 ->
  ctr + 1 <= stamp ctr d len <= ctr + 1 + Z.of_nat len / 2 /\ wrapU 64 (ctr + 1) = ctr + 1.
Proof.
  intros H0 Hb. unfold stamp, intn.
  assert (Hm : 0 <= d mod (Z.of_nat len / 2 + 1) < Z.of_nat len / 2 + 1) by (apply Z.mod_pos_bound; lia).
  assert (E1 : wrapU 64 (ctr + 1) = ctr + 1) by (apply wrapU_id; lia).
  rewrite E1. rewrite wrapU_id by lia. lia.
Qed.

Lemma stamp_step_chosen can l l' d p :
  chosen_spec can l l' d p -> length (pl_arr l') = length (pl_arr l) -> stamp_ok l ->
  0 <= pl_ctr l -> pl_ctr l + Z.of_nat (length (pl_arr l)) / 2 + 2 < 2 ^ 64 ->
  stamp_ok l' /\ pl_ctr l' = pl_ctr l + 1.
Proof.
  intros (Hc & Hctr & x & R & Ex & Pa & Pb & Hmin) L Hs H0 Hb.
  set (n := length (pl_arr l)) in *.
  assert (Hn : (0 < n)%nat).
  { apply Permutation_length in Pa. rewrite !map_length in Pa. cbn [length] in Pa. unfold n. lia. }
  destruct (stamp_val (pl_ctr l) d (n - 1) H0 ltac:(lia)) as [Hst Ew].
  split; [|congruence].
  intros o Ho. rewrite Hctr, Ew, L. fold n.
  apply ident_order_perm in Pa, Pb.
  eapply Permutation_in in Ho; [|exact Pb]. cbn [map] in Ho. destruct Ho as [<-|Ho].
  - cbn [set_order ps_order]. lia.
  - assert (Ho' : In o (orders_of l)).
    { eapply Permutation_in; [apply Permutation_sym, Pa|]. right. exact Ho. }
    specialize (Hs o Ho'). fold n in Hs. lia.
Qed.

Definition sinv (k : Z) (l : plist) : Prop :=
  wf l /\ 0 <= pl_ctr l <= k /\ Z.of_nat (length (pl_arr l)) <= k /\ stamp_ok l.

Lemma lstep_effect l op l' : wf l -> lstep l op = Some l' ->
  (pl_ctr l' = pl_ctr l /\ length (pl_arr l') = length (pl_arr l) /\ Permutation (orders_of l') (orders_of l)) \/
  (exists d, pl_ctr l' = wrapU 64 (pl_ctr l + 1) /\ length (pl_arr l') = S (length (pl_arr l)) /\
             Permutation (orders_of l') (stamp (pl_ctr l) d (length (pl_arr l)) :: orders_of l)) \/
  (exists can d p, chosen_spec can l l' d p /\ length (pl_arr l') = length (pl_arr l)) \/
  (is_remove op = true /\ pl_ctr l' = pl_ctr l).
Proof.
  intros Hwf E.
  assert (Hlen : forall l1, wf l1 -> pl_keys l1 = pl_keys l -> length (pl_arr l1) = length (pl_arr l))
    by (intros l1 W K; rewrite <- !wf_len by assumption; now rewrite K).
  destruct op as [hp s d1 d2|hp|prev d|prev d|hp s|f order]; cbn [lstep] in E.
  - destruct (pl_add_spec l hp s d1 d2 Hwf) as (l1 & n & E1 & _ & Hold & Hnew). rewrite E1 in E. injection E as <-.
    destruct (in_dec (list_eq_dec Z.eq_dec) hp (pl_keys l)) as [Hin|Hnin].
    + destruct (Hold Hin) as [-> _]. left. auto.
    + destruct (Hnew Hnin) as (_ & _ & C & L & _ & Po). right; left. exists d1. auto.
  - destruct (pl_remove_spec l hp Hwf) as (l1 & ok & E1 & _ & Hf & Ht). rewrite E1 in E. injection E as <-.
    right; right; right. split; [reflexivity|].
    destruct ok; [now destruct (Ht eq_refl) as (_ & _ & C & _)|now destruct (Hf eq_refl) as [-> _]].
  - destruct (pl_get_spec l prev d Hwf) as (l1 & r & n & E1 & W & K & M). rewrite E1 in E. injection E as <-.
    destruct r as [p| |]; [|destruct M as (_ & -> & _); left; auto|destruct M].
    right; right; left. destruct M as (_ & can & H & _). exists can, d, p. split; [exact H|exact (Hlen _ W K)].
  - destruct (pl_getnew_spec l prev d Hwf) as (l1 & r & n & E1 & W & K & M). rewrite E1 in E. injection E as <-.
    destruct r as [p| |]; [|destruct M as (_ & -> & _); left; auto|].
    + right; right; left. destruct M as (_ & can & H & _). exists can, d, p. split; [exact H|exact (Hlen _ W K)].
    + destruct M as (_ & (_ & L & C & P) & _). left. split; [exact C|]. split; [exact L|now apply ident_order_perm].
  - destruct (pl_update_spec l hp s Hwf) as (l1 & E1 & _ & _ & C & L & P). rewrite E1 in E. injection E as <-. left. auto.
  - destruct (pl_set_strategy_spec l f order Hwf) as (l1 & E1 & _ & _ & C & L & P). rewrite E1 in E. injection E as <-. left. auto.
Qed.

Lemma lstep_ctr l op l' : wf l -> 0 <= pl_ctr l -> lstep l op = Some l' -> 0 <= pl_ctr l'.
Proof.
  intros Hwf Hc E.
  destruct (lstep_effect l op l' Hwf E) as [(C & _)|[(d & C & _)|[(can & d & p & (_ & C & _) & _)|(_ & C)]]];
    rewrite C; try exact Hc; apply wrapU_range; lia.
Qed.

Lemma lstep_stamp k l op : is_remove op = false -> 2 * k + 4 < 2 ^ 64 -> sinv k l ->
  exists l', lstep l op = Some l' /\ sinv (k + 1) l'.
Proof.
  intros Hnr Hk (Hwf & Hc & Hl & Hs).
  assert (Hb : pl_ctr l + Z.of_nat (length (pl_arr l)) / 2 + 2 < 2 ^ 64) by lia.
  destruct (lstep_wf l op Hwf) as (l' & E & W). exists l'. split; [exact E|]. split; [exact W|].
  destruct (lstep_effect l op l' Hwf E) as [(C & L & P)|[(d & C & L & P)|[(can & d & p & Hcs & L)|(Hr & _)]]].
  - rewrite C, L. split; [lia|]. split; [lia|]. intros o Ho. rewrite C, L. apply Hs. eapply Permutation_in; eassumption.
  - destruct (stamp_val (pl_ctr l) d (length (pl_arr l)) ltac:(lia) Hb) as [Hst Ew].
    rewrite C, Ew, L. split; [lia|]. split; [lia|].
    intros o Ho. eapply Permutation_in in Ho; [|exact P]. rewrite C, Ew, L.
    destruct Ho as [<-|Ho]; [lia|]. specialize (Hs o Ho). lia.
  - destruct (stamp_step_chosen can l l' d p Hcs L Hs ltac:(lia) Hb) as [Hs' Ec].
    split; [lia|]. split; [lia|exact Hs'].
  - congruence.
Qed.

Lemma lrun_stamp ops : forall k l, forallb (fun op => negb (is_remove op)) ops = true ->
  2 * (k + Z.of_nat (length ops)) + 4 < 2 ^ 64 -> sinv k l ->
  exists l', lrun l ops = Some l' /\ sinv (k + Z.of_nat (length ops)) l'.
Proof.
  induction ops as [|op r IH]; intros k l Hnr Hk Hi; cbn [lrun].
  { exists l. split; [reflexivity|]. cbn [length]. now rewrite Z.add_0_r. }
  cbn [forallb] in Hnr. apply andb_true_iff in Hnr as [Hop Hr]. apply negb_true_iff in Hop.
  cbn [length] in Hk |- *.
  destruct (lstep_stamp k l op Hop ltac:(lia) Hi) as (l1 & E & I1). rewrite E.
  destruct (IH (k + 1) l1 Hr ltac:(lia) I1) as (l2 & E2 & I2). exists l2. split; [exact E2|].
  replace (k + Z.of_nat (S (length r))) with (k + 1 + Z.of_nat (length r)) by lia. exact I2.
Qed.

(* ---------------------------------------------------------------- fairness *)
Lemma pl_get_nil_eq l d h' x : heap_pop (pl_arr l) = Some (h', x) ->
  pl_get l [] d =
    Some (mkPL (pl_keys l) (fst (push_peer h' (pl_ctr l) x d)) (snd (push_peer h' (pl_ctr l) x d)),
          SelOk (ps_hp x), 1).
Proof.
  intros E. unfold pl_get, pl_getnew, pl_len.
  destruct (pl_arr l) as [|y r] eqn:Ea; [discriminate|].
  cbn [length]. destruct (Z.eqb_spec (Z.of_nat (S (length r))) 0); [lia|].
  unfold choose_peer. rewrite Ea. cbn [length choose_loop]. rewrite E.
  cbn [can_choose mem existsb app fold_left].
  rewrite (surjective_pairing (push_peer h' (pl_ctr l) x d)). reflexivity.
Qed.

Section Fair.
Variables (s B : Z) (n : nat).
Let K : Z * Z := (s, B).

Record win (l : plist) : Prop := {
  W_idx : idx_ok (pl_arr l);
  W_len : length (pl_arr l) = n;
  W_sc : forall x, In x (pl_arr l) -> ps_score x = s;
  W_val : valid (ek_big K) (pl_arr l) n;
  W_ctr : 0 <= pl_ctr l }.

Fixpoint cnt (os : list Z) : nat :=
  match os with [] => O | o :: r => ((if (o <=? B)%Z then 1 else 0) + cnt r)%nat end.

Lemma cnt_perm a b : Permutation a b -> cnt a = cnt b.
Proof. induction 1; cbn [cnt]; lia. Qed.
Lemma cnt_le os : (cnt os <= length os)%nat.
Proof. induction os as [|o r IH]; cbn [cnt length]; [lia|]. destruct (o <=? B); lia. Qed.
Lemma cnt_pos os o : In o os -> o <= B -> (0 < cnt os)%nat.
Proof.
  induction os as [|a r IH]; intros Hin Ho; [destruct Hin|]. cbn [cnt].
  destruct Hin as [->|Hin]; [destruct (Z.leb_spec o B); lia|]. specialize (IH Hin Ho). lia.
Qed.

Lemma fair_step l d : win l -> (0 < n)%nat -> pl_ctr l + Z.of_nat n / 2 + 2 < 2 ^ 64 ->
  exists x h' l', heap_pop (pl_arr l) = Some (h', x) /\
    pl_get l [] d = Some (l', SelOk (ps_hp x), 1) /\ win l' /\ pl_ctr l' = pl_ctr l + 1 /\
    pl_keys l' = pl_keys l /\
    Permutation (map ident (pl_arr l)) (ident x :: map ident h') /\
    Permutation (map ident (pl_arr l')) (ident (set_order x (stamp (pl_ctr l) d (n - 1))) :: map ident h') /\
    ident x = ident (hget (pl_arr l) 0).
Proof.
  intros [Wi Wl Ws Wv Wc] Hn Hb.
  assert (Hne : pl_arr l <> []) by (intros E; rewrite E in Wl; cbn in Wl; lia).
  destruct (heap_pop_spec (ek_big K) (ek_big_le K) (ek_big_trans K) (pl_arr l) Hne) as (h' & x & E & L & I & P & Ex & _ & V).
  pose proof (push_peer_spec h' (pl_ctr l) x d) as Hp. cbv zeta in Hp.
  destruct Hp as (L2 & C2 & _ & P2).
  destruct (heap_push_spec (ek_big K) (ek_big_le K) (ek_big_trans K) h'
              (set_order x (stamp (pl_ctr l) d (length h')))) as (_ & I3 & _ & V3).
  exists x, h'. eexists. split; [exact E|]. split; [apply pl_get_nil_eq; exact E|].
  assert (Lh : length h' = (n - 1)%nat) by lia.
  destruct (stamp_val (pl_ctr l) d (n - 1) Wc ltac:(lia)) as [Hst Ew].
  split; [|split; [cbn [pl_ctr]; rewrite C2; exact Ew|split; [reflexivity|split; [exact P|split; [cbn [pl_arr]; rewrite <- Lh; exact P2|exact Ex]]]]].
  assert (Epush : fst (push_peer h' (pl_ctr l) x d) = heap_push h' (set_order x (stamp (pl_ctr l) d (length h')))) by reflexivity.
  constructor; cbn [pl_arr pl_ctr].
  - rewrite Epush. apply I3, I, Wi.
  - lia.
  - intros y Hy. apply (in_map ident) in Hy. eapply Permutation_in in Hy; [|exact P2].
    assert (Hx : ps_score x = s).
    { replace (ps_score x) with (ps_score (hget (pl_arr l) 0)) by (unfold ident in Ex; congruence).
      apply Ws, hget_In. lia. }
    destruct Hy as [Hy|Hy].
    + unfold ident in Hy. cbn in Hy. congruence.
    + assert (Hy' : In (ident y) (map ident (pl_arr l))).
      { eapply Permutation_in; [apply Permutation_sym, P|]. now right. }
      destruct (ident_In_score _ _ Hy') as (y0 & Hy0 & Es & _). rewrite <- Es. now apply Ws.
  - rewrite Epush. replace n with (S (length h')) by lia. apply V3.
    rewrite Lh. rewrite Wl in V. now apply V.
  - rewrite C2, Ew. lia.
Qed.

Lemma get_nils_total ds : forall l, win l -> (0 < n)%nat ->
  pl_ctr l + Z.of_nat (length ds) + Z.of_nat n / 2 + 2 < 2 ^ 64 ->
  exists l' sel, get_nils l ds = Some (l', sel) /\ length sel = length ds /\ win l' /\ pl_keys l' = pl_keys l.
Proof.
  induction ds as [|d r IH]; intros l Hw Hn Hb; cbn [get_nils].
  { exists l, []. auto. }
  cbn [length] in Hb.
  destruct (fair_step l d Hw Hn ltac:(lia)) as (x & h' & l1 & _ & E & W1 & C1 & K1 & _).
  rewrite E. destruct (IH l1 W1 Hn ltac:(lia)) as (l2 & sel & E2 & L2 & W2 & K2). rewrite E2.
  exists l2, (ps_hp x :: sel). split; [reflexivity|]. cbn [length]. split; [lia|]. split; [exact W2|congruence].
Qed.

Lemma root_small l y : win l -> In y (pl_arr l) -> ps_order y <= B -> ps_order (hget (pl_arr l) 0) <= B.
Proof.
  intros [Wi Wl Ws Wv Wc] Hy Ho.
  destruct (Z.leb_spec (ps_order (hget (pl_arr l) 0)) B) as [H|H]; [exact H|exfalso].
  destruct (In_hget _ _ Hy) as (k & Hk & Ek).
  assert (H0 : (0 < length (pl_arr l))%nat) by lia.
  assert (Hr : kless K (key (hget (pl_arr l) 0)) = true).
  { unfold kless, K, key. cbn [fst snd]. rewrite (Ws _ (hget_In _ _ H0)). rewrite Z.eqb_refl. lia. }
  pose proof (root_big K _ _ Wv Hr k ltac:(lia)) as Hb.
  rewrite Ek in Hb. unfold kless, K, key in Hb. cbn [fst snd] in Hb. rewrite (Ws _ Hy), Z.eqb_refl in Hb. lia.
Qed.

Lemma fair_core : forall m l ds, win l -> (0 < n)%nat ->
  Z.max 0 (B - pl_ctr l) + Z.of_nat (cnt (orders_of l)) <= Z.of_nat m ->
  (m <= length ds)%nat ->
  pl_ctr l + Z.of_nat (length ds) + Z.of_nat n / 2 + 2 < 2 ^ 64 ->
  forall y, In y (pl_arr l) -> ps_order y <= B ->
  exists l' sel, get_nils l ds = Some (l', sel) /\ In (ps_hp y) (firstn m sel).
Proof.
  induction m as [|m IH]; intros l ds Hw Hn HM Hm Hb y Hy Ho.
  { exfalso. assert (0 < cnt (orders_of l))%nat by (eapply cnt_pos; [apply in_map; exact Hy|exact Ho]). lia. }
  destruct ds as [|d r]; [cbn in Hm; lia|]. cbn [length] in Hm, Hb. cbn [get_nils].
  destruct (fair_step l d Hw Hn ltac:(lia)) as (x & h' & l1 & _ & E & W1 & C1 & K1 & P & P1 & Ex).
  rewrite E.
  assert (Hy' : In (ident y) (ident x :: map ident h')).
  { eapply Permutation_in; [exact P|]. now apply in_map. }
  destruct Hy' as [Hy'|Hy'].
  - destruct (get_nils_total r l1 W1 Hn ltac:(lia)) as (l2 & sel & E2 & _). rewrite E2.
    exists l2, (ps_hp x :: sel). split; [reflexivity|]. cbn [firstn]. left. unfold ident in Hy'. congruence.
  - assert (Hy1 : In (ident y) (map ident (pl_arr l1))).
    { eapply Permutation_in; [apply Permutation_sym, P1|]. now right. }
    apply in_map_iff in Hy1 as (y1 & Ey1 & Hy1).
    assert (Ho1 : ps_order y1 <= B) by (unfold ident in Ey1; congruence).
    (* measure decreases *)
    assert (Hxs : ps_order x <= B).
    { replace (ps_order x) with (ps_order (hget (pl_arr l) 0)) by (unfold ident in Ex; congruence).
      eapply root_small; eassumption. }
    assert (Hc0 : cnt (orders_of l) = S (cnt (map ps_order h'))).
    { unfold orders_of. rewrite (cnt_perm _ _ (ident_order_perm _ (x :: h') P)). cbn [map cnt].
      destruct (Z.leb_spec (ps_order x) B); lia. }
    assert (Hc1 : cnt (orders_of l1) =
                  ((if (stamp (pl_ctr l) d (n - 1) <=? B)%Z then 1 else 0) + cnt (map ps_order h'))%nat).
    { unfold orders_of.
      rewrite (cnt_perm _ _ (ident_order_perm _ (set_order x (stamp (pl_ctr l) d (n - 1)) :: h') P1)).
      reflexivity. }
    destruct (stamp_val (pl_ctr l) d (n - 1) (W_ctr _ Hw) ltac:(lia)) as [Hst _].
    assert (HM1 : Z.max 0 (B - pl_ctr l1) + Z.of_nat (cnt (orders_of l1)) <= Z.of_nat m).
    { rewrite C1, Hc1. rewrite Hc0 in HM. destruct (Z.leb_spec (stamp (pl_ctr l) d (n - 1)) B); lia. }
    destruct (IH l1 r W1 Hn HM1 ltac:(lia) ltac:(lia) y1 Hy1 Ho1) as (l2 & sel & E2 & Hin). rewrite E2.
    exists l2, (ps_hp x :: sel). split; [reflexivity|]. cbn [firstn]. right.
    replace (ps_hp y) with (ps_hp y1) by (unfold ident in Ey1; congruence). exact Hin.
Qed.
End Fair.

Lemma firstn_In_le {A} (x : A) l m k : (m <= k)%nat -> In x (firstn m l) -> In x (firstn k l).
Proof.
  revert m k; induction l as [|a l IH]; intros m k Hmk H; [destruct m, k; cbn in *; tauto|].
  destruct m as [|m]; [destruct H|]. destruct k as [|k]; [lia|]. cbn [firstn] in *.
  destruct H as [H|H]; [now left|right]. apply (IH m k); [lia|exact H].
Qed.

Theorem fair_window l ds (s : Z) : wf l ->
  (forall x, In x (pl_arr l) -> ps_score x = s) -> stamp_ok l -> 0 <= pl_ctr l ->
  let n := length (pl_arr l) in
  (0 < n)%nat -> length ds = (3 * n)%nat ->
  pl_ctr l + 3 * Z.of_nat n + Z.of_nat n / 2 + 2 < 2 ^ 64 ->
  exists l' sel, get_nils l ds = Some (l', sel) /\ length sel = (3 * n)%nat /\ pl_keys l' = pl_keys l /\
    forall p, In p (pl_keys l) -> In p (firstn (n + n / 2 + 1) sel).
Proof.
  intros Hwf Hsc Hst Hc n Hn Hds Hb.
  set (B := pl_ctr l + Z.of_nat n / 2 + 1).
  assert (Hw : win s B n l).
  { destruct Hwf as (_ & _ & Hi & _). constructor; auto.
    intros k Hk. unfold edge, ek_big. intros Hbig. exfalso.
    assert (Hp : In (hget (pl_arr l) (par k)) (pl_arr l)) by (apply hget_In; pose proof (par_lt k); unfold n in *; lia).
    unfold kless, key in Hbig. cbn [fst snd] in Hbig. rewrite (Hsc _ Hp), Z.eqb_refl in Hbig.
    specialize (Hst (ps_order (hget (pl_arr l) (par k))) (in_map ps_order _ _ Hp)). fold n in Hst. unfold B in Hbig. lia. }
  destruct (get_nils_total s B n ds l Hw Hn ltac:(rewrite Hds; lia)) as (l' & sel & E & Ls & _ & Kk).
  exists l', sel. split; [exact E|]. split; [lia|]. split; [exact Kk|].
  intros p Hp.
  assert (Hp' : In p (hps (pl_arr l))) by (eapply Permutation_in; [apply Hwf|exact Hp]).
  unfold hps in Hp'. apply in_map_iff in Hp' as (y & <- & Hy).
  assert (Ho : ps_order y <= B) by (specialize (Hst _ (in_map ps_order _ _ Hy)); fold n in Hst; unfold B; lia).
  assert (HM : Z.max 0 (B - pl_ctr l) + Z.of_nat (cnt B (orders_of l)) <= Z.of_nat (n + n / 2 + 1)).
  { pose proof (cnt_le B (orders_of l)) as Hc'. unfold orders_of in Hc' at 2. rewrite map_length in Hc'. fold n in Hc'.
    assert (H1 : Z.of_nat (n + n / 2 + 1) = Z.of_nat n + Z.of_nat n / 2 + 1) by (clearbody n; lia).
    rewrite H1. replace (B - pl_ctr l) with (Z.of_nat n / 2 + 1) by (unfold B; ring).
    clear - Hc'. clearbody n.
    assert (0 <= Z.of_nat n / 2) by (apply Z.div_pos; lia). rewrite Z.max_r by lia. lia. }
  destruct (fair_core s B n (n + n / 2 + 1) l ds Hw Hn HM ltac:(rewrite Hds; lia) ltac:(rewrite Hds; lia) y Hy Ho)
    as (l2 & sel2 & E2 & Hin).
  rewrite E in E2. injection E2 as _ <-. exact Hin.
Qed.

(* ---------------------------------------------------------------- score calculators (generated) *)
Lemma prefer_incoming_closed inb outb pend :
  0 <= inb -> 0 <= outb -> inb + outb < 2 ^ 63 -> 0 <= pend < 2 ^ 31 ->
  preferIncomingScore inb outb pend =
    if inb + outb =? 0 then 2 ^ 64 - 1 else if inb =? 0 then 2 ^ 31 - 1 + pend else pend.
Proof.
  intros Hi Ho Hs Hp. unfold preferIncomingScore.
  rewrite wrapS_id by lia. destruct (inb + outb =? 0); [reflexivity|].
  rewrite (wrapU_id 64 pend) by lia. destruct (inb =? 0); [|reflexivity].
  rewrite wrapU_id by lia. reflexivity.
Qed.

Lemma prefer_incoming_rank i1 o1 p1 i2 o2 p2 :
  0 <= i1 -> 0 <= o1 -> i1 + o1 < 2 ^ 63 -> 0 <= p1 < 2 ^ 31 - 1 ->
  0 <= i2 -> 0 <= o2 -> i2 + o2 < 2 ^ 63 -> 0 <= p2 < 2 ^ 31 - 1 ->
  (preferIncomingScore i1 o1 p1 < preferIncomingScore i2 o2 p2 <->
   rank_lt (default_rank i1 o1 p1) (default_rank i2 o2 p2)).
Proof.
  intros. rewrite !prefer_incoming_closed by (try assumption; lia). unfold rank_lt, default_rank.
  destruct (Z.eqb_spec (i1 + o1) 0), (Z.eqb_spec (i2 + o2) 0), (Z.eqb_spec i1 0), (Z.eqb_spec i2 0);
    cbn [fst snd]; lia.
Qed.

(* ---------------------------------------------------------------- the channel: every list of every history *)
Definition chan_wf (c : chan) : Prop := Forall (fun cl => wf (cl_pl cl)) (ch_lists c).

Lemma set_list_Forall (P : clist -> Prop) ls j c : Forall P ls -> P c -> Forall P (set_list ls j c).
Proof.
  intros H Hc. revert j; induction H as [|x r Hx Hr IH]; intros [|j]; cbn; constructor; auto.
Qed.

Lemma nth_error_Forall {A} (P : A -> Prop) ls j x : Forall P ls -> nth_error ls j = Some x -> P x.
Proof. intros H E. rewrite Forall_forall in H. apply H. eapply nth_error_In; eassumption. Qed.

Lemma update_lists_wf w hp : forall ls, Forall (fun cl => wf (cl_pl cl)) ls ->
  exists ls', update_lists ls w hp = Some ls' /\ Forall (fun cl => wf (cl_pl cl)) ls'.
Proof.
  induction ls as [|c r IH]; intros H; cbn [update_lists]; [eauto|].
  inversion H as [|? ? Hc Hr]; subst.
  destruct (pl_update_spec (cl_pl c) hp (calc (cl_strat c) (w_get w hp)) Hc) as (l' & E & W & _).
  destruct (IH Hr) as (r' & E' & W'). rewrite E, E'. eexists. split; [reflexivity|]. constructor; assumption.
Qed.

Lemma chan_step_wf c op : chan_wf c -> exists c' r, chan_step c op = Some (c', r) /\ chan_wf c'.
Proof.
  intros Hwf. unfold chan_wf in *.
  assert (Hget : forall j cl, nth_error (ch_lists c) j = Some cl -> wf (cl_pl cl))
    by (intros j cl En; exact (nth_error_Forall _ _ _ _ Hwf En)).
  assert (Hset : forall w j l' st (r : cres), wf l' ->
            exists c' r', Some (mkChan w (set_list (ch_lists c) j (mkCL l' st)), r) = Some (c', r') /\
                          Forall (fun cl => wf (cl_pl cl)) (ch_lists c')).
  { intros w j l' st r W. eexists; eexists. split; [reflexivity|]. now apply set_list_Forall. }
  destruct op as [j hp d1 d2|j hp|j prev d|j prev d|hp a b p cu|j strat order]; cbn [chan_step];
    try (destruct (nth_error (ch_lists c) j) as [cl|] eqn:En; [apply Hget in En|eauto]).
  - destruct (pl_add_spec (cl_pl cl) hp (calc (cl_strat cl) (w_get (ch_world c) hp)) d1 d2 En) as (l' & n & E & W & _).
    rewrite E. now apply Hset.
  - destruct (pl_remove_spec (cl_pl cl) hp En) as (l' & ok & E & W & _). rewrite E. now apply Hset.
  - destruct (pl_get_spec (cl_pl cl) prev d En) as (l' & r & n & E & W & _). rewrite E. now apply Hset.
  - destruct (pl_getnew_spec (cl_pl cl) prev d En) as (l' & r & n & E & W & _). rewrite E. now apply Hset.
  - destruct (update_lists_wf (w_set (ch_world c) hp (mkAttrs a b p cu (a_chosen (w_get (ch_world c) hp)))) hp _ Hwf)
      as (ls' & E & W). rewrite E. eauto.
  - destruct (pl_set_strategy_spec (cl_pl cl) (fun hp => calc strat (w_get (ch_world c) hp)) order En) as (l' & E & W & _).
    rewrite E. now apply Hset.
Qed.

Lemma chan_run_wf ops : forall c, chan_wf c -> exists c', chan_run c ops = Some c' /\ chan_wf c'.
Proof.
  induction ops as [|op r IH]; intros c Hwf; cbn [chan_run]; [eauto|].
  destruct (chan_step_wf c op Hwf) as (c1 & res & E & W). rewrite E. now apply IH.
Qed.

Lemma chan_init_wf n : chan_wf (chan_init n).
Proof.
  unfold chan_wf, chan_init. cbn [ch_lists]. constructor; [apply wf_empty|].
  apply Forall_forall. intros x Hx. apply repeat_spec in Hx. subst x. apply wf_empty.
Qed.

(* ---------------------------------------------------------------- what the pinned code does NOT guarantee *)
(* heap order on the full key (score, order) *)
Definition lex_valid (h : list pscore) : Prop := valid (fun a b => kless b a = false) h (length h).

Definition adds (n : nat) : list lop := map (fun i => LAdd [Z.of_nat i] 0 0 0) (seq 1 n).

(* four Adds, the 4th swapping its stamp with the root's: addPeer's swapOrder fixes position 0
   after the first Fix has moved the root element away *)
Definition lex_witness : list lop :=
  [LAdd [1] 0 0 0; LAdd [2] 0 0 1; LAdd [3] 0 0 2; LAdd [9] 0 0 0].

Lemma lex_order_refuted : exists ops l, lrun pl_empty ops = Some l /\ ~ lex_valid (pl_arr l).
Proof.
  exists lex_witness. eexists. split; [vm_compute; reflexivity|].
  intros H. specialize (H 3%nat ltac:(cbn; lia)). vm_compute in H. discriminate.
Qed.

(* fairness after the list shrank: 16 peers, one selection with the largest jitter, 14 removed;
   the survivor [16] is not chosen in the next 3n = 6 selections *)
Definition shrink_witness : list lop :=
  adds 16 ++ [LGet [] 7] ++
  map (fun i => LRemove [Z.of_nat i]) (seq 2 14).

Lemma fair_refuted : exists ops l ds p,
  lrun pl_empty ops = Some l /\
  (forall x, In x (pl_arr l) -> ps_score x = 0) /\
  length ds = (3 * length (pl_arr l))%nat /\ In p (pl_keys l) /\
  exists l' sel, get_nils l ds = Some (l', sel) /\ ~ In p sel.
Proof.
  exists shrink_witness. eexists. exists [0; 0; 0; 0; 0; 0], [16].
  split; [vm_compute; reflexivity|].
  split; [intros x [<-|[<-|[]]]; reflexivity|].
  split; [reflexivity|]. split; [cbn; tauto|].
  eexists; eexists. split; [vm_compute; reflexivity|].
  apply mem_false. vm_compute. reflexivity.
Qed.

(* ---------------------------------------------------------------- reachable lists and channels *)
Lemma chan_heap_inv n ops : exists c, chan_run (chan_init n) ops = Some c /\
  forall cl, In cl (ch_lists c) -> wf (cl_pl cl).
Proof.
  destruct (chan_run_wf ops (chan_init n) (chan_init_wf n)) as (c & E & W). exists c. split; [exact E|].
  now apply Forall_forall.
Qed.

Lemma lrun_reach_wf ops l : lrun pl_empty ops = Some l -> wf l.
Proof. intros E. destruct (lrun_wf ops pl_empty wf_empty) as (l' & E' & W). congruence. Qed.

Lemma get_nopeers_iff l prev d : wf l ->
  ((exists l' n, pl_get l prev d = Some (l', SelNoPeers, n)) <-> pl_keys l = []) /\
  pl_get l prev d <> None /\
  (forall l' n, pl_get l prev d <> Some (l', SelNoNewPeers, n)).
Proof.
  intros Hwf. destruct (pl_get_spec l prev d Hwf) as (l' & r & n & E & W' & K' & M).
  split; [|split; [congruence|]].
  - split.
    + intros (l2 & n2 & E2). rewrite E in E2. injection E2 as _ -> _. apply M.
    + intros Hk. destruct r as [p| |]; [|eauto|destruct M].
      exfalso. destruct M as (_ & can & Hs & _).
      pose proof (keys_of_chosen _ _ _ _ _ Hwf Hs) as Hin. rewrite Hk in Hin. destruct Hin.
  - intros l2 n2 E2. rewrite E in E2. injection E2 as _ -> _. exact M.
Qed.

Lemma lrun_ctr ops : forall l l', wf l -> 0 <= pl_ctr l -> lrun l ops = Some l' -> 0 <= pl_ctr l'.
Proof.
  induction ops as [|op r IH]; intros l l' Hwf Hc E; cbn [lrun] in E; [injection E as <-; exact Hc|].
  destruct (lstep l op) as [l1|] eqn:E1; [|discriminate].
  destruct (lstep_wf l op Hwf) as (l1' & E1' & W1). rewrite E1 in E1'. injection E1' as <-.
  eapply IH; [exact W1| |exact E]. exact (lstep_ctr l op l1 Hwf Hc E1).
Qed.

Lemma stamp_reachable ops l : forallb (fun op => negb (is_remove op)) ops = true ->
  2 * Z.of_nat (length ops) + 4 < 2 ^ 64 -> lrun pl_empty ops = Some l -> stamp_ok l.
Proof.
  intros Hnr Hk E.
  assert (H0 : sinv 0 pl_empty).
  { split; [apply wf_empty|]. cbn. split; [lia|]. split; [lia|]. intros o []. }
  destruct (lrun_stamp ops 0 pl_empty Hnr ltac:(lia) H0) as (l' & E' & _ & _ & _ & Hs).
  rewrite E in E'. injection E' as <-. exact Hs.
Qed.

Lemma min_eligible_reachable ops l prev d : lrun pl_empty ops = Some l ->
  match pl_get l prev d with
  | Some (l', SelOk p, _) =>
      least_loaded (eligible_get prev (pl_keys l)) (peers_of l) p /\
      pl_keys l' = pl_keys l /\ Permutation (peers_of l') (peers_of l)
  | Some (l', SelNoPeers, _) => pl_keys l = [] /\ l' = l
  | _ => False
  end.
Proof.
  intros E. pose proof (get_min_eligible l prev d (lrun_reach_wf ops l E)) as H.
  destruct (pl_get l prev d) as [[[l' [p| |]] n]|]; tauto.
Qed.

Lemma tier_scores inb outb pend :
  0 <= inb -> 0 <= outb -> inb + outb < 2 ^ 63 -> 0 <= pend < 2 ^ 31 ->
  preferIncomingScore inb outb pend =
    (if inb + outb =? 0 then 2 ^ 64 - 1 else if inb =? 0 then 2 ^ 31 - 1 + pend else pend) /\
  leastPendingScore inb outb pend = (if inb + outb =? 0 then 2 ^ 64 - 1 else pend).
Proof.
  intros Hi Ho Hs Hp. split; [now apply prefer_incoming_closed|].
  unfold leastPendingScore. rewrite wrapS_id by lia. destruct (inb + outb =? 0); [reflexivity|].
  now rewrite wrapU_id by lia.
Qed.
