(* No-panic facts about the per-frame path (C03). *)
From Coq Require Import ZArith List Bool Lia ZifyBool.
From Verif Require Import Base.Wrap Base.Bytes Gen.GenConsts Gen.GenFrame Model.TypedBuf Model.Messages
  Model.Crc Model.Frag Model.FragWire Proofs.CodecP Proofs.CodecsP.
Import ListNotations.
Local Open Scope Z_scope.

Lemma skipn_skipn' {A} (a b : nat) (l : list A) : skipn b (skipn a l) = skipn (a + b) l.
Proof.
  revert l. induction a as [|a IH]; intros l; [reflexivity|]. destruct l as [|x l]; [destruct b; reflexivity|]. cbn [skipn Nat.add]. apply IH.
Qed.

Definition rsuffix {A} (rd : rbuf -> A * rbuf) : Prop := forall r, exists k, rrem (snd (rd r)) = skipn k (rrem r).

Lemma suffix_ret {A} (v : A) : rsuffix (retR v).
Proof. intros r. exists 0%nat. reflexivity. Qed.
Lemma suffix_bytes n : rsuffix (r_bytes n).
Proof.
  intros r. unfold r_bytes. destruct (rerr r); [exists 0%nat; reflexivity|].
  destruct (length (rrem r) <? n)%nat; [exists 0%nat; reflexivity|]. exists n. reflexivity.
Qed.
Lemma suffix_bind {A B} (m : rbuf -> A * rbuf) (k : A -> rbuf -> B * rbuf) :
  rsuffix m -> (forall x, rsuffix (k x)) -> rsuffix (bindR m k).
Proof.
  intros Hm Hk r. unfold bindR. destruct (Hm r) as [a Ha]. destruct (m r) as [x r1]. cbn [snd] in Ha.
  destruct (Hk x r1) as [b Hb]. exists (a + b)%nat. rewrite Hb, Ha. rewrite skipn_skipn'. reflexivity.
Qed.

Ltac suffix_tac :=
  intros; repeat first [ apply suffix_ret | apply suffix_bytes | (apply suffix_bind; [|intros]) ].

Lemma suffix_uint n : rsuffix (r_uint n).
Proof. unfold r_uint. apply suffix_bind; [apply suffix_bytes|]. intros b r. exists 0%nat. reflexivity. Qed.
Lemma suffix_len8 : rsuffix r_len8.
Proof. unfold r_len8, r_string. apply suffix_bind; [apply suffix_uint|intros; apply suffix_bytes]. Qed.
Lemma suffix_span : rsuffix r_span.
Proof. unfold r_span. repeat (apply suffix_bind; [apply suffix_uint|intros]). apply suffix_ret. Qed.
Lemma suffix_kv8s n : rsuffix (r_kv8s n).
Proof.
  induction n as [|n IH]; cbn [r_kv8s]; [apply suffix_ret|].
  apply suffix_bind; [apply suffix_len8|intros]. apply suffix_bind; [apply suffix_len8|intros].
  apply suffix_bind; [apply IH|intros]. apply suffix_ret.
Qed.
Lemma suffix_headers : rsuffix r_headers.
Proof. unfold r_headers. apply suffix_bind; [apply suffix_uint|intros; apply suffix_kv8s]. Qed.
Lemma suffix_callreq : rsuffix r_callreq.
Proof.
  unfold r_callreq. apply suffix_bind; [apply suffix_uint|intros]. apply suffix_bind; [apply suffix_span|intros].
  apply suffix_bind; [apply suffix_len8|intros]. apply suffix_bind; [apply suffix_headers|intros]. apply suffix_ret.
Qed.
Lemma suffix_callres : rsuffix r_callres.
Proof.
  unfold r_callres. apply suffix_bind; [apply suffix_uint|intros]. apply suffix_bind; [apply suffix_span|intros].
  apply suffix_bind; [apply suffix_headers|intros]. apply suffix_ret.
Qed.

Lemma suffix_bytes_ok {A} (rd : rbuf -> A * rbuf) r : rsuffix rd -> bytes_ok (rrem r) = true -> bytes_ok (rrem (snd (rd r))) = true.
Proof. intros H Hb. destruct (H r) as [k Hk]. rewrite Hk. apply bytes_ok_skipn, Hb. Qed.

Lemma r_u8_range r v r1 : bytes_ok (rrem r) = true -> r_u8 r = (v, r1) -> 0 <= v < 256.
Proof.
  intros Hb E. unfold r_u8, r_uint, bindR in E. destruct (r_bytes 1 r) as [b r'] eqn:E3.
  injection E as Ev Er. destruct (rerr r'); [lia|]. subst v.
  unfold r_bytes in E3. destruct (rerr r); [injection E3 as Eb _; subst b; cbn; lia|].
  destruct (length (rrem r) <? 1)%nat; injection E3 as Eb _; subst b; [cbn; lia|].
  pose proof (unbe_range (firstn 1 (rrem r)) (bytes_ok_firstn 1 _ Hb)) as R.
  assert (L : (length (firstn 1 (rrem r)) <= 1)%nat) by (rewrite firstn_length; lia).
  assert (256 ^ Z.of_nat (length (firstn 1 (rrem r))) <= 256).
  { destruct (length (firstn 1 (rrem r))) as [|[|n]]; [cbn; lia|cbn; lia|lia]. }
  change (match rrem r with [] => [] | a :: _ => [a] end) with (firstn 1 (rrem r)). lia.
Qed.

Lemma ctype_known ct : 0 <= ct < c_checksumCount -> ck_new ct <> None.
Proof.
  intros C. unfold ck_new. replace ((ct <? 0) || (ct >=? c_checksumCount)) with false by lia.
  destruct (ct =? c_ChecksumTypeCrc32); [discriminate|]. destruct (ct =? c_ChecksumTypeCrc32C); discriminate.
Qed.

(* what parseInboundFragment has checked of a fragment it accepts, whatever the payload bytes and the
   message type: the checksum type byte is in range and the checksum field has that type's size *)
Lemma parsed_fields mt payload f : bytes_ok payload = true -> parse_frag_payload mt payload = (0, f) ->
  0 <= f_ctype f < c_checksumCount /\ zlen (f_ck f) = ChecksumSize (f_ctype f).
Proof.
  intros Hb. unfold parse_frag_payload. destruct (r_u8 (rb payload)) as [flags r0] eqn:E0.
  assert (B0 : bytes_ok (rrem r0) = true).
  { pose proof (suffix_bytes_ok r_u8 (rb payload) (suffix_uint 1) Hb) as X. rewrite E0 in X. exact X. }
  set (r1 := if mt =? c_messageTypeCallReq then snd (r_callreq r0) else if mt =? c_messageTypeCallRes then snd (r_callres r0) else r0).
  assert (B1 : bytes_ok (rrem r1) = true).
  { unfold r1. destruct (mt =? c_messageTypeCallReq); [apply (suffix_bytes_ok r_callreq r0 suffix_callreq B0)|].
    destruct (mt =? c_messageTypeCallRes); [apply (suffix_bytes_ok r_callres r0 suffix_callres B0)|exact B0]. }
  destruct (rerr r1); [discriminate|].
  unfold parse_frag_tail. destruct (r_u8 r1) as [ct r2] eqn:E1.
  pose proof (r_u8_range _ _ _ B1 E1) as Rct.
  destruct ((ct >=? c_checksumCount) && negb (rerr r2)) eqn:G; [discriminate|].
  destruct (r_bytes (Z.to_nat (ChecksumSize ct)) r2) as [ck r3] eqn:E2.
  destruct (rerr r3) eqn:R3; [discriminate|].
  destruct (parse_chunks (length (rrem r3)) r3 []) as [code cs]. intros H. inversion H; subst. cbn [f_ctype f_ck].
  unfold r_bytes in E2. destruct (rerr r2) eqn:R2; [inversion E2; subst; congruence|].
  rewrite andb_true_r in G. split; [lia|].
  destruct (length (rrem r2) <? Z.to_nat (ChecksumSize ct))%nat eqn:El; inversion E2; subst; [cbn in R3; discriminate|].
  unfold zlen. rewrite firstn_length.
  assert (0 <= ChecksumSize ct) by (unfold ChecksumSize; repeat match goal with |- context [if ?b then _ else _] => destruct b end; lia).
  lia.
Qed.

(* MAIN: for ALL payload bytes and message types, a fragment accepted by the parser carries a
   known checksum type, so ChecksumType.New() (pool index lookup) cannot panic *)
Theorem parsed_ctype_known mt payload f : bytes_ok payload = true ->
  parse_frag_payload mt payload = (0, f) -> 0 <= f_ctype f < c_checksumCount /\ ck_new (f_ctype f) <> None.
Proof. intros Hb Hp. destruct (parsed_fields _ _ _ Hb Hp) as [C _]. split; [exact C|exact (ctype_known _ C)]. Qed.

(* ... and receiving that fragment as the first of a message does not panic either: it is
   accepted, or fails with a checksum mismatch (8) or "no chunks" (13) *)
Theorem parsed_fragment_no_panic mt payload f : bytes_ok payload = true ->
  parse_frag_payload mt payload = (0, f) ->
  exists c st, r_recv (r_init [f]) = Some (c, st) /\ (c = 0 \/ c = 8 \/ c = 13).
Proof.
  intros Hb Hp. destruct (parsed_ctype_known _ _ _ Hb Hp) as [_ Hn].
  unfold r_recv, r_init. cbn [rs_err rs_in rs_ck rs_got rs_rel Z.eqb negb].
  destruct (ck_new (f_ctype f)) as [c|] eqn:E; [|congruence].
  cbn [andb negb]. rewrite andb_false_r.
  destruct (bytes_eqb (f_ck f) (ck_sum (fold_left ck_add (f_chunks f) c))); cbn [negb].
  - destruct (f_chunks f); eexists; eexists; (split; [reflexivity|]); auto.
  - eexists; eexists; (split; [reflexivity|]); auto.
Qed.

(* relay connections: of all 256 message type bytes, Relayer.Relay (which calls frameTypeFor,
   a function that panics on unknown types) is reached only with types frameTypeFor accepts *)
Theorem relay_route_safe : forall mt pc, 0 <= mt < 256 -> relayRoute mt pc = 1 -> frameTypeFor mt <> None.
Proof.
  intros mt pc _ H. unfold relayRoute in H. unfold frameTypeFor.
  destruct ((mt =? c_messageTypeCancel) && negb pc); [discriminate|].
  cbv zeta in H.
  destruct ((mt =? c_messageTypeCallReq) || (mt =? c_messageTypeCallReqContinue) || (mt =? c_messageTypeCallRes)
            || (mt =? c_messageTypeCallResContinue) || (mt =? c_messageTypeError) || (mt =? c_messageTypeCancel)) eqn:G; [|discriminate].
  cbv zeta.
  destruct ((mt =? c_messageTypeCallRes) || (mt =? c_messageTypeCallResContinue) || (mt =? c_messageTypeError) || (mt =? c_messageTypePingRes)) eqn:A; [discriminate|].
  destruct ((mt =? c_messageTypeCallReq) || (mt =? c_messageTypeCallReqContinue) || (mt =? c_messageTypePingReq) || (mt =? c_messageTypeCancel)) eqn:B; [discriminate|].
  exfalso. lia.
Qed.
