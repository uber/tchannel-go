(* C10, server side, WITHOUT the handler discipline: what the response object
   (InboundCallResponse: arg writers, Flush, Close, SendSystemError, doneSending) guarantees for
   ANY sequence of handler API calls on a call -- one handler or several handed the same call.

   Once doneSending has run for a call (the response was completed, or a system error was sent)
   no call res / call res continue frame is ever enqueued for its id again: the context is
   cancelled, so every flushFragment / newFragment fails at mex.checkError.  The only thing
   that still gets through is SendSystemError (guarded by response.err only): each such call
   may enqueue one more error frame.  Hence for every run and every id requested at most once:

       frames for the id  =  w ++ [Err; ...; Err]     with w a prefix of an accepted word,

   and the tail is empty unless the id is in [misused] (a SendSystemError got past its guard
   after doneSending).  The grammar itself therefore rests on "exactly one responder, which
   completes the response or sends one system error" (Proofs/DispatchP.v). *)
From Coq Require Import ZArith List Bool Lia.
From Verif Require Import Base.Wire Spec.WireOk Proofs.WireOkP Model.RespWire Proofs.RespWireP.
Import ListNotations.
Local Open Scope Z_scope.

Definition doneJ (c : call) : Prop :=
  g_dones c = true /\ notlive c /\ (forall f, h_pc c <> PFlushSel f).

Definition errs_only (a b : list kind) : Prop := b = a \/ b = a ++ [Err].

Definition Post (st st' : state) (id : Z) : Prop :=
  (exists c', get id (calls st') = Some c' /\ doneJ c') /\
  errs_only (proj id (sent st)) (proj id (sent st')).

Definition donek (st : state) (id : Z) : Prop :=
  exists c, get id (calls st) = Some c /\ doneJ c.

Lemma doneJ_mexvar c c' : mexvar c c' -> doneJ c -> doneJ c'.
Proof.
  intros (loc & cx & ech & sh & ep & -> & X & _) (A & B & C). unfold doneJ, notlive in *. fields. auto.
Qed.

(* an API call on a done call: no flush gets past checkError, so no fragment; at most an error frame *)
Lemma hstep_done st id c l st' :
  get id (calls st) = Some c -> doneJ c -> hstep st id c l = Some st' -> Post st st' id.
Proof.
  intros G (Gd & NL & Pc) H. destruct (hstep_shape _ _ _ _ _ G H) as [c' chk m fr [_ _ Hlive _ Hdones Hsel _ Hfr _] _]. split.
  - exists c'. split; [apply get_commit_same|]. split; [|split].
    + destruct Hdones as [E | (E & _)]; congruence.
    + auto.
    + intros f E. exact (NL (Hsel f E)).
  - rewrite sent_commit. cbn [sent log]. rewrite proj_app, proj_same.
    destruct Hfr as [-> | [[(f & E) _] | ->]];
      [left; apply app_nil_r | elim (Pc f E) | right; reflexivity].
Qed.

Lemma step_done st l st' id :
  step st l = Some st' -> donek st id -> rd_pc st <> RChecked id ->
  (forall f, l <> RdCallReq1 id f) ->
  Post st st' id /\ rd_pc st' <> RChecked id.
Proof.
  intros H (c & G & D) Hrd Hl.
  destruct (step_cases _ _ _ H) as [l lid c0 st' L G0 Hs | l st' _ _ Q | l rid st' Rs].
  - destruct (frame_hstep _ _ _ _ _ G0 Hs) as (F1 & _ & _ & F4). split; [|rewrite F1; exact Hrd].
    destruct (Z.eq_dec id lid) as [->|N].
    + rewrite G0 in G. apply Some_inj in G. subst c0. eapply hstep_done; eassumption.
    + destruct (F4 id N) as [E1 E2]. split; [exists c; rewrite E1; auto | left; exact E2].
  - destruct (qstep_ghost _ _ Q) as (Es & _). pose proof (qstep_calls _ _ id Q) as V. rewrite G in V.
    destruct (get id (calls st')) as [c'|] eqn:G'; [|contradiction]. split.
    + split; [exists c'; split; [exact G' | eapply doneJ_mexvar; eassumption] | left; rewrite Es; reflexivity].
    + destruct (qstep_rd _ _ Q) as [-> | E]; [exact Hrd | intros X; rewrite X in E; exact E].
  - destruct (Z.eq_dec id rid) as [->|N].
    + (* of the steps of handleCallReq only the re-check can concern a done call *)
      destruct Rs as [full Hr _ | full Hr | full Hr | full Hr | c0 full Hr G0 _ | c0 c1 chk full Hr G0 E];
        try (elim (Hl full); reflexivity); try contradiction;
        rewrite G0 in G; apply Some_inj in G; subst c0;
        (split; [|discriminate]); unfold Post; cbn [calls sent set_rd]; rewrite get_commit_same, sent_commit.
      * split; [eexists; split; [reflexivity|] | left; reflexivity].
        destruct D as (A & B & C). unfold doneJ, notlive in *. fields. repeat split; auto; discriminate.
      * split.
        -- eexists; split; [reflexivity|]. apply mexvar_shut in E.
           pose proof (doneJ_mexvar _ _ E D) as (A & B & C). unfold doneJ, notlive in *. fields.
           repeat split; auto; discriminate.
        -- destruct (send_syserr_cases st rid full) as [-> | ->];
             [left; reflexivity | right; apply proj_snoc_same].
    + destruct (rstep_frame _ _ _ _ id Rs N) as (E1 & E2 & _ & E4).
      split; [split; [exists c; rewrite E1; auto | left; exact E2] | intros X; apply E4; left; exact X].
Qed.

(* the first misuse of an id is a SendSystemError on a call whose doneSending has run *)
Lemma step_misused_new st l st' id :
  step st l = Some st' -> ~ In id (misused st) -> In id (misused st') ->
  exists full c, l = HSysErr id full /\ get id (calls st) = Some c /\ g_dones c = true /\ h_pc c = PIdle.
Proof.
  intros H N I. destruct (step_ghost _ _ _ id H) as (_ & _ & [E | (i & L & E)]); [rewrite E in I; contradiction|].
  rewrite E in I. apply in_app_or in I as [I | [-> | []]]; [contradiction|].
  destruct (step_own _ _ _ _ H L) as (c & G & Hs).
  destruct (hstep_shape _ _ _ _ _ G Hs) as [c' chk m fr [_ _ _ _ Hdones Hsel _ Hfr Hmis] M].
  rewrite mis_commit in E. cbn [misused log] in E. apply app_inv_head in E. subst m.
  destruct Hmis as [X | (Gd & _ & Hpc & i0 & f & ->)]; [discriminate|].
  cbn in L. apply Some_inj in L. subst i0. eauto 6.
Qed.

Lemma repeat_snoc {A} (a : A) n : repeat a n ++ [a] = repeat a (S n).
Proof. cbn [repeat]. symmetry. apply repeat_cons. Qed.

Definition tail_errs (l : list kind) : Prop :=
  exists w n, l = w ++ repeat Err n /\ wire_prefix_ok w = true.

Lemma tail_errs_step a b : tail_errs a -> errs_only a b -> tail_errs b.
Proof.
  intros (w & n & E & P) [-> | ->]; [exists w, n; auto|].
  exists w, (S n). split; [|exact P]. rewrite E, <- app_assoc, repeat_snoc. reflexivity.
Qed.

Definition mis_ok (st : state) (id : Z) : Prop :=
  donek st id /\ rd_pc st <> RChecked id /\ (1 <= count_req id (requested st))%nat /\
  tail_errs (proj id (sent st)).

Definition AnyInv (st : state) : Prop :=
  Inv st /\
  forall id, (count_req id (requested st) <= 1)%nat -> In id (misused st) -> mis_ok st id.

Lemma any_step st l st' : AnyInv st -> step st l = Some st' -> AnyInv st'.
Proof.
  intros [I M] H. split; [eapply step_inv; eassumption|].
  intros id Hc Hm.
  destruct (step_ghost _ _ _ id H) as (RC & _).
  assert (Hc0 : (count_req id (requested st) <= 1)%nat) by lia.
  assert (core : donek st id -> rd_pc st <> RChecked id -> (1 <= count_req id (requested st))%nat ->
                 tail_errs (proj id (sent st)) -> mis_ok st' id).
  { intros K Hrd C1 T.
    assert (Hl : forall f, l <> RdCallReq1 id f).
    { intros f ->. cbn [req_count] in RC. rewrite Z.eqb_refl in RC. lia. }
    destruct (step_done st l st' id H K Hrd Hl) as [[K' E] Hrd'].
    split; [exact K'|]. split; [exact Hrd'|]. split; [lia|]. eapply tail_errs_step; eassumption. }
  destruct (in_dec Z.eq_dec id (misused st)) as [Hm0 | Hm0].
  - destruct (M id Hc0 Hm0) as (K & Hrd & C1 & T). apply core; assumption.
  - (* the step is the first misuse of id *)
    destruct (step_misused_new st l st' id H Hm0 Hm) as (full & c & -> & G & Dc & Hpc).
    pose proof (I id Hc0 Hm0) as Gd. unfold good in Gd. rewrite G in Gd.
    destruct Gd as (Hrd & _ & C1 & q & Hq & HR).
    apply core; [|exact Hrd | exact C1|].
    + exists c. split; [exact G|]. unfold R in HR. destruct HR as (_ & _ & NL & _).
      split; [exact Dc|]. split; [apply NL; exact Dc|]. intros f. rewrite Hpc. discriminate.
    + exists (proj id (sent st)), O. split; [cbn [repeat]; rewrite app_nil_r; reflexivity|].
      apply wire_prefix_ok_run. eauto.
Qed.

Lemma any_init prop : AnyInv (init_state prop).
Proof. split; [apply inv_init | intros id _ []]. Qed.

Lemma any_run ls : forall st st', AnyInv st -> run_from st ls = Some st' -> AnyInv st'.
Proof.
  induction ls as [|l r IH]; intros st st' A H; cbn [run_from] in H.
  - apply Some_inj in H; subst; exact A.
  - destruct (step st l) as [st1|] eqn:E; [|discriminate].
    eapply IH; [eapply any_step; eassumption | exact H].
Qed.

(* THE ROBUSTNESS STATEMENT.  For every run, whatever the handlers do (any number of handlers
   handed the same call, any order of arg writers / Flush / Close / SendSystemError / ...),
   for every id requested at most once:
     (1) the frames enqueued for the id are  w ++ n error frames,  w a prefix of an accepted word;
     (2) n = 0 unless SendSystemError got past its guard after doneSending ([misused]);
     (3) so nothing but error frames ever follows a terminal frame: a completed (or failed)
         response is never followed by response fragments. *)
Theorem respwire_any_handler prop ls st :
  run prop ls = Some st ->
  forall id, (count_req id (requested st) <= 1)%nat ->
    (exists w n, proj id (sent st) = w ++ repeat Err n /\ wire_prefix_ok w = true /\
                 (~ In id (misused st) -> n = O)) /\
    (forall l1 k l2, proj id (sent st) = l1 ++ k :: l2 -> terminal k = true ->
                     forall x, In x l2 -> x = Err).
Proof.
  intros Hrun id Hc.
  assert (A : AnyInv st) by (eapply any_run; [apply any_init | exact Hrun]).
  assert (D : exists w n, proj id (sent st) = w ++ repeat Err n /\ wire_prefix_ok w = true /\
                          (~ In id (misused st) -> n = O)).
  { destruct (in_dec Z.eq_dec id (misused st)) as [Hm | Hm].
    - destruct A as [_ M]. destruct (M id Hc Hm) as (_ & _ & _ & w & n & E & P).
      exists w, n. split; [exact E|]. split; [exact P|]. intros X; contradiction.
    - destruct (respwire_grammar prop ls st Hrun id Hc Hm) as (P & _).
      exists (proj id (sent st)), O. split; [cbn [repeat]; rewrite app_nil_r; reflexivity|]. auto. }
  split; [exact D|].
  destruct D as (w & n & E & P & _). intros l1 k l2 E2 T x Hx. rewrite E in E2.
  (* where does k sit: inside w (then it is the last frame of w) or inside the error tail *)
  assert (S : forall (a b c d : list kind) y, a ++ b = c ++ y :: d ->
              (exists b1, c = a ++ b1 /\ b = b1 ++ y :: d) \/ (exists a2, a = c ++ y :: a2 /\ d = a2 ++ b)).
  { induction a as [|z a IH]; intros b c d y Hab.
    - left. exists c. auto.
    - destruct c as [|z' c]; cbn in Hab; inversion Hab; subst.
      + right. exists a. auto.
      + destruct (IH _ _ _ _ H1) as [(b1 & -> & ->) | (a2 & -> & ->)].
        * left. exists b1. auto.
        * right. exists a2. auto. }
  destruct (S _ _ _ _ _ E2) as [(b1 & _ & Eb) | (a2 & Ew & ->)].
  - assert (In x (repeat Err n)) by (rewrite Eb; apply in_or_app; right; right; exact Hx).
    eapply repeat_spec; eassumption.
  - rewrite Ew in P. rewrite (prefix_ok_terminal_last _ _ _ P T) in Hx. cbn [app] in Hx.
    eapply repeat_spec; eassumption.
Qed.
