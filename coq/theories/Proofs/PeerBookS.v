(* Invariants of the bookkeeping model on runs in which every root-list deletion is SAFE
   (run_safe): peers with content or under acquisition stay in the root list, list membership
   is exact.  Built on the unconditional invariants of PeerBookP.v.
   An invariant is carried across a step by asking where what it speaks of comes from: a
   goroutine was there, moved itself (act_step, cb_step), or was started; a connection was in a
   list or has just been appended. *)
From Coq Require Import ZArith List Bool Lia Permutation.
From Verif Require Import Base.Wrap Gen.GenConsts Model.PeerBook Spec.PeerBookSpec Proofs.PeerBookL Proofs.PeerBookP.
Import ListNotations.
Local Open Scope Z_scope.

(* the connection an activating goroutine works for *)
Definition act_of (p : pc) : option Z :=
  match p with
  | PAct1 c | PGet c _ | PChk c _ _ | PApp c _ _ => Some c
  | _ => None
  end.

(* host:ports the activating goroutine has still to list the connection under *)
Definition act_rem (s : st) (p : pc) : list Z :=
  match p with
  | PAct1 c => act_todo (s_conn s c)
  | PGet _ todo => todo
  | PChk _ pid todo | PApp _ pid todo => p_hp (s_peer s pid) :: todo
  | _ => []
  end.

(* S1: connections are well formed *)
Definition inv_conn (s : st) : Prop := forall c, k_st (s_conn s c) <> 0 -> conn_wf (s_conn s c).

(* S2: an activating goroutine works for an existing connection, on a suffix of act_todo *)
Definition inv_pcs (s : st) : Prop :=
  forall t p c, s_thr s t = Some p -> act_of p = Some c ->
    k_st (s_conn s c) <> 0 /\ exists pre, act_todo (s_conn s c) = pre ++ act_rem s p.

(* S3: one activating goroutine per connection *)
Definition inv_uniq (s : st) : Prop :=
  forall t t' p p' c, s_thr s t = Some p -> s_thr s t' = Some p' ->
    act_of p = Some c -> act_of p' = Some c -> t = t'.

(* S4: a peer under acquisition is the root's peer for its host:port *)
Definition inv_held (s : st) : Prop :=
  (forall t p pid, s_thr s t = Some p -> acquiring (Some p) pid = true ->
     s_root s (p_hp (s_peer s pid)) = Some pid) /\
  (forall t lid hp pid, s_thr s t = Some (PAdd2 lid hp pid) -> s_root s hp = Some pid).

(* S5: a peer with connections is the root's peer for its host:port; S6 = refs_rooted *)
Definition inv_rooted (s : st) : Prop :=
  (forall pid, plist (s_peer s pid) <> [] -> s_root s (p_hp (s_peer s pid)) = Some pid) /\
  refs_rooted s.

(* a close-state callback of connection c that will still look at Peer object pid *)
Definition cb_cov (s : st) (p : pc) (c pid : Z) : Prop :=
  let hp := p_hp (s_peer s pid) in
  match p with
  | PCb1 c' => c' = c
  | PCbGet c' todo => c' = c /\ In hp todo
  | PCbRem c' q todo => c' = c /\ (q = pid \/ In hp todo)
  | PCol1 c' _ todo | PCol2 c' _ _ todo | PCol3 c' _ todo => c' = c /\ In hp todo
  | _ => False
  end.

(* S7: what is listed *)
Definition listed_ok (s : st) (pid c : Z) : Prop :=
  let P := s_peer s pid in
  k_st (s_conn s c) <> 0 /\
  (In c (p_in P) -> k_dir (s_conn s c) = c_inbound) /\
  (In c (p_out P) -> k_dir (s_conn s c) <> c_inbound) /\
  In (p_hp P) (act_todo (s_conn s c)) /\
  (k_st (s_conn s c) = c_connectionActive \/
   exists t p, s_thr s t = Some p /\ cb_cov s p c pid).
Definition inv_listed (s : st) : Prop :=
  forall pid, NoDup (plist (s_peer s pid)) /\
    forall c, In c (plist (s_peer s pid)) -> listed_ok s pid c.

(* S8: a connection is not yet listed under a host:port its activation has still to visit *)
Definition inv_notyet (s : st) : Prop :=
  forall t p c pid, s_thr s t = Some p -> act_of p = Some c ->
    In (p_hp (s_peer s pid)) (act_rem s p) -> ~ In c (plist (s_peer s pid)).

(* S9: an active connection is listed, or its activation will still do it *)
Definition dirlist (k : conn) (P : peer) : list Z :=
  if k_dir k =? c_inbound then p_in P else p_out P.
Definition inv_active (s : st) : Prop :=
  forall c hp, k_st (s_conn s c) = c_connectionActive -> In hp (act_todo (s_conn s c)) ->
    (exists t p, s_thr s t = Some p /\ act_of p = Some c /\ In hp (act_rem s p)) \/
    (exists pid, s_root s hp = Some pid /\ In c (dirlist (s_conn s c) (s_peer s pid))).

Record InvS (s : st) : Prop := {
  j_conn : inv_conn s; j_pcs : inv_pcs s; j_uniq : inv_uniq s; j_held : inv_held s;
  j_rooted : inv_rooted s; j_listed : inv_listed s; j_notyet : inv_notyet s; j_active : inv_active s }.

Lemma act_rem_ext s s' p :
  (forall c, act_of p = Some c -> act_todo (s_conn s' c) = act_todo (s_conn s c)) ->
  (forall q, pc_pid p = Some q -> p_hp (s_peer s' q) = p_hp (s_peer s q)) ->
  act_rem s' p = act_rem s p.
Proof.
  intros HA HB. destruct p; cbn [act_rem]; try reflexivity.
  - now apply HA.
  - now rewrite HB.
  - now rewrite HB.
Qed.

Lemma cb_cov_ext s s' p c pid :
  p_hp (s_peer s' pid) = p_hp (s_peer s pid) -> cb_cov s p c pid -> cb_cov s' p c pid.
Proof. intros E. unfold cb_cov. now rewrite E. Qed.

Lemma act_todo_cons k : exists r, act_todo k = k_rhp k :: r.
Proof. unfold act_todo. eauto. Qed.

Lemma dirlist_plist k P c : In c (dirlist k P) -> In c (plist P).
Proof. unfold dirlist, plist. intros H. apply in_or_app. destruct (k_dir k =? c_inbound); auto. Qed.

Lemma peer_add_dirlist k P c : In c (dirlist k (peer_add k P c)).
Proof.
  unfold dirlist. destruct (Z.eqb_spec (k_dir k) c_inbound) as [E|E].
  - apply peer_add_in. auto.
  - apply peer_add_out. auto.
Qed.

Lemma plist_lt s pid c : inv_fresh s -> In c (plist (s_peer s pid)) -> pid < s_next s.
Proof.
  intros (_ & _ & Hnew & _) Hin. destruct (Z_lt_le_dec pid (s_next s)) as [|Hge]; [assumption|].
  destruct (Hnew _ Hge) as [_ Hp]. rewrite Hp in Hin. destruct Hin.
Qed.

Lemma conn_kept s l s' c :
  Inv0 s -> step s l = Some s' -> k_st (s_conn s c) <> 0 ->
  k_st (s_conn s' c) <> 0 /\ k_dir (s_conn s' c) = k_dir (s_conn s c) /\
  k_rhp (s_conn s' c) = k_rhp (s_conn s c) /\ k_ohp (s_conn s' c) = k_ohp (s_conn s c) /\
  (k_st (s_conn s' c) = c_connectionActive -> k_st (s_conn s c) = c_connectionActive).
Proof.
  intros [Hf _ Hch _ _ _] H Hk. destruct (Hch c) as (_ & _ & _ & _ & _ & Hrange).
  destruct (step_conn_eff _ _ _ c H Hf) as [[-> _]|[(Hk0 & _)|[(_ & (st' & -> & Hlt) & _)|(_ & -> & _)]]].
  - auto.
  - contradiction.
  - cbn [k_st k_dir k_rhp k_ohp with_st]. unfold c_connectionActive. repeat split; auto; lia.
  - cbn [k_st k_dir k_rhp k_ohp with_acc]. auto.
Qed.

Lemma act_todo_kept s l s' c :
  Inv0 s -> step s l = Some s' -> k_st (s_conn s c) <> 0 -> act_todo (s_conn s' c) = act_todo (s_conn s c).
Proof.
  intros H0 H Hk. destruct (conn_kept _ _ _ c H0 H Hk) as (_ & Hd & Hr & Ho & _).
  unfold act_todo. now rewrite Hd, Hr, Ho.
Qed.

(* a goroutine that did not move keeps its remaining work *)
Lemma act_rem_kept s l s' t p :
  Inv0 s -> inv_pcs s -> step s l = Some s' -> s_thr s t = Some p -> act_rem s' p = act_rem s p.
Proof.
  intros H0 Hp H E. apply act_rem_ext.
  - intros c Ha. apply (act_todo_kept _ _ _ _ H0 H). now destruct (Hp _ _ _ E Ha).
  - intros q Hq. apply (step_peer_hp _ _ _ _ H (i_fresh _ H0)).
    destruct (i_fresh _ H0) as (_ & _ & _ & _ & Hpc & _). eauto.
Qed.

Lemma safe_delete s l hp q :
  inv_fresh s -> safe_label s l = true -> deletes s l hp -> s_root s hp = Some q ->
  can_remove (s_peer s q) = true /\ forall t p, s_thr s t = Some p -> acquiring (Some p) q = false.
Proof.
  intros Hf Hsafe (t0 & c & todo & -> & E) Hr. cbn [safe_label] in Hsafe. rewrite E in Hsafe.
  unfold delete_safe in Hsafe. rewrite Hr in Hsafe. apply andb_true_iff in Hsafe as [Hc Hn].
  split; [exact Hc|]. intros t p Et. apply negb_true_iff in Hn.
  pose proof (any_thread_false _ _ _ Hn t) as Ha. rewrite Et in Ha. apply Ha.
  pose proof (thr_bound _ _ _ Hf Et). lia.
Qed.

Lemma can_remove_empty s q :
  inv_refs s -> can_remove (s_peer s q) = true ->
  plist (s_peer s q) = [] /\ forall lid hp, ~ In (lid, hp, q) (s_lists s).
Proof.
  intros Hrefs Hc. unfold can_remove in Hc. apply Z.eqb_eq in Hc. rewrite (Hrefs q) in Hc. unfold zlen in Hc.
  split.
  - unfold plist. destruct (p_in (s_peer s q)); [|cbn [length] in Hc; lia].
    destruct (p_out (s_peer s q)); [reflexivity|cbn [length] in Hc; lia].
  - intros lid hp Hin.
    assert (Hf : In (lid, hp, q) (filter (ent_pid q) (s_lists s))).
    { apply filter_In. split; [assumption|]. unfold ent_pid. cbn [snd]. apply Z.eqb_refl. }
    destruct (filter (ent_pid q) (s_lists s)); [destruct Hf|cbn [length] in Hc; lia].
Qed.

(* the root's entry for a peer that is in use survives a safe step *)
Lemma root_kept_used s l s' hp q :
  Inv0 s -> step s l = Some s' -> safe_label s l = true -> s_root s hp = Some q ->
  (plist (s_peer s q) <> [] \/ (exists lid h, In (lid, h, q) (s_lists s)) \/
   exists t p, s_thr s t = Some p /\ acquiring (Some p) q = true) ->
  s_root s' hp = Some q.
Proof.
  intros H0 H Hsafe Hr Huse.
  destruct (step_root_eff _ _ _ hp H) as [E|[(E & _)|(_ & Hdel)]]; [now rewrite E|congruence|]. exfalso.
  destruct (safe_delete _ _ _ _ (i_fresh _ H0) Hsafe Hdel Hr) as [Hc Hn].
  destruct (can_remove_empty _ _ (i_refs _ H0) Hc) as [Hnil Hnone].
  destruct Huse as [Hne|[(lid & h & Hin)|(t & p & Et & Ha)]].
  - now apply Hne.
  - now apply (Hnone lid h).
  - rewrite (Hn _ _ Et) in Ha. discriminate.
Qed.

(* ---- the moves of an activating goroutine ---- *)
(* it goes on for the same connection with the same remaining work, or with the first
   host:port dropped: because the connection is no longer active, or (PApp) because the
   connection has just been listed there *)
Lemma act_step s t p c s' :
  inv_root s -> s_thr s t = Some p -> act_of p = Some c -> step s (LStep t) = Some s' ->
  (s_thr s' t = None /\ act_rem s p = []) \/
  exists p', s_thr s' t = Some p' /\ act_of p' = Some c /\
    (act_rem s' p' = act_rem s p \/
     exists hp, act_rem s p = hp :: act_rem s' p' /\
       (k_st (s_conn s' c) <> c_connectionActive \/
        exists pid todo, p = PApp c pid todo /\ hp = p_hp (s_peer s pid) /\ is_active (s_conn s c) = true)).
Proof.
  intros Hrt E Ha Hs. rewrite (step_LStep _ _ _ _ Hs E). clear Hs.
  destruct p; cbn [act_of] in Ha; try discriminate Ha; inversion Ha; subst c; clear Ha.
  all: thread_split; simp_st; rewrite ?upd_same.
  all: try (right; eexists; split; [reflexivity|]; split; [reflexivity|]; cbn [act_rem]; simp_st).
  (* the connection is not active (any more): the host:port at hand is dropped *)
  all: try solve [right; eexists; split; [reflexivity|]; left; now apply is_active_false].
  - now left.
  - left. split; reflexivity.
  - left. match goal with Hr : s_root s _ = Some _ |- _ => now rewrite (Hrt _ _ Hr) end.
  - left. now rewrite upd_same.
  - now left.
  - right. eexists. split; [reflexivity|]. right. eauto.
Qed.

(* the other goroutines never turn into activating ones, nor into a PeerList.Add *)
Lemma other_step s t p s' p' :
  s_thr s t = Some p -> step s (LStep t) = Some s' -> s_thr s' t = Some p' ->
  (act_of p = None -> act_of p' = None) /\ (forall lid hp pid, p' <> PAdd2 lid hp pid).
Proof.
  intros E Hs. rewrite (step_LStep _ _ _ _ Hs E). clear Hs. revert p'.
  destruct p; thread_split; simp_st; rewrite ?upd_same; intros p' Hp'; inversion Hp'; subst p';
    split; intros; try discriminate; reflexivity.
Qed.

(* where an activating goroutine of the new state comes from: it was there, with at least the
   same work left, or it has just been started for a new connection *)
Lemma act_origin s l s' t p c :
  Inv0 s -> inv_pcs s -> step s l = Some s' -> s_thr s' t = Some p -> act_of p = Some c ->
  (exists p0, s_thr s t = Some p0 /\ act_of p0 = Some c /\
     exists dropped, act_rem s p0 = dropped ++ act_rem s' p) \/
  (k_st (s_conn s c) = 0 /\ t = s_next s + 1 /\ p = PAct1 c /\ k_st (s_conn s' c) = c_connectionActive).
Proof.
  intros H0 Hp H Ht Ha. pose proof (i_fresh _ H0) as Hf.
  destruct (step_thr_inv _ _ _ _ _ H Hf Ht) as [Hold|[[-> [p0 E]]|[_ Hb]]].
  - left. exists p. split; [exact Hold|]. split; [exact Ha|]. exists [].
    symmetry. apply (act_rem_kept _ _ _ _ _ H0 Hp H Hold).
  - left. exists p0. split; [exact E|].
    destruct (act_of p0) as [c0|] eqn:Ha0.
    + destruct (act_step _ _ _ _ _ (i_root _ H0) E Ha0 H) as [[Hn _]|(p' & Hp' & Ha' & Hrem)]; [congruence|].
      rewrite Ht in Hp'. inversion Hp'; subst p'. rewrite Ha in Ha'. inversion Ha'; subst c0.
      split; [reflexivity|]. destruct Hrem as [->|(hp & -> & _)]; [now exists []|now exists [hp]].
    + destruct (other_step _ _ _ _ _ E H Ht) as [Hn _]. rewrite (Hn Ha0) in Ha. discriminate.
  - right. destruct p; cbn [act_of] in Ha; try discriminate Ha; try contradiction.
    inversion Ha; subst c0. destruct Hb as (-> & -> & Hact).
    split; [|auto]. destruct Hf as (_ & _ & Hnew & _). destruct (Hnew (s_next s)) as [-> _]; [lia|reflexivity].
Qed.

Lemma step_conn s l s' : Inv0 s -> inv_conn s -> step s l = Some s' -> inv_conn s'.
Proof.
  intros H0 Hc H c Hk'. destruct (Z.eq_dec (k_st (s_conn s c)) 0) as [Hk0|Hk].
  - apply (step_conn_born _ _ _ c H (i_fresh _ H0) Hk0 Hk').
  - destruct (conn_kept _ _ _ c H0 H Hk) as (_ & Hd & Hr & Ho & _).
    unfold conn_wf. rewrite Hd, Hr, Ho. exact (Hc c Hk).
Qed.

Lemma step_pcs s l s' : Inv0 s -> inv_pcs s -> step s l = Some s' -> inv_pcs s'.
Proof.
  intros H0 Hp H t p c Ht Ha.
  destruct (act_origin _ _ _ _ _ _ H0 Hp H Ht Ha) as [(p0 & E & Ha0 & dropped & Hd)|(_ & _ & -> & Hact)].
  - destruct (Hp _ _ _ E Ha0) as [Hk [pre Hpre]].
    split; [exact (proj1 (conn_kept _ _ _ _ H0 H Hk))|]. exists (pre ++ dropped).
    rewrite (act_todo_kept _ _ _ _ H0 H Hk), Hpre, Hd. apply app_assoc.
  - split; [rewrite Hact; discriminate|]. now exists [].
Qed.

Lemma step_uniq s l s' : Inv0 s -> inv_pcs s -> inv_uniq s -> step s l = Some s' -> inv_uniq s'.
Proof.
  intros H0 Hp Hu H t t' p p' c Ht Ht' Ha Ha'.
  destruct (act_origin _ _ _ _ _ _ H0 Hp H Ht Ha) as [(p0 & E & Ha0 & _)|(Hk0 & -> & _)];
    destruct (act_origin _ _ _ _ _ _ H0 Hp H Ht' Ha') as [(p0' & E' & Ha0' & _)|(Hk0' & -> & _)].
  - eapply Hu; eauto.
  - now destruct (Hp _ _ _ E Ha0).
  - now destruct (Hp _ _ _ E' Ha0').
  - reflexivity.
Qed.

Lemma acquiring_pid p pid : acquiring (Some p) pid = true -> pc_pid p = Some pid.
Proof.
  destruct p; cbn [acquiring pc_pid]; try discriminate; intros H; apply Z.eqb_eq in H; congruence.
Qed.

(* a goroutine that has just taken hold of a Peer object took it from the root list *)
Lemma acq_step s t p s' p' pid :
  inv_root s -> s_thr s t = Some p -> step s (LStep t) = Some s' -> s_thr s' t = Some p' ->
  acquiring (Some p') pid = true ->
  acquiring (Some p) pid = true \/ s_root s' (p_hp (s_peer s' pid)) = Some pid.
Proof.
  intros Hrt E Hs. rewrite (step_LStep _ _ _ _ Hs E). clear Hs. revert p' pid.
  destruct p; thread_split; simp_st; rewrite ?upd_same; intros p' pid' Hp' Hq; inversion Hp'; subst p';
    cbn [acquiring] in *; try discriminate Hq; auto.
  - apply Z.eqb_eq in Hq. subst pid'. right.
    match goal with Hr : s_root s _ = Some _ |- _ => now rewrite (Hrt _ _ Hr) end.
  - apply Z.eqb_eq in Hq. subst pid'. right. rewrite upd_same. cbn [p_hp]. apply upd_same.
Qed.

Lemma step_held s l s' :
  Inv0 s -> inv_root s' -> inv_held s -> safe_label s l = true -> step s l = Some s' -> inv_held s'.
Proof.
  intros H0 Hrt' [Ha Hb] Hsafe H. pose proof (i_fresh _ H0) as Hf.
  assert (Hkeep : forall t p pid, s_thr s t = Some p -> acquiring (Some p) pid = true ->
            s_root s' (p_hp (s_peer s' pid)) = Some pid).
  { intros t p pid E Hq. rewrite (step_peer_hp _ _ _ pid H Hf).
    - apply (root_kept_used _ _ _ _ _ H0 H Hsafe (Ha _ _ _ E Hq)). right; right. eauto.
    - destruct Hf as (_ & _ & _ & _ & Hpc & _). apply (Hpc _ _ _ E). now apply acquiring_pid. }
  split.
  - intros t p pid Ht Hq. destruct (step_thr_inv _ _ _ _ _ H Hf Ht) as [Hold|[[-> [p0 E]]|[_ Hbn]]].
    + eapply Hkeep; eauto.
    + destruct (acq_step _ _ _ _ _ _ (i_root _ H0) E H Ht Hq) as [Hq0|Hr]; [eapply Hkeep; eauto|exact Hr].
    + destruct p; cbn [acquiring] in Hq; try discriminate Hq; try contradiction.
      apply Z.eqb_eq in Hq. subst pid0. now rewrite (Hrt' _ _ Hbn).
  - intros t lid hp pid Ht. destruct (step_thr_inv _ _ _ _ _ H Hf Ht) as [Hold|[[-> [p0 E]]|[_ Hbn]]].
    + apply (root_kept_used _ _ _ _ _ H0 H Hsafe (Hb _ _ _ _ Hold)). right; right.
      exists t, (PAdd2 lid hp pid). split; [exact Hold|]. cbn [acquiring]. apply Z.eqb_refl.
    + now destruct (other_step _ _ _ _ _ E H Ht) as [_ Hn]; contradiction (Hn lid hp pid).
    + exact Hbn.
Qed.

Lemma step_rooted s l s' :
  Inv0 s -> inv_held s -> inv_rooted s -> safe_label s l = true -> step s l = Some s' -> inv_rooted s'.
Proof.
  intros H0 [Hha Hhb] [Ha Hb] Hsafe H. pose proof (i_fresh _ H0) as Hf. split.
  - intros pid Hne.
    destruct (step_plist _ _ _ pid H Hf)
      as [[Ei Eo]|[(t & c & todo & E & _ & ->)|(t & c & todo & P' & E & _ & Er & ->)]].
    + assert (Hne0 : plist (s_peer s pid) <> []) by (unfold plist in *; now rewrite <- Ei, <- Eo).
      rewrite (step_peer_hp _ _ _ pid H Hf).
      * apply (root_kept_used _ _ _ _ _ H0 H Hsafe (Ha _ Hne0)). now left.
      * destruct (plist (s_peer s pid)) as [|c r] eqn:El; [now contradiction Hne0|].
        apply (plist_lt _ _ c Hf). rewrite El. now left.
    + simp_st. rewrite upd_same. rewrite (proj1 (peer_add_fields _ _ _)).
      apply (Hha _ _ pid E). cbn [acquiring]. apply Z.eqb_refl.
    + simp_st. rewrite upd_same in *. destruct (peer_rem_some _ _ _ Er) as (Ehp & _ & _ & Hperm & _).
      rewrite Ehp. apply Ha. intros Hn. rewrite Hn in Hperm. apply Permutation_nil in Hperm. discriminate.
  - intros lid hp pid Hin. destruct (step_lists_born _ _ _ _ _ _ H Hin) as [Hold|(t & -> & E)].
    + apply (root_kept_used _ _ _ _ _ H0 H Hsafe (Hb _ _ _ Hold)). right; left. eauto.
    + apply (root_kept_used _ _ _ _ _ H0 H Hsafe (Hhb _ _ _ _ E)). right; right.
      exists t, (PAdd2 lid hp pid). split; [exact E|]. cbn [acquiring]. apply Z.eqb_refl.
Qed.

(* ---- the moves of a close-state callback: it keeps covering every Peer object that still
   lists its connection, as long as the connection is not active ---- *)
Lemma cb_step s t p c pid s' :
  inv_conn s -> inv_rooted s -> inv_listed s ->
  s_thr s t = Some p -> cb_cov s p c pid -> step s (LStep t) = Some s' ->
  In c (plist (s_peer s pid)) -> In c (plist (s_peer s' pid)) ->
  k_st (s_conn s' c) <> c_connectionActive ->
  exists p', s_thr s' t = Some p' /\ cb_cov s' p' c pid.
Proof.
  intros Hcn [Hro _] Hl E Hcv Hs Hin. rewrite (step_LStep _ _ _ _ Hs E). clear Hs.
  destruct (Hl pid) as [Hnd Hall]. destruct (Hall c Hin) as (Hk & _ & _ & Hhp & _).
  assert (Hroot : s_root s (p_hp (s_peer s pid)) = Some pid).
  { apply Hro. intros Hn. rewrite Hn in Hin. destruct Hin. }
  destruct p; cbn [cb_cov] in Hcv; try contradiction.
  all: thread_split; simp_st; rewrite ?upd_same; intros Hin' Hna.
  all: try (eexists; split; [reflexivity|]; cbn [cb_cov]; simp_st).
  (* PCbRem finds the connection active: then it is active afterwards *)
  all: try match goal with Ea : is_active _ = true |- _ =>
             exfalso; destruct Hcv as [-> _]; apply is_active_iff in Ea; contradiction end.
  (* the collector's own steps PCol1-3 change nothing of what it covers *)
  all: try exact Hcv.
  - (* PCb1 *) split; [exact Hcv|]. subst c0. apply act_in_cb; auto.
  - split; [exact Hcv|]. subst c0. apply act_in_cb; auto.
  - (* PCbGet *) now destruct Hcv as [_ []].
  - destruct Hcv as [-> [->|Hi]]; [|auto]. split; [reflexivity|]. left. congruence.
  - destruct Hcv as [-> [->|Hi]]; [congruence|auto].
  - (* PCbRem: found *) destruct Hcv as [-> Hq].
    match goal with Er : peer_rem _ _ = Some _ |- _ =>
      destruct (peer_rem_some _ _ _ Er) as (Ehp & _ & _ & Hperm & _) end.
    destruct (upd_cases (s_peer s) pid0 p pid) as [[-> Eu]|[Hne Eu]]; rewrite Eu in *.
    + exfalso. apply (Permutation_NoDup Hperm) in Hnd. inversion Hnd; auto.
    + destruct Hq as [->|Hi]; [contradiction|auto].
  - destruct Hcv as [-> [->|Hi]]; [|auto].
    match goal with Er : peer_rem _ _ = None |- _ => now apply peer_rem_none in Er end.
Qed.

(* PApp appends c to pid's list *)
Lemma listed_append s s' t c pid todo :
  inv_pcs s -> inv_notyet s -> inv_listed s ->
  s_thr s t = Some (PApp c pid todo) -> k_st (s_conn s c) = c_connectionActive ->
  s_conn s' = s_conn s -> s_thr s' = upd (s_thr s) t (Some (PGet c todo)) ->
  s_peer s' = upd (s_peer s) pid (peer_add (s_conn s c) (s_peer s pid) c) ->
  inv_listed s'.
Proof.
  intros Hpcs Hny Hl E Hact Ec Et Ep q.
  assert (Hhp : forall x, p_hp (s_peer s' x) = p_hp (s_peer s x))
    by (intros x; rewrite Ep; apply upd_peer_hp, peer_add_fields).
  assert (Hkeep : forall d,
            k_st (s_conn s d) = c_connectionActive \/ (exists t0 p0, s_thr s t0 = Some p0 /\ cb_cov s p0 d q) ->
            k_st (s_conn s d) = c_connectionActive \/ (exists t0 p0, s_thr s' t0 = Some p0 /\ cb_cov s' p0 d q)).
  { intros d [Hd|(t0 & p0 & Et0 & Hcv)]; [now left|right]. exists t0, p0. split.
    - rewrite Et. rewrite upd_other; [exact Et0|]. intros ->. rewrite E in Et0. inversion Et0; subst p0. destruct Hcv.
    - now apply (cb_cov_ext s). }
  unfold listed_ok. rewrite Ec, Hhp, Ep. destruct (Hl q) as [Hnd Hall].
  destruct (upd_cases (s_peer s) pid (peer_add (s_conn s c) (s_peer s pid) c) q) as [[-> ->]|[_ ->]].
  - assert (Hnot : ~ In c (plist (s_peer s pid))) by (apply (Hny _ _ _ pid E eq_refl); now left).
    split; [eapply Permutation_NoDup; [apply Permutation_sym, peer_add_perm|now constructor]|].
    intros d Hd. apply (Permutation_in _ (peer_add_perm _ _ _)) in Hd. destruct Hd as [<-|Hd].
    + split; [rewrite Hact; discriminate|]. split; [|split; [|split; [|now left]]].
      * intros Hi. apply peer_add_in in Hi as [Hi|[_ Hi]]; [|exact Hi]. exfalso. apply Hnot, in_or_app. auto.
      * intros Hi. apply peer_add_out in Hi as [Hi|[_ Hi]]; [|exact Hi]. exfalso. apply Hnot, in_or_app. auto.
      * destruct (Hpcs _ _ _ E eq_refl) as [_ [pre Hpre]]. rewrite Hpre. apply in_or_app. right. now left.
    + destruct (Hall d Hd) as (H1 & H2 & H3 & H4 & H5). assert (d <> c) by congruence.
      split; [exact H1|]. split; [|split; [|split; [exact H4|apply Hkeep, H5]]].
      * intros Hi. apply peer_add_in in Hi as [Hi|[Hi _]]; [auto|contradiction].
      * intros Hi. apply peer_add_out in Hi as [Hi|[Hi _]]; [auto|contradiction].
  - split; [exact Hnd|]. intros d Hd. destruct (Hall d Hd) as (H1 & H2 & H3 & H4 & H5). repeat split; auto.
Qed.

(* PCbRem removes c from pid's list and goes on as the collector *)
Lemma listed_remove s s' t c pid todo P' :
  inv_listed s -> s_thr s t = Some (PCbRem c pid todo) -> peer_rem c (s_peer s pid) = Some P' ->
  s_conn s' = s_conn s -> s_thr s' = upd (s_thr s) t (Some (PCol1 c (p_hp (s_peer s pid)) todo)) ->
  s_peer s' = upd (s_peer s) pid P' ->
  inv_listed s'.
Proof.
  intros Hl E Er Ec Et Ep q.
  destruct (peer_rem_some _ _ _ Er) as (Ehp & _ & _ & Hperm & Hi & Ho & _).
  assert (Hhp : forall x, p_hp (s_peer s' x) = p_hp (s_peer s x))
    by (intros x; rewrite Ep; apply upd_peer_hp, Ehp).
  assert (Hkeep : forall d, d <> c \/ q <> pid ->
            k_st (s_conn s d) = c_connectionActive \/ (exists t0 p0, s_thr s t0 = Some p0 /\ cb_cov s p0 d q) ->
            k_st (s_conn s d) = c_connectionActive \/ (exists t0 p0, s_thr s' t0 = Some p0 /\ cb_cov s' p0 d q)).
  { intros d Hdq [Hd|(t0 & p0 & Et0 & Hcv)]; [now left|right]. destruct (Z.eq_dec t0 t) as [->|Hne].
    - rewrite E in Et0. inversion Et0; subst p0. destruct Hcv as [<- [->|Hin]]; [now destruct Hdq|].
      exists t, (PCol1 c (p_hp (s_peer s pid)) todo). split; [rewrite Et; apply upd_same|].
      cbn [cb_cov]. rewrite Hhp. auto.
    - exists t0, p0. split; [now rewrite Et, upd_other|]. now apply (cb_cov_ext s). }
  unfold listed_ok. rewrite Ec, Hhp, Ep. destruct (Hl q) as [Hnd Hall].
  destruct (upd_cases (s_peer s) pid P' q) as [[-> ->]|[Hne ->]].
  - apply (Permutation_NoDup Hperm) in Hnd. inversion Hnd as [|? ? Hnot Hnd']; subst.
    split; [exact Hnd'|]. intros d Hd. assert (d <> c) by congruence.
    destruct (Hall d) as (H1 & H2 & H3 & H4 & H5).
    { apply (Permutation_in _ (Permutation_sym Hperm)). now right. }
    split; [exact H1|]. split; [auto|]. split; [auto|]. split; [exact H4|]. apply Hkeep; auto.
  - split; [exact Hnd|]. intros d Hd. destruct (Hall d Hd) as (H1 & H2 & H3 & H4 & H5). repeat split; auto.
Qed.

Lemma step_listed s l s' :
  Inv0 s -> inv_conn s -> inv_pcs s -> inv_rooted s -> inv_notyet s -> inv_listed s ->
  step s l = Some s' -> inv_listed s'.
Proof.
  intros H0 Hcn Hpcs Hro Hny Hl H pid. pose proof (i_fresh _ H0) as Hf.
  destruct (step_plist _ _ _ pid H Hf)
    as [[Ei Eo]|[(t & c0 & todo & E & Ea & ->)|(t & c0 & todo & P' & E & _ & Er & ->)]].
  - (* pid's lists are unchanged *)
    destruct (Hl pid) as [Hnd Hall]. unfold plist, listed_ok in *. rewrite Ei, Eo. split; [exact Hnd|].
    intros c Hc. destruct (Hall c Hc) as (Hk & Hi & Ho & Hhp & Hcov).
    destruct (conn_kept _ _ _ c H0 H Hk) as (Hk' & Hd & _).
    assert (Ehp : p_hp (s_peer s' pid) = p_hp (s_peer s pid)).
    { apply (step_peer_hp _ _ _ pid H Hf). now apply (plist_lt _ _ c Hf). }
    rewrite Hd, (act_todo_kept _ _ _ _ H0 H Hk), Ehp. do 4 (split; [assumption|]).
    destruct (Z.eq_dec (k_st (s_conn s' c)) c_connectionActive) as [Hact|Hna]; [now left|right].
    destruct Hcov as [Hact|(t & p & Et & Hcv)].
    + destruct (step_active_left _ _ _ _ H Hf Hact Hna) as [t Et]. now exists t, (PCb1 c).
    + destruct (step_thr_kept _ _ _ _ _ H Hf Et) as [->|Et'].
      * destruct (cb_step _ _ _ c pid _ Hcn Hro Hl Et Hcv H) as (p' & Et' & Hcv'); eauto.
        unfold plist. now rewrite Ei, Eo.
      * exists t, p. split; [exact Et'|]. now apply (cb_cov_ext s).
  - apply (listed_append s _ t c0 pid todo); auto. now apply is_active_iff.
  - apply (listed_remove s _ t c0 pid todo P'); auto.
Qed.

Lemma notyet_append s s' t c pid todo :
  inv_pcs s -> inv_uniq s -> inv_notyet s ->
  s_thr s t = Some (PApp c pid todo) ->
  s_conn s' = s_conn s -> s_thr s' = upd (s_thr s) t (Some (PGet c todo)) ->
  s_peer s' = upd (s_peer s) pid (peer_add (s_conn s c) (s_peer s pid) c) ->
  inv_notyet s'.
Proof.
  intros Hpcs Hu Hny E Ec Et Ep t1 p1 c1 q Ht1 Ha1 Hin Hcl.
  assert (Hhp : forall x, p_hp (s_peer s' x) = p_hp (s_peer s x))
    by (intros x; rewrite Ep; apply upd_peer_hp, peer_add_fields).
  assert (Hrem : act_rem s' p1 = act_rem s p1) by (apply act_rem_ext; intros; [now rewrite Ec|apply Hhp]).
  (* c1 in q's new list: it was there, or it is the c just appended to pid *)
  assert (Hcl0 : In c1 (plist (s_peer s q)) \/ (c1 = c /\ q = pid)).
  { rewrite Ep in Hcl. destruct (upd_cases (s_peer s) pid (peer_add (s_conn s c) (s_peer s pid) c) q)
      as [[-> Eu]|[_ Eu]]; rewrite Eu in Hcl; [|now left].
    apply (Permutation_in _ (peer_add_perm _ _ _)) in Hcl. destruct Hcl; auto. }
  rewrite Hhp, Hrem in Hin. rewrite Et in Ht1.
  destruct (upd_cases (s_thr s) t (Some (PGet c todo)) t1) as [[-> Eu]|[Hne Eu]]; rewrite Eu in Ht1.
  - (* the goroutine that appended: the host:port just served does not occur again in its todo *)
    inversion Ht1; subst p1. inversion Ha1; subst c1. cbn [act_rem] in Hin.
    destruct Hcl0 as [Hcl0|[_ ->]].
    + apply (Hny _ _ _ q E eq_refl); [now right|exact Hcl0].
    + destruct (Hpcs _ _ _ E eq_refl) as [_ [pre Hpre]]. pose proof (act_todo_nodup (s_conn s c)) as Hnd.
      rewrite Hpre in Hnd. apply nodup_app_r in Hnd. inversion Hnd; auto.
  - destruct Hcl0 as [Hcl0|[-> _]].
    + now apply (Hny _ _ _ q Ht1 Ha1).
    + apply Hne. eapply Hu; eauto.
Qed.

Lemma notyet_remove s s' t c pid todo P' :
  inv_notyet s -> s_thr s t = Some (PCbRem c pid todo) -> peer_rem c (s_peer s pid) = Some P' ->
  s_conn s' = s_conn s -> s_thr s' = upd (s_thr s) t (Some (PCol1 c (p_hp (s_peer s pid)) todo)) ->
  s_peer s' = upd (s_peer s) pid P' ->
  inv_notyet s'.
Proof.
  intros Hny E Er Ec Et Ep t1 p1 c1 q Ht1 Ha1 Hin Hcl.
  destruct (peer_rem_some _ _ _ Er) as (Ehp & _ & _ & Hperm & _).
  assert (Hhp : forall x, p_hp (s_peer s' x) = p_hp (s_peer s x))
    by (intros x; rewrite Ep; apply upd_peer_hp, Ehp).
  assert (Hrem : act_rem s' p1 = act_rem s p1) by (apply act_rem_ext; intros; [now rewrite Ec|apply Hhp]).
  rewrite Hhp, Hrem in Hin.
  rewrite Et in Ht1. destruct (upd_cases (s_thr s) t (Some (PCol1 c (p_hp (s_peer s pid)) todo)) t1)
    as [[-> Eu]|[_ Eu]]; rewrite Eu in Ht1; [inversion Ht1; subst p1; discriminate Ha1|].
  apply (Hny _ _ _ q Ht1 Ha1 Hin). rewrite Ep in Hcl.
  destruct (upd_cases (s_peer s) pid P' q) as [[-> Eu']|[_ Eu']]; rewrite Eu' in Hcl; [|exact Hcl].
  apply (Permutation_in _ (Permutation_sym Hperm)). now right.
Qed.

Lemma step_notyet s l s' :
  Inv0 s -> inv_pcs s -> inv_uniq s -> inv_listed s -> inv_notyet s -> step s l = Some s' -> inv_notyet s'.
Proof.
  intros H0 Hpcs Hu Hl Hny H. pose proof (i_fresh _ H0) as Hf.
  intros t p c pid.
  destruct (step_plist _ _ _ pid H Hf)
    as [[Ei Eo]|[(t0 & c0 & todo & E & _ & Es)|(t0 & c0 & todo & P' & E & _ & Er & Es)]].
  - intros Ht Ha Hin Hcl. assert (Hcl0 : In c (plist (s_peer s pid))) by (unfold plist in *; now rewrite <- Ei, <- Eo).
    rewrite (step_peer_hp _ _ _ pid H Hf) in Hin by now apply (plist_lt _ _ c Hf).
    destruct (act_origin _ _ _ _ _ _ H0 Hpcs H Ht Ha) as [(p0 & E & Ha0 & dropped & Hd)|(Hk0 & _)].
    + apply (Hny _ _ _ pid E Ha0); [|exact Hcl0]. rewrite Hd. apply in_or_app. now right.
    + destruct (Hl pid) as [_ Hall]. now destruct (Hall c Hcl0) as (Hk & _).
  - subst s'. apply (notyet_append s _ t0 c0 pid todo Hpcs Hu Hny E); reflexivity.
  - subst s'. apply (notyet_remove s _ t0 c0 pid todo P' Hny E Er); reflexivity.
Qed.

Lemma step_active s l s' :
  Inv0 s -> inv_pcs s -> inv_held s -> inv_active s -> safe_label s l = true -> step s l = Some s' -> inv_active s'.
Proof.
  intros H0 Hpcs [Hh _] Hc Hsafe H c hp Hact Hin. pose proof (i_fresh _ H0) as Hf.
  destruct (Z.eq_dec (k_st (s_conn s c)) 0) as [Hk0|Hk].
  - (* a new connection: its activation has just been started *)
    destruct (step_conn_born _ _ _ c H Hf Hk0) as (-> & Et & _); [rewrite Hact; discriminate|].
    left. exists (s_next s + 1), (PAct1 (s_next s)). split; [exact Et|]. split; [reflexivity|exact Hin].
  - destruct (conn_kept _ _ _ c H0 H Hk) as (_ & Hd & _ & _ & Hback). specialize (Hback Hact).
    rewrite (act_todo_kept _ _ _ _ H0 H Hk) in Hin.
    destruct (Hc c hp Hback Hin) as [(t & p & Et & Ha & Hr)|(pid & Hr & Hl)].
    + destruct (step_thr_kept _ _ _ _ _ H Hf Et) as [->|Et'].
      * (* the activation itself moves *)
        destruct (act_step _ _ _ _ _ (i_root _ H0) Et Ha H) as [[_ Hnil]|(p' & Et' & Ha' & Hrem)];
          [rewrite Hnil in Hr; destruct Hr|].
        destruct Hrem as [Heq|(hp0 & Hcons & Hwhy)]; [left; exists t, p'; rewrite Heq; auto|].
        rewrite Hcons in Hr. destruct Hr as [<-|Hr]; [|left; exists t, p'; auto].
        destruct Hwhy as [Hna|(pid & todo & -> & -> & Eact)]; [contradiction|].
        right. exists pid. pose proof (step_LStep _ _ _ _ H Et) as Es. rewrite step_thread_PApp, Eact in Es.
        subst s'. simp_st. rewrite upd_same. split; [|apply peer_add_dirlist].
        apply (Hh _ _ pid Et). cbn [acquiring]. apply Z.eqb_refl.
      * left. exists t, p. split; [exact Et'|]. split; [exact Ha|].
        now rewrite (act_rem_kept _ _ _ _ _ H0 Hpcs H Et).
    + right. exists pid. split.
      * apply (root_kept_used _ _ _ _ _ H0 H Hsafe Hr). left. intros Hn.
        apply dirlist_plist in Hl. rewrite Hn in Hl. destruct Hl.
      * unfold dirlist in *. rewrite Hd.
        destruct (step_plist _ _ _ pid H Hf)
          as [[Ei Eo]|[(t & c0 & todo & E & _ & ->)|(t & c0 & todo & P' & E & Ea & Er & ->)]].
        -- now rewrite Ei, Eo.
        -- simp_st. rewrite upd_same. destruct (k_dir (s_conn s c) =? c_inbound);
             [apply peer_add_in|apply peer_add_out]; auto.
        -- (* the connection removed is not active *)
           simp_st. rewrite upd_same. assert (c <> c0) by (intros ->; now apply (is_active_false _ Ea)).
           destruct (peer_rem_some _ _ _ Er) as (_ & _ & _ & _ & _ & _ & Hi & Ho).
           destruct (k_dir (s_conn s c) =? c_inbound); auto.
Qed.

Lemma invS_init : InvS init.
Proof.
  split.
  - intros c H. now contradiction H.
  - intros t p c H. discriminate H.
  - intros t t' p p' c H. discriminate H.
  - split; [intros t p pid H|intros t lid hp pid H]; discriminate H.
  - split; [intros pid H; now contradiction H|intros lid hp pid []].
  - intros pid. split; [constructor|intros c []].
  - intros t p c pid H. discriminate H.
  - intros c hp H. discriminate H.
Qed.

Lemma invS_step s l s' :
  Inv0 s -> InvS s -> safe_label s l = true -> step s l = Some s' -> InvS s'.
Proof.
  intros H0 [H1 H2 H3 H4 H5 H6 H7 H8] Hsafe H. split.
  - eapply step_conn; eauto.
  - eapply step_pcs; eauto.
  - eapply step_uniq; eauto.
  - eapply step_held; eauto. apply (inv0_step _ _ _ H0 H).
  - eapply step_rooted; eauto.
  - eapply step_listed; eauto.
  - eapply step_notyet; eauto.
  - eapply step_active; eauto.
Qed.

Lemma invS_run ls : forall s s', Inv0 s -> InvS s -> run_safe s ls = Some s' -> Inv0 s' /\ InvS s'.
Proof.
  induction ls as [|l r IH]; intros s s' H0 HS H; cbn [run_safe] in H.
  - inversion H; subst; auto.
  - destruct (safe_label s l) eqn:Es; [|discriminate].
    destruct (step s l) as [s1|] eqn:E; [|discriminate].
    eapply IH; [| |exact H]; [eapply inv0_step|eapply invS_step]; eauto.
Qed.

Lemma run_safe_is_run ls : forall s s', run_safe s ls = Some s' -> run_gen true s ls = Some s'.
Proof.
  induction ls as [|l r IH]; intros s s' H; cbn [run_safe run_gen] in *; [assumption|].
  destruct (safe_label s l); [|discriminate]. unfold step in H.
  destruct (step_gen true s l); [|discriminate]. auto.
Qed.

Lemma in_out_ne : c_inbound <> c_outbound. Proof. discriminate. Qed.

Lemma act_todo_inbound k : k_dir k = c_inbound -> act_todo k = [k_rhp k].
Proof. intros H. unfold act_todo. rewrite H. reflexivity. Qed.

Lemma act_todo_outbound_in k hp :
  k_dir k = c_outbound -> (In hp (act_todo k) <-> hp = k_rhp k \/ hp = k_ohp k).
Proof.
  intros H. unfold act_todo. rewrite H, Z.eqb_refl. cbn [andb].
  destruct (Z.eqb_spec (k_ohp k) (k_rhp k)) as [Heq|Hne]; cbn [negb In]; split.
  - intros [ <- | [] ]. now left.
  - intros [ -> | -> ]; left; congruence.
  - intros [ <- | [ <- | [] ] ]; auto.
  - intros [ -> | -> ]; auto.
Qed.

Lemma invS_quiescent s :
  Inv0 s -> InvS s -> quiescent s -> lists_exact s /\ all_listed s /\ refs_rooted s.
Proof.
  intros [_ Hroot _ _ _ _] [Hcn _ _ _ Hro Hl _ Ha] Hq.
  assert (Hnothr : forall c pid, ~ exists t p, s_thr s t = Some p /\ cb_cov s p c pid).
  { intros c pid (t & p & Ht & _). rewrite Hq in Ht. discriminate. }
  assert (Hlisted : forall c hp, active s c -> In hp (act_todo (s_conn s c)) ->
            exists pid, s_root s hp = Some pid /\ In c (dirlist (s_conn s c) (s_peer s pid))).
  { intros c hp Hact Hin. destruct (Ha c hp Hact Hin) as [(t & p & Ht & _)|H]; [|exact H].
    rewrite Hq in Ht. discriminate. }
  split; [|split].
  - intros hp pid Hr0. cbn zeta. destruct (Hl pid) as [Hnd Hall]. fold (plist (s_peer s pid)).
    split; [exact Hnd|]. pose proof (Hroot _ _ Hr0) as Hhp.
    (* a listed connection is active and to this host:port; an active one to it is listed *)
    assert (HA : forall c, In c (plist (s_peer s pid)) -> active s c /\ In hp (act_todo (s_conn s c))).
    { intros c Hp. destruct (Hall c Hp) as (_ & _ & _ & Hh & [Hact|Hw]); [|exfalso; eapply Hnothr; eauto].
      rewrite Hhp in Hh. auto. }
    assert (HC : forall c, active s c -> In hp (act_todo (s_conn s c)) ->
              In c (dirlist (s_conn s c) (s_peer s pid))).
    { intros c Hact Hin. destruct (Hlisted c hp Hact Hin) as (pid' & Hr' & Hin').
      rewrite Hr0 in Hr'. now inversion Hr'; subst pid'. }
    split; intros c; split.
    + intros Hin. assert (Hp : In c (plist (s_peer s pid))) by (apply in_or_app; now left).
      destruct (HA c Hp) as [Hact Hh]. destruct (Hall c Hp) as (_ & Hi & _). specialize (Hi Hin).
      rewrite (act_todo_inbound _ Hi) in Hh. destruct Hh as [Hh|[]]. auto.
    + intros (Hact & Hd & Hrhp). specialize (HC c Hact). unfold dirlist in HC. rewrite Hd, Z.eqb_refl in HC.
      apply HC. rewrite (act_todo_inbound _ Hd). now left.
    + intros Hin. assert (Hp : In c (plist (s_peer s pid))) by (apply in_or_app; now right).
      destruct (HA c Hp) as [Hact Hh]. destruct (Hall c Hp) as (Hk & _ & Ho & _). specialize (Ho Hin).
      destruct (Hcn c Hk) as (_ & [[Hd _]|[Hd _]]); [contradiction|].
      apply (act_todo_outbound_in _ _ Hd) in Hh. split; [exact Hact|]. split; [exact Hd|]. destruct Hh; auto.
    + intros (Hact & Hd & Hhp'). specialize (HC c Hact). unfold dirlist in HC. rewrite Hd in HC.
      apply HC. apply (act_todo_outbound_in _ _ Hd). destruct Hhp'; auto.
  - intros c Hact. split.
    + destruct (Hlisted c (k_rhp (s_conn s c)) Hact) as (pid & Hr0 & _); [unfold act_todo; now left|]. congruence.
    + intros Hd. destruct (Hlisted c (k_ohp (s_conn s c)) Hact) as (pid & Hr0 & _); [|congruence].
      apply (act_todo_outbound_in _ _ Hd). now right.
  - apply Hro.
Qed.

Theorem lists_exact_safe ls s :
  run_safe init ls = Some s -> quiescent s -> lists_exact s /\ all_listed s /\ refs_rooted s.
Proof.
  intros Hr. destruct (invS_run _ _ _ inv0_init invS_init Hr) as [H0 HS]. now apply invS_quiescent.
Qed.
