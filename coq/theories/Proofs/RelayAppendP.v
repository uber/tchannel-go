(* Proofs about the relay's arg2 append path (Model/RelayAppend.v) on top of the writer
   theorems of Proofs/FragWP.v: for every call req first frame laid out as the protocol
   document says, the re-fragmented frames denote arg1, the original pairs followed by the
   appended ones, arg3, with a valid running checksum chain. *)
From Coq Require Import ZArith List Bool Lia ZifyBool.
From Verif Require Import Base.Wrap Base.Bytes Base.Wire Gen.GenConsts Gen.GenFrame Gen.GenRelayFwd
  Model.TypedBuf Model.Messages Model.Crc Model.Frag Model.FragWire Model.Codecs Model.RelayLazy Model.RelayAppend
  Spec.Protocol Spec.FragSpec Spec.FragOk Proofs.CodecP Proofs.FrameP Proofs.CodecsP Proofs.FragWP Proofs.FragWireP Proofs.CkP Proofs.RelayFwdP.
Import ListNotations.
Local Open Scope Z_scope.

Lemma rd_bytes a rest n : length a = n -> r_bytes n (rb (a ++ rest)) = (a, rb rest).
Proof. intros <-. apply (proj1 (r_bytes_consumes a)). Qed.

Lemma rd_u8 b rest : r_u8 (rb (b :: rest)) = (b, rb rest).
Proof. reflexivity. Qed.

Lemma rd_u16 v rest : 0 <= v < 65536 -> r_u16 (rb (be 2 v ++ rest)) = (v, rb rest).
Proof. intros H. apply (proj1 (r_uint_consumes 2 v (u_ok_2 v H))). Qed.

Lemma rd_len8 s rest : zlen s <= 255 -> r_len8 (rb (s_str1 s ++ rest)) = (s, rb rest).
Proof. intros H. apply (proj1 (r_len8_consumes s H)). Qed.

Definition hsel_fold (hdrs : kvs) (a : hsel) : hsel := fold_left (fun a kv => hsel_upd a (fst kv) (snd kv)) hdrs a.

Definition enc_hdrs (hdrs : kvs) : list Z := flat_map (fun kv => s_str1 (fst kv) ++ s_str1 (snd kv)) hdrs.

Lemma lazy_hdrs_enc : forall hdrs a rest,
  Forall (fun kv => str8_ok (fst kv) /\ str8_ok (snd kv)) hdrs ->
  lazy_hdrs (length hdrs) a (rb (enc_hdrs hdrs ++ rest)) = (hsel_fold hdrs a, rb rest).
Proof.
  induction hdrs as [|[k v] hdrs IH]; intros a rest H; [reflexivity|].
  inversion H as [|x l [Hk Hv] Hr]; subst. cbn [fst snd] in Hk, Hv.
  cbn [length lazy_hdrs enc_hdrs flat_map fst snd]. unfold bindR.
  rewrite <- !app_assoc. rewrite (rd_len8 k _ (proj1 Hk)), (rd_len8 v _ (proj1 Hv)).
  fold (enc_hdrs hdrs). rewrite (IH _ _ Hr). reflexivity.
Qed.

(* first frame of a call req as the protocol document lays it out:
   flags:1 ttl:4 tracing:25 service~1 nh:1 (hk~1 hv~1){nh} csumtype:1 (csum:4){0,1} arg1~2 arg2~2 arg3~2 *)
Definition callreq_first (flags ttl : Z) (tr service : list Z) (hdrs : kvs) (ct : Z) (ckb a1 a2 a3 : list Z) : list Z :=
  [flags] ++ s_callreq ttl tr service hdrs ++ [ct] ++ ckb ++ enc_chunks [a1; a2; a3].

Record first_ok (tr service : list Z) (hdrs : kvs) (ct : Z) (ckb a1 a2 a3 : list Z) : Prop := {
  fo_tr : length tr = 25%nat;
  fo_svc : str8_ok service;
  fo_hdrs : kvs8_ok hdrs;
  fo_ct : 0 <= ct < c_checksumCount;
  fo_ck : zlen ckb = ChecksumSize ct;
  fo_a1 : zlen a1 <= 65535; fo_a2 : zlen a2 <= 65535; fo_a3 : zlen a3 <= 65535
}.

Lemma zlen_len {A} (l : list A) : Z.to_nat (zlen l) = length l.
Proof. unfold zlen. apply Nat2Z.id. Qed.

Theorem lazy_callreq_layout : forall flags ttl tr service hdrs ct ckb a1 a2 a3,
  first_ok tr service hdrs ct ckb a1 a2 a3 ->
  let p := callreq_first flags ttl tr service hdrs ct ckb a1 a2 a3 in
  zlen p <= c_MaxFramePayloadSize ->
  exists lz, lazy_callreq p = (0, lz) /\
    lz_ctoff lz = 1 + zlen (s_callreq ttl tr service hdrs) /\ lz_ctype lz = ct /\
    lz_method lz = a1 /\ lz_arg2 p lz = a2 /\ lz_arg3 p lz = a3 /\ lz_a2frag lz = false /\
    lz_as lz = hs_as (hsel_fold hdrs (mkHsel [] [] [] [])) /\
    lz_caller lz = hs_cn (hsel_fold hdrs (mkHsel [] [] [] [])) /\
    slice p 1 (lz_ctoff lz) = s_callreq ttl tr service hdrs /\ nth 0 p 0 = flags /\
    lz_ctoff lz + 1 + zlen ckb + (2 + zlen a1) + (2 + zlen a2) + (2 + zlen a3) = zlen p.
Proof.
  intros flags ttl tr service hdrs ct ckb a1 a2 a3 [Htr Hsvc Hh Hct Hck H1 H2 H3] p Hlen.
  pose proof (zlen_nonneg a1) as N1. pose proof (zlen_nonneg a2) as N2. pose proof (zlen_nonneg a3) as N3.
  pose proof (zlen_nonneg ckb) as Nc. pose proof (zlen_nonneg service) as Ns. pose proof (zlen_nonneg (enc_hdrs hdrs)) as Nh.
  destruct Hsvc as [Hsl _]. destruct Hh as [Hhl Hhf].
  (* the payload as a right-nested concatenation *)
  set (pre30 := [flags] ++ be 4 ttl ++ tr).
  assert (L30 : length pre30 = 30%nat).
  { subst pre30. rewrite !app_length, be_length, Htr. reflexivity. }
  set (t3 := be 2 (zlen a3) ++ a3).
  set (t2 := be 2 (zlen a2) ++ a2 ++ t3).
  set (t1 := be 2 (zlen a1) ++ a1 ++ t2).
  set (tc := [ct] ++ ckb ++ t1).
  assert (Ep : p = pre30 ++ [slen service] ++ service ++ [slen hdrs] ++ enc_hdrs hdrs ++ tc).
  { subst p pre30 tc t1 t2 t3. unfold callreq_first, s_callreq, s_str1, s_headers1, enc_chunks, enc_hdrs.
    cbn [flat_map]. rewrite <- !app_assoc. cbn [app]. rewrite app_nil_r. reflexivity. }
  assert (Zp : zlen p = 30 + 1 + zlen service + 1 + zlen (enc_hdrs hdrs) + 1 + zlen ckb + (2 + zlen a1) + (2 + zlen a2) + (2 + zlen a3)).
  { rewrite Ep. subst tc t1 t2 t3. rewrite !zlen_app, !zlen_be. unfold zlen at 1. rewrite L30.
    unfold zlen at 1 3 5. cbn [length]. lia. }
  unfold c_MaxFramePayloadSize, c_MaxFrameSize, c_FrameHeaderSize in Hlen.
  assert (Zhdr : zlen (s_callreq ttl tr service hdrs) = 29 + 1 + zlen service + 1 + zlen (enc_hdrs hdrs)).
  { unfold s_callreq, s_str1, s_headers1. rewrite !zlen_app, zlen_be. fold (enc_hdrs hdrs).
    unfold zlen at 1 2 4. rewrite Htr. cbn [length]. lia. }
  set (a2s := 1 + zlen (s_callreq ttl tr service hdrs) + 1 + zlen ckb + (2 + zlen a1) + 2).
  set (H0 := hsel_fold hdrs (mkHsel [] [] [] [])).
  set (lzv := mkLazy (1 + zlen (s_callreq ttl tr service hdrs)) ct a1 a2s (a2s + zlen a2) false (a2s + zlen a2 + 2)
                     (hs_as H0) (hs_cn H0) (hs_rd H0) (hs_rk H0)).
  assert (Ea2e : wrapU 16 (a2s + zlen a2) = a2s + zlen a2) by (apply wrapU_id; lia).
  assert (EL : lazy_callreq p = (0, lzv)).
  { unfold lazy_callreq. rewrite Ep at 1.
    change (Z.to_nat c_u_serviceLenIndex) with 30%nat.
    rewrite (rd_bytes pre30 _ 30 L30).
    cbn [app]. rewrite rd_u8.
    unfold slen at 1. rewrite Nat2Z.id. rewrite (rd_bytes service _ _ eq_refl).
    cbn [app]. rewrite rd_u8. unfold slen at 1. rewrite Nat2Z.id.
    rewrite (lazy_hdrs_enc hdrs _ tc Hhf). fold H0.
    unfold bytes_read. change (rrem (rb tc)) with tc.
    assert (Ect : wrapU 16 (zlen p - zlen tc) = 1 + zlen (s_callreq ttl tr service hdrs)).
    { subst tc t1 t2 t3. rewrite !zlen_app, !zlen_be. unfold zlen at 2. cbn [length]. rewrite wrapU_id; lia. }
    rewrite Ect.
    subst tc. cbn [app]. rewrite rd_u8.
    replace (ct >=? c_checksumCount) with false by lia.
    rewrite <- Hck. rewrite (rd_bytes ckb t1 (Z.to_nat (zlen ckb)) (eq_sym (zlen_len ckb))).
    subst t1. rewrite (rd_u16 (zlen a1)) by lia.
    rewrite (rd_bytes a1 t2 (Z.to_nat (zlen a1)) (eq_sym (zlen_len a1))).
    subst t2. rewrite (rd_u16 (zlen a2)) by lia.
    change (rrem (rb (a2 ++ t3))) with (a2 ++ t3).
    assert (Ea2 : wrapU 16 (zlen p - zlen (a2 ++ t3)) = a2s).
    { subst t3 a2s. rewrite !zlen_app, !zlen_be. rewrite wrapU_id; lia. }
    rewrite Ea2, Ea2e.
    rewrite (rd_bytes a2 t3 (Z.to_nat (zlen a2)) (eq_sym (zlen_len a2))).
    change (rrem (rb t3)) with t3.
    assert (Zt3 : zlen t3 = 2 + zlen a3) by (subst t3; rewrite zlen_app, zlen_be; lia).
    replace (zlen t3 =? 0) with false by lia. cbn [andb].
    subst t3. rewrite (rd_bytes (be 2 (zlen a3)) a3 2 (be_length 2 _)).
    change (rrem (rb a3)) with a3. change (rerr (rb a3)) with false. cbv iota.
    assert (Ea3 : wrapU 16 (zlen p - zlen a3) = a2s + zlen a2 + 2) by (subst a2s; rewrite wrapU_id; lia).
    rewrite Ea3. reflexivity. }
  exists lzv. split; [exact EL|].
  cbn [lzv lz_ctoff lz_ctype lz_method lz_a2frag lz_as lz_caller].
  split; [reflexivity|]. split; [reflexivity|]. split; [reflexivity|].
  set (pre := pre30 ++ [slen service] ++ service ++ [slen hdrs] ++ enc_hdrs hdrs ++ [ct] ++ ckb ++ be 2 (zlen a1) ++ a1 ++ be 2 (zlen a2)).
  assert (Ep2 : p = pre ++ a2 ++ be 2 (zlen a3) ++ a3).
  { rewrite Ep. subst pre. rewrite <- !app_assoc. reflexivity. }
  assert (Lpre : length pre = Z.to_nat a2s).
  { rewrite <- zlen_len. f_equal. subst pre. rewrite !zlen_app, !zlen_be. unfold zlen at 1. rewrite L30.
    unfold zlen at 1 3 5. cbn [length]. lia. }
  split.
  { unfold lz_arg2, slice. cbn [lzv lz_a2start lz_a2end].
    rewrite Ep2 at 1. rewrite (skipn_app_exact _ _ _ Lpre).
    replace (a2s + zlen a2 - a2s) with (zlen a2) by lia.
    apply firstn_app_exact. symmetry. apply zlen_len. }
  split.
  { unfold lz_arg3. cbn [lzv lz_a3start].
    rewrite Ep2 at 1. rewrite !app_assoc. apply skipn_app_exact.
    rewrite !app_length, Lpre, be_length, <- (zlen_len a2). lia. }
  split; [reflexivity|]. split; [reflexivity|]. split; [reflexivity|].
  split.
  { unfold slice. subst p. unfold callreq_first. cbn [app skipn Z.to_nat Pos.to_nat Pos.iter_op].
    replace (1 + zlen (s_callreq ttl tr service hdrs) - 1) with (zlen (s_callreq ttl tr service hdrs)) by lia.
    apply firstn_app_exact. symmetry. apply zlen_len. }
  split; [reflexivity|]. lia.
Qed.

Section RelayWriter.
  Variable capf : bool -> Z.
  Variable ck0 : ckst.
  Hypothesis Hcap1 : 3 <= capf true.
  Hypothesis Hcap2 : 5 <= capf false.

  (* BeginArgument on the state in which newFragment(initial) has already written arg1 *)
  Lemma relay_begin_ok method room last :
    capf true = room + (2 + zlen method) -> 2 < room ->
    exists st', w_begin capf last (mkWst c_fragmentingWriteStart 0 [] true [method] room (ck_add ck0 method) false) = Some (0, st')
                /\ in_arg capf ck0 st' [method] [] last.
  Proof.
    intros Hc Hr. unfold w_begin. cbn [ws_err ws_state ws_has ws_chunks ws_room ws_out ws_ck ws_done].
    change (0 =? 0) with true. cbn [negb].
    change (c_fragmentingWriteStart =? c_fragmentingWriteComplete) with false.
    change (is_writing c_fragmentingWriteStart) with false. cbv iota beta.
    change c_chunkHeaderSize with 2. replace (room <=? 2) with false by lia.
    eexists. split; [reflexivity|]. split; [reflexivity|].
    constructor; cbn [ws_err ws_has ws_done ws_chunks ws_out ws_room ws_ck]; try reflexivity.
    - exists [method], []. split; reflexivity.
    - lia.
    - cbn [isnil]. unfold chunks_size. cbn [app fold_right]. change (zlen (@nil Z)) with 0. lia.
    - cbn [app fold_left]. unfold ck_end. cbn [fold_left]. rewrite ck_add_nil. reflexivity.
  Qed.

  (* closing the last argument: besides [final], the checksum object ends as the running
     checksum over everything emitted *)
  Lemma close_last_ck st closed cur : in_arg capf ck0 st closed cur true ->
    exists st', w_close capf st = Some (0, st') /\ final capf ck0 st' (closed ++ [cur]) /\ ws_ck st' = ck_end ck0 (ws_out st').
  Proof.
    intros H. destruct (close_last_ok capf ck0 st closed cur H) as (st' & E & F).
    exists st'. split; [exact E|]. split; [exact F|].
    destruct H as [Hs H]. unfold w_close in E. rewrite (cm_err _ _ _ _ _ H), Hs in E.
    change (0 =? 0) with true in E. cbn [arg_state negb] in E.
    change (is_writing c_fragmentingWriteInLastArgument) with true in E.
    change (c_fragmentingWriteInLastArgument =? c_fragmentingWriteInLastArgument) with true in E. cbn [negb] in E.
    inversion E; subst st'. cbn [ws_ck ws_out]. unfold emit. rewrite ck_end_snoc. cbn [f_chunks].
    apply (cm_ck _ _ _ _ _ H).
  Qed.

  Lemma relay_writer_correct method room items2 items3 :
    capf true = room + (2 + zlen method) -> 2 < room ->
    exists codes st,
      w_run capf (arg_ops false items2 ++ arg_ops true items3)
            (mkWst c_fragmentingWriteStart 0 [] true [method] room (ck_add ck0 method) false) [] = Some (codes, st) /\
      denote (chunks_of (ws_out st)) = [method; arg_bytes items2; arg_bytes items3] /\
      frames_ok capf (ws_out st) /\ ck_chain ck0 (ws_out st) /\ ws_ck st = ck_end ck0 (ws_out st).
  Proof.
    intros Hc Hr.
    destruct (relay_begin_ok method room false Hc Hr) as (st1 & E1 & I1).
    assert (A1 : all0 [0]) by (constructor; [reflexivity|constructor]).
    destruct (items_ok capf ck0 Hcap2 items2 st1 [method] [] false [0] I1 A1) as (codes2 & st2 & R2 & A2 & I2).
    cbn [app] in I2.
    destruct (close_ok capf ck0 Hcap2 st2 [method] _ I2) as (st3 & E3 & B3).
    destruct (begin_ok capf ck0 Hcap1 st3 _ true B3) as (st4 & E4 & I4).
    destruct (items_ok capf ck0 Hcap2 items3 st4 _ [] true _ I4 (all0_snoc _ (all0_snoc _ A2)))
      as (codes5 & st5 & R5 & A5 & I5).
    cbn [app] in I5.
    destruct (close_last_ck st5 _ _ I5) as (st6 & E6 & (F1 & F2 & F3 & F4 & F5) & K).
    exists (codes5 ++ [0]), st6. split.
    - unfold arg_ops. cbn [app w_run w_step]. rewrite E1. cbn [app].
      rewrite <- app_assoc. rewrite w_run_app, R2. cbn [app w_run w_step]. rewrite E3, E4.
      rewrite w_run_app, R5. cbn [w_run w_step]. rewrite E6. reflexivity.
    - cbn [app] in F3. auto.
  Qed.
End RelayWriter.

Lemma arg_bytes_app a b : arg_bytes (a ++ b) = arg_bytes a ++ arg_bytes b.
Proof. unfold arg_bytes. apply flat_map_app. Qed.

Lemma append_pairs_bytes appends : Forall (fun kv => str16_ok (fst kv) /\ str16_ok (snd kv)) appends ->
  arg_bytes (flat_map (fun kv => [IWrite (be 2 (wrapU 16 (zlen (fst kv)))); IWrite (fst kv);
                                   IWrite (be 2 (wrapU 16 (zlen (snd kv)))); IWrite (snd kv)]) appends)
  = flat_map s_pair appends.
Proof.
  induction 1 as [|[k v] l [[Hk _] [Hv _]] _ IH]; [reflexivity|].
  cbn [flat_map fst snd] in *. rewrite arg_bytes_app, IH. unfold arg_bytes at 1. cbn [flat_map app fst snd].
  pose proof (zlen_nonneg k). pose proof (zlen_nonneg v).
  rewrite !wrapU_id by lia. unfold s_pair, s_str2, slen. cbn [fst snd]. fold (zlen k) (zlen v).
  rewrite app_nil_r, <- !app_assoc. reflexivity.
Qed.

Lemma append_items_bytes h appends : kvs16_ok h -> kvs16_ok appends -> zlen h + zlen appends <= 65535 ->
  arg_bytes (append_items (s_theaders h) appends) = s_theaders (h ++ appends).
Proof.
  intros [Hh _] [_ Ha] Hsum. pose proof (zlen_nonneg h). pose proof (zlen_nonneg appends).
  unfold append_items, s_theaders. fold (s_pair). 
  change (fun kv : list Z * list Z => s_str2 (fst kv) ++ s_str2 (snd kv)) with s_pair.
  set (body := flat_map s_pair h).
  rewrite (firstn_app_exact (be 2 (slen h)) body 2 (be_length 2 _)).
  rewrite unbe_be by (change (256 ^ Z.of_nat 2) with 65536; unfold slen; fold (zlen h); lia).
  rewrite (skipn_app_exact (be 2 (slen h)) body 2 (be_length 2 _)).
  change (IWrite ?x :: ?l) with ([IWrite x] ++ l).
  rewrite !arg_bytes_app, (append_pairs_bytes appends Ha).
  assert (Ec : arg_bytes (if zlen (be 2 (slen h) ++ body) >? 2 then [IWrite body] else []) = body).
  { destruct (zlen (be 2 (slen h) ++ body) >? 2) eqn:E; [unfold arg_bytes; cbn [flat_map]; apply app_nil_r|].
    rewrite zlen_app, zlen_be in E. pose proof (zlen_nonneg body). assert (zlen body = 0) as Z0 by lia.
    destruct body; [reflexivity|]. unfold zlen in Z0. cbn [length] in Z0. lia. }
  rewrite Ec. unfold arg_bytes at 1. cbn [flat_map]. rewrite app_nil_r.
  unfold slen. fold (zlen h) (zlen (h ++ appends)). rewrite zlen_app.
  rewrite (wrapU_id 16 (zlen appends)) by lia. rewrite wrapU_id by lia.
  subst body. rewrite flat_map_app. reflexivity.
Qed.

Lemma ck_new_size ct ck0 : 0 <= ct < c_checksumCount -> ck_new ct = Some ck0 -> 0 <= ck_size ck0 <= ChecksumSize ct.
Proof.
  intros H E. unfold c_checksumCount in H.
  assert (C : ct = 0 \/ ct = 1 \/ ct = 2 \/ ct = 3) by lia.
  destruct C as [-> | [-> | [-> | ->]]]; vm_compute in E; inversion E; subst; vm_compute; split; discriminate.
Qed.

(* C08, append path: the destination sees arg1, pairs ++ appended, arg3 *)
Theorem relay_append_correct : forall flags ttl tr service hdrs ct ckb a1 h a3 appends ck0,
  first_ok tr service hdrs ct ckb a1 (s_theaders h) a3 ->
  let p := callreq_first flags ttl tr service hdrs ct ckb a1 (s_theaders h) a3 in
  zlen p <= c_MaxFramePayloadSize ->
  hs_as (hsel_fold hdrs (mkHsel [] [] [] [])) = c_Thrift ->
  ck_new ct = Some ck0 ->
  kvs16_ok h -> kvs16_ok appends -> zlen h + zlen appends <= 65535 ->
  exists lz fs,
    lazy_callreq p = (0, lz) /\
    append_send p lz appends ck0
      = (0, relay_frag_payloads flags (s_callreq ttl tr service hdrs) true fs, ck_end ck0 fs) /\
    denote (chunks_of fs) = [a1; s_theaders (h ++ appends); a3] /\
    frames_ok (relay_capf lz ck0) fs /\ ck_chain ck0 fs /\
    kv_iter (s_theaders (h ++ appends)) = (h ++ appends, true).
Proof.
  intros flags ttl tr service hdrs ct ckb a1 h a3 appends ck0 Hf p Hlen Has Hck Hh Ha Hsum.
  destruct (lazy_callreq_layout flags ttl tr service hdrs ct ckb a1 (s_theaders h) a3 Hf Hlen)
    as (lz & EL & Eoff & Ect & Em & E2 & E3 & Efr & Eas & _ & Epre & Efl & Etot).
  fold p in EL, E2, E3, Epre, Efl, Etot.
  pose proof (ck_new_size ct ck0 (fo_ct _ _ _ _ _ _ _ _ Hf) Hck) as Hcs.
  pose proof (fo_ck _ _ _ _ _ _ _ _ Hf) as Hckb.
  pose proof (zlen_nonneg a1) as N1. pose proof (zlen_nonneg a3) as N3. pose proof (zlen_nonneg (s_theaders h)) as N2.
  assert (N2' : 2 <= zlen (s_theaders h)).
  { unfold s_theaders. rewrite zlen_app, zlen_be. pose proof (zlen_nonneg (flat_map (fun kv => s_str2 (fst kv) ++ s_str2 (snd kv)) h)). lia. }
  unfold c_MaxFramePayloadSize, c_MaxFrameSize, c_FrameHeaderSize in Hlen.
  set (room := relay_capf lz ck0 true - (2 + zlen a1)).
  assert (Hroom : 2 < room).
  { subst room. unfold relay_capf, c_MaxFramePayloadSize, c_MaxFrameSize, c_FrameHeaderSize. lia. }
  assert (Hc1 : 3 <= relay_capf lz ck0 true) by (subst room; lia).
  assert (Hc2 : 5 <= relay_capf lz ck0 false).
  { assert (ck_size ck0 <= 4) by (unfold ck_size; destruct (ck_kind ck0 =? 0); lia).
    unfold relay_capf, c_MaxFramePayloadSize, c_MaxFrameSize, c_FrameHeaderSize. lia. }
  destruct (relay_writer_correct (relay_capf lz ck0) ck0 Hc1 Hc2 a1 room
              (append_items (s_theaders h) appends) [IWrite a3] ltac:(subst room; lia) Hroom)
    as (codes & st & R & D & F & C & K).
  exists lz, (ws_out st). split; [exact EL|].
  split.
  - unfold append_send. rewrite Efr, Eas, Has.
    replace (bytes_eqb c_Thrift c_Thrift) with true by (symmetry; apply bytes_eqb_eq; reflexivity).
    cbn [negb]. rewrite Em. change c_chunkHeaderSize with 2. fold room.
    replace (room <? 0) with false by lia. replace (room <=? 2) with false by lia.
    rewrite E2. replace (zlen (s_theaders h) <? 2) with false by lia.
    unfold append_script, relay_w_init. rewrite E3, Em. change c_chunkHeaderSize with 2. fold room.
    rewrite R. rewrite Efl, Eoff. rewrite Eoff in Epre. rewrite Epre, K. reflexivity.
  - split.
    + rewrite D. rewrite (append_items_bytes h appends Hh Ha Hsum). unfold arg_bytes. cbn [flat_map]. rewrite app_nil_r. reflexivity.
    + split; [exact F|]. split; [exact C|].
      rewrite <- (app_nil_r (s_theaders (h ++ appends))). apply kv_iter_complete.
      destruct Hh as [_ Hhf]. destruct Ha as [_ Haf]. split.
      * rewrite zlen_app. exact Hsum.
      * apply Forall_app. split; assumption.
Qed.

Print Assumptions relay_append_correct.

(* a call req continue frame of the original call: flags, checksum type, checksum, one chunk
   (after arg3 has started every continuation carries exactly one chunk) *)
Definition cont_payload (flags ctb : Z) (ckb d : list Z) : list Z := [flags; ctb] ++ ckb ++ be 2 (zlen d) ++ d.

Lemma rd_bytes_all d n : length d = n -> r_bytes n (rb d) = (d, rb []).
Proof. intros H. rewrite <- (app_nil_r d) at 1. apply rd_bytes, H. Qed.

Lemma update_cont_layout flags ctb ckb d ck : zlen ckb = ck_size ck -> zlen d <= 65535 ->
  update_cont_ck (cont_payload flags ctb ckb d) ck = (cont_payload flags ctb (ck_sum (ck_add ck d)) d, ck_add ck d).
Proof.
  intros Hc Hd. pose proof (zlen_nonneg d) as Nd. pose proof (zlen_nonneg ckb) as Nc.
  unfold update_cont_ck, cont_payload.
  change ([flags; ctb] ++ ckb ++ be 2 (zlen d) ++ d) with ([flags] ++ [ctb] ++ ckb ++ be 2 (zlen d) ++ d).
  rewrite (rd_bytes [flags] _ 1 eq_refl). rewrite (rd_bytes [ctb] _ 1 eq_refl).
  rewrite <- Hc. rewrite (rd_bytes ckb _ (Z.to_nat (zlen ckb)) (eq_sym (zlen_len ckb))).
  rewrite (rd_u16 (zlen d)) by lia. rewrite (rd_bytes_all d (Z.to_nat (zlen d)) (eq_sym (zlen_len d))).
  change (rerr (rb (be 2 (zlen d) ++ d))) with false. cbv iota.
  replace (skipn (Z.to_nat (2 + zlen ckb)) ([flags] ++ [ctb] ++ ckb ++ be 2 (zlen d) ++ d)) with (be 2 (zlen d) ++ d).
  2:{ replace (Z.to_nat (2 + zlen ckb)) with (S (S (length ckb))) by (unfold zlen; lia).
      cbn [app skipn]. symmetry. apply skipn_app_exact. reflexivity. }
  reflexivity.
Qed.

(* the continuation fragments as the destination receives them: chunk unchanged, checksum
   field = running checksum continued from the state the relay item keeps *)
Fixpoint patched (ck : ckst) (conts : list (bool * list Z)) : list frag :=
  match conts with
  | [] => []
  | (more, d) :: r => mkFrag more (ck_typecode ck) (ck_sum (ck_add ck d)) [d] :: patched (ck_add ck d) r
  end.

Lemma ck_chain_app fs : forall c gs, ck_chain c fs -> ck_chain (ck_end c fs) gs -> ck_chain c (fs ++ gs).
Proof.
  induction fs as [|f fs IH]; intros c gs H1 H2; [exact H2|].
  cbn [app ck_chain] in *. destruct H1 as (A & B & C). split; [exact A|]. split; [exact B|].
  apply IH; [exact C|exact H2].
Qed.

Lemma patched_chain conts : forall ck, ck_chain ck (patched ck conts).
Proof.
  induction conts as [|[more d] r IH]; intros ck; [exact I|].
  cbn [patched ck_chain f_chunks f_ck f_ctype fold_left]. split; [reflexivity|]. split; [reflexivity|]. apply IH.
Qed.

Lemma patched_events conts : forall ck,
  flat_map frag_events (chunks_of (patched ck conts)) = map (fun c => Cont (snd c)) conts.
Proof.
  induction conts as [|[more d] r IH]; intros ck; [reflexivity|].
  cbn [patched chunks_of map flat_map f_chunks frag_events app snd]. f_equal. apply IH.
Qed.

Lemma fold_conts conts : forall closed cur,
  fold_left ev_step (map (fun c : bool * list Z => Cont (snd c)) conts) (closed, cur) = (closed, cur ++ concat (map snd conts)).
Proof.
  induction conts as [|[more d] r IH]; intros closed cur; cbn [map fold_left concat snd].
  - rewrite app_nil_r. reflexivity.
  - unfold ev_step at 2. cbn [fst snd]. rewrite IH, app_assoc. reflexivity.
Qed.

Lemma denote_with_conts fs args last ck conts :
  denote (chunks_of fs) = args ++ [last] ->
  denote (chunks_of (fs ++ patched ck conts)) = args ++ [last ++ concat (map snd conts)].
Proof.
  unfold denote. intros H. rewrite chunks_of_app, flat_map_app, denote_events_app, patched_events.
  destruct (denote_events (flat_map frag_events (chunks_of fs))) as [closed cur].
  apply app_inj_tail in H. destruct H as [-> ->]. rewrite fold_conts. reflexivity.
Qed.

(* the whole appended call as the destination receives it: the re-fragmented first frame
   followed by the original continuation frames with patched checksums *)
Theorem relay_append_whole : forall flags ttl tr service hdrs ct ckb a1 h a3 appends ck0,
  first_ok tr service hdrs ct ckb a1 (s_theaders h) a3 ->
  let p := callreq_first flags ttl tr service hdrs ct ckb a1 (s_theaders h) a3 in
  zlen p <= c_MaxFramePayloadSize ->
  hs_as (hsel_fold hdrs (mkHsel [] [] [] [])) = c_Thrift ->
  ck_new ct = Some ck0 ->
  kvs16_ok h -> kvs16_ok appends -> zlen h + zlen appends <= 65535 ->
  exists lz fs,
    lazy_callreq p = (0, lz) /\
    append_send p lz appends ck0
      = (0, relay_frag_payloads flags (s_callreq ttl tr service hdrs) true fs, ck_end ck0 fs) /\
    forall conts,
      ck_chain ck0 (fs ++ patched (ck_end ck0 fs) conts) /\
      denote (chunks_of (fs ++ patched (ck_end ck0 fs) conts)) = [a1; s_theaders (h ++ appends); a3 ++ concat (map snd conts)].
Proof.
  intros flags ttl tr service hdrs ct ckb a1 h a3 appends ck0 Hf p Hlen Has Hck Hh Ha Hsum.
  destruct (relay_append_correct flags ttl tr service hdrs ct ckb a1 h a3 appends ck0 Hf Hlen Has Hck Hh Ha Hsum)
    as (lz & fs & EL & ES & D & _ & C & _).
  exists lz, fs. split; [exact EL|]. split; [exact ES|]. intros conts. split.
  - apply ck_chain_app; [exact C|apply patched_chain].
  - apply (denote_with_conts fs [a1; s_theaders (h ++ appends)] a3). exact D.
Qed.

Print Assumptions relay_append_whole.
