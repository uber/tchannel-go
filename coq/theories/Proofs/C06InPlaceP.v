(* C06, in-place accessors: the hand model (Model/C06InPlace.v) on the payload the SPECIFICATION
   encoder lays out returns the fields of the message -- the offsets the code uses are the places
   Spec/Protocol.v puts the fields.  Independent of the regenerated functions (Gen/GenC06InPlace.v):
   this file is the dependency of the spec_sub c06inplace. *)
From Coq Require Import ZArith List Bool Lia ZifyBool.
From Verif Require Import Base.Wrap Base.Bytes Base.Wire Gen.GenConsts Model.TypedBuf Model.Messages
  Spec.Protocol Spec.ProtocolCall Spec.C06InPlaceSpec Model.C06InPlace Proofs.CodecP.
Import ListNotations.
Local Open Scope Z_scope.

(* ---- a field that follows a prefix of the field's offset ---- *)
Lemma ip_slice_at pre b post lo hi : zlen pre = lo -> lo + zlen b = hi ->
  ip_slice (pre ++ b ++ post) lo hi = Some b.
Proof.
  intros <- <-. unfold ip_slice. pose proof (zlen_nonneg pre). pose proof (zlen_nonneg b). pose proof (zlen_nonneg post).
  rewrite !zlen_app.
  match goal with |- (if ?x then _ else _) = _ => destruct x eqn:E end; [lia|].
  replace (zlen pre + zlen b - zlen pre) with (zlen b) by lia. unfold zlen. rewrite !Nat2Z.id.
  rewrite skipn_app, skipn_all, Nat.sub_diag. cbn [skipn app].
  rewrite firstn_app, firstn_all, Nat.sub_diag. cbn [firstn]. rewrite app_nil_r. reflexivity.
Qed.

Lemma ip_index_at pre x post i : zlen pre = i -> ip_index (pre ++ x :: post) i = Some x.
Proof.
  intros <-. unfold ip_index. pose proof (zlen_nonneg pre). pose proof (zlen_nonneg post).
  rewrite zlen_app. unfold zlen at 3. cbn [length]. fold (zlen post).
  match goal with |- (if ?x then _ else _) = _ => destruct x eqn:E end; [lia|].
  unfold zlen. rewrite Nat2Z.id, app_nth2, Nat.sub_diag by lia. reflexivity.
Qed.

(* every int the accessors convert is far inside int64 *)
Lemma ip_wrapS v : 0 <= v < 2 ^ 62 -> wrapS 64 v = v.
Proof. intros H. apply wrapS_id; [lia|]. change (2 ^ (64 - 1)) with (2 ^ 63). lia. Qed.

(* ---- call req: flags:1 ttl:4 tracing:25 service~1 rest ----
   The fields in front of the service name have fixed widths, so the payload is convertible to
   prefix ++ field ++ rest for each of them, the prefix having the length of the generated offset. *)
Section CallReq.
  Variables (flags ttl_ms a b c d : Z) (service rest : list Z).
  Hypothesis Hs : span_ok (mkSpan a b c d).
  Hypothesis Httl : 0 <= ttl_ms < 4294967296.
  Hypothesis Hsvc : zlen service <= 255.
  Let tr := s_tracing a b c d.
  Let p := s_ip_callreq flags ttl_ms tr service rest.

  (* callReqSpan / lazyCallReq.Span: the four fields in WIRE order spanid parentid traceid flags *)
  Lemma ip_span_spec : ip_span p = Some (mkSpan a b c d).
  Proof.
    unfold ip_span. rewrite (ip_slice_at ([flags] ++ be 4 ttl_ms) tr (s_str1 service ++ rest)) by reflexivity.
    destruct (r_span_consumes _ Hs) as [C _]. specialize (C []). rewrite app_nil_r in C.
    change (rb tr) with (rb (spec_span (mkSpan a b c d))). rewrite C. reflexivity.
  Qed.

  Lemma ip_ttl_field : ip_slice p c_u_ttlIndex (c_u_ttlIndex + c_u_ttlLen) = Some (be 4 ttl_ms).
  Proof. exact (ip_slice_at [flags] (be 4 ttl_ms) (tr ++ s_str1 service ++ rest) _ _ eq_refl eq_refl). Qed.

  (* lazyCallReq.TTL: the ttl field, in nanoseconds *)
  Lemma ip_ttl_spec : ip_ttl p = Some (ttl_ms * 1000000).
  Proof.
    unfold ip_ttl. rewrite ip_ttl_field. change (zlen (be 4 ttl_ms) <? 4) with false. cbv iota.
    change (firstn 4 (be 4 ttl_ms)) with (be 4 ttl_ms). rewrite (unbe_be 4) by exact Httl.
    unfold ms_ns. rewrite (ip_wrapS ttl_ms), ip_wrapS by lia. reflexivity.
  Qed.

  (* lazyCallReq.SetTTL(d): only the ttl field changes *)
  Lemma ip_set_ttl_spec dns : 0 <= dns < 4294967296000000 ->
    ip_set_ttl p dns = Some (s_ip_callreq flags (dns / 1000000) tr service rest).
  Proof.
    intros Hdn. unfold ip_set_ttl. rewrite ip_ttl_field. change (zlen (be 4 ttl_ms) <? 4) with false. cbv iota.
    change (firstn (Z.to_nat c_u_ttlIndex) p) with [flags].
    change (skipn (Z.to_nat c_u_ttlIndex + 4) p) with (tr ++ s_str1 service ++ rest).
    unfold ms_ns. rewrite Z.quot_div_nonneg by lia.
    assert (0 <= dns / 1000000 < 4294967296) by (split; [apply Z.div_pos; lia|apply Z.div_lt_upper_bound; lia]).
    rewrite ip_wrapS, wrapU_id by lia. reflexivity.
  Qed.

  Lemma ip_service_spec : ip_service p = Some service.
  Proof.
    unfold ip_service.
    rewrite (ip_index_at ([flags] ++ be 4 ttl_ms ++ tr) (slen service) (service ++ rest)) by reflexivity.
    rewrite slen_zlen. pose proof (zlen_nonneg service). rewrite (ip_wrapS (zlen service)), ip_wrapS by (change c_u_serviceNameIndex with 31; lia).
    exact (ip_slice_at (([flags] ++ be 4 ttl_ms ++ tr) ++ [zlen service]) service rest _ _ eq_refl eq_refl).
  Qed.

  (* the error frame answered for this call req carries THE CALL'S tracing bytes *)
  Lemma ip_error_payload_spec code msg : 0 <= code < 256 -> zlen msg <= 65491 -> bytes_ok msg = true ->
    ip_error_payload p code msg = Some (s_error code tr msg).
  Proof.
    intros Hcode Hm Hb'. unfold ip_error_payload. rewrite ip_span_spec.
    destruct (w_error_writes (mkErr code (mkSpan a b c d) msg)) as [W _].
    { split; [exact Hcode|]. split; [exact Hs|]. split; [cbn [em_msg]; lia|exact Hb']. }
    change (spec_error (mkErr code (mkSpan a b c d) msg)) with (s_error code tr msg) in W.
    rewrite (W (wb 65519) eq_refl); [reflexivity|].
    unfold s_error, s_str2. rewrite !zlen_app, zlen_be. change (zlen tr) with 25. change (zlen [code]) with 1. cbn [wroom wb]. lia.
  Qed.
End CallReq.

Lemma ip_land1 flags : 0 <= flags < 256 -> (Z.land flags 1 =? 0) = negb (Z.odd flags).
Proof.
  intros H. change 1 with (Z.ones 1). rewrite Z.land_ones by lia. change (2 ^ 1) with 2.
  rewrite Zmod_odd. destruct (Z.odd flags); reflexivity.
Qed.

Lemma ip_more_spec flags r : 0 <= flags < 256 -> ip_more (flags :: r) = Some (s_ip_more flags).
Proof.
  intros H. unfold ip_more, s_ip_more. change (ip_index (flags :: r) c_u_flagsIndex) with (Some flags). cbv iota beta.
  change c_hasMoreFragmentsFlag with 1. rewrite ip_land1 by exact H. rewrite negb_involutive. reflexivity.
Qed.

Lemma ip_finishes_spec mtype flags r : 0 <= flags < 256 ->
  ip_finishes mtype (flags :: r) = Some (s_ip_finishes mtype flags).
Proof.
  intros H. unfold ip_finishes, s_ip_finishes, s_ip_more.
  change c_messageTypeError with 255. change c_messageTypeCancel with 192.
  change c_messageTypeCallRes with 4. change c_messageTypeCallResContinue with 20.
  destruct ((mtype =? 255) || (mtype =? 192)); [reflexivity|].
  destruct ((mtype =? 4) || (mtype =? 20)); [|reflexivity].
  change (ip_index (flags :: r) c_u_flagsIndex) with (Some flags). cbv iota beta.
  change c_hasMoreFragmentsFlag with 1. rewrite ip_land1 by exact H. reflexivity.
Qed.

Lemma ip_res_ok_spec flags code r : ip_res_ok (s_ip_callres flags code r) = Some (code =? 0).
Proof. unfold ip_res_ok. rewrite (ip_index_at [flags] code r c_u_resCodeIndex eq_refl : ip_index (s_ip_callres flags code r) _ = _). reflexivity. Qed.

Lemma ip_err_code_spec code tr msg : 0 <= code < 256 -> ip_err_code (s_error code tr msg) = Some code.
Proof. intros H. unfold ip_err_code. change (ip_index (s_error code tr msg) c_u_errCodeIndex) with (Some code). cbv iota beta. rewrite wrapU_id by lia. reflexivity. Qed.

(* ---- the harness observable: model on the specified payload = the fields ---- *)
Lemma s_ip_u8_range v : s_ip_u8 v = true -> 0 <= v < 256.
Proof. unfold s_ip_u8. lia. Qed.
Lemma s_ip_u32_range v : s_ip_u32 v = true -> 0 <= v < 4294967296.
Proof. unfold s_ip_u32. lia. Qed.

(* the harness line carries a 64-bit id as two 32-bit halves *)
Lemma ip_id_halves hi lo : s_ip_u32 hi = true -> s_ip_u32 lo = true ->
  u_ok 8 (s_ip_id hi lo) /\ ip_halves (s_ip_id hi lo) = [hi; lo].
Proof.
  intros A%s_ip_u32_range B%s_ip_u32_range. unfold u_ok, ip_halves, s_ip_id. split.
  - change (256 ^ Z.of_nat 8) with 18446744073709551616. lia.
  - rewrite Z.div_add_l, Z.div_small, Z.add_0_r by lia.
    rewrite Z.add_comm, Z.mod_add, Z.mod_small by lia. reflexivity.
Qed.

Lemma ip_case_span sh sl ph pl th tl tflags :
  s_ip_halves [sh; sl; ph; pl; th; tl] = true -> s_ip_u8 tflags = true ->
  let s := mkSpan (s_ip_id sh sl) (s_ip_id ph pl) (s_ip_id th tl) tflags in
  span_ok s /\ ip_put_span s = [sh; sl; ph; pl; th; tl; tflags].
Proof.
  cbn [s_ip_halves forallb]. rewrite andb_true_r.
  intros [Hsh [Hsl [Hph [Hpl [Hth Htl]%andb_prop]%andb_prop]%andb_prop]%andb_prop]%andb_prop Hf%s_ip_u8_range.
  destruct (ip_id_halves sh sl Hsh Hsl) as [Ua Ea], (ip_id_halves ph pl Hph Hpl) as [Ub Eb],
    (ip_id_halves th tl Hth Htl) as [Uc Ec].
  split; [exact (conj Ua (conj Ub (conj Uc Hf)))|].
  unfold ip_put_span. cbn [sp_span sp_parent sp_trace sp_flags]. rewrite Ea, Eb, Ec. reflexivity.
Qed.

Lemma ip_obs_spec k : s_ip_case_ok k = true -> ip_obs k = s_ip_obs k.
Proof.
  destruct k as [flags ttl_ms sh sl ph pl th tl tflags new_ttl code service rest msg
                | mtype flags code rest | code sh sl ph pl th tl tflags msg | scenario id sh sl ph pl th tl tflags];
    cbn [s_ip_case_ok]; unfold ip_obs, s_ip_obs, ip_case_payload.
  - intros [[[[[[[[[[[Hf%s_ip_u8_range Ht%s_ip_u32_range]%andb_prop Hh]%andb_prop Htf]%andb_prop Hn0%Z.leb_le]%andb_prop
      Hn1%Z.ltb_lt]%andb_prop Hc%s_ip_u8_range]%andb_prop Hsv%Z.leb_le]%andb_prop Hm%Z.leb_le]%andb_prop _]%andb_prop _]%andb_prop
      Hbm]%andb_prop.
    destruct (ip_case_span _ _ _ _ _ _ _ Hh Htf) as [Hs Hput].
    rewrite (ip_span_spec flags ttl_ms _ _ _ _ service rest Hs), (ip_ttl_spec flags ttl_ms _ _ _ _ service rest Ht),
      (ip_service_spec flags ttl_ms _ _ _ _ service rest Hsv), (ip_set_ttl_spec flags ttl_ms _ _ _ _ service rest new_ttl (conj Hn0 Hn1)),
      (ip_error_payload_spec flags ttl_ms _ _ _ _ service rest Hs code msg Hc Hm Hbm).
    unfold s_ip_callreq at 1 2. cbn [app]. rewrite ip_more_spec, ip_finishes_spec by exact Hf.
    cbn [ip_opt]. rewrite Hput. reflexivity.
  - intros [[[_ Hf%s_ip_u8_range]%andb_prop _]%andb_prop _]%andb_prop. rewrite ip_res_ok_spec.
    unfold s_ip_callres. cbn [app]. rewrite ip_more_spec, ip_finishes_spec by exact Hf. reflexivity.
  - intros [[[[Hc%s_ip_u8_range _]%andb_prop _]%andb_prop _]%andb_prop _]%andb_prop.
    rewrite ip_err_code_spec by exact Hc. unfold s_error. cbn [app]. rewrite ip_finishes_spec by exact Hc. reflexivity.
  - intros [[_ Hh]%andb_prop Htf]%andb_prop. destruct (ip_case_span _ _ _ _ _ _ _ Hh Htf) as [Hs _].
    rewrite (ip_span_spec 0 0 _ _ _ _ [] [] Hs). cbn [option_map ip_opt].
    destruct (w_span_writes _ (proj2 (proj2 (proj2 Hs)))) as [W _].
    rewrite (W (wb c_u_spanLength) eq_refl); [reflexivity|]. cbn [wroom wb]. change c_u_spanLength with 25. reflexivity.
Qed.

(* the entry point replayed against the implementation IS the specified observable, for every case *)
Theorem run_c06inplace_spec : forall c, run_c06inplace c = s_run_c06inplace c.
Proof.
  intros c. unfold run_c06inplace, s_run_c06inplace.
  destruct (s_ip_parse c) as [k|] eqn:E; [|reflexivity].
  apply ip_obs_spec. unfold s_ip_parse in E.
  destruct (match c with [] => None | kind :: r => _ end) as [k'|]; [|discriminate].
  destruct (s_ip_case_ok k') eqn:O; [|discriminate]. inversion E; subst k'. exact O.
Qed.

(* the complete call req of Spec/ProtocolCall.v is an instance of the layout used above *)
Lemma s_ip_callreq_full : forall flags ttl tr service h ct cs a1 a2 a3,
  s_callreq_full flags ttl tr service h ct cs a1 a2 a3
  = s_ip_callreq flags ttl tr service (s_headers1 h ++ s_call_args ct cs a1 a2 a3).
Proof. intros. unfold s_callreq_full, s_ip_callreq. reflexivity. Qed.

Theorem run_c06ipwire_spec : forall c, run_c06ipwire c = s_run_c06inplace c.
Proof. exact run_c06inplace_spec. Qed.
