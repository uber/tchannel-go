(* C09 for schedules with RE-USED request ids: every theorem of the fresh-id quantifier holds for
   the re-use schedules of [run_reuse] (Proofs/RelayReuseP.v): any interleaving in which a call req
   that re-uses an id meets, at its getDestination step, an item for that id -- the earlier call
   is IN FLIGHT (duplicate call req against a live item), timed out or failed (tombstone).  The
   duplicate is rejected without touching the item or its timer (RelaySitesP.duplicate_touches_nothing),
   so the call in flight is still ended exactly once -- by a frame, or by its timeout. *)
From Coq Require Import ZArith List Bool Lia.
From Verif Require Import Base.Wrap Gen.GenConsts Gen.GenFrame Model.RelayItems Spec.RelayAccount
  Proofs.RelayAssocP Proofs.RelayCoreP Proofs.RelayInv9P Proofs.RelayTimerP Proofs.RelayThmP Proofs.RelayReuseP.
Import ListNotations.
Local Open Scope Z_scope.

Lemma cbrel_count : forall l0 l c, cbrel l0 l -> count_end cb_is_end c l0 = count_end cb_is_end c l.
Proof.
  intros l0 l c H. induction H as [|[c0 x0] [c1 x1] l0 l [Hf Hs] H IH]; [reflexivity|].
  cbn in Hf, Hs. subst c1. cbn [count_end]. rewrite IH. f_equal.
  destruct Hs as [->|[-> ->]]; reflexivity.
Qed.

Lemma trel_nil : forall sn l0 l, RelayReuseP.trel sn l0 l -> l = [] -> l0 = [].
Proof. intros sn l0 l H E. subst. inversion H. reflexivity. Qed.

Lemma trel_in : forall sn l0 l t c, RelayReuseP.trel sn l0 l -> In (t, c) l -> exists c0, In (t, c0) l0 /\ code_rel sn c0 c.
Proof.
  intros sn l0 l t c H. induction H as [|[t0 c0] [t1 c1] l0 l [Hk Hc] H IH]; intro Hin; [contradiction|].
  cbn in Hk, Hc. subst t1. destruct Hin as [E|Hin].
  - inversion E. subst. exists c0. split; [left; reflexivity|exact Hc].
  - destruct (IH Hin) as (c2&A&B). exists c2. split; [right; exact A|exact B].
Qed.

Section Reuse.
  Variables (cf : config) (ls : list label) (st : state).
  Hypothesis H : run_reuse cf init ls = Some st.

  Lemma reuse_quiescent : forall st0, coreq st0 st -> RelayReuseP.trel (seen st) (threads st0) (threads st) ->
    quiescent st -> quiescent st0.
  Proof.
    intros st0 (_&_&Ht&_) Htr [Hth Harm]. split; [eapply trel_nil; eassumption|].
    intros tm x Hx. rewrite Ht in Hx. apply (Harm _ _ Hx).
  Qed.

  (* End at most once per call, in every reachable state of a re-use schedule *)
  Theorem reuse_end_at_most_once : end_at_most_once cb_is_end (cblog st).
  Proof.
    destruct (reuse_simulated_full cf ls st H) as (ls0&st0&R&Hc&Ht&Hl). intro c.
    rewrite <- (cbrel_count _ _ c Hl). apply (end_at_most_once_thm cf ls0 st0 R c).
  Qed.

  (* ... exactly once for every started call once nothing is left to run and no timeout is pending *)
  Theorem reuse_end_exactly_once : quiescent st -> forall c, 1 <= c < next_call st ->
    end_exactly_once cb_is_end c (cblog st).
  Proof.
    intros Hq c Hcr. destruct (reuse_simulated_full cf ls st H) as (ls0&st0&R&Hc&Ht&Hl).
    unfold end_exactly_once. rewrite <- (cbrel_count _ _ c Hl).
    apply (end_exactly_once_thm cf ls0 st0 R (reuse_quiescent st0 Hc Ht Hq) c).
    destruct Hc as (_&_&_&_&Hn&_). rewrite Hn. exact Hcr.
  Qed.

  (* ... and then, after the tombstone collections, nothing is left: no item, no pending count *)
  Theorem reuse_forgotten : quiescent st -> gcs st = [] ->
    items st = [] /\ forall k, c_pending (get_conn st k) = 0.
  Proof.
    intros Hq Hg. destruct (reuse_simulated_full cf ls st H) as (ls0&st0&R&Hc&Ht&Hl).
    pose proof (reuse_quiescent st0 Hc Ht Hq) as Hq0.
    destruct Hc as (C1&C2&C3&C4&C5&C6&C7).
    destruct (forgotten_thm cf ls0 st0 R Hq0 (eq_trans C6 Hg)) as [Hi Hp].
    split; [rewrite <- C2; exact Hi|]. intro k. unfold get_conn. rewrite <- C1. apply (Hp k).
  Qed.

  (* the timer protocol: no Go panic of relay_timer_pool.go, a stopped timer never fires, a
     released timer is inactive and belongs to no item *)
  Theorem reuse_timer_protocol :
    panicked st = 0 /\
    forall tm x, lookup Z.eqb tm (timers st) = Some x ->
      (tm_stopped x = true -> tm_armed x = false /\ tm_active x = false /\
         forall code, In (TT tm, code) (threads st) -> code <> [ITimerRun tm]) /\
      (tm_released x = true -> tm_active x = false /\ forall t it, In (t, it) (items st) -> it_tm it <> tm).
  Proof.
    destruct (reuse_simulated_full cf ls st H) as (ls0&st0&R&Hc&Ht&Hl).
    destruct Hc as (C1&C2&C3&C4&C5&C6&C7).
    destruct (timer_protocol_thm cf ls0 st0 R) as [Hp Hall]. split; [rewrite <- C7; exact Hp|].
    intros tm x Hx. rewrite <- C3 in Hx. destruct (Hall tm x Hx) as [A B]. split.
    - intro Hs. destruct (A Hs) as (A1&A2&A3). split; [exact A1|]. split; [exact A2|].
      intros code Hin Hcode. subst code. destruct (trel_in _ _ _ _ _ Ht Hin) as (c0&Hin0&Hcr).
      apply (A3 c0 Hin0). inversion Hcr as [a b HF E0 E1|]; subst.
      inversion HF as [|i0 i1 r0 r1 Hi Hr E0 E1]. subst. inversion Hr. subst. inversion Hi. reflexivity.
    - intro Hr. destruct (B Hr) as [B1 B2]. split; [exact B1|]. intros t it Hin. rewrite <- C2 in Hin. apply (B2 t it Hin).
  Qed.
End Reuse.

(* ---------------------------------------------------------------- non-vacuity *)

Definition dup_cf : config := {| cf_maxtombs := 30000; cf_cancel := true |}.
Definition dup_env : env := {| e_start := 0; e_code := 0; e_dest := 1; e_mode := 0 |}.
Definition dup_req : frame := {| f_mt := c_messageTypeCallReq; f_id := 7; f_flags := 0; f_code := 0; f_wf := true |}.

(* call req 7 is relayed (call 1; timers 1 = destination item, 2 = originating item); the SAME id
   arrives again while call 1 is in flight (call 2): rejected as a duplicate, End; the backend
   stays silent: the timeout of the originating item fires (End of call 1), then the one of the
   destination item; the tombstone collections run *)
Definition dup_live_run : list label :=
  [LArrive 0 dup_req dup_env] ++ repeat (LStep (TR 0) true) 10 ++
  [LArrive 0 dup_req dup_env] ++ repeat (LStep (TR 0) true) 7 ++
  [LFire 2] ++ repeat (LStep (TT 2) true) 7 ++
  [LFire 1] ++ repeat (LStep (TT 1) true) 4 ++
  [LGc (0, 0, 7); LGc (1, 1, 1)].

(* a rejected call races with a graceful close: the reader is between canHandleNewCall's
   increment and getDestination (the RelayHost offers no destination) when the connection is
   closed; the rejection's decrement is followed by the close check, which closes the connection *)
Definition rej_env : env := {| e_start := 0; e_code := 0; e_dest := -1; e_mode := 0 |}.
Definition close_vs_reject_run : list label :=
  [LArrive 0 dup_req rej_env; LStep (TR 0) true; LStep (TR 0) true; LClose 0] ++ repeat (LStep (TR 0) true) 6.

(* ---------------------------------------------------------------- finishRelayItem's identity check

   In fresh-id schedules the check of relayItems.deleteCall never fails for a finish that is
   about to run (invariant LInv of Proofs/RelayTimerP.v, preserved by EVERY step): whatever item
   is under the key has the destination relayer and the destination-side id the frame path looked
   up.  finishRelayItem is there a plain relayItems.Delete. *)
Theorem finish_is_delete : forall cf ls st th t lk rest, run_fresh cf init ls = Some st ->
  lookup tid_eqb th (threads st) = Some (IDelete t lk :: rest) ->
  items_delete_call st t lk = items_delete st t.
Proof.
  intros cf ls st th t lk rest H Hl. destruct (reach_three cf ls st H) as (_&_&HL).
  eapply LInv_delete_is_delete; eassumption.
Qed.

(* an item of ANOTHER call under the id is left alone, with its timer and the counters *)
Theorem finish_leaves_other_call : forall cf st t lk it room,
  lookup key_eqb t (items st) = Some it -> (it_dest it =? fst lk) && (it_remap it =? snd lk) = false ->
  exec cf st (IDelete t lk) room = (st, []).
Proof.
  intros cf st t lk it room Hl Hm. cbn [exec]. unfold items_delete_call. rewrite Hl, Hm. reflexivity.
Qed.
