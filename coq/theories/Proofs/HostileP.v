(* Property C05 (a), HOSTILE input: the fragment reader of Model/Frag.v on ANY fragment list
   (any chunk structure, any checksum fields, any more-flags) under ANY script of
   Begin / Read / Close / ArgReadHelper operations.
     Part 1  no panic once the first fragment's checksum type is known (which the fragment
             parser guarantees: PeerInputP.parsed_ctype_known); every error code returned
             is also the reader's sticky error; after an error nothing is handed out
     Part 2  ghost invariant: what has been consumed without error is a checksum-verified,
             well-formed message prefix; Complete is entered at most once and only on a
             verified last fragment (more-fragments flag clear)
     Part 3  byte level: frames / fragments of a cut stream are a prefix of those of the
             whole stream, for ARBITRARY bytes; the outcome of a cut stream is an error or
             the outcome of the uncut stream
     Part 4  a success is the denotation of a verified well-formed message
   The operations themselves are characterised in CutP.v (Parts 0 and 2). *)
From Coq Require Import ZArith List Bool Lia.
From Verif Require Import Base.Wrap Base.Bytes Base.Wire Gen.GenConsts Gen.GenFrame Model.TypedBuf Model.Messages
  Model.Crc Model.Frag Model.FragWire Model.Cut Spec.FragSpec Spec.FragOk
  Proofs.CodecP Proofs.CodecsP Proofs.FrameP Proofs.FragRP Proofs.PeerInputP Proofs.CutP.
Import ListNotations.
Local Open Scope Z_scope.

(* Statement-level definitions: arbitrary operation scripts *)
(* one operation: (data handed out, code, state after); None = panic *)
Definition r_step (o : rop) (st : rst) : option (list Z * Z * rst) :=
  match o with
  | RBegin l => match r_begin l st with None => None | Some (c, s) => Some ([], c, s) end
  | RRead n => r_read n st
  | RClose => match r_close st with None => None | Some (c, s) => Some ([], c, s) end
  | RHelper n => r_helper_read n st
  end.

Fixpoint r_trace (ops : list rop) (st : rst) : option (list (list Z * Z * rst)) :=
  match ops with
  | [] => Some []
  | o :: r =>
      match r_step o st with
      | None => None
      | Some (bs, c, st') =>
          match r_trace r st' with None => None | Some t => Some ((bs, c, st') :: t) end
      end
  end.

(* the helper reads with a positive buffer size (ioutil.ReadAll: 512); Read sizes are free *)
Definition op_ok (o : rop) : Prop := match o with RHelper n => 0 < n | _ => True end.

(* Part 1: no panic, error codes are sticky *)
Lemma ck_safe_cur st cur' :
  ck_safe st -> ck_safe (mkRst (rs_state st) (rs_err st) (rs_rem st) cur' (rs_more st) (rs_in st) (rs_ck st) (rs_got st) (rs_rel st) (rs_fin st)).
Proof. intros H. exact H. Qed.

(* the hostile-input invariant: the first checksum type is known, and io.EOF is never the sticky error *)
Definition hs (st : rst) : Prop := ck_safe st /\ rs_err st <> 12.

Lemma step_eff o s bs c s' : r_step o s = Some (bs, c, s') ->
  rsteps s s' /\ (op_ok o -> rs_err s = 0 -> (~ is_err c /\ rs_err s' = 0) \/ (is_err c /\ rs_err s' = c)).
Proof.
  assert (N : ~ is_err 0 /\ ~ is_err 12) by (unfold is_err; lia).
  destruct o as [last|n| |bufsz]; cbn [r_step op_ok].
  - destruct (r_begin last s) as [[c1 s1]|] eqn:R; [|discriminate]. intros H; injection H as _ <- <-.
    destruct (begin_eff _ _ _ _ R) as (P & C). split; [exact P|]. intros _ He.
    destruct (C He) as [(-> & E & _)|E]; [left; split; [apply N|exact E]|right; exact E].
  - intros R. destruct (read_eff _ _ _ _ _ R) as (P & _ & C). split; [exact P|]. intros _ He.
    destruct (C He) as [(-> & E & _)|[(-> & E & _)|E]]; [left; split; [apply N|exact E]..|right; exact E].
  - destruct (r_close s) as [[c1 s1]|] eqn:R; [|discriminate]. intros H; injection H as _ <- <-.
    destruct (close_eff _ _ _ R) as (P & C). split; [exact P|]. intros _ He.
    destruct (C He) as [(-> & E & _)|E]; [left; split; [apply N|exact E]|right; exact E].
  - intros R. destruct (helper_eff _ _ _ _ _ R) as (P & C). split; [exact P|]. intros Ho He.
    destruct (C Ho He) as [(-> & E & _)|E]; [left; split; [apply N|exact E]|right; exact E].
Qed.

(* any single operation: a code other than nil and io.EOF is the sticky error *)
Lemma step_H o st : op_ok o -> hs st ->
  exists bs c st', r_step o st = Some (bs, c, st') /\ hs st' /\
    (rs_err st <> 0 -> bs = [] /\ c = rs_err st /\ st' = st) /\
    (is_err c -> rs_err st' = c).
Proof.
  intros Ho [Hs H12].
  assert (T : r_step o st <> None).
  { destruct o as [last|n| |bufsz]; cbn [r_step].
    - pose proof (begin_total last st Hs). destruct (r_begin last st) as [[? ?]|]; [discriminate|congruence].
    - apply read_total, Hs.
    - pose proof (close_total st Hs). destruct (r_close st) as [[? ?]|]; [discriminate|congruence].
    - apply helper_total, Hs. }
  destruct (r_step o st) as [[[bs c] st']|] eqn:R; [|congruence]. exists bs, c, st'. split; [reflexivity|].
  destruct (step_eff _ _ _ _ _ R) as (P & C). pose proof (steps_safe _ _ P Hs) as Hs'.
  destruct (Z.eq_dec (rs_err st) 0) as [He|He].
  - specialize (C Ho He). split; [split; [exact Hs'|destruct C as [[_ C]|[[_ C1] C]]; lia]|]. split; [intros H; lia|].
    intros Hc. destruct C as [[C _]|[_ C]]; [contradiction|exact C].
  - assert (E : r_step o st = Some ([], rs_err st, st)).
    { destruct o as [last|n| |bufsz]; cbn [r_step].
      - rewrite (begin_err _ _ He). reflexivity.
      - apply read_err, He.
      - rewrite (close_err _ He). reflexivity.
      - apply helper_err; assumption. }
    rewrite E in R. injection R as <- <- <-. split; [split; assumption|]. split; [auto|reflexivity].
Qed.

Definition tr_obs (t : list (list Z * Z * rst)) : list (list Z * Z) := map (fun x => (fst (fst x), snd (fst x))) t.

(* NO PANIC, STICKY ERRORS: any fragments, any script *)
Theorem hostile_trace : forall ops st, Forall op_ok ops -> hs st ->
  exists t, r_trace ops st = Some t /\ length t = length ops /\
    Forall (fun x => is_err (snd (fst x)) -> rs_err (snd x) = snd (fst x)) t /\
    sticky (tr_obs t) /\
    (rs_err st <> 0 -> Forall (fun x => x = ([], rs_err st, st)) t).
Proof.
  induction ops as [|o ops IH]; intros st Hops Hst.
  - exists []. split; [reflexivity|]. split; [reflexivity|]. split; [constructor|]. split; [exact I|]. intros _; constructor.
  - pose proof (Forall_inv Hops) as Ho. pose proof (Forall_inv_tail Hops) as Hr.
    destruct (step_H o st Ho Hst) as (bs & c & st' & R & S' & Pe & Perr).
    destruct (IH st' Hr S') as (t & RT & Lt & Fe & St & Fs).
    cbn [r_trace]. rewrite R, RT. exists ((bs, c, st') :: t). split; [reflexivity|]. split; [cbn [length]; lia|].
    split; [constructor; [exact Perr|exact Fe]|]. split.
    + cbn [tr_obs map sticky fst snd]. split; [|exact St]. intros Hc.
      pose proof (Perr Hc) as He. assert (Hne : rs_err st' <> 0) by (destruct Hc; lia).
      specialize (Fs Hne). rewrite He in Fs. clear -Fs. induction t as [|x t IHt]; [constructor|].
      pose proof (Forall_inv Fs) as Hx. cbv beta in Hx. subst x. constructor; [reflexivity|]. exact (IHt (Forall_inv_tail Fs)).
    + intros Hne. destruct (Pe Hne) as (-> & -> & ->). constructor; [reflexivity|]. exact (Fs Hne).
Qed.

(* Part 2: what has been consumed without error is a verified prefix *)
(* what the fragment parser guarantees of every fragment it accepts *)
Definition frag_parsed (f : frag) : Prop := ck_new (f_ctype f) <> None /\ zlen (f_ck f) = ChecksumSize (f_ctype f).

Definition dfrag : frag := mkFrag true 0 [] [].
Definition ck_end (c : ckst) (pre : list frag) : ckst := fold_left (fun c f => fold_left ck_add (f_chunks f) c) pre c.

Lemma ck_end_snoc c pre f : ck_end c (pre ++ [f]) = fold_left ck_add (f_chunks f) (ck_end c pre).
Proof. unfold ck_end. rewrite fold_left_app. reflexivity. Qed.

Lemma ck_chain_snoc : forall pre c f, ck_chain c pre ->
  f_ck f = ck_sum (fold_left ck_add (f_chunks f) (ck_end c pre)) -> f_ctype f = ck_typecode (ck_end c pre) ->
  ck_chain c (pre ++ [f]).
Proof.
  induction pre as [|g pre IH]; intros c f H1 H2 H3; cbn [app ck_chain].
  - split; [exact H2|]. split; [exact H3|exact I].
  - cbn [ck_chain] in H1. destruct H1 as (A & B & C). split; [exact A|]. split; [exact B|]. apply IH; assumption.
Qed.

Lemma ck_kind_add c bs : ck_kind (ck_add c bs) = ck_kind c.
Proof. unfold ck_add. destruct (ck_kind c =? 1) eqn:E1; [cbn; lia|]. destruct (ck_kind c =? 3) eqn:E3; [cbn; lia|reflexivity]. Qed.

Lemma ck_kind_fold cs : forall c, ck_kind (fold_left ck_add cs c) = ck_kind c.
Proof. induction cs as [|x cs IH]; intros c; [reflexivity|]. cbn [fold_left]. rewrite IH. apply ck_kind_add. Qed.

(* a Farmhash-typed fragment (null checksum, but a 4-byte field) never verifies; for the
   other types the checksum object has the fragment's type code *)
Lemma ck_new_typecode t c : ck_new t = Some c -> t <> c_ChecksumTypeFarmhash -> ck_typecode c = t.
Proof.
  unfold ck_new, c_checksumCount, c_ChecksumTypeCrc32, c_ChecksumTypeCrc32C, c_ChecksumTypeFarmhash.
  destruct ((t <? 0) || (t >=? 4)) eqn:E; [discriminate|].
  destruct (t =? 1) eqn:E1; [intros H _; injection H as <-; cbn; lia|].
  destruct (t =? 3) eqn:E3; [intros H _; injection H as <-; cbn; lia|].
  intros H Hn; injection H as <-. cbn. lia.
Qed.

Lemma farmhash_never_verifies f c : frag_parsed f -> f_ctype f = c_ChecksumTypeFarmhash -> ck_new (f_ctype f) = Some c ->
  bytes_eqb (f_ck f) (ck_sum (fold_left ck_add (f_chunks f) c)) = false.
Proof.
  intros [_ Hz] Ht Hn. rewrite Ht in Hz, Hn. cbn in Hn. injection Hn as <-.
  unfold ck_sum. rewrite ck_kind_fold. cbn [ck_kind Z.eqb].
  change (ChecksumSize c_ChecksumTypeFarmhash) with 4 in Hz.
  destruct (f_ck f) as [|b l]; [cbn in Hz; lia|reflexivity].
Qed.

(* the consumed fragments [pre]: each has a chunk, all but the last carry the more-flag,
   the reader's flag is that of the last one, and the running checksum verified each of them *)
Record verified (fs pre : list frag) (more : bool) (ck : option ckst) : Prop := mkV {
  v_chunks : Forall (fun f => f_chunks f <> []) pre;
  v_more : all_more (removelast pre);
  v_last : more = f_more (last pre dfrag);
  v_ck : match ck with
         | None => pre = []
         | Some c => pre <> [] /\ exists c0, ck_new (first_ctype fs) = Some c0 /\ ck_chain c0 pre /\ c = ck_end c0 pre
         end }.

Definition Jr' (fs : list frag) (state err : Z) (more : bool) (inn : list frag) (ck : option ckst) (got : Z) : Prop :=
  exists pre, fs = pre ++ inn /\ got = zlen pre /\
    (state = c_fragmentingReadComplete -> more = false) /\
    (err = 0 \/ state = c_fragmentingReadComplete -> verified fs pre more ck).
Definition Jr (fs : list frag) (st : rst) : Prop :=
  Jr' fs (rs_state st) (rs_err st) (rs_more st) (rs_in st) (rs_ck st) (rs_got st).
Definition J (fs : list frag) (st : rst) : Prop :=
  Jr fs st /\ (rs_err st = 0 -> rs_state st = c_fragmentingReadStart -> rs_more st = true).

Lemma J_set_err fs st e : J fs st -> e <> 0 -> J fs (rset_err st e).
Proof.
  intros [(pre & A & B & C & D) _] He. split; [|unfold rset_err; prj; intros H; lia].
  exists pre. unfold rset_err; prj. split; [exact A|]. split; [exact B|]. split; [exact C|].
  intros [H|H]; [lia|]. apply D. right; exact H.
Qed.

Lemma all_more_full pre : all_more (removelast pre) -> f_more (last pre dfrag) = true -> all_more pre.
Proof.
  intros H1 H2. destruct pre as [|f r]; [constructor|].
  rewrite (app_removelast_last dfrag (l := f :: r)) by discriminate.
  apply Forall_app. split; [exact H1|]. constructor; [exact H2|constructor].
Qed.

(* recvAndParseNextFragment keeps the invariant *)
Lemma recv_J fs st : Forall frag_parsed fs -> Jr fs st -> rs_err st = 0 ->
  rs_state st <> c_fragmentingReadComplete -> rs_more st = true ->
  forall c st', r_recv st = Some (c, st') ->
    rs_state st' = rs_state st /\ Jr fs st' /\ (c <> 0 -> rs_err st' <> 0) /\ (c = 0 -> rs_err st' = 0).
Proof.
  intros Hp (pre & A & B & C & D) He Hs Hm c st'.
  destruct st as [s e rem cur more inn ck got rel fin]. unfold Jr in *. prj_all. subst e more.
  specialize (D (or_introl eq_refl)). destruct D as [V1 V2 V3 V4].
  unfold r_recv. prj. cbn [Z.eqb negb].
  destruct inn as [|f rest].
  { intros H. injection H as <- <-. prj. split; [reflexivity|]. split; [|split; [intros _; lia|intros H; lia]].
    exists pre. split; [exact A|]. split; [exact B|]. split; [intros H; congruence|]. intros [H|H]; [lia|congruence]. }
  assert (A' : fs = (pre ++ [f]) ++ rest) by (rewrite <- app_assoc; exact A).
  assert (B' : got + 1 = zlen (pre ++ [f])) by (rewrite zlen_app; cbn; lia).
  assert (Bad : forall e' more' ck', e' <> 0 ->
     Jr' fs s e' more' rest ck' (got + 1)).
  { intros e' more' ck' He'. exists (pre ++ [f]). split; [exact A'|]. split; [exact B'|]. split; [intros H; congruence|].
    intros [H|H]; [lia|congruence]. }
  assert (Pf : frag_parsed f).
  { rewrite Forall_forall in Hp. apply Hp. rewrite A. apply in_or_app. right. left. reflexivity. }
  destruct (match ck with Some c0 => Some c0 | None => ck_new (f_ctype f) end) as [c0|] eqn:E; [|discriminate].
  destruct (negb (ck_typecode c0 =? f_ctype f) && match ck with Some _ => true | None => false end) eqn:Et.
  { intros H. injection H as <- <-. unfold rset_err. prj. split; [reflexivity|]. split; [apply Bad; lia|split; [intros _; lia|intros H; lia]]. }
  destruct (negb (bytes_eqb (f_ck f) (ck_sum (fold_left ck_add (f_chunks f) c0)))) eqn:Eb.
  { intros H. injection H as <- <-. unfold rset_err. prj. split; [reflexivity|]. split; [apply Bad; lia|split; [intros _; lia|intros H; lia]]. }
  destruct (f_chunks f) as [|ch chs] eqn:Ech.
  { intros H. injection H as <- <-. unfold rset_err. prj. split; [reflexivity|]. split; [apply Bad; lia|split; [intros _; lia|intros H; lia]]. }
  intros H. injection H as <- <-. prj. split; [reflexivity|]. split; [|split; [intros H; lia|intros _; reflexivity]].
  exists (pre ++ [f]). split; [exact A'|]. split; [exact B'|]. split; [intros H; congruence|]. intros _.
  assert (Hsum : f_ck f = ck_sum (fold_left ck_add (ch :: chs) c0)).
  { apply bytes_eqb_eq. destruct (bytes_eqb (f_ck f) (ck_sum (fold_left ck_add (ch :: chs) c0))); [reflexivity|discriminate]. }
  constructor.
  - apply Forall_app. split; [exact V1|]. constructor; [rewrite Ech; discriminate|constructor].
  - rewrite removelast_last. apply all_more_full; [exact V2|]. symmetry; exact V3.
  - rewrite last_last. reflexivity.
  - split; [destruct pre; discriminate|].
    destruct ck as [ck0|].
    + destruct V4 as (Hne & c00 & N0 & Ch & Ec). injection E as <-. exists c00. split; [exact N0|].
      rewrite ck_end_snoc, Ech, <- Ec. split; [|reflexivity].
      apply ck_chain_snoc; [exact Ch| |].
      * rewrite Ech, <- Ec. exact Hsum.
      * rewrite <- Ec. cbn [andb] in Et. rewrite andb_true_r in Et. lia.
    + subst pre. cbn [app] in *. exists c0. rewrite A. cbn [first_ctype]. split; [exact E|].
      unfold ck_end. cbn [fold_left]. rewrite Ech. split; [|reflexivity].
      cbn [ck_chain]. rewrite Ech. split; [exact Hsum|]. split; [|exact I].
      symmetry. apply ck_new_typecode; [exact E|]. intros Ht.
      pose proof (farmhash_never_verifies f c0 Pf Ht E) as X. rewrite Ech in X. rewrite X in Eb. discriminate.
Qed.

(* entering an argument or the waiting state keeps the invariant: its clause about Start is vacuous there *)
Lemma J_enter fs s st rem cur rel fin : Jr fs s -> rs_err s = 0 -> mid st ->
  J fs (mkRst st 0 rem cur (rs_more s) (rs_in s) (rs_ck s) (rs_got s) rel fin).
Proof.
  intros (pre & A & B & C & D) He [N1 N2]. split; [|prj; intros _ H; contradiction].
  exists pre. prj. split; [exact A|]. split; [exact B|]. split; [intros H; contradiction|]. intros _. apply D. left; exact He.
Qed.

Lemma steps_J fs s s' : Forall frag_parsed fs -> rsteps s s' -> J fs s -> J fs s'.
Proof.
  intros Hp. apply rsteps_inv.
  intros a b [s0 e He|s0 c s1 st He Hs Hm R|s0 c s1 He Hs Hm R|s0 k|s0 st He Hm|s0 ch chs He E|s0 He Hm] Hj.
  - apply J_set_err; assumption.
  - destruct (recv_J fs s0 Hp (proj1 Hj) He ltac:(rewrite Hs; discriminate) (proj2 Hj He Hs) c s1 R) as (_ & J2 & Ne & E2).
    destruct (c =? 0) eqn:Ec; [apply J_enter; [exact J2|apply E2; lia|exact Hm]|].
    split; [exact J2|]. intros H. exfalso. apply Ne; [lia|exact H].
  - destruct (recv_J fs s0 Hp (proj1 Hj) He (proj2 Hs) Hm c s1 R) as (S2 & J2 & _).
    split; [exact J2|]. intros _ H. rewrite S2 in H. destruct (proj1 Hs H).
  - exact Hj.
  - apply J_enter; [exact (proj1 Hj)|exact He|exact Hm].
  - destruct Hj as [Hj1 Hj2]. split; [|intros _; exact (Hj2 He)]. unfold Jr in *. prj. rewrite <- He. exact Hj1.
  - destruct Hj as [(pre & A & B & C & D) _]. split; [|prj; intros _ H; discriminate H].
    exists pre. prj. split; [exact A|]. split; [exact B|]. split; [reflexivity|]. intros _. rewrite <- Hm. apply D. left; exact He.
Qed.

Lemma J_init fs : J fs (r_init fs).
Proof.
  split; [|intros _ _; reflexivity]. exists []. unfold r_init; prj. split; [reflexivity|]. split; [reflexivity|].
  split; [discriminate|]. intros _. constructor; [constructor|constructor|reflexivity|reflexivity].
Qed.

Lemma trace_J fs : Forall frag_parsed fs -> forall ops st t, J fs st -> r_trace ops st = Some t -> Forall (fun x => J fs (snd x)) t.
Proof.
  intros Hp. induction ops as [|o ops IH]; intros st t Hj; cbn [r_trace].
  - intros H; injection H as <-. constructor.
  - destruct (r_step o st) as [[[bs c] st']|] eqn:R; [|discriminate].
    destruct (r_trace ops st') as [t'|] eqn:RT; [|discriminate]. intros H; injection H as <-.
    pose proof (steps_J fs _ _ Hp (proj1 (step_eff _ _ _ _ _ R)) Hj) as J'. constructor; [exact J'|]. exact (IH _ _ J' RT).
Qed.

Lemma fr_ok_of_verified : forall pre, Forall (fun f => f_chunks f <> []) pre -> all_more (removelast pre) ->
  f_more (last pre dfrag) = false -> pre <> [] -> fr_ok pre.
Proof.
  induction pre as [|f r IH]; intros Hc Hm Hl Hne; [congruence|].
  pose proof (Forall_inv Hc) as Hf. pose proof (Forall_inv_tail Hc) as Hr.
  destruct r as [|g r].
  - cbn [fr_ok last] in *. split; [exact Hf|]. split; [|exact I]. rewrite Hl. split; [discriminate|intros H; congruence].
  - change (removelast (f :: g :: r)) with (f :: removelast (g :: r)) in Hm.
    change (last (f :: g :: r) dfrag) with (last (g :: r) dfrag) in Hl.
    cbn [fr_ok]. split; [exact Hf|]. split; [split; [discriminate|intros _; exact (Forall_inv Hm)]|].
    apply IH; [exact Hr|exact (Forall_inv_tail Hm)|exact Hl|discriminate].
Qed.

Lemma frames_ok_of_fr_ok M : forall pre b, Forall (fun f => chunks_size (f_chunks f) <= M) pre -> fr_ok pre ->
  frames_ok_from (fun _ => M) b pre.
Proof.
  induction pre as [|f r IH]; intros b Hb Hf; cbn [frames_ok_from fr_ok] in *; [exact I|].
  destruct Hf as (A & B & C). split; [exact A|]. split; [exact (Forall_inv Hb)|]. split; [exact B|].
  apply IH; [exact (Forall_inv_tail Hb)|exact C].
Qed.

Lemma size_bound : forall pre : list frag, exists M, Forall (fun f => chunks_size (f_chunks f) <= M) pre.
Proof.
  induction pre as [|f r [M IH]]; [exists 0; constructor|].
  exists (Z.max (chunks_size (f_chunks f)) M). constructor; [lia|].
  eapply Forall_impl; [|exact IH]. cbv beta. intros; lia.
Qed.

Lemma wf_of_fr_ok pre : pre <> [] -> fr_ok pre -> wf pre.
Proof.
  intros Hne Hf. destruct (size_bound pre) as [M HM]. exists (fun _ => M). split; [exact Hne|].
  apply frames_ok_of_fr_ok; assumption.
Qed.

(* the reader is Complete only on a well-formed message whose every checksum verified *)
Definition complete_ok (fs : list frag) (st : rst) : Prop :=
  exists pre, fs = pre ++ rs_in st /\ rs_got st = zlen pre /\ wf pre /\
    (exists c0, ck_new (first_ctype pre) = Some c0 /\ ck_chain c0 pre) /\ f_more (last pre dfrag) = false.

Lemma J_complete fs st : J fs st -> rs_state st = c_fragmentingReadComplete -> complete_ok fs st.
Proof.
  intros [(pre & A & B & C & D) _] Hs. specialize (C Hs). specialize (D (or_intror Hs)). destruct D as [V1 V2 V3 V4].
  rewrite C in V3. symmetry in V3.
  assert (Hne : pre <> []) by (intros ->; cbn in V3; discriminate).
  exists pre. split; [exact A|]. split; [exact B|].
  split; [apply wf_of_fr_ok; [exact Hne|apply fr_ok_of_verified; assumption]|]. split; [|exact V3].
  destruct (rs_ck st) as [c|]; [|congruence]. destruct V4 as (_ & c0 & N0 & Ch & _). exists c0. split; [|exact Ch].
  rewrite A in N0. destruct pre; [congruence|exact N0].
Qed.

Lemma complete_absorbing o st : op_ok o -> hs st -> rs_state st = c_fragmentingReadComplete ->
  exists c st', r_step o st = Some ([], c, st') /\ is_err c /\ rs_state st' = c_fragmentingReadComplete /\ rs_in st' = rs_in st.
Proof.
  intros Ho Hst Hs. destruct (Z.eq_dec (rs_err st) 0) as [He|He].
  - destruct o as [last|n| |bufsz]; cbn [r_step].
    + unfold r_begin. rewrite He, Hs. cbn. exists 3, (rset_err st 3). split; [reflexivity|]. split; [split; lia|]. split; [exact Hs|reflexivity].
    + unfold r_read. rewrite He, Hs. cbn. exists 2, (rset_err st 2). split; [reflexivity|]. split; [split; lia|]. split; [exact Hs|reflexivity].
    + unfold r_close. rewrite He, Hs. cbn. exists 2, (rset_err st 2). split; [reflexivity|]. split; [split; lia|]. split; [exact Hs|reflexivity].
    + unfold r_helper_read. cbn [Nat.add r_readall]. unfold r_read. rewrite He, Hs. cbn.
      exists 2, (rset_err st 2). split; [reflexivity|]. split; [split; lia|]. split; [exact Hs|reflexivity].
  - destruct (step_H o st Ho Hst) as (bs & c & st' & R & _ & Pe & _). destruct (Pe He) as (-> & -> & ->).
    exists (rs_err st), st. split; [exact R|]. split; [split; [exact He|exact (proj2 Hst)]|]. split; [exact Hs|reflexivity].
Qed.

(* number of operations that take the reader into Complete *)
Fixpoint completions (st : rst) (t : list (list Z * Z * rst)) : nat :=
  match t with
  | [] => O
  | x :: r => Nat.add (if negb (rs_state st =? c_fragmentingReadComplete) && (rs_state (snd x) =? c_fragmentingReadComplete) then 1%nat else O)
                      (completions (snd x) r)
  end.

Lemma completions_le : forall ops st t, Forall op_ok ops -> hs st -> r_trace ops st = Some t ->
  (completions st t <= 1)%nat /\ (rs_state st = c_fragmentingReadComplete -> completions st t = O).
Proof.
  induction ops as [|o ops IH]; intros st t Hops Hst; cbn [r_trace].
  - intros H; injection H as <-. cbn. split; [lia|reflexivity].
  - pose proof (Forall_inv Hops) as Ho. pose proof (Forall_inv_tail Hops) as Hr.
    destruct (step_H o st Ho Hst) as (bs & c & st' & R & S' & _). rewrite R.
    destruct (r_trace ops st') as [t'|] eqn:RT; [|discriminate]. intros H; injection H as <-.
    destruct (IH st' t' Hr S' RT) as [L Z0]. cbn [completions snd].
    destruct (Z.eq_dec (rs_state st) c_fragmentingReadComplete) as [Hs|Hs].
    + destruct (complete_absorbing o st Ho Hst Hs) as (c2 & st2 & R2 & _ & S2 & _). rewrite R in R2. injection R2 as _ _ <-.
      rewrite Hs. cbn [Z.eqb negb andb]. rewrite (Z0 S2). split; [cbn; lia|reflexivity].
    + split; [|intros H; congruence].
      destruct (Z.eq_dec (rs_state st') c_fragmentingReadComplete) as [Hs'|Hs'].
      * rewrite (Z0 Hs'). destruct (negb _ && _); lia.
      * replace (rs_state st' =? c_fragmentingReadComplete) with false by lia. rewrite andb_false_r. lia.
Qed.

Lemma hs_init fs : Forall frag_parsed fs -> hs (r_init fs).
Proof.
  intros Hp. split; [|unfold r_init; prj; lia]. unfold ck_safe, r_init. prj.
  destruct fs as [|f r]; [exact I|]. exact (proj1 (Forall_inv Hp)).
Qed.

(* ONE OUTCOME, HOSTILE INPUT.  For any fragments the parser accepted and any script of
   Begin / Read(n) / Close / helper reads: no panic; a returned error code is the reader's
   sticky error and from then on every operation returns it without data; at most one
   operation takes the reader to Complete, and whenever it is Complete the fragments
   consumed are a well-formed message (every fragment has a chunk, the more-flag is set on
   all but the last) each of whose checksums verified. *)
Theorem hostile_reader : forall fs ops, Forall frag_parsed fs -> Forall op_ok ops ->
  exists t, r_trace ops (r_init fs) = Some t /\ length t = length ops /\
    Forall (fun x => is_err (snd (fst x)) -> rs_err (snd x) = snd (fst x)) t /\
    sticky (tr_obs t) /\
    (completions (r_init fs) t <= 1)%nat /\
    Forall (fun x => rs_state (snd x) = c_fragmentingReadComplete -> complete_ok fs (snd x)) t.
Proof.
  intros fs ops Hp Hops. pose proof (hs_init fs Hp) as H0.
  destruct (hostile_trace ops (r_init fs) Hops H0) as (t & RT & Lt & Fe & St & _).
  exists t. split; [exact RT|]. split; [exact Lt|]. split; [exact Fe|]. split; [exact St|].
  split; [exact (proj1 (completions_le ops _ t Hops H0 RT))|].
  pose proof (trace_J fs Hp ops _ t (J_init fs) RT) as FJ.
  eapply Forall_impl; [|exact FJ]. cbv beta. intros x Hj Hs. exact (J_complete fs _ Hj Hs).
Qed.

(* Part 3: arbitrary byte streams *)
Lemma firstn_app_le {A} n (a b : list A) : (n <= length a)%nat -> firstn n (a ++ b) = firstn n a.
Proof. intros H. rewrite firstn_app. replace (n - length a)%nat with O by lia. cbn [firstn]. apply app_nil_r. Qed.
Lemma skipn_app_le {A} n (a b : list A) : (n <= length a)%nat -> skipn n (a ++ b) = skipn n a ++ b.
Proof. intros H. rewrite skipn_app. replace (n - length a)%nat with O by lia. reflexivity. Qed.

Lemma frame_read_body_mono hdr stream more h p rest :
  frame_read_body hdr stream = (0, h, p, rest) ->
  frame_read_body hdr (stream ++ more) = (0, h, p, rest ++ more) /\ exists k, p = firstn k stream /\ rest = skipn k stream.
Proof.
  unfold frame_read_body. destruct (r_fheader (rb hdr)) as [h0 r]. destruct (rerr r); [discriminate|].
  set (ps := PayloadSize (fh_size h0)). destruct (ps >? c_MaxFramePayloadSize); [discriminate|].
  destruct (ps >? 0) eqn:Ep.
  - destruct (zlen stream <? ps) eqn:El; [discriminate|]. intros H; injection H as <- <- <-.
    assert (L : (Z.to_nat ps <= length stream)%nat) by (unfold zlen in El; lia).
    replace (zlen (stream ++ more) <? ps) with false by (rewrite zlen_app; pose proof (zlen_nonneg more); lia).
    rewrite firstn_app_le, skipn_app_le by exact L. split; [reflexivity|]. exists (Z.to_nat ps). split; reflexivity.
  - intros H; injection H as <- <- <-. split; [reflexivity|]. exists O. split; reflexivity.
Qed.

Lemma frame_read_in_mono pre more h p rest :
  frame_read_in pre = (0, h, p, rest) ->
  frame_read_in (pre ++ more) = (0, h, p, rest ++ more) /\ (length rest + 16 <= length pre)%nat /\
  (bytes_ok pre = true -> bytes_ok p = true /\ bytes_ok rest = true).
Proof.
  unfold frame_read_in. destruct (zlen pre <? c_FrameHeaderSize) eqn:E; [discriminate|].
  assert (L : (16 <= length pre)%nat) by (unfold zlen, c_FrameHeaderSize in E; lia).
  replace (zlen (pre ++ more) <? c_FrameHeaderSize) with false
    by (rewrite zlen_app; pose proof (zlen_nonneg more); unfold c_FrameHeaderSize in *; lia).
  rewrite firstn_app_le, skipn_app_le by exact L. intros H.
  destruct (frame_read_body_mono _ _ more _ _ _ H) as (M & k & Hp & Hr). split; [exact M|]. split.
  - subst rest. rewrite !skipn_length. lia.
  - intros Hb. subst p rest. split; [apply bytes_ok_firstn|apply bytes_ok_skipn]; apply bytes_ok_skipn; exact Hb.
Qed.

Lemma read_frames_mono : forall fuel pre more fuel', (length pre < fuel)%nat -> (length (pre ++ more) < fuel')%nat ->
  exists tail, fst (read_frames fuel' (pre ++ more)) = fst (read_frames fuel pre) ++ tail.
Proof.
  induction fuel as [|fuel IH]; intros pre more fuel' H1 H2; [lia|]. destruct fuel' as [|fuel']; [lia|].
  destruct pre as [|x xs]; [eexists; reflexivity|].
  cbn [read_frames app]. change (x :: xs ++ more) with ((x :: xs) ++ more). set (pre := x :: xs) in *.
  destruct (frame_read_in pre) as [[[code h] p] rest] eqn:F.
  destruct (code =? 0) eqn:Ec; [|eexists; reflexivity].
  assert (code = 0) by lia. subst code. destruct (frame_read_in_mono pre more h p rest F) as (M & L & _). rewrite M. cbn [Z.eqb].
  destruct (IH rest more fuel' ltac:(lia) ltac:(rewrite app_length in *; lia)) as [tail T].
  destruct (read_frames fuel rest) as [l c]. destruct (read_frames fuel' (rest ++ more)) as [l' c'].
  cbn [fst] in *. exists tail. rewrite T. reflexivity.
Qed.

Lemma read_frames_bytes_ok : forall fuel stream, bytes_ok stream = true ->
  Forall (fun hp => bytes_ok (snd hp) = true) (fst (read_frames fuel stream)).
Proof.
  induction fuel as [|fuel IH]; intros stream Hb; [constructor|]. cbn [read_frames].
  destruct stream as [|x xs]; [constructor|]. set (s := x :: xs) in *.
  destruct (frame_read_in s) as [[[code h] p] rest] eqn:F.
  destruct (code =? 0) eqn:Ec; [|constructor]. assert (code = 0) by lia. subst code.
  destruct (frame_read_in_mono s [] h p rest F) as (_ & _ & B). destruct (B Hb) as [Bp Br].
  specialize (IH rest Br). destruct (read_frames fuel rest) as [l c]. cbn [fst] in *. constructor; [exact Bp|exact IH].
Qed.

Lemma recv_frags_app mt0 mtc : forall a i b, exists tail, recv_frags i mt0 mtc (a ++ b) = recv_frags i mt0 mtc a ++ tail.
Proof.
  induction a as [|hp a IH]; intros i b; [eexists; reflexivity|]. cbn [app recv_frags].
  destruct (fh_type (fst hp) =? (if i then mt0 else mtc)); [|eexists; reflexivity].
  destruct (parse_frag_payload (if i then mt0 else mtc) (snd hp)) as [code f].
  destruct (code =? 0); [|eexists; reflexivity]. destruct (IH false b) as [tail T]. exists tail. rewrite T. reflexivity.
Qed.

Lemma parsed_frag_parsed mt payload f : bytes_ok payload = true -> parse_frag_payload mt payload = (0, f) -> frag_parsed f.
Proof. intros Hb Hp. destruct (parsed_fields _ _ _ Hb Hp) as [C Z]. split; [exact (ctype_known _ C)|exact Z]. Qed.

Lemma recv_frags_parsed mt0 mtc : forall frames i, Forall (fun hp => bytes_ok (snd hp) = true) frames ->
  Forall frag_parsed (recv_frags i mt0 mtc frames).
Proof.
  induction frames as [|hp r IH]; intros i Hb; [constructor|]. cbn [recv_frags].
  destruct (fh_type (fst hp) =? (if i then mt0 else mtc)); [|constructor].
  destruct (parse_frag_payload (if i then mt0 else mtc) (snd hp)) as [code f] eqn:P.
  destruct (code =? 0) eqn:Ec; [|constructor]. assert (code = 0) by lia. subst code.
  constructor; [exact (parsed_frag_parsed _ _ _ (Forall_inv Hb) P)|]. apply IH. exact (Forall_inv_tail Hb).
Qed.

(* the fragments delivered to the reader of one call, from the bytes that arrived *)
Definition delivered (id mt0 mtc : Z) (stream : list Z) : list frag :=
  recv_frags true mt0 mtc (for_call id mt0 mtc (fst (read_frames (S (length stream)) stream))).

Lemma recv_outcome_delivered id mt0 mtc n1 n2 n3 stream :
  recv_outcome id mt0 mtc n1 n2 n3 stream = call_outcome n1 n2 n3 (delivered id mt0 mtc stream).
Proof. unfold recv_outcome, delivered. destruct (read_frames (S (length stream)) stream). reflexivity. Qed.

Lemma delivered_parsed id mt0 mtc stream : bytes_ok stream = true -> Forall frag_parsed (delivered id mt0 mtc stream).
Proof. intros Hb. apply recv_frags_parsed. exact (incl_Forall (incl_filter _ _) (read_frames_bytes_ok _ _ Hb)). Qed.

Lemma delivered_prefix id mt0 mtc stream n : exists tail,
  delivered id mt0 mtc stream = delivered id mt0 mtc (cut_at n stream) ++ tail.
Proof.
  unfold delivered, cut_at. set (k := Z.to_nat n).
  destruct (read_frames_mono (S (length (firstn k stream))) (firstn k stream) (skipn k stream) (S (length stream)))
    as [t1 T1]; [lia|rewrite firstn_skipn; lia|]. rewrite firstn_skipn in T1. rewrite T1.
  unfold for_call. rewrite filter_app. apply recv_frags_app.
Qed.

(* ANY PEER STREAM CUT AT ANY BYTE.  For arbitrary bytes (not only writer-produced ones), any
   message id and message types, and every cut offset n: the receiving side (frame loop,
   dispatch by id, fragment parser, reader, three helper reads) does not panic, and what it
   reports on the first n bytes is an error or exactly what it reports on the whole stream:
   a success is never produced by a cut and never altered by one. *)
Theorem hostile_stream_cut : forall id mt0 mtc n1 n2 n3 stream, 0 < n1 -> 0 < n2 -> 0 < n3 ->
  bytes_ok stream = true -> forall n,
  recv_outcome id mt0 mtc n1 n2 n3 (cut_at n stream) <> OPanic /\
  (recv_outcome id mt0 mtc n1 n2 n3 (cut_at n stream) = OErr \/
   recv_outcome id mt0 mtc n1 n2 n3 (cut_at n stream) = recv_outcome id mt0 mtc n1 n2 n3 stream).
Proof.
  intros id mt0 mtc n1 n2 n3 stream H1 H2 H3 Hb n. rewrite !recv_outcome_delivered. split.
  - apply call_outcome_no_panic, hs_init, delivered_parsed. unfold cut_at. apply bytes_ok_firstn, Hb.
  - destruct (delivered_prefix id mt0 mtc stream n) as [tail T]. rewrite T.
    destruct (call_outcome_ext n1 n2 n3 (delivered id mt0 mtc (cut_at n stream)) tail H1 H2 H3) as [E|E]; [left; exact E|right; symmetry; exact E].
Qed.

(* Part 4: a success on hostile input is the denotation of a verified well-formed message *)
(* on a well-formed, checksum-valid message, whatever its number of arguments: an argument read by
   the helper without error is the next argument (the arity check is Close's) *)
Lemma harg_wf N last n s h t a s' : 0 < n -> Inv N s h t -> ready s -> harg last n s = Some (Some (a, s')) ->
  a = h /\ if last then t = [] else exists a' t', t = a' :: t' /\ Inv N s' a' t' /\ ready s'.
Proof.
  intros Hn I Rd H. destruct (harg_eff _ _ _ _ _ H) as ((s0 & B & R) & _).
  destruct (begin_ok _ _ _ _ last I Rd) as (x0 & B' & I0 & S0 & _). rewrite B in B'. injection B' as <-.
  assert (Hr : is_reading (rs_state s0) = true) by (rewrite S0; apply is_reading_arg_state).
  rewrite helper_unfold in R.
  destruct (readall_ok N n Hn (S (Z.to_nat (total_bytes s0)) + length (rs_in s0) + 2) [] s0 h t I0 Hr) as (s1 & RA & I1 & E1 & S1).
  { pose proof (total_bytes_ge _ _ _ _ I0). lia. }
  assert (Hr1 : is_reading (rs_state s1) = true) by congruence.
  rewrite RA in R. unfold helper_tail in R. rewrite (read_at_eof 128 s1 (inv_err _ _ _ _ I1) Hr1 E1 ltac:(lia)) in R.
  destruct (close_ok N s1 [] t I1 Hr1) as (cc & s3 & C & P & _). rewrite C in R. injection R as <- -> <-.
  rewrite S1, S0, arg_state_last in P. destruct P as [(_ & _ & P)|[[E _] _]]; [|congruence]. split; [reflexivity|].
  destruct last; [exact (proj1 P)|]. destruct P as (a' & t' & P4 & P5 & P6 & _). exists a', t'. split; [exact P4|]. split; [exact P5|right; exact P6].
Qed.

Lemma wf_outcome_denote n1 n2 n3 fs ck0 args : 0 < n1 -> 0 < n2 -> 0 < n3 ->
  wf fs -> ck_new (first_ctype fs) = Some ck0 -> ck_chain ck0 fs ->
  call_outcome n1 n2 n3 fs = OOk args -> args = denote (chunks_of fs).
Proof.
  intros H1 H2 H3 Hwf Hck Hch Hout.
  destruct (call_outcome_ok _ _ _ _ _ Hout) as (a1 & a2 & a3 & s1 & s2 & s3 & A1 & A2 & A3 & ->).
  destruct (init_inv_any fs ck0 Hwf Hck Hch) as (h & t & Hden & I0 & Rd0). rewrite Hden.
  destruct (harg_wf _ _ _ _ _ _ _ _ H1 I0 Rd0 A1) as (-> & a' & t' & -> & I1 & Rd1).
  destruct (harg_wf _ _ _ _ _ _ _ _ H2 I1 Rd1 A2) as (-> & a'' & t'' & -> & I2 & Rd2).
  destruct (harg_wf _ _ _ _ _ _ _ _ H3 I2 Rd2 A3) as (-> & ->). reflexivity.
Qed.

(* SUCCESS ON HOSTILE INPUT.  For ANY fragment list that passed the parser: if the caller's
   three helper reads all succeed, then the fragments split into a consumed part [pre] and an
   untouched rest, [pre] is a well-formed message (every fragment has a chunk, more-flags
   exactly on all but the last) each of whose checksums verified, and the three arguments
   returned are exactly the arguments [pre] denotes by the protocol document.  No other
   success exists. *)
Theorem hostile_success_denote : forall n1 n2 n3 fs args, 0 < n1 -> 0 < n2 -> 0 < n3 ->
  Forall frag_parsed fs -> call_outcome n1 n2 n3 fs = OOk args ->
  exists pre post c0, fs = pre ++ post /\ wf pre /\ ck_new (first_ctype pre) = Some c0 /\ ck_chain c0 pre /\
    f_more (last pre dfrag) = false /\ args = denote (chunks_of pre).
Proof.
  intros n1 n2 n3 fs args H1 H2 H3 Hp Hout.
  destruct (call_outcome_ok _ _ _ _ _ Hout) as (a1 & a2 & a3 & s1 & s2 & s3 & A1 & A2 & A3 & Ea).
  (* the run ends Complete, so by the invariant what it consumed is such a [pre] *)
  destruct (harg_eff _ _ _ _ _ A1) as (_ & P1 & _). destruct (harg_eff _ _ _ _ _ A2) as (_ & P2 & _).
  destruct (harg_eff _ _ _ _ _ A3) as (_ & P3 & C3).
  pose proof (steps_J fs _ _ Hp P3 (steps_J fs _ _ Hp P2 (steps_J fs _ _ Hp P1 (J_init fs)))) as J3.
  destruct (J_complete fs s3 J3 (C3 H3 eq_refl)) as (pre & A & _ & Hwf & (c0 & N0 & Ch) & Hl).
  set (post := rs_in s3) in *.
  exists pre, post, c0. split; [exact A|]. split; [exact Hwf|]. split; [exact N0|]. split; [exact Ch|]. split; [exact Hl|].
  (* input is only ever consumed, so [post] was untouched throughout: the same run on [pre] alone *)
  pose proof (proj1 (steps_len _ _ P3)) as L3. pose proof (proj1 (steps_len _ _ P2)) as L2. fold post in L3.
  assert (E0 : r_init fs = ext post (r_init pre)) by (rewrite A; reflexivity).
  rewrite E0 in A1.
  destruct (harg_unext post _ _ _ _ _ H1 A1 ltac:(lia)) as (c1 & A1C & ->).
  destruct (harg_unext post _ _ _ _ _ H2 A2 ltac:(lia)) as (c2 & A2C & ->).
  destruct (harg_unext post _ _ _ _ _ H3 A3 ltac:(unfold post; lia)) as (c3 & A3C & _).
  apply (wf_outcome_denote n1 n2 n3 pre c0 args H1 H2 H3 Hwf N0 Ch).
  rewrite call_outcome_hargs, A1C, A2C, A3C, Ea. reflexivity.
Qed.

(* ... and for arbitrary peer bytes: the only successes of the receiving side of a call are the
   denotations of checksum-verified well-formed messages found in the stream *)
Theorem hostile_stream_success : forall id mt0 mtc n1 n2 n3 stream args, 0 < n1 -> 0 < n2 -> 0 < n3 ->
  bytes_ok stream = true -> recv_outcome id mt0 mtc n1 n2 n3 stream = OOk args ->
  exists pre post c0, delivered id mt0 mtc stream = pre ++ post /\ wf pre /\ ck_new (first_ctype pre) = Some c0 /\
    ck_chain c0 pre /\ f_more (last pre dfrag) = false /\ args = denote (chunks_of pre).
Proof.
  intros id mt0 mtc n1 n2 n3 stream args H1 H2 H3 Hb Hout. rewrite recv_outcome_delivered in Hout.
  exact (hostile_success_denote n1 n2 n3 _ args H1 H2 H3 (delivered_parsed id mt0 mtc stream Hb) Hout).
Qed.
