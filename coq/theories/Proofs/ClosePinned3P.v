(* C07, third strengthening: the two wrong variants of channel.go (Model/ClosePinned3.v).
   1. with both flags false the variant system has exactly the runs of [cstep] (so every C07 theorem
      about the channel is a theorem about [vstep false false]);
   2. serve_late refutes C07_chan_monotone and lets a connection in after Close;
   3. read_first refutes C07_chan_reaches_closed -- both with the concrete schedules that the
      chanclose engine forces on the implementation. *)
From Coq Require Import ZArith List Bool Lia.
From Verif Require Import Base.Wrap Gen.GenConsts Model.CloseKernel Model.ChanClose Model.ClosePinned3
  Proofs.CloseKernelP Proofs.ChanCloseP.
Import ListNotations.
Local Open Scope Z_scope.

Lemma vtstep_ff : forall s p arg, vtstep false false s (VN p) arg = vlift (ctstep s p arg).
Proof. intros s p arg. destruct p; reflexivity. Qed.

Definition vembed_opt (o : option csys) : option vsys := match o with Some s => Some (vembed s) | None => None end.

Lemma vstep_ff : forall s l, vstep false false (vembed s) l = vembed_opt (cstep s l).
Proof.
  intros s l. unfold vembed.
  destruct l; cbn [vstep cstep vsh vthr csh cthr vembed_opt]; unfold vembed; cbn [csh cthr]; rewrite ?map_app; try reflexivity.
  - destruct ((chst (csh s) =? hClient) && negb (lis (csh s))); reflexivity.
  - destruct ((c <? length (cstates (csh s)))%nat && (cstate (csh s) c <? v) && (v <=? kCl)); reflexivity.
  - destruct (c <? length (cstates (csh s)))%nat; [|reflexivity]. cbn [vembed_opt]. unfold vembed. cbn [csh cthr].
    rewrite map_app. reflexivity.
  - rewrite nth_error_map. destruct (nth_error (cthr s) tid) as [p|]; cbn [option_map]; [|reflexivity].
    rewrite vtstep_ff. destruct (ctstep (csh s) p arg) as [[sh' p']|]; cbn [vlift vembed_opt]; [|reflexivity].
    unfold vembed. cbn [csh cthr]. rewrite upd_map. reflexivity.
Qed.

Lemma vrun_ff : forall ls s, run (vstep false false) (vembed s) ls = vembed_opt (run cstep s ls).
Proof.
  induction ls as [|l ls IH] using rev_ind; intros s; [reflexivity|].
  rewrite !run_snoc. rewrite IH. destruct (run cstep s ls) as [m|]; cbn [vembed_opt]; [apply vstep_ff|reflexivity].
Qed.

Lemma pinned3_false_is_model :
  (forall ls, run (vstep false false) vinit ls = vembed_opt (run cstep cinit ls)) /\
  (forall s, Reach cstep cinit s -> Reach (vstep false false) vinit (vembed s)).
Proof.
  split.
  - intros ls. exact (vrun_ff ls cinit).
  - intros s [ls H]. exists ls. change vinit with (vembed cinit). rewrite vrun_ff, H. reflexivity.
Qed.

(* serve_late: Serve on a draining client channel takes it back to Listening.
   a client channel connects out (connection 0 is added); Close: StartClose, closes connection 0
   (-> StartClose), nothing inbound: the connection reaches InboundClosed, its callback moves the
   channel to InboundClosed; an outbound call is still in flight. *)
Definition serve_late_prefix : list clabel :=
  [LNewConn; LRunC 0 0; LClose; LRunC 1 0; LRunC 1 0; LRunC 1 0; LConnMove 0 3; LCallback 0;
   LRunC 2 0; LRunC 2 0; LRunC 2 0; LRunC 2 3; LRunC 2 0].
(* Serve; then a connection completes its handshake *)
Definition serve_late_suffix : list clabel := [LServe; LRunC 3 0; LNewConn; LRunC 4 0].

Lemma chan_monotone_serve_late_refuted : exists s1 s2,
  run (vstep true false) vinit serve_late_prefix = Some s1 /\
  run (vstep true false) s1 serve_late_suffix = Some s2 /\
  chst (vsh s1) = hIC /\ chst (vsh s2) = hListening /\ ~ (chst (vsh s1) <= chst (vsh s2)) /\
  nth_error (vthr s2) 3 = Some (VN (CDone oSrvOk)) /\
  nth_error (vthr s2) 4 = Some (VN (CDone oAdded)) /\ conns (vsh s2) = [0%nat; 1%nat].
Proof.
  eexists. eexists. split; [vm_compute; reflexivity|]. split; [vm_compute; reflexivity|].
  vm_compute. repeat split. intros H. apply H. reflexivity.
Qed.

(* the model on the same schedule: Serve fails with errInvalidStateForOp, the state stays InboundClosed,
   the new connection is refused *)
Lemma serve_late_witness_model : exists s2,
  run (vstep false false) vinit (serve_late_prefix ++ serve_late_suffix) = Some s2 /\
  chst (vsh s2) = hIC /\ nth_error (vthr s2) 3 = Some (VN (CDone oSrvInvalid)) /\
  nth_error (vthr s2) 4 = Some (VN (PAd2 1)) /\ conns (vsh s2) = [0%nat].
Proof. eexists. split; [vm_compute; reflexivity|]. vm_compute. repeat split. Qed.

(* read_first: the callback's stale state read loses the close.
   listen; connection 0 is added; the connection closes on its own (remote hang-up): its callback
   reads the channel state (Listening) and is about to remove the connection; Close: the
   connection is still tracked, so StartClose and the rest is left to the callback (c.close() has
   no effect on a closed connection); the callback removes the connection, looks at the state it
   read on entry and returns.  Nothing is left to run. *)
Definition read_first_witness : list clabel :=
  [LListen; LNewConn; LRunC 0 0; LConnMove 0 4; LCallback 0; LRunC 1 0;
   LClose; LRunC 2 0; LRunC 2 0; LRunC 2 0;
   LRunC 1 0; LRunC 1 0].

Lemma chan_reaches_closed_read_first_refuted : exists s,
  Reach (vstep false true) vinit s /\
  hSC <= chst (vsh s) /\
  (forall c, In c (conns (vsh s)) -> cstate (vsh s) c = kCl) /\
  g_owed (vsh s) = [] /\
  (forall n p, nth_error (vthr s) n = Some p -> exists o, p = VN (CDone o)) /\
  ~ (chst (vsh s) = hCl /\ g_closed (vsh s) = 1) /\
  chst (vsh s) = hSC /\ conns (vsh s) = [] /\ g_closed (vsh s) = 0.
Proof.
  assert (H : exists s, run (vstep false true) vinit read_first_witness = Some s) by (eexists; vm_compute; reflexivity).
  destruct H as [s H]. exists s. split; [exists read_first_witness; exact H|].
  revert H. vm_compute. intros H. inversion H; subst; clear H. cbn.
  split; [discriminate|]. split; [intros c []|]. split; [reflexivity|]. split.
  - intros n p Hn. do 3 (destruct n as [|n]; [inversion Hn; eexists; reflexivity|]). destruct n; discriminate Hn.
  - split; [intros [Hc _]; discriminate Hc|]. repeat split.
Qed.

(* the model on the same schedule (continued: the callback has a scan and an update to do) closes the channel *)
Lemma read_first_witness_model : exists s,
  run (vstep false false) vinit (read_first_witness ++ [LRunC 1 0; LRunC 1 4; LRunC 1 0; LRunC 1 0]) = Some s /\
  chst (vsh s) = hCl /\ g_closed (vsh s) = 1 /\ conns (vsh s) = [].
Proof. eexists. split; [vm_compute; reflexivity|]. vm_compute. repeat split. Qed.
