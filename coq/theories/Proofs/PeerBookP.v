(* Invariants of the bookkeeping model that hold on EVERY run (no schedule hypothesis):
   freshness of ids, root-list well-formedness, channel map, callback log / gain-loss
   accounting, reference counts, peer collection.  The step function is taken apart once per
   part of the state (step_*_eff, step_book); the invariants are proved from those lemmas. *)
From Coq Require Import ZArith List Bool Lia Permutation.
From Verif Require Import Base.Wrap Gen.GenConsts Model.PeerBook Spec.PeerBookSpec Proofs.PeerBookL.
Import ListNotations.
Local Open Scope Z_scope.

Ltac brk H :=
  repeat match type of H with
  | (if ?b then _ else _) = Some _ => let E := fresh "E" in destruct b eqn:E; try discriminate H
  | match ?x with _ => _ end = Some _ => let E := fresh "E" in destruct x eqn:E; try discriminate H
  | (let '(_, _) := ?x in _) = Some _ => let E := fresh "E" in destruct x eqn:E
  end.

Ltac brk_goal :=
  repeat match goal with
  | |- context [match peer_rem ?c ?P with _ => _ end] => let E := fresh "E" in destruct (peer_rem c P) eqn:E
  | |- context [match s_root ?s ?h with _ => _ end] => let E := fresh "E" in destruct (s_root s h) eqn:E
  | |- context [match ?x with [] => _ | _ :: _ => _ end] => is_var x; destruct x
  | |- context [if ?b then _ else _] => let E := fresh "E" in destruct b eqn:E
  end.

Lemma root_goa_cases s hp s1 pid :
  root_get_or_add s hp = (s1, pid) ->
  (s_root s hp = Some pid /\ s1 = s) \/
  (s_root s hp = None /\ pid = s_next s /\
   s1 = bump (set_root (set_peer s pid (mkPeer hp [] [] 0 0)) hp (Some pid))).
Proof.
  unfold root_get_or_add. destruct (s_root s hp) as [q|] eqn:E; intros H; inversion H; subst; auto.
Qed.

(* ---- inv_fresh: ids below s_next; inv_root: root entries are well formed ---- *)
Definition pc_pid (p : pc) : option Z :=
  match p with
  | PChk _ q _ | PApp _ q _ | PCbRem _ q _ | PCol2 _ _ q _ | PAdd2 _ _ q => Some q
  | _ => None
  end.

Definition inv_fresh (s : st) : Prop :=
  0 < s_next s /\
  (forall x, s_thr s x <> None -> 0 <= x < s_next s) /\
  (forall x, s_next s <= x -> s_conn s x = no_conn /\ s_peer s x = no_peer) /\
  (forall hp pid, s_root s hp = Some pid -> pid < s_next s) /\
  (forall t p q, s_thr s t = Some p -> pc_pid p = Some q -> q < s_next s) /\
  (forall lid hp pid, In (lid, hp, pid) (s_lists s) -> pid < s_next s).

Definition inv_root (s : st) : Prop :=
  forall hp pid, s_root s hp = Some pid -> p_hp (s_peer s pid) = hp.

Ltac simp_st := cbn [s_conn s_inch s_acc s_peer s_root s_lists s_lk s_thr s_log s_gain s_loss s_next
                     set_conn set_inch set_accepting set_peer set_root set_lists set_lk set_thr
                     add_log add_gain add_loss bump spawn appended removed] in *.

Ltac goa_cases :=
  repeat match goal with
  | |- context [root_get_or_add ?s ?hp] =>
      let s1 := fresh "s1" in let pid := fresh "pid" in let E := fresh "Egoa" in
      destruct (root_get_or_add s hp) as [s1 pid] eqn:E;
      apply root_goa_cases in E; destruct E as [[? ->]|(? & -> & ->)]
  | E : root_get_or_add ?s ?hp = (_, _) |- _ =>
      apply root_goa_cases in E; destruct E as [[? ->]|(? & -> & ->)]
  end.

(* the cases of [step_thread true s t p] in the goal, the pc being known *)
Ltac thread_split :=
  first [rewrite step_thread_PApp | rewrite step_thread_PCbRem | cbn [step_thread]];
  brk_goal; goa_cases; brk_goal.

(* split [step s l = Some s'] into its cases; the new state is substituted in the goal (not in
   hypotheses: state what is to be shown of s' in the goal) *)
Ltac step_cases H :=
  unfold step, step_gen in H;
  match type of H with
  | match ?l with _ => _ end = Some _ => destruct l
  end;
  brk H;
  try (match type of H with Some _ = Some _ => inversion H; subst; clear H end);
  try (match goal with p : pc |- _ => destruct p; thread_split end);
  brk_goal; goa_cases; brk_goal; cbn [fst snd].

Ltac upd_case y :=
  match goal with
  | |- context [upd ?f ?x ?v y] => destruct (upd_cases f x v y) as [[-> ->]|[? ->]]
  end.

Lemma with_st_st k s' : k_st (with_st k s') = s'. Proof. reflexivity. Qed.
Lemma with_acc_st k : k_st (with_acc k) = k_st k. Proof. reflexivity. Qed.

(* ---- what one step does to each part of the state ----
   Each effect is a definition over the new state: the case analysis of the step then carries
   one occurrence of that state (with the disjunction written into the lemma statement the case
   analysis is slow to check). *)
Lemma thr_bound s t p : inv_fresh s -> s_thr s t = Some p -> 0 <= t < s_next s.
Proof. intros (_ & Hthr & _) E. apply Hthr. congruence. Qed.

Lemma thr_free s t : inv_fresh s -> s_next s <= t -> s_thr s t = None.
Proof.
  intros Hf Hle. destruct (s_thr s t) eqn:E; [|reflexivity]. apply (thr_bound _ _ _ Hf) in E. lia.
Qed.

Lemma step_next_le s l s' : step s l = Some s' -> s_next s <= s_next s'.
Proof. intros H. step_cases H; simp_st; lia. Qed.

Lemma step_LStep s t p s' :
  step s (LStep t) = Some s' -> s_thr s t = Some p -> s' = step_thread true s t p.
Proof. unfold step, step_gen. intros H E. rewrite E in H. now inversion H. Qed.

Lemma step_enabled s t s' : step s (LStep t) = Some s' -> exists p, s_thr s t = Some p.
Proof. unfold step, step_gen. destruct (s_thr s t); [eauto|discriminate]. Qed.

(* left alone (a callback drops it from the channel's map once Closed) / new / state moved forward
   and callback started (LChange, the c.close() of a refused activation) / accepted *)
Definition conn_eff (s : st) (c : Z) (s' : st) : Prop :=
  (s_conn s' c = s_conn s c /\
   (s_inch s' c = s_inch s c \/ (s_inch s' c = false /\ k_st (s_conn s c) = c_connectionClosed))) \/
  (k_st (s_conn s c) = 0 /\ c = s_next s /\ s_next s < s_next s' /\ conn_wf (s_conn s' c) /\
   k_st (s_conn s' c) = c_connectionActive /\ k_acc (s_conn s' c) = false /\ s_inch s' c = s_inch s c /\
   s_thr s' (s_next s + 1) = Some (PAct1 c)) \/
  (k_st (s_conn s c) <> 0 /\
   (exists st', s_conn s' c = with_st (s_conn s c) st' /\ k_st (s_conn s c) < st' <= c_connectionClosed) /\
   s_inch s' c = s_inch s c /\ exists t, s_thr s' t = Some (PCb1 c)) \/
  (is_active (s_conn s c) = true /\ s_conn s' c = with_acc (s_conn s c) /\ s_inch s' c = true).

Lemma step_conn_eff s l s' c :
  step s l = Some s' -> inv_fresh s -> conn_eff s c s'.
Proof.
  intros H Hf. pose proof Hf as (_ & _ & Hnew & _). step_cases H; unfold conn_eff; simp_st; auto.
  all: upd_case c; rewrite ?upd_same, ?upd_other by assumption; auto.
  - (* LNew *) right; left. destruct (Hnew (s_next s)) as [-> _]; [lia|].
    split; [reflexivity|]. split; [reflexivity|]. split; [lia|]. split; [|repeat split; apply upd_same].
    unfold conn_wf. cbn [k_rhp k_dir k_ohp]. lia.
  - (* LChange *) right; right; left. split; [lia|]. split; [eexists; split; [reflexivity|lia]|].
    split; [reflexivity|]. exists (s_next s). apply upd_same.
  - (* PAct1 accepted *) right; right; right.
    match goal with Ea : _ && _ = true |- _ => apply andb_true_iff in Ea as [Ea _] end. auto.
  - (* PAct1 refused: c.close() *) right; right; left.
    match goal with Ea : is_active _ = true |- _ => pose proof (proj1 (is_active_iff _) Ea) as Hk end.
    split; [rewrite Hk; discriminate|]. split; [eexists; split; [reflexivity|rewrite Hk; split; [reflexivity|discriminate]]|].
    split; [reflexivity|]. exists (s_next s). rewrite upd_other; [apply upd_same|].
    match goal with Et : s_thr s ?t = Some _ |- _ => pose proof (thr_bound _ _ _ Hf Et) end. lia.
  - (* PCb1 on a Closed connection *) left. split; [reflexivity|]. right. split; [reflexivity|].
    now apply Z.eqb_eq.
Qed.

Definition deletes (s : st) (l : label) (hp : Z) : Prop :=
  exists t c todo, l = LStep t /\ s_thr s t = Some (PCol3 c hp todo).

Definition root_eff (s : st) (l : label) (hp : Z) (s' : st) : Prop :=
  s_root s' hp = s_root s hp \/
  (s_root s hp = None /\ s_root s' hp = Some (s_next s) /\ s_next s < s_next s' /\
   s_peer s' (s_next s) = mkPeer hp [] [] 0 0) \/
  (s_root s' hp = None /\ deletes s l hp).

Lemma step_root_eff s l s' hp :
  step s l = Some s' -> root_eff s l hp s'.
Proof.
  intros H. step_cases H; unfold root_eff; simp_st; auto.
  all: upd_case hp; auto; right.
  1-3: left; split; [assumption|]; split; [reflexivity|]; split; [lia|apply upd_same].
  right. split; [reflexivity|]. unfold deletes. eauto.
Qed.

(* what a goroutine started by the step is *)
Definition born (s s' : st) (t : Z) (p : pc) : Prop :=
  match p with
  | PAct1 c => c = s_next s /\ t = s_next s + 1 /\ k_st (s_conn s' c) = c_connectionActive
  | PCb1 c => True
  | PAdd2 lid hp pid => s_root s' hp = Some pid
  | _ => False
  end.

Definition thr_eff (s : st) (l : label) (t : Z) (s' : st) : Prop :=
  s_thr s' t = s_thr s t \/ l = LStep t \/
  (s_thr s t = None /\ s_next s <= t < s_next s' /\ exists p, s_thr s' t = Some p /\ born s s' t p).

Lemma step_thr_eff s l s' t :
  step s l = Some s' -> inv_fresh s -> thr_eff s l t s'.
Proof.
  intros H Hf. step_cases H; unfold thr_eff; simp_st; auto.
  all: repeat (upd_case t; auto).
  (* the goroutine is new *)
  all: right; right; (split; [apply (thr_free _ _ Hf); lia|]); (split; [lia|]);
       eexists; (split; [reflexivity|]); cbn [born]; simp_st; auto.
  - split; [reflexivity|]. split; [reflexivity|]. now rewrite upd_same.
  - apply upd_same.
Qed.

(* left alone / created / reference count (PeerList.Add, Remove) / appended to / removed from: then
   the goroutine that removed goes on as the collector *)
Definition peer_eff (s : st) (pid : Z) (s' : st) : Prop :=
  s_peer s' pid = s_peer s pid \/
  (pid = s_next s /\ s_next s < s_next s' /\ exists hp, s_peer s' pid = mkPeer hp [] [] 0 0) \/
  pid < s_next s /\
  ((exists n why, s_peer s' pid = p_with_sc (s_peer s pid) n why /\ why <> 2) \/
   (exists c, s_peer s' pid = peer_add (s_conn s c) (s_peer s pid) c) \/
   (exists c P', peer_rem c (s_peer s pid) = Some P' /\ s_peer s' pid = P' /\
      exists t todo, s_thr s' t = Some (PCol1 c (p_hp (s_peer s pid)) todo))).

Lemma step_peer_eff s l s' pid :
  step s l = Some s' -> inv_fresh s -> peer_eff s pid s'.
Proof.
  intros H (_ & _ & _ & _ & Hpc & Hls). step_cases H; unfold peer_eff; simp_st; auto.
  all: upd_case pid; auto; right.
  all: try (left; split; [reflexivity|]; split; [lia|]; eexists; reflexivity).
  all: right; split.
  all: try match goal with Et : s_thr _ _ = Some _ |- _ < _ => exact (Hpc _ _ _ Et eq_refl) end.
  - match goal with Ef : list_find _ _ _ = Some _ |- _ => apply list_find_in in Ef; eauto end.
  - left. eexists _, _. split; [reflexivity|discriminate].
  - right; left. eauto.
  - right; right. eexists _, _. split; [eassumption|]. split; [reflexivity|]. eexists _, _. apply upd_same.
  - left. eexists _, _. split; [reflexivity|discriminate].
Qed.

(* child-list entries come from PeerList.Add's last step *)
Lemma step_lists_born s l s' lid hp pid :
  step s l = Some s' -> In (lid, hp, pid) (s_lists s') ->
  In (lid, hp, pid) (s_lists s) \/ exists t, l = LStep t /\ s_thr s t = Some (PAdd2 lid hp pid).
Proof.
  intros H. step_cases H; simp_st; auto.
  - intros Hi. left. eapply list_del_in; eauto.
  - intros [Hi|Hi]; [inversion Hi; subst; eauto|auto].
Qed.

(* the connection lists, the callback log and the gain / loss records change in two steps only *)
Definition book_eff (s s' : st) : Prop :=
  ((forall pid, p_in (s_peer s' pid) = p_in (s_peer s pid) /\ p_out (s_peer s' pid) = p_out (s_peer s pid)) /\
   s_log s' = s_log s /\ s_gain s' = s_gain s /\ s_loss s' = s_loss s) \/
  (exists t c pid todo, s_thr s t = Some (PApp c pid todo) /\ is_active (s_conn s c) = true /\
     s' = appended s t c pid todo) \/
  (exists t c pid todo P', s_thr s t = Some (PCbRem c pid todo) /\ is_active (s_conn s c) = false /\
     peer_rem c (s_peer s pid) = Some P' /\
     s' = removed s t c pid todo P').

Lemma step_book s l s' :
  step s l = Some s' -> inv_fresh s -> book_eff s s'.
Proof.
  intros H (_ & _ & Hnew & _). step_cases H; unfold book_eff; simp_st.
  all: try solve [left; split; [intros pid_; split; reflexivity|repeat split; reflexivity]].
  all: try solve [left; split; [|repeat split; reflexivity]; intros pid_; upd_case pid_;
                  first [split; reflexivity | destruct (Hnew (s_next s)) as [_ ->]; [lia|split; reflexivity]]].
  - right; left. eexists _, _, _, _. split; [eassumption|]. split; [assumption|reflexivity].
  - right; right. eexists _, _, _, _, _. split; [eassumption|]. split; [assumption|]. split; [eassumption|reflexivity].
Qed.

Lemma step_active_left s l s' c :
  step s l = Some s' -> inv_fresh s ->
  k_st (s_conn s c) = c_connectionActive -> k_st (s_conn s' c) <> c_connectionActive ->
  exists t, s_thr s' t = Some (PCb1 c).
Proof.
  intros H Hf Hk Hk'.
  destruct (step_conn_eff _ _ _ c H Hf) as [[E _]|[(Hk0 & _)|[(_ & _ & _ & Ht)|(_ & E & _)]]]; try exact Ht.
  - rewrite E in Hk'. contradiction.
  - rewrite Hk0 in Hk. discriminate.
  - rewrite E in Hk'. contradiction.
Qed.

Lemma step_conn_born s l s' c :
  step s l = Some s' -> inv_fresh s -> k_st (s_conn s c) = 0 -> k_st (s_conn s' c) <> 0 ->
  c = s_next s /\ s_thr s' (s_next s + 1) = Some (PAct1 c) /\ conn_wf (s_conn s' c).
Proof.
  intros H Hf Hk0 Hk'.
  destruct (step_conn_eff _ _ _ c H Hf) as [[E _]|[(_ & Hc & _ & Hwf & _ & _ & _ & Ht)|[(Hk & _)|[Ea _]]]].
  - rewrite E in Hk'. contradiction.
  - auto.
  - contradiction.
  - apply is_active_iff in Ea. rewrite Hk0 in Ea. discriminate.
Qed.

Lemma step_peer_hp s l s' pid :
  step s l = Some s' -> inv_fresh s -> pid < s_next s -> p_hp (s_peer s' pid) = p_hp (s_peer s pid).
Proof.
  intros H Hf Hlt.
  destruct (step_peer_eff _ _ _ pid H Hf) as [->|[(-> & _)|(_ & [(n & w & -> & _)|[(c & ->)|(c & P' & Er & -> & _)]])]].
  - reflexivity.
  - lia.
  - reflexivity.
  - apply peer_add_fields.
  - apply (peer_rem_some _ _ _ Er).
Qed.

Lemma step_root_born s l s' hp pid :
  step s l = Some s' -> s_root s' hp = Some pid ->
  s_root s hp = Some pid \/ (pid = s_next s /\ s_peer s' pid = mkPeer hp [] [] 0 0).
Proof.
  intros H Hr. destruct (step_root_eff _ _ _ hp H) as [E|[(_ & E & _ & Ep)|(E & _)]]; [left|right|congruence].
  - now rewrite <- E.
  - rewrite E in Hr. inversion Hr; subst pid. auto.
Qed.

Lemma step_thr_kept s l s' t p :
  step s l = Some s' -> inv_fresh s -> s_thr s t = Some p -> l = LStep t \/ s_thr s' t = Some p.
Proof.
  intros H Hf E. destruct (step_thr_eff _ _ _ t H Hf) as [E'|[Hl|(En & _)]]; [right|now left|congruence].
  now rewrite E'.
Qed.

Lemma step_thr_inv s l s' t p :
  step s l = Some s' -> inv_fresh s -> s_thr s' t = Some p ->
  s_thr s t = Some p \/ (l = LStep t /\ exists p0, s_thr s t = Some p0) \/ (s_thr s t = None /\ born s s' t p).
Proof.
  intros H Hf E. destruct (step_thr_eff _ _ _ t H Hf) as [E'|[->|(En & _ & p' & Ep & Hb)]].
  - left. now rewrite <- E'.
  - right; left. split; [reflexivity|exact (step_enabled _ _ _ H)].
  - right; right. rewrite Ep in E. inversion E; subst p'. auto.
Qed.

Lemma step_plist s l s' pid :
  step s l = Some s' -> inv_fresh s ->
  (p_in (s_peer s' pid) = p_in (s_peer s pid) /\ p_out (s_peer s' pid) = p_out (s_peer s pid)) \/
  (exists t c todo, s_thr s t = Some (PApp c pid todo) /\ is_active (s_conn s c) = true /\
     s' = appended s t c pid todo) \/
  (exists t c todo P', s_thr s t = Some (PCbRem c pid todo) /\ is_active (s_conn s c) = false /\
     peer_rem c (s_peer s pid) = Some P' /\
     s' = removed s t c pid todo P').
Proof.
  intros H Hf.
  destruct (step_book _ _ _ H Hf)
    as [[Hp _]|[(t & c & pid0 & todo & E & Ea & ->)|(t & c & pid0 & todo & P' & E & Ea & Er & ->)]];
    [left; apply Hp| |].
  - destruct (Z.eq_dec pid pid0) as [->|Hne]; [right; left; eauto 8|left].
    simp_st. rewrite upd_other by exact Hne. split; reflexivity.
  - destruct (Z.eq_dec pid pid0) as [->|Hne]; [right; right; eauto 10|left].
    simp_st. rewrite upd_other by exact Hne. split; reflexivity.
Qed.

Lemma pid_step s t p s' p' q :
  s_thr s t = Some p -> step s (LStep t) = Some s' -> s_thr s' t = Some p' -> pc_pid p' = Some q ->
  pc_pid p = Some q \/ (exists hp, s_root s hp = Some q) \/ (exists hp, s_root s' hp = Some q).
Proof.
  intros E Hs. rewrite (step_LStep _ _ _ _ Hs E). clear Hs. revert p' q.
  destruct p; thread_split; simp_st; rewrite ?upd_same; intros p' q_ Hp' Hq; inversion Hp'; subst p';
    cbn [pc_pid] in *; try discriminate Hq; inversion Hq; subst q_; eauto.
  right; right. eexists. apply upd_same.
Qed.

Lemma step_fresh s l s' : inv_fresh s -> step s l = Some s' -> inv_fresh s'.
Proof.
  intros Hf H. pose proof Hf as (Hpos & Hthr & Hnew & Hroot & Hpc & Hls).
  pose proof (step_next_le _ _ _ H) as Hle.
  assert (Hroot' : forall hp pid, s_root s' hp = Some pid -> pid < s_next s').
  { intros hp pid Hr. destruct (step_root_eff _ _ _ hp H) as [E|[(_ & E & Hlt & _)|(E & _)]].
    - rewrite E in Hr. apply Hroot in Hr. lia.
    - rewrite E in Hr. inversion Hr. lia.
    - congruence. }
  assert (Hpc' : forall t p q, s_thr s' t = Some p -> pc_pid p = Some q -> q < s_next s').
  { intros t p q Et Hq. destruct (step_thr_inv _ _ _ _ _ H Hf Et) as [Eo|[[-> [p0 E0]]|[_ Hb]]].
    - specialize (Hpc _ _ _ Eo Hq). lia.
    - destruct (pid_step _ _ _ _ _ _ E0 H Et Hq) as [Hq0|[[hp Hr]|[hp Hr]]]; [|apply Hroot in Hr; lia|eauto].
      specialize (Hpc _ _ _ E0 Hq0). lia.
    - destruct p; cbn [pc_pid] in Hq; try discriminate Hq; try contradiction. inversion Hq; subst. eauto. }
  split; [lia|]. split; [|split; [|split; [exact Hroot'|split; [exact Hpc'|]]]].
  - intros t Ht. destruct (step_thr_eff _ _ _ t H Hf) as [E|[->|(_ & Hb & _)]]; [|  |lia].
    + rewrite E in Ht. apply Hthr in Ht. lia.
    + destruct (step_enabled _ _ _ H) as [p0 E0]. pose proof (thr_bound _ _ _ Hf E0). lia.
  - intros x Hx. destruct (Hnew x) as [Hk Hp]; [lia|]. split.
    + destruct (step_conn_eff _ _ _ x H Hf) as [[-> _]|[(_ & -> & Hlt & _)|[(Hk' & _)|[Ea _]]]]; [exact Hk|lia| |].
      * rewrite Hk in Hk'. now contradiction Hk'.
      * rewrite Hk in Ea. discriminate Ea.
    + destruct (step_peer_eff _ _ _ x H Hf) as [->|[(-> & Hlt & _)|(Hlt & _)]]; [exact Hp|lia|lia].
  - intros lid hp pid Hin. destruct (step_lists_born _ _ _ _ _ _ H Hin) as [Ho|(t & -> & E)].
    + apply Hls in Ho. lia.
    + specialize (Hpc _ _ _ E eq_refl). lia.
Qed.

Lemma step_root s l s' : inv_fresh s -> inv_root s -> step s l = Some s' -> inv_root s'.
Proof.
  intros Hf Hr H hp pid Hr'. destruct (step_root_born _ _ _ _ _ H Hr') as [Hold|[_ ->]]; [|reflexivity].
  rewrite (step_peer_hp _ _ _ pid H Hf); [now apply Hr|].
  destruct Hf as (_ & _ & _ & Hroot & _). eauto.
Qed.

(* ---- the channel's connection map ---- *)
Definition chan_ok (s : st) (c : Z) : Prop :=
  (s_inch s c = true -> k_acc (s_conn s c) = true) /\
  (k_acc (s_conn s c) = true -> k_st (s_conn s c) <> 0) /\
  (k_acc (s_conn s c) = true -> k_st (s_conn s c) <> c_connectionClosed -> s_inch s c = true) /\
  (s_inch s c = true -> k_st (s_conn s c) = c_connectionClosed -> exists t, s_thr s t = Some (PCb1 c)) /\
  (k_st (s_conn s c) = c_connectionActive -> k_acc (s_conn s c) = false -> exists t, s_thr s t = Some (PAct1 c)) /\
  0 <= k_st (s_conn s c) <= c_connectionClosed.
Definition inv_chan (s : st) : Prop := forall c, chan_ok s c.

(* the two goroutines inv_chan waits for, when they move themselves *)
Lemma cb1_step s t c s' :
  s_thr s t = Some (PCb1 c) -> step s (LStep t) = Some s' ->
  k_st (s_conn s c) = c_connectionClosed -> s_inch s' c = false.
Proof.
  intros E Hs Hk. rewrite (step_LStep _ _ _ _ Hs E). cbn [step_thread]. unfold is_closed.
  rewrite Hk, Z.eqb_refl. simp_st. apply upd_same.
Qed.

Lemma act1_step s t c s' :
  s_thr s t = Some (PAct1 c) -> step s (LStep t) = Some s' ->
  k_acc (s_conn s' c) = true \/ k_st (s_conn s' c) <> c_connectionActive.
Proof.
  intros E Hs. rewrite (step_LStep _ _ _ _ Hs E). thread_split; simp_st; rewrite ?upd_same; auto.
  - right. discriminate.
  - right. now apply is_active_false.
Qed.

Lemma step_chan s l s' : inv_fresh s -> inv_chan s -> step s l = Some s' -> inv_chan s'.
Proof.
  intros Hf Hc H c. destruct (Hc c) as (Ha & Hb & Hcc & Hd & He & Hg). unfold chan_ok.
  destruct (step_conn_eff _ _ _ c H Hf)
    as [[Ec Ei]|[(Hk0 & _ & _ & _ & Hact & Hacc & Ei & Et)|[(Hk & (st' & Ec & Hlt) & Ei & Et)|(Ea & Ec & Ei)]]].
  - rewrite Ec. destruct Ei as [Ei|[Ei Hcl]]; rewrite Ei.
    + (* a goroutine waited for goes on being there, unless it is the one that moved *)
      do 3 (split; [assumption|]). split; [|split; [|assumption]].
      * intros Hi Hk. destruct (Hd Hi Hk) as [t E]. destruct (step_thr_kept _ _ _ _ _ H Hf E) as [->|E']; [|eauto].
        rewrite (cb1_step _ _ _ _ E H Hk), Hi in Ei. discriminate Ei.
      * intros Hk Hn. destruct (He Hk Hn) as [t E]. destruct (step_thr_kept _ _ _ _ _ H Hf E) as [->|E']; [|eauto].
        rewrite <- Ec in Hk, Hn. destruct (act1_step _ _ _ _ E H); congruence.
    + (* dropped from the map: it is Closed *)
      split; [discriminate|]. split; [assumption|]. split; [contradiction|]. split; [discriminate|].
      split; [intros Hk; rewrite Hcl in Hk; discriminate Hk|assumption].
  - (* new: not yet accepted *)
    assert (Hno : s_inch s c = false) by (destruct (s_inch s c); [now destruct (Hb (Ha eq_refl))|reflexivity]).
    rewrite Ei, Hno, Hact, Hacc. unfold c_connectionActive, c_connectionClosed.
    repeat split; try discriminate; try lia. eauto.
  - rewrite Ec, Ei. cbn [k_acc k_st with_st]. unfold c_connectionActive in *.
    split; [assumption|]. split; [lia|]. split; [intros Hx Hn; apply Hcc; [assumption|lia]|].
    split; [auto|]. split; [lia|lia].
  - apply is_active_iff in Ea. rewrite Ec, Ei. cbn [k_acc k_st with_acc]. rewrite Ea.
    repeat split; try discriminate; try assumption.
Qed.

(* ---- status callbacks = gains + losses; gains - losses = list contents ---- *)
Definition inv_cb (s : st) : Prop :=
  Permutation (s_log s) (map ev_hp (s_gain s ++ s_loss s)) /\
  (forall pid c,
     (cnt c (plist (s_peer s pid)) + length (filter (ev_is pid c) (s_loss s)))%nat
     = length (filter (ev_is pid c) (s_gain s))).

Lemma filter_ev_cons pid' c' hp pid c l :
  length (filter (ev_is pid' c') ((hp, pid, c) :: l)) =
  ((if ((pid =? pid') && (c' =? c))%Z then 1 else 0) + length (filter (ev_is pid' c') l))%nat.
Proof.
  cbn [filter]. unfold ev_is at 1. cbn [fst snd]. rewrite (Z.eqb_sym c c').
  destruct ((pid =? pid') && (c' =? c)); reflexivity.
Qed.

Lemma step_cb s l s' : inv_fresh s -> inv_cb s -> step s l = Some s' -> inv_cb s'.
Proof.
  intros Hf [H1 H2] H.
  destruct (step_book _ _ _ H Hf)
    as [(Hp & El & Eg & Els)|[(t & c & pid & todo & _ & _ & ->)|(t & c & pid & todo & P' & _ & _ & Er & ->)]].
  - unfold inv_cb, plist. rewrite El, Eg, Els. split; [exact H1|].
    intros pid c. destruct (Hp pid) as [-> ->]. apply H2.
  - (* a connection gained *)
    split; simp_st.
    + eapply perm_trans; [apply Permutation_sym, Permutation_cons_append|]. now apply perm_skip.
    + intros pid' c'. specialize (H2 pid' c'). rewrite filter_ev_cons.
      destruct (upd_cases (s_peer s) pid (peer_add (s_conn s c) (s_peer s pid) c) pid') as [[-> ->]|[Hne ->]].
      * rewrite (cnt_perm _ _ _ (peer_add_perm _ _ _)), cnt_cons, Z.eqb_refl. cbn [andb]. lia.
      * destruct (Z.eqb_spec pid pid'); [congruence|]. cbn [andb]. lia.
  - (* a connection lost *)
    split; simp_st.
    + eapply perm_trans; [apply Permutation_sym, Permutation_cons_append|].
      rewrite map_app. cbn [map]. eapply perm_trans; [apply perm_skip; exact H1|].
      rewrite map_app. apply Permutation_middle.
    + intros pid' c'. specialize (H2 pid' c'). rewrite filter_ev_cons.
      destruct (upd_cases (s_peer s) pid P' pid') as [[-> ->]|[Hne ->]].
      * destruct (peer_rem_some _ _ _ Er) as (_ & _ & _ & Hperm & _).
        rewrite (cnt_perm _ _ _ Hperm), cnt_cons in H2. rewrite Z.eqb_refl. cbn [andb]. lia.
      * destruct (Z.eqb_spec pid pid'); [congruence|]. cbn [andb]. lia.
Qed.

(* ---- scCount = number of peer-list entries holding the Peer object ---- *)
Definition inv_refs (s : st) : Prop :=
  forall pid, p_sc (s_peer s pid) = Z.of_nat (length (filter (ent_pid pid) (s_lists s))).

Lemma step_refs s l s' : inv_fresh s -> inv_refs s -> step s l = Some s' -> inv_refs s'.
Proof.
  intros (_ & _ & Hnew & _) Hc H. step_cases H; try assumption.
  all: unfold inv_refs in *; simp_st; intros q; specialize (Hc q); try exact Hc.
  all: upd_case q; try exact Hc; cbn [p_sc p_with_sc].
  (* a Peer object created in a fresh slot: nothing refers to it yet *)
  all: try solve [destruct (Hnew (s_next s)) as [_ Hq]; [lia|]; now rewrite Hq in Hc].
  - (* PeerList.Remove *)
    rewrite Hc. match goal with Ef : list_find _ _ _ = Some _ |- _ => rewrite (list_del_count _ _ _ _ z Ef) end.
    rewrite Z.eqb_refl. lia.
  - match goal with Ef : list_find _ _ _ = Some _ |- _ => rewrite (list_del_count _ _ _ _ q Ef) in Hc end.
    destruct (Z.eqb_spec q z); [contradiction|exact Hc].
  - now rewrite (proj1 (proj2 (peer_add_fields _ _ _))).
  - match goal with Er : peer_rem _ _ = Some _ |- _ => now rewrite (proj1 (proj2 (peer_rem_some _ _ _ Er))) end.
  - (* PeerList.Add stores the entry *)
    cbn [filter]. unfold ent_pid at 1. cbn [snd]. rewrite Z.eqb_refl. cbn [length]. lia.
  - cbn [filter]. unfold ent_pid at 1. cbn [snd].
    destruct (Z.eqb_spec pid q); [congruence|exact Hc].
Qed.

(* ---- collection of a peer that lost its last connection ---- *)
Definition col_for (p : pc) (hp pid : Z) : Prop :=
  match p with
  | PCol1 _ h _ => h = hp
  | PCol2 _ h q _ => h = hp /\ q = pid
  | PCol3 _ h _ => h = hp
  | _ => False
  end.

Definition gc_due (s : st) (pid : Z) : Prop :=
  let P := s_peer s pid in p_in P = [] /\ p_out P = [] /\ p_sc P = 0 /\ p_last P = 2.

Definition inv_gc (s : st) : Prop :=
  forall hp pid, s_root s hp = Some pid -> gc_due s pid ->
    exists t p, s_thr s t = Some p /\ col_for p hp pid.

(* a collector for (hp, pid) goes on while pid stays registered under hp and removable *)
Lemma col_step s t p hp pid s' :
  s_thr s t = Some p -> col_for p hp pid -> step s (LStep t) = Some s' ->
  s_root s hp = Some pid -> s_root s' hp = Some pid -> can_remove (s_peer s pid) = true ->
  exists p', s_thr s' t = Some p' /\ col_for p' hp pid.
Proof.
  intros E Hc Hs Hr. rewrite (step_LStep _ _ _ _ Hs E). clear Hs.
  destruct p; cbn [col_for] in Hc; try contradiction.
  all: thread_split; simp_st; rewrite ?upd_same; intros Hr' Hcan.
  - subst hp0. eexists. split; [reflexivity|]. cbn [col_for]. split; congruence.
  - congruence.
  - destruct Hc as [-> ->]. eexists. split; [reflexivity|reflexivity].
  - destruct Hc as [-> ->]. congruence.
  - subst hp0. rewrite upd_same in Hr'. discriminate Hr'.
Qed.

Lemma step_gc s l s' : inv_fresh s -> inv_root s -> inv_gc s -> step s l = Some s' -> inv_gc s'.
Proof.
  intros Hf Hrt Hc H hp pid Hr' Hd. unfold gc_due in Hd. destruct Hd as (Hi & Ho & Hs & Hl).
  destruct (step_root_born _ _ _ _ _ H Hr') as [Hr|[_ Ep]]; [|rewrite Ep in Hl; discriminate Hl].
  destruct (step_peer_eff _ _ _ pid H Hf)
    as [Ep|[(_ & _ & h & Ep)|(_ & [(n & w & Ep & Hw)|[(c & Ep)|(c & P' & _ & _ & t & todo & Et)]])]];
    [|rewrite Ep in Hl; discriminate Hl|rewrite Ep in Hl; now contradiction Hw| |].
  - rewrite Ep in *. destruct (Hc hp pid Hr) as (t & p & Et & Hcol); [repeat split; assumption|].
    destruct (step_thr_kept _ _ _ _ _ H Hf Et) as [->|Et']; [|eauto].
    destruct (col_step _ _ _ _ _ _ Et Hcol H Hr Hr') as (p' & Et' & Hcol'); [|eauto].
    unfold can_remove. now rewrite Hi, Ho, Hs.
  - rewrite Ep, (proj2 (proj2 (peer_add_fields _ _ _))) in Hl. discriminate Hl.
  - (* the last connection has just been removed: that goroutine is the collector *)
    exists t, (PCol1 c (p_hp (s_peer s pid)) todo). split; [exact Et|]. cbn [col_for]. now apply Hrt.
Qed.

Record Inv0 (s : st) : Prop := {
  i_fresh : inv_fresh s; i_root : inv_root s; i_chan : inv_chan s;
  i_cb : inv_cb s; i_refs : inv_refs s; i_gc : inv_gc s }.

Lemma inv0_init : Inv0 init.
Proof.
  split.
  - unfold inv_fresh, init; simp_st. repeat split; try lia; try discriminate; try contradiction;
      intros x H; now contradiction H.
  - intros hp pid H. discriminate H.
  - intros c. unfold chan_ok, init; simp_st. cbn [k_acc k_st no_conn]. unfold c_connectionClosed.
    repeat split; try discriminate; lia.
  - split; [constructor|]. intros pid c. reflexivity.
  - intros pid. reflexivity.
  - intros hp pid H. discriminate H.
Qed.

Lemma inv0_step s l s' : Inv0 s -> step s l = Some s' -> Inv0 s'.
Proof.
  intros [Hf Hr Hc Hb Hrf Hg] H. split.
  - eapply step_fresh; eauto.
  - eapply step_root; eauto.
  - eapply step_chan; eauto.
  - eapply step_cb; eauto.
  - eapply step_refs; eauto.
  - eapply step_gc; eauto.
Qed.

Lemma inv0_run ls : forall s s', Inv0 s -> run_gen true s ls = Some s' -> Inv0 s'.
Proof.
  induction ls as [|l r IH]; intros s s' Hi H; cbn [run_gen] in H.
  - inversion H; subst; assumption.
  - destruct (step_gen true s l) as [s1|] eqn:E; [|discriminate].
    eapply IH; [|exact H]. eapply inv0_step; eauto.
Qed.

Lemma inv0_reach ls s : run init ls = Some s -> Inv0 s.
Proof. intros H. eapply inv0_run; [apply inv0_init|exact H]. Qed.

Lemma inv0_channel_tracks s : Inv0 s -> quiescent s -> channel_tracks s.
Proof.
  intros [_ _ Hc _ _ _] Hq.
  split; intros c; destruct (Hc c) as (Ha & Hb & Hcc & Hd & He & _).
  - split.
    + intros Hi. split; [now apply Ha|]. intros Hcl. destruct (Hd Hi Hcl) as [t Ht].
      rewrite Hq in Ht. discriminate.
    + intros [H1 H2]. now apply Hcc.
  - intros _ Hacc Hact. destruct (He Hact Hacc) as [t Ht]. rewrite Hq in Ht. discriminate.
Qed.

Lemma inv0_peer_gc s : Inv0 s -> quiescent s -> peer_gc s.
Proof.
  intros [_ _ _ _ Hrf Hg] Hq. split; [|exact Hrf].
  intros hp pid Hroot P Hi Ho Hrefs Hl.
  assert (Hd : gc_due s pid).
  { unfold gc_due. repeat split; auto. rewrite Hrf. exact Hrefs. }
  destruct (Hg _ _ Hroot Hd) as (t & p & Ht & _). rewrite Hq in Ht. discriminate.
Qed.

Theorem channel_tracks_all ls s : run init ls = Some s -> quiescent s -> channel_tracks s.
Proof. intros Hr. apply inv0_channel_tracks, (inv0_reach _ _ Hr). Qed.

Theorem callbacks_exact_all ls s : run init ls = Some s -> callbacks_exact s.
Proof. intros Hr. apply (inv0_reach _ _ Hr). Qed.

Theorem peer_gc_all ls s : run init ls = Some s -> quiescent s -> peer_gc s.
Proof. intros Hr. apply inv0_peer_gc, (inv0_reach _ _ Hr). Qed.
