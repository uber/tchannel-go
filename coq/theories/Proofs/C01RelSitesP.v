(* C01 -- proofs about Model/C01RelSites.v and the tie to the regenerated site table. *)
From Coq Require Import ZArith List Bool String Ascii Lia.
From Verif Require Import Base.Wrap Model.C01RelSites Gen.GenC01RelSites.
Import ListNotations.
Local Open Scope Z_scope.


Lemma c01r_sites_exact : c01_release_sites = map fst c01r_known.
Proof.
  first [ vm_compute; reflexivity
        | fail 1 "the table of calls that can give back the frame a reader is parsed into, regenerated from the source (Gen/GenC01RelSites.c01_release_sites), differs from the model's (Model/C01RelSites.c01r_known): a call of readableFragment.done / reqResReader.releasePreviousFragment / a wrapper of them was added, removed, moved to another function or re-guarded" ].
Qed.

Lemma c01r_sites_ok : c01r_table_ok c01_release_sites = true.
Proof.
  first [ vm_compute; reflexivity
        | fail 1 "a function outside the reader and outside the paths that fail a call can give back the frame the request reader is parsed into (Gen/GenC01RelSites.c01_release_sites has a site Model/C01RelSites.c01r_known does not have)" ].
Qed.

Lemma c01r_functions_ok_holds : c01r_functions_ok c01_releasing_functions = true.
Proof.
  first [ vm_compute; reflexivity
        | fail 1 "a further function reaches a release of the frame a reader is parsed into (Gen/GenC01RelSites.c01_releasing_functions)" ].
Qed.


Lemma c01r_ok_no_release : forall tbl, c01r_table_ok tbl = true -> c01r_releases_on_complete tbl = false.
Proof.
  intros tbl. unfold c01r_table_ok, c01r_releases_on_complete.
  induction tbl as [|r tbl IH]; cbn [forallb existsb]; intros H.
  - reflexivity.
  - apply andb_true_iff in H. destruct H as [Hr Ht].
    apply negb_true_iff in Hr. rewrite Hr. cbn [orb]. exact (IH Ht).
Qed.

Definition c01r_inv (s : c01r_st) : Prop := rs_held s = true /\ rs_mem s = rs_own s.

Lemma c01r_run_own : forall tbl, c01r_releases_on_complete tbl = false ->
  forall evs s, c01r_inv s -> forallb (fun e => negb (c01r_is_fail e)) evs = true ->
  Forall (fun p => fst p = snd p) (c01r_run tbl s evs).
Proof.
  intros tbl Htbl evs. induction evs as [|e evs IH]; intros s [Hh Hm] Hnf.
  - constructor.
  - cbn [forallb] in Hnf. apply andb_true_iff in Hnf. destruct Hnf as [He Hnf].
    destruct e as [n|next| | |bs]; cbn [c01r_run c01r_step].
    + constructor.
      * cbn [fst snd]. rewrite Hm. reflexivity.
      * apply IH; [split; cbn; assumption | exact Hnf].
    + apply IH; [split; reflexivity | exact Hnf].
    + apply IH; [ | exact Hnf]. split; cbn [rs_held rs_mem rs_own].
      * rewrite Hh, Htbl. reflexivity.
      * exact Hm.
    + discriminate He.
    + rewrite Hh. apply IH; [split; assumption | exact Hnf].
Qed.

(* a handler of a call that is not failed reads, at every position of the fragment its reader is
   parsed into, the bytes its caller sent -- whenever it completes its response, whatever the pool
   does with the frames it was given back -- for every site table that has only known sites *)
Theorem c01r_early_answer_any_table : forall tbl own evs,
  c01r_table_ok tbl = true ->
  forallb (fun e => negb (c01r_is_fail e)) evs = true ->
  Forall (fun p => fst p = snd p) (c01r_run tbl (c01r_init own) evs).
Proof.
  intros tbl own evs Hok Hnf.
  apply c01r_run_own; [exact (c01r_ok_no_release tbl Hok) | split; reflexivity | exact Hnf].
Qed.

Theorem c01r_early_answer : forall own evs,
  forallb (fun e => negb (c01r_is_fail e)) evs = true ->
  Forall (fun p => fst p = snd p) (c01r_run c01_release_sites (c01r_init own) evs).
Proof. intros own evs. exact (c01r_early_answer_any_table c01_release_sites own evs c01r_sites_ok). Qed.

(* the table with a release in doneSending is refused, and in its world a handler that answers first
   reads the bytes of another frame with no error.  Only the added row is looked up. *)
Lemma c01r_doneSending_releases : c01r_releases_on_complete c01r_table_with_doneSending = true.
Proof.
  unfold c01r_releases_on_complete, c01r_table_with_doneSending. rewrite existsb_app.
  apply orb_true_iff. right. vm_compute. reflexivity.
Qed.

Lemma c01r_doneSending_refused : c01r_table_ok c01r_table_with_doneSending = false.
Proof.
  destruct (c01r_table_ok c01r_table_with_doneSending) eqn:E; [|reflexivity].
  apply c01r_ok_no_release in E. rewrite c01r_doneSending_releases in E. discriminate E.
Qed.

Lemma c01r_doneSending_foreign :
  c01r_run c01r_table_with_doneSending (c01r_init [1; 2; 3; 4; 5])
    [RvRead 2; RvRespComplete; RvReuse [9; 9; 9; 9; 9]; RvRead 3]
  = [([1; 2], [1; 2]); ([9; 9; 9], [3; 4; 5])].
Proof.
  cbn [c01r_run c01r_step c01r_init rs_mem rs_own rs_pos rs_held].
  rewrite c01r_doneSending_releases. reflexivity.
Qed.

Lemma c01r_example_own :
  c01r_run c01_release_sites (c01r_init [1; 2; 3; 4; 5])
    [RvRead 2; RvRespComplete; RvReuse [9; 9; 9; 9; 9]; RvRead 3]
  = [([1; 2], [1; 2]); ([3; 4; 5], [3; 4; 5])].
Proof.
  cbn [c01r_run c01r_step c01r_init rs_mem rs_own rs_pos rs_held].
  rewrite (c01r_ok_no_release _ c01r_sites_ok). reflexivity.
Qed.

(* the pinned tree: a call that was FAILED (SendSystemError) has given its request frame back while
   the reader stays parsed into it -- a handler that reads on obtains the bytes of the frame that was
   read into the reused memory (known finding c01:read-after-syserr) *)
Lemma c01r_read_after_fail_refuted :
  exists own evs, ~ Forall (fun p => fst p = snd p) (c01r_run c01_release_sites (c01r_init own) evs).
Proof.
  exists [1; 2; 3], [RvFail; RvReuse [9; 9; 9]; RvRead 3].
  intros H. vm_compute in H. inversion H as [|p l Hp Hl]; subst. discriminate Hp.
Qed.
