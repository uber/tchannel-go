(* Proofs about Model/PeerHeap.v: the container/heap algorithms preserve
   - the length, the back-pointers ([idx_ok]) and the multiset of elements (modulo index),
   - heap validity for ANY edge relation [ek] on (score, order) keys that is implied by
     "not less" and is transitive (section Generic).  Instances: the score order
     (used for minimality of the selection) and the "big elements are ordered" relation
     used by the fairness proof. *)
From Coq Require Import ZArith List Bool Arith Lia ZifyNat Permutation.
From Verif Require Import Base.Wrap Model.PeerHeap.
Import ListNotations.
Ltac Zify.zify_post_hook ::= Z.to_euclidean_division_equations.

Local Open Scope nat_scope.

Definition key (x : pscore) : Z * Z := (ps_score x, ps_order x).
Definition kless (a b : Z * Z) : bool :=
  if (fst a =? fst b)%Z then (snd a <? snd b)%Z else (fst a <? fst b)%Z.
Definition ident (x : pscore) : list Z * Z * Z := (ps_hp x, ps_score x, ps_order x).

Lemma pless_kless a b : pless a b = kless (key a) (key b).
Proof. reflexivity. Qed.
Lemma key_set_index x i : key (set_index x i) = key x.
Proof. reflexivity. Qed.
Lemma ident_set_index x i : ident (set_index x i) = ident x.
Proof. reflexivity. Qed.
Lemma hp_set_index x i : ps_hp (set_index x i) = ps_hp x.
Proof. reflexivity. Qed.

Lemma kless_asym a b : kless a b = true -> kless b a = false.
Proof. unfold kless; destruct a as [a1 a2], b as [b1 b2]; cbn [fst snd]; intros H.
  destruct (Z.eqb_spec a1 b1), (Z.eqb_spec b1 a1); lia. Qed.
Lemma kle_trans a b c : kless b a = false -> kless c b = false -> kless c a = false.
Proof. unfold kless; destruct a as [a1 a2], b as [b1 b2], c as [c1 c2]; cbn [fst snd]; intros H1 H2.
  destruct (Z.eqb_spec b1 a1), (Z.eqb_spec c1 b1), (Z.eqb_spec c1 a1); lia. Qed.
Lemma kless_irrefl a : kless a a = false.
Proof. unfold kless; destruct a; cbn [fst snd]. rewrite Z.eqb_refl. lia. Qed.

Lemma length_set_nth {A} (h : list A) i x : length (set_nth h i x) = length h.
Proof. revert i; induction h as [|y h IH]; intros [|i]; cbn; auto. Qed.

Lemma nth_set_nth_eq {A} (h : list A) i x d : i < length h -> nth i (set_nth h i x) d = x.
Proof. revert i; induction h as [|y h IH]; intros [|i] Hi; cbn in *; try lia; auto. apply IH; lia. Qed.

Lemma nth_set_nth_neq {A} (h : list A) i k x d : i <> k -> nth k (set_nth h i x) d = nth k h d.
Proof.
  revert i k; induction h as [|y h IH]; intros [|i] [|k] Hik; cbn; auto; try lia.
Qed.

Lemma map_set_nth {A B} (f : A -> B) (h : list A) i x : map f (set_nth h i x) = set_nth (map f h) i (f x).
Proof. revert i; induction h as [|y h IH]; intros [|i]; cbn; auto. f_equal; apply IH. Qed.

Lemma perm_set_nth {A} (d : A) (l : list A) i x : i < length l ->
  Permutation (x :: l) (nth i l d :: set_nth l i x).
Proof.
  revert i; induction l as [|y l IH]; intros [|i] Hi; cbn in *; try lia.
  - apply perm_swap.
  - eapply perm_trans; [apply perm_swap|].
    eapply perm_trans; [apply perm_skip, (IH i); lia|]. apply perm_swap.
Qed.

Lemma set_nth_same {A} (d : A) (l : list A) i : set_nth l i (nth i l d) = l.
Proof. revert i; induction l as [|y l IH]; intros [|i]; cbn; auto. f_equal; apply IH. Qed.

Lemma lswap_perm {A} (d : A) (l : list A) i j : i < length l -> j < length l ->
  Permutation (set_nth (set_nth l i (nth j l d)) j (nth i l d)) l.
Proof.
  intros Hi Hj.
  set (l' := set_nth l i (nth j l d)).
  assert (P1 : Permutation (nth j l d :: l) (nth i l d :: l')) by (apply perm_set_nth; lia).
  assert (P2 : Permutation (nth i l d :: l') (nth j l' d :: set_nth l' j (nth i l d))).
  { apply perm_set_nth. unfold l'. rewrite length_set_nth. lia. }
  assert (E : nth j l' d = nth j l d).
  { unfold l'. destruct (Nat.eq_dec i j) as [->|Hne].
    - rewrite nth_set_nth_eq by lia. reflexivity.
    - now rewrite nth_set_nth_neq by lia. }
  rewrite E in P2.
  apply Permutation_sym. eapply Permutation_cons_inv. eapply perm_trans; [exact P1|exact P2].
Qed.

Lemma map_set_nth_same {B} (f : pscore -> B) h i x : f x = f (hget h i) -> map f (set_nth h i x) = map f h.
Proof.
  intros E. rewrite map_set_nth, E. unfold hget. rewrite <- (map_nth f). apply set_nth_same.
Qed.

Lemma hget_set_eq h i x : i < length h -> hget (set_nth h i x) i = x.
Proof. apply nth_set_nth_eq. Qed.
Lemma hget_set_neq h i k x : i <> k -> hget (set_nth h i x) k = hget h k.
Proof. apply nth_set_nth_neq. Qed.

Lemma length_hswap h i j : length (hswap h i j) = length h.
Proof. unfold hswap; now rewrite !length_set_nth. Qed.

Lemma hget_hswap h i j k : i < length h -> j < length h ->
  hget (hswap h i j) k =
    if k =? j then set_index (hget h i) (Z.of_nat j)
    else if k =? i then set_index (hget h j) (Z.of_nat i)
    else hget h k.
Proof.
  intros Hi Hj. unfold hswap.
  destruct (Nat.eqb_spec k j) as [->|Hkj].
  - rewrite hget_set_eq; [reflexivity|now rewrite length_set_nth].
  - rewrite hget_set_neq by lia.
    destruct (Nat.eqb_spec k i) as [->|Hki].
    + now rewrite hget_set_eq.
    + now rewrite hget_set_neq by lia.
Qed.

Lemma key_hswap_l h i j : i < length h -> j < length h -> key (hget (hswap h i j) i) = key (hget h j).
Proof.
  intros Hi Hj. rewrite hget_hswap, Nat.eqb_refl by assumption.
  destruct (Nat.eqb_spec i j) as [->|]; reflexivity.
Qed.
Lemma key_hswap_r h i j : i < length h -> j < length h -> key (hget (hswap h i j) j) = key (hget h i).
Proof. intros Hi Hj. now rewrite hget_hswap, Nat.eqb_refl by assumption. Qed.
Lemma key_hswap_o h i j k : i < length h -> j < length h -> k <> i -> k <> j ->
  key (hget (hswap h i j) k) = key (hget h k).
Proof.
  intros Hi Hj Hki Hkj. rewrite hget_hswap by assumption.
  now rewrite (proj2 (Nat.eqb_neq k j) Hkj), (proj2 (Nat.eqb_neq k i) Hki).
Qed.

Lemma hswap_perm h i j : i < length h -> j < length h ->
  Permutation (map ident (hswap h i j)) (map ident h).
Proof.
  intros Hi Hj. unfold hswap, hget. rewrite !map_set_nth, !ident_set_index, <- !(map_nth ident).
  apply lswap_perm; now rewrite map_length.
Qed.

Definition idx_ok (h : list pscore) : Prop :=
  forall k, k < length h -> ps_index (hget h k) = Z.of_nat k.

Lemma idx_ok_hswap h i j : i < length h -> j < length h -> idx_ok h -> idx_ok (hswap h i j).
Proof.
  intros Hi Hj H k Hk. rewrite length_hswap in Hk. rewrite hget_hswap by assumption.
  destruct (Nat.eqb_spec k j) as [->|]; [reflexivity|].
  destruct (Nat.eqb_spec k i) as [->|]; [reflexivity|]. now apply H.
Qed.

(* structural facts preserved by every heap routine; positions from m on are not touched *)
Record same (m : nat) (h h' : list pscore) : Prop := {
  same_len : length h' = length h;
  same_idx : idx_ok h -> idx_ok h';
  same_perm : Permutation (map ident h') (map ident h);
  same_out : forall k, m <= k -> hget h' k = hget h k }.

Lemma same_refl m h : same m h h.
Proof. split; auto. Qed.
Lemma same_trans m a b c : same m a b -> same m b c -> same m a c.
Proof.
  intros [L1 I1 P1 O1] [L2 I2 P2 O2]. split; [congruence|auto| |].
  - eapply perm_trans; eauto.
  - intros k Hk. now rewrite O2, O1.
Qed.
Lemma same_le m m' h h' : m <= m' -> same m h h' -> same m' h h'.
Proof. intros Hm [L I P O]. split; auto. intros k Hk. apply O. lia. Qed.
Lemma same_hswap m h i j : i < m -> j < m -> m <= length h -> same m h (hswap h i j).
Proof.
  intros Hi Hj Hm. split; [apply length_hswap|apply idx_ok_hswap; lia|apply hswap_perm; lia|].
  intros k Hk. rewrite hget_hswap by lia.
  destruct (Nat.eqb_spec k j); [lia|]. destruct (Nat.eqb_spec k i); [lia|]. reflexivity.
Qed.

(* The only place where the division is looked into: below, [par] is an atom for [lia]. *)
Definition par (k : nat) : nat := (k - 1) / 2.

Lemma par_lt k : 0 < k -> par k < k.
Proof. unfold par; lia. Qed.
Lemma par_le k : par k <= k.
Proof. unfold par; lia. Qed.
Lemma par_fix k : par k = k -> k = 0.
Proof. unfold par; lia. Qed.
Lemma par_l i : par (2 * i + 1) = i.
Proof. unfold par; lia. Qed.
Lemma par_r i : par (2 * i + 1 + 1) = i.
Proof. unfold par; lia. Qed.
Lemma par_children c i : 0 < c -> par c = i -> c = 2 * i + 1 \/ c = 2 * i + 1 + 1.
Proof. unfold par; lia. Qed.

Lemma pick_child_spec h j1 n : j1 < n ->
  let j := pick_child h j1 n in
  (j = j1 \/ (j = j1 + 1 /\ j1 + 1 < n)) /\
  kless (key (hget h j1)) (key (hget h j)) = false /\
  (j1 + 1 < n -> kless (key (hget h (j1 + 1))) (key (hget h j)) = false).
Proof.
  intros Hj1. unfold pick_child.
  destruct (Nat.ltb_spec (j1 + 1) n) as [Hlt|Hge]; cbn [andb].
  - destruct (pless (hget h (j1 + 1)) (hget h j1)) eqn:E; rewrite pless_kless in E.
    + split; [right; lia|]. split; [now apply kless_asym|]. intros _. apply kless_irrefl.
    + split; [left; reflexivity|]. split; [apply kless_irrefl|]. intros _. exact E.
  - split; [left; reflexivity|]. split; [apply kless_irrefl|]. lia.
Qed.

Lemma pick_child_range h j1 n : j1 < n -> j1 <= pick_child h j1 n < n.
Proof. intros Hj1. destruct (pick_child_spec h j1 n Hj1) as ([->|[-> ?]] & _); lia. Qed.

Lemma hup_same fuel : forall h j, j < length h -> same (S j) h (hup fuel h j).
Proof.
  induction fuel as [|f IH]; intros h j Hj; cbn [hup]; [apply same_refl|]. fold (par j).
  destruct (_ || _); [apply same_refl|].
  pose proof (par_le j) as Hi.
  eapply same_trans; [apply (same_hswap _ h (par j) j); lia|].
  apply (same_le (S (par j))); [lia|]. apply IH. rewrite length_hswap. lia.
Qed.

Lemma hdown_same fuel : forall h i n, n <= length h -> same n h (fst (hdown fuel h i n)).
Proof.
  induction fuel as [|f IH]; intros h i n Hn; cbn [hdown]; [apply same_refl|].
  destruct (Nat.leb_spec n (2 * i + 1)) as [|Hc]; [apply same_refl|].
  pose proof (pick_child_range h _ n Hc) as Hj. set (j := pick_child h _ n) in *.
  destruct (negb _); [apply same_refl|].
  eapply same_trans; [apply (same_hswap n h i j); lia|].
  apply IH; now rewrite length_hswap.
Qed.

Lemma hdown_ge fuel : forall h i n, i <= snd (hdown fuel h i n).
Proof.
  induction fuel as [|f IH]; intros h i n; cbn [hdown]; [cbn; lia|].
  destruct (Nat.leb_spec n (2 * i + 1)) as [|Hc]; [cbn; lia|].
  pose proof (pick_child_range h _ n Hc) as Hj. set (j := pick_child h _ n) in *.
  destruct (negb _); [cbn; lia|].
  specialize (IH (hswap h i j) j n). lia.
Qed.

(* the sequence of heap.Fix: down, and up if down did not move the element (fuel and range as in
   heap_fix and heap_remove) *)
Definition fix_at (h : list pscore) (i n : nat) : list pscore :=
  let r := hdown (S n) h i n in if i <? snd r then fst r else hup (S n) (fst r) i.

Lemma fix_at_same h i n : n <= length h -> i < n -> same n h (fix_at h i n).
Proof.
  intros Hn Hi. unfold fix_at. pose proof (hdown_same (S n) h i n Hn) as S1.
  destruct (i <? _); [exact S1|].
  eapply same_trans; [exact S1|]. apply (same_le (S i)); [lia|]. apply hup_same. rewrite (same_len _ _ _ S1). lia.
Qed.

Lemma heap_pop_remove h : heap_pop h = heap_remove h 0.
Proof.
  destruct h as [|y [|z h0]]; [reflexivity|reflexivity|].
  unfold heap_pop, heap_remove. set (h := y :: z :: h0). set (n := length h - 1).
  assert (Hn : n = S (length h0)) by (unfold n, h; cbn [length]; lia).
  replace (0 =? Z.of_nat n)%Z with false by lia.
  replace ((0 <=? 0)%Z && (0 <? Z.of_nat n)%Z) with true by lia.
  change (Z.to_nat 0) with 0. destruct (hdown _ _ 0 n) as [h2 i2].
  now destruct (0 <? i2).
Qed.

Section Generic.
Variable ek : Z * Z -> Z * Z -> Prop.
Hypothesis ek_le : forall a b, kless b a = false -> ek a b.
Hypothesis ek_trans : forall a b c, ek a b -> ek b c -> ek a c.

Lemma ek_lt a b : kless a b = true -> ek a b.
Proof. intros H; apply ek_le, kless_asym, H. Qed.

Definition edge (h : list pscore) (k : nat) : Prop := ek (key (hget h (par k))) (key (hget h k)).
Definition valid (h : list pscore) (n : nat) : Prop := forall k, 0 < k < n -> edge h k.

Lemma valid_ext h h' n : (forall k, k < n -> hget h' k = hget h k) -> valid h n -> valid h' n.
Proof.
  intros He Hv k Hk. pose proof (par_lt k). unfold edge. rewrite !He by lia. now apply Hv.
Qed.

Lemma valid_le h n m : m <= n -> valid h n -> valid h m.
Proof. intros Hm Hv k Hk. apply Hv. lia. Qed.

Lemma valid_root h n : (forall a, ek a a) -> valid h n -> forall k, k < n -> ek (key (hget h 0)) (key (hget h k)).
Proof.
  intros Hr Hv k. induction k as [k IH] using lt_wf_ind. intros Hk.
  destruct k as [|k]; [apply Hr|]. pose proof (par_lt (S k)).
  eapply ek_trans; [apply (IH (par (S k))); lia|]. apply (Hv (S k)). lia.
Qed.

(* the heap order holds except at the edge into j; the parent of j is in order with j's children *)
Definition up_pre (h : list pscore) (j n : nat) : Prop :=
  (forall k, 0 < k < n -> k <> j -> edge h k) /\
  (0 < j -> forall c, 0 < c < n -> par c = j -> ek (key (hget h (par j))) (key (hget h c))).

Lemma hup_valid fuel : forall h j n, n <= length h -> j < n -> j < fuel -> up_pre h j n ->
  valid (hup fuel h j) n.
Proof.
  induction fuel as [|f IH]; intros h j n Hn Hj Hf [Ha Hb]; [lia|].
  cbn [hup]. fold (par j). set (i := par j) in *.
  destruct (Nat.eqb_spec i j) as [E0|E0]; cbn [orb].
  { intros k Hk. apply Ha; [exact Hk|]. apply par_fix in E0. lia. }
  destruct (pless (hget h j) (hget h i)) eqn:E; cbn [negb]; rewrite pless_kless in E.
  2:{ intros k Hk. destruct (Nat.eq_dec k j) as [->|Hkj]; [apply ek_le, E|now apply Ha]. }
  assert (Hij : i < j) by (pose proof (par_le j); fold i in H; lia).
  assert (Hil : i < length h) by lia. assert (Hjl : j < length h) by lia.
  apply IH; [now rewrite length_hswap|lia|lia|].
  split.
  - intros k Hk Hki. unfold edge.
    destruct (Nat.eq_dec k j) as [->|Hkj].
    { fold i. rewrite key_hswap_l, key_hswap_r by assumption. now apply ek_lt. }
    rewrite (key_hswap_o h i j k) by assumption.
    specialize (Ha k Hk Hkj). unfold edge in Ha.
    destruct (Nat.eq_dec (par k) i) as [Es|Es].
    { rewrite Es in *. rewrite key_hswap_l by assumption. eapply ek_trans; [apply ek_lt, E|exact Ha]. }
    destruct (Nat.eq_dec (par k) j) as [Ec|Ec].
    { rewrite Ec, key_hswap_r by assumption. apply Hb; [lia|exact Hk|exact Ec]. }
    rewrite key_hswap_o by assumption. exact Ha.
  - intros Hi c Hc Hpc. pose proof (par_lt i Hi). pose proof (par_lt c).
    assert (Ei : edge h i) by (apply Ha; lia).
    rewrite (key_hswap_o h i j (par i)) by (assumption || lia).
    destruct (Nat.eq_dec c j) as [->|Hcj].
    { rewrite key_hswap_r by assumption. exact Ei. }
    rewrite key_hswap_o by (assumption || lia). eapply ek_trans; [exact Ei|]. rewrite <- Hpc. apply Ha; lia.
Qed.

Lemma heap_push_valid h x : valid h (length h) -> valid (heap_push h x) (S (length h)).
Proof.
  intros Hv. unfold heap_push.
  apply hup_valid; [rewrite app_length; cbn; lia|lia|lia|].
  split.
  - intros k Hk Hkn. pose proof (par_lt k). unfold edge, hget. rewrite !app_nth1 by lia. apply Hv. lia.
  - intros _ c Hc Hp. pose proof (par_lt c). lia.
Qed.

(* what heap.Fix and down expect around position i: the heap order holds on every edge that does
   not touch i, and the parent of i is in order with i's children *)
Definition fix_pre (h : list pscore) (i n : nat) : Prop :=
  (forall k, 0 < k < n -> k <> i -> par k <> i -> edge h k) /\
  (0 < i -> forall c, 0 < c < n -> par c = i -> ek (key (hget h (par i))) (key (hget h c))).

Lemma fix_pre_changed h h' i n : i < n ->
  (forall k, k < n -> k <> i -> key (hget h' k) = key (hget h k)) -> valid h n -> fix_pre h' i n.
Proof.
  intros Hi He Hv. split.
  - intros k Hk Hki Hpk. pose proof (par_lt k). unfold edge. rewrite !He by lia. now apply Hv.
  - intros Hi0 c Hc Hp. pose proof (par_lt i). pose proof (par_lt c). rewrite !He by lia.
    eapply ek_trans; [apply (Hv i); lia|]. rewrite <- Hp. apply Hv. lia.
Qed.

Lemma hdown_valid fuel : forall h i n, n <= length h -> i < n -> n <= i + fuel -> fix_pre h i n ->
  (snd (hdown fuel h i n) = i -> fst (hdown fuel h i n) = h /\ forall c, 0 < c < n -> par c = i -> edge h c) /\
  (snd (hdown fuel h i n) <> i -> valid (fst (hdown fuel h i n)) n).
Proof.
  induction fuel as [|f IH]; intros h i n Hn Hi Hf [Ha Hb]; [lia|].
  cbn [hdown].
  destruct (Nat.leb_spec n (2 * i + 1)) as [Hle|Hgt].
  { cbn [fst snd]. split; [|congruence]. intros _. split; [reflexivity|].
    intros c Hc Hp. destruct (par_children c i (proj1 Hc) Hp); lia. }
  pose proof (pick_child_spec h (2 * i + 1) n Hgt) as Hpc. cbv zeta in Hpc.
  set (j := pick_child h (2 * i + 1) n) in *.
  destruct Hpc as (Hj & Hm1 & Hm2).
  assert (Hpj : par j = i) by (destruct Hj as [->|[-> _]]; [apply par_l|apply par_r]).
  assert (Hjn : i < j < n) by lia.
  assert (Hil : i < length h) by lia. assert (Hjl : j < length h) by lia.
  assert (Hmin : forall c, 0 < c < n -> par c = i -> kless (key (hget h c)) (key (hget h j)) = false).
  { intros c Hc Hp. destruct (par_children c i (proj1 Hc) Hp) as [->| ->]; [exact Hm1|apply Hm2; lia]. }
  destruct (pless (hget h j) (hget h i)) eqn:E; cbn [negb]; rewrite pless_kless in E.
  2:{ cbn [fst snd]. split; [|congruence]. intros _. split; [reflexivity|].
      intros c Hc Hp. unfold edge. rewrite Hp. apply ek_le.
      eapply kle_trans; [exact E|]. now apply Hmin. }
  assert (Hpre : fix_pre (hswap h i j) j n).
  { split.
    - intros k Hk Hkj Hpk. unfold edge.
      destruct (Nat.eq_dec k i) as [->|Hki].
      { pose proof (par_lt i). rewrite key_hswap_l, key_hswap_o by (assumption || lia). apply Hb; [lia|lia|exact Hpj]. }
      rewrite (key_hswap_o h i j k) by assumption.
      destruct (Nat.eq_dec (par k) i) as [Es|Es].
      { rewrite Es, key_hswap_l by assumption. apply ek_le. now apply Hmin. }
      rewrite key_hswap_o by assumption. apply Ha; assumption.
    - intros _ c Hc Hp. pose proof (par_lt c). rewrite Hpj, key_hswap_l, key_hswap_o by (assumption || lia).
      rewrite <- Hp. apply Ha; lia. }
  specialize (IH (hswap h i j) j n).
  rewrite length_hswap in IH. specialize (IH Hn (proj2 Hjn) ltac:(lia) Hpre).
  pose proof (hdown_ge f (hswap h i j) j n) as Hge.
  destruct IH as [IH1 IH2].
  split; [intros Hs; lia|]. intros _.
  destruct (Nat.eq_dec (snd (hdown f (hswap h i j) j n)) j) as [Es|Es]; [|now apply IH2].
  destruct (IH1 Es) as [Eh Hout]. rewrite Eh.
  intros k Hk.
  destruct (Nat.eq_dec (par k) j) as [Epk|Epk]; [now apply Hout|].
  destruct (Nat.eq_dec k j) as [->|Hkj].
  { unfold edge. rewrite Hpj, key_hswap_l, key_hswap_r by assumption. now apply ek_lt. }
  apply (proj1 Hpre); assumption.
Qed.

Lemma fix_at_valid h i n : n <= length h -> i < n -> fix_pre h i n -> valid (fix_at h i n) n.
Proof.
  intros Hn Hi Hpre. unfold fix_at.
  pose proof (hdown_valid (S n) h i n Hn Hi ltac:(lia) Hpre) as [H1 H2].
  pose proof (hdown_ge (S n) h i n) as Hge.
  destruct (Nat.ltb_spec i (snd (hdown (S n) h i n))) as [Hlt|Hnlt].
  - apply H2. lia.
  - destruct (H1 ltac:(lia)) as [Eh Hout]. rewrite Eh.
    apply hup_valid; [exact Hn|exact Hi|lia|].
    destruct Hpre as [Ha Hb]. split.
    + intros k Hk Hki. destruct (Nat.eq_dec (par k) i) as [Ep|Ep]; [now apply Hout|now apply Ha].
    + exact Hb.
Qed.

Lemma heap_push_spec h x :
  length (heap_push h x) = S (length h) /\
  (idx_ok h -> idx_ok (heap_push h x)) /\
  Permutation (map ident (heap_push h x)) (ident x :: map ident h) /\
  (valid h (length h) -> valid (heap_push h x) (S (length h))).
Proof.
  assert (Hs : same (S (length h)) (h ++ [set_index x (Z.of_nat (length h))]) (heap_push h x)).
  { unfold heap_push. apply hup_same. rewrite app_length. cbn. lia. }
  destruct Hs as [L I P _]. rewrite app_length in L. cbn [length] in L.
  split; [lia|]. split.
  - intros Hi. apply I. intros k Hk. rewrite app_length in Hk. cbn [length] in Hk. unfold hget.
    destruct (Nat.eq_dec k (length h)) as [->|Hne].
    + rewrite app_nth2 by lia. rewrite Nat.sub_diag. reflexivity.
    + rewrite app_nth1 by lia. apply Hi. lia.
  - split.
    + eapply perm_trans; [exact P|]. rewrite map_app. cbn [map]. rewrite ident_set_index.
      apply Permutation_sym, Permutation_cons_append.
    + now apply heap_push_valid.
Qed.

Lemma heap_fix_spec h i : (0 <= i < Z.of_nat (length h))%Z ->
  exists h', heap_fix h i = Some h' /\ same (length h) h h' /\
    (fix_pre h (Z.to_nat i) (length h) -> valid h' (length h)).
Proof.
  intros Hi. exists (fix_at h (Z.to_nat i) (length h)). split; [|split].
  - unfold heap_fix, fix_at.
    destruct (Z.eqb_spec i (-1)); [lia|]. destruct (Nat.eqb_spec (length h) 0); [lia|].
    destruct (Z.leb_spec 0 i); [|lia]. destruct (Z.ltb_spec i (Z.of_nat (length h))); [|lia].
    rewrite andb_false_r. cbn [orb andb].
    destruct (hdown _ h _ _) as [h1 i1]. cbn [fst snd]. now destruct (_ <? i1).
  - apply fix_at_same; lia.
  - apply fix_at_valid; lia.
Qed.

Lemma raw_pop_spec h n : length h = S n ->
  exists h', raw_pop h = (h', set_index (hget h n) (-1)) /\ length h' = n /\
    (forall k, k < n -> hget h' k = hget h k) /\
    Permutation (map ident h) (ident (hget h n) :: map ident h') /\
    (idx_ok h -> idx_ok h').
Proof.
  intros L. destruct (exists_last (l := h)) as (h' & x & ->); [now destruct h|].
  rewrite app_length, Nat.add_comm in L. injection L as L. subst n.
  assert (Ek : forall k, k < length h' -> hget (h' ++ [x]) k = hget h' k) by (intros; now apply app_nth1).
  assert (Ex : hget (h' ++ [x]) (length h') = x) by (unfold hget; now rewrite nth_middle).
  exists h'. unfold raw_pop. rewrite removelast_last, last_last, Ex.
  split; [reflexivity|]. split; [reflexivity|]. split; [intros; now rewrite Ek|].
  split; [rewrite map_app; apply Permutation_sym, Permutation_cons_append|].
  intros Hi k Hk. rewrite <- Ek by exact Hk. apply Hi. rewrite app_length. lia.
Qed.

Lemma heap_remove_spec h i : (0 <= i < Z.of_nat (length h))%Z ->
  exists h' x, heap_remove h i = Some (h', x) /\
    length h' = length h - 1 /\
    (idx_ok h -> idx_ok h') /\
    Permutation (map ident h) (ident x :: map ident h') /\
    ident x = ident (hget h (Z.to_nat i)) /\ ps_index x = (-1)%Z /\
    (valid h (length h) -> valid h' (length h - 1)).
Proof.
  intros Hi. unfold heap_remove. destruct h as [|y h0]; [cbn in Hi; lia|].
  set (h := y :: h0) in *. set (n := length h - 1).
  assert (Hlen : length h = S n) by (unfold n, h; cbn [length]; lia).
  rewrite Hlen. replace (S n - 1) with n by lia.
  destruct (Z.eqb_spec i (Z.of_nat n)) as [Ei|Ei].
  - destruct (raw_pop_spec h n Hlen) as (h' & E & L & Ek & P & I). rewrite E.
    exists h', (set_index (hget h n) (-1)).
    rewrite Ei, Nat2Z.id. repeat (split; [assumption || reflexivity|]).
    intros Hv. apply (valid_ext h); [exact Ek|]. eapply valid_le; [|exact Hv]. lia.
  - destruct ((0 <=? i)%Z && (i <? Z.of_nat n)%Z) eqn:E1; [|lia].
    set (i' := Z.to_nat i). assert (Hi' : i' < n) by (unfold i'; lia).
    set (h1 := hswap h i' n).
    assert (L1 : length h1 = S n) by (unfold h1; now rewrite length_hswap).
    assert (S2 : same n h1 (fix_at h1 i' n)) by (apply fix_at_same; lia).
    assert (S3 : same (S n) h (fix_at h1 i' n)).
    { eapply same_trans; [apply (same_hswap (S n) h i' n); lia|]. apply (same_le n); [lia|exact S2]. }
    assert (E3 : (let '(h2, i2) := hdown (S n) h1 i' n in
                  Some (raw_pop (if i' <? i2 then h2 else hup (S n) h2 i'))) = Some (raw_pop (fix_at h1 i' n))).
    { unfold fix_at. now destruct (hdown _ h1 _ _). }
    rewrite E3. set (h3 := fix_at h1 i' n) in *.
    destruct (raw_pop_spec h3 n) as (h' & E & L & Ek & P & I); [now rewrite (same_len _ _ _ S3)|].
    assert (El : hget h3 n = set_index (hget h i') (Z.of_nat n)).
    { rewrite (same_out _ _ _ S2) by lia. unfold h1. rewrite hget_hswap by lia.
      now rewrite Nat.eqb_refl. }
    rewrite E, El in *. exists h', (set_index (set_index (hget h i') (Z.of_nat n)) (-1)).
    split; [reflexivity|]. split; [exact L|]. split; [intros Hx; apply I, S3, Hx|].
    split; [eapply perm_trans; [apply Permutation_sym, (same_perm _ _ _ S3)|exact P]|].
    split; [reflexivity|]. split; [reflexivity|].
    intros Hv. apply (valid_ext h3); [exact Ek|].
    apply fix_at_valid; [lia|exact Hi'|].
    apply (fix_pre_changed h); [exact Hi'| |eapply valid_le; [|exact Hv]; lia].
    intros k Hk Hki. apply key_hswap_o; lia.
Qed.

Lemma heap_pop_spec h : h <> [] ->
  exists h' x, heap_pop h = Some (h', x) /\
    length h' = length h - 1 /\
    (idx_ok h -> idx_ok h') /\
    Permutation (map ident h) (ident x :: map ident h') /\
    ident x = ident (hget h 0) /\ ps_index x = (-1)%Z /\
    (valid h (length h) -> valid h' (length h - 1)).
Proof.
  intros Hne. rewrite heap_pop_remove. apply (heap_remove_spec h 0).
  destruct h; [congruence|cbn [length]; lia].
Qed.

End Generic.
