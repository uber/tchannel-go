(* The closerace entry point (Model/CloseRace.v): on the whole domain of the engine the model's
   observable EQUALS the specification written from the property statement, and the entry point
   only visits reachable states of the connection system (the states the C07 theorems are about).
   This file depends on Gen/GenConsts.v only (not on Gen/GenClose.v): it still builds when a
   statement tie of the close decisions is broken, so that the driver can report a disagreement
   between the implementation and run_closerace as a concrete failing input. *)
From Coq Require Import ZArith List Bool Lia.
From Verif Require Import Base.Wrap Base.Wire Gen.GenConsts Model.CloseKernel Model.ConnClose Model.CloseRace
  Proofs.CloseKernelP Proofs.ConnCloseP Proofs.ConnCloseXP.
Import ListNotations.
Local Open Scope Z_scope.

(* the numbers the specification uses are the protocol's *)
Lemma race_spec_numbers : sA = 1 /\ sCl = 4 /\ eDeclined = 4.
Proof. repeat split; reflexivity. Qed.

(* ---------- model = specification ---------- *)
(* kinds other than 2 do not look at code and pos *)
Lemma race_other_kinds :
  forallb (fun kind => forallb (fun k => bytes_eqb (run_closerace [kind; k; 0; 0]) (spec_closerace kind k 0)) [0; 1; 2; 3])
          [0; 1; 3; 4; 5; 6; 7; 8; 9] = true.
Proof. vm_compute. reflexivity. Qed.

(* Kind 2.  The error code enters the schedule only when the target's handler returns, and no step
   of the model looks at it except the test code_ok of the handler's first step: with that step
   taken by a lemma, the rest of the schedule is evaluated with the code left a variable. *)
Definition race2_before (k pos : Z) : sys :=
  let others := race_others (Z.to_nat k) in
  let before := firstn (Z.to_nat pos) others in
  race_finish_all (race_op (race_dispatch (init false) (before ++ [race_target] ++ skipn (Z.to_nat pos) others)) TCloser 0)
                  before.

Definition race2_after (k pos code : Z) (s : sys) : sys :=
  race_finish_all (race_finish s race_target code) (skipn (Z.to_nat pos) (race_others (Z.to_nat k))).

Lemma race_others_in : forall n id, In id (race_others n) -> 100 < id <= 100 + Z.of_nat n.
Proof.
  induction n as [|n IH]; intros id H; [destruct H|]. cbn [race_others] in H. apply in_app_or in H.
  destruct H as [H|[<-|[]]]; [specialize (IH id H)|]; lia.
Qed.

Lemma fold_left_ext_in : forall (A B : Type) (f g : A -> B -> A) l a,
  (forall a b, In b l -> f a b = g a b) -> fold_left f l a = fold_left g l a.
Proof.
  intros A B f g l. induction l as [|b l IH]; intros a H; [reflexivity|]. cbn [fold_left].
  rewrite H by (left; reflexivity). apply IH. intros a' b' Hb. apply H. right. exact Hb.
Qed.

Lemma race_finish_others : forall code l s, (forall id, In id l -> id <> race_target) ->
  fold_left (fun s id => race_finish s id (if id =? race_target then code else 0)) l s = race_finish_all s l.
Proof.
  intros code l s H. apply fold_left_ext_in. intros a id Hi.
  replace (id =? race_target) with false; [reflexivity|]. symmetry. apply Z.eqb_neq, H, Hi.
Qed.

Lemma race_state_kind2 : forall k code pos, 0 <= k <= 3 ->
  race_state 2 k code pos = race2_after k pos code (race2_before k pos).
Proof.
  intros k code pos Hk. unfold race_state, race2_after, race2_before. cbn [Z.eqb Pos.eqb orb].
  assert (Ho : forall id, In id (race_others (Z.to_nat k)) -> id <> race_target).
  { intros id H. apply race_others_in in H. unfold race_target. lia. }
  rewrite <- (firstn_skipn (Z.to_nat pos) (race_others (Z.to_nat k))) in Ho.
  rewrite !fold_left_app. cbn [fold_left]. rewrite Z.eqb_refl.
  rewrite !race_finish_others by (intros id H; apply Ho, in_or_app; auto). reflexivity.
Qed.

Definition race2_cases : list (Z * Z) := [(0,0); (1,0); (1,1); (2,0); (2,1); (2,2); (3,0); (3,1); (3,2); (3,3)].

Lemma race2_cases_in : forall k pos, 0 <= k <= 3 -> 0 <= pos <= k -> In (k, pos) race2_cases.
Proof.
  intros k pos Hk Hpos. assert (Ik : In k [0; 1; 2; 3]) by (cbn; lia). assert (Ip : In pos [0; 1; 2; 3]) by (cbn; lia).
  cbn [In] in Ik, Ip. repeat destruct Ik as [<-|Ik]; try contradiction;
    repeat destruct Ip as [<-|Ip]; try contradiction; try lia; cbn; tauto.
Qed.

(* the target's handler returns a normal response *)
Lemma race_kind2_ok : forall k pos, In (k, pos) race2_cases ->
  race_obs (race2_after k pos 0 (race2_before k pos)) = [4; 1; 0; 0].
Proof.
  intros k pos H. cbn [In race2_cases] in H.
  repeat (destruct H as [H|H]; [injection H as <- <-; vm_compute; reflexivity|]). destruct H.
Qed.

(* the handler thread after its first step, the SendSystemError, run on to its end *)
Definition race_op_sent (s : sys) (id code : Z) : sys :=
  let tid := length (thr s) in
  fst (run_to 63 (mkSys (send_err (sh s) tid id code) (thr s ++ [PErrRm id code])) tid 0 false).

Lemma race_op_err : forall s id code, code_ok code = true ->
  race_op s (TFinInErr id code) 0 = race_op_sent s id code.
Proof.
  intros s id code H. unfold race_op, race_op_sent. cbn [step start_pc thr sh].
  assert (E : nth_error (thr s ++ [PErr id code]) (length (thr s)) = Some (PErr id code))
    by (rewrite nth_error_app2, Nat.sub_diag by lia; reflexivity).
  change 64%nat with (S 63). generalize 63%nat. intros f. cbn [run_to thr]. rewrite E.
  cbn [pc_class Z.eqb negb andb step thr sh]. rewrite E. cbn [tstep]. rewrite H, upd_app_last. reflexivity.
Qed.

(* the handler answers with a system error: [code] is a variable of the evaluation; the only place
   where it is looked at afterwards is the test "is this thread's outcome a ping res" of the observable *)
Lemma race_kind2_err : forall k pos, In (k, pos) race2_cases -> forall code,
  race_obs (race_finish_all (race_op (race_op_sent (race2_before k pos) race_target code) (TExpire race_target) 0)
                            (skipn (Z.to_nat pos) (race_others (Z.to_nat k))))
  = [4; 1; 1; race_target; code; zb ((oErrBase + code =? oPong) || false)].
Proof.
  intros k pos H code. cbn [In race2_cases] in H.
  repeat (destruct H as [H|H]; [injection H as <- <-; vm_compute; reflexivity|]). destruct H.
Qed.

(* MODEL = SPECIFICATION on the domain of the engine: every scenario kind, 0..3 other calls in
   flight, every one-byte error code, every position of the target in the completion order. *)
Theorem closerace_spec : forall kind k code pos rest,
  0 <= kind <= 9 -> 0 <= k <= 3 -> 0 <= code <= 255 -> 0 <= pos <= k ->
  run_closerace (kind :: k :: code :: pos :: rest) = spec_closerace kind k code.
Proof.
  intros kind k code pos rest Hkind Hk Hcode Hpos.
  destruct (Z.eq_dec kind 2) as [->|E].
  - pose proof (race2_cases_in k pos Hk Hpos) as Hin.
    unfold run_closerace, spec_closerace. cbn [Z.eqb Pos.eqb Z.leb Z.compare Pos.compare Pos.compare_cont andb].
    rewrite race_state_kind2 by exact Hk. destruct (Z.eqb_spec code 0) as [->|Hnz]; [apply race_kind2_ok; exact Hin|].
    unfold race2_after, race_finish. apply Z.eqb_neq in Hnz. rewrite Hnz.
    rewrite race_op_err by (unfold code_ok; apply andb_true_iff; split; apply Z.leb_le; lia).
    rewrite (race_kind2_err k pos Hin). repeat f_equal.
    destruct (Z.eqb_spec (oErrBase + code) oPong) as [Ep|_]; [unfold oErrBase, oPong in Ep; lia|reflexivity].
  - assert (Ik : In k [0; 1; 2; 3]) by (cbn; lia).
    assert (Ikind : In kind [0; 1; 3; 4; 5; 6; 7; 8; 9]) by (cbn; lia).
    pose proof race_other_kinds as H. rewrite forallb_forall in H. specialize (H kind Ikind).
    rewrite forallb_forall in H. specialize (H k Ik). apply bytes_eqb_eq in H.
    apply Z.eqb_neq in E. unfold run_closerace, race_state, spec_closerace in *. rewrite E in *. exact H.
Qed.

(* ---------- the entry point stays inside the reachable states ---------- *)
Lemma race_op_reach : forall relay s k m, Reach step (init relay) s -> Reach step (init relay) (race_op s k m).
Proof.
  intros relay s k m Hr. unfold race_op. destruct (step s (LSpawn k)) as [s1|] eqn:E; [|exact Hr].
  apply run_to_reach. eapply reach_step; eauto.
Qed.

Lemma race_fold_reach : forall relay (f : sys -> Z -> sys) ids s,
  (forall s id, Reach step (init relay) s -> Reach step (init relay) (f s id)) ->
  Reach step (init relay) s -> Reach step (init relay) (fold_left f ids s).
Proof.
  intros relay f ids. induction ids as [|id ids IH]; intros s Hf Hr; cbn [fold_left]; [exact Hr|].
  apply IH; [exact Hf|apply Hf; exact Hr].
Qed.

Lemma race_finish_reach : forall relay s id code, Reach step (init relay) s -> Reach step (init relay) (race_finish s id code).
Proof.
  intros relay s id code Hr. unfold race_finish. apply race_op_reach. destruct (code =? 0); apply race_op_reach; exact Hr.
Qed.

Theorem closerace_reachable : forall kind k code pos, Reach step (init false) (race_state kind k code pos).
Proof.
  intros kind k code pos.
  assert (H0 : Reach step (init false) (init false)) by (exists []; reflexivity).
  assert (Hd : forall s ids, Reach step (init false) s -> Reach step (init false) (race_dispatch s ids)).
  { intros s ids Hr. unfold race_dispatch. apply race_fold_reach; [|exact Hr]. intros; apply race_op_reach; assumption. }
  assert (Hf : forall s ids, Reach step (init false) s -> Reach step (init false) (race_finish_all s ids)).
  { intros s ids Hr. unfold race_finish_all. apply race_fold_reach; [|exact Hr]. intros; apply race_finish_reach; assumption. }
  unfold race_state.
  destruct ((kind =? 0) || (kind =? 1)).
  - apply Hf. unfold race_resume. apply run_to_reach. apply race_op_reach. apply race_op_reach. apply Hd. exact H0.
  - destruct (kind =? 2).
    + apply race_fold_reach; [intros; apply race_finish_reach; assumption|].
      apply race_op_reach. apply Hd. exact H0.
    + destruct (kind =? 3).
      * apply Hf. apply race_op_reach. apply race_op_reach. apply Hd. exact H0.
      * destruct (kind =? 4).
        -- repeat apply race_op_reach. exact H0.
        -- destruct ((kind =? 6) || (kind =? 8)).
           ++ apply race_fold_reach; [intros; apply race_op_reach; assumption|].
              unfold race_resume. apply run_to_reach. apply race_op_reach. apply race_op_reach.
              apply race_fold_reach; [intros; apply race_op_reach; assumption|exact H0].
           ++ destruct ((kind =? 7) || (kind =? 9)).
              ** apply Hf. unfold race_resume. apply run_to_reach. apply race_op_reach. apply race_op_reach. apply Hd. exact H0.
              ** apply Hf. apply race_op_reach. apply Hd. exact H0.
Qed.
