(* Relay model, C09 per call: a call none of whose goroutines is still running and whose timers
   are all disarmed has been ended exactly once, and once the tomb GC of its items has run the
   relay holds nothing for it -- whatever the rest of the relay is doing (other calls may be in
   flight, other timers armed).  The globally quiescent statements of RelayThmP are the special
   case "every call is done". *)
From Coq Require Import ZArith List Bool Lia.
From Verif Require Import Base.Wrap Gen.GenConsts Gen.GenFrame Model.RelayItems Spec.RelayAccount
  Proofs.RelayAssocP Proofs.RelayCoreP Proofs.RelayInv9P Proofs.RelayTimerP Proofs.RelayThmP Proofs.RelaySilentP
  Model.RelayCalm Proofs.RelayCalmP.
Import ListNotations.
Local Open Scope Z_scope.

(* the table keys an instruction has looked up or is going to operate on *)
Definition keys_of (j : instr) : list key :=
  match j with
  | INcChk _ _ _ own _ => [own]
  | IRcvGet r => [r_own r; rcv_key r]
  | IRcvChk r rk _ | IRcvEnq r rk _ => [r_own r; rk]
  | IFailGet t _ | IEntomb t _ | IDelete t _ => [t]
  | _ => []
  end.

Definition key_of_call (st : state) (c : Z) (t : key) : bool :=
  match klookup t (items st) with Some it => it_call it =? c | None => false end.

(* instruction j of some goroutine still refers to call c: it carries c, or one of its keys is
   the key of an item of c, or it is the OnTimer run of a timer of an item of c *)
Definition refers (st : state) (c : Z) (j : instr) : bool :=
  oncall c j || existsb (key_of_call st c) (keys_of j) ||
  match j with
  | ITimerRun tm => match zlookup tm (timers st) with Some x => key_of_call st c (tm_key x) | None => false end
  | _ => false
  end.

(* call c is done: no goroutine refers to it any more and none of its items has an armed timer *)
Definition call_done (st : state) (c : Z) : Prop :=
  (forall th code j, In (th, code) (threads st) -> In j code -> refers st c j = false) /\
  (forall t it x, In (t, it) (items st) -> it_call it = c -> zlookup (it_tm it) (timers st) = Some x -> tm_armed x = false).

Lemma quiescent_call_done : forall st c, quiescent st -> call_done st c.
Proof.
  intros st c [Hth Harm]. split.
  - intros th code j Hin. rewrite Hth in Hin. contradiction.
  - intros t it x _ _ Hx. eapply Harm. exact Hx.
Qed.

Lemma owes_keys : forall j t, In t (owes j) -> In t (keys_of j).
Proof.
  intros j t H. unfold owes in H. apply in_app_or in H. destruct H as [H|H].
  - destruct j; cbn in *; try contradiction.
    + destruct g as [[it [|]]|]; try contradiction. destruct (fin_of f && negb (it_tomb it)); [exact H|contradiction].
    + destruct (fin_of (r_f r)); [|contradiction]. destruct H as [<-|[]]. left. reflexivity.
    + apply in_app_or in H. destruct H as [H|H].
      * destruct (fin_of (r_f r)); [|contradiction]. destruct H as [<-|[]]. left. reflexivity.
      * destruct g as [[it [|]]|]; try contradiction. destruct (fin_of (r_f r) && negb (it_tomb it)); [|contradiction].
        destruct H as [<-|[]]. right. left. reflexivity.
    + destruct (fin_of (r_f r)); [exact H|contradiction].
    + destruct s; [exact H|contradiction].
    + exact H.
  - destruct j; try contradiction. exact H.
Qed.

Lemma refers_key : forall st c j t it, In t (keys_of j) -> klookup t (items st) = Some it -> it_call it = c -> refers st c j = true.
Proof.
  intros st c j t it Ht Hl Hc. unfold refers. apply orb_true_iff. left. apply orb_true_iff. right.
  apply existsb_exists. exists t. split; [exact Ht|]. unfold key_of_call. rewrite Hl. apply Z.eqb_eq. exact Hc.
Qed.

Lemma call_done_tombs : forall st c, Inv st -> TInv st -> call_done st c ->
  forall t it, In (t, it) (items st) -> it_call it = c -> it_tomb it = true.
Proof.
  intros st c HI HT [Href Harm] t it Hin Hc. destruct (it_tomb it) eqn:Et; [reflexivity|]. exfalso.
  pose proof (in_lookup key_eqb key_eqb_ok _ _ _ (inv_items_nd _ HI) Hin) as Hl.
  destruct (t_oblig _ HT _ _ Hin Et) as (x&Hx&[A|[(code&Hcode&Hp)|(_&th&code&j&Hcode&Hj&Ho)]]).
  - rewrite (Harm _ _ _ Hin Hc Hx) in A. discriminate.
  - destruct (t_item _ HT _ _ Hin) as (y&Hy&Hk&_). rewrite Hx in Hy. inversion Hy. subst y.
    destruct Hp as [->|(o&rest&->)].
    + assert (Hr : refers st c (ITimerRun (it_tm it)) = true).
      { unfold refers. apply orb_true_iff. right. rewrite Hx, Hk. unfold key_of_call. rewrite Hl. apply Z.eqb_eq. exact Hc. }
      rewrite (Href _ _ _ Hcode (or_introl eq_refl)) in Hr. discriminate.
    + assert (Hr : refers st c (IEntomb t (FromTimeout o)) = true) by (eapply refers_key; [left; reflexivity|exact Hl|exact Hc]).
      rewrite (Href _ _ _ Hcode (or_introl eq_refl)) in Hr. discriminate.
  - assert (Hr : refers st c j = true) by (eapply refers_key; [apply owes_keys; exact Ho|exact Hl|exact Hc]).
    rewrite (Href _ _ _ Hcode Hj) in Hr. discriminate.
Qed.

Lemma tsum_zero : forall f ths, (forall th code j, In (th, code) ths -> In j code -> f j = 0) -> tsum f ths = 0.
Proof. intros f ths H. apply asum_zero. intros th code Hin. apply csum_zero. intros j Hj. eapply H; eassumption. Qed.

Lemma tok_oncall : forall c j, tok_i c j <> 0 -> oncall c j = true.
Proof.
  intros c j H. destruct j; cbn in *; try (exfalso; apply H; reflexivity);
    try (destruct (c0 =? c); [reflexivity|exfalso; apply H; reflexivity]).
  destruct x; try (exfalso; apply H; reflexivity). destruct (c0 =? c); [reflexivity|exfalso; apply H; reflexivity].
Qed.

(* a done call that was started has been ended exactly once *)
Theorem end_exactly_once_call : forall cf ls st c, run_fresh cf init ls = Some st -> call_done st c ->
  1 <= c < next_call st -> end_exactly_once cb_is_end c (cblog st).
Proof.
  intros cf ls st c H Hd Hc. destruct (reach_both _ _ _ H) as [HI HT]. unfold end_exactly_once. rewrite <- ends_count_end.
  pose proof (inv_total _ HI c) as Ht. unfold total in Ht.
  assert (Hth : tsum (tok_i c) (threads st) = 0).
  { apply tsum_zero. intros th code j Hin Hj. destruct (Z.eq_dec (tok_i c j) 0) as [Hz|Hnz]; [exact Hz|]. exfalso.
    destruct Hd as [Href _]. pose proof (Href _ _ _ Hin Hj) as Hr. unfold refers in Hr. rewrite (tok_oncall _ _ Hnz) in Hr. discriminate. }
  assert (Hit : asum (item_tok c) (items st) = 0).
  { apply asum_zero. intros t it Hin. unfold item_tok. destruct (it_call it =? c) eqn:Ec; [|reflexivity]. apply Z.eqb_eq in Ec.
    rewrite (call_done_tombs _ _ HI HT Hd _ _ Hin Ec), andb_false_r. reflexivity. }
  unfold started, b2z in Ht.
  assert (E : (1 <=? c) && (c <? next_call st) = true).
  { apply andb_true_iff. split; [apply Z.leb_le|apply Z.ltb_lt]; lia. }
  rewrite E in Ht. lia.
Qed.

(* ... and once the tomb GC timers of its items have fired the tables hold nothing for it *)
Theorem forgotten_call : forall cf ls st c, run_fresh cf init ls = Some st -> call_done st c ->
  (forall t it, In (t, it) (items st) -> it_call it = c -> ~ In t (gcs st)) ->
  forall t it, In (t, it) (items st) -> it_call it <> c.
Proof.
  intros cf ls st c H Hd Hg t it Hin Hc. destruct (reach_both _ _ _ H) as [HI HT].
  pose proof (call_done_tombs _ _ HI HT Hd _ _ Hin Hc) as Ht.
  destruct (t_tomb _ HT _ _ Hin Ht) as [Hgc _]. exact (Hg _ _ Hin Hc Hgc).
Qed.

(* the pending counter of a connection all of whose items are tombstones and on which no
   goroutine holds a unit is zero *)
Theorem pending_zero_conn : forall cf ls st k, run_fresh cf init ls = Some st ->
  (forall t it, In (t, it) (items st) -> key_conn t = k -> it_tomb it = true) ->
  (forall th code j, In (th, code) (threads st) -> In j code -> hold_i k j = 0) ->
  c_pending (get_conn st k) = 0.
Proof.
  intros cf ls st k H Hit Hth. destruct (reach_both _ _ _ H) as [HI _].
  change (get_conn st k) with (getc (conns st) k). rewrite (inv_pending _ HI k).
  rewrite (tsum_zero _ _ Hth).
  assert (G : asum (live_i k) (items st) = 0).
  { apply asum_zero. intros t it Hin. unfold live_i. destruct (key_conn t =? k) eqn:Ec; [|reflexivity]. apply Z.eqb_eq in Ec.
    rewrite (Hit t it Hin Ec). reflexivity. }
  rewrite G. reflexivity.
Qed.
