From Coq Require Import ZArith List Bool Lia.
From Verif Require Import Base.Wrap Base.Bytes Gen.GenConsts Gen.GenFrame Model.TypedBuf Model.Messages
  Model.Crc Model.Frag Model.FragWire Spec.Protocol Proofs.CodecP Proofs.FrameP.
Import ListNotations.
Local Open Scope Z_scope.

Lemma enc_chunks_cons c cs : enc_chunks (c :: cs) = (be 2 (zlen c) ++ c) ++ enc_chunks cs.
Proof. reflexivity. Qed.

(* each chunk occupies at least its two length bytes: the bytes left are fuel enough for the chunk loop *)
Lemma enc_chunks_length cs : (length cs <= length (enc_chunks cs))%nat.
Proof.
  induction cs as [|c cs IH]; [cbn; lia|]. rewrite enc_chunks_cons, !app_length, be_length. cbn [length]. lia.
Qed.

(* 65535: the layout of the chunks fits a frame (the frame size field is 16 bits), so the
   uint16 the loop takes of the bytes left does not wrap *)
Lemma parse_chunks_enc : forall cs fuel acc,
  zlen (enc_chunks cs) <= 65535 -> (length cs <= fuel)%nat ->
  parse_chunks fuel (rb (enc_chunks cs)) acc = (0, acc ++ cs).
Proof.
  induction cs as [|c cs IH]; intros fuel acc Hsz Hf.
  - cbn [enc_chunks flat_map]. destruct fuel; cbn; rewrite app_nil_r; reflexivity.
  - destruct fuel; [cbn in Hf; lia|].
    rewrite enc_chunks_cons in *. rewrite !zlen_app, zlen_be in Hsz. change (Z.of_nat 2) with 2 in Hsz.
    pose proof (zlen_nonneg c) as Hc. pose proof (zlen_nonneg (enc_chunks cs)) as He.
    cbn [parse_chunks].
    assert (Z1 : (zlen (rrem (rb ((be 2 (zlen c) ++ c) ++ enc_chunks cs))) >? 0) = true).
    { cbn [rrem rb]. rewrite !zlen_app, zlen_be. change (Z.of_nat 2) with 2. lia. }
    rewrite Z1. cbn [rerr rb negb andb].
    destruct (r_uint_consumes 2 (zlen c)) as [C _]; [apply u_ok_2; lia|].
    rewrite <- app_assoc. unfold r_u16. rewrite C.
    assert (Z2 : (zlen c >? wrapU 16 (zlen (rrem (rb (c ++ enc_chunks cs))))) = false).
    { cbn [rrem rb]. rewrite zlen_app. unfold wrapU. change (2 ^ 16) with 65536. rewrite Z.mod_small by lia. lia. }
    rewrite Z2.
    destruct (r_bytes_consumes c) as [B _]. unfold zlen at 1. rewrite Nat2Z.id. rewrite B.
    rewrite IH; [|lia|cbn in Hf; lia]. rewrite <- app_assoc. reflexivity.
Qed.

Lemma parse_frag_tail_enc fl f :
  0 <= f_ctype f < c_checksumCount -> zlen (f_ck f) = ChecksumSize (f_ctype f) ->
  zlen (enc_chunks (f_chunks f)) <= 65535 ->
  parse_frag_tail fl (rb ([f_ctype f] ++ f_ck f ++ enc_chunks (f_chunks f)))
  = (0, mkFrag (hasMoreFragments fl) (f_ctype f) (f_ck f) (f_chunks f)).
Proof.
  intros Ht Hck Hsz. unfold parse_frag_tail, c_checksumCount in *. cbn [app].
  rewrite r_u8_byte' by lia. cbn [rerr rb].
  replace (f_ctype f >=? 4) with false by lia. cbn [andb].
  destruct (r_bytes_consumes (f_ck f)) as [B _].
  replace (Z.to_nat (ChecksumSize (f_ctype f))) with (length (f_ck f)) by (rewrite <- Hck; unfold zlen; lia).
  rewrite B. cbn [rerr rb rrem].
  rewrite parse_chunks_enc; [reflexivity|exact Hsz|apply enc_chunks_length].
Qed.

Lemma more_flag_roundtrip (m : bool) : hasMoreFragments (if m then c_hasMoreFragmentsFlag else 0) = m.
Proof. destruct m; reflexivity. Qed.

(* a continuation fragment (CallReqContinue, no message header) laid out as the writer does
   it -- flags, checksum type, checksum bytes, chunks -- parses back to the same fragment *)
Theorem parse_frag_roundtrip : forall f,
  f_chunks f <> [] \/ True ->
  0 <= f_ctype f < c_checksumCount -> zlen (f_ck f) = ChecksumSize (f_ctype f) ->
  zlen (enc_chunks (f_chunks f)) <= 65535 ->
  parse_frag_payload c_messageTypeCallReqContinue (enc_frag_payload [] f) = (0, f).
Proof.
  intros f _ Ht Hck Hsz. unfold parse_frag_payload, enc_frag_payload.
  cbn [app]. rewrite r_u8_byte' by (unfold c_hasMoreFragmentsFlag; destruct (f_more f); lia).
  replace (c_messageTypeCallReqContinue =? c_messageTypeCallReq) with false by reflexivity.
  replace (c_messageTypeCallReqContinue =? c_messageTypeCallRes) with false by reflexivity.
  cbn [rerr rb]. rewrite (parse_frag_tail_enc _ f Ht Hck Hsz), more_flag_roundtrip. destruct f; reflexivity.
Qed.

From Verif Require Import Spec.FragSpec Spec.FragOk.

Lemma enc_chunks_size cs : zlen (enc_chunks cs) = chunks_size cs.
Proof.
  induction cs as [|c cs IH]; [reflexivity|].
  rewrite enc_chunks_cons, !zlen_app, zlen_be, IH. unfold chunks_size. cbn [fold_right]. change (Z.of_nat 2) with 2. lia.
Qed.

(* the room reqResWriter.newFragment leaves for chunks in a pooled frame: the payload
   capacity minus flags, message header, checksum type and checksum bytes *)
Definition frag_capacity (msghdr : list Z) (ck : ckst) : Z :=
  c_MaxFramePayloadSize - (1 + zlen msghdr + 1 + ck_size ck).

(* the size theorem of C01: a fragment whose chunks fit that room makes a frame, 16-byte
   header included, of at most MaxFrameSize = 65535 bytes *)
Theorem frame_bytes_bound : forall msghdr ck f,
  chunks_size (f_chunks f) <= frag_capacity msghdr ck -> zlen (f_ck f) = ck_size ck ->
  c_FrameHeaderSize + zlen (enc_frag_payload msghdr f) <= c_MaxFrameSize.
Proof.
  intros msghdr ck f H Hck. unfold frag_capacity, enc_frag_payload, c_MaxFramePayloadSize, c_FrameHeaderSize, c_MaxFrameSize in *.
  rewrite !zlen_app, enc_chunks_size, Hck. unfold zlen at 1 3. cbn [length]. lia.
Qed.

(* the state predicates of the hand models are the ones generated from the Go source *)
Lemma is_writing_generated s : is_writing s = isWritingArgument s.
Proof. reflexivity. Qed.
Lemma is_reading_generated s : is_reading s = isReadingArgument s.
Proof. reflexivity. Qed.
