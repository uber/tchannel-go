(* Relay model, C10: the response grammar on the caller's connection for runs WITHOUT OVERLAP.

   For every fresh-id schedule in which
     - no two goroutines overlap on a call ([no_overlap], Model/RelayCalm.v),
     - the frames a destination sends for a message id form a prefix of an accepted word of
       Spec/WireOk.v ([dest_ok]), and it does not answer an id the relay has not yet allocated
       on that connection ([causal]),
   what the relay enqueues towards the caller for a request (k, id) is a prefix of an accepted
   word: at most one terminal frame, nothing after it. *)
From Coq Require Import ZArith List Bool Lia.
From Verif Require Import Base.Wrap Gen.GenConsts Gen.GenFrame Model.RelayItems Model.RelayCalm Spec.WireOk Proofs.WireOkP
  Proofs.RelayAssocP Proofs.RelayCoreP Proofs.RelayInv9P Proofs.RelayTimerP Proofs.RelayThmP Proofs.RelaySilentP
  Proofs.RelayWireP Proofs.RelayCalmP Proofs.RelayPerCallP Proofs.RelayPairP Proofs.RelayStepP.
Import ListNotations.
Local Open Scope Z_scope.

Lemma wire_of_cons : forall d did d' f log,
  wire_of d did ((d', f) :: log) =
  wire_of d did log ++ (if (d' =? d) && (f_id f =? did) then match kind_of f with Some x => [x] | None => [] end else []).
Proof. reflexivity. Qed.

Lemma wire_of_arr_run : forall d did ls arr, exists s, wire_of d did (arr_run arr ls) = wire_of d did arr ++ s.
Proof.
  intros d did ls. induction ls as [|l r IH]; intro arr; cbn.
  - exists []. symmetry. apply app_nil_r.
  - destruct (IH (arr_step arr l)) as [s Hs]. unfold arr_run in Hs. rewrite Hs.
    destruct l; cbn [arr_step]; try (exists s; reflexivity).
    rewrite wire_of_cons, <- app_assoc. eexists. reflexivity.
Qed.

Definition qarr (arr : list (Z * frame)) (d did : Z) : option wstate := wire_run W0 (wire_of d did arr).
Definition arr_ok (arr : list (Z * frame)) : Prop := forall d did, exists q, qarr arr d did = Some q.

Lemma dest_ok_arr_ok : forall arr ls, (forall d did, wire_prefix_ok (wire_of d did (arr_run arr ls)) = true) -> arr_ok arr.
Proof.
  intros arr ls H d did. specialize (H d did). destruct (wire_of_arr_run d did ls arr) as [s Hs]. rewrite Hs in H.
  apply wire_prefix_ok_app_inv in H. apply wire_prefix_ok_run in H. exact H.
Qed.

Lemma kind_fin : forall f x, kind_of f = Some x -> fin_of f = terminal x.
Proof.
  intros f x H. unfold kind_of in H. unfold fin_of, finishesCall, hasMoreFragments in *.
  destruct (f_mt f =? c_messageTypeCallRes) eqn:E1.
  - inversion H. subst. apply Z.eqb_eq in E1. rewrite E1. cbn. destruct (Z.land (f_flags f) c_hasMoreFragmentsFlag =? 0); reflexivity.
  - destruct (f_mt f =? c_messageTypeCallResContinue) eqn:E2.
    + inversion H. subst. apply Z.eqb_eq in E2. rewrite E2. cbn. destruct (Z.land (f_flags f) c_hasMoreFragmentsFlag =? 0); reflexivity.
    + destruct (f_mt f =? c_messageTypeError) eqn:E3; [|discriminate]. inversion H. subst. apply Z.eqb_eq in E3. rewrite E3. reflexivity.
Qed.

Lemma kind_with_id : forall f i, kind_of (with_id f i) = kind_of f.
Proof. reflexivity. Qed.

Lemma kind_req_frame : forall i c m, kind_of (req_frame i c m) = None.
Proof. intros i c m. destruct c; reflexivity. Qed.

Section Fixed.
  Variables (k id : Z).

  Definition bl (j : instr) : Z := b2z (blocked k id j).
  Definition nb (st : state) : Z := tsum bl (threads st).

  Lemma bl_range : forall j, 0 <= bl j <= 1.
  Proof. intro j. unfold bl, b2z. destruct (blocked k id j); lia. Qed.

  Lemma csum_bl_nonneg : forall code, 0 <= csum bl code.
  Proof. intro code. apply csum_nonneg. intro j. apply bl_range. Qed.

  Lemma csum_in_le : forall code j, In j code -> bl j <= csum bl code.
  Proof.
    induction code as [|a r IH]; intros j Hj; [contradiction|]. cbn. destruct Hj as [->|Hj].
    - pose proof (csum_bl_nonneg r). lia.
    - specialize (IH _ Hj). pose proof (bl_range a). lia.
  Qed.

  Lemma csum_two : forall code j1 j2, In j1 code -> In j2 code -> j1 <> j2 -> bl j1 + bl j2 <= csum bl code.
  Proof.
    induction code as [|a r IH]; intros j1 j2 H1 H2 Hne; [contradiction|]. cbn.
    destruct H1 as [->|H1], H2 as [->|H2].
    - contradiction.
    - pose proof (csum_in_le _ _ H2). lia.
    - pose proof (csum_in_le _ _ H1). lia.
    - specialize (IH _ _ H1 H2 Hne). pose proof (bl_range a). lia.
  Qed.

  Lemma tsum_in_le : forall ths th code, In (th, code) ths -> csum bl code <= tsum bl ths.
  Proof.
    unfold tsum. induction ths as [|[th0 c0] r IH]; intros th code Hin; [contradiction|]. cbn.
    destruct Hin as [Hin|Hin].
    - inversion Hin. subst. pose proof (asum_nonneg (fun _ c => csum bl c) r (fun _ c => csum_bl_nonneg c)). lia.
    - specialize (IH _ _ Hin). pose proof (csum_bl_nonneg c0). lia.
  Qed.

  Lemma tsum_two : forall ths th1 c1 th2 c2, NoDup (map fst ths) -> In (th1, c1) ths -> In (th2, c2) ths -> th1 <> th2 ->
    csum bl c1 + csum bl c2 <= tsum bl ths.
  Proof.
    unfold tsum. induction ths as [|[th0 c0] r IH]; intros th1 c1 th2 c2 Hnd H1 H2 Hne; [contradiction|]. cbn.
    inversion Hnd as [|? ? Hnot Hnd']. subst.
    destruct H1 as [H1|H1], H2 as [H2|H2].
    - inversion H1. inversion H2. subst. contradiction.
    - inversion H1. subst. pose proof (tsum_in_le _ _ _ H2). unfold tsum in *. lia.
    - inversion H2. subst. pose proof (tsum_in_le _ _ _ H1). unfold tsum in *. lia.
    - specialize (IH _ _ _ _ Hnd' H1 H2 Hne). pose proof (csum_bl_nonneg c0). lia.
  Qed.

  Lemma csum_le1_unique : forall code j1 j2, csum bl code <= 1 -> In j1 code -> In j2 code -> bl j1 = 1 -> bl j2 = 1 -> j1 = j2.
  Proof.
    induction code as [|a r IH]; intros j1 j2 Hle H1 H2 E1 E2; [contradiction|]. cbn in Hle.
    destruct H1 as [->|H1], H2 as [->|H2].
    - reflexivity.
    - pose proof (csum_in_le _ _ H2). lia.
    - pose proof (csum_in_le _ _ H1). lia.
    - apply IH; try assumption. pose proof (bl_range a). lia.
  Qed.

  Lemma unique_blocked : forall st th1 c1 j1 th2 c2 j2, NoDup (map fst (threads st)) -> nb st <= 1 ->
    In (th1, c1) (threads st) -> In j1 c1 -> blocked k id j1 = true ->
    In (th2, c2) (threads st) -> In j2 c2 -> blocked k id j2 = true -> th1 = th2 /\ j1 = j2.
  Proof.
    intros st th1 c1 j1 th2 c2 j2 Hnd Hnb H1 Hj1 B1 H2 Hj2 B2. unfold nb in Hnb.
    assert (E1 : bl j1 = 1) by (unfold bl; rewrite B1; reflexivity).
    assert (E2 : bl j2 = 1) by (unfold bl; rewrite B2; reflexivity).
    destruct (eqb_dec tid_eqb tid_eqb_ok th1 th2) as [->|Hne].
    - split; [reflexivity|].
      pose proof (in_lookup tid_eqb tid_eqb_ok _ _ _ Hnd H1) as L1. pose proof (in_lookup tid_eqb tid_eqb_ok _ _ _ Hnd H2) as L2.
      rewrite L1 in L2. inversion L2. subst c2.
      pose proof (tsum_in_le _ _ _ H1). eapply csum_le1_unique; try eassumption. lia.
    - exfalso. pose proof (tsum_two _ _ _ _ _ Hnd H1 H2 Hne). pose proof (csum_in_le _ _ Hj1). pose proof (csum_in_le _ _ Hj2). lia.
  Qed.

  Lemma nb_zero_none : forall st th code j, nb st = 0 -> In (th, code) (threads st) -> In j code -> blocked k id j = false.
  Proof.
    intros st th code j H Hin Hj. pose proof (tsum_in_le _ _ _ Hin). pose proof (csum_in_le _ _ Hj). pose proof (csum_bl_nonneg code).
    unfold nb in H. unfold bl, b2z in *. destruct (blocked k id j); [lia|reflexivity].
  Qed.

  Lemma none_nb_zero : forall st, (forall th code j, In (th, code) (threads st) -> In j code -> blocked k id j = false) -> nb st = 0.
  Proof.
    intros st H. unfold nb. apply tsum_zero. intros th code j Hin Hj. unfold bl. rewrite (H _ _ _ Hin Hj). reflexivity.
  Qed.

  Lemma nb_pos : forall st th code j, In (th, code) (threads st) -> In j code -> blocked k id j = true -> 1 <= nb st.
  Proof.
    intros st th code j Hin Hj B. pose proof (tsum_in_le _ _ _ Hin). pose proof (csum_in_le _ _ Hj). unfold nb, bl in *. rewrite B in *. cbn in *. lia.
  Qed.
End Fixed.

Section Pushes.
  Variables (k id : Z).
  Notation K0 := (k, 0, id).

  Lemma csum_bl_after_sent : forall r, csum (bl k id) (after_sent r) = 0.
  Proof.
    intro r. unfold after_sent. destruct (fin_of (r_f r)), (0 <? r_more r); reflexivity.
  Qed.

  Ltac blsimp := rewrite ?csum_app, ?csum_bl_after_sent; cbn [csum app]; unfold bl, b2z; cbn [csum blocked adm_kf].

  Lemma pushed_bl_count : forall cf st i room st1 pushed, exec cf st i room = (st1, pushed) -> csum (bl k id) pushed <= 1.
  Proof.
    intros cf st i room st1 pushed H.
    destruct i; exec_open H; unfold orig_tail, after_unsent;
      repeat (blsimp; match goal with
                      | |- context [if ?b then _ else _] => destruct b
                      | |- context [match ?s with FromFail _ => _ | FromTimeout _ => _ end] => destruct s
                      end);
      blsimp; lia.
  Qed.

End Pushes.

Section Grammar.
  Variables (cf : config) (k id : Z).
  Notation K0 := (k, 0, id).

  Definition wout (st : state) : list kind := wire_of k id (sent st).
  Definition qout (st : state) : option wstate := wire_run W0 (wout st).

  (* a response frame of (d, did) the reader of d has read but not yet committed to forward *)
  Definition pre_kind (d did : Z) (j : instr) : option kind :=
    match j with
    | INcGet k1 f => if (k1 =? d) && (f_id f =? did) then kind_of f else None
    | INcChk k1 f _ _ (Some (it, _)) => if (k1 =? d) && (f_id f =? did) && negb (it_tomb it) then kind_of f else None
    | IRcvGet r => if key_eqb (r_own r) (d, 1, did) && (r_ft r =? c_responseFrame) then kind_of (r_f r) else None
    | _ => None
    end.

  Definition synced (st : state) (arr : list (Z * frame)) (q : wstate) (d did : Z) : Prop :=
    (forall th code j x, In (th, code) (threads st) -> In j code -> pre_kind d did j = Some x -> qarr arr d did = wire_step q x) /\
    ((forall th code j, In (th, code) (threads st) -> In j code -> pre_kind d did j = None) -> qarr arr d did = Some q).

  Definition dead (st : state) (d did : Z) : Prop := forall it1, klookup (d, 1, did) (items st) = Some it1 -> it_tomb it1 = true.

  Definition doomed (st : state) (h : held) (c0 : Z) : Prop :=
    exists th i R, lookup tid_eqb th (threads st) = Some (i :: R) /\ In (th, c0) h /\
      ((exists r, i = IFailGet K0 r) \/ (exists r, i = IEntomb K0 (FromFail r))).

  Definition committed (j : instr) : option rcv :=
    match j with IRcvChk r _ _ | IRcvEnq r _ _ => if blocked k id j then Some r else None | _ => None end.

  Definition k0_notlive (st : state) : Prop := forall it0, klookup K0 (items st) = Some it0 -> it_tomb it0 = true.

  Lemma quiet_pre : forall d did j, quiet j = true -> pre_kind d did j = None.
  Proof. intros d did j H. destruct j; cbn in *; try discriminate; reflexivity. Qed.

  Lemma pushes_pre : forall d did st st1 th i j x, pushes st st1 i j -> thr_ok th i ->
    pre_kind d did j = Some x -> pre_kind d did i = Some x.
  Proof.
    intros d did st st1 th i j x Hps Hthr Hp.
    destruct Hps; cbn [pre_kind next_frag r_f r_own r_ft] in Hp |- *; try discriminate;
      rewrite ?kind_req_frame in Hp; try (destruct (_ && _); discriminate).
    - (* INcGet *) destruct g as [[it s]|]; [|discriminate].
      destruct ((k0 =? d) && (f_id f =? did)); [|discriminate]. cbn in Hp. destruct (negb (it_tomb it)); [exact Hp|discriminate].
    - (* INcChk *) apply orb_false_iff in H. destruct H as [Et _]. rewrite Et. cbn [negb]. rewrite andb_true_r.
      cbn in Hthr. destruct Hthr as [_ ->].
      destruct ((ft =? c_responseFrame)) eqn:Eft; [|rewrite andb_false_r in Hp; discriminate].
      rewrite andb_true_r in Hp. cbn in Hp. rewrite !andb_true_r in Hp. exact Hp.
  Qed.
End Grammar.

Lemma pre_thr : forall d did j x th, pre_kind d did j = Some x -> thr_ok th j -> th = TR d.
Proof.
  intros d did j x th H Ht. destruct j; cbn in H; try discriminate.
  - destruct ((k =? d) && (f_id f =? did)) eqn:E; [|discriminate]. apply andb_true_iff in E. destruct E as [E _]. apply Z.eqb_eq in E. subst. exact Ht.
  - destruct g as [[it s]|]; [|discriminate]. destruct ((k =? d) && (f_id f =? did) && negb (it_tomb it)) eqn:E; [|discriminate].
    rewrite !andb_true_iff in E. destruct E as [[E _] _]. apply Z.eqb_eq in E. subst. apply Ht.
  - destruct (key_eqb (r_own r) (d, 1, did) && (r_ft r =? c_responseFrame)) eqn:E; [|discriminate].
    apply andb_true_iff in E. destruct E as [E1 E2]. apply key_eqb_ok in E1. apply Z.eqb_eq in E2. cbn in Ht. destruct (Ht E2) as [-> _].
    rewrite E1. reflexivity.
Qed.

Lemma kind_route : forall f x c, kind_of f = Some x -> relayRoute (f_mt f) c = 1 /\ (f_mt f =? c_messageTypeCallReq) = false.
Proof.
  intros f x c H. unfold kind_of in H. unfold relayRoute.
  destruct (f_mt f =? c_messageTypeCallRes) eqn:E1; [apply Z.eqb_eq in E1; rewrite E1; split; reflexivity|].
  destruct (f_mt f =? c_messageTypeCallResContinue) eqn:E2; [apply Z.eqb_eq in E2; rewrite E2; split; reflexivity|].
  destruct (f_mt f =? c_messageTypeError) eqn:E3; [apply Z.eqb_eq in E3; rewrite E3; split; reflexivity|discriminate].
Qed.

Lemma dead_mono : forall cf st h l st' d did, AllInv st h -> step cf st l = Some st' ->
  did < c_nextid (getc (conns st) d) -> dead st d did -> dead st' d did.
Proof.
  intros cf st h l st' d did HA Hs Hlt Hd it1 Hl. apply (lookup_in key_eqb key_eqb_ok) in Hl.
  destruct (step_items _ _ _ _ _ _ Hs Hl) as [(it0&Hi0&Hsame)|[(th&room&rest&k&f&e&c&d0&_&_&Ht&_)|(th&room&rest&k&f&e&c&d0&did0&_&_&Ht&_)]].
  - destruct Hsame as (_&_&_&_&_&Hm). apply Hm. apply Hd. exact (item_lookup _ _ _ (a_inv _ _ HA) Hi0).
  - inversion Ht. subst. rewrite get_conn_getc in Hlt. lia.
  - inversion Ht.
Qed.

Lemma step_synced : forall cf st h l st' arr q d did,
  AllInv st h -> step cf st l = Some st' ->
  did < c_nextid (getc (conns st) d) -> arr_ok (arr_step arr l) ->
  (forall th room r rest, l = LStep th room -> lookup tid_eqb th (threads st) = Some (IRcvGet r :: rest) -> pre_kind d did (IRcvGet r) = None) ->
  dead st d did \/ synced st arr q d did ->
  dead st' d did \/ synced st' (arr_step arr l) q d did.
Proof.
  intros cf st h l st' arr q d did HA Hs Hlt Hok Hnoc [Hdead|[Ha Hb]].
  { left. eapply dead_mono; eassumption. }
  pose proof (a_inv _ _ HA) as HI. pose proof (a_finv _ _ HA) as HF.
  (* a pre-commit instruction of the new state was there before, was pushed by one, or is the
     handleNonCallReq of a frame that has just arrived *)
  assert (Hback : forall th' code' j x, In (th', code') (threads st') -> In j code' -> pre_kind d did j = Some x ->
            (exists th0 code0 j0, In (th0, code0) (threads st) /\ In j0 code0 /\ pre_kind d did j0 = Some x) \/
            (exists k f e, l = LArrive k f e /\ j = INcGet k f)).
  { intros th' code' j x Hin Hj Hp.
    destruct (step_code _ _ _ _ _ _ _ Hs Hin Hj) as [(code0&A&B&_)|[(th&room&i&rest&st1&pushed&_&_&El&E&Hpj)|[(k1&f1&e1&Hl&_&_&_&[[-> _]|[-> _]])|(tm&_&_&->)]]];
      try discriminate.
    - left. exists th', code0, j. repeat split; assumption.
    - left. apply (lookup_in tid_eqb tid_eqb_ok) in El. exists th, (i :: rest), i. split; [exact El|]. split; [left; reflexivity|].
      eapply pushes_pre; [eapply exec_pushes; eassumption|eapply (f_thr _ _ HF); [exact El|left; reflexivity]|exact Hp].
    - right. exists k1, f1, e1. split; [exact Hl|reflexivity]. }
  (* one of the old state is still there unless it is the instruction executed *)
  assert (Hfwd : forall th0 code0 j0 x, In (th0, code0) (threads st) -> In j0 code0 -> pre_kind d did j0 = Some x ->
            (exists th' code' j, In (th', code') (threads st') /\ In j code' /\ pre_kind d did j <> None) \/
            (exists room rest, l = LStep th0 room /\ lookup tid_eqb th0 (threads st) = Some (j0 :: rest))).
  { intros th0 code0 j0 x Hin Hj Hp. destruct (step_code_keep _ _ _ _ _ _ _ HI Hs Hin Hj) as [(code'&A&B)|(room&rest&Hl&->)].
    - left. exists th0, code', j0. repeat split; try assumption. congruence.
    - right. exists room, rest. split; [exact Hl|]. exact (thread_lookup _ _ _ HI Hin). }
  (* so the synchronisation survives unless a frame of (d, did) arrives or the reader of d gives its frame up *)
  assert (Hgen : qarr (arr_step arr l) d did = qarr arr d did ->
     (forall k f e, l = LArrive k f e -> pre_kind d did (INcGet k f) = None) ->
     (forall th room i rest x, l = LStep th room -> lookup tid_eqb th (threads st) = Some (i :: rest) -> pre_kind d did i = Some x ->
        exists th' code' j, In (th', code') (threads st') /\ In j code' /\ pre_kind d did j <> None) ->
     synced st' (arr_step arr l) q d did).
  { intros Hq Harrive Hhead. unfold synced. rewrite Hq. split.
    - intros th' code' j x Hin Hj Hp. destruct (Hback _ _ _ _ Hin Hj Hp) as [(th0&code0&j0&A&B&C)|(k&f&e&Hl&->)]; [eapply Ha; eassumption|].
      rewrite (Harrive _ _ _ Hl) in Hp. discriminate.
    - intro Hnone. apply Hb. intros th0 code0 j0 Hin0 Hj0. destruct (pre_kind d did j0) as [x|] eqn:Ep; [|reflexivity]. exfalso.
      destruct (Hfwd _ _ _ _ Hin0 Hj0 Ep) as [(th'&code'&j&A&B&C)|(room&rest&Hl&El)]; [|destruct (Hhead _ _ _ _ _ Hl El Ep) as (th'&code'&j&A&B&C)];
        apply C; eapply Hnone; eassumption. }
  destruct l as [k f e|th room|tm|t0|k|k|k]; try (right; apply Hgen; [reflexivity|intros; discriminate|intros; discriminate]).
  - (* LArrive *)
    right. destruct (pre_kind d did (INcGet k f)) as [x|] eqn:Ep.
    + (* a response frame of (d, did) arrives: the reader of d was idle, so nothing was pending *)
      cbn in Ep. destruct ((k =? d) && (f_id f =? did)) eqn:Em; [|discriminate].
      apply andb_true_iff in Em. destruct Em as [E1 E2]. apply Z.eqb_eq in E1. apply Z.eqb_eq in E2. subst k did.
      assert (Hnone : forall th code j, In (th, code) (threads st) -> In j code -> pre_kind d (f_id f) j = None).
      { intros th code j Hin Hj. destruct (pre_kind d (f_id f) j) as [y|] eqn:Epj; [|reflexivity]. exfalso.
        pose proof (pre_thr _ _ _ _ _ Epj (f_thr _ _ HF _ _ _ Hin Hj)). subst th.
        destruct (step_code_keep _ _ _ _ _ _ _ HI Hs Hin Hj) as [(code'&A&B)|(room&rest&Hl&_)]; [|discriminate].
        pose proof (Step_of_step _ _ _ _ Hs) as Hst. inversion Hst; subst; apply (in_map fst) in Hin;
          match goal with El : tlookup (TR d) _ = None |- _ => apply (lookup_none_notin tid_eqb tid_eqb_ok) in El; contradiction end. }
      specialize (Hb Hnone).
      assert (Hq' : qarr (arr_step arr (LArrive d f e)) d (f_id f) = wire_step q x).
      { unfold qarr. cbn [arr_step]. rewrite wire_of_cons, !Z.eqb_refl, Ep. cbn [andb]. rewrite wire_run_snoc. unfold qarr in Hb. rewrite Hb. reflexivity. }
      split.
      * intros th' code' j y Hin Hj Hp. destruct (Hback _ _ _ _ Hin Hj Hp) as [(th0&code0&j0&A&B&C)|(k&f1&e1&Hl&->)].
        -- rewrite (Hnone _ _ _ A B) in C. discriminate.
        -- inversion Hl. subst. cbn in Hp. rewrite !Z.eqb_refl in Hp. cbn in Hp. congruence.
      * intro Hall. exfalso. destruct (kind_route f x (cf_cancel cf) Ep) as [Hr Hnq].
        pose proof (Step_of_step _ _ _ _ Hs) as Hst. inversion Hst; subst; try congruence;
          try match goal with Hx : (relayRoute _ _ =? 1) = false |- _ => rewrite Hr in Hx; discriminate end.
        assert (Hp : pre_kind d (f_id f) (INcGet d f) = None) by (eapply Hall; [apply in_set_thread_self; discriminate|left; reflexivity]).
        cbn in Hp. rewrite !Z.eqb_refl in Hp. cbn in Hp. congruence.
    + apply Hgen; [|intros k0 f0 e0 Heq; inversion Heq; subst; exact Ep|intros; discriminate].
      unfold qarr. cbn [arr_step]. rewrite wire_of_cons. cbn in Ep. destruct ((k =? d) && (f_id f =? did)); [rewrite Ep|]; rewrite app_nil_r; reflexivity.
  - (* LStep *)
    pose proof Hs as Hs0. unfold step in Hs0. destruct (negb (panicked st =? 0)); [discriminate|].
    destruct (lookup tid_eqb th (threads st)) as [[|i rest]|] eqn:El; try discriminate.
    destruct (exec cf st i room) as [st1 pushed] eqn:E. inversion Hs0. subst st'. clear Hs0.
    pose proof (lookup_in tid_eqb tid_eqb_ok _ _ _ El) as Hin0.
    pose proof (f_thr _ _ HF _ _ _ Hin0 (or_introl eq_refl)) as Hthi.
    (* the reader keeps its frame when it pushes a pre-commit instruction again *)
    assert (Hkeep : forall j, In j pushed -> pre_kind d did j <> None -> synced (set_thread st1 th (pushed ++ rest)) (arr_step arr (LStep th room)) q d did).
    { intros j Hj Hp. apply Hgen; [reflexivity|intros; discriminate|]. intros th2 room2 i2 rest2 x _ _ _.
      exists th, (pushed ++ rest), j. split; [|split; [apply in_or_app; left; exact Hj|exact Hp]].
      apply in_set_thread_self. intro Hnil. apply app_eq_nil in Hnil. destruct Hnil as [-> _]. contradiction. }
    destruct (pre_kind d did i) as [x|] eqn:Epi.
    2:{ right. apply Hgen; [reflexivity|intros; discriminate|]. intros th2 room2 i2 rest2 y Heq El2 Hp2. inversion Heq. subst th2 room2.
        rewrite El in El2. inversion El2. subst i2. congruence. }
    (* the reader of d works on the frame *)
    destruct i as [? ? ?|? ? ? ?|? ? ? ?|? ? ? ? ?|? ? ? ? ?|? ? ? ? ? ?|? ?|?|?|? ? ?|?|k0 f0|k0 f0 ft own g|r|? ? ?|? ?|? ?|? ?|?|?]; cbn in Epi; try discriminate.
    + (* INcGet *)
      destruct ((k0 =? d) && (f_id f0 =? did)) eqn:Em; [|discriminate]. apply andb_true_iff in Em. destruct Em as [E1 E2].
      apply Z.eqb_eq in E1. apply Z.eqb_eq in E2. subst k0 did.
      pose proof E as E0. cbn [exec] in E0. rewrite (kind_of_response f0) in E0 by congruence. rewrite Z.eqb_refl in E0.
      destruct (items_get st (d, 1, f_id f0) (fin_of f0)) as [st2 g] eqn:Eg. inversion E0. subst st1 pushed. clear E0.
      pose proof (items_get_items _ _ _ _ _ Eg) as Hitems. destruct (items_get_spec _ _ _ _ _ Eg) as [_ Hm].
      destruct (klookup (d, 1, f_id f0) (items st)) as [it|] eqn:Hl.
      * destruct Hm as [b ->]. destruct (it_tomb it) eqn:Et.
        -- left. intros it1 Hl1. cbn [set_thread set_threads items] in Hl1. rewrite Hitems, Hl in Hl1. inversion Hl1. subst. exact Et.
        -- right. eapply Hkeep; [left; reflexivity|]. cbn. rewrite !Z.eqb_refl, Et. cbn. congruence.
      * subst g. left. intros it1 Hl1. cbn [set_thread set_threads items] in Hl1. rewrite Hitems, Hl in Hl1. discriminate.
    + (* INcChk with a live copy *)
      destruct g as [[it s]|]; [|discriminate].
      destruct ((k0 =? d) && (f_id f0 =? did) && negb (it_tomb it)) eqn:Em; [|discriminate].
      rewrite !andb_true_iff in Em. destruct Em as [[E1 E2] E3]. apply Z.eqb_eq in E1. apply Z.eqb_eq in E2. apply negb_true_iff in E3. subst k0 did.
      pose proof (f_commit _ _ HF _ _ _ Hin0 (or_introl eq_refl)) as Hcm. cbn in Hcm. specialize (Hcm E3).
      cbn in Hthi. destruct Hthi as [_ Hown].
      pose proof (w_code _ (a_winv _ _ HA) _ _ _ Hin0 (or_introl eq_refl)) as Hw. cbn in Hw. destruct Hw as [Hft _].
      rewrite (kind_of_response f0) in Hft by congruence. inversion Hft. subst ft. rewrite Z.eqb_refl in Hown.
      pose proof E as E0. cbn [exec] in E0. rewrite E3 in E0. cbn [orb] in E0.
      assert (Hns : (fin_of f0 && negb s) = false).
      { destruct (fin_of f0) eqn:Ef; [|reflexivity]. rewrite (Hcm eq_refl). reflexivity. }
      rewrite Hns in E0. inversion E0. subst st1 pushed. clear E0.
      right. eapply Hkeep; [apply in_or_app; right; right; left; reflexivity|].
      cbn. rewrite Hown. rewrite (proj2 (key_eqb_ok _ _) eq_refl). cbn. rewrite kind_with_id. congruence.
    + (* IRcvGet: excluded *)
      pose proof (Hnoc _ _ _ _ eq_refl El) as Hn. cbn in Hn. congruence.
Qed.

Section Frame.
  Variables (cf : config) (k id : Z).
  Notation K0 := (k, 0, id).

  Lemma unseen_wout : forall st, WInv st -> ~ In (k, id) (seen st) -> wout k id st = [].
  Proof. intros st HW Hns. apply unseen_wire; assumption. Qed.

  Lemma unseen_unblocked : forall st th code j, Inv st -> WInv st -> ~ In (k, id) (seen st) ->
    In (th, code) (threads st) -> In j code -> blocked k id j = false.
  Proof.
    intros st th code j HI HW Hns Hin Hj. destruct (blocked k id j) eqn:Eb; [|reflexivity]. exfalso. apply Hns.
    pose proof (w_code _ HW _ _ _ Hin Hj) as Hw.
    destruct (inv_code _ HI _ _ Hin) as [Hf _]. rewrite Forall_forall in Hf. pose proof (Hf _ Hj) as Hiok.
    assert (Hadm : forall k' f, adm_kf j = Some (k', f) -> (k' =? k) && (f_id f =? id) = true -> In (k, id) (seen st)).
    { intros k' f Ha Hb. destruct (iok_adm _ _ _ _ _ _ _ Ha Hiok) as [_ (Hs&_)]. apply andb_true_iff in Hb. destruct Hb as [E1 E2].
      apply Z.eqb_eq in E1. apply Z.eqb_eq in E2. subst. exact Hs. }
    destruct j; cbn in Eb; try discriminate; try (eapply Hadm; [reflexivity|exact Eb]).
    - apply andb_true_iff in Eb. destruct Eb as [E1 E2]. apply Z.eqb_eq in E1. apply Z.eqb_eq in E2. subst. exact Hw.
    - destruct g as [[it s]|]; [|discriminate]. apply andb_true_iff in Eb. destruct Eb as [Eb _]. apply andb_true_iff in Eb. destruct Eb as [Eb _].
      apply (wire_rcv _ _ _ _ Hw Eb).
    - apply (wire_rcv _ _ _ _ Hw Eb).
  Qed.

  Definition appended (st : state) (l : label) : list kind :=
    match l with
    | LStep th room => match lookup tid_eqb th (threads st) with Some (i :: _) => wire_of k id (enq st i room) | _ => [] end
    | _ => []
    end.

  Lemma step_wout : forall st l st', step cf st l = Some st' -> wout k id st' = wout k id st ++ appended st l.
  Proof.
    intros st l st' H. unfold wout, appended.
    destruct (Step_of_step _ _ _ _ H) as [| | |th room i rest st1 pushed El E| |t Em| | |];
      cbn [set_thread set_threads set_seen set_timers put_conn set_conns sent]; try (symmetry; apply app_nil_r).
    - rewrite El, (proj2 (exec_sent _ _ _ _ _ _ E)). apply wire_of_app.
    - destruct (gc_fields st t) as (_&_&->&_). symmetry. apply app_nil_r.
  Qed.
End Frame.

Section Phases.
  Variables (cf : config) (k id : Z).
  Notation K0 := (k, 0, id).

  Lemma nb_LStep : forall st th i rest room st1 pushed, Inv st -> lookup tid_eqb th (threads st) = Some (i :: rest) ->
    exec cf st i room = (st1, pushed) ->
    nb k id (set_thread st1 th (pushed ++ rest)) = nb k id st - bl k id i + csum (bl k id) pushed.
  Proof.
    intros st th i rest room st1 pushed HI El E. unfold nb. pose proof (exec_threads _ _ _ _ _ _ E) as Hth.
    rewrite tsum_set_thread by (rewrite Hth; apply (inv_threads_nd _ HI)). rewrite Hth, El, csum_app. cbn [csum]. lia.
  Qed.

  Lemma nb_other : forall st l st', Inv st -> step cf st l = Some st' -> (forall th room, l <> LStep th room) ->
    nb k id st' = nb k id st +
      match l with
      | LArrive k0 f e => if (relayRoute (f_mt f) (cf_cancel cf) =? 1) && (f_mt f =? c_messageTypeCallReq) then bl k id (IStart k0 f e) else 0
      | _ => 0
      end.
  Proof.
    intros st l st' HI H Hn. unfold nb.
    destruct (Step_of_step _ _ _ _ H) as [k0 f e El Er|k0 f e El Er Em|k0 f e El Er Em|th room i rest st1 pushed El E|tm x Ex Ea El|t Em|k0 s|k0 s|k0 s];
      try rewrite Er; try rewrite Em; cbn [andb put_conn set_conns threads]; try lia;
      try (rewrite tsum_set_thread by apply (inv_threads_nd _ HI); cbn [set_seen set_timers threads]; rewrite El; cbn [csum]; unfold bl; cbn; lia).
    - exfalso. eapply Hn. reflexivity.
    - destruct (gc_fields st t) as (_&A&_). rewrite A. lia.
  Qed.

  Inductive phase (st : state) (h : held) (arr : list (Z * frame)) : Prop :=
  | PhUnseen : ~ In (k, id) (seen st) -> phase st h arr
  | PhSettled : settled st k id -> (exists q, qout k id st = Some q) -> phase st h arr
  | PhAdm : forall th code i f, In (th, code) (threads st) -> In i code -> adm_kf i = Some (k, f) -> f_id f = id ->
      nb k id st = 1 -> wout k id st = [] ->
      (forall e c d did, i = IAddOrig k f e c d did -> dead st d did \/ synced st arr W0 d did) -> phase st h arr
  | PhErr : forall th code ec q, In (th, code) (threads st) -> In (ISendErr k id ec) code -> nb k id st = 1 ->
      k0_notlive k id st -> qout k id st = Some q -> q <> WEnd -> phase st h arr
  | PhLive : forall it0 q, klookup K0 (items st) = Some it0 -> it_tomb it0 = false -> nb k id st = 0 ->
      qout k id st = Some q -> q <> WEnd ->
      (dead st (it_dest it0) (it_remap it0) \/ doomed k id st h (it_call it0) \/ synced st arr q (it_dest it0) (it_remap it0)) -> phase st h arr
  | PhFwd : forall th code j r it0 q x q', In (th, code) (threads st) -> In j code -> committed k id j = Some r -> nb k id st = 1 ->
      klookup K0 (items st) = Some it0 -> it_tomb it0 = false -> In (th, it_call it0) h ->
      r_own r = (it_dest it0, 1, it_remap it0) -> qout k id st = Some q -> kind_of (r_f r) = Some x -> wire_step q x = Some q' ->
      qarr arr (it_dest it0) (it_remap it0) = Some q' -> phase st h arr
  | PhWindow : forall it0 th lk R, klookup K0 (items st) = Some it0 -> it_tomb it0 = false -> qout k id st = Some WEnd -> nb k id st = 0 ->
      lookup tid_eqb th (threads st) = Some (IDelete K0 lk :: R) -> In (th, it_call it0) h -> phase st h arr.

  Lemma phase_q : forall st h arr, WInv st -> phase st h arr -> exists q, qout k id st = Some q.
  Proof.
    intros st h arr HW [Hu|_ Hq|th code i f _ _ _ _ _ Hw _|th code ec q _ _ _ _ Hq _|it0 q _ _ _ Hq _ _|th code j r it0 q x q' _ _ _ _ _ _ _ _ Hq _ _ _|it0 th lk R _ _ Hq _ _ _].
    - exists W0. unfold qout. rewrite (unseen_wout k id st HW Hu). reflexivity.
    - exact Hq.
    - exists W0. unfold qout. rewrite Hw. reflexivity.
    - exists q. exact Hq.
    - exists q. exact Hq.
    - exists q. exact Hq.
    - exists WEnd. exact Hq.
  Qed.
End Phases.

Section Helpers.
  Variables (cf : config) (k id : Z).
  Notation K0 := (k, 0, id).

  Lemma csum_pos_in : forall l, 0 < csum (bl k id) l -> exists j, In j l /\ blocked k id j = true.
  Proof.
    induction l as [|a r IH]; cbn; intro H; [lia|]. destruct (blocked k id a) eqn:Eb.
    - exists a. split; [left; reflexivity|exact Eb].
    - unfold bl at 1 in H. rewrite Eb in H. cbn in H. destruct (IH H) as (j&Hj&Hb). exists j. split; [right; exact Hj|exact Hb].
  Qed.

  Lemma csum_zero_none : forall l, (forall j, In j l -> blocked k id j = false) -> csum (bl k id) l = 0.
  Proof. intros l H. apply csum_zero. intros j Hj. unfold bl. rewrite (H j Hj). reflexivity. Qed.

  Lemma adm_pushes : forall st st1 i f j, adm_kf i = Some (k, f) -> pushes st st1 i j ->
    blocked k id j = true -> adm_kf j = Some (k, f) \/ exists ec, j = ISendErr k (f_id f) ec.
  Proof.
    intros st st1 i f j Ha Hp Hb. destruct Hp; cbn in Ha; try discriminate; inversion Ha; subst;
      try (cbn in Hb; discriminate); try (left; reflexivity); right; eexists; reflexivity.
  Qed.

  Lemma settled_of : forall st, In (k, id) (seen st) -> k0_notlive k id st -> nb k id st = 0 -> settled st k id.
  Proof.
    intros st Hs Hn Hz. split; [exact Hs|]. split; [exact Hn|]. intros th code j Hin Hj. eapply nb_zero_none; eassumption.
  Qed.

  Lemma touch_excl : forall st h th2 room i2 rest c th, HInv st h -> no_overlap_step st h (LStep th2 room) = true ->
    lookup tid_eqb th2 (threads st) = Some (i2 :: rest) -> In c (touches_i st i2) -> In (th, c) h -> th = th2.
  Proof.
    intros st h th2 room i2 rest c th HH Hno El Hc Hh. eapply others_hold_false; [|exact Hh]. eapply no_overlap_touch; eassumption.
  Qed.

  Lemma lstep_at_or_not : forall (l : label) th, (exists room, l = LStep th room) \/ (forall room, l <> LStep th room).
  Proof.
    intros l th. destruct l as [| th2 room | | | | |]; try (right; intros; discriminate).
    destruct (eqb_dec tid_eqb tid_eqb_ok th2 th) as [->|Hn]; [left; eexists; reflexivity|right; intros room0 Heq; inversion Heq; contradiction].
  Qed.

  Lemma lstep_or_not : forall l : label, (exists th room, l = LStep th room) \/ (forall th room, l <> LStep th room).
  Proof. intro l. destruct l; try (right; intros; discriminate). left. eexists. eexists. reflexivity. Qed.

  Lemma arrive_delta_zero : forall st l, fresh_label st l = true -> In (k, id) (seen st) ->
    match l with
    | LArrive k0 f e => if (relayRoute (f_mt f) (cf_cancel cf) =? 1) && (f_mt f =? c_messageTypeCallReq) then bl k id (IStart k0 f e) else 0
    | _ => 0
    end = 0.
  Proof.
    intros st l Hfresh Hseen. destruct l as [k0 f e| | | | | |]; try reflexivity.
    destruct ((relayRoute (f_mt f) (cf_cancel cf) =? 1) && (f_mt f =? c_messageTypeCallReq)) eqn:Eb; [|reflexivity].
    apply andb_true_iff in Eb. destruct Eb as [_ Emt]. unfold bl. cbn.
    destruct ((k0 =? k) && (f_id f =? id)) eqn:Ek; [|reflexivity]. exfalso.
    apply andb_true_iff in Ek. destruct Ek as [E1 E2]. apply Z.eqb_eq in E1. apply Z.eqb_eq in E2. subst k0 id.
    eapply fresh_unseen; eassumption.
  Qed.

  Lemma qout_snoc : forall st st' q x, qout k id st = Some q -> wout k id st' = wout k id st ++ [x] -> qout k id st' = wire_step q x.
  Proof. intros st st' q x Hq Hw. unfold qout in *. rewrite Hw, wire_run_snoc, Hq. reflexivity. Qed.

  Lemma qout_same : forall st st', wout k id st' = wout k id st -> qout k id st' = qout k id st.
  Proof. intros st st' Hw. unfold qout. rewrite Hw. reflexivity. Qed.
End Helpers.

Section Trans.
  Variables (cf : config) (k id : Z).
  Notation K0 := (k, 0, id).
  Variables (st st' : state) (h : held) (arr : list (Z * frame)) (l : label).
  Hypothesis HA : AllInv st h.
  Hypothesis Hfresh : fresh_label st l = true.
  Hypothesis Hno : no_overlap_step st h l = true.
  Hypothesis Hcau : causal_step st l = true.
  Hypothesis Hs : step cf st l = Some st'.
  Hypothesis Hok : arr_ok (arr_step arr l).
  Hypothesis Harr : forall d f, In (d, f) arr -> kind_of f <> None -> f_id f < c_nextid (getc (conns st) d).

  Let h' := held_next st l st' h.
  Let arr' := arr_step arr l.

  Lemma HA' : AllInv st' h'.
  Proof. eapply step_all; eassumption. Qed.

  Let HI := a_inv _ _ HA.
  Let HW := a_winv _ _ HA.
  Let HH := a_hinv _ _ HA.
  Let HF := a_finv _ _ HA.
  Let HP := a_tpair _ _ HA.
  Let HT := a_tinv _ _ HA.
  Let HS := a_shape _ _ HA.

  Lemma lstep_inv : forall th room, l = LStep th room ->
    exists i rest st1 pushed, lookup tid_eqb th (threads st) = Some (i :: rest) /\ exec cf st i room = (st1, pushed) /\
      st' = set_thread st1 th (pushed ++ rest).
  Proof.
    intros th room ->. pose proof Hs as H0. unfold step in H0. destruct (negb (panicked st =? 0)); [discriminate|].
    destruct (lookup tid_eqb th (threads st)) as [[|i rest]|]; try discriminate.
    destruct (exec cf st i room) as [st1 pushed] eqn:E. inversion H0. exists i, rest, st1, pushed.
    split; [reflexivity|]. split; [exact E|reflexivity].
  Qed.

  Lemma head_eq : forall th room i rest th2 room2 i2 rest2, l = LStep th room -> lookup tid_eqb th (threads st) = Some (i :: rest) ->
    l = LStep th2 room2 -> lookup tid_eqb th2 (threads st) = Some (i2 :: rest2) -> th2 = th /\ room2 = room /\ i2 = i /\ rest2 = rest.
  Proof. intros th room i rest th2 room2 i2 rest2 Hl El Hl2 El2. rewrite Hl in Hl2. inversion Hl2. subst. rewrite El in El2. inversion El2. repeat split. Qed.

  Lemma wout_head : forall th room i rest, l = LStep th room -> lookup tid_eqb th (threads st) = Some (i :: rest) ->
    wout k id st' = wout k id st ++ wire_of k id (enq st i room).
  Proof. intros th room i rest Hl Elk. rewrite (step_wout cf k id _ _ _ Hs). unfold appended. rewrite Hl, Elk. reflexivity. Qed.

  Lemma wout_unblocked : forall th room i rest, l = LStep th room -> lookup tid_eqb th (threads st) = Some (i :: rest) ->
    blocked k id i = false -> wout k id st' = wout k id st.
  Proof. intros th room i rest Hl Elk Hb. rewrite (wout_head _ _ _ _ Hl Elk), (enq_unblocked _ _ _ _ _ Hb). apply app_nil_r. Qed.

  Lemma wout_other : (forall th room, l <> LStep th room) -> wout k id st' = wout k id st.
  Proof.
    intro Hn. rewrite (step_wout cf k id _ _ _ Hs). unfold appended. destruct l; try apply app_nil_r. exfalso. eapply Hn. reflexivity.
  Qed.

  (* a blocked instruction pushed by an instruction that is not blocked: the step acts on the live K0 *)
  Lemma new_blocked_touch : forall th room i rest st1 pushed j, l = LStep th room ->
    lookup tid_eqb th (threads st) = Some (i :: rest) -> exec cf st i room = (st1, pushed) ->
    blocked k id i = false -> In j pushed -> blocked k id j = true ->
    exists it0, klookup K0 (items st) = Some it0 /\ it_tomb it0 = false /\ In (it_call it0) (touches_i st i) /\
      ((exists r s, i = IRcvGet r /\ rcv_key r = K0 /\ j = IRcvChk r K0 (Some (it0, s))) \/ (exists s ec, i = IEntomb K0 s /\ j = ISendErr k id ec)).
  Proof.
    intros th room i rest st1 pushed j Hl El E Hbi Hj Hbj.
    destruct (blocked_origin _ _ _ _ _ _ _ _ HI HW El (exec_pushes _ _ _ _ _ _ _ E Hj) Hbj) as [Hb|(it0&Hl0&Hlive&Hform)]; [congruence|].
    exists it0. split; [exact Hl0|]. split; [exact Hlive|]. split; [|exact Hform].
    destruct Hform as [(r&s&->&Hrk&_)|(s&ec&->&_)]; cbn [touches_i gets_i]; rewrite ?Hrk; apply live_call_in; assumption.
  Qed.

  (* a step that neither executes nor creates a blocked instruction of (k, id) *)
  Lemma quiet_other : In (k, id) (seen st) ->
    (forall th room i rest, l = LStep th room -> lookup tid_eqb th (threads st) = Some (i :: rest) ->
       blocked k id i = false /\ (forall st1 pushed j, exec cf st i room = (st1, pushed) -> In j pushed -> blocked k id j = false)) ->
    nb k id st' = nb k id st /\ wout k id st' = wout k id st.
  Proof.
    intros Hseen Hq. destruct (lstep_or_not l) as [(th&room&Hl)|Hn].
    - destruct (lstep_inv th room Hl) as (i&rest&st1&pushed&Elk&E&Hst'). destruct (Hq _ _ _ _ Hl Elk) as [Hbi Hp].
      split; [|exact (wout_unblocked _ _ _ _ Hl Elk Hbi)].
      rewrite Hst', (nb_LStep cf k id _ _ _ _ _ _ _ HI Elk E). unfold bl at 1. rewrite Hbi. cbn.
      rewrite (csum_zero_none k id pushed) by (intros j Hj; eapply Hp; [exact E|exact Hj]). lia.
    - split; [|exact (wout_other Hn)].
      rewrite (nb_other cf k id _ _ _ HI Hs Hn). rewrite (arrive_delta_zero cf k id st l Hfresh Hseen). lia.
  Qed.

  (* the table entry of K0, when it is not live, stays not live (no admission of (k, id) is pending) *)
  Lemma notlive_mono : k0_notlive k id st ->
    (forall th code i f, In (th, code) (threads st) -> In i code -> adm_kf i = Some (k, f) -> f_id f <> id) ->
    k0_notlive k id st'.
  Proof.
    intros Hn Hnoadm it Hl. apply (lookup_in key_eqb key_eqb_ok) in Hl.
    destruct (step_items _ _ _ _ _ _ Hs Hl) as [(it0&Hi0&Hsame)|[(th&room&rest&k1&f&e&c&d&_&_&Ht&_)|(th&room&rest&k1&f&e&c&d&did&_&Elk&Ht&_)]].
    - destruct Hsame as (_&_&_&_&_&Hm). apply Hm. apply Hn. exact (item_lookup _ _ _ HI Hi0).
    - inversion Ht.
    - exfalso. inversion Ht. subst k1. eapply (Hnoadm th _ (IAddOrig k f e c d did) f); [eapply (lookup_in tid_eqb tid_eqb_ok); exact Elk|left; reflexivity|reflexivity|symmetry; assumption].
  Qed.

  Lemma held_keep : forall th c code, In (th, c) h -> lookup tid_eqb th (threads st') = Some code -> In (th, c) h'.
  Proof. intros th c code. apply RelayPairP.held_keep. Qed.

  Lemma k0_seen : forall it0, klookup K0 (items st) = Some it0 -> In (k, id) (seen st).
  Proof. intros it0 Hl. exact (orig_key_seen _ _ _ HI Hl eq_refl). Qed.

  Lemma seen_mono : In (k, id) (seen st) -> In (k, id) (seen st').
  Proof.
    intro H. destruct (step_seen cf _ _ _ Hs) as [Heq|(k0&f&e&_&Heq&_)]; rewrite Heq; [exact H|right; exact H].
  Qed.

  Lemma k0_closed_by : forall th room i rest, l = LStep th room -> lookup tid_eqb th (threads st) = Some (i :: rest) ->
    (exists s, i = IEntomb K0 s) \/ (exists lk, i = IDelete K0 lk) -> k0_notlive k id st'.
  Proof.
    intros th room i rest Hl Elk Hi it Hx. destruct (lstep_inv th room Hl) as (i2&rest2&st1&pushed&Elk2&E&Hst').
    rewrite Elk in Elk2. inversion Elk2. subst i2 rest2. rewrite Hst' in Hx. cbn [set_thread set_threads items] in Hx.
    destruct Hi as [[s ->]|[lk ->]]; cbn [exec] in E.
    - destruct (items_entomb cf st K0) as [st2 g] eqn:Ee.
      assert (Hit2 : items st1 = items st2) by (destruct g as [[it1 [|]]|]; inversion E; reflexivity). rewrite Hit2 in Hx.
      eapply items_entomb_tomb; eassumption.
    - rewrite (LInv_delete_is_delete st th K0 lk rest (a_linv _ _ HA) Elk) in E. destruct (items_delete st K0) as [st2 g] eqn:Ed.
      assert (Hit2 : items st1 = items st2) by (destruct g as [[it1 [|]]|]; inversion E; reflexivity). rewrite Hit2 in Hx.
      apply items_delete_spec in Ed. destruct Ed as (_&_&_&_&_&_&_&Hsp).
      destruct (klookup K0 (items st)) eqn:El0; destruct Hsp as [_ Hi]; rewrite Hi in Hx; [rewrite (lookup_remove_eq key_eqb key_eqb_ok) in Hx|rewrite El0 in Hx]; discriminate.
  Qed.

  (* while a goroutine th holds the call of the live K0, no other goroutine creates a blocked
     instruction of (k, id) or changes K0 *)
  Lemma other_quiet : forall it0 th th2 room i2 rest, klookup K0 (items st) = Some it0 -> it_tomb it0 = false -> In (th, it_call it0) h ->
    l = LStep th2 room -> th2 <> th -> lookup tid_eqb th2 (threads st) = Some (i2 :: rest) -> blocked k id i2 = false ->
    (forall st1 pushed j, exec cf st i2 room = (st1, pushed) -> In j pushed -> blocked k id j = false) /\
    klookup K0 (items st') = Some it0.
  Proof.
    intros it0 th th2 room i2 rest Hl0 Hlive Hh Hl Hne Elk Hbi. split.
    - intros st1 pushed j E Hj. destruct (blocked k id j) eqn:Hbj; [|reflexivity]. exfalso.
      destruct (new_blocked_touch _ _ _ _ _ _ _ Hl Elk E Hbi Hj Hbj) as (it1&Hl1&_&Ht&_).
      rewrite Hl0 in Hl1. inversion Hl1. subst it1. rewrite Hl in Hno.
      apply Hne. symmetry. eapply touch_excl; eassumption.
    - destruct (step_items_keep _ _ _ _ _ _ HI Hs Hl0 Hlive) as [Hk|(th3&room3&rest3&i3&Hl3&Elk3&Hi3)]; [exact Hk|]. exfalso.
      destruct (head_eq _ _ _ _ _ _ _ _ Hl Elk Hl3 Elk3) as (->&->&->&->).
      rewrite Hl in Hno. apply Hne. symmetry. eapply (touch_excl st h th2 room i2 rest (it_call it0)); try eassumption.
      destruct Hi3 as [[s Hi3]|[lk3 Hi3]]; rewrite Hi3; cbn [touches_i]; apply live_call_in; assumption.
  Qed.

  Lemma wire_of_nil : forall d did log, (forall f, In (d, f) log -> kind_of f <> None -> f_id f <> did) -> wire_of d did log = [].
  Proof.
    intros d did log H. apply wire_of_none. intros f Hin Hid. destruct (kind_of f) eqn:Ek; [|reflexivity].
    exfalso. eapply (H f); [exact Hin|congruence|exact Hid].
  Qed.

  Lemma pre_alloc : forall d did th0 code0 j x, In (th0, code0) (threads st) -> In j code0 -> pre_kind d did j = Some x ->
    did < c_nextid (getc (conns st) d).
  Proof.
    intros d did th0 code0 j x Hin Hj Hp.
    assert (Hfl : forall own tk ti c, flight j = Some (own, tk, ti, c) -> own = (d, 1, did) -> did < c_nextid (getc (conns st) d)).
    { intros own tk ti c Hfl Ho. destruct (f_own _ _ HF _ _ _ _ _ _ _ Hin Hj Hfl) as (it1&Hl1&_). subst own.
      exact (dest_key_alloc _ _ _ HI Hl1 eq_refl). }
    pose proof (f_thr _ _ HF _ _ _ Hin Hj) as Hthr. pose proof (w_code _ HW _ _ _ Hin Hj) as Hw.
    destruct j; cbn in Hp; try discriminate.
    - destruct ((k0 =? d) && (f_id f =? did)) eqn:E; [|discriminate]. apply andb_true_iff in E. destruct E as [E1 E2].
      apply Z.eqb_eq in E1. apply Z.eqb_eq in E2. subst k0 did. eapply (f_ncget _ _ HF); [exact Hin|exact Hj|congruence].
    - destruct g as [[it s]|]; [|discriminate]. destruct ((k0 =? d) && (f_id f =? did) && negb (it_tomb it)) eqn:E; [|discriminate].
      rewrite !andb_true_iff in E. destruct E as [[E1 E2] E3]. apply Z.eqb_eq in E1. apply Z.eqb_eq in E2. subst k0 did.
      cbn in Hw. destruct Hw as [Hft _]. rewrite (kind_of_response f) in Hft by congruence. inversion Hft. subst ft.
      cbn in Hthr. destruct Hthr as [_ Hown].
      eapply (Hfl own); [|exact Hown]. cbn. rewrite E3. reflexivity.
    - destruct (key_eqb (r_own r) (d, 1, did) && (r_ft r =? c_responseFrame)) eqn:E; [|discriminate].
      apply andb_true_iff in E. destruct E as [E1 E2]. apply key_eqb_ok in E1.
      eapply (Hfl (r_own r)); [|exact E1]. cbn. rewrite E2. reflexivity.
  Qed.

  (* while K0 is a tombstone or gone, a step whose head is not committed to (k, id) commits nothing *)
  Lemma closed_quiet : In (k, id) (seen st) -> k0_notlive k id st ->
    (forall th room i rest, l = LStep th room -> lookup tid_eqb th (threads st) = Some (i :: rest) -> blocked k id i = false) ->
    nb k id st' = nb k id st /\ wout k id st' = wout k id st.
  Proof.
    intros Hseen Hnl Hq. apply (quiet_other Hseen). intros th room i rest Hl Elk. pose proof (Hq _ _ _ _ Hl Elk) as Hbi.
    split; [exact Hbi|]. intros st1 pushed j E Hj. destruct (blocked k id j) eqn:Hb; [|reflexivity]. exfalso.
    destruct (new_blocked_touch _ _ _ _ _ _ _ Hl Elk E Hbi Hj Hb) as (it1&Hl1&Hlive1&_). rewrite (Hnl _ Hl1) in Hlive1. discriminate.
  Qed.

  (* window: the terminal frame is out, the reader is about to delete K0 *)
  Lemma trans_window : forall it0 th lk R, klookup K0 (items st) = Some it0 -> it_tomb it0 = false -> qout k id st = Some WEnd ->
    nb k id st = 0 -> lookup tid_eqb th (threads st) = Some (IDelete K0 lk :: R) -> In (th, it_call it0) h -> phase k id st' h' arr'.
  Proof.
    intros it0 th lk R Hl0 Hlive Hq Hnb Elkw Hh.
    pose proof (k0_seen _ Hl0) as Hseen.
    assert (Hnbl : forall th2 i2 rest, lookup tid_eqb th2 (threads st) = Some (i2 :: rest) -> blocked k id i2 = false).
    { intros th2 i2 rest Elk. eapply (nb_zero_none k id st); [exact Hnb|eapply (lookup_in tid_eqb tid_eqb_ok); exact Elk|left; reflexivity]. }
    destruct (lstep_at_or_not l th) as [(room&Hl)|Hnth].
    - (* the reader deletes K0 *)
      destruct (lstep_inv th room Hl) as (i2&rest&st1&pushed&Elk&E&Hst'). rewrite Elkw in Elk. inversion Elk. subst i2 rest.
      assert (Hnl : k0_notlive k id st') by (eapply k0_closed_by; [exact Hl|exact Elkw|right; eexists; reflexivity]).
      assert (Hnb' : nb k id st' = 0).
      { rewrite Hst', (nb_LStep cf k id _ _ _ _ _ _ _ HI Elkw E). unfold bl at 1. rewrite (Hnbl _ _ _ Elkw), (csum_zero_none k id pushed); [cbn; lia|].
        intros j Hj. pose proof (exec_pushes _ _ _ _ _ _ _ E Hj) as Hp. inversion Hp; reflexivity. }
      apply PhSettled; [apply settled_of; [apply seen_mono; exact Hseen|exact Hnl|exact Hnb']|].
      exists WEnd. rewrite <- Hq. apply qout_same. exact (wout_unblocked _ _ _ _ Hl Elkw eq_refl).
    - (* any other step leaves the window as it is: the reader holds the call *)
      assert (Hoq : forall th2 room i2 rest, l = LStep th2 room -> lookup tid_eqb th2 (threads st) = Some (i2 :: rest) ->
                (forall st1 pushed j, exec cf st i2 room = (st1, pushed) -> In j pushed -> blocked k id j = false) /\ klookup K0 (items st') = Some it0).
      { intros th2 room i2 rest Hl Elk. eapply (other_quiet it0 th th2); try eassumption; [|eapply Hnbl; exact Elk].
        intros ->. eapply Hnth. exact Hl. }
      destruct (quiet_other Hseen) as [Hnb' Hw].
      { intros th2 room i2 rest Hl Elk. split; [eapply Hnbl; exact Elk|apply (Hoq _ _ _ _ Hl Elk)]. }
      assert (Hk0 : klookup K0 (items st') = Some it0).
      { destruct (step_items_keep _ _ _ _ _ _ HI Hs Hl0 Hlive) as [Hk|(th3&room3&rest3&i3&Hl3&Elk3&_)]; [exact Hk|apply (Hoq _ _ _ _ Hl3 Elk3)]. }
      pose proof (step_lookup_other _ _ _ _ _ _ Hs Hnth Elkw) as Elkw'.
      eapply (PhWindow k id st' h' arr' it0 th lk R); try assumption.
      + rewrite (qout_same k id _ _ Hw). exact Hq.
      + lia.
      + eapply held_keep; eassumption.
  Qed.

  (* an error frame for (k, id) is waiting to be enqueued *)
  Lemma trans_err : forall th code ec q, In (th, code) (threads st) -> In (ISendErr k id ec) code -> nb k id st = 1 ->
    k0_notlive k id st -> qout k id st = Some q -> q <> WEnd -> phase k id st' h' arr'.
  Proof.
    intros th code ec q Hin Hj Hnb Hnl Hq Hqe.
    assert (Hbj : blocked k id (ISendErr k id ec) = true) by (cbn; rewrite !Z.eqb_refl; reflexivity).
    pose proof (w_code _ HW _ _ _ Hin Hj) as Hseen. cbn in Hseen.
    assert (Hnb1 : nb k id st <= 1) by lia.
    assert (Hnoadm : forall th0 code0 i f, In (th0, code0) (threads st) -> In i code0 -> adm_kf i = Some (k, f) -> f_id f <> id).
    { intros th0 code0 i f Hin0 Hi Ha Hid.
      assert (Hbi : blocked k id i = true).
      { destruct i; cbn in Ha; try discriminate; inversion Ha; subst; cbn; rewrite !Z.eqb_refl; reflexivity. }
      destruct (unique_blocked k id st _ _ _ _ _ _ (inv_threads_nd _ HI) Hnb1 Hin0 Hi Hbi Hin Hj Hbj) as [_ Heq]. subst i. discriminate. }
    pose proof (notlive_mono Hnl Hnoadm) as Hnl'.
    assert (Hstay : (forall th2 room i2 rest, l = LStep th2 room -> lookup tid_eqb th2 (threads st) = Some (i2 :: rest) -> blocked k id i2 = false) ->
              phase k id st' h' arr').
    { intro Hq2. destruct (closed_quiet Hseen Hnl Hq2) as [Hnb' Hw].
      destruct (step_code_keep _ _ _ _ _ _ _ HI Hs Hin Hj) as [(code'&Hin'&Hj')|(room&rest&Hl&Hc)].
      - eapply (PhErr k id st' h' arr' th code' ec q); try eassumption; [lia|]. rewrite (qout_same k id _ _ Hw). exact Hq.
      - exfalso. subst code. pose proof (thread_lookup _ _ _ HI Hin) as Elk.
        rewrite (Hq2 _ _ _ _ Hl Elk) in Hbj. discriminate. }
    destruct (lstep_or_not l) as [(th2&room&Hl)|Hn]; [|apply Hstay; intros th2 room i2 rest Hl; exfalso; eapply Hn; exact Hl].
    destruct (lstep_inv th2 room Hl) as (i2&rest&st1&pushed&Elk&E&Hst').
    destruct (blocked k id i2) eqn:Hbi.
    - (* the error frame is handed to the connection (or dropped: connection closed / buffer full) *)
      pose proof (lookup_in tid_eqb tid_eqb_ok _ _ _ Elk) as Hin2.
      destruct (unique_blocked k id st _ _ _ _ _ _ (inv_threads_nd _ HI) Hnb1 Hin2 (or_introl eq_refl) Hbi Hin Hj Hbj) as [Hth Hi]. subst th2 i2.
      assert (Hp : pushed = []).
      { cbn [exec] in E. destruct ((c_state (get_conn st k) =? c_connectionClosed) || negb room); inversion E; reflexivity. }
      assert (Hnb' : nb k id st' = 0).
      { rewrite Hst', (nb_LStep cf k id _ _ _ _ _ _ _ HI Elk E), Hp. unfold bl. rewrite Hbj. cbn. lia. }
      apply PhSettled; [apply settled_of; [apply seen_mono; exact Hseen|exact Hnl'|exact Hnb']|].
      pose proof (wout_head _ _ _ _ Hl Elk) as Hw. cbn [enq] in Hw. destruct (_ || negb room) in Hw.
      + exists q. rewrite (qout_same k id st st'); [exact Hq|]. rewrite Hw. apply app_nil_r.
      + exists WEnd. rewrite wire_of_cons in Hw. cbn [f_id wire_of app] in Hw. rewrite !Z.eqb_refl in Hw.
        rewrite (qout_snoc k id _ _ _ _ Hq Hw). destruct q; try reflexivity. contradiction.
    - apply Hstay. intros th3 room3 i3 rest3 Hl3 Elk3. destruct (head_eq _ _ _ _ _ _ _ _ Hl Elk Hl3 Elk3) as (_&_&->&_). exact Hbi.
  Qed.

  Lemma arr'_lstep : forall th room, l = LStep th room -> arr' = arr.
  Proof. intros th room Hl. unfold arr'. rewrite Hl. reflexivity. Qed.

  (* the request is being admitted *)
  Lemma trans_adm : forall th code i f, In (th, code) (threads st) -> In i code -> adm_kf i = Some (k, f) -> f_id f = id ->
    nb k id st = 1 -> wout k id st = [] ->
    (forall e c d did, i = IAddOrig k f e c d did -> dead st d did \/ synced st arr W0 d did) -> phase k id st' h' arr'.
  Proof.
    intros th code i f Hin Hi Ha Hid Hnb Hw0 Hps.
    destruct (inv_code _ HI _ _ Hin) as [Hfo Hsing]. rewrite Forall_forall in Hfo.
    destruct (iok_adm _ _ _ _ _ _ _ Ha (Hfo _ Hi)) as [Hthk (Hseen&Hfree&_)]. rewrite Hid in Hseen, Hfree.
    assert (Hcode : code = [i]) by (apply Hsing; [exact Hi|unfold is_adm; rewrite Ha; reflexivity]). subst code.
    assert (Hbi : blocked k id i = true).
    { destruct i; cbn in Ha; try discriminate; inversion Ha; subst; cbn; rewrite !Z.eqb_refl; reflexivity. }
    assert (Hnb1 : nb k id st <= 1) by lia.
    pose proof (thread_lookup _ _ _ HI Hin) as Elki.
    assert (Hq0 : qout k id st = Some W0) by (unfold qout; rewrite Hw0; reflexivity).
    assert (Hnl : k0_notlive k id st) by (intros it0 Hx; congruence).
    (* the synchronisation with the destination's frames survives any step that is not the admission itself *)
    assert (Hsync : forall e c d did, i = IAddOrig k f e c d did ->
              (forall th2 room r rest, l = LStep th2 room -> lookup tid_eqb th2 (threads st) = Some (IRcvGet r :: rest) -> pre_kind d did (IRcvGet r) = None) /\
              did < c_nextid (getc (conns st) d)).
    { intros e c d did Hieq. subst i. destruct (tp_addorig _ HP _ _ _ _ _ _ _ _ Hin (or_introl eq_refl)) as [Hlt Hao]. split; [|exact Hlt].
      intros th2 room r rest Hl Elk. destruct (pre_kind d did (IRcvGet r)) as [x|] eqn:Ep; [|reflexivity]. exfalso.
      cbn in Ep. destruct (key_eqb (r_own r) (d, 1, did) && (r_ft r =? c_responseFrame)) eqn:Eb; [|discriminate].
      apply andb_true_iff in Eb. destruct Eb as [E1 E2]. apply key_eqb_ok in E1.
      pose proof (lookup_in tid_eqb tid_eqb_ok _ _ _ Elk) as Hin2.
      assert (Hfl : flight (IRcvGet r) = Some (r_own r, r_d r, f_id (r_f r), r_call r)) by (cbn; rewrite E2; reflexivity).
      destruct (f_own _ _ HF _ _ _ _ _ _ _ Hin2 (or_introl eq_refl) Hfl) as (it1&Hl1&_&_&Hd1&Hr1).
      rewrite E1 in Hl1. destruct (Hao _ Hl1) as (A&B&_).
      eapply (f_noadm _ _ HF _ _ _ _ _ _ _ Hin2 (or_introl eq_refl) Hfl th [IAddOrig k f e c d did] (IAddOrig k f e c d did) f); [exact Hin|left; reflexivity| |congruence].
      cbn. rewrite <- Hd1, A. reflexivity. }
    assert (Hstay : (forall th2 room i2 rest, l = LStep th2 room -> lookup tid_eqb th2 (threads st) = Some (i2 :: rest) -> blocked k id i2 = false) ->
              phase k id st' h' arr').
    { intro Hq2. destruct (closed_quiet Hseen Hnl Hq2) as [Hnb' Hw].
      destruct (step_code_keep _ _ _ _ _ _ _ HI Hs Hin Hi) as [(code'&Hin'&Hi')|(room&rest&Hl&Hc)].
      - eapply (PhAdm k id st' h' arr' th code' i f); try eassumption; [lia|rewrite Hw; exact Hw0|].
        intros e c d did Hieq. destruct (Hsync _ _ _ _ Hieq) as [Hnoc Hlt].
        eapply step_synced; try eassumption. eapply Hps. exact Hieq.
      - exfalso. rewrite (Hq2 _ _ _ _ Hl Elki) in Hbi. discriminate. }
    destruct (lstep_or_not l) as [(th2&room&Hl)|Hn]; [|apply Hstay; intros th2 room i2 rest Hl; exfalso; eapply Hn; exact Hl].
    destruct (lstep_inv th2 room Hl) as (i2&rest&st1&pushed&Elk&E&Hst').
    destruct (blocked k id i2) eqn:Hb2; [|apply Hstay; intros th3 room3 i3 rest3 Hl3 Elk3; destruct (head_eq _ _ _ _ _ _ _ _ Hl Elk Hl3 Elk3) as (_&_&->&_); exact Hb2].
    (* the admission goroutine steps *)
    pose proof (lookup_in tid_eqb tid_eqb_ok _ _ _ Elk) as Hin2.
    destruct (unique_blocked k id st _ _ _ _ _ _ (inv_threads_nd _ HI) Hnb1 Hin2 (or_introl eq_refl) Hb2 Hin (or_introl eq_refl) Hbi) as [Hth Hi2]. subst th2 i2.
    rewrite Elki in Elk. inversion Elk. subst rest.
    assert (Hw : wout k id st' = wout k id st).
    { rewrite (wout_head _ _ _ _ Hl Elki). destruct i; try discriminate Ha; apply app_nil_r. }
    assert (Hnb' : nb k id st' = csum (bl k id) pushed).
    { rewrite Hst', (nb_LStep cf k id _ _ _ _ _ _ _ HI Elki E). unfold bl at 1. rewrite Hbi. cbn. lia. }
    assert (Hth' : In (th, pushed ++ []) (threads st') \/ pushed = []).
    { destruct pushed as [|a p]; [right; reflexivity|left]. rewrite Hst'. apply in_set_thread_self. discriminate. }
    pose proof (pushed_bl_count k id _ _ _ _ _ _ E) as Hle.
    destruct (Z_lt_le_dec 0 (csum (bl k id) pushed)) as [Hpos|Hzero].
    - destruct (csum_pos_in k id _ Hpos) as (j&Hj&Hbj).
      destruct Hth' as [Hth'|Hnil]; [|subst pushed; contradiction].
      destruct (adm_pushes k id _ _ _ _ _ Ha (exec_pushes _ _ _ _ _ _ _ E Hj) Hbj) as [Haj|(ec&Hjeq)].
      + eapply (PhAdm k id st' h' arr' th (pushed ++ []) j f); try eassumption; [apply in_or_app; left; exact Hj|lia|rewrite Hw; exact Hw0|].
        intros e c d did Hjeq. destruct (pushes_adm _ _ _ _ _ _ (exec_pushes _ _ _ _ _ _ _ E Hj) Haj) as (_&Hao&_). destruct (Hao _ _ _ _ _ _ Hjeq) as [Hieq Hdid].
        right. rewrite (arr'_lstep _ _ Hl). rewrite get_conn_getc in Hdid.
        assert (Hnone : forall th0 code0 j0, In (th0, code0) (threads st') -> In j0 code0 -> pre_kind d did j0 = None).
        { intros th0 code0 j0 Hin0 Hj0. destruct (pre_kind d did j0) as [x|] eqn:Ep; [|reflexivity]. exfalso.
          destruct (step_code _ _ _ _ _ _ _ Hs Hin0 Hj0) as [(code1&A&B&_)|[(th3&room3&i3&rest3&st3&pushed3&Hl3&_&Elk3&E3&Hp3)|[(k1&f1&e1&Hl3&_)|(tm&Hl3&_)]]];
            try (rewrite Hl in Hl3; discriminate).
          - pose proof (pre_alloc _ _ _ _ _ _ A B Ep). lia.
          - destruct (head_eq _ _ _ _ _ _ _ _ Hl Elki Hl3 Elk3) as (->&->&->&->).
            pose proof (pushes_pre d did _ _ _ _ _ _ (exec_pushes _ _ _ _ _ _ _ E3 Hp3) (f_thr _ _ HF _ _ _ Hin (or_introl eq_refl)) Ep) as Hpi.
            subst i. discriminate. }
        split; [intros th0 code0 j0 x Hin0 Hj0 Hp; rewrite (Hnone _ _ _ Hin0 Hj0) in Hp; discriminate|].
        intros _. unfold qarr. rewrite wire_of_nil; [reflexivity|]. intros f0 Hf0 Hk0 Heq. pose proof (Harr _ _ Hf0 Hk0). lia.
      + subst j. rewrite Hid in Hj.
        assert (Hnl' : k0_notlive k id st').
        { intros it Hl1. apply (lookup_in key_eqb key_eqb_ok) in Hl1.
          destruct (step_items _ _ _ _ _ _ Hs Hl1) as [(it0&Hi0&_)|[(th3&room3&rest3&k1&f1&e1&c1&d1&_&_&Ht&_)|(th3&room3&rest3&k1&f1&e1&c1&d1&did1&Hl3&Elk3&_)]].
          - apply (in_lookup key_eqb key_eqb_ok) in Hi0; [congruence|apply (inv_items_nd _ HI)].
          - inversion Ht.
          - exfalso. rewrite Hl in Hl3. inversion Hl3. subst th3. rewrite Elki in Elk3. inversion Elk3. subst i.
            pose proof (exec_pushes _ _ _ _ _ _ _ E Hj) as Hp. inversion Hp. }
        eapply (PhErr k id st' h' arr' th (pushed ++ []) ec W0); try eassumption; [apply in_or_app; left; exact Hj|lia|rewrite (qout_same k id _ _ Hw); exact Hq0|discriminate].
    - assert (Hnb0 : nb k id st' = 0) by (pose proof (csum_bl_nonneg k id pushed); lia).
      destruct (klookup K0 (items st')) as [it0|] eqn:Hl0'.
      + (* addRelayItem of the originating item *)
        pose proof (lookup_in key_eqb key_eqb_ok _ _ _ Hl0') as Hin0'.
        destruct (step_items _ _ _ _ _ _ Hs Hin0') as [(it1&Hi1&_)|[(th3&room3&rest3&k1&f1&e1&c1&d1&_&_&Ht&_)|(th3&room3&rest3&k1&f1&e1&c1&d1&did1&Hl3&Elk3&Ht&Hc1&Hd1&Hr1&Hlive1)]].
        * apply (in_lookup key_eqb key_eqb_ok) in Hi1; [congruence|apply (inv_items_nd _ HI)].
        * inversion Ht.
        * rewrite Hl in Hl3. inversion Hl3. subst th3 room3. rewrite Elki in Elk3. inversion Elk3. subst i.
          cbn in Ha. inversion Ha. subst k1 f1.
          destruct (Hsync _ _ _ _ eq_refl) as [Hnoc Hlt].
          eapply (PhLive k id st' h' arr' it0 W0); try assumption; [rewrite (qout_same k id _ _ Hw); exact Hq0|discriminate|].
          rewrite Hd1, Hr1.
          destruct (step_synced cf st h l st' arr W0 d1 did1 HA Hs Hlt Hok Hnoc (Hps _ _ _ _ eq_refl)) as [Hd|Hsy]; [left; exact Hd|right; right; exact Hsy].
      + apply PhSettled; [apply settled_of; [apply seen_mono; exact Hseen|intros it Hx; rewrite Hl0' in Hx; discriminate|exact Hnb0]|].
        exists W0. rewrite (qout_same k id _ _ Hw). exact Hq0.
  Qed.

  (* while the reader of d is busy nothing arrives on d *)
  Lemma qarr_busy : forall d did code, In (TR d, code) (threads st) -> qarr arr' d did = qarr arr d did.
  Proof.
    intros d did code Hin. unfold arr', qarr. pose proof Hs as H0. unfold step in H0.
    destruct (negb (panicked st =? 0)); [discriminate|].
    destruct l as [d' f e| | | | | |]; try reflexivity. cbn [arr_step].
    destruct (lookup tid_eqb (TR d') (threads st)) eqn:Eidle; [discriminate|].
    rewrite wire_of_cons. destruct (d' =? d) eqn:E; [|cbn; apply f_equal; apply app_nil_r].
    apply Z.eqb_eq in E. subst d'. exfalso. apply (in_map fst) in Hin. apply (lookup_none_notin tid_eqb tid_eqb_ok) in Eidle. contradiction.
  Qed.

  Lemma committed_inv : forall j r, committed k id j = Some r ->
    blocked k id j = true /\ ((exists rk g, j = IRcvChk r rk g) \/ (exists rk lk, j = IRcvEnq r rk lk)).
  Proof.
    intros j r H. destruct j; cbn [committed] in H; try discriminate.
    - destruct (blocked k id (IRcvChk r0 rk g)) eqn:Eb; [|discriminate]. inversion H. subst. split; [first [exact Eb|reflexivity]|left; eexists; eexists; reflexivity].
    - destruct (blocked k id (IRcvEnq r0 rk lk)) eqn:Eb; [|discriminate]. inversion H. subst. split; [first [exact Eb|reflexivity]|right; eexists; eexists; reflexivity].
  Qed.

  (* data of a blocked forward: it is a response frame of the reader of its own connection, aimed at K0 *)
  Lemma fwd_data : forall th code j r, In (th, code) (threads st) -> In j code -> committed k id j = Some r ->
    r_ft r = c_responseFrame /\ rcv_key r = K0 /\ th = TR (key_conn (r_own r)) /\ key_dir (r_own r) = 1 /\ is_wire (r_f r) = true /\
    (forall rk g, j = IRcvChk r rk g -> rk = K0) /\ (forall rk lk, j = IRcvEnq r rk lk -> rk = K0).
  Proof.
    intros th code j r Hin Hj Hc. destruct (committed_inv _ _ Hc) as [Hb Hform].
    pose proof (w_code _ HW _ _ _ Hin Hj) as Hw. pose proof (f_thr _ _ HF _ _ _ Hin Hj) as Hthr.
    assert (G : rcv_ok (seen st) r -> (r_d r =? k) && (f_id (r_f r) =? id) && is_wire (r_f r) = true ->
              r_ft r = c_responseFrame /\ rcv_key r = K0 /\ is_wire (r_f r) = true).
    { intros Hrok Hbb. destruct (wire_rcv _ _ _ _ Hrok Hbb) as (A&B&_). split; [exact A|]. split; [exact B|].
      apply andb_true_iff in Hbb. apply Hbb. }
    destruct Hform as [(rk&g&->)|(rk&lk&->)].
    - cbn in Hb. destruct g as [[it s]|]; [|discriminate]. cbn in Hw, Hthr. destruct Hthr as [Hrk Hth].
      rewrite !andb_true_iff in Hb. destruct Hb as [[Hb _] _]. rewrite <- !andb_true_iff in Hb.
      destruct (G Hw Hb) as (A&B&C). destruct (Hth A) as [D F]. repeat split; try assumption.
      + intros rk0 g0 Heq. inversion Heq. subst. congruence.
      + intros rk0 lk0 Heq. discriminate.
    - cbn in Hb. cbn in Hw, Hthr. destruct Hthr as [Hrk Hth].
      destruct (G Hw Hb) as (A&B&C). destruct (Hth A) as [D F]. repeat split; try assumption.
      + intros rk0 g0 Heq. discriminate.
      + intros rk0 lk0 Heq. inversion Heq. subst. congruence.
  Qed.

  Lemma lookup_of_in' : forall th code, In (th, code) (threads st') -> lookup tid_eqb th (threads st') = Some code.
  Proof. intros th code Hin. exact (thread_lookup _ _ _ (a_inv _ _ HA') Hin). Qed.

  (* a response frame is committed to be forwarded to (k, id) *)
  Lemma trans_fwd : forall th code j r it0 q x q', In (th, code) (threads st) -> In j code -> committed k id j = Some r -> nb k id st = 1 ->
    klookup K0 (items st) = Some it0 -> it_tomb it0 = false -> In (th, it_call it0) h ->
    r_own r = (it_dest it0, 1, it_remap it0) -> qout k id st = Some q -> kind_of (r_f r) = Some x -> wire_step q x = Some q' ->
    qarr arr (it_dest it0) (it_remap it0) = Some q' -> phase k id st' h' arr'.
  Proof.
    intros th code j r it0 q x q' Hin Hj Hcm Hnb Hl0 Hlive Hh Hown Hq Hk Hst Hqa.
    destruct (committed_inv _ _ Hcm) as [Hbj Hform].
    destruct (fwd_data _ _ _ _ Hin Hj Hcm) as (Hft&Hrk&Hth&Hdir&Hwire&HrkC&HrkE).
    pose proof (k0_seen _ Hl0) as Hseen.
    assert (Hnb1 : nb k id st <= 1) by lia.
    pose proof (thread_lookup _ _ _ HI Hin) as Elkth.
    assert (Hthd : th = TR (it_dest it0)) by (rewrite Hth, Hown; reflexivity).
    assert (Hqa' : qarr arr' (it_dest it0) (it_remap it0) = Some q').
    { rewrite (qarr_busy (it_dest it0) (it_remap it0) code); [exact Hqa|]. rewrite <- Hthd. exact Hin. }
    (* steps that do not execute j *)
    assert (Hstay : (forall th2 room i2 rest, l = LStep th2 room -> lookup tid_eqb th2 (threads st) = Some (i2 :: rest) ->
                       blocked k id i2 = false /\ (th2 = th -> In j rest)) -> phase k id st' h' arr').
    { intro Hq2.
      assert (Hquiet : forall th2 room i2 rest, l = LStep th2 room -> lookup tid_eqb th2 (threads st) = Some (i2 :: rest) ->
                (forall st1 pushed j0, exec cf st i2 room = (st1, pushed) -> In j0 pushed -> blocked k id j0 = false) /\
                klookup K0 (items st') = Some it0).
      { intros th2 room i2 rest Hl Elk. destruct (Hq2 _ _ _ _ Hl Elk) as [Hb2 Hrest].
        destruct (eqb_dec tid_eqb tid_eqb_ok th2 th) as [Heq|Hne]; [|eapply other_quiet; eassumption].
        subst th2. specialize (Hrest eq_refl). pose proof (lookup_in tid_eqb tid_eqb_ok _ _ _ Elk) as Hin2.
        assert (Hnq : quiet j = false) by (destruct Hform as [(rk&g&->)|(rk&lk&->)]; reflexivity).
        assert (Hnop : opener i2 = false).
        { destruct (opener i2) eqn:Eo; [|reflexivity]. destruct (shape_head _ _ (HS _ _ Hin2)) as (_&_&Hqq). specialize (Hqq Eo).
          rewrite forallb_forall in Hqq. rewrite (Hqq _ Hrest) in Hnq. discriminate. }
        split.
        - intros st1 pushed j0 E Hj0. destruct (shape_head _ _ (HS _ _ Hin2)) as (Hg&_&_).
          destruct (exec_shape _ _ _ _ _ _ E Hg) as [_ Hnil]. destruct (Hnil Hnop _ Hj0) as [kk ->]. reflexivity.
        - destruct (step_items_keep _ _ _ _ _ _ HI Hs Hl0 Hlive) as [Hk0|(th3&room3&rest3&i3&Hl3&Elk3&Hi3)]; [exact Hk0|]. exfalso.
          destruct (head_eq _ _ _ _ _ _ _ _ Hl Elk Hl3 Elk3) as (->&->&->&->).
          destruct Hi3 as [[s Hi3]|[lk3 Hi3]]; subst i2; discriminate. }
      destruct (quiet_other Hseen) as [Hnb' Hw].
      { intros th2 room i2 rest Hl Elk. split; [apply (Hq2 _ _ _ _ Hl Elk)|apply (Hquiet _ _ _ _ Hl Elk)]. }
      assert (Hk0 : klookup K0 (items st') = Some it0).
      { destruct (lstep_or_not l) as [(th2&room&Hl)|Hn].
        - destruct (lstep_inv th2 room Hl) as (i2&rest&st1&pushed&Elk&_). apply (Hquiet _ _ _ _ Hl Elk).
        - destruct (step_items_keep _ _ _ _ _ _ HI Hs Hl0 Hlive) as [Hk0|(th3&room3&rest3&i3&Hl3&_)]; [exact Hk0|]. exfalso. eapply Hn. exact Hl3. }
      destruct (step_code_keep _ _ _ _ _ _ _ HI Hs Hin Hj) as [(code'&Hin'&Hj')|(room&rest&Hl&Hc)].
      - eapply (PhFwd k id st' h' arr' th code' j r it0 q x q'); try eassumption; [lia| |rewrite (qout_same k id _ _ Hw); exact Hq].
        eapply held_keep; [exact Hh|apply lookup_of_in'; exact Hin'].
      - exfalso. subst code. destruct (Hq2 _ _ _ _ Hl Elkth) as [Hb2 _]. congruence. }
    destruct (lstep_or_not l) as [(th2&room&Hl)|Hn]; [|apply Hstay; intros th2 room i2 rest Hl; exfalso; eapply Hn; exact Hl].
    destruct (lstep_inv th2 room Hl) as (i2&rest&st1&pushed&Elk&E&Hst').
    pose proof (lookup_in tid_eqb tid_eqb_ok _ _ _ Elk) as Hin2.
    destruct (blocked k id i2) eqn:Hb2.
    2:{ apply Hstay. intros th3 room3 i3 rest3 Hl3 Elk3. destruct (head_eq _ _ _ _ _ _ _ _ Hl Elk Hl3 Elk3) as (->&->&->&->).
        split; [exact Hb2|]. intro Heq. subst th2. rewrite Elkth in Elk. inversion Elk. subst code.
        destruct Hj as [Hj|Hj]; [subst i2; congruence|exact Hj]. }
    (* the committed instruction itself is executed *)
    destruct (unique_blocked k id st _ _ _ _ _ _ (inv_threads_nd _ HI) Hnb1 Hin2 (or_introl eq_refl) Hb2 Hin Hj Hbj) as [Heq Hi2]. subst th2 i2.
    assert (Hitems : items st' = items st).
    { rewrite Hst'. pose proof (exec_items_same _ _ _ _ _ _ E) as Hsame. destruct Hform as [(rk&g&->)|(rk&lk&->)]; exact Hsame. }
    assert (Hk0 : klookup K0 (items st') = Some it0) by (rewrite Hitems; exact Hl0).
    assert (Hself : forall code', lookup tid_eqb th (threads st') = Some code' -> In (th, it_call it0) h').
    { intros code' Hl'. eapply held_keep; eassumption. }
    assert (Hlk' : pushed ++ rest <> [] -> lookup tid_eqb th (threads st') = Some (pushed ++ rest)).
    { intro Hne. rewrite Hst', lookup_set_thread_self. destruct (pushed ++ rest); [contradiction|reflexivity]. }
    destruct Hform as [(rk&g&Hjeq)|(rk&lk&Hjeq)]; subst j.
    - (* IRcvChk -> IRcvEnq *)
      pose proof (HrkC _ _ eq_refl) as Hrk0. subst rk.
      cbn in Hbj. destruct g as [[it s]|]; [|discriminate]. apply andb_true_iff in Hbj. destruct Hbj as [Hbj Hb4].
      apply andb_true_iff in Hbj. destruct Hbj as [Hb1 Hb3]. apply negb_true_iff in Hb3.
      assert (Hchk : it_tomb it || (fin_of (r_f r) && negb s) = false).
      { rewrite Hb3. cbn. destruct (fin_of (r_f r)); [|reflexivity]. cbn in Hb4. rewrite Hb4. reflexivity. }
      pose proof E as E0. cbn [exec] in E0. rewrite Hchk in E0.
      match type of E0 with (_, ?cbs ++ [IRcvEnq r K0 ?lkk]) = _ => set (CBS := cbs) in *; set (LK := lkk) in * end.
      inversion E0. subst st1. clear E0.
      assert (Hbe : blocked k id (IRcvEnq r K0 LK) = true) by (cbn; exact Hb1).
      assert (Hin' : In (th, pushed ++ rest) (threads st')).
      { rewrite Hst'. apply in_set_thread_self. rewrite <- H1. destruct CBS; discriminate. }
      assert (Hje : In (IRcvEnq r K0 LK) (pushed ++ rest)) by (rewrite <- H1; apply in_or_app; left; apply in_or_app; right; left; reflexivity).
      assert (Hnb' : nb k id st' = 1).
      { rewrite Hst', (nb_LStep cf k id _ _ _ _ _ _ _ HI Elk E). pose proof (pushed_bl_count k id _ _ _ _ _ _ E).
        assert (In (IRcvEnq r K0 LK) pushed) by (rewrite <- H1; apply in_or_app; right; left; reflexivity).
        pose proof (csum_in_le k id _ _ H0). unfold bl in *. cbn [blocked] in *. rewrite Hb1 in *. cbn [b2z] in *.
        rewrite Hb3 in *. cbn [negb andb] in *. rewrite Hb4 in *. cbn [b2z] in *. lia. }
      assert (Hw : wout k id st' = wout k id st).
      { rewrite (wout_head _ _ _ _ Hl Elk). apply app_nil_r. }
      eapply (PhFwd k id st' h' arr' th (pushed ++ rest) (IRcvEnq r K0 LK) r it0 q x q'); try eassumption.
      + cbn [committed]. rewrite Hbe. reflexivity.
      + apply (Hself (pushed ++ rest)). apply lookup_of_in'. exact Hin'.
      + rewrite (qout_same k id _ _ Hw). exact Hq.
    - (* IRcvEnq: the frame is handed to the caller's connection, or the buffer is full *)
      pose proof (HrkE _ _ eq_refl) as Hrk0. subst rk.
      assert (Hmore : (0 <? r_more r) = false).
      { destruct (0 <? r_more r) eqn:Em; [|reflexivity]. apply Z.ltb_lt in Em.
        pose proof (w_code _ HW _ _ _ Hin Hj) as Hw. cbn in Hw. destruct Hw as (_&_&C). rewrite (C Em) in Hft. discriminate. }
      pose proof (kind_fin _ _ Hk) as Hfin.
      assert (Hqne : q <> WEnd) by (intro; subst q; rewrite wire_step_end in Hst; discriminate).
      destruct (shape_head _ _ (HS _ _ Hin2)) as (_&_&Hqrest). specialize (Hqrest eq_refl). rewrite forallb_forall in Hqrest.
      destruct room.
      + pose proof E as E0. cbn [exec] in E0. inversion E0. subst st1. clear E0.
        assert (Hw : wout k id st' = wout k id st ++ [x]).
        { rewrite (wout_head _ _ _ _ Hl Elk). cbn [enq]. rewrite wire_of_cons. cbn [wire_of app].
          cbn in Hbj. apply andb_true_iff in Hbj. destruct Hbj as [-> _]. rewrite Hk. reflexivity. }
        assert (Hq' : qout k id st' = Some q') by (rewrite (qout_snoc k id _ _ _ _ Hq Hw); exact Hst).
        assert (Hnb' : nb k id st' = 0).
        { rewrite Hst', (nb_LStep cf k id _ _ _ _ _ _ _ HI Elk E). unfold bl at 1. rewrite Hbj. rewrite <- H1, csum_app, csum_bl_after_sent.
          destruct (fin_of (r_f r)); cbn; lia. }
        unfold after_sent in H1. rewrite Hmore in H1. rewrite app_nil_r in H1.
        destruct (fin_of (r_f r)) eqn:Ef.
        * (* the terminal frame *)
          assert (q' = WEnd) by (apply (wire_step_terminal _ _ _ Hst); congruence). subst q'.
          cbn [app] in H1.
          assert (Hlk'' : lookup tid_eqb th (threads st') = Some (IDelete K0 lk :: IDelete (r_own r) (r_d r, f_id (r_f r)) :: rest)).
          { rewrite Hlk' by (rewrite <- H1; discriminate). rewrite <- H1. reflexivity. }
          eapply (PhWindow k id st' h' arr' it0 th lk (IDelete (r_own r) (r_d r, f_id (r_f r)) :: rest)); try eassumption. apply (Hself _ Hlk'').
        * (* a non-final frame: everything the destination sent so far has been forwarded *)
          assert (Hq'ne : q' <> WEnd).
          { intro Heq. subst q'. pose proof (proj2 (wire_step_terminal _ _ _ Hst) eq_refl). congruence. }
          cbn [app] in H1. subst pushed. cbn [app] in Hst'.
          eapply (PhLive k id st' h' arr' it0 q'); try eassumption. right. right. split.
          -- intros th0 code0 j0 y Hin0 Hj0 Hp. exfalso.
             pose proof (pre_thr _ _ _ _ _ Hp (f_thr _ _ (a_finv _ _ HA') _ _ _ Hin0 Hj0)) as Hth0. rewrite <- Hthd in Hth0. subst th0.
             rewrite Hst' in Hin0. apply set_thread_in in Hin0. destruct Hin0 as [[_ ->]|[Hne _]]; [|apply Hne; reflexivity].
             rewrite (quiet_pre _ _ _ (Hqrest _ Hj0)) in Hp. discriminate.
          -- intros _. exact Hqa'.
      + (* full buffer: the reader goes on to fail the item *)
        pose proof E as E0. cbn [exec] in E0. inversion E0. subst st1. clear E0.
        assert (Hw : wout k id st' = wout k id st).
        { rewrite (wout_head _ _ _ _ Hl Elk). apply app_nil_r. }
        assert (Hnb' : nb k id st' = 0).
        { rewrite Hst', (nb_LStep cf k id _ _ _ _ _ _ _ HI Elk E). unfold bl at 1. rewrite Hbj. rewrite <- H1. cbn. lia. }
        assert (Hlk'' : lookup tid_eqb th (threads st') = Some (pushed ++ rest)) by (apply Hlk'; rewrite <- H1; discriminate).
        eapply (PhLive k id st' h' arr' it0 q); try eassumption; [rewrite (qout_same k id _ _ Hw); exact Hq|].
        right. left. rewrite <- H1 in Hlk''. cbn [app after_unsent] in Hlk''.
        eexists th, _, _. split; [exact Hlk''|]. split; [eapply Hself; exact Hlk''|]. left. eexists. reflexivity.
  Qed.

  (* the originating item is live, nothing is committed *)
  Lemma trans_live : forall it0 q, klookup K0 (items st) = Some it0 -> it_tomb it0 = false -> nb k id st = 0 ->
    qout k id st = Some q -> q <> WEnd ->
    (dead st (it_dest it0) (it_remap it0) \/ doomed k id st h (it_call it0) \/ synced st arr q (it_dest it0) (it_remap it0)) ->
    phase k id st' h' arr'.
  Proof.
    intros it0 q Hl0 Hlive Hnb Hq Hqe Hsy.
    pose proof (k0_seen _ Hl0) as Hseen.
    pose proof (lookup_in key_eqb key_eqb_ok _ _ _ Hl0) as Hin0.
    pose proof (tp_alloc _ HP _ _ Hin0 eq_refl) as Hlt.
    set (d := it_dest it0) in *. set (did := it_remap it0) in *. set (c0 := it_call it0) in *.
    assert (Hnbl : forall th code j, In (th, code) (threads st) -> In j code -> blocked k id j = false).
    { intros. eapply (nb_zero_none k id st); eassumption. }
    (* the disjunction dead / doomed / synced after a step that changes neither K0 nor the log *)
    assert (Hsync' : klookup K0 (items st') = Some it0 ->
       (forall th2 room r rest, l = LStep th2 room -> lookup tid_eqb th2 (threads st) = Some (IRcvGet r :: rest) -> pre_kind d did (IRcvGet r) = None) ->
       (forall th2 room rest r0, l = LStep th2 room -> lookup tid_eqb th2 (threads st) = Some (IFailGet K0 r0 :: rest) -> In (th2, c0) h ->
          lookup tid_eqb th2 (threads st') = Some (IEntomb K0 (FromFail r0) :: rest)) ->
       dead st' d did \/ doomed k id st' h' c0 \/ synced st' arr' q d did).
    { intros Hk0 Hnoc Hfail. destruct Hsy as [Hd|[(th3&i3&R3&Elk3&Hh3&Hi3)|Hsyn]].
      - left. eapply dead_mono; eassumption.
      - right. left. destruct (lstep_at_or_not l th3) as [(room&Hl)|Hn3].
        + destruct Hi3 as [(r0&->)|(r0&->)].
          * exists th3, (IEntomb K0 (FromFail r0)), R3. pose proof (Hfail _ _ _ _ Hl Elk3 Hh3) as Hl'.
            split; [exact Hl'|]. split; [eapply held_keep; eassumption|]. right. exists r0. reflexivity.
          * (* Entomb of the live K0 changes it *)
            exfalso. rewrite (k0_closed_by _ _ _ _ Hl Elk3 (or_introl (ex_intro _ _ eq_refl)) _ Hk0) in Hlive. discriminate.
        + pose proof (step_lookup_other _ _ _ _ _ _ Hs Hn3 Elk3) as Hl'.
          exists th3, i3, R3. split; [exact Hl'|]. split; [eapply held_keep; eassumption|exact Hi3].
      - destruct (step_synced cf st h l st' arr q d did HA Hs Hlt Hok Hnoc (or_intror Hsyn)) as [Hd|Hsy']; [left; exact Hd|right; right; exact Hsy']. }
    destruct (lstep_or_not l) as [(th2&room&Hl)|Hn].
    2:{ destruct (quiet_other Hseen) as [Hnb' Hw]. { intros th2 room i2 rest Hl. exfalso. eapply Hn. exact Hl. }
        assert (Hk0 : klookup K0 (items st') = Some it0).
        { destruct (step_items_keep _ _ _ _ _ _ HI Hs Hl0 Hlive) as [Hk|(th3&room3&rest3&i3&Hl3&_)]; [exact Hk|]. exfalso. eapply Hn. exact Hl3. }
        eapply (PhLive k id st' h' arr' it0 q); try assumption; [lia|rewrite (qout_same k id _ _ Hw); exact Hq|].
        apply Hsync'; [exact Hk0| |]; intros th2 room; intros; exfalso; eapply Hn; eassumption. }
    destruct (lstep_inv th2 room Hl) as (i2&rest&st1&pushed&Elk&E&Hst').
    pose proof (lookup_in tid_eqb tid_eqb_ok _ _ _ Elk) as Hin2.
    pose proof (Hnbl _ _ _ Hin2 (or_introl eq_refl)) as Hb2.
    pose proof (wout_unblocked _ _ _ _ Hl Elk Hb2) as Hw.
    assert (Hq' : qout k id st' = Some q) by (rewrite (qout_same k id _ _ Hw); exact Hq).
    assert (Hnb' : nb k id st' = csum (bl k id) pushed).
    { rewrite Hst', (nb_LStep cf k id _ _ _ _ _ _ _ HI Elk E). unfold bl at 1. rewrite Hb2. cbn. lia. }
    pose proof (pushed_bl_count k id _ _ _ _ _ _ E) as Hle.
    assert (Hlk' : pushed ++ rest <> [] -> lookup tid_eqb th2 (threads st') = Some (pushed ++ rest)).
    { intro Hne. rewrite Hst', lookup_set_thread_self. destruct (pushed ++ rest); [contradiction|reflexivity]. }
    assert (Htouch : forall c, In c (touches_i st i2) -> others_hold h th2 c = false).
    { intros c. apply (no_overlap_touch st h th2 room i2 rest); [rewrite <- Hl; exact Hno|exact Elk]. }
    destruct (step_items_keep _ _ _ _ _ _ HI Hs Hl0 Hlive) as [Hk0|(th3&room3&rest3&i3&Hl3&Elk3&Hi3)].
    - (* K0 is unchanged *)
      destruct (Z_lt_le_dec 0 (csum (bl k id) pushed)) as [Hpos|Hzero].
      + (* Receive looked K0 up: the frame is committed *)
        destruct (csum_pos_in k id _ Hpos) as (j&Hj&Hbj).
        destruct (new_blocked_touch _ _ _ _ _ _ _ Hl Elk E Hb2 Hj Hbj) as (it1&Hl1&_&Ht&[(r&s&Hi2&Hrk&Hjeq)|(s&ec&Hi2&_)]).
        2:{ exfalso. subst i2. rewrite (k0_closed_by _ _ _ _ Hl Elk (or_introl (ex_intro _ _ eq_refl)) _ Hk0) in Hlive. discriminate. }
        rewrite Hl0 in Hl1. inversion Hl1. subst it1 i2 j.
        assert (Hcm : committed k id (IRcvChk r K0 (Some (it0, s))) = Some r) by (cbn [committed]; rewrite Hbj; reflexivity).
        cbn in Hbj. apply andb_true_iff in Hbj. destruct Hbj as [Hbj Hb4]. apply andb_true_iff in Hbj. destruct Hbj as [Hb1 _].
        apply andb_true_iff in Hb1. destruct Hb1 as [Hb1 Hwire]. unfold is_wire in Hwire. destruct (kind_of (r_f r)) as [x|] eqn:Hk; [|discriminate].
        pose proof (w_code _ HW _ _ _ Hin2 (or_introl eq_refl)) as Hwk. cbn in Hwk. destruct Hwk as (A&_&_).
        rewrite (kind_of_response (r_f r)) in A by congruence. assert (Hft : r_ft r = c_responseFrame) by congruence.
        assert (Hfl : flight (IRcvGet r) = Some (r_own r, r_d r, f_id (r_f r), r_call r)) by (cbn; rewrite Hft; reflexivity).
        destruct (f_own _ _ HF _ _ _ _ _ _ _ Hin2 (or_introl eq_refl) Hfl) as (it1&Hlo&Hlo_live&_&Hd1&Hr1).
        pose proof (f_thr _ _ HF _ _ _ Hin2 (or_introl eq_refl)) as Hthr. cbn in Hthr. destruct (Hthr Hft) as [Hth2 Hdir].
        apply andb_true_iff in Hb1. destruct Hb1 as [E1 E2]. apply Z.eqb_eq in E1. apply Z.eqb_eq in E2.
        pose proof (lookup_in key_eqb key_eqb_ok _ _ _ Hlo) as Hino.
        destruct (tp2 _ HP _ _ it0 Hino Hdir) as [Hd0 Hr0]. { rewrite Hd1, Hr1, E1, E2. exact Hl0. }
        assert (Hown : r_own r = (d, 1, did)). { rewrite (key_eta (r_own r)), Hdir. unfold d, did. rewrite Hd0, Hr0. reflexivity. }
        assert (Hh2 : In (th2, c0) h').
        { apply (held_next_self _ _ _ _ _ _ (pushed ++ rest)); [rewrite Hl; reflexivity|apply Hlk'; intro Hnil; apply app_eq_nil in Hnil; destruct Hnil as [-> _]; contradiction|].
          right. unfold acquires, touches. rewrite Hl. unfold head_of. rewrite Elk. apply in_or_app. left. exact Ht. }
        (* legality from the synchronisation *)
        assert (Hleg : qarr arr d did = wire_step q x).
        { destruct Hsy as [Hd|[(th3&i3&R3&Elk3&Hh3&Hi3)|[Hsa _]]].
          - exfalso. rewrite Hown in Hlo. rewrite (Hd _ Hlo) in Hlo_live. discriminate.
          - exfalso. assert (th3 = th2) by (eapply others_hold_false; [apply Htouch; exact Ht|exact Hh3]). subst th3.
            rewrite Elk in Elk3. inversion Elk3. subst i3. destruct Hi3 as [(r0&Hx)|(r0&Hx)]; discriminate.
          - eapply (Hsa th2 _ (IRcvGet r) x Hin2 (or_introl eq_refl)). cbn. rewrite Hown, (proj2 (key_eqb_ok _ _) eq_refl), Hft. cbn. exact Hk. }
        assert (Harr'eq : arr' = arr) by (eapply arr'_lstep; exact Hl).
        destruct (Hok d did) as [q' Hq'a]. fold arr' in Hq'a. rewrite Harr'eq in Hq'a.
        eapply (PhFwd k id st' h' arr' th2 (pushed ++ rest) (IRcvChk r K0 (Some (it0, s))) r it0 q x q'); try eassumption.
        * rewrite Hst'. apply in_set_thread_self. intro Hnil. apply app_eq_nil in Hnil. destruct Hnil as [-> _]. contradiction.
        * apply in_or_app. left. exact Hj.
        * lia.
        * congruence.
        * rewrite Harr'eq. exact Hq'a.
      + (* nothing committed: still live *)
        assert (Hnb0 : nb k id st' = 0) by (pose proof (csum_bl_nonneg k id pushed); lia).
        eapply (PhLive k id st' h' arr' it0 q); try assumption.
        apply Hsync'; [exact Hk0| |].
        * intros th3 room3 r rest3 Hl3 Elk3. rewrite Hl in Hl3. inversion Hl3. subst th3 room3. rewrite Elk in Elk3. inversion Elk3. subst i2 rest3.
          destruct (pre_kind d did (IRcvGet r)) as [x|] eqn:Ep; [|reflexivity]. exfalso.
          cbn in Ep. destruct (key_eqb (r_own r) (d, 1, did) && (r_ft r =? c_responseFrame)) eqn:Eb; [|discriminate].
          apply andb_true_iff in Eb. destruct Eb as [Eo Eft]. apply key_eqb_ok in Eo. apply Z.eqb_eq in Eft.
          assert (Hfl : flight (IRcvGet r) = Some (r_own r, r_d r, f_id (r_f r), r_call r)) by (cbn; rewrite Eft; reflexivity).
          destruct (f_own _ _ HF _ _ _ _ _ _ _ Hin2 (or_introl eq_refl) Hfl) as (it1&Hlo&Hlo_live&_&Hd1&Hr1).
          rewrite Eo in Hlo. destruct (tp3 _ HP _ _ it1 Hin0 eq_refl Hlo) as [Hdk Hrk].
          cbn [key_conn key_id fst snd] in Hdk, Hrk.
          assert (Hrkey : rcv_key r = K0). { unfold rcv_key. rewrite Eft, <- Hd1, <- Hr1, Hdk, Hrk. reflexivity. }
          (* the Get returns the live K0 and the frame is committed *)
          cbn [exec] in E. fold (rcv_key r) in E. rewrite Hrkey in E.
          destruct (items_get st K0 (fin_of (r_f r))) as [st2 g] eqn:Eg. inversion E. subst st1 pushed. clear E.
          destruct (items_get_spec _ _ _ _ _ Eg) as [_ Hm]. rewrite Hl0 in Hm. destruct Hm as [b ->].
          assert (Hcommit : negb (fin_of (r_f r)) || b = true).
          { destruct (fin_of (r_f r)) eqn:Ef; [|reflexivity]. cbn. destruct b; [reflexivity|]. exfalso.
            eapply (get_wins st h th2 (IRcvGet r) rest K0); try eassumption; try reflexivity.
            intros c Hc. apply Htouch. cbn [touches_i gets_i]. rewrite Hrkey. exact Hc. }
          cbn [csum] in Hzero. unfold bl in Hzero. cbn [blocked] in Hzero.
          rewrite <- Hd1, Hdk, <- Hr1, Hrk, !Z.eqb_refl, Hlive, Hcommit in Hzero. unfold is_wire in Hzero. rewrite Ep in Hzero. cbn in Hzero. lia.
        * intros th3 room3 rest3 r0 Hl3 Elk3 Hh3. rewrite Hl in Hl3. inversion Hl3. subst th3 room3. rewrite Elk in Elk3. inversion Elk3. subst i2 rest3.
          cbn [exec] in E. destruct (items_get st K0 true) as [st2 g] eqn:Eg.
          destruct (items_get_spec _ _ _ _ _ Eg) as [_ Hm]. rewrite Hl0 in Hm. destruct Hm as [b ->].
          destruct b.
          -- inversion E. subst st1 pushed. rewrite Hlk' by discriminate. reflexivity.
          -- exfalso. eapply (get_wins st h th2 (IFailGet K0 r0) rest K0); try eassumption; reflexivity.
    - (* K0 is entombed or deleted by this step *)
      destruct (head_eq _ _ _ _ _ _ _ _ Hl Elk Hl3 Elk3) as (->&->&->&->).
      pose proof (k0_closed_by _ _ _ _ Hl Elk Hi3) as Hnl'.
      destruct (Z_lt_le_dec 0 (csum (bl k id) pushed)) as [Hpos|Hzero].
      + destruct (csum_pos_in k id _ Hpos) as (j&Hj&Hbj).
        destruct (new_blocked_touch _ _ _ _ _ _ _ Hl Elk E Hb2 Hj Hbj) as (it1&_&_&_&[(r&s&Hi2&_)|(s&ec&Hi2&Hjeq)]).
        * exfalso. destruct Hi3 as [[s3 Hi3]|[lk4 Hi3]]; congruence.
        * subst j. eapply (PhErr k id st' h' arr' th2 (pushed ++ rest) ec q); try eassumption; [|apply in_or_app; left; exact Hj|lia].
          rewrite Hst'. apply in_set_thread_self. intro Hnil. apply app_eq_nil in Hnil. destruct Hnil as [-> _]. contradiction.
      + assert (Hnb0 : nb k id st' = 0) by (pose proof (csum_bl_nonneg k id pushed); lia).
        apply PhSettled; [apply settled_of; [apply seen_mono; exact Hseen|exact Hnl'|exact Hnb0]|]. exists q. exact Hq'.
  Qed.

  Lemma trans_unseen : ~ In (k, id) (seen st) -> phase k id st' h' arr'.
  Proof.
    intro Hu. destruct (step_seen cf _ _ _ Hs) as [Hsame|(k0&f&e&Hl&Hsn&Hmt)].
    - apply PhUnseen. rewrite Hsame. exact Hu.
    - destruct (Z.eq_dec k0 k) as [->|Hnk]; [destruct (Z.eq_dec (f_id f) id) as [Hid|Hnid]|].
      + (* the request is read *)
        pose proof Hs as H0. rewrite Hl in H0. unfold step in H0. destruct (negb (panicked st =? 0)); [discriminate|].
        destruct (lookup tid_eqb (TR k) (threads st)) eqn:Eidle; [discriminate|].
        destruct (relayRoute (f_mt f) (cf_cancel cf) =? 1) eqn:Er; [|inversion H0; subst st'; rewrite Hsn in Hu; exfalso; apply (f_equal (@length _)) in Hsn; cbn in Hsn; lia].
        rewrite Hmt in H0.
        assert (Hst' : st' = set_thread (set_seen st ((k, f_id f) :: seen st)) (TR k) [IStart k f e]) by (inversion H0; reflexivity). clear H0.
        apply (PhAdm k id st' h' arr' (TR k) [IStart k f e] (IStart k f e) f).
        * rewrite Hst'. apply in_set_thread_self. discriminate.
        * left. reflexivity.
        * reflexivity.
        * exact Hid.
        * rewrite (nb_other cf k id _ _ _ HI Hs) by (intros; subst l; discriminate). rewrite Hl, Er, Hmt. cbn [andb].
          rewrite (none_nb_zero k id st) by (intros; eapply unseen_unblocked; eassumption).
          unfold bl. cbn. rewrite Z.eqb_refl, Hid, Z.eqb_refl. reflexivity.
        * rewrite wout_other by (intros th room Heq; rewrite Hl in Heq; discriminate). apply unseen_wout; assumption.
        * intros; discriminate.
      + apply PhUnseen. rewrite Hsn. intros [Hx|Hx]; [inversion Hx; contradiction|contradiction].
      + apply PhUnseen. rewrite Hsn. intros [Hx|Hx]; [inversion Hx; contradiction|contradiction].
  Qed.

  Lemma trans_settled : settled st k id -> (exists q, qout k id st = Some q) -> phase k id st' h' arr'.
  Proof.
    intros Hset [q Hq]. destruct (step_settled _ _ _ _ _ _ HI HW Hfresh Hset Hs) as [Hset' Hw].
    apply PhSettled; [exact Hset'|]. exists q. unfold qout, wout in *. rewrite Hw. exact Hq.
  Qed.
  Theorem phase_step : phase k id st h arr -> phase k id st' h' arr'.
  Proof.
    intros [Hu|Hset Hq|th code i f H1 H2 H3 H4 H5 H6 H7|th code ec q H1 H2 H3 H4 H5 H6|it0 q H1 H2 H3 H4 H5 H6|th code j r it0 q x q' H1 H2 H3 H4 H5 H6 H7 H8 H9 H10 H11 H12|it0 th R H1 H2 H3 H4 H5 H6].
    - apply trans_unseen. exact Hu.
    - apply trans_settled; assumption.
    - eapply trans_adm; eassumption.
    - eapply trans_err; eassumption.
    - eapply trans_live; eassumption.
    - eapply trans_fwd; eassumption.
    - eapply trans_window; eassumption.
  Qed.

  Lemma arr_inv_step : forall d f, In (d, f) arr' -> kind_of f <> None -> f_id f < c_nextid (getc (conns st') d).
  Proof.
    intros d f Hin Hk. pose proof (step_nextid_mono cf _ _ _ d Hs) as Hm.
    assert (Hold : In (d, f) arr -> f_id f < c_nextid (getc (conns st') d)) by (intro Hi; pose proof (Harr _ _ Hi Hk); lia).
    unfold arr' in Hin. pose proof Hcau as Hc. destruct l as [d0 f0 e0| | | | | |]; cbn [arr_step] in Hin; try (apply Hold; exact Hin).
    destruct Hin as [Heq|Hin]; [|apply Hold; exact Hin]. inversion Heq. subst d0 f0. cbn [causal_step] in Hc.
    destruct (kind_of f); [|contradiction Hk; reflexivity]. apply Z.ltb_lt in Hc. rewrite get_conn_getc in Hc. lia.
  Qed.
End Trans.

Theorem relay_grammar_calm_q : forall cf ls st k id, run_fresh cf init ls = Some st ->
  no_overlap cf ls -> causal cf ls -> dest_ok ls -> exists q, wire_run W0 (wire_of k id (sent st)) = Some q.
Proof.
  intros cf ls st k id Hrun Hno Hca Hde. unfold no_overlap in Hno. unfold causal in Hca. unfold dest_ok in Hde.
  assert (G : forall ls st0 h arr, AllInv st0 h -> phase k id st0 h arr ->
            (forall d f, In (d, f) arr -> kind_of f <> None -> f_id f < c_nextid (getc (conns st0) d)) ->
            run_fresh cf st0 ls = Some st -> sched cf no_overlap_step st0 h ls = true -> causal_run cf st0 ls = true ->
            (forall d did, wire_prefix_ok (wire_of d did (arr_run arr ls)) = true) -> exists q, qout k id st = Some q).
  { clear. induction ls as [|l r IH]; intros st0 h arr HA Hph Harr Hrun Hno Hca Hde; cbn in Hrun.
    - inversion Hrun. subst. eapply phase_q; [apply (a_winv _ _ HA)|exact Hph].
    - destruct (fresh_label st0 l) eqn:Ef; [|discriminate]. destruct (step cf st0 l) as [st1|] eqn:Es; [|discriminate].
      cbn in Hno, Hca. rewrite Es in Hno, Hca. apply andb_true_iff in Hno. destruct Hno as [Hno1 Hno2]. apply andb_true_iff in Hca. destruct Hca as [Hca1 Hca2].
      assert (Hok : arr_ok (arr_step arr l)) by (eapply dest_ok_arr_ok; exact Hde).
      eapply (IH st1 (held_next st0 l st1 h) (arr_step arr l)).
      + eapply step_all; eassumption.
      + eapply phase_step; eassumption.
      + eapply arr_inv_step; eassumption.
      + exact Hrun.
      + exact Hno2.
      + exact Hca2.
      + exact Hde. }
  eapply (G ls init [] []); try eassumption.
  - apply AllInv_init.
  - apply PhUnseen. intros [].
  - intros d f [].
Qed.

(* C10 for the relay: for every fresh-id schedule without overlap, with destinations that send a
   prefix of an accepted word per message id and do not answer ids the relay has not allocated,
   the frames enqueued towards the caller for a request are a prefix of an accepted word, with
   at most one terminal frame and nothing after it *)
Theorem relay_grammar_calm : forall cf ls st k id, run_fresh cf init ls = Some st ->
  no_overlap cf ls -> causal cf ls -> dest_ok ls ->
  wire_prefix_ok (wire_of k id (sent st)) = true /\
  (forall l1 x l2, wire_of k id (sent st) = l1 ++ x :: l2 -> terminal x = true -> l2 = []) /\
  (length (filter terminal (wire_of k id (sent st))) <= 1)%nat.
Proof.
  intros cf ls st k id Hrun Hno Hca Hde.
  assert (Hp : wire_prefix_ok (wire_of k id (sent st)) = true).
  { apply wire_prefix_ok_run. eapply relay_grammar_calm_q; eassumption. }
  split; [exact Hp|]. split.
  - intros l1 x l2 Heq Ht. rewrite Heq in Hp. eapply prefix_ok_terminal_last; eassumption.
  - apply prefix_ok_one_terminal. exact Hp.
Qed.

(* non-vacuity: the complete relayed call of RelaySilentP satisfies all three hypotheses; the
   run refuting the grammar (response frame after the timeout error frame) has an overlap *)
Example calm_example_hyps : no_overlap wit_cf calm_example /\ causal wit_cf calm_example /\ dest_ok calm_example.
Proof.
  split; [vm_compute; reflexivity|]. split; [vm_compute; reflexivity|].
  intros d did. set (a := arr_run [] calm_example). vm_compute in a. subst a.
  rewrite !wire_of_cons. cbn [wire_of app f_id].
  destruct ((1 =? d) && (1 =? did)); destruct ((0 =? d) && (7 =? did)); reflexivity.
Qed.

Example wit_wire_overlap : sched wit_cf no_overlap_step init [] wit_wire = false.
Proof. vm_compute. reflexivity. Qed.
