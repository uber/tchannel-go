From Coq Require Import ZArith List Bool Lia.
From Verif Require Import Base.Wrap Base.Bytes Gen.GenConsts Gen.GenFrame Model.TypedBuf Model.Messages
  Spec.Protocol Proofs.CodecP.
Import ListNotations.
Local Open Scope Z_scope.

Lemma app_eq_prefix {A} (hd p pre q : list A) :
  hd ++ p = pre ++ q -> (length hd <= length pre)%nat -> exists p1, pre = hd ++ p1 /\ p = p1 ++ q.
Proof.
  intros E Hl. destruct (app_eq_app _ _ _ _ E) as [l [[-> ->]|[-> ->]]]; [|exists l; auto].
  rewrite app_length in Hl. destruct l; [|cbn in Hl; lia]. exists []. rewrite !app_nil_r. auto.
Qed.

Lemma SetPayloadSize_ok n : 0 <= n <= 65519 -> SetPayloadSize (wrapU 16 n) = 16 + n.
Proof.
  intros H. unfold SetPayloadSize, c_FrameHeaderSize. rewrite (wrapU_id 16 n) by (cbn; lia).
  rewrite wrapU_id by (cbn; lia). lia.
Qed.

(* all 65536 values of the 16-bit size field: the payload size test of ReadBody rejects
   exactly the sizes below the header size *)
Lemma payload_size_classify size : 0 <= size < 65536 ->
  (PayloadSize size >? c_MaxFramePayloadSize) = (size <? 16) /\
  (16 <= size -> PayloadSize size = size - 16).
Proof.
  intros H. unfold PayloadSize, c_MaxFramePayloadSize, c_FrameHeaderSize, wrapU.
  change (2 ^ 16) with 65536.
  destruct (Z_lt_le_dec size 16) as [L|L].
  - replace ((size - 16) mod 65536) with (size - 16 + 65536) by (apply Z.mod_unique with (q := -1); lia).
    lia.
  - rewrite Z.mod_small by lia. lia.
Qed.

Lemma frame_write_ok cap body bs t id :
  writes body bs -> zlen bs <= cap -> cap <= c_MaxFramePayloadSize ->
  frame_write cap body t id = Some (mkFH (16 + zlen bs) t 0 id, bs).
Proof.
  intros [W _] H1 H2. unfold frame_write. rewrite (W (wb cap)) by (cbn; lia). cbn [werr wout wb app Z.eqb].
  rewrite SetPayloadSize_ok; [reflexivity|]. pose proof (zlen_nonneg bs). unfold c_MaxFramePayloadSize in H2. lia.
Qed.

(* a body that does not fit is refused (ErrBufferFull): nothing is truncated *)
Lemma frame_write_full cap body bs t id :
  writes body bs -> 0 <= cap < zlen bs -> frame_write cap body t id = None.
Proof.
  intros [_ [W _]] H. unfold frame_write. rewrite (W (wb cap)) by (cbn; lia). reflexivity.
Qed.

(* the 16 header bytes; the last eight are reserved: zeros when written, anything when read *)
Definition hdr_bytes (h : fheader) (res8 : list Z) : list Z :=
  be 2 (fh_size h) ++ [fh_type h] ++ [fh_res1 h] ++ be 4 (fh_id h) ++ res8.

Definition hdr_ok (h : fheader) : Prop :=
  u_ok 2 (fh_size h) /\ u_ok 1 (fh_type h) /\ u_ok 1 (fh_res1 h) /\ u_ok 4 (fh_id h).

Lemma hdr_bytes_length h res8 : length res8 = 8%nat -> length (hdr_bytes h res8) = 16%nat.
Proof. intros L. unfold hdr_bytes. rewrite !app_length, !be_length, L. reflexivity. Qed.

Lemma hdr_ok_frame t r1 id (p : list Z) : u_ok 1 t -> u_ok 1 r1 -> u_ok 4 id -> zlen p <= 65519 ->
  hdr_ok (mkFH (16 + zlen p) t r1 id).
Proof. intros T R I H. split; [apply u_ok_2; cbn [fh_size]; pose proof (zlen_nonneg p); lia|exact (conj T (conj R I))]. Qed.

Lemma w_fheader_writes h : u_ok 1 (fh_type h) -> u_ok 1 (fh_res1 h) ->
  writes (w_fheader h) (hdr_bytes h (repeat 0 8)).
Proof.
  intros A B. unfold w_fheader.
  apply seq_writes; [apply w_uint_writes|]. apply seq_writes; [apply w_u8_writes, A|].
  apply seq_writes; [apply w_u8_writes, B|]. apply seq_writes; [apply w_uint_writes|]. apply w_bytes_writes.
Qed.

Lemma s_frame_split t id p :
  s_frame t id p = (be 2 (16 + zlen p) ++ [t] ++ [0] ++ be 4 id ++ repeat 0 8) ++ p.
Proof. unfold s_frame. cbn [repeat]. rewrite <- !app_assoc. reflexivity. Qed.

Lemma hdr_length t id n : length (be 2 n ++ [t] ++ [0] ++ be 4 id ++ repeat 0 8) = 16%nat.
Proof. exact (hdr_bytes_length (mkFH n t 0 id) (repeat 0 8) eq_refl). Qed.

Lemma frame_out_spec t id p :
  u_ok 1 t -> zlen p <= 65519 ->
  frame_out (mkFH (16 + zlen p) t 0 id) p = s_frame t id p.
Proof.
  intros A H. unfold frame_out.
  destruct (w_fheader_writes (mkFH (16 + zlen p) t 0 id) A (u_ok_1 0 ltac:(lia))) as [W _].
  rewrite W; [|reflexivity|unfold zlen; rewrite hdr_bytes_length; [cbn; lia|reflexivity]].
  cbn [wout wb app fh_size]. unfold c_FrameHeaderSize.
  replace (16 + zlen p - 16) with (zlen p) by lia. unfold zlen. rewrite Nat2Z.id, firstn_all.
  symmetry. apply s_frame_split.
Qed.

Lemma r_fheader_consumes h res8 : hdr_ok h -> length res8 = 8%nat -> consumes r_fheader (hdr_bytes h res8) h.
Proof.
  intros [A [B [C D]]] L. unfold r_fheader, hdr_bytes. destruct h as [s t r1 i].
  eapply consumes_bind; [apply r_uint_consumes, A| |sticky_tac].
  eapply consumes_bind; [apply r_u8_consumes, B| |sticky_tac].
  eapply consumes_bind; [apply r_u8_consumes, C| |sticky_tac].
  eapply consumes_bind; [apply r_uint_consumes, D| |sticky_tac].
  apply (consumes_bind_ret (r_bytes 8) (fun _ => mkFH s t r1 i) res8 res8). rewrite <- L. apply r_bytes_consumes.
Qed.

Lemma frame_read_in_hdr hd s : length hd = 16%nat -> frame_read_in (hd ++ s) = frame_read_body hd s.
Proof.
  intros L. unfold frame_read_in, c_FrameHeaderSize. rewrite zlen_app. unfold zlen at 1. rewrite L.
  pose proof (zlen_nonneg s). destruct (Z.ltb_spec (Z.of_nat 16 + zlen s) 16); [lia|].
  rewrite <- L, firstn_exact, skipn_exact. reflexivity.
Qed.

(* ReadBody behind a well-formed header: sizes below 16 are invalid, any other size says how
   many payload bytes are wanted *)
Lemma frame_read_body_hdr h res8 stream : hdr_ok h -> length res8 = 8%nat ->
  frame_read_body (hdr_bytes h res8) stream =
    if fh_size h <? 16 then (1, h, [], stream)
    else let n := fh_size h - 16 in
      if n >? 0 then
        if zlen stream <? n then (2, h, [], stream)
        else (0, h, firstn (Z.to_nat n) stream, skipn (Z.to_nat n) stream)
      else (0, h, [], stream).
Proof.
  intros Hh L8. unfold frame_read_body.
  rewrite <- (app_nil_r (hdr_bytes h res8)), (proj1 (r_fheader_consumes h res8 Hh L8) []). cbn [rerr rb].
  destruct (payload_size_classify (fh_size h) (proj1 Hh)) as [P1 P2]. rewrite P1.
  destruct (Z.ltb_spec (fh_size h) 16); [reflexivity|]. rewrite P2 by assumption. reflexivity.
Qed.

Lemma frame_read_in_ok h res8 p rest : hdr_ok h -> length res8 = 8%nat -> fh_size h = 16 + zlen p ->
  frame_read_in (hdr_bytes h res8 ++ p ++ rest) = (0, h, p, rest).
Proof.
  intros Hh L8 Hs. rewrite frame_read_in_hdr, frame_read_body_hdr, Hs, Z.add_simpl_l by auto using hdr_bytes_length.
  pose proof (zlen_nonneg p). destruct (Z.ltb_spec (16 + zlen p) 16); [lia|]. cbv zeta.
  destruct (Z.gtb_spec (zlen p) 0) as [G|G].
  - rewrite zlen_app. pose proof (zlen_nonneg rest). destruct (Z.ltb_spec (zlen p + zlen rest) (zlen p)); [lia|].
    unfold zlen. rewrite Nat2Z.id, firstn_exact, skipn_exact. reflexivity.
  - destruct p as [|x p]; [reflexivity|]. rewrite zlen_cons in *. pose proof (zlen_nonneg p). lia.
Qed.

Lemma frame_read_in_short h res8 p pre : hdr_ok h -> length res8 = 8%nat -> fh_size h = 16 + zlen p ->
  strict_prefix pre (hdr_bytes h res8 ++ p) -> fst (fst (fst (frame_read_in pre))) = 2.
Proof.
  intros Hh L8 Hs [q [Hq E]]. pose proof (hdr_bytes_length h res8 L8) as L.
  destruct (Z.ltb_spec (zlen pre) c_FrameHeaderSize) as [Z1|Z1].
  { unfold frame_read_in. rewrite (proj2 (Z.ltb_lt _ _) Z1). reflexivity. }
  destruct (app_eq_prefix _ _ _ _ E) as [p1 [-> Ep]].
  { rewrite L. unfold zlen, c_FrameHeaderSize in Z1. lia. }
  rewrite frame_read_in_hdr, frame_read_body_hdr, Hs, Z.add_simpl_l, Ep, zlen_app by assumption.
  pose proof (zlen_pos q Hq). pose proof (zlen_nonneg p1).
  destruct (Z.ltb_spec (16 + (zlen p1 + zlen q)) 16); [lia|]. cbv zeta.
  destruct (Z.gtb_spec (zlen p1 + zlen q) 0); [|lia].
  destruct (Z.ltb_spec (zlen p1) (zlen p1 + zlen q)); [reflexivity|lia].
Qed.

(* ReadIn on a well-formed frame followed by anything: returns exactly the frame's
   fields and payload and leaves the rest of the stream untouched *)
Lemma frame_read_in_spec t id p rest :
  u_ok 1 t -> u_ok 4 id -> zlen p <= 65519 ->
  frame_read_in (s_frame t id p ++ rest) = (0, mkFH (16 + zlen p) t 0 id, p, rest).
Proof.
  intros A B H. rewrite s_frame_split, <- app_assoc.
  apply (frame_read_in_ok (mkFH (16 + zlen p) t 0 id) (repeat 0 8)); [|reflexivity|reflexivity].
  apply hdr_ok_frame; auto. apply u_ok_1. lia.
Qed.

(* every strict prefix of a frame is a short read (never a frame) *)
Lemma frame_read_in_prefix t id p pre :
  u_ok 1 t -> u_ok 4 id -> zlen p <= 65519 -> strict_prefix pre (s_frame t id p) ->
  fst (fst (fst (frame_read_in pre))) = 2.
Proof.
  intros A B H S. rewrite s_frame_split in S.
  apply (frame_read_in_short (mkFH (16 + zlen p) t 0 id) (repeat 0 8) p); [|reflexivity|reflexivity|exact S].
  apply hdr_ok_frame; auto. apply u_ok_1. lia.
Qed.
