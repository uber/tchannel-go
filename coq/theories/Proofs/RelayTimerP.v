(* Relay model: the timer protocol and the completion obligations.
   TInv (with Inv) holds in every reachable state of fresh-id runs:
   - every item has its own, unreleased timer; timers follow
       armed -> (stopped | fired -> ran), released only after stopped/ran;
   - no Go panic of the timer pool is ever reached (C09_timer_protocol);
   - every live item is still armed, or its OnTimer goroutine is pending, or its timer is
     stopped and some goroutine still owes the Entomb/Delete of it (=> when nothing is left
     to run, nothing is left in the tables: C09_end_exactly_once, C09_forgotten). *)
From Coq Require Import ZArith List Bool Lia.
From Verif Require Import Base.Wrap Gen.GenConsts Gen.GenFrame Model.RelayItems
  Proofs.RelayAssocP Proofs.RelayCoreP Proofs.RelayInv9P.
Import ListNotations.
Local Open Scope Z_scope.

Notation zlookup := (lookup Z.eqb).
Notation zinsert := (insert Z.eqb).

(* keys whose timer the instruction knows to be stopped: it will Entomb or Delete them *)
Definition sk (i : instr) : list key :=
  match i with
  | INcChk _ f _ own (Some (it, true)) => if fin_of f && negb (it_tomb it) then [own] else []
  | IRcvGet r => if fin_of (r_f r) then [r_own r] else []
  | IRcvChk r rk g =>
      (if fin_of (r_f r) then [r_own r] else []) ++
      match g with
      | Some (it, true) => if fin_of (r_f r) && negb (it_tomb it) then [rk] else []
      | _ => []
      end
  | IRcvEnq r rk _ => if fin_of (r_f r) then [r_own r; rk] else []
  | IEntomb t (FromFail _) => [t]
  | IDelete t _ => [t]
  | _ => []
  end.

(* keys the instruction will Entomb/Delete provided their timer is stopped when it gets there *)
Definition owes (i : instr) : list key :=
  sk i ++ match i with IFailGet t _ => [t] | _ => [] end.

Definition is_trun (i : instr) : bool := match i with ITimerRun _ => true | _ => false end.
Definition is_tent (i : instr) : bool := match i with IEntomb _ (FromTimeout _) => true | _ => false end.

Definition phase_ok (ths : list (tid * list instr)) (tm : Z) (x : timer) : Prop :=
  (tm_armed x = true -> tm_active x = true /\ tm_stopped x = false /\ tm_released x = false) /\
  (tm_stopped x = true -> tm_active x = false /\ tm_armed x = false) /\
  (tm_released x = true -> tm_active x = false) /\
  (tm_active x = true -> tm_armed x = false -> lookup tid_eqb (TT tm) ths = Some [ITimerRun tm]).

Definition tcode_ok (tms : list (Z * timer)) (th : tid) (code : list instr) : Prop :=
  match code with
  | [] => True
  | i :: rest =>
      (forall j, In j rest -> is_trun j = false /\ is_tent j = false) /\
      match i with
      | ITimerRun tm =>
          th = TT tm /\ rest = [] /\
          exists x, zlookup tm tms = Some x /\ tm_active x = true /\ tm_armed x = false /\ tm_released x = false
      | IEntomb t (FromTimeout _) =>
          exists tm x, th = TT tm /\ zlookup tm tms = Some x /\ tm_key x = t /\
                       tm_active x = false /\ tm_stopped x = false /\ tm_armed x = false
      | _ => True
      end
  end.

Definition tt_pending (code : list instr) (tm : Z) (t : key) : Prop :=
  code = [ITimerRun tm] \/ exists o rest, code = IEntomb t (FromTimeout o) :: rest.

Definition oblig (tms : list (Z * timer)) (ths : list (tid * list instr)) (t : key) (it : item) : Prop :=
  exists x, zlookup (it_tm it) tms = Some x /\
    (tm_armed x = true \/
     (exists code, In (TT (it_tm it), code) ths /\ tt_pending code (it_tm it) t) \/
     (tm_stopped x = true /\ exists th code j, In (th, code) ths /\ In j code /\ In t (owes j))).

Record TInv (st : state) : Prop := {
  t_item : forall t it, In (t, it) (items st) ->
             exists x, zlookup (it_tm it) (timers st) = Some x /\ tm_key x = t /\ tm_released x = false;
  t_uniq : forall tm1 tm2 x1 x2, zlookup tm1 (timers st) = Some x1 -> zlookup tm2 (timers st) = Some x2 ->
             tm_key x1 = tm_key x2 -> tm1 = tm2;
  t_alloc : forall tm x, zlookup tm (timers st) = Some x ->
             tm < next_tm st /\
             ((key_dir (tm_key x) = 0 /\ In (key_conn (tm_key x), key_id (tm_key x)) (seen st)) \/
              (key_dir (tm_key x) = 1 /\ key_id (tm_key x) < c_nextid (getc (conns st) (key_conn (tm_key x)))));
  t_adm : forall th code i k f, In (th, code) (threads st) -> In i code -> adm_kf i = Some (k, f) ->
             forall tm x, zlookup tm (timers st) = Some x -> tm_key x <> (k, 0, f_id f);
  t_phase : forall tm x, zlookup tm (timers st) = Some x -> phase_ok (threads st) tm x;
  t_code : forall th code, In (th, code) (threads st) -> tcode_ok (timers st) th code;
  t_sk : forall th code j t, In (th, code) (threads st) -> In j code -> In t (sk j) ->
             exists tm x, zlookup tm (timers st) = Some x /\ tm_key x = t /\ tm_stopped x = true;
  t_tomb : forall t it, In (t, it) (items st) -> it_tomb it = true ->
             In t (gcs st) /\ exists x, zlookup (it_tm it) (timers st) = Some x /\ tm_active x = false;
  t_ncget : forall th code k f, In (th, code) (threads st) -> In (INcGet k f) code -> frameTypeFor (f_mt f) <> None;
  t_oblig : forall t it, In (t, it) (items st) -> it_tomb it = false -> oblig (timers st) (threads st) t it;
  t_nopanic : panicked st = 0
}.

Definition stopped_timer (x : timer) : timer :=
  {| tm_armed := false; tm_active := false; tm_stopped := true; tm_released := false;
     tm_key := tm_key x; tm_orig := tm_orig x |}.
Definition released_timer (x : timer) : timer :=
  {| tm_armed := tm_armed x; tm_active := false; tm_stopped := tm_stopped x; tm_released := true;
     tm_key := tm_key x; tm_orig := tm_orig x |}.

Lemma timer_stop_spec : forall st tm x st' b, zlookup tm (timers st) = Some x -> tm_released x = false ->
  timer_stop st tm = (st', b) ->
  panicked st' = panicked st /\ next_tm st' = next_tm st /\ core_eq st' st /\
  ((b = true /\ tm_stopped x = true /\ timers st' = timers st) \/
   (b = true /\ tm_stopped x = false /\ tm_armed x = true /\ timers st' = zinsert tm (stopped_timer x) (timers st)) \/
   (b = false /\ tm_stopped x = false /\ tm_armed x = false /\ timers st' = timers st)).
Proof.
  intros st tm x st' b Hl Hr H. unfold timer_stop in H. rewrite Hl, Hr in H.
  destruct (tm_stopped x) eqn:Es.
  - inversion H. subst. repeat split; try reflexivity. left. repeat split; reflexivity.
  - destruct (tm_armed x) eqn:Ea; inversion H; subst.
    + repeat split; try reflexivity. right. left. repeat split; reflexivity.
    + repeat split; try reflexivity. right. right. repeat split; reflexivity.
Qed.

Lemma timer_release_spec : forall st tm x, zlookup tm (timers st) = Some x -> tm_released x = false -> tm_active x = false ->
  panicked (timer_release st tm) = panicked st /\ next_tm (timer_release st tm) = next_tm st /\
  timers (timer_release st tm) = zinsert tm (released_timer x) (timers st).
Proof.
  intros st tm x Hl Hr Ha. unfold timer_release. rewrite Hl, Hr, Ha. repeat split; reflexivity.
Qed.

Lemma zl_insert : forall tms tm (y : timer) tm', zlookup tm' (zinsert tm y tms) = if tm' =? tm then Some y else zlookup tm' tms.
Proof.
  intros tms tm y tm'. destruct (tm' =? tm) eqn:E.
  - apply Z.eqb_eq in E. subst. apply (lookup_insert_eq Z.eqb zeqb_ok).
  - apply Z.eqb_neq in E. apply (lookup_insert_neq Z.eqb zeqb_ok). exact E.
Qed.

Section TimerUpdate.
  Variables (tms : list (Z * timer)) (tm : Z) (x y : timer).
  Hypothesis Hl : zlookup tm tms = Some x.
  Hypothesis Hk : tm_key y = tm_key x.

  Lemma upd_lookup : forall tm' z, zlookup tm' (zinsert tm y tms) = Some z ->
    (tm' = tm /\ z = y) \/ (tm' <> tm /\ zlookup tm' tms = Some z).
  Proof.
    intros tm' z H. rewrite zl_insert in H. destruct (tm' =? tm) eqn:E.
    - apply Z.eqb_eq in E. inversion H. left. split; [exact E|reflexivity].
    - apply Z.eqb_neq in E. right. split; assumption.
  Qed.

  Lemma upd_key : forall tm' z, zlookup tm' (zinsert tm y tms) = Some z ->
    exists z0, zlookup tm' tms = Some z0 /\ tm_key z0 = tm_key z.
  Proof.
    intros tm' z H. apply upd_lookup in H. destruct H as [[-> ->]|[_ H]].
    - exists x. split; [exact Hl|symmetry; exact Hk].
    - exists z. split; [exact H|reflexivity].
  Qed.

  Lemma upd_uniq : (forall tm1 tm2 x1 x2, zlookup tm1 tms = Some x1 -> zlookup tm2 tms = Some x2 -> tm_key x1 = tm_key x2 -> tm1 = tm2) ->
    forall tm1 tm2 x1 x2, zlookup tm1 (zinsert tm y tms) = Some x1 -> zlookup tm2 (zinsert tm y tms) = Some x2 ->
      tm_key x1 = tm_key x2 -> tm1 = tm2.
  Proof.
    intros Hu tm1 tm2 x1 x2 H1 H2 Heq.
    apply upd_key in H1. apply upd_key in H2. destruct H1 as (z1&H1&K1). destruct H2 as (z2&H2&K2).
    eapply Hu; [exact H1|exact H2|congruence].
  Qed.
End TimerUpdate.

Lemma in_set_thread_other : forall st th code th' code', th' <> th ->
  In (th', code') (threads st) -> In (th', code') (threads (set_thread st th code)).
Proof.
  intros st th code th' code' Hne Hin. rewrite set_thread_threads. destruct code.
  - apply (in_remove tid_eqb tid_eqb_ok). split; assumption.
  - apply (in_insert tid_eqb tid_eqb_ok). right. split; assumption.
Qed.

Lemma in_set_thread_self : forall st th code, code <> [] -> In (th, code) (threads (set_thread st th code)).
Proof.
  intros st th code Hne. rewrite set_thread_threads. destruct code; [contradiction|].
  apply (in_insert tid_eqb tid_eqb_ok). left. split; reflexivity.
Qed.

Lemma tlookup_set_thread_other : forall st th code th', th' <> th ->
  lookup tid_eqb th' (threads (set_thread st th code)) = lookup tid_eqb th' (threads st).
Proof.
  intros st th code th' Hne. rewrite set_thread_threads. destruct code.
  - apply (lookup_remove_neq tid_eqb tid_eqb_ok). exact Hne.
  - apply (lookup_insert_neq tid_eqb tid_eqb_ok). exact Hne.
Qed.

(* ---------------------------------------------------------------- the timer protocol and the preservation of TInv *)

Definition fired_timer (x : timer) : timer :=
  {| tm_armed := false; tm_active := tm_active x; tm_stopped := tm_stopped x; tm_released := tm_released x;
     tm_key := tm_key x; tm_orig := tm_orig x |}.
Definition ran_timer (x : timer) : timer :=
  {| tm_armed := tm_armed x; tm_active := false; tm_stopped := tm_stopped x; tm_released := false;
     tm_key := tm_key x; tm_orig := tm_orig x |}.

Definition owed (ths : list (tid * list instr)) (t : key) : Prop :=
  exists th code j, In (th, code) ths /\ In j code /\ In t (owes j).

(* The transitions of a relayTimer, armed -> (stopped | fired -> ran), released after stopped / ran,
   each with what the step that performs it has to leave behind in the threads [ths'] and the
   items [its'] it produces: who stops the timer of a live item owes its Entomb/Delete, a fired
   timer has its OnTimer goroutine, which goes on to Entomb the timer's key, and a timer is
   released only together with the removal of its item. *)
Inductive tmove (ths' : list (tid * list instr)) (its' : list (key * item)) (tm : Z) (x : timer) : timer -> Prop :=
| mv_stop : tm_armed x = true ->
    (forall it, In (tm_key x, it) its' -> it_tomb it = false -> owed ths' (tm_key x)) ->
    tmove ths' its' tm x (stopped_timer x)
| mv_fire : tm_armed x = true -> lookup tid_eqb (TT tm) ths' = Some [ITimerRun tm] ->
    tmove ths' its' tm x (fired_timer x)
| mv_ran : tm_active x = true -> tm_armed x = false ->
    (exists o rest, In (TT tm, IEntomb (tm_key x) (FromTimeout o) :: rest) ths') ->
    tmove ths' its' tm x (ran_timer x)
| mv_release : tm_active x = false -> tm_armed x = false -> (forall it, ~ In (tm_key x, it) its') ->
    tmove ths' its' tm x (released_timer x).

Lemma tmove_key : forall ths' its' tm x y, tmove ths' its' tm x y -> tm_key y = tm_key x.
Proof. intros ths' its' tm x y H. destruct H; reflexivity. Qed.

Lemma tmove_stopped : forall ths' its' tm x y, tmove ths' its' tm x y -> tm_stopped x = true -> tm_stopped y = true.
Proof. intros ths' its' tm x y H Hs. destruct H; cbn; try exact Hs. reflexivity. Qed.

Lemma tmove_inactive : forall ths' its' tm x y, tmove ths' its' tm x y -> tm_active x = false -> tm_active y = false.
Proof. intros ths' its' tm x y H Ha. destruct H; cbn; try exact Ha; reflexivity. Qed.

Lemma tmove_released : forall ths' its' tm x y, tmove ths' its' tm x y -> tm_released x = false -> tm_released y = true ->
  forall it, ~ In (tm_key x, it) its'.
Proof. intros ths' its' tm x y H Hr Hy. destruct H; cbn in Hy; try congruence. assumption. Qed.

Lemma tmove_phase : forall ths ths' its' tm x y, phase_ok ths tm x -> tmove ths' its' tm x y -> phase_ok ths' tm y.
Proof.
  intros ths ths' its' tm x y (P1&P2&P3&_) H. unfold phase_ok.
  destruct H as [Ha _|Ha Hl|Hac Ha _|Hac Ha _]; cbn.
  - split; [discriminate|]. split; [split; reflexivity|]. split; discriminate.
  - destruct (P1 Ha) as (A&S&R). rewrite A, S, R. split; [discriminate|]. split; [discriminate|]. split; [discriminate|].
    intros _ _. exact Hl.
  - rewrite Ha. split; [discriminate|]. split; [intros _; split; reflexivity|]. split; discriminate.
  - rewrite Ha. split; [discriminate|]. split; [intros _; split; reflexivity|]. split; [reflexivity|discriminate].
Qed.

Definition tmoves ths' its' (tms tms' : list (Z * timer)) : Prop :=
  forall tm, match zlookup tm tms, zlookup tm tms' with
             | Some x, Some y => y = x \/ tmove ths' its' tm x y
             | None, None => True
             | _, _ => False
             end.

Lemma tmoves_refl : forall ths' its' tms, tmoves ths' its' tms tms.
Proof. intros ths' its' tms tm. destruct (zlookup tm tms); [left; reflexivity|exact I]. Qed.

Lemma tmoves_insert : forall ths' its' tms tm x y, zlookup tm tms = Some x -> tmove ths' its' tm x y ->
  tmoves ths' its' tms (zinsert tm y tms).
Proof.
  intros ths' its' tms tm x y Hx Hm tm'. rewrite zl_insert. destruct (tm' =? tm) eqn:E.
  - apply Z.eqb_eq in E. subst tm'. rewrite Hx. right. exact Hm.
  - destruct (zlookup tm' tms); [left; reflexivity|exact I].
Qed.

Lemma tmoves_fwd : forall ths' its' tms tms' tm x, tmoves ths' its' tms tms' -> zlookup tm tms = Some x ->
  exists y, zlookup tm tms' = Some y /\ (y = x \/ tmove ths' its' tm x y).
Proof.
  intros ths' its' tms tms' tm x H Hx. specialize (H tm). rewrite Hx in H.
  destruct (zlookup tm tms') as [y|]; [|contradiction]. exists y. split; [reflexivity|exact H].
Qed.

Lemma tmoves_back : forall ths' its' tms tms' tm y, tmoves ths' its' tms tms' -> zlookup tm tms' = Some y ->
  exists x, zlookup tm tms = Some x /\ (y = x \/ tmove ths' its' tm x y).
Proof.
  intros ths' its' tms tms' tm y H Hy. specialize (H tm). rewrite Hy in H.
  destruct (zlookup tm tms) as [x|]; [|contradiction]. exists x. split; [reflexivity|exact H].
Qed.

Definition items_kept (st st' : state) : Prop :=
  forall t it, In (t, it) (items st') ->
    (In (t, it) (items st) /\ (In t (gcs st) -> In t (gcs st'))) \/
    (exists it0, In (t, it0) (items st) /\ it = entomb_item it0 /\ In t (gcs st') /\
                 exists x, zlookup (it_tm it0) (timers st') = Some x /\ tm_active x = false).

Lemma items_kept_same : forall st st', items st' = items st -> gcs st' = gcs st -> items_kept st st'.
Proof. intros st st' Hi Hg t it Hin. left. rewrite Hi in Hin. rewrite Hg. split; [exact Hin|intro H; exact H]. Qed.

Record thread_upd (ths : list (tid * list instr)) (th : tid) (oc code' : list instr) (ths' : list (tid * list instr)) : Prop := {
  tu_old : lookup tid_eqb th ths = Some oc \/ (lookup tid_eqb th ths = None /\ oc = []);
  tu_nodup : NoDup (map fst ths');
  tu_in : forall th' c, In (th', c) ths' -> (th' = th /\ c = code') \/ (th' <> th /\ In (th', c) ths);
  tu_other : forall th' c, th' <> th -> In (th', c) ths -> In (th', c) ths';
  tu_self : code' <> [] -> In (th, code') ths';
  tu_lookup : forall th', th' <> th -> lookup tid_eqb th' ths' = lookup tid_eqb th' ths
}.

Lemma thread_upd_set : forall st st1 th oc code', NoDup (map fst (threads st)) -> threads st1 = threads st ->
  lookup tid_eqb th (threads st) = Some oc \/ (lookup tid_eqb th (threads st) = None /\ oc = []) ->
  thread_upd (threads st) th oc code' (threads (set_thread st1 th code')).
Proof.
  intros st st1 th oc code' Hnd Hth Ho. constructor.
  - exact Ho.
  - apply set_thread_nodup. rewrite Hth. exact Hnd.
  - intros th' c Hin. apply set_thread_in in Hin. rewrite Hth in Hin. exact Hin.
  - intros th' c Hne Hin. apply in_set_thread_other; [exact Hne|rewrite Hth; exact Hin].
  - apply in_set_thread_self.
  - intros th' Hne. rewrite tlookup_set_thread_other by exact Hne. rewrite Hth. reflexivity.
Qed.

Lemma thread_upd_same : forall ths th c, NoDup (map fst ths) ->
  lookup tid_eqb th ths = Some c \/ (lookup tid_eqb th ths = None /\ c = []) -> thread_upd ths th c c ths.
Proof.
  intros ths th c Hnd Hc. constructor; try assumption; try reflexivity.
  - intros th' c' Hin. destruct (eqb_dec tid_eqb tid_eqb_ok th' th) as [->|Hne]; [left|right; split; assumption].
    split; [reflexivity|]. apply (in_lookup tid_eqb tid_eqb_ok _ _ _ Hnd) in Hin. destruct Hc as [Hc|[Hc _]]; congruence.
  - intros th' c' _ Hin. exact Hin.
  - intro Hne. destruct Hc as [Hc|[_ Hc]]; [|contradiction]. eapply (lookup_in tid_eqb tid_eqb_ok). exact Hc.
Qed.

(* TInv is kept by a step that lets every timer make at most one move, changes the code of at
   most one thread, and leaves every item as it is or entombs it.  The hypotheses about the new
   code [code'] say where its admission instructions, its claims of stopped timers ([sk]) and its
   INcGet come from; those about the old code [oc] that what it owed is owed by the new code, or
   need not be owed any more, and that a pending OnTimer goroutine does what it was pending for. *)
Lemma TInv_move : forall st st' th oc code',
  Inv st -> TInv st ->
  thread_upd (threads st) th oc code' (threads st') ->
  tmoves (threads st') (items st') (timers st) (timers st') ->
  incl (seen st) (seen st') -> next_tm st' = next_tm st -> panicked st' = panicked st ->
  (forall k, c_nextid (getc (conns st) k) <= c_nextid (getc (conns st') k)) ->
  items_kept st st' ->
  (lookup tid_eqb th (threads st) = Some code' \/ tcode_ok (timers st') th code') ->
  (forall j k f, In j code' -> adm_kf j = Some (k, f) ->
     (exists j0, In j0 oc /\ adm_kf j0 = Some (k, f)) \/
     forall tm x, zlookup tm (timers st) = Some x -> tm_key x <> (k, 0, f_id f)) ->
  (forall j t, In j code' -> In t (sk j) ->
     (exists j0, In j0 oc /\ In t (sk j0)) \/
     exists tm x, zlookup tm (timers st') = Some x /\ tm_key x = t /\ tm_stopped x = true) ->
  (forall k f, In (INcGet k f) code' -> In (INcGet k f) oc \/ frameTypeFor (f_mt f) <> None) ->
  (forall j t, In j oc -> In t (owes j) ->
     (exists j', In j' code' /\ In t (owes j')) \/
     forall it x, In (t, it) (items st') -> it_tomb it = false -> zlookup (it_tm it) (timers st') = Some x -> tm_stopped x = false) ->
  (forall tm x, oc = [ITimerRun tm] -> zlookup tm (timers st') = Some x -> tm_active x = false) ->
  (forall t o rest it, oc = IEntomb t (FromTimeout o) :: rest -> In (t, it) (items st') -> it_tomb it = true) ->
  TInv st'.
Proof.
  intros st st' th oc code' HI HT HU Hmv Hsn Hntm Hpan Hcs Hits Hcode Hadm Hsk Hnc Howes Hrun Hent.
  pose proof (inv_threads_nd _ HI) as Hnd. pose proof (tu_nodup _ _ _ _ _ HU) as Hnd'.
  assert (Hfwd : forall tm x, zlookup tm (timers st) = Some x ->
            exists y, zlookup tm (timers st') = Some y /\ (y = x \/ tmove (threads st') (items st') tm x y)).
  { intros tm x. apply tmoves_fwd. exact Hmv. }
  assert (Hback : forall tm y, zlookup tm (timers st') = Some y ->
            exists x, zlookup tm (timers st) = Some x /\ (y = x \/ tmove (threads st') (items st') tm x y)).
  { intros tm y. apply tmoves_back. exact Hmv. }
  assert (Hbkey : forall tm y, zlookup tm (timers st') = Some y -> exists x, zlookup tm (timers st) = Some x /\ tm_key x = tm_key y).
  { intros tm y Hy. destruct (Hback _ _ Hy) as (x&Hx&[->|Hm]); exists x; split; try assumption; [reflexivity|].
    symmetry. eapply tmove_key. exact Hm. }
  assert (Hoc : forall j, In j oc -> In (th, oc) (threads st)).
  { intros j Hj. destruct (tu_old _ _ _ _ _ HU) as [Hl|[_ ->]]; [|contradiction]. eapply (lookup_in tid_eqb tid_eqb_ok). exact Hl. }
  assert (Hoc_eq : forall c, In (th, c) (threads st) -> c = oc).
  { intros c Hin. apply (in_lookup tid_eqb tid_eqb_ok _ _ _ Hnd) in Hin.
    destruct (tu_old _ _ _ _ _ HU) as [Hl|[Hl _]]; congruence. }
  assert (Hsrc : forall t it, In (t, it) (items st') ->
            exists it0, In (t, it0) (items st) /\ it_tm it0 = it_tm it /\ (it_tomb it = false -> it0 = it)).
  { intros t it Hin. destruct (Hits _ _ Hin) as [[Hin0 _]|(it0&Hin0&->&_)].
    - exists it. repeat split. exact Hin0.
    - exists it0. repeat split; [exact Hin0|discriminate]. }
  assert (Hkeep : forall th' c, In (th', c) (threads st) -> In (th', c) (threads st') -> tcode_ok (timers st') th' c).
  { intros th' c Hin Hin'. pose proof (t_code _ HT _ _ Hin) as Hc. destruct c as [|j r]; [exact I|]. cbn [tcode_ok] in *.
    destruct Hc as [Hr Hj]. split; [exact Hr|]. destruct j; try exact I.
    - destruct s; [exact I|]. destruct Hj as (tm&x&He&G&Hk&Hac&Hst&Har).
      destruct (Hfwd _ _ G) as (y&Hy&[->|Hm]); [exists tm, x; repeat split; assumption|].
      destruct Hm; try congruence. exists tm, (released_timer x). repeat split; assumption.
    - destruct Hj as (He&Hr0&x&G&Hac&Har&Hre). split; [exact He|]. split; [exact Hr0|].
      destruct (Hfwd _ _ G) as (y&Hy&[->|Hm]); [exists x; repeat split; assumption|].
      destruct Hm as [| | _ _ (o&rest&Hin2)|]; try congruence. subst th' r.
      apply (in_lookup tid_eqb tid_eqb_ok _ _ _ Hnd') in Hin'. apply (in_lookup tid_eqb tid_eqb_ok _ _ _ Hnd') in Hin2. congruence. }
  assert (Hstop : forall t, (exists tm x, zlookup tm (timers st) = Some x /\ tm_key x = t /\ tm_stopped x = true) ->
                  exists tm y, zlookup tm (timers st') = Some y /\ tm_key y = t /\ tm_stopped y = true).
  { intros t (tm&x&G&K&S). destruct (Hfwd _ _ G) as (y&Hy&[->|Hm]); exists tm; [exists x; repeat split; assumption|].
    exists y. split; [exact Hy|]. split; [rewrite (tmove_key _ _ _ _ _ Hm); exact K|eapply tmove_stopped; eassumption]. }
  constructor.
  - (* t_item *)
    intros t it Hin. destruct (Hsrc _ _ Hin) as (it0&Hin0&Htm&_). rewrite <- Htm.
    destruct (t_item _ HT _ _ Hin0) as (x&Hx&Hk&Hr). destruct (Hfwd _ _ Hx) as (y&Hy&[->|Hm]); [exists x; repeat split; assumption|].
    exists y. split; [exact Hy|]. split; [rewrite (tmove_key _ _ _ _ _ Hm); exact Hk|].
    destruct (tm_released y) eqn:Ey; [|reflexivity]. exfalso.
    eapply (tmove_released _ _ _ _ _ Hm Hr Ey). rewrite Hk. exact Hin.
  - (* t_uniq *)
    intros tm1 tm2 y1 y2 H1 H2 Heq. destruct (Hbkey _ _ H1) as (x1&G1&K1). destruct (Hbkey _ _ H2) as (x2&G2&K2).
    eapply (t_uniq _ HT); [exact G1|exact G2|congruence].
  - (* t_alloc *)
    intros tm y Hy. destruct (Hbkey _ _ Hy) as (x&G&K). destruct (t_alloc _ HT _ _ G) as [Hlt Hal]. rewrite Hntm, <- K.
    split; [exact Hlt|]. destruct Hal as [[A B]|[A B]]; [left; split; [exact A|apply Hsn; exact B]|right].
    split; [exact A|]. specialize (Hcs (key_conn (tm_key x))). lia.
  - (* t_adm *)
    intros th' c j k f Hin Hj Ha tm y Hy. destruct (Hbkey _ _ Hy) as (x&G&K). rewrite <- K.
    destruct (tu_in _ _ _ _ _ HU _ _ Hin) as [[-> ->]|[_ Hin0]]; [|eapply (t_adm _ HT); eassumption].
    destruct (Hadm j k f Hj Ha) as [(j0&Hj0&Ha0)|Hno]; [|eapply Hno; exact G].
    eapply (t_adm _ HT th oc j0 k f (Hoc _ Hj0) Hj0 Ha0). exact G.
  - (* t_phase *)
    intros tm y Hy. destruct (Hback _ _ Hy) as (x&Hx&[->|Hm]); [|eapply tmove_phase; [apply (t_phase _ HT _ _ Hx)|exact Hm]].
    destruct (t_phase _ HT _ _ Hx) as (P1&P2&P3&P4). split; [exact P1|]. split; [exact P2|]. split; [exact P3|].
    intros Ha Hr. specialize (P4 Ha Hr). destruct (eqb_dec tid_eqb tid_eqb_ok (TT tm) th) as [<-|Hne].
    + exfalso. rewrite (Hrun tm x) in Ha; [discriminate| |exact Hy].
      symmetry. apply Hoc_eq. eapply (lookup_in tid_eqb tid_eqb_ok). exact P4.
    + rewrite (tu_lookup _ _ _ _ _ HU _ Hne). exact P4.
  - (* t_code *)
    intros th' c Hin. destruct (tu_in _ _ _ _ _ HU _ _ Hin) as [[-> ->]|[_ Hin0]]; [|apply Hkeep; assumption].
    destruct Hcode as [Hl|Hc]; [|exact Hc]. apply Hkeep; [|exact Hin]. eapply (lookup_in tid_eqb tid_eqb_ok). exact Hl.
  - (* t_sk *)
    intros th' c j t Hin Hj Ht. destruct (tu_in _ _ _ _ _ HU _ _ Hin) as [[-> ->]|[_ Hin0]].
    + destruct (Hsk j t Hj Ht) as [(j0&Hj0&Ht0)|Hnew]; [|exact Hnew].
      apply Hstop. eapply (t_sk _ HT th oc j0 t (Hoc _ Hj0) Hj0 Ht0).
    + apply Hstop. eapply (t_sk _ HT); eassumption.
  - (* t_tomb *)
    intros t it Hin Htomb. destruct (Hits _ _ Hin) as [[Hin0 Hg]|(it0&_&->&Hg&Hx)]; [|split; [exact Hg|exact Hx]].
    destruct (t_tomb _ HT _ _ Hin0 Htomb) as [Hgc (x&Hx&Hac)]. split; [apply Hg; exact Hgc|].
    destruct (Hfwd _ _ Hx) as (y&Hy&[->|Hm]); [exists x; split; assumption|].
    exists y. split; [exact Hy|eapply tmove_inactive; eassumption].
  - (* t_ncget *)
    intros th' c k f Hin Hj. destruct (tu_in _ _ _ _ _ HU _ _ Hin) as [[-> ->]|[_ Hin0]]; [|eapply (t_ncget _ HT); eassumption].
    destruct (Hnc k f Hj) as [Hj0|Hft]; [|exact Hft]. eapply (t_ncget _ HT th oc k f (Hoc _ Hj0) Hj0).
  - (* t_oblig *)
    intros t it Hin Hnt. destruct (Hsrc _ _ Hin) as (it0&Hin0&_&Heq). rewrite (Heq Hnt) in Hin0. clear it0 Heq.
    destruct (t_oblig _ HT _ _ Hin0 Hnt) as (x&Hx&Hob).
    destruct (t_item _ HT _ _ Hin0) as (x'&Hx'&Hk&_). rewrite Hx in Hx'. inversion Hx'. subst x'.
    destruct (Hfwd _ _ Hx) as (y&Hy&Hm). exists y. split; [exact Hy|]. destruct Hm as [->|Hm].
    + destruct Hob as [Ha|[(code0&Hin1&Hpd)|[Hst (th0&code0&j&Hin1&Hj&Ht)]]]; [left; exact Ha| |].
      * right. left. exists code0. split; [|exact Hpd]. apply (tu_other _ _ _ _ _ HU); [|exact Hin1].
        intro Heq. rewrite Heq in Hin1. apply Hoc_eq in Hin1. subst code0.
        destruct Hpd as [Hp|(o&r&Hp)].
        -- pose proof (t_code _ HT _ _ (Hoc (ITimerRun (it_tm it)) ltac:(rewrite Hp; left; reflexivity))) as Hc.
           rewrite Hp in Hc. cbn [tcode_ok] in Hc. destruct Hc as (_&_&_&x2&Hx2&Hac&_).
           rewrite Hx in Hx2. inversion Hx2. subst x2. rewrite (Hrun _ _ Hp Hy) in Hac. discriminate.
        -- rewrite (Hent _ _ _ _ Hp Hin) in Hnt. discriminate.
      * right. right. split; [exact Hst|]. destruct (eqb_dec tid_eqb tid_eqb_ok th0 th) as [->|Hne].
        -- apply Hoc_eq in Hin1. subst code0. destruct (Howes j t Hj Ht) as [(j'&Hj'&Ht')|Hns].
           ++ exists th, code', j'. split; [|split; assumption]. apply (tu_self _ _ _ _ _ HU). intro Hc. rewrite Hc in Hj'. exact Hj'.
           ++ rewrite (Hns it x Hin Hnt Hy) in Hst. discriminate.
        -- exists th0, code0, j. split; [|split; assumption]. apply (tu_other _ _ _ _ _ HU); assumption.
    + destruct Hm as [_ Ho|_ Hl| _ _ (o&rest&Hin2)| _ _ Hno].
      * right. right. split; [reflexivity|]. rewrite <- Hk. apply (Ho it); [rewrite Hk; exact Hin|exact Hnt].
      * right. left. exists [ITimerRun (it_tm it)]. split; [eapply (lookup_in tid_eqb tid_eqb_ok); exact Hl|left; reflexivity].
      * right. left. eexists. split; [exact Hin2|]. right. exists o, rest. rewrite Hk. reflexivity.
      * exfalso. eapply Hno. rewrite Hk. exact Hin.
  - rewrite Hpan. apply (t_nopanic _ HT).
Qed.

Lemma tcode_ok_plain : forall tms th code, (forall j, In j code -> is_trun j = false /\ is_tent j = false) ->
  tcode_ok tms th code.
Proof.
  intros tms th code Hall. destruct code as [|j r]; [exact I|]. cbn [tcode_ok].
  split; [intros j' Hj'; apply Hall; right; exact Hj'|].
  destruct (Hall j (or_introl eq_refl)) as [Hj1 Hj2]. destruct j; try exact I; try discriminate.
  destruct s; [exact I|discriminate].
Qed.

Lemma tcode_ok_pushed : forall st tms' th i rest pushed, TInv st ->
  lookup tid_eqb th (threads st) = Some (i :: rest) ->
  (forall j, In j pushed -> is_trun j = false /\ is_tent j = false) ->
  tcode_ok tms' th (pushed ++ rest).
Proof.
  intros st tms' th i rest pushed HT Hl Hp. apply tcode_ok_plain.
  pose proof (t_code _ HT _ _ (lookup_in tid_eqb tid_eqb_ok _ _ _ Hl)) as Hc. cbn [tcode_ok] in Hc. destruct Hc as [Hrest _].
  intros j Hj. apply in_app_or in Hj. destruct Hj as [Hj|Hj]; [apply Hp|apply Hrest]; exact Hj.
Qed.

Lemma TInv_lstep : forall st st1 th i rest pushed,
  Inv st -> TInv st ->
  lookup tid_eqb th (threads st) = Some (i :: rest) -> threads st1 = threads st ->
  tmoves (threads (set_thread st1 th (pushed ++ rest))) (items st1) (timers st) (timers st1) ->
  seen st1 = seen st -> next_tm st1 = next_tm st -> panicked st1 = panicked st ->
  (forall k, c_nextid (getc (conns st) k) <= c_nextid (getc (conns st1) k)) ->
  items_kept st st1 ->
  tcode_ok (timers st1) th (pushed ++ rest) ->
  (forall j k f, In j pushed -> adm_kf j = Some (k, f) -> adm_kf i = Some (k, f)) ->
  (forall j t, In j pushed -> In t (sk j) ->
     In t (sk i) \/ exists tm x, zlookup tm (timers st1) = Some x /\ tm_key x = t /\ tm_stopped x = true) ->
  (forall k f, In (INcGet k f) pushed -> frameTypeFor (f_mt f) <> None) ->
  (forall t, In t (owes i) ->
     (exists j, In j pushed /\ In t (owes j)) \/
     forall it x, In (t, it) (items st1) -> it_tomb it = false -> zlookup (it_tm it) (timers st1) = Some x -> tm_stopped x = false) ->
  (forall tm x, i = ITimerRun tm -> zlookup tm (timers st1) = Some x -> tm_active x = false) ->
  (forall t o it, i = IEntomb t (FromTimeout o) -> In (t, it) (items st1) -> it_tomb it = true) ->
  TInv (set_thread st1 th (pushed ++ rest)).
Proof.
  intros st st1 th i rest pushed HI HT Hl Hth Hmv Hsn Hntm Hpan Hcs Hits Hcode Hadm Hsk Hnc Howes Hrun Hent.
  apply (TInv_move st _ th (i :: rest) (pushed ++ rest) HI HT);
    cbn [set_thread set_threads items gcs seen conns timers next_tm panicked]; try assumption;
    fold (threads (set_thread st1 th (pushed ++ rest))).
  - apply thread_upd_set; [apply (inv_threads_nd _ HI)|exact Hth|left; exact Hl].
  - rewrite Hsn. apply incl_refl.
  - right. exact Hcode.
  - intros j k f Hj Ha. left. apply in_app_or in Hj. destruct Hj as [Hj|Hj].
    + exists i. split; [left; reflexivity|eapply Hadm; eassumption].
    + exists j. split; [right; exact Hj|exact Ha].
  - intros j t Hj Ht. apply in_app_or in Hj. destruct Hj as [Hj|Hj].
    + destruct (Hsk j t Hj Ht) as [Hi|Hnew]; [left|right; exact Hnew]. exists i. split; [left; reflexivity|exact Hi].
    + left. exists j. split; [right; exact Hj|exact Ht].
  - intros k f Hj. apply in_app_or in Hj. destruct Hj as [Hj|Hj]; [right; apply (Hnc k f); exact Hj|left; right; exact Hj].
  - intros j t [<-|Hj] Ht.
    + destruct (Howes t Ht) as [(j'&Hj'&Ht')|Hns]; [left|right; exact Hns]. exists j'. split; [apply in_or_app; left; exact Hj'|exact Ht'].
    + left. exists j. split; [apply in_or_app; right; exact Hj|exact Ht].
  - intros tm x Heq. inversion Heq. subst. apply Hrun. reflexivity.
  - intros t o r it Heq. inversion Heq. subst. eapply Hent. reflexivity.
Qed.

(* ---------------------------------------------------------------- instructions without item/timer effect *)

Definition is_pure (i : instr) : bool :=
  match i with
  | IStart _ _ _ | ICanHandle _ _ _ _ | IGetDest _ _ _ _ | IRemoteCan _ _ _ _ _ | ICb _ _ | IDec _ | ICheck _
  | ISendErr _ _ _ | IConnClose _ | INcChk _ _ _ _ _ | IRcvChk _ _ _ | IRcvEnq _ _ _ => true
  | _ => false
  end.

Lemma nextid_put : forall st k cn k0, c_nextid cn = c_nextid (get_conn st k) ->
  c_nextid (getc (conns st) k0) <= c_nextid (getc (conns (put_conn st k cn)) k0).
Proof.
  intros st k cn k0 H. cbn [put_conn set_conns conns]. rewrite getc_insert.
  destruct (k0 =? k) eqn:E; [|lia]. apply Z.eqb_eq in E. subst. rewrite H, get_conn_getc. lia.
Qed.

Definition sframe (st st1 : state) : Prop :=
  timers st1 = timers st /\ items st1 = items st /\ gcs st1 = gcs st /\ seen st1 = seen st /\
  next_tm st1 = next_tm st /\ panicked st1 = panicked st /\ threads st1 = threads st /\
  (forall k, c_nextid (getc (conns st) k) <= c_nextid (getc (conns st1) k)).

Lemma frame_eqs : forall st st1, timers st1 = timers st -> items st1 = items st -> gcs st1 = gcs st -> seen st1 = seen st ->
  next_tm st1 = next_tm st -> panicked st1 = panicked st -> threads st1 = threads st -> conns st1 = conns st -> sframe st st1.
Proof.
  intros st st1 H1 H2 H3 H4 H5 H6 H7 H8. unfold sframe. rewrite H8.
  split; [exact H1|]. split; [exact H2|]. split; [exact H3|]. split; [exact H4|]. split; [exact H5|].
  split; [exact H6|]. split; [exact H7|]. intro k. lia.
Qed.

Lemma frame_put : forall st k cn, c_nextid cn = c_nextid (get_conn st k) -> sframe st (put_conn st k cn).
Proof.
  intros st k cn H. unfold sframe. repeat (split; [reflexivity|]). intro k0. apply nextid_put. exact H.
Qed.

Lemma exec_pure_frame : forall cf st i room st1 pushed, is_pure i = true -> exec cf st i room = (st1, pushed) -> sframe st st1.
Proof.
  intros cf st i room st1 pushed Hp H.
  destruct (exec_cases _ _ _ _ _ _ H); try discriminate; try (apply frame_eqs; reflexivity); apply frame_put; reflexivity.
Qed.

Lemma fin_req_frame : forall id more, fin_of (req_frame id true more) = false.
Proof. intros id more. destruct more; reflexivity. Qed.

Lemma fin_with_id : forall f id, fin_of (with_id f id) = fin_of f.
Proof. intros. reflexivity. Qed.

Lemma after_sent_sk : forall r j t, In j (after_sent r) -> In t (sk j) -> fin_of (r_f r) = true /\ t = r_own r.
Proof.
  intros r j t Hj Ht. unfold after_sent in Hj. apply in_app_or in Hj. destruct Hj as [Hj|Hj].
  - destruct (fin_of (r_f r)); [|contradiction]. destruct Hj as [<-|[]]. cbn in Ht. destruct Ht as [<-|[]]. split; reflexivity.
  - destruct (0 <? r_more r); [|contradiction]. destruct Hj as [<-|[<-|[]]]; cbn in Ht; try contradiction;
    destruct (1 <? r_more r); cbn in Ht; contradiction.
Qed.

Lemma after_sent_shape : forall r j, In j (after_sent r) -> is_trun j = false /\ is_tent j = false /\ adm_kf j = None /\ (forall k f, j <> INcGet k f).
Proof.
  intros r j Hj. unfold after_sent in Hj. apply in_app_or in Hj. destruct Hj as [Hj|Hj].
  - destruct (fin_of (r_f r)); [|contradiction]. destruct Hj as [<-|[]]. repeat split; intros; discriminate.
  - destruct (0 <? r_more r); [|contradiction]. destruct Hj as [<-|[<-|[]]]; repeat split; intros; discriminate.
Qed.

Lemma after_sent_owes_own : forall r, fin_of (r_f r) = true -> exists j, In j (after_sent r) /\ In (r_own r) (owes j).
Proof.
  intros r Hf. exists (IDelete (r_own r) (r_d r, f_id (r_f r))). unfold after_sent. rewrite Hf. split; [left; reflexivity|left; reflexivity].
Qed.

Ltac in_cases H :=
  repeat match type of H with
         | In _ (_ ++ _) => apply in_app_or in H; destruct H as [H|H]
         | In _ (if ?b then _ else _) => destruct b eqn:?
         | In _ (_ :: _) => destruct H as [H|H]; [subst|]
         | In _ [] => contradiction
         | In _ (after_unsent _ _) => unfold after_unsent in H
         end.

Lemma exec_pushed : forall cf st i room st1 pushed j, exec cf st i room = (st1, pushed) -> In j pushed ->
  is_trun j = false /\ (is_tent j = true -> is_trun i = true) /\
  (forall k f, adm_kf j = Some (k, f) -> adm_kf i = Some (k, f)) /\ (forall k f, j <> INcGet k f).
Proof.
  intros cf st i room st1 pushed j H Hj.
  assert (Has : forall i0 r, In j (after_sent r) -> is_trun j = false /\ (is_tent j = true -> is_trun i0 = true) /\
            (forall k f, adm_kf j = Some (k, f) -> adm_kf i0 = Some (k, f)) /\ (forall k f, j <> INcGet k f)).
  { intros i0 r Hr. destruct (after_sent_shape _ _ Hr) as (A&B&C&D). repeat split; try assumption; intros; congruence. }
  destruct (exec_cases _ _ _ _ _ _ H);
    try (apply in_app_or in Hj; destruct Hj as [Hj|Hj]; [|apply (Has _ _ Hj)]);
    try (apply (Has _ _ Hj));
    try (destruct g as [[it [|]]|]); try (unfold orig_tail in Hj; destruct s);
    in_cases Hj; repeat split; intros; first [discriminate|assumption].
Qed.

Lemma exec_pure_code : forall cf st i room st1 pushed, is_pure i = true -> exec cf st i room = (st1, pushed) ->
  (forall j t, In j pushed -> In t (sk j) -> In t (sk i)) /\
  (forall t, In t (owes i) -> exists j, In j pushed /\ In t (owes j)).
Proof.
  intros cf st i room st1 pushed Hp H.
  destruct (exec_cases _ _ _ _ _ _ H); try discriminate;
    try (split; [intros j t Hj Ht; in_cases Hj; contradiction|intros t []]).
  - (* INcChk giving up: a tombstone, or a final frame whose timer was not stopped *)
    split; [intros j t []|]. intros t Ht. unfold owes in Ht. rewrite app_nil_r in Ht. cbn [sk] in Ht.
    destruct stopped; [|contradiction]. destruct (fin_of f) eqn:Ef, (it_tomb it) eqn:Et; cbn in *; try contradiction; discriminate.
  - (* INcChk *)
    apply orb_false_iff in Echk. destruct Echk as [Et Es]. split.
    + intros j t Hj Ht. in_cases Hj; try contradiction. cbn [sk r_f r_own] in Ht. rewrite fin_with_id in Ht.
      destruct (fin_of f) eqn:Ef; [|contradiction]. cbn in Es. apply negb_false_iff in Es. subst stopped.
      cbn [sk]. rewrite Ef, Et. exact Ht.
    + intros t Ht. unfold owes in Ht. rewrite app_nil_r in Ht. cbn [sk] in Ht.
      destruct stopped; [|contradiction]. destruct (fin_of f) eqn:Ef; [|contradiction]. rewrite Et in Ht. cbn in Ht.
      eexists. split; [apply in_or_app; right; right; left; reflexivity|].
      unfold owes. cbn [sk r_f r_own]. rewrite fin_with_id, Ef. apply in_or_app. left. exact Ht.
  - (* IRcvChk, nothing found: the own item is failed *)
    split; [intros j t Hj Ht; in_cases Hj; contradiction|].
    intros t Ht. unfold owes in Ht. rewrite app_nil_r in Ht. cbn [sk] in Ht. rewrite app_nil_r in Ht.
    destruct (fin_of (r_f r)); [|contradiction]. destruct Ht as [<-|[]].
    exists (IFailGet (r_own r) reason_not_found). split; left; reflexivity.
  - (* IRcvChk giving up *)
    split.
    + intros j t Hj Ht. destruct (after_sent_sk _ _ _ Hj Ht) as [Hf ->]. cbn [sk]. rewrite Hf. left. reflexivity.
    + intros t Ht. unfold owes in Ht. rewrite app_nil_r in Ht. cbn [sk] in Ht. apply in_app_or in Ht.
      destruct Ht as [Ht|Ht].
      * destruct (fin_of (r_f r)) eqn:Ef; [|contradiction]. destruct Ht as [<-|[]]. apply after_sent_owes_own. exact Ef.
      * destruct stopped; [|contradiction]. destruct (fin_of (r_f r)) eqn:Ef, (it_tomb it) eqn:Et; cbn in *; try contradiction; discriminate.
  - (* IRcvChk *)
    apply orb_false_iff in Echk. destruct Echk as [Et Es].
    assert (Hst : fin_of (r_f r) = true -> stopped = true).
    { intro Hf. rewrite Hf in Es. cbn in Es. apply negb_false_iff in Es. exact Es. }
    split.
    + intros j t Hj Ht. in_cases Hj; try contradiction. cbn [sk] in *.
      destruct (fin_of (r_f r)) eqn:Ef; [|contradiction]. rewrite (Hst eq_refl), Et. cbn.
      destruct Ht as [<-|[<-|[]]]; [left; reflexivity|right; left; reflexivity].
    + intros t Ht. exists (IRcvEnq r rk (it_dest it, it_remap it)). split; [apply in_or_app; right; left; reflexivity|].
      unfold owes in *. rewrite app_nil_r in *. cbn [sk] in *. apply in_app_or in Ht.
      destruct (fin_of (r_f r)) eqn:Ef.
      * destruct Ht as [[<-|[]]|Ht]; [left; reflexivity|]. destruct stopped; [|contradiction]. rewrite Et in Ht. cbn in Ht.
        destruct Ht as [<-|[]]. right. left. reflexivity.
      * destruct Ht as [[]|Ht]. destruct stopped; contradiction.
  - (* IRcvEnq, enqueued *)
    split.
    + intros j t Hj Ht. apply in_app_or in Hj. destruct Hj as [Hj|Hj].
      * destruct (fin_of (r_f r)) eqn:Ef; [|contradiction]. destruct Hj as [<-|[]]. cbn [sk] in *. rewrite Ef.
        destruct Ht as [<-|[]]. right. left. reflexivity.
      * destruct (after_sent_sk _ _ _ Hj Ht) as [Hf ->]. cbn [sk]. rewrite Hf. left. reflexivity.
    + intros t Ht. unfold owes in Ht. rewrite app_nil_r in Ht. cbn [sk] in Ht.
      destruct (fin_of (r_f r)) eqn:Ef; [|contradiction]. destruct Ht as [<-|[<-|[]]].
      * destruct (after_sent_owes_own r Ef) as (j&Hj&Ho). exists j. split; [apply in_or_app; right; exact Hj|exact Ho].
      * exists (IDelete rk lk). split; [apply in_or_app; left; left; reflexivity|left; reflexivity].
  - (* IRcvEnq, no room: both items are failed *)
    split; [intros j t Hj Ht; in_cases Hj; contradiction|].
    intros t Ht. unfold owes in Ht. rewrite app_nil_r in Ht. cbn [sk] in Ht.
    destruct (fin_of (r_f r)) eqn:Ef; [|contradiction]. destruct Ht as [<-|[<-|[]]].
    + eexists. split; [right; left; reflexivity|]. left. reflexivity.
    + eexists. split; [left; reflexivity|]. left. reflexivity.
Qed.

Lemma TInv_step_pure : forall cf st th i rest room st1 pushed, Inv st -> TInv st ->
  lookup tid_eqb th (threads st) = Some (i :: rest) -> is_pure i = true ->
  exec cf st i room = (st1, pushed) -> TInv (set_thread st1 th (pushed ++ rest)).
Proof.
  intros cf st th i rest room st1 pushed HI HT Hl Hp H.
  destruct (exec_pure_frame _ _ _ _ _ _ Hp H) as (F1&F2&F3&F4&F5&F6&F7&F8).
  destruct (exec_pure_code _ _ _ _ _ _ Hp H) as (C3&C4).
  assert (Hni : is_trun i = false) by (destruct i; try discriminate; reflexivity).
  apply (TInv_lstep st st1 th i rest pushed); try assumption.
  - rewrite F1. apply tmoves_refl.
  - apply items_kept_same; assumption.
  - eapply tcode_ok_pushed; [exact HT|exact Hl|]. intros j Hj. destruct (exec_pushed _ _ _ _ _ _ _ H Hj) as (A&B&_).
    split; [exact A|]. destruct (is_tent j); [|reflexivity]. rewrite (B eq_refl) in Hni. discriminate.
  - intros j k f Hj. apply (exec_pushed _ _ _ _ _ _ _ H Hj).
  - intros j t Hj Ht. left. eapply C3; eassumption.
  - intros k f Hin. exfalso. eapply (exec_pushed _ _ _ _ _ _ _ H Hin). reflexivity.
  - intros t Ht. left. apply C4. exact Ht.
  - intros tm x ->. discriminate.
  - intros t o it ->. discriminate.
Qed.

(* relayItems.Get in terms of the timer protocol *)
Lemma items_get_tspec : forall st t stop st' g, TInv st -> items_get st t stop = (st', g) ->
  panicked st' = panicked st /\ next_tm st' = next_tm st /\ core_eq st' st /\
  match klookup t (items st) with
  | None => g = None /\ timers st' = timers st
  | Some it =>
      exists x, zlookup (it_tm it) (timers st) = Some x /\ tm_key x = t /\
      ((stop = false /\ g = Some (it, false) /\ timers st' = timers st) \/
       (stop = true /\ g = Some (it, true) /\ tm_stopped x = true /\ timers st' = timers st) \/
       (stop = true /\ g = Some (it, true) /\ tm_stopped x = false /\ tm_armed x = true /\
        timers st' = zinsert (it_tm it) (stopped_timer x) (timers st)) \/
       (stop = true /\ g = Some (it, false) /\ tm_stopped x = false /\ tm_armed x = false /\ timers st' = timers st))
  end.
Proof.
  intros st t stop st' g HT H. unfold items_get in H.
  destruct (klookup t (items st)) as [it|] eqn:El.
  - pose proof (lookup_in key_eqb key_eqb_ok _ _ _ El) as Hin.
    destruct (t_item _ HT _ _ Hin) as (x&Hx&Hk&Hr).
    destruct stop.
    + destruct (timer_stop st (it_tm it)) as [st2 b] eqn:E. inversion H. subst st2 g.
      destruct (timer_stop_spec _ _ _ _ _ Hx Hr E) as (P&N&C&Hc).
      split; [exact P|]. split; [exact N|]. split; [exact C|]. exists x. split; [exact Hx|]. split; [exact Hk|].
      destruct Hc as [(->&S&T)|[(->&S&A&T)|(->&S&A&T)]].
      * right. left. repeat split; assumption.
      * right. right. left. repeat split; assumption.
      * right. right. right. repeat split; assumption.
    + inversion H. subst st' g. split; [reflexivity|]. split; [reflexivity|]. split; [apply core_eq_refl|].
      exists x. split; [exact Hx|]. split; [exact Hk|]. left. repeat split; reflexivity.
  - inversion H. subst st' g. split; [reflexivity|]. split; [reflexivity|]. split; [apply core_eq_refl|]. split; reflexivity.
Qed.

Lemma frame_of_core : forall st st', core_eq st' st -> panicked st' = panicked st -> next_tm st' = next_tm st ->
  items st' = items st /\ gcs st' = gcs st /\ seen st' = seen st /\ threads st' = threads st /\
  (forall k, c_nextid (getc (conns st) k) <= c_nextid (getc (conns st') k)).
Proof.
  intros st st' (H1&H2&H3&H4&H5&H6&H7&H8) _ _. rewrite H1. repeat split; try assumption. intro k. lia.
Qed.

(* the three instructions that start with a Get: INcGet, IRcvGet, IFailGet *)
Lemma TInv_step_get : forall st th i rest t stop st' g pushed,
  Inv st -> TInv st ->
  lookup tid_eqb th (threads st) = Some (i :: rest) ->
  items_get st t stop = (st', g) ->
  is_trun i = false -> is_tent i = false ->
  (forall j, In j pushed -> is_trun j = false /\ is_tent j = false /\ adm_kf j = None /\ forall k f, j <> INcGet k f) ->
  (* keys newly claimed by the pushed code: only t, and only when the Get reports a stopped timer *)
  (forall j t', In j pushed -> In t' (sk j) -> In t' (sk i) \/ (t' = t /\ exists it, g = Some (it, true))) ->
  (* what the popped instruction owed is passed on, except t when its timer turns out not to be stopped *)
  (forall t', In t' (owes i) -> (exists j, In j pushed /\ In t' (owes j)) \/
                                 (t' = t /\ (g = None \/ exists it, g = Some (it, false) /\ stop = true))) ->
  (* if the Get stopped the timer of a live item, the pushed code owes it *)
  (forall it, g = Some (it, true) -> stop = true -> it_tomb it = false -> exists j, In j pushed /\ In t (owes j)) ->
  TInv (set_thread st' th (pushed ++ rest)).
Proof.
  intros st th i rest t stop st' g pushed HI HT Hl Hg Hitr Hite Hsh Hsk Hpass Hnew.
  destruct (items_get_tspec _ _ _ _ _ HT Hg) as (P&N&C&Hm).
  destruct (frame_of_core _ _ C P N) as (F2&F3&F4&F7&F8).
  apply (TInv_lstep st st' th i rest pushed); try assumption.
  - destruct (klookup t (items st)) as [it|] eqn:El; [|destruct Hm as [_ ->]; apply tmoves_refl].
    destruct Hm as (x&Hx&Hk&[(_&_&T)|[(_&_&_&T)|[(Hstop&Hgg&S&A&T)|(_&_&_&_&T)]]]); rewrite T; try apply tmoves_refl.
    eapply tmoves_insert; [exact Hx|]. apply mv_stop; [exact A|]. rewrite Hk, F2. intros it' Hin' Hnt.
    apply (in_lookup key_eqb key_eqb_ok _ _ _ (inv_items_nd _ HI)) in Hin'. rewrite El in Hin'. inversion Hin'. subst it'.
    destruct (Hnew it Hgg Hstop Hnt) as (j&Hj&Ht). exists th, (pushed ++ rest), j.
    split; [|split; [apply in_or_app; left; exact Hj|exact Ht]]. apply in_set_thread_self. destruct pushed; [contradiction|discriminate].
  - apply items_kept_same; assumption.
  - eapply tcode_ok_pushed; [exact HT|exact Hl|]. intros j Hj. destruct (Hsh j Hj) as (A&B&_). split; assumption.
  - intros j k f Hj Ha. destruct (Hsh j Hj) as (_&_&A&_). congruence.
  - intros j t' Hj Ht'. destruct (Hsk j t' Hj Ht') as [Hi|[-> (it&Hgg)]]; [left; exact Hi|right].
    destruct (klookup t (items st)) as [it0|] eqn:El; [|destruct Hm as [Hg2 _]; congruence].
    destruct Hm as (x&Hx&Hk&[(_&Hg2&_)|[(_&Hg2&S&T)|[(_&Hg2&S&A&T)|(_&Hg2&_)]]]); try congruence.
    + exists (it_tm it0), x. rewrite T. repeat split; assumption.
    + exists (it_tm it0), (stopped_timer x). rewrite T, zl_insert, Z.eqb_refl. repeat split. exact Hk.
  - intros k f Hin. destruct (Hsh _ Hin) as (_&_&_&D). exfalso. eapply D. reflexivity.
  - intros t' Ht'. destruct (Hpass t' Ht') as [Hj|[-> Hno]]; [left; exact Hj|right].
    intros it x Hin _ Hx. rewrite F2 in Hin. rewrite (in_lookup key_eqb key_eqb_ok _ _ _ (inv_items_nd _ HI) Hin) in Hm.
    destruct Hm as (x0&Hx0&Hk&Hc).
    destruct Hno as [Hn|(it1&Hg1&Hs1)]; [destruct Hc as [(_&Hg2&_)|[(_&Hg2&_)|[(_&Hg2&_)|(_&Hg2&_)]]]; congruence|].
    destruct Hc as [(Hs&_)|[(_&Hg2&_)|[(_&Hg2&_)|(_&Hg2&S&A&T)]]]; try congruence.
  - intros tm x ->. discriminate.
  - intros t' o it ->. discriminate.
Qed.

Lemma TInv_step_INcGet : forall cf st th k f rest room st1 pushed, Inv st -> TInv st ->
  lookup tid_eqb th (threads st) = Some (INcGet k f :: rest) ->
  exec cf st (INcGet k f) room = (st1, pushed) -> TInv (set_thread st1 th (pushed ++ rest)).
Proof.
  intros cf st th k f rest room st1 pushed HI HT Hl H. cbn [exec] in H.
  pose proof (lookup_in tid_eqb tid_eqb_ok _ _ _ Hl) as Hin.
  pose proof (t_ncget _ HT th _ k f Hin (or_introl eq_refl)) as Hft.
  destruct (frameTypeFor (f_mt f)) as [ft|]; [|contradiction].
  match type of H with context [items_get ?a ?b ?c] => destruct (items_get a b c) as [st' g] eqn:E end.
  inversion H. subst st1 pushed. clear H.
  eapply TInv_step_get; try eassumption; try reflexivity.
  - intros j [<-|[]]. repeat split; intros; discriminate.
  - intros j t' [<-|[]] Ht'. right. cbn [sk] in Ht'. destruct g as [[it [|]]|]; try contradiction.
    destruct (fin_of f && negb (it_tomb it)); [|contradiction]. destruct Ht' as [<-|[]]. split; [reflexivity|]. exists it. reflexivity.
  - intros t' [].
  - intros it -> Hs Hnt. eexists. split; [left; reflexivity|]. unfold owes. cbn [sk]. rewrite Hs, Hnt. left. reflexivity.
Qed.

Lemma TInv_step_IRcvGet : forall cf st th r rest room st1 pushed, Inv st -> TInv st ->
  lookup tid_eqb th (threads st) = Some (IRcvGet r :: rest) ->
  exec cf st (IRcvGet r) room = (st1, pushed) -> TInv (set_thread st1 th (pushed ++ rest)).
Proof.
  intros cf st th r rest room st1 pushed HI HT Hl H. cbn [exec] in H.
  match type of H with context [items_get ?a ?b ?c] => destruct (items_get a b c) as [st' g] eqn:E end.
  inversion H. subst st1 pushed. clear H.
  eapply TInv_step_get; try eassumption; try reflexivity.
  - intros j [<-|[]]. repeat split; intros; discriminate.
  - intros j t' [<-|[]] Ht'. cbn [sk] in Ht'. apply in_app_or in Ht'. destruct Ht' as [Ht'|Ht'].
    + left. cbn [sk]. exact Ht'.
    + right. destruct g as [[it [|]]|]; try contradiction.
      destruct (fin_of (r_f r) && negb (it_tomb it)); [|contradiction]. destruct Ht' as [<-|[]]. split; [reflexivity|]. exists it. reflexivity.
  - intros t' Ht'. left. eexists. split; [left; reflexivity|]. unfold owes in *. rewrite app_nil_r in *. cbn [sk] in *.
    apply in_or_app. left. exact Ht'.
  - intros it -> Hs Hnt. eexists. split; [left; reflexivity|]. unfold owes. rewrite app_nil_r. cbn [sk].
    apply in_or_app. right. rewrite Hs, Hnt. left. reflexivity.
Qed.

Lemma TInv_step_IFailGet : forall cf st th t reason rest room st1 pushed, Inv st -> TInv st ->
  lookup tid_eqb th (threads st) = Some (IFailGet t reason :: rest) ->
  exec cf st (IFailGet t reason) room = (st1, pushed) -> TInv (set_thread st1 th (pushed ++ rest)).
Proof.
  intros cf st th t reason rest room st1 pushed HI HT Hl H. cbn [exec] in H.
  destruct (items_get st t true) as [st' g] eqn:E.
  assert (Hp : pushed = match g with Some (_, true) => [IEntomb t (FromFail reason)] | _ => [] end /\ st1 = st').
  { destruct g as [[it [|]]|]; inversion H; split; reflexivity. }
  destruct Hp as [-> ->]. clear H.
  eapply TInv_step_get; try eassumption; try reflexivity.
  - intros j Hj. destruct g as [[it [|]]|]; try contradiction. destruct Hj as [<-|[]]. repeat split; intros; discriminate.
  - intros j t' Hj Ht'. right. destruct g as [[it [|]]|]; try contradiction. destruct Hj as [<-|[]].
    destruct Ht' as [<-|[]]. split; [reflexivity|]. exists it. reflexivity.
  - intros t' [<-|[]]. destruct g as [[it [|]]|].
    + left. eexists. split; [left; reflexivity|]. left. reflexivity.
    + right. split; [reflexivity|]. right. exists it. split; reflexivity.
    + right. split; [reflexivity|]. left. reflexivity.
  - intros it -> _ _. eexists. split; [left; reflexivity|]. left. reflexivity.
Qed.

(* ---------------------------------------------------------------- Entomb / Delete steps *)

Definition simple_code (pushed : list instr) : Prop :=
  forall j, In j pushed -> is_trun j = false /\ is_tent j = false /\ adm_kf j = None /\ sk j = [] /\ owes j = [] /\
                            forall k f, j <> INcGet k f.

Lemma TInv_close_step : forall st st1 th i rest pushed t,
  Inv st -> TInv st ->
  lookup tid_eqb th (threads st) = Some (i :: rest) ->
  ((exists lk, i = IDelete t lk) \/ exists s, i = IEntomb t s) ->
  seen st1 = seen st -> next_tm st1 = next_tm st -> panicked st1 = panicked st ->
  threads st1 = threads st -> conns st1 = conns st ->
  tmoves (threads (set_thread st1 th (pushed ++ rest))) (items st1) (timers st) (timers st1) ->
  items_kept st st1 ->
  (forall it, In (t, it) (items st1) -> it_tomb it = true) ->
  simple_code pushed ->
  TInv (set_thread st1 th (pushed ++ rest)).
Proof.
  intros st st1 th i rest pushed t HI HT Hl Hi Hsn Hntm Hpan Hth Hcs Hmv Hits Hdead Hps.
  apply (TInv_lstep st st1 th i rest pushed); try assumption.
  - intro k. rewrite Hcs. lia.
  - eapply tcode_ok_pushed; [exact HT|exact Hl|]. intros j Hj. destruct (Hps j Hj) as (A&B&_). split; assumption.
  - intros j k f Hj Ha. destruct (Hps j Hj) as (_&_&A&_). congruence.
  - intros j t' Hj Ht'. destruct (Hps j Hj) as (_&_&_&A&_). rewrite A in Ht'. contradiction.
  - intros k f Hj. destruct (Hps _ Hj) as (_&_&_&_&_&D). exfalso. eapply D. reflexivity.
  - intros t' Ht'. right. intros it x Hin Hnt _. exfalso.
    assert (t' = t); [|subst t'; rewrite (Hdead it Hin) in Hnt; discriminate].
    destruct Hi as [[lk0 ->]|[s ->]]; [destruct Ht' as [<-|[]]; reflexivity|].
    destruct s; cbn in Ht'; [destruct Ht' as [<-|[]]; reflexivity|contradiction].
  - intros tm x ->. destruct Hi as [[lk0 Hc]|[s Hc]]; discriminate.
  - intros t' o it -> Hin. destruct Hi as [[lk0 Hc]|[s Hc]]; [discriminate|]. inversion Hc. subst. apply Hdead. exact Hin.
Qed.

Lemma timer_of_key : forall st t it tm x, TInv st -> In (t, it) (items st) ->
  zlookup tm (timers st) = Some x -> tm_key x = t -> tm = it_tm it.
Proof.
  intros st t it tm x HT Hin Hx Hk. destruct (t_item _ HT _ _ Hin) as (y&Hy&Hky&_).
  eapply (t_uniq _ HT); [exact Hx|exact Hy|congruence].
Qed.

Lemma close_timer : forall st th i rest t, TInv st ->
  In (th, i :: rest) (threads st) -> ((exists lk, i = IDelete t lk) \/ exists s, i = IEntomb t s) ->
  exists tm x, zlookup tm (timers st) = Some x /\ tm_key x = t /\ tm_active x = false /\ tm_armed x = false.
Proof.
  intros st th i rest t HT Hin Hi.
  assert (Hsk : In t (sk i) -> exists tm x, zlookup tm (timers st) = Some x /\ tm_key x = t /\ tm_active x = false /\ tm_armed x = false).
  { intro Hs. destruct (t_sk _ HT th _ i t Hin (or_introl eq_refl) Hs) as (tm&x&Hx&Hk&Hst).
    destruct (t_phase _ HT _ _ Hx) as (_&P2&_). destruct (P2 Hst) as [A B]. exists tm, x. repeat split; assumption. }
  destruct Hi as [[lk0 ->]|[s ->]]; [apply Hsk; left; reflexivity|].
  destruct s as [r|o]; [apply Hsk; left; reflexivity|].
  pose proof (t_code _ HT _ _ Hin) as Hc. cbn [tcode_ok] in Hc. destruct Hc as [_ (tm&x&_&Hx&Hk&Hac&_&Har)].
  exists tm, x. repeat split; assumption.
Qed.

Lemma simple_nil : simple_code [].
Proof. intros j []. Qed.

Lemma simple_tail : forall (b : bool) k id c s k0, simple_code ((if b then orig_tail k id c s else []) ++ [IDec k0]).
Proof.
  intros b k id c s k0 j Hj. apply in_app_or in Hj. destruct Hj as [Hj|[<-|[]]]; [|repeat split; intros; discriminate].
  destruct b; [|contradiction]. unfold orig_tail in Hj. destruct s.
  - apply in_app_or in Hj. destruct Hj as [Hj|Hj].
    + destruct (reason =? reason_source_slow); [contradiction|]. destruct Hj as [<-|[]]. repeat split; intros; discriminate.
    + destruct Hj as [<-|[<-|[]]]; repeat split; intros; discriminate.
  - destruct Hj as [<-|[<-|[<-|[]]]]; repeat split; intros; discriminate.
Qed.

Lemma TInv_delete_step : forall st st1 th i rest pushed t it,
  Inv st -> TInv st ->
  lookup tid_eqb th (threads st) = Some (i :: rest) ->
  ((exists lk, i = IDelete t lk) \/ exists s, i = IEntomb t s) ->
  klookup t (items st) = Some it ->
  st1 = timer_release (set_items st (kremove t (items st))) (it_tm it) ->
  simple_code pushed ->
  TInv (set_thread st1 th (pushed ++ rest)).
Proof.
  intros st st1 th i rest pushed t it HI HT Hl Hi El -> Hps.
  pose proof (lookup_in tid_eqb tid_eqb_ok _ _ _ Hl) as Hin0.
  pose proof (lookup_in key_eqb key_eqb_ok _ _ _ El) as Hin.
  destruct (close_timer _ _ _ _ _ HT Hin0 Hi) as (tm&x&Hx&Hk&Hac&Har).
  pose proof (timer_of_key _ _ _ _ _ HT Hin Hx Hk) as Htm. subst tm.
  destruct (t_item _ HT _ _ Hin) as (x'&Hx'&_&Hrel). rewrite Hx in Hx'. inversion Hx'. subst x'.
  destruct (timer_release_spec (set_items st (kremove t (items st))) (it_tm it) x Hx Hrel Hac) as (P&N&T).
  destruct (timer_release_core (set_items st (kremove t (items st))) (it_tm it)) as (C1&C2&C3&C4&_&_&C7&_).
  set (st1 := timer_release (set_items st (kremove t (items st))) (it_tm it)) in *.
  cbn [set_items conns items gcs threads seen] in *.
  assert (Hnone : forall it', ~ In (t, it') (items st1)).
  { intros it' Hc. rewrite C2 in Hc. apply (in_remove key_eqb key_eqb_ok) in Hc. destruct Hc as [_ Hc]. apply Hc. reflexivity. }
  apply (TInv_close_step st st1 th i rest pushed t); try assumption.
  - rewrite T. eapply tmoves_insert; [exact Hx|]. apply mv_release; [exact Hac|exact Har|rewrite Hk; exact Hnone].
  - intros t' it' Hc. left. rewrite C2 in Hc. apply (in_remove key_eqb key_eqb_ok) in Hc. rewrite C3. tauto.
  - intros it' Hc. exfalso. eapply Hnone. exact Hc.
Qed.

Lemma TInv_close_noop : forall st th i rest t,
  Inv st -> TInv st ->
  lookup tid_eqb th (threads st) = Some (i :: rest) ->
  ((exists lk, i = IDelete t lk) \/ exists s, i = IEntomb t s) ->
  (forall it, klookup t (items st) = Some it -> it_tomb it = true) ->
  TInv (set_thread st th ([] ++ rest)).
Proof.
  intros st th i rest t HI HT Hl Hi Hdead.
  apply (TInv_close_step st st th i rest [] t); try assumption; try reflexivity.
  - apply tmoves_refl.
  - apply items_kept_same; reflexivity.
  - intros it Hin. apply Hdead. apply (in_lookup key_eqb key_eqb_ok _ _ _ (inv_items_nd _ HI)). exact Hin.
  - apply simple_nil.
Qed.

(* ---------------------------------------------------------------- looked-up identities

   finishRelayItem deletes the item under the id only if it still belongs to the call the frame
   path looked up (relayItems.deleteCall: same destination relayer, same destination-side id).
   [refs j]: the (key, identity) pairs instruction j carries: the identity of an item it looked
   up under that key.  LInv: a key an instruction refers to has been allocated (a timer with that
   key exists, so no later Add can use the key), and whatever item is found under the key has the
   identity the instruction carries -- in fresh-id schedules the check of deleteCall always
   succeeds and finishRelayItem acts as a plain Delete. *)
Definition refs (j : instr) : list (key * (Z * Z)) :=
  match j with
  | INcChk _ _ _ own (Some (it, _)) => [(own, (it_dest it, it_remap it))]
  | IRcvGet r => [(r_own r, (r_d r, f_id (r_f r)))]
  | IRcvChk r rk g =>
      (r_own r, (r_d r, f_id (r_f r))) ::
      match g with Some (it, _) => [(rk, (it_dest it, it_remap it))] | None => [] end
  | IRcvEnq r rk lk => [(r_own r, (r_d r, f_id (r_f r))); (rk, lk)]
  | IDelete t lk => [(t, lk)]
  | _ => []
  end.

Definition ref_ok (tms : list (Z * timer)) (its : list (key * item)) (t : key) (lk : Z * Z) : Prop :=
  (exists tm x, zlookup tm tms = Some x /\ tm_key x = t) /\
  (forall it, klookup t its = Some it -> it_dest it = fst lk /\ it_remap it = snd lk).

Definition LInv (st : state) : Prop :=
  forall th code j t lk, In (th, code) (threads st) -> In j code -> In (t, lk) (refs j) ->
    ref_ok (timers st) (items st) t lk.

Lemma LInv_delete_is_delete : forall st th t lk rest, LInv st ->
  lookup tid_eqb th (threads st) = Some (IDelete t lk :: rest) ->
  items_delete_call st t lk = items_delete st t.
Proof.
  intros st th t lk rest HL Hl. apply items_delete_call_match.
  pose proof (lookup_in tid_eqb tid_eqb_ok _ _ _ Hl) as Hin.
  destruct (HL th _ (IDelete t lk) t lk Hin (or_introl eq_refl) (or_introl eq_refl)) as [_ H]. exact H.
Qed.

Lemma TInv_step_IDelete : forall cf st th t lk rest room st1 pushed, Inv st -> TInv st -> LInv st ->
  lookup tid_eqb th (threads st) = Some (IDelete t lk :: rest) ->
  exec cf st (IDelete t lk) room = (st1, pushed) -> TInv (set_thread st1 th (pushed ++ rest)).
Proof.
  intros cf st th t lk rest room st1 pushed HI HT HL Hl H. cbn [exec] in H.
  rewrite (LInv_delete_is_delete st th t lk rest HL Hl) in H. unfold items_delete in H.
  destruct (klookup t (items st)) as [it|] eqn:El.
  - cbn [fst snd] in H.
    eapply (TInv_delete_step st _ th (IDelete t lk) rest pushed t it); try eassumption.
    + left. exists lk. reflexivity.
    + destruct (negb (it_tomb it)); inversion H; reflexivity.
    + destruct (negb (it_tomb it)); inversion H; [|apply simple_nil].
      intros j Hj. apply in_app_or in Hj. destruct Hj as [Hj|[<-|[]]]; [|repeat split; intros; discriminate].
      destruct (it_orig it); [|contradiction]. destruct Hj as [<-|[]]. repeat split; intros; discriminate.
  - inversion H. subst st1 pushed. apply (TInv_close_noop st th (IDelete t lk) rest t); try assumption.
    + left. exists lk. reflexivity.
    + intros it Hc. congruence.
Qed.

Lemma TInv_step_IEntomb : forall cf st th t s rest room st1 pushed, Inv st -> TInv st ->
  lookup tid_eqb th (threads st) = Some (IEntomb t s :: rest) ->
  exec cf st (IEntomb t s) room = (st1, pushed) -> TInv (set_thread st1 th (pushed ++ rest)).
Proof.
  intros cf st th t s rest room st1 pushed HI HT Hl H. cbn [exec] in H. unfold items_entomb, items_delete in H.
  pose proof (lookup_in tid_eqb tid_eqb_ok _ _ _ Hl) as Hin0.
  assert (Hi : (exists lk0, IEntomb t s = IDelete t lk0) \/ exists s0, IEntomb t s = IEntomb t s0) by (right; exists s; reflexivity).
  destruct (klookup t (items st)) as [it|] eqn:El.
  - destruct (cf_maxtombs cf <? tomb_count st (key_conn t) (key_dir t)).
    + cbn [fst snd] in H.
      eapply (TInv_delete_step st _ th (IEntomb t s) rest pushed t it); try eassumption.
      * destruct (negb (it_tomb it)); inversion H; reflexivity.
      * destruct (negb (it_tomb it)); inversion H; [apply simple_tail|apply simple_nil].
    + destruct (it_tomb it) eqn:Et; inversion H; subst st1 pushed; clear H.
      * apply (TInv_close_noop st th (IEntomb t s) rest t); try assumption. intros it' Hc. congruence.
      * pose proof (lookup_in key_eqb key_eqb_ok _ _ _ El) as Hin.
        destruct (close_timer _ _ _ _ _ HT Hin0 Hi) as (tm&x&Hx&Hk&Hac&Har).
        pose proof (timer_of_key _ _ _ _ _ HT Hin Hx Hk) as Htm. subst tm.
        eapply (TInv_close_step st _ th (IEntomb t s) rest _ t); try eassumption; try reflexivity;
          cbn [set_gcs set_items items gcs timers].
        -- apply tmoves_refl.
        -- intros t' it' Hc. apply (in_insert key_eqb key_eqb_ok) in Hc. destruct Hc as [[-> ->]|[Hc _]].
           ++ right. exists it. split; [exact Hin|]. split; [reflexivity|]. split; [left; reflexivity|]. exists x. split; assumption.
           ++ left. split; [exact Hc|intro Hg; right; exact Hg].
        -- intros it' Hc. apply (in_insert key_eqb key_eqb_ok) in Hc.
           destruct Hc as [[_ ->]|[_ Hc]]; [reflexivity|exfalso; apply Hc; reflexivity].
        -- cbn [entomb_item it_orig it_call]. apply simple_tail.
  - destruct (cf_maxtombs cf <? tomb_count st (key_conn t) (key_dir t)); inversion H; subst st1 pushed;
      (apply (TInv_close_noop st th (IEntomb t s) rest t); try assumption; intros it' Hc; congruence).
Qed.

Lemma TInv_step_ITimerRun : forall cf st th tm rest room st1 pushed, Inv st -> TInv st ->
  lookup tid_eqb th (threads st) = Some (ITimerRun tm :: rest) ->
  exec cf st (ITimerRun tm) room = (st1, pushed) -> TInv (set_thread st1 th (pushed ++ rest)).
Proof.
  intros cf st th tm rest room st1 pushed HI HT Hl H. cbn [exec] in H.
  pose proof (t_code _ HT _ _ (lookup_in tid_eqb tid_eqb_ok _ _ _ Hl)) as Hc. cbn [tcode_ok] in Hc.
  destruct Hc as [_ (Hth&Hrest&x&Hx&Hac&Har&Hre)].
  subst th rest. rewrite Hx, Hre in H. inversion H. subst st1 pushed. clear H. fold (ran_timer x).
  destruct (t_phase _ HT _ _ Hx) as (_&P2&_).
  assert (Hst : tm_stopped x = false).
  { destruct (tm_stopped x) eqn:E; [|reflexivity]. destruct (P2 eq_refl) as [A _]. congruence. }
  assert (Hself : zlookup tm (zinsert tm (ran_timer x) (timers st)) = Some (ran_timer x)) by (rewrite zl_insert, Z.eqb_refl; reflexivity).
  apply (TInv_lstep st _ (TT tm) (ITimerRun tm) [] _); try assumption; try reflexivity; cbn [set_timers timers items gcs conns].
  - eapply tmoves_insert; [exact Hx|]. apply mv_ran; [exact Hac|exact Har|].
    exists (tm_orig x), []. apply in_set_thread_self. discriminate.
  - apply items_kept_same; reflexivity.
  - cbn. split; [intros j []|]. exists tm, (ran_timer x). repeat split; assumption.
  - intros j k f [<-|[]] Ha. discriminate.
  - intros j t [<-|[]] [].
  - intros k f [Hc|[]]. discriminate.
  - intros t [].
  - intros tm' y Heq Hy. inversion Heq. subst tm'. rewrite Hself in Hy. inversion Hy. reflexivity.
  - intros t o it Hc. discriminate.
Qed.

(* ---------------------------------------------------------------- addRelayItem *)

Definition new_timer (t : key) (o : bool) : timer :=
  {| tm_armed := true; tm_active := true; tm_stopped := false; tm_released := false; tm_key := t; tm_orig := o |}.

(* a relayTimer is started, armed, for a new live item, under a key that no timer has and no
   admission instruction waits for *)
Lemma TInv_born : forall st st' t o nit, TInv st ->
  threads st' = threads st -> gcs st' = gcs st -> seen st' = seen st -> panicked st' = panicked st ->
  (forall k, c_nextid (getc (conns st) k) <= c_nextid (getc (conns st') k)) ->
  timers st' = zinsert (next_tm st) (new_timer t o) (timers st) -> next_tm st' = next_tm st + 1 ->
  items st' = kinsert t nit (items st) -> it_tm nit = next_tm st -> it_tomb nit = false ->
  (forall tm x, zlookup tm (timers st) = Some x -> tm_key x <> t) ->
  ((key_dir t = 0 /\ In (key_conn t, key_id t) (seen st)) \/
   (key_dir t = 1 /\ key_id t < c_nextid (getc (conns st') (key_conn t)))) ->
  (forall th code j k f, In (th, code) (threads st) -> In j code -> adm_kf j = Some (k, f) -> t <> (k, 0, f_id f)) ->
  TInv st'.
Proof.
  intros st st' t o nit HT Hth Hg Hsn Hpan Hcs Htms Hntm Hits Hnit Hnt Hnokey Halloc Hadm.
  assert (Hfwd : forall tm x, zlookup tm (timers st) = Some x -> zlookup tm (timers st') = Some x).
  { intros tm x Hx. rewrite Htms, zl_insert. destruct (t_alloc _ HT _ _ Hx) as [Hlt _].
    destruct (tm =? next_tm st) eqn:E; [apply Z.eqb_eq in E; lia|exact Hx]. }
  assert (Hback : forall tm z, zlookup tm (timers st') = Some z ->
            (tm = next_tm st /\ z = new_timer t o) \/ zlookup tm (timers st) = Some z).
  { intros tm z Hz. rewrite Htms, zl_insert in Hz. destruct (tm =? next_tm st) eqn:E; [|right; exact Hz].
    apply Z.eqb_eq in E. inversion Hz. left. split; [exact E|reflexivity]. }
  assert (Hself : zlookup (next_tm st) (timers st') = Some (new_timer t o)).
  { rewrite Htms, zl_insert, Z.eqb_refl. reflexivity. }
  assert (Hitems : forall t' it', In (t', it') (items st') -> (t' = t /\ it' = nit) \/ In (t', it') (items st)).
  { intros t' it' Hin. rewrite Hits in Hin. apply (in_insert key_eqb key_eqb_ok) in Hin. tauto. }
  constructor; rewrite ?Hth, ?Hg, ?Hsn, ?Hpan.
  - intros t' it' Hin. destruct (Hitems _ _ Hin) as [[-> ->]|Hin1].
    + exists (new_timer t o). rewrite Hnit. repeat split. exact Hself.
    + destruct (t_item _ HT _ _ Hin1) as (x&Hx&Hk&Hr). exists x. split; [apply Hfwd; exact Hx|split; assumption].
  - intros tm1 tm2 x1 x2 H1 H2 Heq.
    destruct (Hback _ _ H1) as [[-> ->]|G1]; destruct (Hback _ _ H2) as [[-> ->]|G2].
    + reflexivity.
    + exfalso. eapply Hnokey; [exact G2|]. cbn in Heq. congruence.
    + exfalso. eapply Hnokey; [exact G1|]. cbn in Heq. congruence.
    + eapply (t_uniq _ HT); eassumption.
  - intros tm z Hz. rewrite Hntm. destruct (Hback _ _ Hz) as [[-> ->]|G].
    + split; [lia|exact Halloc].
    + destruct (t_alloc _ HT _ _ G) as [Hl0 Hal]. split; [lia|]. destruct Hal as [H0|[H1 H2]]; [left; exact H0|right].
      split; [exact H1|]. specialize (Hcs (key_conn (tm_key z))). lia.
  - intros th code j k f Hin Hj Ha tm z Hz. destruct (Hback _ _ Hz) as [[-> ->]|G].
    + cbn. eapply Hadm; eassumption.
    + eapply (t_adm _ HT); eassumption.
  - intros tm z Hz. destruct (Hback _ _ Hz) as [[-> ->]|G]; [|apply (t_phase _ HT _ _ G)].
    unfold phase_ok. cbn. split; [intro; repeat split; reflexivity|]. repeat split; discriminate.
  - intros th code Hin. pose proof (t_code _ HT _ _ Hin) as Hc. destruct code as [|j r]; [exact I|]. cbn [tcode_ok] in *.
    destruct Hc as [Hr Hj]. split; [exact Hr|]. destruct j; try exact I.
    + destruct s; [exact I|]. destruct Hj as (tm&x&He&G&A). exists tm, x. split; [exact He|]. split; [apply Hfwd; exact G|exact A].
    + destruct Hj as (He&Hr0&x&G&A). split; [exact He|]. split; [exact Hr0|]. exists x. split; [apply Hfwd; exact G|exact A].
  - intros th code j t' Hin Hj Ht'. destruct (t_sk _ HT _ _ _ _ Hin Hj Ht') as (tm&z&Hz&A). exists tm, z. split; [apply Hfwd; exact Hz|exact A].
  - intros t' it' Hin Htomb. destruct (Hitems _ _ Hin) as [[-> ->]|Hin1]; [congruence|].
    destruct (t_tomb _ HT _ _ Hin1 Htomb) as [Hgc (x&Hx&Hac)]. split; [exact Hgc|]. exists x. split; [apply Hfwd; exact Hx|exact Hac].
  - apply (t_ncget _ HT).
  - intros t' it' Hin Hnt'. destruct (Hitems _ _ Hin) as [[-> ->]|Hin1].
    + exists (new_timer t o). rewrite Hnit. split; [exact Hself|]. left. reflexivity.
    + destruct (t_oblig _ HT _ _ Hin1 Hnt') as (x&Hx&Hob). exists x. split; [apply Hfwd; exact Hx|exact Hob].
  - apply (t_nopanic _ HT).
Qed.

Lemma TInv_step_plain : forall st th i rest pushed, Inv st -> TInv st ->
  lookup tid_eqb th (threads st) = Some (i :: rest) -> owes i = [] -> is_trun i = false -> is_tent i = false ->
  (forall j, In j pushed -> is_trun j = false /\ is_tent j = false /\ sk j = [] /\ forall k f, j <> INcGet k f) ->
  (forall j k f, In j pushed -> adm_kf j = Some (k, f) -> adm_kf i = Some (k, f)) ->
  TInv (set_thread st th (pushed ++ rest)).
Proof.
  intros st th i rest pushed HI HT Hl Howi Hitr Hite Hps Hadm.
  apply (TInv_lstep st st th i rest pushed); try assumption; try reflexivity.
  - apply tmoves_refl.
  - apply items_kept_same; reflexivity.
  - eapply tcode_ok_pushed; [exact HT|exact Hl|]. intros j Hj. destruct (Hps j Hj) as (A&B&_). split; assumption.
  - intros j t Hj Ht. destruct (Hps j Hj) as (_&_&A&_). rewrite A in Ht. contradiction.
  - intros k f Hj. destruct (Hps _ Hj) as (_&_&_&D). exfalso. eapply D. reflexivity.
  - intros t Ht. rewrite Howi in Ht. contradiction.
  - intros tm x ->. discriminate.
  - intros t o it ->. discriminate.
Qed.

Lemma adm_thread : forall st th i rest, Inv st -> lookup tid_eqb th (threads st) = Some (i :: rest) -> is_adm i = true ->
  rest = [] /\ forall k f, adm_kf i = Some (k, f) -> th = TR k /\ key_free (items st) (gcs st) (seen st) k f.
Proof.
  intros st th i rest HI Hl Ha. pose proof (lookup_in tid_eqb tid_eqb_ok _ _ _ Hl) as Hin.
  destruct (inv_code _ HI _ _ Hin) as [Hf Hal]. split.
  - specialize (Hal i (or_introl eq_refl) Ha). inversion Hal. reflexivity.
  - intros k f Hk. inversion Hf as [|? ? Hi _]. subst. eapply iok_adm; eassumption.
Qed.

Lemma fin_req_frame0 : forall id more, fin_of (req_frame id false more) = false.
Proof. intros id more. destruct more; reflexivity. Qed.

(* addRelayItem: the thread goes on (no table changes yet), then the timer and the item appear *)
Lemma TInv_step_IAddDest : forall cf st th k f e c d rest room st1 pushed, Inv st -> TInv st ->
  lookup tid_eqb th (threads st) = Some (IAddDest k f e c d :: rest) ->
  exec cf st (IAddDest k f e c d) room = (st1, pushed) -> TInv (set_thread st1 th (pushed ++ rest)).
Proof.
  intros cf st th k f e c d rest room st1 pushed HI HT Hl H.
  destruct (adm_thread _ _ _ _ HI Hl eq_refl) as [-> _].
  cbn [exec] in H. unfold timer_new in H. cbn [fst snd] in H. inversion H. subst st1 pushed. clear H.
  set (did := c_nextid (get_conn st d)).
  assert (HT1 : TInv (set_thread st th ([IAddOrig k f e c d did] ++ []))).
  { apply (TInv_step_plain st th (IAddDest k f e c d) [] _ HI HT Hl); try reflexivity.
    - intros j [<-|[]]. repeat split; intros; discriminate.
    - intros j k1 f1 [<-|[]] Ha. exact Ha. }
  eapply (TInv_born _ _ (d, 1, did) false); [exact HT1|..]; try reflexivity.
  - intro k0. cbn [set_thread set_threads put_conn set_conns set_timers set_next_tm set_items conns]. rewrite getc_insert.
    destruct (k0 =? d) eqn:E; [|lia]. apply Z.eqb_eq in E. subst k0. cbn. unfold did.
    change (get_conn st d) with (getc (conns st) d). lia.
  - intros tm x Hx Hk. destruct (t_alloc _ HT _ _ Hx) as [_ [[H0 _]|[_ H1]]]; rewrite Hk in *; cbn in *; [discriminate|].
    unfold did in H1. rewrite get_conn_getc in H1. lia.
  - right. split; [reflexivity|]. cbn [set_thread set_threads put_conn set_conns set_timers set_next_tm set_items conns key_conn key_id fst snd].
    rewrite getc_insert, Z.eqb_refl. cbn. lia.
  - intros th' code j k1 f1 _ _ _ Hc. inversion Hc.
Qed.

Lemma TInv_step_IAddOrig : forall cf st th k f e c d did rest room st1 pushed, Inv st -> TInv st ->
  lookup tid_eqb th (threads st) = Some (IAddOrig k f e c d did :: rest) ->
  exec cf st (IAddOrig k f e c d did) room = (st1, pushed) -> TInv (set_thread st1 th (pushed ++ rest)).
Proof.
  intros cf st th k f e c d did rest room st1 pushed HI HT Hl H.
  destruct (adm_thread _ _ _ _ HI Hl eq_refl) as [-> Hadm]. destruct (Hadm k f eq_refl) as [Hth (Hs&_)].
  pose proof (lookup_in tid_eqb tid_eqb_ok _ _ _ Hl) as Hin0.
  cbn [exec] in H. unfold timer_new in H. cbn [fst snd] in H. inversion H. subst st1 pushed. clear H.
  match goal with |- TInv (set_thread _ _ (?p ++ [])) => set (pushed := p) end.
  assert (Hps : forall j, In j pushed -> is_trun j = false /\ is_tent j = false /\ sk j = [] /\ adm_kf j = None /\ forall k f, j <> INcGet k f).
  { intros j Hj. unfold pushed in Hj. destruct (e_mode e <? 0); [destruct Hj as [<-|[]]|destruct Hj as [<-|[<-|[]]]];
      repeat split; intros; discriminate. }
  assert (HT1 : TInv (set_thread st th (pushed ++ []))).
  { apply (TInv_step_plain st th (IAddOrig k f e c d did) [] _ HI HT Hl); try reflexivity.
    - intros j Hj. destruct (Hps j Hj) as (A&B&C&_&D). repeat split; assumption.
    - intros j k1 f1 Hj Ha. destruct (Hps j Hj) as (_&_&_&A&_). congruence. }
  eapply (TInv_born _ _ (k, 0, f_id f) true); [exact HT1|..]; try reflexivity.
  - intros tm x Hx. eapply (t_adm _ HT th _ _ k f Hin0 (or_introl eq_refl) eq_refl). exact Hx.
  - left. split; [reflexivity|exact Hs].
  - intros th' code j k1 f1 Hin' Hj Ha Hc. inversion Hc. subst k1.
    apply set_thread_in in Hin'. destruct Hin' as [[-> ->]|[Hne Hin']].
    + rewrite app_nil_r in Hj. destruct (Hps j Hj) as (_&_&_&A&_). congruence.
    + destruct (inv_code _ HI _ _ Hin') as [Hf _]. rewrite Forall_forall in Hf.
      destruct (iok_adm _ _ _ _ _ _ _ Ha (Hf j Hj)) as [Hth' _]. apply Hne. congruence.
Qed.

(* ---------------------------------------------------------------- labels other than LStep *)

Lemma TInv_conns : forall st cs', TInv st ->
  (forall k, c_nextid (getc (conns st) k) <= c_nextid (getc cs' k)) -> TInv (set_conns st cs').
Proof.
  intros st cs' HT Hcs. constructor; cbn [set_conns conns items gcs threads seen timers next_tm panicked]; try apply HT.
  intros tm x Hx. destruct (t_alloc _ HT _ _ Hx) as [Hl Hal]. split; [exact Hl|].
  destruct Hal as [H0|[H1 H2]]; [left; exact H0|right]. split; [exact H1|]. specialize (Hcs (key_conn (tm_key x))). lia.
Qed.

Lemma TInv_put_conn_state : forall st k s, TInv st ->
  TInv (put_conn st k {| c_state := s; c_pending := c_pending (get_conn st k); c_nextid := c_nextid (get_conn st k) |}).
Proof.
  intros st k s HT. unfold put_conn. apply TInv_conns; [exact HT|].
  intro k0. rewrite getc_insert. destruct (k0 =? k) eqn:E; [|lia]. apply Z.eqb_eq in E. subst. cbn.
  change (get_conn st k) with (getc (conns st) k). lia.
Qed.

Lemma TInv_new_reader : forall st sn' k code, Inv st -> TInv st ->
  lookup tid_eqb (TR k) (threads st) = None -> incl (seen st) sn' ->
  (forall j, In j code -> is_trun j = false /\ is_tent j = false /\ sk j = [] /\ owes j = []) ->
  (forall j k0 f, In j code -> adm_kf j = Some (k0, f) -> forall tm x, zlookup tm (timers st) = Some x -> tm_key x <> (k0, 0, f_id f)) ->
  (forall k0 f, In (INcGet k0 f) code -> frameTypeFor (f_mt f) <> None) ->
  TInv (set_thread (set_seen st sn') (TR k) code).
Proof.
  intros st sn' k code HI HT Hl Hsn Hc Hadm Hnc.
  apply (TInv_move st _ (TR k) [] code HI HT); cbn [set_thread set_threads set_seen items gcs seen conns timers next_tm panicked];
    try reflexivity; try assumption; fold (threads (set_thread (set_seen st sn') (TR k) code)).
  - apply thread_upd_set; [apply (inv_threads_nd _ HI)|reflexivity|right; split; [exact Hl|reflexivity]].
  - apply tmoves_refl.
  - apply items_kept_same; reflexivity.
  - right. apply tcode_ok_plain. intros j Hj. destruct (Hc j Hj) as (A&B&_). split; assumption.
  - intros j k0 f Hj Ha. right. eapply Hadm; eassumption.
  - intros j t Hj Ht. destruct (Hc j Hj) as (_&_&A&_). rewrite A in Ht. contradiction.
  - intros k0 f Hj. right. apply (Hnc k0 f). exact Hj.
  - intros j t [].
  - intros tm x Heq. discriminate.
  - intros t o rest it Heq. discriminate.
Qed.

Lemma route_ftype : forall mt c, relayRoute mt c = 1 -> frameTypeFor mt <> None.
Proof.
  intros mt c H. unfold relayRoute in H. unfold frameTypeFor.
  destruct ((mt =? c_messageTypeCancel) && negb c); [discriminate|].
  destruct (mt =? c_messageTypeCallReq) eqn:E1, (mt =? c_messageTypeCallReqContinue) eqn:E2,
           (mt =? c_messageTypeCallRes) eqn:E3, (mt =? c_messageTypeCallResContinue) eqn:E4,
           (mt =? c_messageTypeError) eqn:E5, (mt =? c_messageTypeCancel) eqn:E6; cbn in *; try discriminate;
    destruct (mt =? c_messageTypePingRes), (mt =? c_messageTypePingReq); cbn; discriminate.
Qed.

Lemma TInv_fire : forall st tm x, Inv st -> TInv st ->
  zlookup tm (timers st) = Some x -> tm_armed x = true -> lookup tid_eqb (TT tm) (threads st) = None ->
  TInv (set_thread (set_timers st (zinsert tm (fired_timer x) (timers st))) (TT tm) [ITimerRun tm]).
Proof.
  intros st tm x HI HT Hx Harm Hl.
  destruct (t_phase _ HT _ _ Hx) as (P1&_). destruct (P1 Harm) as (Hac&Hst&Hre).
  apply (TInv_move st _ (TT tm) [] [ITimerRun tm] HI HT); cbn [set_thread set_threads set_timers items gcs seen conns timers next_tm panicked];
    try reflexivity.
  - apply thread_upd_set; [apply (inv_threads_nd _ HI)|reflexivity|right; split; [exact Hl|reflexivity]].
  - eapply tmoves_insert; [exact Hx|]. apply mv_fire; [exact Harm|]. apply (lookup_insert_eq tid_eqb tid_eqb_ok).
  - apply incl_refl.
  - apply items_kept_same; reflexivity.
  - right. cbn [tcode_ok]. split; [intros j []|]. split; [reflexivity|]. split; [reflexivity|]. exists (fired_timer x).
    rewrite zl_insert, Z.eqb_refl. repeat split; assumption.
  - intros j k f [<-|[]] Ha. discriminate.
  - intros j t [<-|[]] [].
  - intros k f [Hc|[]]. discriminate.
  - intros j t [].
  - intros tm' y Heq. discriminate.
  - intros t o rest it Heq. discriminate.
Qed.

Lemma in_remove_one_other : forall t t' l, t' <> t -> In t' l -> In t' (remove_one t l).
Proof.
  intros t t' l Hne. induction l as [|y r IH]; cbn; [tauto|].
  destruct (key_eqb t y) eqn:E.
  - apply key_eqb_ok in E. subst y. intros [Hc|Hc]; [congruence|exact Hc].
  - intros [Hc|Hc]; [left; exact Hc|right; apply IH; exact Hc].
Qed.

Lemma TInv_tables : forall st st', Inv st -> TInv st ->
  threads st' = threads st ->
  tmoves (threads st') (items st') (timers st) (timers st') ->
  seen st' = seen st -> next_tm st' = next_tm st -> panicked st' = panicked st -> conns st' = conns st ->
  (forall t it, In (t, it) (items st') -> In (t, it) (items st) /\ (In t (gcs st) -> In t (gcs st'))) ->
  TInv st'.
Proof.
  intros st st' HI HT Hth Hmv Hsn Hntm Hpan Hcs Hits.
  (* the code of the reader TR 0, if any, stands for the thread that is replaced (by itself) *)
  assert (Hc : exists c, lookup tid_eqb (TR 0) (threads st) = Some c \/ (lookup tid_eqb (TR 0) (threads st) = None /\ c = [])).
  { destruct (lookup tid_eqb (TR 0) (threads st)) as [c|]; [exists c; left|exists []; right; split]; reflexivity. }
  destruct Hc as [c Hc].
  assert (Hno : forall j, In j c -> is_trun j = true \/ is_tent j = true -> False).
  { intros j Hj Hb. destruct Hc as [Hc|[_ ->]]; [|contradiction].
    pose proof (t_code _ HT _ _ (lookup_in tid_eqb tid_eqb_ok _ _ _ Hc)) as Hcode.
    destruct c as [|i r]; [contradiction|]. cbn [tcode_ok] in Hcode. destruct Hcode as [Hr Hi]. destruct Hj as [<-|Hj].
    - destruct i; try (destruct Hb; discriminate); [destruct s; [destruct Hb; discriminate|]|];
        [destruct Hi as (tm&_&He&_)|destruct Hi as (He&_)]; discriminate.
    - destruct (Hr j Hj) as [A B]. destruct Hb; congruence. }
  apply (TInv_move st st' (TR 0) c c HI HT); try assumption.
  - rewrite Hth. apply thread_upd_same; [apply (inv_threads_nd _ HI)|exact Hc].
  - rewrite Hsn. apply incl_refl.
  - intro k. rewrite Hcs. lia.
  - intros t it Hin. left. apply Hits. exact Hin.
  - destruct Hc as [Hc|[_ ->]]; [left; exact Hc|right; exact I].
  - intros j k f Hj Ha. left. exists j. split; assumption.
  - intros j t Hj Ht. left. exists j. split; assumption.
  - intros k f Hj. left. exact Hj.
  - intros j t Hj Ht. left. exists j. split; assumption.
  - intros tm x -> _. exfalso. apply (Hno (ITimerRun tm)); [left; reflexivity|left; reflexivity].
  - intros t o rest it -> _. exfalso. apply (Hno (IEntomb t (FromTimeout o))); [left; reflexivity|right; reflexivity].
Qed.

Lemma TInv_gc : forall st t, Inv st -> TInv st -> mem_key t (gcs st) = true ->
  TInv (items_delete_tomb (set_gcs st (remove_one t (gcs st))) t).
Proof.
  intros st t HI HT Em.
  rewrite (gc_is_delete st t HI Em). unfold items_delete. cbn [set_gcs items].
  destruct (klookup t (items st)) as [it|] eqn:El; cbn [fst].
  - pose proof (lookup_in key_eqb key_eqb_ok _ _ _ El) as Hin.
    pose proof (gc_tomb _ _ _ HI Em El) as Htomb.
    destruct (t_tomb _ HT _ _ Hin Htomb) as [_ (x&Hx&Hac)].
    destruct (t_item _ HT _ _ Hin) as (x'&Hx'&Hk&Hrel). rewrite Hx in Hx'. inversion Hx'. subst x'.
    destruct (t_phase _ HT _ _ Hx) as (P1&_).
    assert (Har : tm_armed x = false).
    { destruct (tm_armed x) eqn:E; [|reflexivity]. destruct (P1 eq_refl) as [A _]. congruence. }
    set (st0 := set_items (set_gcs st (remove_one t (gcs st))) (kremove t (items st))).
    destruct (timer_release_spec st0 (it_tm it) x Hx Hrel Hac) as (P&N&T).
    destruct (timer_release_core st0 (it_tm it)) as (C1&C2&C3&C4&_&_&C7&_).
    apply (TInv_tables st _ HI HT); try assumption.
    + rewrite T. eapply tmoves_insert; [exact Hx|]. apply mv_release; [exact Hac|exact Har|].
      intros it' Hc. rewrite C2, Hk in Hc. apply (in_remove key_eqb key_eqb_ok) in Hc. destruct Hc as [_ Hc]. apply Hc. reflexivity.
    + intros t' it' Hc. rewrite C2 in Hc. apply (in_remove key_eqb key_eqb_ok) in Hc. destruct Hc as [Hc Hne].
      split; [exact Hc|]. rewrite C3. apply in_remove_one_other. exact Hne.
  - (* nothing at t: only the GC list shrinks *)
    apply (TInv_tables st _ HI HT); try reflexivity; cbn [set_gcs threads items timers gcs].
    + apply tmoves_refl.
    + intros t' it' Hc. split; [exact Hc|]. apply in_remove_one_other. intro Heq. subst t'.
      apply (in_lookup key_eqb key_eqb_ok _ _ _ (inv_items_nd _ HI)) in Hc. congruence.
Qed.

Lemma step_tinv : forall cf st l st', Inv st -> TInv st -> LInv st -> fresh_label st l = true -> step cf st l = Some st' -> TInv st'.
Proof.
  intros cf st l st' HI HT HL Hfresh H. destruct (step_cases _ _ _ _ H) as [_ Hc]. clear H.
  destruct Hc as [| | |th room i| |t Emem|].
  - exact HT.
  - (* a call req with a fresh id: no timer has its key *)
    pose proof (fresh_callreq _ _ _ _ Hfresh Emt) as Hnotseen.
    apply TInv_new_reader; try assumption.
    + apply incl_tl. apply incl_refl.
    + intros j [<-|[]]. repeat split; reflexivity.
    + intros j k0 f0 [<-|[]] Ha tm x Hx Hk. inversion Ha. subst k0 f0.
      destruct (t_alloc _ HT _ _ Hx) as [_ [[_ H1]|[H1 _]]]; rewrite Hk in H1; cbn in H1; [contradiction|discriminate].
    + intros k0 f0 [Hc|[]]. discriminate.
  - assert (Hst : set_thread st (TR k) [INcGet k f] = set_thread (set_seen st (seen st)) (TR k) [INcGet k f]) by (destruct st; reflexivity).
    rewrite Hst. apply TInv_new_reader; try assumption.
    + apply incl_refl.
    + intros j [<-|[]]. repeat split; reflexivity.
    + intros j k0 f0 [<-|[]] Ha. discriminate.
    + intros k0 f0 [Hc|[]]. inversion Hc. subst. apply Z.eqb_eq in Eroute. eapply route_ftype. exact Eroute.
  - destruct i; try (eapply TInv_step_pure; [exact HI|exact HT|exact Ehead|reflexivity|exact Eexec]).
    + eapply TInv_step_IAddDest; eassumption.
    + eapply TInv_step_IAddOrig; eassumption.
    + eapply TInv_step_INcGet; eassumption.
    + eapply TInv_step_IRcvGet; eassumption.
    + eapply TInv_step_IFailGet; eassumption.
    + eapply TInv_step_IEntomb; eassumption.
    + eapply TInv_step_IDelete; eassumption.
    + eapply TInv_step_ITimerRun; eassumption.
  - apply (TInv_fire st tm x HI HT Etm Earmed Eidle).
  - apply TInv_gc; assumption.
  - apply TInv_put_conn_state. exact HT.
Qed.

Lemma TInv_init : TInv init.
Proof.
  constructor; cbn; try (intros; contradiction); try (intros; discriminate). reflexivity.
Qed.

(* ---------------------------------------------------------------- LInv is preserved (by every step, fresh id or not) *)

Definition kmono (a b : list (Z * timer)) : Prop :=
  forall tm x, zlookup tm a = Some x -> exists x', zlookup tm b = Some x' /\ tm_key x' = tm_key x.

Lemma kmono_refl : forall a, kmono a a.
Proof. intros a tm x H. exists x. split; [exact H|reflexivity]. Qed.

Lemma kmono_same : forall a tm x0 y, zlookup tm a = Some x0 -> tm_key y = tm_key x0 -> kmono a (zinsert tm y a).
Proof.
  intros a tm x0 y H Hk tm' x Hx. rewrite zl_insert. destruct (tm' =? tm) eqn:E.
  - apply Z.eqb_eq in E. subst. rewrite H in Hx. inversion Hx. subst. exists y. split; [reflexivity|exact Hk].
  - exists x. split; [exact Hx|reflexivity].
Qed.

Lemma kmono_new : forall a tm y, zlookup tm a = None -> kmono a (zinsert tm y a).
Proof.
  intros a tm y H tm' x Hx. rewrite zl_insert. destruct (tm' =? tm) eqn:E.
  - apply Z.eqb_eq in E. subst. congruence.
  - exists x. split; [exact Hx|reflexivity].
Qed.

Lemma timer_stop_kmono : forall st tm st' b, timer_stop st tm = (st', b) -> kmono (timers st) (timers st').
Proof.
  intros st tm st' b H. unfold timer_stop in H. destruct (zlookup tm (timers st)) as [x|] eqn:E.
  - destruct (tm_released x); [inversion H; apply kmono_refl|].
    destruct (tm_stopped x); [inversion H; apply kmono_refl|].
    destruct (tm_armed x); inversion H; [|apply kmono_refl]. cbn [set_timers timers]. eapply kmono_same; [exact E|reflexivity].
  - inversion H. apply kmono_refl.
Qed.

Lemma timer_release_kmono : forall st tm, kmono (timers st) (timers (timer_release st tm)).
Proof.
  intros st tm. unfold timer_release. destruct (zlookup tm (timers st)) as [x|] eqn:E; [|apply kmono_refl].
  destruct (tm_released x); [apply kmono_refl|]. destruct (tm_active x); [apply kmono_refl|].
  cbn [set_timers timers]. eapply kmono_same; [exact E|reflexivity].
Qed.

Lemma items_get_kmono : forall st t stop st' g, items_get st t stop = (st', g) -> kmono (timers st) (timers st').
Proof.
  intros st t stop st' g H. unfold items_get in H. destruct (klookup t (items st)) as [it|]; [|inversion H; apply kmono_refl].
  destruct stop; [|inversion H; apply kmono_refl].
  destruct (timer_stop st (it_tm it)) as [s b] eqn:E. inversion H. subst. eapply timer_stop_kmono. exact E.
Qed.

Lemma items_delete_kmono : forall st t st' g, items_delete st t = (st', g) -> kmono (timers st) (timers st').
Proof.
  intros st t st' g H. unfold items_delete in H. destruct (klookup t (items st)) as [it|]; [|inversion H; apply kmono_refl].
  inversion H. apply (timer_release_kmono (set_items st (kremove t (items st))) (it_tm it)).
Qed.

Lemma exec_kmono : forall cf st i room st1 pushed,
  (forall tm x, zlookup tm (timers st) = Some x -> tm < next_tm st) ->
  exec cf st i room = (st1, pushed) -> kmono (timers st) (timers st1).
Proof.
  intros cf st i room st1 pushed Hal H.
  assert (Hnew : zlookup (next_tm st) (timers st) = None).
  { destruct (zlookup (next_tm st) (timers st)) as [x|] eqn:E; [|reflexivity]. specialize (Hal _ _ E). lia. }
  destruct (exec_cases _ _ _ _ _ _ H); try apply kmono_refl; try (eapply items_get_kmono; exact Eget).
  - apply kmono_new. exact Hnew.
  - apply kmono_new. exact Hnew.
  - unfold items_entomb in Eent. destruct (cf_maxtombs cf <? tomb_count st (key_conn t) (key_dir t)); [eapply items_delete_kmono; exact Eent|].
    destruct (klookup t (items st)) as [it|]; [|inversion Eent; apply kmono_refl].
    destruct (it_tomb it); inversion Eent; apply kmono_refl.
  - destruct (items_delete_call_cases st t lk) as [Ec|[Ec _]]; rewrite Ec in Edel; [eapply items_delete_kmono; exact Edel|].
    inversion Edel. apply kmono_refl.
  - eapply kmono_same; [exact Etm|reflexivity].
Qed.

Lemma after_sent_refs : forall r j t lk, In j (after_sent r) -> In (t, lk) (refs j) ->
  (t, lk) = (r_own r, (r_d r, f_id (r_f r))).
Proof.
  intros r j t lk Hj Ht. unfold after_sent in Hj. apply in_app_or in Hj. destruct Hj as [Hj|Hj].
  - destruct (fin_of (r_f r)); [|contradiction]. destruct Hj as [<-|[]]. destruct Ht as [Ht|[]]. symmetry. exact Ht.
  - destruct (0 <? r_more r); [|contradiction]. destruct Hj as [<-|[<-|[]]]; [contradiction|].
    destruct Ht as [Ht|[]]. symmetry. exact Ht.
Qed.

Lemma pushed_refs : forall cf st i room st1 pushed j t lk, exec cf st i room = (st1, pushed) ->
  In j pushed -> In (t, lk) (refs j) ->
  In (t, lk) (refs i) \/
  (exists it, klookup t (items st) = Some it /\ lk = (it_dest it, it_remap it) /\ items st1 = items st) \/
  (exists k f e c d did, i = IAddOrig k f e c d did /\ t = (k, 0, f_id f) /\ lk = (d, did)).
Proof.
  intros cf st i room st1 pushed j t lk H Hj Ht.
  destruct (exec_cases _ _ _ _ _ _ H); try (in_cases Hj; contradiction).
  - (* IAddOrig *)
    in_cases Hj; try contradiction.
    right. right. destruct Ht as [Ht|[]]. inversion Ht. exists k, f, e, c, d, did. repeat split.
  - (* INcGet *)
    destruct Hj as [<-|[]]. destruct g as [[it s]|]; [|contradiction]. pose proof (items_get_found _ _ _ _ _ _ Eget) as El. pose proof (items_get_items _ _ _ _ _ Eget) as Hi.
    destruct Ht as [Ht|[]]. inversion Ht. subst. right. left. exists it. split; [exact El|split; [reflexivity|exact Hi]].
  - (* INcChk *)
    left. in_cases Hj; try contradiction. destruct Ht as [Ht|[]]. inversion Ht. subst. left. reflexivity.
  - (* IRcvGet *)
    destruct Hj as [<-|[]]. destruct Ht as [Ht|Ht]; [left; left; exact Ht|].
    destruct g as [[it s]|]; [|contradiction]. pose proof (items_get_found _ _ _ _ _ _ Eget) as El. pose proof (items_get_items _ _ _ _ _ Eget) as Hi.
    destruct Ht as [Ht|[]]. inversion Ht. subst. right. left. exists it. split; [exact El|split; [reflexivity|exact Hi]].
  - (* IRcvChk *)
    left. rewrite (after_sent_refs _ _ _ _ Hj Ht). left. reflexivity.
  - left. apply in_app_or in Hj. destruct Hj as [Hj|[<-|[]]]; [in_cases Hj; contradiction|].
    destruct Ht as [Ht|[Ht|[]]]; [left; exact Ht|right; left; exact Ht].
  - (* IRcvEnq *)
    left. apply in_app_or in Hj. destruct Hj as [Hj|Hj].
    + destruct (fin_of (r_f r)); [|contradiction]. destruct Hj as [<-|[]]. destruct Ht as [Ht|[]]. right. left. exact Ht.
    + rewrite (after_sent_refs _ _ _ _ Hj Ht). left. reflexivity.
  - (* IFailGet, IEntomb, IDelete *)
    destruct g as [[it [|]]|]; in_cases Hj; contradiction.
  - destruct g as [[it [|]]|]; try contradiction. apply in_app_or in Hj. destruct Hj as [Hj|[<-|[]]]; [|contradiction].
    destruct (match s with FromFail _ => it_orig it | FromTimeout o => o end); [|contradiction].
    unfold orig_tail in Hj. destruct s; in_cases Hj; contradiction.
  - destruct g as [[it [|]]|]; in_cases Hj; contradiction.
Qed.

Lemma ref_ok_exec : forall cf st th i rest room st1 pushed t lk, Inv st -> TInv st ->
  lookup tid_eqb th (threads st) = Some (i :: rest) -> exec cf st i room = (st1, pushed) ->
  ref_ok (timers st) (items st) t lk -> ref_ok (timers st1) (items st1) t lk.
Proof.
  intros cf st th i rest room st1 pushed t lk HI HT Hl E [(tm&x&Hx&Hk) Hid].
  pose proof (lookup_in tid_eqb tid_eqb_ok _ _ _ Hl) as Hin0.
  assert (Hkm : kmono (timers st) (timers st1)).
  { eapply exec_kmono; [|exact E]. intros tm' x' Hx'. apply (t_alloc _ HT _ _ Hx'). }
  split.
  - destruct (Hkm _ _ Hx) as (x'&Hx'&Hk'). exists tm, x'. split; [exact Hx'|congruence].
  - intros it Hit. apply (lookup_in key_eqb key_eqb_ok) in Hit.
    destruct (exec_items_fields _ _ _ _ _ _ _ _ E Hit) as [(it0&Hin&_&Hd&Hr&_)|[(k&f&e&c&d&Hi&Ht&_)|(k&f&e&c&d&did&Hi&Ht&_)]].
    + rewrite Hd, Hr. apply Hid. apply (in_lookup key_eqb key_eqb_ok _ _ _ (inv_items_nd _ HI)). exact Hin.
    + exfalso. destruct (t_alloc _ HT _ _ Hx) as [_ [[H0 _]|[_ Hlt]]]; rewrite Hk, Ht in *; cbn in *; [discriminate|].
      rewrite get_conn_getc in Hlt. lia.
    + exfalso. subst i. eapply (t_adm _ HT th _ _ k f Hin0 (or_introl eq_refl) eq_refl tm x Hx). congruence.
Qed.

Lemma LInv_step_lstep : forall cf st th i rest room st1 pushed, Inv st -> TInv st -> LInv st ->
  lookup tid_eqb th (threads st) = Some (i :: rest) -> exec cf st i room = (st1, pushed) ->
  LInv (set_thread st1 th (pushed ++ rest)).
Proof.
  intros cf st th i rest room st1 pushed HI HT HL Hl E.
  pose proof (lookup_in tid_eqb tid_eqb_ok _ _ _ Hl) as Hin0.
  assert (Hth : threads st1 = threads st).
  { destruct (inv_code _ HI _ _ Hin0) as [Hf _]. inversion Hf as [|? ? Hiok _]. subst.
    destruct (exec_eff _ _ th _ _ _ _ HI Hiok E) as (A&_). exact A. }
  assert (Hold : forall t lk, ref_ok (timers st) (items st) t lk -> ref_ok (timers st1) (items st1) t lk).
  { intros t lk. eapply ref_ok_exec; eassumption. }
  intros th' code' j t lk Hin Hj Ht. cbn [set_thread set_threads timers items].
  fold (threads (set_thread st1 th (pushed ++ rest))) in Hin.
  apply set_thread_in in Hin. destruct Hin as [[-> ->]|[Hne Hin]].
  - apply in_app_or in Hj. destruct Hj as [Hj|Hj].
    + destruct (pushed_refs _ _ _ _ _ _ _ _ _ E Hj Ht) as [Hr|[(it&Hit&Hlk&Hits)|(k&f&e&c&d&did&Hi&Htt&Hlk)]].
      * apply Hold. eapply (HL th _ i); [exact Hin0|left; reflexivity|exact Hr].
      * apply Hold. split.
        -- destruct (t_item _ HT _ _ (lookup_in key_eqb key_eqb_ok _ _ _ Hit)) as (x&Hx&Hk&_). exists (it_tm it), x. split; assumption.
        -- intros it' Hit'. rewrite Hit in Hit'. inversion Hit'. subst. split; reflexivity.
      * subst i t lk. cbn [exec] in E. unfold timer_new in E. cbn [fst snd] in E. inversion E. subst st1 pushed. split.
        -- exists (next_tm st). eexists. cbn [set_items set_next_tm set_timers timers]. split; [rewrite zl_insert, Z.eqb_refl; reflexivity|reflexivity].
        -- intros it Hit. cbn [set_items items] in Hit. rewrite (lookup_insert_eq key_eqb key_eqb_ok) in Hit. inversion Hit. split; reflexivity.
    + apply Hold. eapply (HL th _ j); [exact Hin0|right; exact Hj|exact Ht].
  - apply Hold. rewrite Hth in Hin. eapply HL; eassumption.
Qed.

Lemma LInv_ext : forall st st', LInv st -> kmono (timers st) (timers st') ->
  (forall t it, klookup t (items st') = Some it -> klookup t (items st) = Some it) ->
  (forall th code, In (th, code) (threads st') -> In (th, code) (threads st) \/ (forall j, In j code -> refs j = [])) ->
  LInv st'.
Proof.
  intros st st' HL Hk Hi Hth th code j t lk Hin Hj Ht. destruct (Hth _ _ Hin) as [Hin0|Hno].
  - destruct (HL _ _ _ _ _ Hin0 Hj Ht) as [(tm&x&Hx&Hkx) Hid]. split.
    + destruct (Hk _ _ Hx) as (x'&Hx'&Hk'). exists tm, x'. split; [exact Hx'|congruence].
    + intros it Hit. apply Hid. apply Hi. exact Hit.
  - rewrite (Hno j Hj) in Ht. contradiction.
Qed.

Lemma LInv_step : forall cf st l st', Inv st -> TInv st -> LInv st -> step cf st l = Some st' -> LInv st'.
Proof.
  intros cf st l st' HI HT HL H. destruct (step_cases _ _ _ _ H) as [_ Hc]. clear H.
  assert (Hnew : forall s th i, threads s = threads st -> kmono (timers st) (timers s) -> items s = items st ->
            refs i = [] -> LInv (set_thread s th [i])).
  { intros s th i Hth Htm Hit Hno. eapply LInv_ext; [exact HL|exact Htm| |]; cbn [set_thread set_threads timers items].
    - intros t it Hl. rewrite Hit in Hl. exact Hl.
    - intros th' code' Hin. fold (threads (set_thread s th [i])) in Hin. apply set_thread_in in Hin.
      destruct Hin as [[-> ->]|[_ Hin]]; [right; intros j [<-|[]]; exact Hno|left; rewrite Hth in Hin; exact Hin]. }
  destruct Hc as [| | | | |t Emem|]; try exact HL; try (apply Hnew; try reflexivity; apply kmono_refl).
  - eapply LInv_step_lstep; eassumption.
  - apply Hnew; try reflexivity. eapply kmono_same; [exact Etm|reflexivity].
  - destruct (items_delete_tomb_spec (set_gcs st (remove_one t (gcs st))) t) as (_&_&A&_&_&_&_&B).
    eapply LInv_ext; [exact HL| | |].
    + unfold items_delete_tomb. cbn [set_gcs items]. destruct (klookup t (items st)) as [it|]; [|apply kmono_refl].
      destruct (it_tomb it); [|apply kmono_refl].
      apply (timer_release_kmono (set_items (set_gcs st (remove_one t (gcs st))) (kremove t (items st))) (it_tm it)).
    + intros t0 it0 Hit. cbn [set_gcs items] in B. destruct (klookup t (items st)) as [it|] eqn:El.
      * destruct (it_tomb it); [|rewrite B in Hit; exact Hit]. rewrite B in Hit.
        destruct (eqb_dec key_eqb key_eqb_ok t0 t) as [->|Hn]; [rewrite (lookup_remove_eq key_eqb key_eqb_ok) in Hit; discriminate|].
        rewrite (lookup_remove_neq key_eqb key_eqb_ok) in Hit by exact Hn. exact Hit.
      * rewrite B in Hit. exact Hit.
    + intros th code Hin. rewrite A in Hin. left. exact Hin.
Qed.

Lemma LInv_init : LInv init.
Proof. intros th code j t lk []. Qed.

Lemma run_fresh_three : forall cf ls st0 st, Inv st0 -> TInv st0 -> LInv st0 -> run_fresh cf st0 ls = Some st ->
  Inv st /\ TInv st /\ LInv st.
Proof.
  intros cf ls. induction ls as [|l r IH]; intros st0 st HI HT HL H; cbn in H.
  - inversion H. subst. split; [assumption|split; assumption].
  - destruct (fresh_label st0 l) eqn:Ef; [|discriminate]. destruct (step cf st0 l) as [st1|] eqn:Es; [|discriminate].
    eapply IH; [eapply step_inv; eassumption|eapply step_tinv; eassumption|eapply LInv_step; eassumption|exact H].
Qed.

Theorem reach_three : forall cf ls st, run_fresh cf init ls = Some st -> Inv st /\ TInv st /\ LInv st.
Proof. intros cf ls st H. eapply run_fresh_three; [apply Inv_init|apply TInv_init|apply LInv_init|exact H]. Qed.

Theorem reach_both : forall cf ls st, run_fresh cf init ls = Some st -> Inv st /\ TInv st.
Proof. intros cf ls st H. destruct (reach_three cf ls st H) as (A&B&_). split; assumption. Qed.
