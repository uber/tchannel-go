(* Proofs for property C05 (b): the wait-site table and the time-abstract call path,
   the new-connection lock, the connect / handshake budgets. *)
From Coq Require Import ZArith List Bool Lia.
From Verif Require Import Base.Wrap Base.Bytes Gen.GenConsts Gen.GenWaitSites Spec.WaitSpec Model.CallPath.
Import ListNotations.
Local Open Scope Z_scope.

Lemma forallb_Forall {A} (p : A -> bool) (P : A -> Prop) l :
  (forall x, p x = true -> P x) -> forallb p l = true -> Forall P l.
Proof. intros Hp H. apply Forall_forall. intros x Hx. apply Hp. rewrite forallb_forall in H. exact (H x Hx). Qed.

Lemma has_deadline_exitb_iff w : has_deadline_exitb w = true <-> has_deadline_exit w.
Proof.
  unfold has_deadline_exitb, has_deadline_exit. rewrite existsb_exists. split; intros [x H]; exists x; exact H.
Qed.

Lemma omin_some_l a b x : a = Some x -> exists y, omin a b = Some y /\ y <= x.
Proof. intros ->. destruct b as [z|]; cbn [omin]; eexists; split; try reflexivity; lia. Qed.

Lemma omin_some_r a b x : b = Some x -> exists y, omin a b = Some y /\ y <= x.
Proof. intros ->. destruct a as [z|]; cbn [omin]; eexists; split; try reflexivity; lia. Qed.

Lemma first_exit_deadline dc dl ev : dc <= dl -> forall xs,
  (exists x, In x xs /\ is_deadline_exit x = true) ->
  exists e, first_exit dc dl ev xs = Some e /\ e <= dl.
Proof.
  intros Hd. induction xs as [|x xs IH]; intros [y [Hin Hy]]; [destruct Hin|].
  cbn [first_exit fold_right]. fold (first_exit dc dl ev xs). destruct Hin as [->|Hin].
  - assert (E : exists v, exit_time dc dl ev y = Some v /\ v <= dl).
    { destruct y; try discriminate Hy; cbn [exit_time]; eexists; split; try reflexivity; lia. }
    destruct E as (v & Ev & Hv). destruct (omin_some_l _ (first_exit dc dl ev xs) v Ev) as (e & E & He).
    exists e. split; [exact E|lia].
  - destruct (IH (ex_intro _ y (conj Hin Hy))) as (v & Ev & Hv).
    destruct (omin_some_r (exit_time dc dl ev x) _ v Ev) as (e & E & He).
    exists e. split; [exact E|lia].
Qed.

Lemma wait_leave_deadline dc dl w ev t : dc <= dl -> has_deadline_exit w ->
  exists t', wait_leave dc dl w ev t = Some t' /\ t <= t' /\ t' <= Z.max t dl.
Proof.
  intros Hd H. unfold wait_leave. destruct (first_exit_deadline dc dl ev Hd _ H) as (e & E & He).
  rewrite E. eexists. split; [reflexivity|]. lia.
Qed.

(* every path over waits that offer a deadline exit (or whose event is already there)
   is left by the later of its start and the deadline, whatever the events do *)
Theorem path_by_deadline : forall dc dl, dc <= dl -> forall path,
  Forall (fun s => p_ready s = true \/ has_deadline_exit (p_site s)) path ->
  forall t, exists t', run_path dc dl path t = Some t' /\ t <= t' /\ t' <= Z.max t dl.
Proof.
  intros dc dl Hd. induction path as [|s r IH]; intros H t; cbn [run_path].
  - exists t. split; [reflexivity|lia].
  - pose proof (Forall_inv H) as Hs. pose proof (Forall_inv_tail H) as Hr.
    destruct (p_ready s) eqn:Er; [exact (IH Hr t)|].
    destruct Hs as [Hs|Hs]; [congruence|].
    destruct (wait_leave_deadline dc dl (p_site s) (p_ev s) t Hd Hs) as (t1 & E1 & L1 & U1). rewrite E1.
    destruct (IH Hr t1) as (t' & E' & L' & U'). exists t'. split; [exact E'|]. lia.
Qed.

(* conversely a wait without such an exit can block for ever *)
Lemma first_exit_none dc dl : forall xs, existsb is_deadline_exit xs = false ->
  first_exit dc dl (mkEv None None None) xs = None.
Proof.
  induction xs as [|x xs IH]; intros H; [reflexivity|]. cbn [existsb] in H. apply orb_false_iff in H. destruct H as [Hx Hxs].
  cbn [first_exit fold_right]. fold (first_exit dc dl (mkEv None None None) xs). rewrite (IH Hxs).
  destruct x; try discriminate Hx; reflexivity.
Qed.

Theorem no_deadline_exit_blocks : forall w, has_deadline_exitb w = false ->
  forall dc dl t, wait_leave dc dl w (mkEv None None None) t = None.
Proof. intros w H dc dl t. unfold wait_leave. rewrite (first_exit_none dc dl _ H). reflexivity. Qed.

(* ================================================================== *)
(* the generated table                                                 *)
(* ================================================================== *)
(* "Peer.unlockNewConn" *)
Definition release_fn : list Z := [80; 101; 101; 114; 46; 117; 110; 108; 111; 99; 107; 78; 101; 119; 67; 111; 110; 110].

Definition wkind_eqb (a b : wkind) : bool :=
  match a, b with
  | WSelect, WSelect | WChanOp, WChanOp | WLock, WLock | WDial, WDial | WNetIO, WNetIO | WOther, WOther => true
  | _, _ => false
  end.

(* the release of the one-slot semaphore: a receive whose token the goroutine itself put *)
Definition is_releaseb (w : wsite) : bool :=
  bytes_eqb (ws_fn w) release_fn && wkind_eqb (ws_kind w) WChanOp &&
  match ws_exits w with [XData] => true | _ => false end.
Definition is_release (w : wsite) : Prop := is_releaseb w = true.

Theorem wait_sites_ok : Forall (fun w => has_deadline_exit w \/ is_release w) wait_sites.
Proof.
  apply (forallb_Forall (fun w => has_deadline_exitb w || is_releaseb w)); [|vm_compute; reflexivity].
  intros w H. apply orb_true_iff in H. destruct H as [H|H]; [left; apply has_deadline_exitb_iff, H|right; exact H].
Qed.

Theorem no_lock_across_io : io_lock_count = 0 /\ Forall (fun w => ws_kind w <> WLock) wait_sites.
Proof.
  split; [reflexivity|].
  apply (forallb_Forall (fun w => negb (wkind_eqb (ws_kind w) WLock))); [|vm_compute; reflexivity].
  intros w H E. rewrite E in H. discriminate H.
Qed.

(* ================================================================== *)
(* the new-connection lock                                             *)
(* ================================================================== *)
Definition cnt (l : list lpc) : Z := Z.of_nat (length (filter (fun p => lpc_eqb p LHold) l)).

Lemma cnt_app a b : cnt (a ++ b) = cnt a + cnt b.
Proof. unfold cnt. rewrite filter_app, app_length. lia. Qed.

Lemma cnt_cons x l : cnt (x :: l) = (if lpc_eqb x LHold then 1 else 0) + cnt l.
Proof. unfold cnt. cbn [filter]. destruct (lpc_eqb x LHold); cbn [length]; lia. Qed.

Lemma cnt_nonneg l : 0 <= cnt l. Proof. unfold cnt. lia. Qed.

Lemma lpc_eqb_eq a b : lpc_eqb a b = true -> a = b.
Proof. destruct a, b; try discriminate; reflexivity. Qed.

(* a goroutine whose pc is q (not the default) sits at a definite position *)
Lemma nth_split_pc i l q : lpc_eqb (nth i l LDone) q = true -> q <> LDone ->
  exists a b, l = a ++ q :: b /\ forall p, set_pc i p l = a ++ p :: b.
Proof.
  intros H Hq. apply lpc_eqb_eq in H.
  assert (Hi : (i < length l)%nat).
  { destruct (le_lt_dec (length l) i) as [Hge|Hlt]; [|exact Hlt]. rewrite nth_overflow in H by exact Hge. congruence. }
  destruct (nth_split l LDone Hi) as (a & b & E & La). rewrite H in E.
  exists a, b. split; [exact E|]. intros p. unfold set_pc. rewrite E.
  rewrite firstn_app, skipn_app, La, Nat.sub_diag, firstn_all2, skipn_all2 by lia.
  cbn [firstn skipn app]. rewrite app_nil_r. reflexivity.
Qed.

Lemma cnt_set_pc i l q p : lpc_eqb (nth i l LDone) q = true -> q <> LDone ->
  cnt (set_pc i p l) = cnt l + (if lpc_eqb p LHold then 1 else 0) - (if lpc_eqb q LHold then 1 else 0).
Proof.
  intros H Hq. destruct (nth_split_pc i l q H Hq) as (a & b & -> & S). rewrite S, !cnt_app, !cnt_cons. lia.
Qed.

Definition Linv (s : lstate) : Prop := l_tok s = cnt (l_pcs s) /\ 0 <= l_tok s <= 1.

Lemma linit_inv n : Linv (linit n).
Proof.
  unfold Linv, linit. cbn [l_tok l_pcs]. split; [|lia].
  induction n as [|n IH]; [reflexivity|]. cbn [repeat]. rewrite cnt_cons. cbn [lpc_eqb]. lia.
Qed.

Lemma lstep_inv ca s l s' : Linv s -> lstep ca s l = Some s' -> Linv s'.
Proof.
  intros [Ht Hb]. destruct s as [tok pcs]. cbn [l_tok l_pcs] in *. unfold Linv.
  destruct l as [i|i|i|i]; cbn [lstep l_tok l_pcs].
  - destruct (lpc_eqb (nth i pcs LDone) LIdle) eqn:E; [|discriminate]. intros [= <-]. cbn [l_tok l_pcs].
    rewrite (cnt_set_pc i pcs LIdle) by (exact E || discriminate). cbn [lpc_eqb]. lia.
  - destruct (lpc_eqb (nth i pcs LDone) LWait) eqn:E; [|discriminate]. cbn [andb].
    destruct (tok <? 1) eqn:Et; [|discriminate]. intros [= <-]. cbn [l_tok l_pcs].
    rewrite (cnt_set_pc i pcs LWait) by (exact E || discriminate). cbn [lpc_eqb]. lia.
  - destruct ca; [|discriminate]. cbn [andb].
    destruct (lpc_eqb (nth i pcs LDone) LWait) eqn:E; [|discriminate]. intros [= <-]. cbn [l_tok l_pcs].
    rewrite (cnt_set_pc i pcs LWait) by (exact E || discriminate). cbn [lpc_eqb]. lia.
  - destruct (lpc_eqb (nth i pcs LDone) LHold) eqn:E; [|discriminate]. cbn [andb].
    destruct (tok >? 0) eqn:Et; [|discriminate]. intros [= <-]. cbn [l_tok l_pcs].
    rewrite (cnt_set_pc i pcs LHold) by (exact E || discriminate). cbn [lpc_eqb]. lia.
Qed.

Lemma lrun_inv ca : forall ls s s', Linv s -> lrun ca s ls = Some s' -> Linv s'.
Proof.
  induction ls as [|l ls IH]; intros s s' I H; cbn [lrun] in H; [injection H as <-; exact I|].
  destruct (lstep ca s l) as [s1|] eqn:E; [|discriminate]. exact (IH s1 s' (lstep_inv ca s l s1 I E) H).
Qed.

(* any number of callers, any interleaving, with or without the context-aware acquisition:
   at most one caller is inside (dial + handshake), the slot holds a token exactly then, and
   the holder's release never blocks *)
Theorem connlock_safe : forall ca n ls s, lrun ca (linit n) ls = Some s ->
  holders s <= 1 /\ l_tok s = holders s /\
  forall i, nth i (l_pcs s) LDone = LHold -> lstep ca s (LRelease i) <> None.
Proof.
  intros ca n ls s H. pose proof (lrun_inv ca ls _ _ (linit_inv n) H) as [Ht Hb].
  change (holders s) with (cnt (l_pcs s)). split; [lia|]. split; [exact Ht|].
  intros i Hi. cbn [lstep]. rewrite Hi. cbn [lpc_eqb andb].
  assert (E : lpc_eqb (nth i (l_pcs s) LDone) LHold = true) by (rewrite Hi; reflexivity).
  destruct (nth_split_pc i (l_pcs s) LHold E ltac:(discriminate)) as (a & b & Ep & _).
  rewrite Ep, cnt_app, cnt_cons in Ht. cbn [lpc_eqb] in Ht.
  pose proof (cnt_nonneg a). pose proof (cnt_nonneg b).
  replace (l_tok s >? 0) with true by lia. discriminate.
Qed.

(* with the context-aware acquisition a waiting caller can always leave *)
Theorem connlock_waiter_can_leave : forall s i, nth i (l_pcs s) LDone = LWait -> lstep true s (LGiveUp i) <> None.
Proof. intros s i H. cbn [lstep andb]. rewrite H. discriminate. Qed.

(* the pinned tree (sync.Mutex): a state is reachable in which a waiting caller has no
   enabled step at all until the holder -- busy with a dial or handshake -- releases *)
Theorem connlock_mutex_blocks : exists ls s,
  lrun false (linit 2) ls = Some s /\ nth 1 (l_pcs s) LDone = LWait /\ nth 0 (l_pcs s) LDone = LHold /\
  lstep false s (LEnter 1) = None /\ lstep false s (LAcquire 1) = None /\
  lstep false s (LGiveUp 1) = None /\ lstep false s (LRelease 1) = None.
Proof. exists [LEnter 0; LAcquire 0; LEnter 1]. eexists. vm_compute. repeat split. Qed.

Theorem connect_budget : forall now d ct, connect_deadline now d ct <= d.
Proof. intros. unfold connect_deadline. destruct (ct >? 0); lia. Qed.

Theorem init_budget : forall now d, init_deadline now (Some d) = d /\ init_deadline now None = now + 5 * 1000000000.
Proof. intros. split; reflexivity. Qed.
