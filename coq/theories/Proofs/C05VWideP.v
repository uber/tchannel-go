(* Proofs for property C05 (b), WIDE wait-site table (Spec/C05VWideSpec.v, go2v/c05vwide.go):
   every blocking statement the caller's goroutine can reach -- calls through the package's own
   function-valued fields followed -- offers an exit bound to the caller's deadline, or is the
   never-blocking release of the new-connection semaphore, or is the join of a goroutine that
   was told to stop in the statement before and none of whose waits can hold it. *)
From Coq Require Import ZArith List Bool Lia.
From Verif Require Import Base.Wrap Base.Bytes Gen.GenConsts Gen.GenWaitSites Gen.GenLockProgs
  Spec.WaitSpec Spec.C05VWideSpec Model.CallPath Proofs.CallPathP.
Import ListNotations.
Local Open Scope Z_scope.

Definition stoppableb (w : wsite) : bool := existsb is_stop_exit (ws_exits w).
Definition join_boundedb (j : wjoin) : bool := wj_cancelled j && forallb stoppableb (wj_sites j).
Definition is_bounded_joinb (joins : list wjoin) (w : wsite) : bool :=
  wkind_eqb (ws_kind w) WChanOp && existsb (fun j => bytes_eqb (wj_fn j) (ws_fn w) && join_boundedb j) joins.

Lemma wkind_eqb_eq a b : wkind_eqb a b = true -> a = b.
Proof. destruct a, b; cbn; intros H; try reflexivity; discriminate H. Qed.

Lemma stoppableb_spec w : stoppableb w = true -> stoppable w.
Proof. unfold stoppableb, stoppable. intros H. apply existsb_exists in H. exact H. Qed.

Lemma join_boundedb_spec j : join_boundedb j = true -> join_bounded j.
Proof.
  unfold join_boundedb, join_bounded. intros H. apply andb_true_iff in H. destruct H as [H1 H2].
  split; [exact H1|]. apply Forall_forall. intros s Hs. rewrite forallb_forall in H2. exact (stoppableb_spec s (H2 s Hs)).
Qed.

Lemma is_bounded_joinb_spec joins w : is_bounded_joinb joins w = true -> is_bounded_join joins w.
Proof.
  unfold is_bounded_joinb, is_bounded_join. intros H. apply andb_true_iff in H. destruct H as [H1 H2].
  split; [exact (wkind_eqb_eq _ _ H1)|]. apply existsb_exists in H2. destruct H2 as (j & Hj & E).
  apply andb_true_iff in E. destruct E as [E1 E2]. exists j. split; [exact Hj|].
  split; [exact (proj1 (bytes_eqb_eq _ _) E1)|exact (join_boundedb_spec j E2)].
Qed.

Theorem wide_wait_sites_ok :
  Forall (fun w => has_deadline_exit w \/ is_release w \/ is_bounded_join c05v_wait_joins w) c05v_wait_sites.
Proof.
  apply (forallb_Forall (fun w => has_deadline_exitb w || is_releaseb w || is_bounded_joinb c05v_wait_joins w));
    [|vm_compute; reflexivity].
  intros w H. apply orb_true_iff in H. destruct H as [H|H]; [apply orb_true_iff in H; destruct H as [H|H]|].
  - left. apply has_deadline_exitb_iff, H.
  - right. left. exact H.
  - right. right. exact (is_bounded_joinb_spec _ _ H).
Qed.

(* it is wider: every site of the narrow table is in it, its closure has more functions, and it
   contains no lock held across network I/O either *)
Definition wsite_eqb (a b : wsite) : bool :=
  bytes_eqb (ws_fn a) (ws_fn b) && wkind_eqb (ws_kind a) (ws_kind b) &&
  (Nat.eqb (length (ws_exits a)) (length (ws_exits b))) &&
  forallb (fun p => wexit_eqb (fst p) (snd p)) (combine (ws_exits a) (ws_exits b)).

Lemma wexit_eqb_eq a b : wexit_eqb a b = true -> a = b.
Proof. destruct a, b; cbn; intros H; try reflexivity; discriminate H. Qed.

Lemma exits_eq : forall a b, Nat.eqb (length a) (length b) = true ->
  forallb (fun p => wexit_eqb (fst p) (snd p)) (combine a b) = true -> a = b.
Proof.
  induction a as [|x a IH]; destruct b as [|y b]; cbn [length combine forallb Nat.eqb]; intros L H; try reflexivity; try discriminate L.
  apply andb_true_iff in H. destruct H as [H1 H2]. cbn [fst snd] in H1. f_equal; [exact (wexit_eqb_eq _ _ H1)|exact (IH b L H2)].
Qed.

Lemma wsite_eqb_eq a b : wsite_eqb a b = true -> a = b.
Proof.
  unfold wsite_eqb. intros H. repeat (apply andb_true_iff in H; destruct H as [H ?]).
  destruct a as [fa ka ea], b as [fb kb eb]. cbn [ws_fn ws_kind ws_exits] in *.
  f_equal; [exact (proj1 (bytes_eqb_eq _ _) H)|apply wkind_eqb_eq; assumption|apply exits_eq; assumption].
Qed.

Theorem wide_includes_narrow : (forall w, In w wait_sites -> In w c05v_wait_sites) /\
  c05v_narrow_root_count < c05v_wide_root_count /\ Forall (fun w => ws_kind w <> WLock) c05v_wait_sites.
Proof.
  split; [|split].
  - apply Forall_forall. apply (forallb_Forall (fun w => existsb (wsite_eqb w) c05v_wait_sites)); [|vm_compute; reflexivity].
    intros w H. apply existsb_exists in H. destruct H as (v & Hv & E). rewrite (wsite_eqb_eq w v E). exact Hv.
  - vm_compute. reflexivity.
  - apply (forallb_Forall (fun w => negb (wkind_eqb (ws_kind w) WLock))); [|vm_compute; reflexivity].
    intros w H E. rewrite E in H. discriminate H.
Qed.

(* a wait with only its own event as exit, in a function without a bounded join entry, fails the
   criterion: what a blocking send placed in a callback looks like *)
Lemma wide_criterion_refuses : forall fn,
  existsb (fun j => bytes_eqb (wj_fn j) fn) c05v_wait_joins = false -> bytes_eqb fn release_fn = false ->
  let w := mkWsite fn WChanOp [XData] in
  has_deadline_exitb w || is_releaseb w || is_bounded_joinb c05v_wait_joins w = false.
Proof.
  intros fn Hj Hr w. unfold w, has_deadline_exitb, is_releaseb, is_bounded_joinb. cbn [ws_fn ws_kind ws_exits existsb is_deadline_exit orb].
  rewrite Hr. cbn [andb orb wkind_eqb].
  assert (E : existsb (fun j => bytes_eqb (wj_fn j) fn && join_boundedb j) c05v_wait_joins = false).
  { clear -Hj. induction c05v_wait_joins as [|j r IH]; [reflexivity|]. cbn [existsb] in *.
    apply orb_false_iff in Hj. destruct Hj as [H1 H2]. rewrite H1, (IH H2). reflexivity. }
  rewrite E. reflexivity.
Qed.
