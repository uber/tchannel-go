(* Relay model, C10: what the relay enqueues towards the caller, per request id.
   - the frame grammar is refuted by a concrete interleaving (response frame after the timeout
     error frame);
   - proved for ALL interleavings of fresh-id runs: nothing is ever enqueued for an id that was
     not requested on that connection; once the originating item is tombstoned or gone and
     no goroutine is still committed to an enqueue for it, nothing more is ever enqueued for
     that id (late frames are discarded). *)
From Coq Require Import ZArith List Bool Lia.
From Verif Require Import Base.Wrap Gen.GenConsts Gen.GenFrame Model.RelayItems Model.RelayCalm Spec.WireOk
  Proofs.RelayAssocP Proofs.RelayCoreP Proofs.RelayInv9P Proofs.RelayTimerP Proofs.RelaySilentP Proofs.RelayStepP.
Import ListNotations.
Local Open Scope Z_scope.

Definition wit_wire : list label :=
  [LArrive 0 wit_req wit_env] ++ repeat (LStep (TR 0) true) 10 ++
  [LArrive 1 wit_res_more wit_env] ++ repeat (LStep (TR 1) true) 5 ++ [LFire 2] ++ repeat (LStep (TT 2) true) 6 ++
  repeat (LStep (TR 1) true) 3.

Lemma relay_grammar_refuted_lemma :
  exists ls st, run_fresh wit_cf init ls = Some st /\
    wire_of 0 7 (sent st) = [Err; Res true] /\ wire_prefix_ok (wire_of 0 7 (sent st)) = false.
Proof. exists wit_wire. eexists. split; [vm_compute; reflexivity|]. split; vm_compute; reflexivity. Qed.

Definition rcv_ok (sn : list (Z * Z)) (r : rcv) : Prop :=
  frameTypeFor (f_mt (r_f r)) = Some (r_ft r) /\
  (r_ft r = c_responseFrame -> In (r_d r, f_id (r_f r)) sn) /\
  (0 < r_more r -> r_ft r = c_requestFrame).

Definition wok (sn : list (Z * Z)) (j : instr) : Prop :=
  match j with
  | IRcvGet r | IRcvChk r _ _ | IRcvEnq r _ _ => rcv_ok sn r
  | ISendErr k id _ => In (k, id) sn
  | INcChk _ f ft _ g =>
      frameTypeFor (f_mt f) = Some ft /\
      match g with Some (it, _) => ft = c_responseFrame -> In (it_dest it, it_remap it) sn | None => True end
  | _ => True
  end.

Record WInv (st : state) : Prop := {
  w_code : forall th code j, In (th, code) (threads st) -> In j code -> wok (seen st) j;
  w_items : forall t it, In (t, it) (items st) -> key_dir t = 1 -> In (it_dest it, it_remap it) (seen st);
  w_sent : forall k f, In (k, f) (sent st) -> kind_of f <> None -> In (k, f_id f) (seen st)
}.

Lemma wok_mono : forall sn sn' j, incl sn sn' -> wok sn j -> wok sn' j.
Proof.
  intros sn sn' j Hi H. destruct j; cbn in *; try exact H; try (apply Hi; exact H);
    try (destruct H as (A&B&C); split; [exact A|split; [intro Hr; apply Hi; apply B; exact Hr|exact C]]).
  destruct H as [A B]. split; [exact A|]. destruct g as [[it s]|]; [|exact I]. intro Hr. apply Hi. apply B. exact Hr.
Qed.

Lemma kind_of_response : forall f, kind_of f <> None -> frameTypeFor (f_mt f) = Some c_responseFrame.
Proof.
  intros f H. unfold kind_of in H. unfold frameTypeFor.
  destruct (f_mt f =? c_messageTypeCallRes) eqn:E1; [reflexivity|].
  destruct (f_mt f =? c_messageTypeCallResContinue) eqn:E2; [cbn; reflexivity|].
  destruct (f_mt f =? c_messageTypeError) eqn:E3; [cbn; reflexivity|]. contradiction.
Qed.

Lemma rcv_ok_next : forall sn r, rcv_ok sn r -> 0 < r_more r -> rcv_ok sn (next_frag r).
Proof.
  intros sn r (_&_&C) Hm. unfold rcv_ok. cbn. rewrite (C Hm). split; [reflexivity|]. split; [discriminate|reflexivity].
Qed.

(* every instruction an instruction pushes mentions requested ids only *)
Lemma pushes_wok : forall st st1 th i rest j, Inv st -> WInv st -> lookup tid_eqb th (threads st) = Some (i :: rest) ->
  pushes st st1 i j -> wok (seen st) j.
Proof.
  intros st st1 th i rest j HI HW Hl Hp.
  pose proof (lookup_in tid_eqb tid_eqb_ok _ _ _ Hl) as Hin0.
  pose proof (w_code _ HW th _ i Hin0 (or_introl eq_refl)) as Hwi.
  assert (Hadm : forall k f, adm_kf i = Some (k, f) -> In (k, f_id f) (seen st)).
  { intros k f Ha. destruct (inv_code _ HI _ _ Hin0) as [Hf _]. inversion Hf as [|? ? Hiok _]. subst.
    destruct (iok_adm _ _ _ _ _ _ _ Ha Hiok) as [_ (Hs&_)]. exact Hs. }
  destruct Hp; cbn [wok]; try exact I; try exact Hwi; try (apply Hadm; reflexivity); try (apply rcv_ok_next; assumption).
  - (* IAddOrig: the first fragment is a request frame *)
    unfold rcv_ok. cbn. split; [reflexivity|]. split; [discriminate|reflexivity].
  - (* INcGet: a destination item found points back at a requested id *)
    split; [assumption|]. destruct g as [[it b]|]; [|exact I]. intros ->. rewrite Z.eqb_refl in *.
    eapply (w_items _ HW); [eapply (lookup_in key_eqb key_eqb_ok); eapply items_get_found; eassumption|reflexivity].
  - (* INcChk *) destruct Hwi as [Hft Hg]. unfold rcv_ok. cbn. split; [exact Hft|]. split; [exact Hg|lia].
  - (* the error frame of an Entomb goes to the reader of the originating item's request *)
    eapply orig_key_seen; [exact HI|eassumption|]. eapply entomb_orig_dir; try eassumption. left. reflexivity.
Qed.

Lemma step_winv : forall cf st l st', Inv st -> WInv st -> step cf st l = Some st' -> WInv st'.
Proof.
  intros cf st l st' HI HW H. pose proof (step_seen_incl _ _ _ _ H) as Hsn. constructor.
  - intros th' code' j Hin Hj.
    destruct (step_code _ _ _ _ _ _ _ H Hin Hj) as [(code0&A&B&_)|[(th&room&i&rest&st1&pushed&_&_&El&E&Hp)|[(k&f&e&_&_&_&_&[[-> _]|[-> _]])|(tm&_&_&->)]]];
      try exact I; (eapply wok_mono; [exact Hsn|]).
    + eapply (w_code _ HW); eassumption.
    + eapply pushes_wok; try eassumption. eapply exec_pushes; eassumption.
  - intros t it Hin Hd. apply Hsn.
    destruct (step_items _ _ _ _ _ _ H Hin) as [(it0&A&(_&B&C&_))|[(th&room&rest&k&f&e&c&d&_&El&_&_&B&C&_)|(th&room&rest&k&f&e&c&d&did&_&_&->&_)]].
    + rewrite B, C. eapply (w_items _ HW); eassumption.
    + (* addRelayItem for the destination: it points back at the request being admitted *)
      apply (lookup_in tid_eqb tid_eqb_ok) in El. destruct (inv_code _ HI _ _ El) as [Hf _]. inversion Hf as [|? ? Hiok _].
      destruct (iok_adm _ _ _ _ (IAddDest k f e c d) k f eq_refl Hiok) as [_ (Hs&_)]. rewrite B, C. exact Hs.
    + discriminate.
  - intros k f Hin Hk. apply Hsn.
    destruct (step_sent _ _ _ _ H) as [Hs|(th&room&i&rest&_&El&Hs)]; rewrite Hs in Hin; [eapply (w_sent _ HW); eassumption|].
    apply in_app_or in Hin. destruct Hin as [Hin|Hin]; [|eapply (w_sent _ HW); eassumption].
    pose proof (w_code _ HW th _ i (lookup_in tid_eqb tid_eqb_ok _ _ _ El) (or_introl eq_refl)) as Hwi.
    destruct i; try contradiction; cbn [enq] in Hin.
    + destruct (_ || _); [contradiction|]. destruct Hin as [Hin|[]]. inversion Hin. subst. exact Hwi.
    + destruct room; [|contradiction]. destruct Hin as [Hin|[]]. inversion Hin. subst. destruct Hwi as (A&B&_).
      apply B. rewrite (kind_of_response _ Hk) in A. inversion A. reflexivity.
Qed.

Lemma WInv_init : WInv init.
Proof. constructor; cbn; intros; contradiction. Qed.

Lemma reach_winv : forall cf ls st, run_fresh cf init ls = Some st -> WInv st.
Proof.
  intros cf ls. assert (G : forall st0 st, Inv st0 -> WInv st0 -> run_fresh cf st0 ls = Some st -> WInv st).
  { induction ls as [|l r IH]; intros st0 st HI HW H; cbn in H.
    - inversion H. subst. exact HW.
    - destruct (fresh_label st0 l) eqn:Ef; [|discriminate]. destruct (step cf st0 l) as [st1|] eqn:Es; [|discriminate].
      eapply IH; [eapply step_inv; eassumption|eapply step_winv; eassumption|exact H]. }
  intros st H. eapply G; [apply Inv_init|apply WInv_init|exact H].
Qed.

Lemma wire_of_none : forall k id log, (forall f, In (k, f) log -> f_id f = id -> kind_of f = None) -> wire_of k id log = [].
Proof.
  intros k id log. induction log as [|[k0 f] r IH]; intro Hall; cbn; [reflexivity|].
  rewrite IH by (intros f1 Hin; apply Hall; right; exact Hin). cbn.
  destruct ((k0 =? k) && (f_id f =? id)) eqn:E; [|reflexivity].
  apply andb_true_iff in E. destruct E as [E1 E2]. apply Z.eqb_eq in E1. apply Z.eqb_eq in E2. subst k0.
  rewrite (Hall f (or_introl eq_refl) E2). reflexivity.
Qed.

Lemma unseen_wire : forall st k id, WInv st -> ~ In (k, id) (seen st) -> wire_of k id (sent st) = [].
Proof.
  intros st k id HW Hns. apply wire_of_none. intros f Hin Hid. destruct (kind_of f) eqn:Ek; [|reflexivity]. exfalso.
  apply Hns. rewrite <- Hid. apply (w_sent _ HW _ _ Hin). congruence.
Qed.

(* nothing is ever enqueued towards the caller for an id that was not requested on that connection *)
Theorem relay_never_requested : forall cf ls st k id, run_fresh cf init ls = Some st ->
  ~ In (k, id) (seen st) -> wire_of k id (sent st) = [].
Proof. intros cf ls st k id H Hns. apply unseen_wire; [eapply reach_winv; exact H|exact Hns]. Qed.

Definition is_wire (f : frame) : bool := match kind_of f with Some _ => true | None => false end.

(* goroutine steps that may still enqueue a frame for (k,id) without a new lookup of the
   originating item, or that are still admitting the request (k,id) *)
Definition blocked (k id : Z) (j : instr) : bool :=
  match j with
  | ISendErr k' id' _ => (k' =? k) && (id' =? id)
  | IRcvEnq r _ _ => (r_d r =? k) && (f_id (r_f r) =? id) && is_wire (r_f r)
  | IRcvChk r _ (Some (it, s)) =>
      (r_d r =? k) && (f_id (r_f r) =? id) && is_wire (r_f r) && negb (it_tomb it) && (negb (fin_of (r_f r)) || s)
  | _ => match adm_kf j with Some (k', f) => (k' =? k) && (f_id f =? id) | None => false end
  end.

(* the request (k,id) was read, its originating item is a tombstone or gone, and no goroutine
   is still committed to it *)
Definition settled (st : state) (k id : Z) : Prop :=
  In (k, id) (seen st) /\
  (forall it, klookup (k, 0, id) (items st) = Some it -> it_tomb it = true) /\
  forall th code j, In (th, code) (threads st) -> In j code -> blocked k id j = false.

Lemma wire_of_cons_other : forall k id k' f log, ((k' =? k) && (f_id f =? id) && is_wire f) = false ->
  wire_of k id ((k', f) :: log) = wire_of k id log.
Proof.
  intros k id k' f log H. cbn. unfold is_wire in H. destruct ((k' =? k) && (f_id f =? id)); [|apply app_nil_r].
  cbn in H. destruct (kind_of f); [discriminate|apply app_nil_r].
Qed.

Lemma wire_rcv : forall sn r k id, rcv_ok sn r -> (r_d r =? k) && (f_id (r_f r) =? id) && is_wire (r_f r) = true ->
  r_ft r = c_responseFrame /\ rcv_key r = (k, 0, id) /\ In (k, id) sn.
Proof.
  intros sn r k id (A&B&_) Hb. rewrite !andb_true_iff in Hb. destruct Hb as [[E1 E2] Ew]. apply Z.eqb_eq in E1. apply Z.eqb_eq in E2.
  unfold is_wire in Ew. destruct (kind_of (r_f r)) eqn:Ek; [|discriminate]. rewrite (kind_of_response (r_f r)) in A by congruence.
  assert (Hft : r_ft r = c_responseFrame) by congruence.
  split; [exact Hft|]. split; [unfold rcv_key; rewrite Hft, E1, E2; reflexivity|]. rewrite <- E1, <- E2. apply B. exact Hft.
Qed.

Lemma wire_of_app : forall k id a b, wire_of k id (a ++ b) = wire_of k id b ++ wire_of k id a.
Proof.
  intros k id. induction a as [|[k0 f] a IH]; intro b; cbn [app wire_of]; [symmetry; apply app_nil_r|]. rewrite IH. symmetry. apply app_assoc.
Qed.

Lemma enq_unblocked : forall k id st i room, blocked k id i = false -> wire_of k id (enq st i room) = [].
Proof.
  intros k id st i room Hb. destruct i; try reflexivity; cbn [enq].
  - destruct (_ || negb room); [reflexivity|]. apply wire_of_cons_other. cbn in Hb |- *. rewrite Hb. reflexivity.
  - destruct room; [|reflexivity]. apply wire_of_cons_other. exact Hb.
Qed.

(* Where a committed instruction comes from: an instruction that is itself committed, or
   - Receive looks the live originating item up for a wire frame of (k,id), or
   - the live originating item is entombed (failed or timed out), which sends the error frame. *)
Lemma blocked_origin : forall st st1 th i rest k id j, Inv st -> WInv st -> lookup tid_eqb th (threads st) = Some (i :: rest) ->
  pushes st st1 i j -> blocked k id j = true ->
  blocked k id i = true \/
  exists it0, klookup (k, 0, id) (items st) = Some it0 /\ it_tomb it0 = false /\
    ((exists r s, i = IRcvGet r /\ rcv_key r = (k, 0, id) /\ j = IRcvChk r (k, 0, id) (Some (it0, s))) \/
     (exists s ec, i = IEntomb (k, 0, id) s /\ j = ISendErr k id ec)).
Proof.
  intros st st1 th i rest k id j HI HW Hl Hp Hb.
  pose proof (lookup_in tid_eqb tid_eqb_ok _ _ _ Hl) as Hin0.
  pose proof (w_code _ HW th _ i Hin0 (or_introl eq_refl)) as Hwi.
  destruct Hp; cbn [blocked adm_kf] in Hb |- *; try discriminate; try (left; exact Hb).
  - (* IRcvGet: a wire frame is a response frame, looked up under (r_d r, 0, f_id (r_f r)) *)
    right. destruct g as [[it s]|]; [|discriminate]. apply andb_true_iff in Hb. destruct Hb as [Hb _].
    apply andb_true_iff in Hb. destruct Hb as [Hb Et]. apply negb_true_iff in Et.
    destruct (wire_rcv _ _ _ _ Hwi Hb) as (_&Hrk&_). rewrite Hrk in *.
    exists it. split; [eapply items_get_found; eassumption|]. split; [exact Et|]. left. exists r, s. split; [reflexivity|]. split; [exact Hrk|reflexivity].
  - (* IRcvChk -> IRcvEnq: the gate was passed *)
    left. apply orb_false_iff in H. destruct H as [Et Es]. rewrite Hb, Et. cbn.
    destruct (fin_of (r_f r)); [|reflexivity]. apply negb_false_iff in Es. exact Es.
  - (* IEntomb *)
    right. apply andb_true_iff in Hb. destruct Hb as [E1 E2]. apply Z.eqb_eq in E1. apply Z.eqb_eq in E2.
    assert (Hd : key_dir t = 0) by (eapply entomb_orig_dir; try eassumption; left; reflexivity).
    assert (Ht : t = (k, 0, id)) by (destruct t as [[tc td] ti]; cbn in *; subst; reflexivity). subst t.
    exists it. split; [assumption|]. split; [assumption|]. right. eexists. eexists. split; reflexivity.
Qed.

Lemma step_settled : forall cf st l st' k id, Inv st -> WInv st -> fresh_label st l = true ->
  settled st k id -> step cf st l = Some st' ->
  settled st' k id /\ wire_of k id (sent st') = wire_of k id (sent st).
Proof.
  intros cf st l st' k id HI HW Hfresh (Hsn&Hcl&Hnb) H.
  assert (Hhead : forall th i rest, lookup tid_eqb th (threads st) = Some (i :: rest) -> blocked k id i = false).
  { intros th i rest El. eapply Hnb; [eapply (lookup_in tid_eqb tid_eqb_ok); exact El|left; reflexivity]. }
  split; [split; [|split]|].
  - apply (step_seen_incl _ _ _ _ H). exact Hsn.
  - (* the originating item stays closed: a new one would need a pending admission *)
    intros it Hl. apply (lookup_in key_eqb key_eqb_ok) in Hl.
    destruct (step_items _ _ _ _ _ _ H Hl) as [(it0&Hin0&Hs)|[(th&room&rest&k1&f&e&c&d&_&_&Ht&_)|(th&room&rest&k1&f&e&c&d&did&_&El&Ht&_)]].
    + apply Hs. apply Hcl. exact (item_lookup _ _ _ HI Hin0).
    + discriminate.
    + inversion Ht. subst. pose proof (Hhead _ _ _ El) as Hb. cbn in Hb. rewrite !Z.eqb_refl in Hb. discriminate.
  - intros th' code' j Hin Hj.
    destruct (step_code _ _ _ _ _ _ _ H Hin Hj) as [(code0&A&B&_)|[(th&room&i&rest&st1&pushed&_&_&El&E&Hp)|[(k0&f&e&Hlab&_&_&_&[[-> Em]|[-> _]])|(tm&_&_&->)]]];
      try reflexivity.
    + eapply Hnb; eassumption.
    + destruct (blocked k id j) eqn:Hb; [|reflexivity]. exfalso.
      destruct (blocked_origin _ _ _ _ _ _ _ _ HI HW El (exec_pushes _ _ _ _ _ _ _ E Hp) Hb) as [Hbi|(it0&Hl0&Hlive&_)].
      * rewrite (Hhead _ _ _ El) in Hbi. discriminate.
      * rewrite (Hcl _ Hl0) in Hlive. discriminate.
    + (* a new request on k carries a fresh id *)
      cbn. destruct ((k0 =? k) && (f_id f =? id)) eqn:E; [|reflexivity]. exfalso.
      apply andb_true_iff in E. destruct E as [E1 E2]. apply Z.eqb_eq in E1. apply Z.eqb_eq in E2. subst.
      eapply fresh_unseen; eassumption.
  - destruct (step_sent _ _ _ _ H) as [->|(th&room&i&rest&_&El&->)]; [reflexivity|].
    rewrite wire_of_app, (enq_unblocked _ _ _ _ _ (Hhead _ _ _ El)). apply app_nil_r.
Qed.

(* Once the originating item of a request is a tombstone or gone and no goroutine is still
   committed to it, nothing is ever enqueued for that id again: whatever the destination
   sends later is discarded by the tombstone (or by the missing item). *)
Theorem relay_late_frames_discarded : forall cf ls0 st k id, run_fresh cf init ls0 = Some st -> settled st k id ->
  forall ls st', run_fresh cf st ls = Some st' -> wire_of k id (sent st') = wire_of k id (sent st).
Proof.
  intros cf ls0 st k id H0 Hs ls. destruct (reach_both _ _ _ H0) as [HI _]. pose proof (reach_winv _ _ _ H0) as HW. clear H0.
  revert st HI HW Hs. induction ls as [|l r IH]; intros st HI HW Hs st' H; cbn in H.
  - inversion H. reflexivity.
  - destruct (fresh_label st l) eqn:Ef; [|discriminate]. destruct (step cf st l) as [st1|] eqn:Es; [|discriminate].
    destruct (step_settled _ _ _ _ _ _ HI HW Ef Hs Es) as [Hs1 Hw].
    rewrite (IH st1 (step_inv _ _ _ _ HI Ef Es) (step_winv _ _ _ _ HI HW Es) Hs1 st' H). exact Hw.
Qed.

(* the timeout of the originating item: exactly the error frame, the two callbacks and the
   decrement are left to do, and the item is a tombstone (or gone) from then on *)
Theorem relay_timeout_step : forall cf st k id it room st1 pushed,
  klookup (k, 0, id) (items st) = Some it -> it_tomb it = false ->
  exec cf st (IEntomb (k, 0, id) (FromTimeout true)) room = (st1, pushed) ->
  pushed = [ISendErr k id c_ErrCodeTimeout; ICb (it_call it) (CbFailed reason_timeout); ICb (it_call it) CbEnd; IDec k] /\
  forall it', klookup (k, 0, id) (items st1) = Some it' -> it_tomb it' = true.
Proof.
  intros cf st k id it room st1 pushed Hl Hnt H. cbn [exec] in H.
  destruct (items_entomb cf st (k, 0, id)) as [st' g] eqn:E. pose proof (fun it' => items_entomb_tomb _ _ _ _ _ it' E) as Htomb.
  apply items_entomb_spec in E. destruct E as (_&_&_&_&_&_&E).
  rewrite Hl in E. destruct E as [(->&_)|[(Ht&_)|(_&->&_)]]; [rewrite Hnt in H| |]; try congruence;
    inversion H; subst; (split; [reflexivity|exact Htomb]).
Qed.
