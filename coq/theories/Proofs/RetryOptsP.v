(* C17, options path and error classification: proofs over the generated definitions. *)
From Coq Require Import ZArith List Bool Lia.
From Verif Require Import Base.Wrap Base.Wire Base.GoErr Gen.GenConsts Gen.GenRetry Gen.GenErrors
  Gen.GenRetryOpts Gen.GenRetryErr Spec.RetryTable Spec.RetryOptsSpec Model.Retry Model.RetryOpts
  Proofs.RetryP.
Import ListNotations.
Local Open Scope Z_scope.

(* the generated getErrCode over shapes is the documented table: a SystemError's own code
   wins, only a bare net.Error is a network error, everything else is unexpected *)
Lemma errcode_spec : forall e, getErrCodeS e = spec_err_code e.
Proof. intros [|i|t|c w]; reflexivity. Qed.

Lemma is_net_spec : forall e, isNetErrorS e = match e with GNet _ => true | _ => false end.
Proof. intros [|i|t|c w]; reflexivity. Qed.

Lemma syscode_spec : forall e,
  GetSystemErrorCodeS e = match e with GNil => 0 | GSys c _ => c | _ => 5 end.
Proof. intros [|i|t|c w]; reflexivity. Qed.

(* the generated NewWrappedSystemError (errors.go), instantiated on shapes *)
Lemma new_wrapped_spec : forall code w,
  NewWrappedSystemError g_is_sys GSys code w = spec_new_wrapped code w.
Proof. intros code [|i|t|c w]; reflexivity. Qed.

Lemma errcode_new_wrapped : forall code w,
  getErrCodeS (NewWrappedSystemError g_is_sys GSys code w) =
  match w with GSys c _ => c | _ => code end.
Proof. intros code w. rewrite errcode_spec, new_wrapped_spec. destruct w; reflexivity. Qed.

(* shapes refine the flat abstraction used by the loop model *)
Lemma errcode_abs : forall e, getErrCodeS e = getErrCode (g_abs e).
Proof. intros [|i|t|c w]; reflexivity. Qed.

Lemma can_retry_shape_abs : forall r e, CanRetryS r e = CanRetry r (g_abs e).
Proof. intros r e. unfold CanRetryS, CanRetry. rewrite errcode_abs. reflexivity. Qed.

Lemma classify_abs : forall e, e <> GNil -> classify (g_abs e) = classify_shape e.
Proof. intros [|i|t|c w] H; try congruence; reflexivity. Qed.

Lemma can_retry_shape_table : forall r p e, policy_of r = Some p -> e <> GNil ->
  CanRetryS r e = retryable p (classify_shape e).
Proof.
  intros r p e Hp Hn. rewrite can_retry_shape_abs, <- classify_abs by exact Hn.
  apply can_retry_matches_table; [exact Hp|]. destruct e; try congruence; reflexivity.
Qed.

(* every shape has an encoding that the harness entry points decode back to it: the
   correspondence sub-engines range over all shapes *)
Lemma take_n_layers : forall ls r,
  take_n take_layer (length ls) (flat_map (fun ka : Z * Z => [fst ka; snd ka]) ls ++ r) = (ls, r).
Proof.
  induction ls as [|[k a] ls IH]; intros r; cbn [length take_n flat_map app fst snd take_layer].
  - reflexivity.
  - rewrite IH. reflexivity.
Qed.

Lemma layers_base : forall e,
  fold_right wrap_layer (if fst (base_of e) =? 2 then GNet (bz (snd (base_of e))) else GNil) (layers_of e) = e.
Proof.
  induction e as [|i IH|t|c w IH]; cbn [layers_of base_of fold_right fst snd].
  - reflexivity.
  - rewrite IH. reflexivity.
  - destruct t; reflexivity.
  - rewrite IH. reflexivity.
Qed.

Lemma take_shape_put : forall e rest, take_shape (put_shape e ++ rest) = (e, rest).
Proof.
  intros e rest. unfold take_shape, put_shape, put_list, take_list.
  cbn [app take1]. rewrite Nat2Z.id, <- app_assoc, take_n_layers.
  cbn [app take_layer]. rewrite layers_base. reflexivity.
Qed.

(* ---------------- ties: generated definitions = hand model ---------------- *)

(* the generated record has exactly the three fields of the model's, in this order *)
Definition to_gen (o : cb_opts) : RetryOptions := mk_RetryOptions (co_max o) (co_on o) (co_tpa o).
Definition to_genp (p : option cb_opts) : option RetryOptions := option_map to_gen p.

Lemma tie_default : v_defaultRetryOptions = to_gen cb_opts_default.
Proof. reflexivity. Qed.

Lemma tie_set_retry_options : forall ro a,
  cbSetRetryOptions (to_genp ro) (to_genp a) = option_map to_genp (m_set_retry_options ro a).
Proof. intros ro a. reflexivity. Qed.

Lemma tie_set_timeout_per_attempt : forall ro d,
  cbSetTimeoutPerAttempt (to_genp ro) d = option_map to_genp (m_set_timeout_per_attempt ro d).
Proof. intros [[m r t]|] d; reflexivity. Qed.

Lemma tie_build : forall ro, cbBuildRetryOptions (to_genp ro) = to_genp (m_build_retry_options ro).
Proof. intros ro. reflexivity. Qed.

Lemma tie_get_retry_options : forall hp p,
  getRetryOptions hp (to_genp p) = option_map to_genp (m_get_retry_options hp p).
Proof.
  intros [|] [[m r t]|]; try reflexivity.
  unfold getRetryOptions, m_get_retry_options, to_genp, to_gen.
  cbn [negb option_map go_isnil co_max co_on co_tpa RetryOptions_MaxAttempts].
  destruct (m =? 0); reflexivity.
Qed.

(* the shape-level classification regenerated from retry.go / errors.go is the model's *)
Lemma tie_err_code : forall e, getErrCodeS e = m_err_code e.
Proof. exact errcode_abs. Qed.
Lemma tie_can_retry : forall r e, CanRetryS r e = m_can_retry r e.
Proof. exact can_retry_shape_abs. Qed.

(* ---------------- the options path ---------------- *)

(* the three fields of the builder's RetryOptions as the spec sees them (nil: all unset) *)
Definition ro_max (ro : option cb_opts) : Z := match ro with Some o => co_max o | None => 0 end.
Definition ro_on (ro : option cb_opts) : Z := match ro with Some o => co_on o | None => 0 end.
Definition ro_tpa (ro : option cb_opts) : Z := match ro with Some o => co_tpa o | None => 0 end.

Definition upd (g : cb_op -> option Z) (acc : Z) (op : cb_op) : Z :=
  match g op with Some v => v | None => acc end.

Lemma op_apply_spec : forall ro op, exists ro',
  op_apply ro op = Some ro' /\
  ro_max ro' = upd gives_max (ro_max ro) op /\
  ro_on ro' = upd gives_on (ro_on ro) op /\
  ro_tpa ro' = upd gives_tpa (ro_tpa ro) op.
Proof.
  intros ro [[[[m r] d]|]|d]; cbn [op_apply option_map cb_of].
  - eexists. split; [reflexivity|]. cbn. auto.
  - eexists. split; [reflexivity|]. cbn. auto.
  - destruct ro as [o|]; (eexists; split; [reflexivity|]); cbn; auto.
Qed.

Lemma cb_apply_spec : forall ops ro, exists ro',
  cb_apply ro ops = Some ro' /\
  ro_max ro' = fold_left (upd gives_max) ops (ro_max ro) /\
  ro_on ro' = fold_left (upd gives_on) ops (ro_on ro) /\
  ro_tpa ro' = fold_left (upd gives_tpa) ops (ro_tpa ro).
Proof.
  induction ops as [|op ops IH]; intros ro; cbn [cb_apply fold_left].
  - exists ro. auto.
  - destruct (op_apply_spec ro op) as [ro1 [E [A [B C]]]]. rewrite E.
    destruct (IH ro1) as [ro' [E' [A' [B' C']]]]. exists ro'.
    rewrite E', A', B', C', A, B, C. auto.
Qed.

(* getRetryOptions on the field handed over by Build: never panics, never returns nil, and
   yields the defaults for a nil field / a zero MaxAttempts / a context without parameters *)
Lemma get_retry_options_spec : forall hp ro, exists e,
  m_get_retry_options hp (m_build_retry_options ro) = Some (Some e) /\
  triple_of e = (let m := if hp then ro_max ro else 0 in if m =? 0 then 5 else m,
                 if hp then ro_on ro else 0, if hp then ro_tpa ro else 0).
Proof.
  intros hp ro. unfold m_get_retry_options, m_build_retry_options.
  destruct hp; cbn [negb].
  2:{ eexists. split; reflexivity. }
  destruct ro as [o|]; cbn [go_isnil].
  2:{ eexists. split; reflexivity. }
  destruct o as [m r d]. cbn [co_max ro_max ro_on ro_tpa co_on co_tpa].
  destruct (m =? 0) eqn:E; (eexists; split; [reflexivity|]); cbn; rewrite ?E; reflexivity.
Qed.

Lemma rec_triple : forall e t, triple_of e = t -> e = cb_of t.
Proof. intros [m r d] [[m' r'] d'] H. cbn in H. inversion H; reflexivity. Qed.

Theorem cb_effective_spec : forall hp ops,
  cb_effective hp ops = Some (cb_of (spec_effective hp ops)).
Proof.
  intros hp ops. unfold cb_effective.
  destruct (cb_apply_spec ops None) as [ro [E [A [B C]]]]. rewrite E.
  destruct (get_retry_options_spec hp ro) as [e [G T]]. rewrite G. f_equal.
  apply rec_triple. rewrite T. cbn [ro_max ro_on ro_tpa] in A, B, C.
  unfold spec_effective, spec_max_attempts, spec_retry_on, spec_timeout_per_attempt, last_given.
  destruct hp; [|reflexivity]. rewrite A, B, C. reflexivity.
Qed.

(* the builder path runs the very loop of Model/Retry.v with the last-given options *)
Definition spec_opts (hp : bool) (ops : list cb_op) : retry_opts :=
  let '(m, r, _) := spec_effective hp ops in {| max_attempts := m; retry_on := r |}.

Lemma spec_opts_fixed : forall hp ops, get_retry_options (Some (spec_opts hp ops)) = spec_opts hp ops.
Proof.
  intros hp ops. unfold spec_opts, spec_effective, spec_max_attempts. cbn [get_retry_options max_attempts].
  destruct (last_given gives_max (if hp then ops else []) =? 0) eqn:E; cbn [Z.eqb]; [reflexivity|].
  rewrite E. reflexivity.
Qed.

Theorem run_with_retry_cb_spec : forall hp ops fs,
  run_with_retry_cb hp ops fs = Some (run_with_retry (Some (spec_opts hp ops)) (abs_fn fs)).
Proof.
  intros hp ops fs. unfold run_with_retry_cb. rewrite cb_effective_spec.
  unfold run_with_retry. rewrite spec_opts_fixed. unfold spec_opts.
  destruct (spec_effective hp ops) as [[m r] d]. reflexivity.
Qed.

Theorem run_cb_budget : forall (hp : bool) (ops : list cb_op) fs,
  let m := spec_max_attempts (if hp then ops else []) in
  1 <= m ->
  exists r, run_with_retry_cb hp ops fs = Some r /\
    (1 <= length (snd r))%nat /\ Z.of_nat (length (snd r)) <= m /\
    map ao_attempt (snd r) = map (fun i => 1 + Z.of_nat i) (seq 0 (length (snd r))).
Proof.
  intros hp ops fs m Hm. rewrite run_with_retry_cb_spec. eexists. split; [reflexivity|].
  pose proof (run_calls_bounded (Some (spec_opts hp ops)) (abs_fn fs)) as H. cbn zeta in H.
  rewrite spec_opts_fixed in H. unfold spec_opts at 1, spec_effective in H. cbn [max_attempts] in H.
  apply H. exact Hm.
Qed.

Theorem run_cb_stop : forall (hp : bool) (ops : list cb_op) (outs : list gerr) fs p,
  let m := spec_max_attempts (if hp then ops else []) in
  let ron := spec_retry_on (if hp then ops else []) in
  policy_of ron = Some p ->
  (Z.to_nat m <= length outs)%nat ->
  (forall a s, 0 < a -> fst (fs a s) = nth (Z.to_nat (a - 1)) outs GNil) ->
  exists r log, run_with_retry_cb hp ops fs = Some (r, log) /\
    let k := length log in
    (k <= Z.to_nat m)%nat /\
    (forall i, (i + 1 < k)%nat ->
       nth i outs GNil <> GNil /\ retryable p (classify_shape (nth i outs GNil)) = true) /\
    (k <> O -> let e := nth (k - 1) outs GNil in
       (e = GNil /\ r = nil_err) \/
       (e <> GNil /\ r = g_abs e /\ (retryable p (classify_shape e) = false \/ k = Z.to_nat m))).
Proof.
  intros hp ops outs fs p m ron Hp Hn Hf. rewrite run_with_retry_cb_spec.
  destruct (run_with_retry (Some (spec_opts hp ops)) (abs_fn fs)) as [r log] eqn:ER.
  exists r, log. split; [reflexivity|].
  pose proof (run_stop (Some (spec_opts hp ops)) (map g_abs outs) (abs_fn fs)) as H.
  cbn zeta in H. rewrite spec_opts_fixed in H.
  assert (Em : max_attempts (spec_opts hp ops) = m) by reflexivity.
  assert (Er : retry_on (spec_opts hp ops) = ron) by reflexivity.
  rewrite Em, Er, ER in H. cbn [fst snd] in H.
  assert (Hnil : forall i, nth i (map g_abs outs) nil_err = g_abs (nth i outs GNil)).
  { intros i. change nil_err with (g_abs GNil). apply map_nth. }
  assert (Hisnil : forall e, e_nil (g_abs e) = true <-> e = GNil).
  { intros [|? |? |? ?]; cbn; split; congruence. }
  assert (Hnotnil : forall e, e_nil (g_abs e) = false <-> e <> GNil).
  { intros [|? |? |? ?]; cbn; split; congruence. }
  destruct H as [H1 [H2 H3]].
  { rewrite map_length. exact Hn. }
  { intros a s Ha. unfold abs_fn. specialize (Hf a s Ha).
    destruct (fs a s) as [e added]. cbn [fst] in *. rewrite Hnil. congruence. }
  cbn zeta. split; [exact H1|]. split.
  - intros i Hi. destruct (H2 i Hi) as [A B]. rewrite Hnil in A, B.
    apply Hnotnil in A. split; [exact A|].
    rewrite <- can_retry_shape_abs in B. rewrite <- (can_retry_shape_table ron p _ Hp A). exact B.
  - intros Hk. specialize (H3 Hk). cbn zeta in H3. rewrite Hnil in H3.
    destruct H3 as [[A B]|[A [B C]]].
    + left. split; [apply Hisnil; exact A|exact B].
    + right. apply Hnotnil in A. split; [exact A|]. split; [exact B|].
      destruct C as [C|C]; [left|right; exact C].
      rewrite <- can_retry_shape_abs in C. rewrite <- (can_retry_shape_table ron p _ Hp A). exact C.
Qed.
