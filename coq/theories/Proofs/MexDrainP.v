(* Proofs about Model/MexDrain.v: the exchange maps drain.
   Invariant: for every message id, the number of map entries with that id (0, 1 or 2:
   one in exchanges, one in expiredExchanges) never exceeds the number of exchange
   objects with that id that have not finished shutting down.  Holds under id reuse,
   repeated expiry, expiry after shutdown, and any interleaving of the atomic steps. *)
From Coq Require Import ZArith List Bool Lia.
From Verif Require Import Base.Wire Model.MexDrain Proofs.DrainBaseP.
Import ListNotations.
Local Open Scope Z_scope.

Definition weight (id : Z) (o : mexobj) : Z :=
  if (mo_id o =? id) && negb (mo_pc o =? 2) then 1 else 0.

Fixpoint live (id : Z) (objs : list mexobj) : Z :=
  match objs with
  | [] => 0
  | o :: r => weight id o + live id r
  end.

Definition entries (id : Z) (s : mexset) : Z :=
  zb (has_key id (ms_exch s)) + zb (has id (ms_expired s)).

Lemma entries_nonneg id s : 0 <= entries id s.
Proof. unfold entries. destruct (has_key id (ms_exch s)), (has id (ms_expired s)); cbn [zb]; lia. Qed.

Definition MInv (s : mexset) : Prop := forall id, entries id s <= live id (ms_objs s).

Lemma live_nonneg id objs : 0 <= live id objs.
Proof. induction objs as [|o r IH]; cbn [live]; [lia|]. unfold weight. destruct (_ && _); lia. Qed.

Lemma live_app id a b : live id (a ++ b) = live id a + live id b.
Proof. induction a as [|o r IH]; cbn [live app]; lia. Qed.

Lemma live_upd id n o o' objs :
  nth_error objs n = Some o ->
  live id (upd_nth n o' objs) = live id objs - weight id o + weight id o'.
Proof.
  revert n. induction objs as [|x r IH]; intros n Hn.
  - destruct n; discriminate.
  - destruct n as [|n'].
    + cbn in Hn. injection Hn as ->. cbn [upd_nth live]. lia.
    + cbn in Hn. cbn [upd_nth live]. rewrite (IH _ Hn). lia.
Qed.

Lemma live_ge_weight id n o objs : nth_error objs n = Some o -> weight id o <= live id objs.
Proof.
  revert n. induction objs as [|x r IH]; intros n Hn.
  - destruct n; discriminate.
  - destruct n as [|n']; cbn in Hn; cbn [live].
    + injection Hn as ->. pose proof (live_nonneg id r). lia.
    + specialize (IH _ Hn). assert (0 <= weight id x) by (unfold weight; destruct (_ && _); lia). lia.
Qed.

Lemma has_key_del id id' l : has_key id (del_key id' l) = has_key id l && negb (id =? id').
Proof. exact (existsb_filter_key fst id id' l). Qed.

Lemma has_del id id' l : has id (del id' l) = has id l && negb (id =? id').
Proof. exact (existsb_filter_key (fun x => x) id id' l). Qed.

Lemma has_cons_same id l : has id (id :: l) = true.
Proof. unfold has. cbn [existsb]. rewrite Z.eqb_refl. reflexivity. Qed.
Lemma has_cons_other id id0 l : id <> id0 -> has id (id0 :: l) = has id l.
Proof. intros H. unfold has. cbn [existsb]. assert (id0 =? id = false) as -> by lia. reflexivity. Qed.

Lemma has_set_add_same id l : has id (if has id l then l else id :: l) = true.
Proof. destruct (has id l) eqn:E; [exact E|apply has_cons_same]. Qed.
Lemma has_set_add_other id id0 l : id <> id0 -> has id (if has id0 l then l else id0 :: l) = has id l.
Proof. intros H. destruct (has id0 l); [reflexivity|apply has_cons_other; exact H]. Qed.

Lemma delete_exchange_objs id s : ms_objs (snd (delete_exchange id s)) = ms_objs s.
Proof.
  unfold delete_exchange. destruct (has_key id (ms_exch s)); [|destruct (has id (ms_expired s))]; reflexivity.
Qed.

Lemma remove_exchange_objs id s : ms_objs (remove_exchange id s) = ms_objs s.
Proof.
  unfold remove_exchange. pose proof (delete_exchange_objs id s) as H.
  destruct (delete_exchange id s) as [[f e] s1]. destruct (f || e); exact H.
Qed.

Lemma expire_exchange_objs id s : ms_objs (expire_exchange id s) = ms_objs s.
Proof.
  unfold expire_exchange. pose proof (delete_exchange_objs id s) as H.
  destruct (delete_exchange id s) as [[f e] s1]. destruct (f || e); exact H.
Qed.

(* deleteExchange takes one entry of id0 away, from exchanges before expiredExchanges; its two
   results say whether there was one; afterwards id0 is not in exchanges *)
Lemma delete_exchange_entries id0 s id :
  entries id (snd (delete_exchange id0 s)) = if id =? id0 then Z.max 0 (entries id0 s - 1) else entries id s.
Proof.
  unfold delete_exchange, entries. destruct (id =? id0) eqn:E.
  - apply Z.eqb_eq in E. subst id.
    destruct (has_key id0 (ms_exch s)) eqn:Hk; [|destruct (has id0 (ms_expired s)) eqn:He]; cbn [snd ms_exch ms_expired];
      rewrite ?has_key_del, ?has_del, ?Z.eqb_refl, ?andb_false_r, ?Hk, ?He; cbn [zb];
      [destruct (has id0 (ms_expired s)); cbn [zb]| |]; lia.
  - destruct (has_key id0 (ms_exch s)); [|destruct (has id0 (ms_expired s))]; cbn [snd ms_exch ms_expired];
      rewrite ?has_key_del, ?has_del, ?E, ?andb_true_r; reflexivity.
Qed.

Lemma delete_exchange_found id0 s :
  fst (fst (delete_exchange id0 s)) || snd (fst (delete_exchange id0 s)) = (0 <? entries id0 s).
Proof.
  unfold delete_exchange, entries.
  destruct (has_key id0 (ms_exch s)), (has id0 (ms_expired s)); reflexivity.
Qed.

Lemma delete_exchange_key id0 s : has_key id0 (ms_exch (snd (delete_exchange id0 s))) = false.
Proof.
  unfold delete_exchange. destruct (has_key id0 (ms_exch s)) eqn:Hk; [|destruct (has id0 (ms_expired s))];
    cbn [snd ms_exch]; [|exact Hk..]. rewrite has_key_del, Z.eqb_refl. apply andb_false_r.
Qed.

Lemma remove_exchange_entries id0 s id :
  entries id (remove_exchange id0 s) = if id =? id0 then Z.max 0 (entries id0 s - 1) else entries id s.
Proof.
  rewrite <- delete_exchange_entries. unfold remove_exchange.
  destruct (delete_exchange id0 s) as [[f e] s1]. destruct (f || e); reflexivity.
Qed.

(* expireExchange re-records the id it deleted: the id keeps at most one entry *)
Lemma expire_exchange_entries id0 s id : entries id (expire_exchange id0 s) <= entries id s.
Proof.
  unfold expire_exchange.
  pose proof (delete_exchange_entries id0 s id) as Hd. pose proof (delete_exchange_found id0 s) as Hf.
  pose proof (delete_exchange_key id0 s) as Hk.
  destruct (delete_exchange id0 s) as [[f e] s1]. cbn [fst snd] in *.
  change (entries id (add_recheck ?x)) with (entries id x). destruct (f || e).
  - unfold entries at 1. cbn [ms_exch ms_expired]. destruct (Z.eq_dec id id0) as [->|Hne].
    + rewrite Hk, has_set_add_same. cbn [zb]. lia.
    + rewrite has_set_add_other by exact Hne. fold (entries id s1). rewrite Hd.
      replace (id =? id0) with false by lia. lia.
  - rewrite Hd. pose proof (entries_nonneg id0 s). destruct (Z.eqb_spec id id0) as [->|]; lia.
Qed.

Lemma notify_all_live id hs objs : live id (notify_all hs objs) = live id objs.
Proof.
  revert objs. induction hs as [|h r IH]; intros objs; cbn [notify_all]; [reflexivity|].
  rewrite IH. destruct (h <? 0); [reflexivity|].
  destruct (nth_error objs (Z.to_nat h)) as [o|] eqn:Hn; [|reflexivity].
  rewrite (live_upd _ _ _ _ _ Hn). unfold weight. cbn [mo_id mo_pc]. lia.
Qed.

Lemma MInv_init : MInv ms_init.
Proof. intros id. cbn. lia. Qed.

(* an exchange that has not finished leaves: its id loses an object and, if it had one, an entry *)
Lemma MInv_remove s h o :
  MInv s -> get_obj s h = Some o -> mo_pc o <> 2 ->
  MInv (remove_exchange (mo_id o) (set_obj s h {| mo_id := mo_id o; mo_pc := 2; mo_notified := mo_notified o |})).
Proof.
  intros HI Ho Hpc id. rewrite remove_exchange_objs, remove_exchange_entries. cbn [set_obj ms_objs].
  change (entries ?i (set_obj s h _)) with (entries i s).
  rewrite (live_upd _ _ _ _ _ (zindex_nth _ _ _ Ho)).
  pose proof (live_ge_weight id _ _ _ (zindex_nth _ _ _ Ho)) as Hge. specialize (HI id).
  unfold weight in *. cbn [mo_id mo_pc] in *. rewrite Z.eqb_refl, andb_false_r.
  replace (mo_pc o =? 2) with false in * by lia. rewrite andb_true_r in *. rewrite (Z.eqb_sym id).
  destruct (mo_id o =? id) eqn:E; [|lia]. assert (mo_id o = id) by lia. subst id. lia.
Qed.

Lemma MInv_step s l s' : MInv s -> mstep s l = Some s' -> MInv s'.
Proof.
  intros HI Hs. destruct l as [id0|h|h|h|h| |id0]; cbn [mstep] in Hs.
  - (* MNew *)
    destruct (ms_shutdown s); [injection Hs as <-; exact HI|].
    destruct (has_key id0 (ms_exch s)) eqn:Hk; [injection Hs as <-; exact HI|].
    injection Hs as <-. intros id. specialize (HI id). unfold entries in *. cbn [ms_exch ms_expired ms_objs].
    rewrite live_app. cbn [live]. unfold weight. cbn [mo_id mo_pc].
    unfold has_key in *. cbn [existsb fst].
    destruct (id0 =? id) eqn:E.
    + assert (id0 = id) by lia. subst id0. rewrite Hk in HI. cbn [orb zb andb negb Z.eqb] in *. lia.
    + cbn [orb andb]. lia.
  - (* MShutCas *)
    destruct (get_obj s h) as [o|] eqn:Ho; [|discriminate].
    destruct (mo_pc o =? 0) eqn:Hpc; [|injection Hs as <-; exact HI].
    injection Hs as <-. intros id. specialize (HI id). unfold entries in *. cbn [set_obj ms_exch ms_expired ms_objs].
    rewrite (live_upd _ _ _ _ _ (zindex_nth _ _ _ Ho)). unfold weight. cbn [mo_id mo_pc].
    assert (mo_pc o =? 2 = false) as -> by lia. cbn. lia.
  - (* MShutRemove *)
    destruct (get_obj s h) as [o|] eqn:Ho; [|discriminate].
    destruct (mo_pc o =? 1) eqn:Hpc; [|discriminate].
    injection Hs as <-. apply MInv_remove; [exact HI|exact Ho|lia].
  - (* MExpire *)
    destruct (get_obj s h) as [o|] eqn:Ho; [|discriminate]. injection Hs as <-.
    intros id. rewrite expire_exchange_objs. pose proof (expire_exchange_entries (mo_id o) s id). specialize (HI id). lia.
  - (* MPingDone *)
    destruct (get_obj s h) as [o|] eqn:Ho; [|discriminate].
    destruct (mo_pc o =? 0) eqn:Hpc; [|discriminate].
    injection Hs as <-. apply MInv_remove; [exact HI|exact Ho|lia].
  - (* MStop *)
    destruct (ms_shutdown s); injection Hs as <-; [exact HI|].
    intros id. specialize (HI id). unfold entries in *. cbn [ms_exch ms_expired ms_objs].
    rewrite notify_all_live. exact HI.
  - (* MForward *)
    injection Hs as <-. exact HI.
Qed.

Lemma MInv_run ls s s' : MInv s -> mrun s ls = Some s' -> MInv s'.
Proof. exact (run_invariant _ _ MInv (fun _ => eq_refl) (fun _ _ _ => eq_refl) MInv_step ls s s'). Qed.

Lemma live_finished id objs : forallb (fun o => mo_pc o =? 2) objs = true -> live id objs = 0.
Proof.
  induction objs as [|o r IH]; cbn [forallb live]; [reflexivity|].
  intros H. apply andb_true_iff in H as [H1 H2]. rewrite (IH H2). unfold weight. rewrite H1.
  rewrite andb_false_r. reflexivity.
Qed.

(* Main theorem: after ANY sequence of atomic steps (any ids, reused or not, any order of
   shutdown / expiry / stop), once every exchange object has finished shutting down, both
   maps are empty. *)
Theorem mex_drained : forall ls s,
  mrun ms_init ls = Some s -> mex_finished s = true ->
  ms_exch s = [] /\ ms_expired s = [].
Proof.
  intros ls s Hr Hf.
  pose proof (MInv_run ls _ _ MInv_init Hr) as HI.
  assert (Hz : forall id, has_key id (ms_exch s) = false /\ has id (ms_expired s) = false).
  { intros id. specialize (HI id). unfold mex_finished in Hf. rewrite (live_finished id _ Hf) in HI.
    unfold entries in HI. destruct (has_key id (ms_exch s)), (has id (ms_expired s)); cbn [zb] in HI; split; lia. }
  split; [apply (no_member_nil fst)|apply (no_member_nil (fun x => x))]; intros id; apply Hz.
Qed.

(* The invariant at every intermediate state, in the vocabulary of the property:
   an id recorded in expiredExchanges (or exchanges) always belongs to some exchange
   object that has not finished shutting down. *)
Theorem mex_entries_have_owner : forall ls s id,
  mrun ms_init ls = Some s ->
  (has_key id (ms_exch s) = true \/ has id (ms_expired s) = true) ->
  exists o, In o (ms_objs s) /\ mo_id o = id /\ mo_pc o <> 2.
Proof.
  intros ls s id Hr Hm.
  pose proof (MInv_run ls _ _ MInv_init Hr id) as HI.
  assert (Hpos : 0 < live id (ms_objs s)).
  { unfold entries in HI. destruct Hm as [Hm | Hm]; rewrite Hm in HI;
      [destruct (has id (ms_expired s)) | destruct (has_key id (ms_exch s))]; cbn [zb] in HI; lia. }
  clear HI Hm Hr. induction (ms_objs s) as [|o r IH]; cbn [live] in Hpos; [lia|].
  unfold weight in Hpos. destruct ((mo_id o =? id) && negb (mo_pc o =? 2)) eqn:E.
  - exists o. apply andb_true_iff in E as [E1 E2]. split; [left; reflexivity|]. split; lia.
  - destruct IH as (o' & Hin & H1 & H2); [lia|]. exists o'. split; [right; exact Hin|]. auto.
Qed.

(* Each shutdown that finds its entry re-evaluates the connection close state (onRemoved):
   the number of onRemoved callbacks is at least the number of successful removals; stated
   here as: a step that deletes an entry from ms_exch increases ms_rechecks. *)
Lemma step_removal_rechecks s l s' id :
  mstep s l = Some s' ->
  has_key id (ms_exch s) = true -> has_key id (ms_exch s') = false ->
  ms_rechecks s < ms_rechecks s'.
Proof.
  intros Hs Hin Hout.
  assert (Hrem : forall id0 s0, has_key id (ms_exch s0) = true -> has_key id (ms_exch (remove_exchange id0 s0)) = false ->
                 ms_rechecks s0 < ms_rechecks (remove_exchange id0 s0)).
  { intros id0 s0 Hi Ho. unfold remove_exchange, delete_exchange in *.
    destruct (has_key id0 (ms_exch s0)) eqn:Hk; cbn in *; [lia|].
    destruct (has id0 (ms_expired s0)); cbn in *; [lia|]. congruence. }
  destruct l as [id0|h|h|h|h| |id0]; cbn [mstep] in Hs.
  - destruct (ms_shutdown s); [injection Hs as <-; cbn [push_out ms_exch] in Hout; congruence|].
    destruct (has_key id0 (ms_exch s)); injection Hs as <-; cbn [push_out ms_exch] in Hout; [congruence|].
    unfold has_key in *. cbn [existsb] in Hout. rewrite Hin in Hout. rewrite orb_true_r in Hout. discriminate.
  - destruct (get_obj s h) as [o|]; [|discriminate].
    destruct (mo_pc o =? 0); injection Hs as <-; cbn [set_obj ms_exch] in Hout; congruence.
  - destruct (get_obj s h) as [o|]; [|discriminate]. destruct (mo_pc o =? 1); [|discriminate].
    injection Hs as <-. apply (Hrem (mo_id o) (set_obj s h _)); assumption.
  - destruct (get_obj s h) as [o|]; [|discriminate]. injection Hs as <-.
    unfold expire_exchange. destruct (delete_exchange (mo_id o) s) as [[f e] s1] eqn:Hd.
    unfold delete_exchange in Hd.
    destruct (has_key (mo_id o) (ms_exch s)); [injection Hd as <- <- <-; cbn; lia|].
    destruct (has (mo_id o) (ms_expired s)); injection Hd as <- <- <-; cbn; lia.
  - destruct (get_obj s h) as [o|]; [|discriminate]. destruct (mo_pc o =? 0); [|discriminate].
    injection Hs as <-. apply (Hrem (mo_id o) (set_obj s h _)); assumption.
  - destruct (ms_shutdown s); injection Hs as <-; cbn [ms_exch] in Hout; congruence.
  - injection Hs as <-. cbn [push_out ms_exch] in Hout. congruence.
Qed.

(* The clause of the property for calls that merely TIME OUT is false for the code as it is:
   a call whose watcher has expired it (inboundExpired) but whose exchange is never shut down
   (InboundCallResponse.Blackhole, a handler that returns without writing a response) leaves its
   id in expiredExchanges.  [call_over ls h]: the exchange h was shut down, removed by id, or
   expired by its watcher. *)
Definition call_over (ls : list mlabel) (h : Z) : Prop :=
  In (MShutRemove h) ls \/ In (MPingDone h) ls \/ In (MExpire h) ls.

Theorem mex_drained_after_timeouts_refuted :
  exists ls s, mrun ms_init ls = Some s /\
    (forall h, 0 <= h < Z.of_nat (length (ms_objs s)) -> call_over ls h) /\
    ms_expired s <> [].
Proof.
  exists [MNew 5; MExpire 0]. eexists. split; [vm_compute; reflexivity|]. split.
  - cbn [ms_objs length Z.of_nat]. intros h Hh. assert (h = 0) by lia. subst h.
    right. right. right. left. reflexivity.
  - cbn. discriminate.
Qed.

Lemma mex_drained_prop : forall ls s,
  mrun ms_init ls = Some s ->
  (forall o, In o (ms_objs s) -> mo_pc o = 2) ->
  ms_exch s = [] /\ ms_expired s = [].
Proof.
  intros ls s Hr Hall. apply (mex_drained ls s Hr). unfold mex_finished.
  apply forallb_forall. intros o Ho. apply Z.eqb_eq. exact (Hall o Ho).
Qed.
