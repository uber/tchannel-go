(* Proofs about the listener wrapper (Model/ListenerClose.v). *)
From Coq Require Import ZArith List Bool Lia Arith.
From Verif Require Import Model.CloseKernel Model.ListenerClose Proofs.CloseKernelP.
Import ListNotations.
Local Open Scope Z_scope.

Definition in_accept (p : lpc) : bool := match p with LA2 | LA3 _ | LA4 _ => true | _ => false end.
Definition can_yield (p : lpc) : bool := match p with LA3 true | LA4 true => true | _ => false end.
Definition close_started (p : lpc) : bool := match p with LK2 | LKDone _ => true | _ => false end.
Definition close_returned (p : lpc) : bool := match p with LKDone true => true | _ => false end.

Definition L_inv (s : lsys) : Prop :=
  refs s = Z.of_nat (count_if in_accept (lthr s)) /\
  ((exists n p, nth_error (lthr s) n = Some p /\ close_started p = true) -> lclosed s = true) /\
  ((exists n p, nth_error (lthr s) n = Some p /\ close_returned p = true) ->
   forall n p, nth_error (lthr s) n = Some p -> can_yield p = false).

Lemma ltstep_facts : forall s p ok r c p', ltstep s p ok = Some (r, c, p') ->
  r = refs s + (if in_accept p' then 1 else 0) - (if in_accept p then 1 else 0) /\
  (lclosed s = true -> c = true) /\
  (close_started p' = true -> c = true \/ close_started p = true) /\
  (close_started p = true -> close_started p' = true) /\
  (can_yield p' = true -> (can_yield p = true \/ (p = LA2 /\ lclosed s = false))) /\
  (close_returned p' = true -> close_returned p = true \/ (p = LK2 /\ refs s = 0)).
Proof.
  intros s p ok r c p' Et. destruct p; cbn [ltstep] in Et.
  - inversion Et; subst. cbn. repeat split; auto; try discriminate; lia.
  - inversion Et; subst. cbn [in_accept close_started can_yield close_returned].
    repeat split; auto; try discriminate; try lia;
    destruct (lclosed s); cbn in *; auto; discriminate.
  - destruct (ok && negb began_open) eqn:E; [discriminate|]. inversion Et; subst.
    cbn [in_accept close_started can_yield close_returned]. repeat split; auto; try discriminate; try lia;
    destruct ok, began_open; cbn in *; auto; discriminate.
  - inversion Et; subst. cbn. repeat split; auto; try discriminate; lia.
  - discriminate.
  - destruct (lclosed s) eqn:E; inversion Et; subst; cbn; repeat split; auto; try discriminate; lia.
  - destruct (refs s =? 0) eqn:E; [|discriminate]. inversion Et; subst. apply Z.eqb_eq in E.
    cbn. repeat split; auto; try discriminate; lia.
  - discriminate.
Qed.

Lemma l_reach : forall s, Reach lstep linit s -> L_inv s.
Proof.
  apply reach_ind.
  - split; [reflexivity|]. split; intros [n [p [H _]]]; destruct n; discriminate.
  - intros s l s' _ (I1 & I2 & I3) Hs.
    assert (Hadd : forall p, in_accept p = false -> close_started p = false -> close_returned p = false ->
              can_yield p = false -> L_inv (mkL (refs s) (lclosed s) (lthr s ++ [p]))).
    { intros p H1 H2 H3 H4. unfold L_inv. cbn [refs lclosed lthr]. split; [|split].
      - rewrite count_if_app. unfold count_if at 2. cbn [filter]. rewrite H1. cbn. rewrite I1. lia.
      - intros [n [q [Hn Hq]]]. apply nth_error_snoc in Hn. destruct Hn as [[_ Hn]|[_ ->]]; [|congruence].
        apply I2. exists n, q. auto.
      - intros [n [q [Hn Hq]]] m r Hm. apply nth_error_snoc in Hn. destruct Hn as [[_ Hn]|[_ ->]]; [|congruence].
        apply nth_error_snoc in Hm. destruct Hm as [[_ Hm]|[_ ->]]; [|exact H4].
        eapply I3; eauto. }
    destruct l; cbn [lstep] in Hs.
    + inversion Hs; subst. apply Hadd; reflexivity.
    + inversion Hs; subst. apply Hadd; reflexivity.
    + destruct (nth_error (lthr s) tid) as [p|] eqn:Ep; [|discriminate].
      destruct (ltstep s p ok) as [[[r c] p']|] eqn:Et; [|discriminate].
      inversion Hs; subst s'; clear Hs. unfold L_inv. cbn [refs lclosed lthr].
      pose proof (nth_error_lt _ _ _ Ep) as Hlt.
      pose proof (count_if_upd in_accept (lthr s) tid p p' Ep) as Hc.
      assert (Hother : forall m q, nth_error (upd (lthr s) tid p') m = Some q -> m <> tid -> nth_error (lthr s) m = Some q).
      { intros m q Hm Hne. rewrite nth_error_upd_other in Hm by exact Hne. exact Hm. }
      destruct (ltstep_facts _ _ _ _ _ _ Et) as (Hr & Hc1 & Hc2 & Hc3 & Hy & Hret).
      split; [|split].
      * rewrite Hr, I1. destruct (in_accept p), (in_accept p'); lia.
      * intros [n [q [Hn Hq]]]. destruct (Nat.eq_dec n tid) as [->|Hne].
        -- rewrite nth_error_upd_same in Hn by exact Hlt. inversion Hn; subst q.
           destruct (Hc2 Hq) as [H|H]; [exact H|]. apply Hc1. apply I2. exists tid, p. auto.
        -- apply Hc1. apply I2. exists n, q. split; [apply Hother; auto|exact Hq].
      * intros [n [q [Hn Hq]]] m u Hm.
        (* was a Close already returned before this step? *)
        assert (Hcase : (exists n0 q0, nth_error (lthr s) n0 = Some q0 /\ close_returned q0 = true) \/
                        (p = LK2 /\ refs s = 0)).
        { destruct (Nat.eq_dec n tid) as [->|Hne].
          - rewrite nth_error_upd_same in Hn by exact Hlt. inversion Hn; subst q.
            destruct (Hret Hq) as [H|H]; [left; exists tid, p; auto|right; exact H].
          - left. exists n, q. split; [apply Hother; auto|exact Hq]. }
        destruct Hcase as [Hprev|[-> Hz]].
        -- destruct (Nat.eq_dec m tid) as [->|Hne].
           ++ rewrite nth_error_upd_same in Hm by exact Hlt. inversion Hm; subst u.
              destruct (can_yield p') eqn:Ey; [|reflexivity]. exfalso.
              destruct (Hy eq_refl) as [Hyp|[-> Hopen]].
              ** rewrite (I3 Hprev tid p Ep) in Hyp. discriminate.
              ** destruct Hprev as [n0 [q0 [Hn0 Hq0]]].
                 assert (lclosed s = true).
                 { apply I2. exists n0, q0. split; [exact Hn0|]. destruct q0; try discriminate; reflexivity. }
                 congruence.
           ++ eapply I3; eauto.
        -- (* Close returns now: refs = 0, so nobody is inside Accept *)
           destruct (Nat.eq_dec m tid) as [->|Hne].
           ++ rewrite nth_error_upd_same in Hm by exact Hlt. inversion Hm; subst u.
              cbn [ltstep] in Et. rewrite Hz in Et. cbn in Et. inversion Et; subst. reflexivity.
           ++ specialize (Hother m u Hm Hne). destruct (can_yield u) eqn:Ey; [|reflexivity]. exfalso.
              assert (in_accept u = true) by (destruct u as [| |[|]|[|]| | | |]; try discriminate; reflexivity).
              pose proof (count_if_pos in_accept (lthr s) m u Hother H). lia.
Qed.

(* LISTENER.  In every reachable state in which some Close has returned successfully, no Accept
   call is at a point from which it can still return a connection (and the reference count
   equals the number of Accept calls in progress, all of them bound to fail). *)
Theorem listener_no_accept_after_close : forall s, Reach lstep linit s ->
  (exists n, nth_error (lthr s) n = Some (LKDone true)) ->
  (forall n p, nth_error (lthr s) n = Some p -> can_yield p = false) /\
  refs s = Z.of_nat (count_if in_accept (lthr s)).
Proof.
  intros s Hr [n Hn]. destruct (l_reach s Hr) as (I1 & _ & I3). split; [|exact I1].
  apply I3. exists n, (LKDone true). auto.
Qed.
