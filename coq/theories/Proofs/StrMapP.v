(* Lemmas about canonical string-keyed maps (Base/GoStrMap.v, Base/Wire.v map_insert / canon_map):
   bytes_cmp is a strict total order, `ksorted` (strictly ascending keys) is what canon_map
   produces and is a fixpoint of it, map_insert / filter / hm_get on sorted maps, string prefixes. *)
From Coq Require Import ZArith List Bool Lia Permutation.
From Verif Require Import Base.Wrap Base.Wire Base.GoStrMap.
Import ListNotations.
Local Open Scope Z_scope.

Lemma bytes_cmp_refl a : bytes_cmp a a = Eq.
Proof. induction a as [|x a IH]; cbn [bytes_cmp]; [reflexivity|]. rewrite Z.compare_refl. exact IH. Qed.

Lemma bytes_cmp_eq a : forall b, bytes_cmp a b = Eq -> a = b.
Proof.
  induction a as [|x a IH]; intros [|y b] H; cbn [bytes_cmp] in H; try discriminate; [reflexivity|].
  destruct (x ?= y) eqn:E; try discriminate.
  apply Z.compare_eq in E. subst y. f_equal. apply IH, H.
Qed.

Lemma bytes_cmp_antisym a : forall b, bytes_cmp b a = CompOpp (bytes_cmp a b).
Proof.
  induction a as [|x a IH]; intros [|y b]; cbn [bytes_cmp CompOpp]; try reflexivity.
  rewrite (Z.compare_antisym x y). destruct (x ?= y); cbn [CompOpp]; try reflexivity. apply IH.
Qed.

Lemma bytes_cmp_gt_lt a b : bytes_cmp a b = Gt -> bytes_cmp b a = Lt.
Proof. intros H. rewrite bytes_cmp_antisym, H. reflexivity. Qed.

Lemma bytes_cmp_lt_trans a : forall b c, bytes_cmp a b = Lt -> bytes_cmp b c = Lt -> bytes_cmp a c = Lt.
Proof.
  induction a as [|x a IH]; intros [|y b] [|z c] H1 H2; cbn [bytes_cmp] in *; try discriminate; try reflexivity.
  destruct (x ?= y) eqn:E1; try discriminate.
  - apply Z.compare_eq in E1. subst y. destruct (x ?= z) eqn:E2; try discriminate; [|reflexivity].
    eapply IH; eassumption.
  - destruct (y ?= z) eqn:E2; try discriminate.
    + apply Z.compare_eq in E2. subst z. rewrite E1. reflexivity.
    + pose proof (proj1 (Z.compare_lt_iff _ _) E1) as L1. pose proof (proj1 (Z.compare_lt_iff _ _) E2) as L2.
      assert (E3 : (x ?= z) = Lt) by (apply Z.compare_lt_iff; lia).
      rewrite E3. reflexivity.
Qed.

Lemma bytes_eqb_cmp a b : bytes_eqb a b = match bytes_cmp a b with Eq => true | _ => false end.
Proof.
  destruct (bytes_cmp a b) eqn:E.
  - apply bytes_cmp_eq in E. subst b. apply bytes_eqb_eq. reflexivity.
  - destruct (bytes_eqb a b) eqn:B; [|reflexivity]. apply bytes_eqb_eq in B. subst b.
    rewrite bytes_cmp_refl in E. discriminate.
  - destruct (bytes_eqb a b) eqn:B; [|reflexivity]. apply bytes_eqb_eq in B. subst b.
    rewrite bytes_cmp_refl in E. discriminate.
Qed.

Lemma bytes_eqb_refl a : bytes_eqb a a = true.
Proof. apply bytes_eqb_eq. reflexivity. Qed.

Lemma bytes_eqb_neq a b : a <> b -> bytes_eqb a b = false.
Proof. intros H. destruct (bytes_eqb a b) eqn:E; [|reflexivity]. apply bytes_eqb_eq in E. contradiction. Qed.

(* ---------------- sorted maps ---------------- *)
Fixpoint lt_all (k : list Z) (l : smap) : Prop :=
  match l with
  | [] => True
  | (k', _) :: r => bytes_cmp k k' = Lt /\ lt_all k r
  end.
Fixpoint ksorted (l : smap) : Prop :=
  match l with
  | [] => True
  | (k, _) :: r => lt_all k r /\ ksorted r
  end.
Definition all_lt (l : smap) (k : list Z) : Prop := Forall (fun kv => bytes_cmp (fst kv) k = Lt) l.

Lemma lt_all_in k l k' v' : lt_all k l -> In (k', v') l -> bytes_cmp k k' = Lt.
Proof.
  induction l as [|[k2 v2] r IH]; cbn [lt_all In]; [tauto|].
  intros [H1 H2] [E|Hin]; [inversion E; subst; exact H1 | apply IH; assumption].
Qed.

Lemma lt_all_trans k k' l : bytes_cmp k k' = Lt -> lt_all k' l -> lt_all k l.
Proof.
  intros Hk. induction l as [|[k2 v2] r IH]; cbn [lt_all]; [auto|].
  intros [H1 H2]. split; [eapply bytes_cmp_lt_trans; eassumption | apply IH, H2].
Qed.

Lemma lt_all_filter k P l : lt_all k l -> lt_all k (filter P l).
Proof.
  induction l as [|[k2 v2] r IH]; cbn [lt_all filter]; [auto|].
  intros [H1 H2]. destruct (P (k2, v2)); cbn [lt_all]; auto.
Qed.

Lemma ksorted_filter P l : ksorted l -> ksorted (filter P l).
Proof.
  induction l as [|[k v] r IH]; cbn [ksorted filter]; [auto|].
  intros [H1 H2]. destruct (P (k, v)); cbn [ksorted]; [split; [apply lt_all_filter, H1 | apply IH, H2] | apply IH, H2].
Qed.

Lemma lt_all_insert k k' v l : bytes_cmp k k' = Lt -> lt_all k l -> lt_all k (map_insert k' v l).
Proof.
  intros Hk. induction l as [|[k2 v2] r IH]; cbn [lt_all map_insert]; [intros _; cbn [lt_all]; auto|].
  intros [H1 H2]. destruct (bytes_cmp k' k2); cbn [lt_all]; auto.
Qed.

Lemma map_insert_sorted k v l : ksorted l -> ksorted (map_insert k v l).
Proof.
  induction l as [|[k2 v2] r IH]; cbn [ksorted map_insert]; [auto|].
  intros [H1 H2]. destruct (bytes_cmp k k2) eqn:E; cbn [ksorted].
  - apply bytes_cmp_eq in E. subst k2. auto.
  - split; [cbn [lt_all]; split; [exact E | eapply lt_all_trans; eassumption] | auto].
  - split; [apply lt_all_insert; [apply bytes_cmp_gt_lt, E | exact H1] | apply IH, H2].
Qed.

Lemma map_insert_above k v l : all_lt l k -> map_insert k v l = l ++ [(k, v)].
Proof.
  induction 1 as [|[k2 v2] r H1 H2 IH]; cbn [map_insert app]; [reflexivity|].
  cbn [fst] in H1. rewrite (bytes_cmp_antisym k2 k), H1. cbn [CompOpp]. rewrite IH. reflexivity.
Qed.

Lemma all_lt_snoc l k v k' : all_lt l k -> bytes_cmp k k' = Lt -> all_lt (l ++ [(k, v)]) k'.
Proof.
  unfold all_lt. intros H Hk. apply Forall_app. split.
  - eapply Forall_impl; [|exact H]. intros kv Hkv. exact (bytes_cmp_lt_trans _ _ _ Hkv Hk).
  - constructor; [exact Hk | constructor].
Qed.

Lemma canon_fold_sorted l : forall acc, ksorted acc ->
  ksorted (fold_left (fun acc kv => map_insert (fst kv) (snd kv) acc) l acc).
Proof.
  induction l as [|kv r IH]; intros acc H; cbn [fold_left]; [exact H|]. apply IH, map_insert_sorted, H.
Qed.

Lemma canon_map_sorted l : ksorted (canon_map l).
Proof. apply canon_fold_sorted. exact I. Qed.

Lemma canon_fold_above l : forall acc, ksorted l -> (forall kv, In kv l -> all_lt acc (fst kv)) ->
  fold_left (fun acc kv => map_insert (fst kv) (snd kv) acc) l acc = acc ++ l.
Proof.
  induction l as [|[k v] r IH]; intros acc Hs Hall; cbn [fold_left]; [rewrite app_nil_r; reflexivity|].
  cbn [fst snd]. cbn [ksorted] in Hs. destruct Hs as [H1 H2].
  rewrite (map_insert_above k v acc (Hall (k, v) (or_introl eq_refl))).
  rewrite IH; [rewrite <- app_assoc; reflexivity | exact H2 |].
  intros [k2 v2] Hin. apply all_lt_snoc; [exact (Hall (k, v) (or_introl eq_refl))|exact (lt_all_in k r k2 v2 H1 Hin)].
Qed.

(* the canonical maps are exactly the sorted ones *)
Theorem canon_map_fix l : ksorted l -> canon_map l = l.
Proof.
  intros H. unfold canon_map. rewrite canon_fold_above; [reflexivity | exact H | intros; constructor].
Qed.
Theorem canon_fix_sorted l : canon_map l = l -> ksorted l.
Proof. intros H. rewrite <- H. apply canon_map_sorted. Qed.

Lemma hm_get_lt_all k l : lt_all k l -> hm_get l k = ([], false).
Proof.
  induction l as [|[k2 v2] r IH]; cbn [lt_all hm_get]; [reflexivity|].
  intros [H1 H2]. rewrite bytes_eqb_cmp, H1. apply IH, H2.
Qed.

Lemma hm_get_insert k v l k' :
  hm_get (map_insert k v l) k' = if bytes_eqb k' k then (v, true) else hm_get l k'.
Proof.
  induction l as [|[k2 v2] r IH]; cbn [map_insert hm_get]; [reflexivity|].
  destruct (bytes_cmp k k2) eqn:E; cbn [hm_get].
  - apply bytes_cmp_eq in E. subst k2. destruct (bytes_eqb k' k); reflexivity.
  - reflexivity.
  - rewrite IH. destruct (bytes_eqb k' k2) eqn:E2; [|reflexivity].
    apply bytes_eqb_eq in E2. subst k2. rewrite bytes_eqb_neq; [reflexivity|].
    intros ->. rewrite bytes_cmp_refl in E. discriminate.
Qed.

Lemma str_has_prefix_app p s : str_has_prefix (p ++ s) p = true.
Proof. induction p as [|x p IH]; cbn [app str_has_prefix]; [destruct s; reflexivity|]. rewrite Z.eqb_refl. exact IH. Qed.

Lemma str_from_app p s : str_from (p ++ s) (zlen p) = Some s.
Proof.
  unfold str_from, zlen. rewrite app_length, Nat2Z.inj_add.
  assert (H1 : (Z.of_nat (length p) <? 0) = false) by (apply Z.ltb_ge; lia).
  assert (H2 : (Z.of_nat (length p) + Z.of_nat (length s) <? Z.of_nat (length p)) = false) by (apply Z.ltb_ge; lia).
  rewrite H1, H2. cbn [orb]. rewrite Nat2Z.id. f_equal. clear H1 H2.
  induction p as [|x p IH]; [reflexivity | exact IH].
Qed.

Lemma str_has_prefix_split p : forall s, str_has_prefix s p = true -> exists r, s = p ++ r.
Proof.
  induction p as [|y p IH]; intros s H; [exists s; reflexivity|].
  destruct s as [|x s]; cbn [str_has_prefix] in H; [discriminate|].
  apply andb_true_iff in H. destruct H as [H1 H2]. apply Z.eqb_eq in H1. subst y.
  destruct (IH s H2) as [r ->]. exists r. reflexivity.
Qed.

(* ---------------- look-up characterises a sorted map ---------------- *)
Lemma hm_get_head k v l : hm_get ((k, v) :: l) k = (v, true).
Proof. cbn [hm_get]. rewrite bytes_eqb_refl. reflexivity. Qed.

Lemma hm_get_tail k v l k' : k' <> k -> hm_get ((k, v) :: l) k' = hm_get l k'.
Proof. intros H. cbn [hm_get]. rewrite (bytes_eqb_neq k' k H). reflexivity. Qed.

Lemma lt_all_neq k l k' v' : lt_all k l -> In (k', v') l -> k' <> k.
Proof. intros H Hin ->. pose proof (lt_all_in k l k v' H Hin) as C. rewrite bytes_cmp_refl in C. discriminate. Qed.

Theorem ksorted_ext a : forall b, ksorted a -> ksorted b ->
  (forall k, hm_get a k = hm_get b k) -> a = b.
Proof.
  induction a as [|[k1 v1] a IH]; intros [|[k2 v2] b] Ha Hb Hext.
  - reflexivity.
  - specialize (Hext k2). rewrite hm_get_head in Hext. discriminate.
  - specialize (Hext k1). rewrite hm_get_head in Hext. discriminate.
  - cbn [ksorted] in Ha, Hb. destruct Ha as [Ha1 Ha2]. destruct Hb as [Hb1 Hb2].
    assert (Ek : k1 = k2).
    { destruct (bytes_cmp k1 k2) eqn:E.
      - apply bytes_cmp_eq, E.
      - pose proof (Hext k1) as H. rewrite hm_get_head in H.
        rewrite hm_get_lt_all in H; [discriminate|].
        cbn [lt_all]. split; [exact E | eapply lt_all_trans; eassumption].
      - pose proof (Hext k2) as H. rewrite hm_get_head in H.
        rewrite hm_get_lt_all in H; [discriminate|].
        cbn [lt_all]. split; [apply bytes_cmp_gt_lt, E | eapply lt_all_trans; [apply bytes_cmp_gt_lt, E | exact Ha1]]. }
    subst k2.
    assert (Ev : v1 = v2).
    { pose proof (Hext k1) as H. rewrite !hm_get_head in H. inversion H. reflexivity. }
    subst v2. f_equal. apply IH; [exact Ha2 | exact Hb2|].
    intros k. destruct (bytes_eqb k k1) eqn:E.
    + apply bytes_eqb_eq in E. subst k. rewrite (hm_get_lt_all k1 a Ha1), (hm_get_lt_all k1 b Hb1). reflexivity.
    + assert (Hn : k <> k1) by (intros ->; rewrite bytes_eqb_refl in E; discriminate).
      pose proof (Hext k) as H. rewrite !(hm_get_tail _ _ _ _ Hn) in H. exact H.
Qed.

Lemma hm_get_filter (p : list Z -> bool) l k :
  hm_get (filter (fun kv => p (fst kv)) l) k = if p k then hm_get l k else ([], false).
Proof.
  induction l as [|[k2 v2] r IH]; cbn [filter hm_get fst]; [destruct (p k); reflexivity|].
  destruct (bytes_eqb k k2) eqn:E.
  - apply bytes_eqb_eq in E. subst k2. destruct (p k); [cbn [hm_get]; rewrite bytes_eqb_refl; reflexivity|exact IH].
  - destruct (p k2); cbn [hm_get]; [rewrite E|]; exact IH.
Qed.

(* a key-predicate filter commutes with an insertion into a sorted map: both sides are sorted and
   look up alike *)
Lemma filter_insert (p : list Z -> bool) k v l : ksorted l ->
  filter (fun kv => p (fst kv)) (map_insert k v l) =
  if p k then map_insert k v (filter (fun kv => p (fst kv)) l) else filter (fun kv => p (fst kv)) l.
Proof.
  intros Hs. apply ksorted_ext.
  - apply ksorted_filter, map_insert_sorted, Hs.
  - destruct (p k); [apply map_insert_sorted|]; apply ksorted_filter, Hs.
  - intros k'. rewrite hm_get_filter, hm_get_insert.
    destruct (p k) eqn:Pk; rewrite ?hm_get_insert, hm_get_filter;
      (destruct (bytes_eqb k' k) eqn:E; [apply bytes_eqb_eq in E; subst k'; rewrite Pk; reflexivity|reflexivity]).
Qed.

Lemma ksorted_nodup l : ksorted l -> NoDup (map fst l).
Proof.
  induction l as [|[k v] r IH]; cbn [ksorted map fst]; [constructor|].
  intros [H1 H2]. constructor; [|apply IH, H2].
  intros Hin. apply in_map_iff in Hin. destruct Hin as [[k' v'] [E Hin]]. cbn [fst] in E. subst k'.
  exact (lt_all_neq k r k v' H1 Hin eq_refl).
Qed.

Lemma hm_get_in l : forall k v, NoDup (map fst l) -> In (k, v) l -> hm_get l k = (v, true).
Proof.
  induction l as [|[k2 v2] r IH]; intros k v Hnd Hin; [destruct Hin|].
  cbn [map fst] in Hnd. inversion Hnd as [|? ? Hni Hnd']; subst.
  destruct Hin as [E|Hin].
  - inversion E; subst. apply hm_get_head.
  - rewrite hm_get_tail; [apply IH; assumption|].
    intros ->. apply Hni. apply in_map_iff. exists (k2, v). split; [reflexivity | exact Hin].
Qed.

Lemma hm_get_notin l k : ~ In k (map fst l) -> hm_get l k = ([], false).
Proof.
  induction l as [|[k2 v2] r IH]; cbn [map fst In]; [reflexivity|].
  intros H. rewrite hm_get_tail; [apply IH; tauto | intros ->; tauto].
Qed.

Lemma hm_get_perm l l' k : NoDup (map fst l) -> Permutation.Permutation l' l -> hm_get l' k = hm_get l k.
Proof.
  intros Hnd Hp.
  assert (Hnd' : NoDup (map fst l')).
  { eapply Permutation.Permutation_NoDup; [|exact Hnd]. apply Permutation.Permutation_map, Permutation.Permutation_sym, Hp. }
  destruct (in_dec (list_eq_dec Z.eq_dec) k (map fst l)) as [Hin|Hni].
  - apply in_map_iff in Hin. destruct Hin as [[k' v] [E Hin]]. cbn [fst] in E. subst k'.
    rewrite (hm_get_in l k v Hnd Hin).
    apply hm_get_in; [exact Hnd'|]. eapply Permutation.Permutation_in; [apply Permutation.Permutation_sym, Hp | exact Hin].
  - rewrite (hm_get_notin l k Hni). apply hm_get_notin. intros Hin. apply Hni.
    eapply Permutation.Permutation_in; [apply Permutation.Permutation_map, Hp | exact Hin].
Qed.
