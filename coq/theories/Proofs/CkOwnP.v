(* Proofs about Model/CkOwn.v: the ownership discipline of pooled checksum objects (C02). *)
From Coq Require Import ZArith List Bool Lia.
From Verif Require Import Base.Wrap Base.Wire Gen.GenCkSites Model.CkOwn.
Import ListNotations.
Local Open Scope Z_scope.

(* ------------------------------------------------------------------ the site table *)

(* The model's table of pooled-checksum operations is exactly the table go2v extracts from
   the source on this run -- for the variant [fr] of the model that matches the tree: with
   (true) or without (false) the Release in finishRelayItem.  Any other new, removed, moved or
   re-guarded New / Add / Sum / Release / Reset / Get / Put / Wrap / Store / Pass site makes
   both alternatives false. *)
Lemma ck_table_generated :
  map snd (ck_site_table true) = ck_sites \/ map snd (ck_site_table false) = ck_sites.
Proof.
  first [ left; vm_compute; reflexivity
        | right; vm_compute; reflexivity
        | fail 1 "the table of pooled-checksum operations regenerated from the source (Gen/GenCkSites.ck_sites) differs from both variants of the model's table (Model/CkOwn.ck_rows): a New / Release / Add / Sum / wrap / store / hand-over site was added, removed, moved or re-guarded" ].
Qed.

Lemma ck_table_numbers fr :
  map fst (ck_site_table fr) = map Z.of_nat (seq 1 (List.length (ck_rows fr))).
Proof. destruct fr; vm_compute; reflexivity. Qed.

(* the (row, function, op) list used to place the events of a recorded trace is the list of
   New / Add / Sum / Release rows of the table outside checksum.go *)
Lemma ck_rt_sites_ok fr :
  map (fun t : Z * list Z * Z => let '(n, f, op) := t in (n, f, ck_kind_name op)) (ck_rt_sites fr) =
  map (fun p : Z * ck_row => let '(n, (f, k, _, _)) := p in (n, f, k))
      (filter (fun p : Z * ck_row =>
                 let '(n, (_, kind, _, _)) := p in
                 (7 <? n) && (ck_list_eqb kind (ck_kind_name 0) || ck_list_eqb kind (ck_kind_name 1)
                              || ck_list_eqb kind (ck_kind_name 2) || ck_list_eqb kind (ck_kind_name 3)))
              (ck_site_table fr)).
Proof. destruct fr; vm_compute; reflexivity. Qed.

(* ------------------------------------------------------------------ list / map lemmas *)

Lemma ck_lookup_drop x y h :
  ck_lookup x (ck_drop y h) = if y =? x then None else ck_lookup x h.
Proof.
  unfold ck_drop. induction h as [|[z v] r IH]; cbn [filter ck_lookup fst].
  - destruct (y =? x); reflexivity.
  - destruct (z =? y) eqn:E; cbn [negb].
    + rewrite IH. apply Z.eqb_eq in E. subst z. destruct (y =? x); reflexivity.
    + cbn [ck_lookup]. rewrite IH. destruct (z =? x) eqn:F; [|reflexivity].
      apply Z.eqb_eq in F. subst z. rewrite Z.eqb_sym, E. reflexivity.
Qed.

Lemma ck_mem_in x l : ck_mem x l = true <-> In x l.
Proof.
  induction l as [|y r IH]; cbn; [split; [discriminate|tauto]|].
  rewrite orb_true_iff, IH, Z.eqb_eq. tauto.
Qed.

Lemma ck_remove1_in x y l : In y (ck_remove1 x l) -> In y l.
Proof.
  induction l as [|z r IH]; cbn; [tauto|].
  destruct (z =? x); cbn; [tauto|]. intros [H|H]; [left; exact H|right; apply IH; exact H].
Qed.

Lemma ck_remove1_nodup x l : NoDup l -> NoDup (ck_remove1 x l) /\ ~ In x (ck_remove1 x l).
Proof.
  induction l as [|z r IH]; cbn; intros N; [split; [constructor|tauto]|].
  inversion N as [|? ? Hn Nr]; subst.
  destruct (z =? x) eqn:E.
  - apply Z.eqb_eq in E. subst z. split; assumption.
  - destruct (IH Nr) as [N1 N2]. split.
    + constructor; [|exact N1]. intros C. apply Hn. eapply ck_remove1_in; exact C.
    + cbn. intros [C|C]; [apply Z.eqb_neq in E; congruence|tauto].
Qed.

Lemma ck_run_app fr es1 : forall h i es2,
  ck_run fr h i (es1 ++ es2) =
  match ck_run fr h i es1 with
  | inl h' => ck_run fr h' (i + Z.of_nat (List.length es1)) es2
  | inr e => inr e
  end.
Proof.
  induction es1 as [|e r IH]; intros h i es2; cbn [app ck_run List.length].
  - f_equal. lia.
  - destruct (ck_step fr h e); [|reflexivity]. rewrite IH. destruct (ck_run fr h0 (i + 1) r); [|reflexivity].
    f_equal. lia.
Qed.

(* ------------------------------------------------------------------ the invariant *)

Definition holding (p : Z) : Prop := p = 1 \/ p = 2 \/ p = 3.

Record CkInv (s : ck_st) (h : ck_held) : Prop := {
  (* a life cycle that acquired and has not released is the registered owner of its object *)
  ci_own : forall k, holding (o_phase (cs_own s k)) ->
             ck_lookup (o_obj (cs_own s k)) h = Some (k, o_kind (cs_own s k));
  ci_held : forall x k kind, ck_lookup x h = Some (k, kind) ->
             o_obj (cs_own s k) = x /\ o_kind (cs_own s k) = kind /\ holding (o_phase (cs_own s k));
  ci_free : forall x, In x (cs_free s) -> ck_lookup x h = None;
  ci_nodup : NoDup (cs_free s);
  (* objects that were never created *)
  ci_fresh : forall x, cs_fresh s <= x -> ck_lookup x h = None /\ ~ In x (cs_free s);
  (* a copy of an item in flight: the item has not released its checksum *)
  ci_refs : forall k, 0 < o_refs (cs_own s k) ->
             o_kind (cs_own s k) = 3 /\ holding (o_phase (cs_own s k));
  ci_kind : forall k, o_phase (cs_own s k) <> 0 -> 0 <= o_kind (cs_own s k) <= 3
}.

Lemma ck_init_inv : CkInv ck_init [].
Proof.
  constructor; cbn; intros; try (unfold holding in *; lia); try tauto; try discriminate.
  constructor.
Qed.

Lemma ck_upd_same f k v : ck_upd f k v k = v.
Proof. unfold ck_upd. rewrite Z.eqb_refl. reflexivity. Qed.
Lemma ck_upd_other f k v j : j <> k -> ck_upd f k v j = f j.
Proof. intros H. unfold ck_upd. destruct (j =? k) eqn:E; [apply Z.eqb_eq in E; congruence|reflexivity]. Qed.

Lemma ck_inv_acquire s h k kind x free fresh :
  CkInv s h -> o_phase (cs_own s k) = 0 -> 0 <= kind <= 3 ->
  ck_lookup x h = None -> NoDup free -> ~ In x free -> (forall y, In y free -> In y (cs_free s)) ->
  cs_fresh s <= fresh -> x < fresh ->
  CkInv (mkCkSt free fresh (ck_upd (cs_own s) k (mkOwner kind x 1 (if kind =? 3 then 1 else 0)))) ((x, (k, kind)) :: h).
Proof.
  intros I Hp Hk Hx Nd Nin Sub Hf Hxf. constructor; cbn [cs_own cs_free cs_fresh].
  - intros j Hj. destruct (Z.eq_dec j k) as [->|Hne].
    + rewrite ck_upd_same. cbn [o_obj o_kind ck_lookup]. rewrite Z.eqb_refl. reflexivity.
    + rewrite ck_upd_other in * by exact Hne. cbn [ck_lookup].
      pose proof (ci_own _ _ I j Hj) as A. destruct (x =? o_obj (cs_own s j)) eqn:E; [|exact A].
      apply Z.eqb_eq in E. rewrite <- E in A. congruence.
  - intros y j kd Hy. cbn [ck_lookup] in Hy. destruct (x =? y) eqn:E.
    + apply Z.eqb_eq in E. inversion Hy; subst. rewrite ck_upd_same. cbn. unfold holding. auto.
    + destruct (ci_held _ _ I y j kd Hy) as [A [B C]].
      assert (j <> k). { intros ->. unfold holding in C. lia. }
      rewrite ck_upd_other by assumption. auto.
  - intros y Hy. cbn [ck_lookup]. destruct (x =? y) eqn:E; [apply Z.eqb_eq in E; subst; tauto|].
    apply (ci_free _ _ I). apply Sub. exact Hy.
  - exact Nd.
  - intros y Hy. cbn [ck_lookup]. destruct (x =? y) eqn:E; [lia|].
    destruct (ci_fresh _ _ I y) as [A B]; [lia|]. split; [exact A|]. intros C. apply B. apply Sub. exact C.
  - intros j Hj. destruct (Z.eq_dec j k) as [->|Hne].
    + rewrite ck_upd_same in *. cbn in *. destruct (kind =? 3) eqn:E; [|lia]. unfold holding. split; [lia|auto].
    + rewrite ck_upd_other in * by exact Hne. apply (ci_refs _ _ I). exact Hj.
  - intros j Hj. destruct (Z.eq_dec j k) as [->|Hne].
    + rewrite ck_upd_same. cbn. exact Hk.
    + rewrite ck_upd_other in * by exact Hne. apply (ci_kind _ _ I). exact Hj.
Qed.

Lemma ck_inv_release s h k kind r : let o := cs_own s k in
  CkInv s h -> holding (o_phase o) -> 0 <= kind <= 3 -> r <= 0 ->
  CkInv (mkCkSt (o_obj o :: cs_free s) (cs_fresh s) (ck_upd (cs_own s) k (mkOwner kind (o_obj o) 4 r)))
        (ck_drop (o_obj o) h).
Proof.
  intros o I Hh Hk Hr. pose proof (ci_own _ _ I k Hh) as Hl. fold o in Hl.
  constructor; cbn [cs_own cs_free cs_fresh].
  - intros j Hj. destruct (Z.eq_dec j k) as [->|Hne].
    + rewrite ck_upd_same in Hj. cbn in Hj. unfold holding in Hj. lia.
    + rewrite ck_upd_other in * by exact Hne. rewrite ck_lookup_drop.
      pose proof (ci_own _ _ I j Hj) as A. destruct (o_obj o =? o_obj (cs_own s j)) eqn:Eo; [|exact A].
      apply Z.eqb_eq in Eo. rewrite <- Eo in A. rewrite Hl in A. congruence.
  - intros y j kd Hy. rewrite ck_lookup_drop in Hy. destruct (o_obj o =? y) eqn:Eo; [discriminate|].
    destruct (ci_held _ _ I y j kd Hy) as [A [B C]].
    assert (j <> k). { intros ->. fold o in A. lia. }
    rewrite ck_upd_other by assumption. auto.
  - intros y Hy. rewrite ck_lookup_drop. destruct (o_obj o =? y) eqn:Eo; [reflexivity|].
    destruct Hy as [Hy|Hy]; [lia|]. apply (ci_free _ _ I). exact Hy.
  - constructor; [|apply (ci_nodup _ _ I)]. intros C. rewrite (ci_free _ _ I _ C) in Hl. discriminate.
  - intros y Hy. rewrite ck_lookup_drop. destruct (ci_fresh _ _ I y Hy) as [A B].
    split; [destruct (o_obj o =? y); [reflexivity|exact A]|].
    intros [C|C]; [|tauto]. subst y. rewrite A in Hl. discriminate.
  - intros j Hj. destruct (Z.eq_dec j k) as [->|Hne].
    + rewrite ck_upd_same in Hj. cbn in Hj. lia.
    + rewrite ck_upd_other in * by exact Hne. apply (ci_refs _ _ I). exact Hj.
  - intros j Hj. destruct (Z.eq_dec j k) as [->|Hne].
    + rewrite ck_upd_same. cbn. exact Hk.
    + rewrite ck_upd_other in * by exact Hne. apply (ci_kind _ _ I). exact Hj.
Qed.

Lemma ck_inv_keep s h k o' : let o := cs_own s k in
  CkInv s h -> holding (o_phase o) -> o_obj o' = o_obj o -> o_kind o' = o_kind o -> holding (o_phase o') ->
  (0 < o_refs o' -> o_kind o = 3) ->
  CkInv (mkCkSt (cs_free s) (cs_fresh s) (ck_upd (cs_own s) k o')) h.
Proof.
  intros o I Hh Eo Ek Hh' Hr. constructor; cbn [cs_own cs_free cs_fresh]; try apply I.
  - intros j Hj. destruct (Z.eq_dec j k) as [->|Hne].
    + rewrite ck_upd_same, Eo, Ek. apply (ci_own _ _ I k Hh).
    + rewrite ck_upd_other in * by exact Hne. apply (ci_own _ _ I j Hj).
  - intros y j kd Hy. destruct (ci_held _ _ I y j kd Hy) as [A [B C]].
    destruct (Z.eq_dec j k) as [->|Hne].
    + rewrite ck_upd_same, Eo, Ek. auto.
    + rewrite ck_upd_other by exact Hne. auto.
  - intros j Hj. destruct (Z.eq_dec j k) as [->|Hne].
    + rewrite ck_upd_same in *. rewrite Ek. auto.
    + rewrite ck_upd_other in * by exact Hne. apply (ci_refs _ _ I). exact Hj.
  - intros j Hj. destruct (Z.eq_dec j k) as [->|Hne].
    + rewrite ck_upd_same, Ek. apply (ci_kind _ _ I k). unfold holding in Hh. fold o. lia.
    + rewrite ck_upd_other in * by exact Hne. apply (ci_kind _ _ I). exact Hj.
Qed.

Lemma ck_new_site_kind kind : 0 <= kind <= 3 -> ck_kind_of_site (ck_new_site kind) = Some kind.
Proof.
  intros H. assert (kind = 0 \/ kind = 1 \/ kind = 2 \/ kind = 3) as [E|[E|[E|E]]] by lia; subst kind; reflexivity.
Qed.

Lemma ck_step_new fr h kind k x : 0 <= kind <= 3 -> ck_lookup x h = None ->
  ck_step fr h (mkCkev (ck_new_site kind) 0 k x) = CkOk ((x, (k, kind)) :: h).
Proof. intros Hk Hx. unfold ck_step. cbn. rewrite (ck_new_site_kind kind Hk), Hx. reflexivity. Qed.

Lemma ck_step_use fr h site op k x kind : ck_lookup x h = Some (k, kind) -> op = 1 \/ op = 2 ->
  ck_site_compat fr kind op site = true -> ck_step fr h (mkCkev site op k x) = CkOk h.
Proof. intros Hl Hop Hc. unfold ck_step. cbn. rewrite Hl, Z.eqb_refl, Hc. destruct Hop as [-> | ->]; reflexivity. Qed.

Lemma ck_step_release fr h site k x kind : ck_lookup x h = Some (k, kind) ->
  ck_site_compat fr kind 3 site = true -> ck_step fr h (mkCkev site 3 k x) = CkOk (ck_drop x h).
Proof. intros Hl Hc. unfold ck_step. cbn. rewrite Hl, Z.eqb_refl, Hc. reflexivity. Qed.

Ltac split_if H :=
  match type of H with
  | (if ?c then _ else _) = Some _ => let E := fresh "E" in destruct c eqn:E; [|try discriminate H]; try discriminate H
  end.

Lemma ck_step_inv fr strict s h l es s' i :
  (fr = false \/ strict = true) ->
  CkInv s h -> ck_step_lc fr strict s l = Some (es, s') ->
  exists h', ck_run fr h i es = inl h' /\ CkInv s' h'.
Proof.
  intros Hmode I H. destruct l as [k kind pick|k site|k|k|k|k|k|k|k]; cbn [ck_step_lc] in H; cbv zeta in H;
    set (o := cs_own s k) in *.
  - (* LNew *)
    destruct ((0 <=? kind) && (kind <=? 3)) eqn:Ek; cbn [negb] in H; [|discriminate].
    destruct (o_phase o =? 0) eqn:Ep; cbn [negb] in H; [|discriminate].
    assert (Hk : 0 <= kind <= 3) by lia. assert (Hp : o_phase o = 0) by lia.
    destruct pick as [x|].
    + destruct (ck_mem x (cs_free s)) eqn:Em; [|discriminate]. inversion H; subst; clear H.
      apply ck_mem_in in Em. pose proof (ci_free _ _ I x Em) as Hx.
      destruct (ck_remove1_nodup x _ (ci_nodup _ _ I)) as [N1 N2].
      eexists. split; [cbn [ck_run]; rewrite (ck_step_new fr h kind k x Hk Hx); reflexivity|].
      apply ck_inv_acquire; try assumption; try lia; [intros y; apply ck_remove1_in|].
      destruct (Z_lt_le_dec x (cs_fresh s)) as [L|L]; [exact L|]. destruct (ci_fresh _ _ I x L) as [_ B]. tauto.
    + inversion H; subst; clear H. destruct (ci_fresh _ _ I (cs_fresh s)) as [A B]; [lia|].
      eexists. split; [cbn [ck_run]; rewrite (ck_step_new fr h kind k _ Hk A); reflexivity|].
      apply ck_inv_acquire; try assumption; try lia; [apply (ci_nodup _ _ I)|tauto].
  - (* LUse *)
    destruct ((ck_use_op fr site =? 1) || (ck_use_op fr site =? 2)) eqn:Eop; cbn [negb] in H; [|discriminate].
    destruct (ck_site_compat fr (o_kind o) (ck_use_op fr site) site) eqn:Ec; cbn [negb] in H; [|discriminate].
    split_if H. inversion H; subst; clear H.
    assert (Hh : holding (o_phase o)).
    { destruct (o_kind o =? 3) eqn:E3; [apply (ci_refs _ _ I); fold o; lia|unfold holding; lia]. }
    exists h. split; [|exact I]. cbn [ck_run].
    rewrite (ck_step_use fr h _ _ _ _ _ (ci_own _ _ I k Hh)) by (exact Ec || lia). reflexivity.
  - (* LWLast *)
    split_if H. inversion H; subst; clear H.
    assert (Hk : o_kind o = 0 \/ o_kind o = 1) by lia. assert (Hh : holding (o_phase o)) by (unfold holding; lia).
    pose proof (ci_own _ _ I k Hh) as Hl. fold o in Hl.
    eexists. split; [|apply ck_inv_release; [exact I|exact Hh|lia|lia]]. cbn [ck_run].
    rewrite (ck_step_use fr h K_wr_sum 2 _ _ _ Hl), (ck_step_release fr h K_wr_rel _ _ _ Hl);
      auto; destruct Hk as [-> | ->]; reflexivity.
  - (* LSendLast *)
    split_if H. inversion H; subst; clear H. destruct (ci_refs _ _ I k) as [K3 Hh]; [fold o; lia|]. fold o in K3, Hh.
    pose proof (ci_own _ _ I k Hh) as Hl. fold o in Hl. rewrite K3 in Hl.
    exists h. split; [|exact I]. cbn [ck_run].
    rewrite (ck_step_use fr h K_wr_sum 2 _ _ _ Hl); [reflexivity|auto|destruct fr; reflexivity].
  - (* LRDone *)
    split_if H. inversion H; subst; clear H.
    assert (Hk : o_kind o = 2) by lia. assert (Hh : holding (o_phase o)) by (unfold holding; lia).
    pose proof (ci_own _ _ I k Hh) as Hl. fold o in Hl. rewrite Hk in Hl.
    eexists. split; [|apply ck_inv_release; [exact I|exact Hh|lia|lia]]. cbn [ck_run].
    rewrite (ck_step_release fr h K_rd_rel _ _ _ Hl); reflexivity.
  - (* LFail *)
    split_if H. inversion H; subst; clear H. exists h. split; [reflexivity|].
    apply (ck_inv_keep s h k _ I); cbn [o_obj o_kind o_phase o_refs]; fold o; unfold holding; try reflexivity; try lia.
    intros Hr. apply (ci_refs _ _ I k Hr).
  - (* LItemGet *)
    split_if H. inversion H; subst; clear H. exists h. split; [reflexivity|].
    apply (ck_inv_keep s h k _ I); cbn [o_obj o_kind o_phase o_refs]; fold o; unfold holding; try reflexivity; lia.
  - (* LItemPut *)
    split_if H. inversion H; subst; clear H. exists h. split; [reflexivity|].
    destruct (ci_refs _ _ I k) as [_ Hh]; [fold o; lia|]. fold o in Hh.
    apply (ck_inv_keep s h k _ I); cbn [o_obj o_kind o_phase o_refs]; fold o; try reflexivity; try assumption; lia.
  - (* LItemFinish *)
    split_if H.
    assert (Hk : o_kind o = 3) by lia. assert (Hh : holding (o_phase o)) by (unfold holding; lia).
    destruct fr; inversion H; subst; clear H.
    + (* the tree releases: only while no copy is in flight *)
      assert (Hs : strict = true) by (destruct Hmode; [discriminate|assumption]). subst strict.
      pose proof (ci_own _ _ I k Hh) as Hl. fold o in Hl. rewrite Hk in Hl.
      eexists. split; [|apply ck_inv_release; [exact I|exact Hh|lia|cbn [negb orb] in E; lia]]. cbn [ck_run].
      rewrite (ck_step_release true h K_it_rel _ _ _ Hl); reflexivity.
    + (* the tree does not release: the object stays with the deleted item *)
      exists h. split; [reflexivity|].
      apply (ck_inv_keep s h k _ I); cbn [o_obj o_kind o_phase o_refs]; fold o; unfold holding; try reflexivity; lia.
Qed.

Lemma ck_run_lc_inv fr strict : (fr = false \/ strict = true) ->
  forall ls s h i es s', CkInv s h -> ck_run_lc fr strict s ls = Some (es, s') ->
  exists h', ck_run fr h i es = inl h' /\ CkInv s' h'.
Proof.
  intros Hmode. induction ls as [|l r IH]; intros s h i es s' I H; cbn [ck_run_lc] in H.
  - inversion H; subst. exists h. split; [reflexivity|exact I].
  - destruct (ck_step_lc fr strict s l) as [[es1 s1]|] eqn:E1; [|discriminate].
    destruct (ck_run_lc fr strict s1 r) as [[es2 s2]|] eqn:E2; [|discriminate].
    inversion H; subst; clear H.
    destruct (ck_step_inv fr strict s h l es1 s1 i Hmode I E1) as [h1 [R1 I1]].
    destruct (IH s1 h1 (i + Z.of_nat (List.length es1)) es2 s' I1 E2) as [h2 [R2 I2]].
    exists h2. split; [|exact I2]. rewrite ck_run_app, R1. exact R2.
Qed.

(* THE DISCIPLINE: every interleaving of any number of request writers, response writers,
   readers and mutated relay items -- any pool behaviour (which pooled object New returns),
   failures and timeouts at any point, any number of item copies in flight -- yields a trace
   in which every object is acquired while nobody holds it, used and released only by the
   life cycle that holds it at a site of that life cycle, and is held by nobody after its
   Release: no use after release, no second release, no sharing of a running CRC.
   On a tree whose finishRelayItem releases (fr = true) this needs [strict]: the item is not
   finished while a copy of it is in flight. *)
Theorem ck_discipline fr strict ls es s :
  (fr = false \/ strict = true) ->
  ck_run_lc fr strict ck_init ls = Some (es, s) -> ck_ok fr es = true.
Proof.
  intros Hmode H. unfold ck_ok.
  destruct (ck_run_lc_inv fr strict Hmode ls ck_init [] 0 es s ck_init_inv H) as [h' [R _]].
  rewrite R. reflexivity.
Qed.

(* ... and without that restriction the model of the pinned tree REFUTES it: the reader of
   the origin connection is still feeding the item's checksum (fragmentingSend, or the
   re-checksumming of a callReqContinue after items.Get) when the destination's response --
   handled by the reader of the destination connection -- finishes the item and releases
   the checksum: event 2 is an Add on an object nobody holds (code 3). *)
Theorem ck_discipline_refuted_by_overlap :
  exists ls es s, ck_run_lc true false ck_init ls = Some (es, s) /\
                  ck_run true [] 0 es = inr (2, 3).
Proof.
  exists [LNew 7 3 None; LItemFinish 7; LUse 7 K_wr_add]. eexists. eexists.
  split; vm_compute; reflexivity.
Qed.

Definition ck_rel_count (k : Z) (es : list ckev) : Z :=
  Z.of_nat (List.length (filter (fun e => (ce_op e =? 3) && (ce_owner e =? k)) es)).

Lemma ck_rel_count_app k a b : ck_rel_count k (a ++ b) = ck_rel_count k a + ck_rel_count k b.
Proof. unfold ck_rel_count. rewrite filter_app, app_length. lia. Qed.

(* a step emits a Release by k exactly when it takes k to phase 4, and no step leaves phase 4 *)
Lemma ck_step_rel fr strict s l es s' k :
  ck_step_lc fr strict s l = Some (es, s') ->
  ck_rel_count k es + (if o_phase (cs_own s k) =? 4 then 1 else 0) = (if o_phase (cs_own s' k) =? 4 then 1 else 0).
Proof.
  intros H. destruct l as [j kind pick|j site|j|j|j|j|j|j|j]; cbn [ck_step_lc] in H; cbv zeta in H;
    repeat match type of H with
           | (if ?c then _ else _) = Some _ => destruct c eqn:?
           | match ?p with Some _ => _ | None => _ end = Some _ => destruct p
           end; try discriminate H; inversion H; subst; clear H;
    unfold ck_rel_count, ck_upd, ck_use_op; cbn; destruct (Z.eqb_spec k j) as [->|];
    repeat match goal with |- context [if ?c then _ else _] => destruct c eqn:? end; cbn in *; lia.
Qed.

Lemma ck_run_rel fr strict k : forall ls s es s',
  ck_run_lc fr strict s ls = Some (es, s') ->
  ck_rel_count k es + (if o_phase (cs_own s k) =? 4 then 1 else 0) = (if o_phase (cs_own s' k) =? 4 then 1 else 0).
Proof.
  induction ls as [|l r IH]; intros s es s' H; cbn [ck_run_lc] in H.
  - inversion H; subst. reflexivity.
  - destruct (ck_step_lc fr strict s l) as [[es1 s1]|] eqn:E1; [|discriminate].
    destruct (ck_run_lc fr strict s1 r) as [[es2 s2]|] eqn:E2; [|discriminate].
    inversion H; subst; clear H. rewrite ck_rel_count_app.
    pose proof (ck_step_rel fr strict s l es1 s1 k E1) as A. pose proof (IH s1 es2 s' E2) as B. lia.
Qed.

(* released exactly once: in every run, a life cycle that completed (writer: last fragment
   finished; reader: doneReading; item: finished on a tree that releases) has exactly one
   Release event, any other life cycle has none *)
Theorem ck_released_once fr strict ls es s k :
  ck_run_lc fr strict ck_init ls = Some (es, s) ->
  ck_rel_count k es = if o_phase (cs_own s k) =? 4 then 1 else 0.
Proof. intros H. pose proof (ck_run_rel fr strict k ls ck_init es s H) as A. cbn in A. lia. Qed.

(* ------------------------------------------------------------------ model events name table rows *)

(* the event's site is a row of the table whose kind is the event's operation *)
Definition ck_ev_site_ok (fr : bool) (e : ckev) : bool :=
  match nth_error (ck_rows fr) (Z.to_nat (ce_site e - 1)) with
  | Some (_, kind, _, _) => (1 <=? ce_site e) && ck_list_eqb kind (ck_kind_name (ce_op e))
  | None => false
  end.

Lemma ck_compat_site_ok fr kind op site k x :
  ck_site_compat fr kind op site = true -> ck_ev_site_ok fr (mkCkev site op k x) = true.
Proof.
  unfold ck_site_compat. intros H.
  destruct ((kind =? 0) || (kind =? 1)); [| destruct (kind =? 2); [| destruct (kind =? 3); [|discriminate]]];
    repeat (rewrite ?orb_true_iff, ?andb_true_iff in H);
    (repeat match goal with
            | H : _ \/ _ |- _ => destruct H
            | H : _ /\ _ |- _ => destruct H
            end);
    repeat match goal with H : (_ =? _) = true |- _ => apply Z.eqb_eq in H end; subst;
    try destruct fr; try discriminate; vm_compute; reflexivity.
Qed.

Lemma ck_step_sites fr strict s l es s' :
  ck_step_lc fr strict s l = Some (es, s') -> forallb (ck_ev_site_ok fr) es = true.
Proof.
  intros H. destruct l as [j kind pick|j site|j|j|j|j|j|j|j]; cbn [ck_step_lc] in H; cbv zeta in H.
  (* all labels but LNew and LUse emit nothing, or events at fixed rows of the table *)
  3-9: (split_if H; destruct fr; inversion H; subst; clear H; vm_compute; reflexivity).
  - destruct ((0 <=? kind) && (kind <=? 3)) eqn:Ek; cbn [negb] in H; [|discriminate].
    destruct (negb _); [discriminate|].
    assert (Hs : forall x, ck_ev_site_ok fr (mkCkev (ck_new_site kind) 0 j x) = true).
    { intros x. assert (kind = 0 \/ kind = 1 \/ kind = 2 \/ kind = 3) as [E|[E|[E|E]]] by lia; subst kind;
        destruct fr; vm_compute; reflexivity. }
    destruct pick as [x|]; [destruct (ck_mem x (cs_free s)); [|discriminate]|];
      inversion H; subst; clear H; cbn [forallb]; rewrite Hs; reflexivity.
  - destruct (negb _); [discriminate|].
    destruct (ck_site_compat fr (o_kind (cs_own s j)) (ck_use_op fr site) site) eqn:Ec; cbn [negb] in H; [|discriminate].
    split_if H. inversion H; subst; clear H. cbn [forallb]. rewrite (ck_compat_site_ok _ _ _ _ _ _ Ec). reflexivity.
Qed.

Theorem ck_run_sites fr strict : forall ls s es s',
  ck_run_lc fr strict s ls = Some (es, s') -> forallb (ck_ev_site_ok fr) es = true.
Proof.
  induction ls as [|l r IH]; intros s es s' H; cbn [ck_run_lc] in H.
  - inversion H; subst. reflexivity.
  - destruct (ck_step_lc fr strict s l) as [[es1 s1]|] eqn:E1; [|discriminate].
    destruct (ck_run_lc fr strict s1 r) as [[es2 s2]|] eqn:E2; [|discriminate].
    inversion H; subst; clear H. rewrite forallb_app, (ck_step_sites _ _ _ _ _ _ E1), (IH _ _ _ E2). reflexivity.
Qed.

(* ------------------------------------------------------------------ non-vacuity *)

(* a run with every kind of life cycle, pool reuse (the reader and the second writer draw the
   objects released before them), a failed send in the middle of a re-fragmented request
   (LFail 3 while the copy held by handleCallReq is still in use), a continuation frame, and
   the finish of the item once no copy is in flight *)
Definition ck_sample_run (fr : bool) : list ck_label :=
  [ LNew 1 0 None; LUse 1 K_wr_add; LUse 1 K_wr_sum; LUse 1 K_wr_add; LWLast 1;
    LNew 2 2 (Some 1); LUse 2 K_rd_add; LUse 2 K_rd_sum; LRDone 2;
    LNew 3 3 (Some 1); LUse 3 (K_it_madd fr); LUse 3 K_wr_add; LUse 3 K_wr_sum; LSendLast 3; LItemPut 3;
    LItemGet 3; LUse 3 (K_it_cadd fr); LUse 3 (K_it_csum fr); LItemPut 3; LItemFinish 3;
    LNew 4 1 None; LUse 4 K_wr_add; LFail 4;
    LNew 5 3 None; LUse 5 K_wr_add; LFail 5; LUse 5 K_wr_add; LUse 5 K_wr_sum; LItemPut 5 ].

Definition ck_op_rows (fr : bool) : list Z :=
  map fst (filter (fun p : Z * ck_row =>
                     let '(_, (_, kind, _, _)) := p in
                     ck_list_eqb kind (ck_kind_name 0) || ck_list_eqb kind (ck_kind_name 1)
                     || ck_list_eqb kind (ck_kind_name 2) || ck_list_eqb kind (ck_kind_name 3))
                  (ck_site_table fr)).

(* the sample run is accepted by the strict model of both variants, satisfies the discipline,
   and its events cover every New / Add / Sum / Release row of the table outside checksum.go
   (rows 1-7 are the pool implementation itself) *)
Lemma ck_sample_ok fr :
  match ck_run_lc fr true ck_init (ck_sample_run fr) with
  | Some (es, _) =>
      ck_ok fr es = true /\
      forallb (fun row => (row <=? 7) || existsb (fun e => ce_site e =? row) es) (ck_op_rows fr) = true
  | None => False
  end.
Proof. destruct fr; vm_compute; split; reflexivity. Qed.
