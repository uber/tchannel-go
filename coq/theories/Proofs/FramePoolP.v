(* C01: every frame any FramePool implementation of the repository hands out has
   len(Payload) = MaxFramePayloadSize (and a 16-byte header in front of it), so the room
   reqResWriter.newFragment gives the fragmenting writer is the one the size theorem
   (FragWireP.frame_bytes_bound) assumes -- for every pool, every schedule. *)
From Coq Require Import ZArith List Bool Lia.
From Verif Require Import Base.Wrap Base.Bytes Gen.GenConsts Gen.GenFrame Gen.GenFrameSites Model.TypedBuf Model.Messages
  Model.Crc Model.Frag Model.FragWire Model.FramePool Spec.FragSpec Spec.FragOk Proofs.FragWireP.
Import ListNotations.
Local Open Scope Z_scope.

(* THE TIE: the tables regenerated from the source on this run satisfy the obligations.
   A NewFrame call with another argument, a new way of making or re-slicing a Frame, a
   write buffer over part of a Payload, or a pool whose Get / Release does something the
   model has no class for makes this computation return false. *)
Lemma frame_sites_ok_holds : frame_sites_ok = true.
Proof. vm_compute. reflexivity. Qed.

Lemma pool_impls_known : map (fun p => fst (fst (fst p))) pool_impls = known_pools.
Proof. vm_compute. reflexivity. Qed.

Definition good (s : shape) : Prop :=
  sh_payload s = c_MaxFramePayloadSize /\ sh_poff s = c_FrameHeaderSize /\
  sh_header s = c_FrameHeaderSize /\ sh_hoff s = 0 /\ sh_buffer s = c_MaxFrameSize.

(* a frame that is only read into can hold every legal frame *)
Definition roomy (s : shape) : Prop :=
  c_MaxFramePayloadSize <= sh_payload s /\ sh_poff s = c_FrameHeaderSize /\ sh_poff s + sh_payload s <= sh_buffer s.

Definition shape_ok (s : shape) : Prop := if sh_recvonly s then roomy s else good s.

Lemma new_frame_exact ro : new_frame c_MaxFramePayloadSize ro
  = Some (mkShape c_MaxFrameSize c_FrameHeaderSize c_MaxFramePayloadSize 0 c_FrameHeaderSize ro).
Proof. vm_compute. reflexivity. Qed.

Lemma new_frame_big v s : c_MaxFramePayloadSize <= v < 2 ^ 62 -> new_frame v true = Some s -> roomy s /\ sh_recvonly s = true.
Proof.
  intros Hv. unfold new_frame, NewFrame_buffer_len, NewFrame_payload_lo, NewFrame_payload_hi, NewFrame_header_lo,
    NewFrame_header_hi, NewFrame_buffer_len, slice_ok, c_FrameHeaderSize.
  assert (W : wrapS 64 (v + 16) = v + 16).
  { unfold c_MaxFramePayloadSize, c_MaxFrameSize, c_FrameHeaderSize in Hv. apply wrapS_id; lia. }
  rewrite W.
  destruct (v + 16 <? 0); [discriminate|].
  destruct (negb _); [discriminate|]. destruct (negb _); [discriminate|].
  intros E. inversion E; subst s; clear E. unfold roomy; cbn [sh_payload sh_poff sh_buffer sh_recvonly].
  unfold c_MaxFramePayloadSize, c_MaxFrameSize, c_FrameHeaderSize in *. lia.
Qed.

Lemma tables_ok : forallb site_ok newframe_sites = true /\ forallb pool_ok pool_impls = true.
Proof.
  pose proof frame_sites_ok_holds as H. unfold frame_sites_ok in H. rewrite !andb_true_iff in H. tauto.
Qed.

Lemma site_ok_shape nm v ro s : site_ok (nm, v, ro) = true -> new_frame v ro = Some s -> shape_ok s.
Proof.
  unfold site_ok. intros H E. apply orb_prop in H. destruct H as [H|H].
  - apply Z.eqb_eq in H. subst v. rewrite new_frame_exact in E. injection E as <-.
    unfold shape_ok, roomy, good; cbn [sh_recvonly sh_payload sh_poff sh_header sh_hoff sh_buffer].
    destruct ro; unfold c_MaxFramePayloadSize, c_MaxFrameSize, c_FrameHeaderSize; lia.
  - apply andb_prop in H. destruct H as [H Hc]. apply andb_prop in H. destruct H as [-> Hb].
    apply new_frame_big in E; [|lia]. destruct E as [R Hro]. unfold shape_ok. rewrite Hro. exact R.
Qed.

Lemma site_frame_ok i s : site_frame i = Some s -> shape_ok s.
Proof.
  unfold site_frame. destruct (nth_error newframe_sites i) as [[[nm v] ro]|] eqn:E; [|discriminate].
  apply site_ok_shape with (nm := nm). destruct tables_ok as [H _]. rewrite forallb_forall in H.
  exact (H _ (nth_error_In _ _ E)).
Qed.

Lemma pool_ok_of p nm gcls rcls mut : nth_error pool_impls p = Some (nm, gcls, rcls, mut) -> pool_ok (nm, gcls, rcls, mut) = true.
Proof.
  intros E. destruct tables_ok as [_ H]. rewrite forallb_forall in H. exact (H _ (nth_error_In _ _ E)).
Qed.

Definition winv (w : world) : Prop :=
  Forall shape_ok (w_live w) /\ Forall (fun qs => good (snd qs)) (w_store w) /\ Forall good (w_got w).

Lemma Forall_remove_nth {A} (P : A -> Prop) k l : Forall P l -> Forall P (remove_nth k l).
Proof.
  revert k. induction l as [|x r IH]; intros k H; [destruct k; exact H|].
  inversion H; subst. destruct k; cbn [remove_nth]; [assumption|]. constructor; [assumption|apply IH; assumption].
Qed.

Lemma Forall_nth_error {A} (P : A -> Prop) l k x : Forall P l -> nth_error l k = Some x -> P x.
Proof. intros H E. rewrite Forall_forall in H. exact (H _ (nth_error_In _ _ E)). Qed.

Lemma fresh_inv w k w' :
  winv w ->
  match site_frame k with
  | Some s => if sh_recvonly s then None else Some (mkWorld (s :: w_live w) (w_store w) (s :: w_got w))
  | None => None
  end = Some w' -> winv w'.
Proof.
  intros (Hl & Hs & Hg). destruct (site_frame k) as [s|] eqn:E; [|discriminate].
  pose proof (site_frame_ok _ _ E) as Hok. unfold shape_ok in Hok.
  destruct (sh_recvonly s) eqn:R; [discriminate|]. intros E2. inversion E2; subst w'; clear E2.
  unfold winv; cbn [w_live w_store w_got]. repeat split; [|assumption|]; constructor; try assumption.
  unfold shape_ok. rewrite R. exact Hok.
Qed.

Lemma pw_step_inv w e w' : winv w -> pw_step w e = Some w' -> winv w'.
Proof.
  intros Hinv. pose proof Hinv as (Hl & Hs & Hg). destruct e as [i|p cls k|p k kept]; cbn [pw_step].
  - destruct (site_frame i) as [s|] eqn:E; [|discriminate]. intros E2; inversion E2; subst w'; clear E2.
    unfold winv; cbn [w_live w_store w_got]. repeat split; try assumption. constructor; [exact (site_frame_ok _ _ E)|assumption].
  - destruct (nth_error pool_impls p) as [[[[nm gcls] rcls] mut]|] eqn:Ep; [|discriminate].
    destruct (cls =? 0).
    { destruct (zmem 0 gcls); [|discriminate]. apply fresh_inv; assumption. }
    destruct (cls =? 3).
    { destruct (zmem 2 gcls && _); [|discriminate]. apply fresh_inv; assumption. }
    destruct (((cls =? 1) || (cls =? 2)) && zmem cls gcls); [|discriminate].
    destruct (nth_error (w_store w) k) as [[q s]|] eqn:Es; [|discriminate].
    destruct (Nat.eqb q p); [|discriminate]. intros E2; inversion E2; subst w'; clear E2.
    pose proof (Forall_nth_error _ _ _ _ Hs Es) as Hgood. cbn [snd] in Hgood.
    unfold winv; cbn [w_live w_store w_got]. repeat split.
    + constructor; [|assumption]. unfold shape_ok. destruct (sh_recvonly s); [|exact Hgood].
      destruct Hgood as (A & B & C & D & E). unfold roomy. rewrite A, B, E.
      unfold c_MaxFramePayloadSize, c_MaxFrameSize, c_FrameHeaderSize. lia.
    + apply Forall_remove_nth; assumption.
    + constructor; assumption.
  - destruct (nth_error pool_impls p) as [[[[nm gcls] rcls] mut]|] eqn:Ep; [|discriminate].
    destruct (nth_error (w_live w) k) as [s|] eqn:El; [|discriminate].
    destruct (sh_recvonly s) eqn:R; [discriminate|].
    destruct (negb (forallb (Z.eqb 1) rcls)); [discriminate|].
    pose proof (pool_ok_of _ _ _ _ _ Ep) as Hp. unfold pool_ok in Hp.
    apply andb_prop in Hp. destruct Hp as [Hp Hmut].
    pose proof (Forall_nth_error _ _ _ _ Hl El) as Hok. unfold shape_ok in Hok. rewrite R in Hok.
    assert (Hlive : Forall shape_ok (if mut then remove_nth k (w_live w) else w_live w))
      by (destruct mut; [apply Forall_remove_nth|]; assumption).
    destruct (kept && negb match rcls with [] => true | _ :: _ => false end) eqn:K;
      intros E2; inversion E2; subst w'; clear E2; unfold winv; cbn [w_live w_store w_got]; repeat split; try assumption.
    constructor; [|assumption]. cbn [snd]. destruct mut; [|exact Hok].
    (* a pool whose Release clears the frame stores nothing *)
    exfalso. cbn [negb orb] in Hmut. destruct rcls; [|discriminate]. rewrite andb_false_r in K. discriminate.
Qed.

Lemma pw_run_inv evs : forall w w', winv w -> pw_run evs w = Some w' -> winv w'.
Proof.
  induction evs as [|e r IH]; intros w w' Hinv; cbn [pw_run].
  - intros E; inversion E; subst; assumption.
  - destruct (pw_step w e) as [w1|] eqn:E; [|discriminate]. apply IH. exact (pw_step_inv _ _ _ Hinv E).
Qed.

Lemma winv_init : winv pw_init.
Proof. unfold winv, pw_init; cbn; repeat split; constructor. Qed.

(* EVERY POOL, EVERY SCHEDULE: a frame returned by any FramePool.Get has a Payload of exactly
   MaxFramePayloadSize bytes behind a 16-byte header in a MaxFrameSize buffer *)
Theorem pool_frames_good : forall evs w s,
  pw_run evs pw_init = Some w -> In s (w_got w) ->
  sh_payload s = c_MaxFramePayloadSize /\ sh_poff s = c_FrameHeaderSize /\
  sh_header s = c_FrameHeaderSize /\ sh_hoff s = 0 /\ sh_buffer s = c_MaxFrameSize.
Proof.
  intros evs w s Hrun Hin. pose proof (pw_run_inv _ _ _ winv_init Hrun) as (_ & _ & Hg).
  rewrite Forall_forall in Hg. exact (Hg _ Hin).
Qed.

(* every frame anywhere in library code can hold a maximal legal frame *)
Theorem live_frames_roomy : forall evs w s,
  pw_run evs pw_init = Some w -> In s (w_live w) ->
  c_MaxFramePayloadSize <= sh_payload s /\ sh_poff s = c_FrameHeaderSize /\ sh_poff s + sh_payload s <= sh_buffer s.
Proof.
  intros evs w s Hrun Hin. pose proof (pw_run_inv _ _ _ winv_init Hrun) as (Hl & _ & _).
  rewrite Forall_forall in Hl. specialize (Hl _ Hin). unfold shape_ok in Hl.
  destruct (sh_recvonly s); [exact Hl|]. destruct Hl as (A & B & C & D & E). rewrite A, B, E.
  unfold c_MaxFramePayloadSize, c_MaxFrameSize, c_FrameHeaderSize. lia.
Qed.

(* the room newFragment leaves in such a frame is the capacity the size theorem is about *)
Lemma frame_room_capacity s msghdr ck :
  sh_payload s = c_MaxFramePayloadSize -> frame_room s (zlen msghdr) (ck_size ck) = frag_capacity msghdr ck.
Proof. intros H. unfold frame_room, frag_capacity. rewrite H. reflexivity. Qed.

(* CONNECTION TO THE SIZE THEOREM: whatever pool the frame came from, a fragment whose chunks
   fit the room of that frame is a frame of at most 65535 bytes; the 16-bit size that
   flushFragment stamps (Header.SetPayloadSize(uint16(BytesWritten))) is the number of bytes
   Frame.WriteOut writes (f.buffer[:size], inside the buffer), and the receiver's
   PayloadSize recovers the payload length *)
Theorem every_pool_frame_bytes : forall evs w s msghdr ck f,
  pw_run evs pw_init = Some w -> In s (w_got w) ->
  chunks_size (f_chunks f) <= frame_room s (zlen msghdr) (ck_size ck) -> zlen (f_ck f) = ck_size ck ->
  let n := zlen (enc_frag_payload msghdr f) in
  c_FrameHeaderSize + n <= c_MaxFrameSize /\
  SetPayloadSize (wrapU 16 n) = c_FrameHeaderSize + n /\
  SetPayloadSize (wrapU 16 n) <= sh_buffer s /\
  PayloadSize (SetPayloadSize (wrapU 16 n)) = n /\
  n <= sh_payload s.
Proof.
  intros evs w s msghdr ck f Hrun Hin Hroom Hck n.
  destruct (pool_frames_good _ _ _ Hrun Hin) as (A & B & C & D & E).
  rewrite (frame_room_capacity _ _ _ A) in Hroom.
  pose proof (frame_bytes_bound msghdr ck f Hroom Hck) as Hb. fold n in Hb.
  assert (Hn : 0 <= n) by (unfold n; apply zlen_nonneg).
  unfold SetPayloadSize, PayloadSize. rewrite A, E.
  unfold c_MaxFramePayloadSize, c_MaxFrameSize, c_FrameHeaderSize in *.
  rewrite (wrapU_id 16 n) by (change (2 ^ 16) with 65536; lia).
  rewrite (wrapU_id 16 (n + 16)) by (change (2 ^ 16) with 65536; lia).
  replace (n + 16 - 16) with n by lia.
  rewrite (wrapU_id 16 n) by (change (2 ^ 16) with 65536; lia). lia.
Qed.

(* why the tie matters: in a frame whose Payload were MaxFrameSize long (NewFrame(MaxFrameSize))
   a fragment that fills its room gets the size field 15 stamped for 65551 bytes *)
Lemma oversized_frame_wraps :
  new_frame c_MaxFrameSize false = Some (mkShape 65551 16 65535 0 16 false) /\
  SetPayloadSize (wrapU 16 65535) = 15.
Proof. vm_compute. split; reflexivity. Qed.
