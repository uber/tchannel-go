(* Proofs for property C05 (a): a receiver that gets only a proper prefix of a message
   never reports success and never hands out wrong data.
     Part 0  the reader's operations on any input: each is a sequence of a few guarded state
             changes ([rprim]); what its return code says; when it cannot panic
     Part 1  invariant MI (more-fragments flag still set): never Complete
     Part 2  simulation of the cut run by the full run, and back: data is a prefix of the right
             argument; fragments that follow never alter an outcome
     Part 3  byte level: a stream cut at byte offset n delivers exactly the frames that are
             completely contained in the first n bytes *)
From Coq Require Import ZArith List Bool Lia.
From Verif Require Import Base.Wrap Base.Bytes Base.Wire Gen.GenConsts Gen.GenFrame Model.TypedBuf Model.Messages
  Model.Crc Model.Frag Model.FragWire Model.Cut Spec.FragSpec Spec.FragOk Spec.Protocol
  Proofs.CodecP Proofs.FrameP Proofs.FragWireP Proofs.FragRP.
Import ListNotations.
Local Open Scope Z_scope.

(* Part 0: the reader's operations on arbitrary input *)
Definition all_more (fs : list frag) : Prop := Forall (fun f => f_more f = true) fs.

(* ChecksumType.New() of the first fragment cannot panic *)
Definition ck_safe (st : rst) : Prop :=
  match rs_ck st with
  | Some _ => True
  | None => match rs_in st with f :: _ => ck_new (f_ctype f) <> None | [] => True end
  end.

Definition fsum (fs : list frag) : Z := fold_right (fun f a => lsum (f_chunks f) + a) 0 fs.

Lemma total_bytes_eq st : total_bytes st = zlen (rs_cur st) + lsum (rs_rem st) + fsum (rs_in st).
Proof. reflexivity. Qed.

Lemma lsum_nonneg t : 0 <= lsum t.
Proof. induction t as [|c t IH]; cbn [lsum fold_right]; [lia|]. fold (lsum t). pose proof (zlen_nonneg c). lia. Qed.

Lemma fsum_nonneg fs : 0 <= fsum fs.
Proof. induction fs as [|f r IH]; cbn [fsum fold_right]; [lia|]. fold (fsum r). pose proof (lsum_nonneg (f_chunks f)). lia. Qed.

Lemma lsum_cons c t : lsum (c :: t) = zlen c + lsum t.
Proof. reflexivity. Qed.
Lemma fsum_cons f r : fsum (f :: r) = lsum (f_chunks f) + fsum r.
Proof. reflexivity. Qed.

Lemma total_bytes_nonneg st : 0 <= total_bytes st.
Proof.
  rewrite total_bytes_eq. pose proof (zlen_nonneg (rs_cur st)). pose proof (lsum_nonneg (rs_rem st)).
  pose proof (fsum_nonneg (rs_in st)). lia.
Qed.

Lemma recv_err s : rs_err s <> 0 -> r_recv s = Some (rs_err s, s).
Proof. intros H. unfold r_recv. replace (negb (rs_err s =? 0)) with true by lia. reflexivity. Qed.

Lemma recv_eff s c s' : r_recv s = Some (c, s') ->
  rs_state s' = rs_state s /\ (length (rs_in s') <= length (rs_in s))%nat /\ total_bytes s' <= total_bytes s /\
  (ck_safe s -> ck_safe s') /\
  (rs_more s = true -> all_more (rs_in s) -> rs_more s' = true /\ all_more (rs_in s')) /\
  (rs_err s = 0 -> (rs_in s <> [] -> (length (rs_in s') < length (rs_in s))%nat) /\
                   ((c = 0 /\ rs_err s' = 0 /\ rs_in s <> []) \/ (is_err c /\ rs_err s' = c))).
Proof.
  destruct (Z.eq_dec (rs_err s) 0) as [He|He].
  2:{ rewrite (recv_err s He). intros H. injection H as <- <-. repeat split; try lia; tauto. }
  intros R. unfold r_recv in R. rewrite He in R. cbn [Z.eqb negb] in R. revert R.
  pose proof (zlen_nonneg (rs_cur s)) as Zc. pose proof (lsum_nonneg (rs_rem s)) as Zr.
  assert (S : forall x, rs_ck x <> None -> ck_safe x) by (intros x; unfold ck_safe; destruct (rs_ck x); [auto|congruence]).
  assert (E9 : is_err 9 /\ is_err 7 /\ is_err 8 /\ is_err 13) by (unfold is_err; lia).
  rewrite (total_bytes_eq s). destruct (rs_in s) as [|f rest] eqn:Ei.
  { intros H. injection H as <- <-. rewrite total_bytes_eq. prj. split; [reflexivity|]. split; [lia|]. split; [lia|].
    split; [intros _; unfold ck_safe; prj; destruct (rs_ck s); exact I|]. split; [auto|]. intros _. split; [congruence|].
    right. split; [apply E9|reflexivity]. }
  pose proof (fsum_nonneg rest) as Zf. pose proof (lsum_nonneg (f_chunks f)) as Zl. rewrite fsum_cons.
  (* every outcome on a fragment [f]: it is consumed, the checksum object exists from now on *)
  assert (Leaf : forall c x, rs_state x = rs_state s -> rs_in x = rest -> rs_ck x <> None ->
            zlen (rs_cur x) + lsum (rs_rem x) <= zlen (rs_cur s) + lsum (rs_rem s) + lsum (f_chunks f) ->
            rs_more x = rs_more s \/ rs_more x = f_more f ->
            (c = 0 /\ rs_err x = 0) \/ (is_err c /\ rs_err x = c) ->
            rs_state x = rs_state s /\ (length (rs_in x) <= length (f :: rest))%nat /\
            total_bytes x <= zlen (rs_cur s) + lsum (rs_rem s) + (lsum (f_chunks f) + fsum rest) /\
            (ck_safe s -> ck_safe x) /\
            (rs_more s = true -> all_more (f :: rest) -> rs_more x = true /\ all_more (rs_in x)) /\
            (rs_err s = 0 -> (f :: rest <> [] -> (length (rs_in x) < length (f :: rest))%nat) /\
                             ((c = 0 /\ rs_err x = 0 /\ f :: rest <> []) \/ (is_err c /\ rs_err x = c)))).
  { intros c1 x Hs Hi Hk Ht Hm Hc. rewrite total_bytes_eq, Hi. cbn [length].
    split; [exact Hs|]. split; [lia|]. split; [lia|]. split; [intros _; apply S, Hk|]. split.
    - intros Hm1 Ha. split; [|exact (Forall_inv_tail Ha)]. destruct Hm as [->| ->]; [exact Hm1|exact (Forall_inv Ha)].
    - intros _. split; [intros _; lia|]. destruct Hc as [[-> Hc]|Hc]; [left; repeat split; [exact Hc|discriminate]|right; exact Hc]. }
  destruct (match rs_ck s with Some c0 => Some c0 | None => ck_new (f_ctype f) end) as [c0|]; [|discriminate].
  destruct (negb (ck_typecode c0 =? f_ctype f) && match rs_ck s with Some _ => true | None => false end).
  { intros H. injection H as <- <-. unfold rset_err. apply Leaf; prj; auto; [discriminate|lia|right; split; [apply E9|reflexivity]]. }
  destruct (negb (bytes_eqb (f_ck f) (ck_sum (fold_left ck_add (f_chunks f) c0)))).
  { intros H. injection H as <- <-. unfold rset_err. apply Leaf; prj; auto; [discriminate|change (lsum []) with 0; lia|right; split; [apply E9|reflexivity]]. }
  destruct (f_chunks f) as [|ch chs] eqn:Ech.
  { intros H. injection H as <- <-. unfold rset_err. apply Leaf; prj; auto; [discriminate|change (lsum []) with 0; lia|right; split; [apply E9|reflexivity]]. }
  intros H. injection H as <- <-. apply Leaf; prj; auto; [discriminate|rewrite lsum_cons; lia].
Qed.

Lemma recv_total s : ck_safe s -> r_recv s <> None.
Proof.
  unfold ck_safe, r_recv. destruct (negb (rs_err s =? 0)); [discriminate|]. destruct (rs_in s) as [|f rest]; [discriminate|].
  intros H. assert (E : exists c, match rs_ck s with Some c => Some c | None => ck_new (f_ctype f) end = Some c).
  { destruct (rs_ck s) as [c|]; [eauto|]. destruct (ck_new (f_ctype f)) as [c|]; [eauto|congruence]. }
  destruct E as [c ->]. destruct (negb (ck_typecode c =? f_ctype f) && _); [discriminate|].
  destruct (negb (bytes_eqb _ _)); [discriminate|]. destruct (f_chunks f); discriminate.
Qed.

(* the state changes the operations are composed of, each under the tests that guard it in
   Frag.v; an invariant of these is an invariant of every operation.  Begin's first receive and
   its move out of Start are one change ([P_first]): in between, the reader would be at Start
   with the more-fragments flag of the first fragment, which may be clear *)
Definition mid (z : Z) : Prop := z <> c_fragmentingReadStart /\ z <> c_fragmentingReadComplete.

Inductive rprim : rst -> rst -> Prop :=
| P_err s e : e <> 0 -> rprim s (rset_err s e)
| P_first s c s' st : rs_err s = 0 -> rs_state s = c_fragmentingReadStart -> mid st -> r_recv s = Some (c, s') ->
    rprim s (if c =? 0 then mkRst st 0 (rs_rem s') (rs_cur s') (rs_more s') (rs_in s') (rs_ck s') (rs_got s') (rs_rel s') (rs_fin s')
             else s')
| P_recv s c s' : rs_err s = 0 -> mid (rs_state s) -> rs_more s = true -> r_recv s = Some (c, s') -> rprim s s'
| P_skip s k : rprim s (mkRst (rs_state s) (rs_err s) (rs_rem s) (skipn k (rs_cur s)) (rs_more s) (rs_in s)
                              (rs_ck s) (rs_got s) (rs_rel s) (rs_fin s))
| P_state s st : rs_err s = 0 -> mid st ->
    rprim s (mkRst st 0 (rs_rem s) (rs_cur s) (rs_more s) (rs_in s) (rs_ck s) (rs_got s) (rs_rel s) (rs_fin s))
| P_chunk s ch chs : rs_err s = 0 -> rs_rem s = ch :: chs ->
    rprim s (mkRst (rs_state s) 0 chs ch (rs_more s) (rs_in s) (rs_ck s) (rs_got s) (rs_rel s) (rs_fin s))
| P_complete s : rs_err s = 0 -> rs_more s = false ->
    rprim s (mkRst c_fragmentingReadComplete 0 [] [] false (rs_in s) (rs_ck s) (rs_got s) (rs_got s) true).

Inductive rsteps : rst -> rst -> Prop :=
| steps_refl s : rsteps s s
| steps_one s s' : rprim s s' -> rsteps s s'
| steps_trans s1 s2 s3 : rsteps s1 s2 -> rsteps s2 s3 -> rsteps s1 s3.

Lemma rsteps_inv (P : rst -> Prop) : (forall s s', rprim s s' -> P s -> P s') -> forall s s', rsteps s s' -> P s -> P s'.
Proof. intros H s s' R. induction R; eauto. Qed.

Lemma zlen_firstn_skipn {A} m (l : list A) : zlen (firstn m l) + zlen (skipn m l) = zlen l.
Proof. rewrite <- zlen_app, firstn_skipn. reflexivity. Qed.

Lemma prim_len s s' : rprim s s' -> (length (rs_in s') <= length (rs_in s))%nat /\ total_bytes s' <= total_bytes s.
Proof.
  intros [s0 e _|s0 c s1 st _ _ _ R|s0 c s1 _ _ _ R|s0 k|s0 st _ _|s0 ch chs _ E|s0 _ _]; unfold rset_err; rewrite ?total_bytes_eq; prj; try lia;
    pose proof (zlen_nonneg (rs_cur s0)); pose proof (lsum_nonneg (rs_rem s0)).
  - destruct (recv_eff _ _ _ R) as (_ & L & T & _). rewrite !total_bytes_eq in T. destruct (c =? 0); rewrite ?total_bytes_eq; prj; lia.
  - destruct (recv_eff _ _ _ R) as (_ & L & T & _). rewrite !total_bytes_eq in T. lia.
  - pose proof (zlen_firstn_skipn k (rs_cur s0)). pose proof (zlen_nonneg (firstn k (rs_cur s0))). lia.
  - rewrite E, lsum_cons in *. lia.
  - change (zlen (@nil Z)) with 0. change (lsum []) with 0. lia.
Qed.

Lemma steps_len s s' : rsteps s s' -> (length (rs_in s') <= length (rs_in s))%nat /\ total_bytes s' <= total_bytes s.
Proof.
  intros R. refine (rsteps_inv (fun x => (length (rs_in x) <= length (rs_in s))%nat /\ total_bytes x <= total_bytes s) _ s s' R _); [|lia].
  intros a b Hp. pose proof (prim_len a b Hp). lia.
Qed.

Lemma steps_safe s s' : rsteps s s' -> ck_safe s -> ck_safe s'.
Proof.
  apply rsteps_inv. intros a b [s0 e _|s0 c s1 st _ _ _ R|s0 c s1 _ _ _ R|s0 k|s0 st _ _|s0 ch chs _ E|s0 _ _] H; try exact H;
    pose proof (proj1 (proj2 (proj2 (proj2 (recv_eff _ _ _ R)))) H) as H1; [destruct (c =? 0)|]; exact H1.
Qed.

Lemma steps_err s e : e <> 0 -> rsteps s (rset_err s e).
Proof. intros H. apply steps_one, P_err, H. Qed.

Lemma arg_state_mid last : mid (arg_state last).
Proof. destruct last; split; discriminate. Qed.

Lemma reading_mid s : is_reading s = true -> mid s.
Proof.
  unfold mid, is_reading, c_fragmentingReadInArgument, c_fragmentingReadInLastArgument, c_fragmentingReadStart, c_fragmentingReadComplete.
  intros H. lia.
Qed.

Lemma begin_err last s : rs_err s <> 0 -> r_begin last s = Some (rs_err s, s).
Proof. intros H. unfold r_begin. replace (negb (rs_err s =? 0)) with true by lia. reflexivity. Qed.

Lemma begin_eff last s c s' : r_begin last s = Some (c, s') ->
  rsteps s s' /\ (rs_err s = 0 -> (c = 0 /\ rs_err s' = 0 /\ rs_state s' = arg_state last) \/ (is_err c /\ rs_err s' = c)).
Proof.
  unfold r_begin. destruct (negb (rs_err s =? 0)) eqn:Ee; [intros H; injection H as <- <-; split; [apply steps_refl|lia]|].
  assert (He : rs_err s = 0) by lia. unfold is_err.
  destruct (is_reading (rs_state s)); [intros H; injection H as <- <-; split; [apply steps_err; discriminate|right; split; [split; discriminate|reflexivity]]|].
  destruct (rs_state s =? c_fragmentingReadComplete) eqn:Ec; [intros H; injection H as <- <-; split; [apply steps_err; discriminate|right; split; [split; discriminate|reflexivity]]|].
  assert (G : forall x, rs_err x = 0 ->
    rsteps x (mkRst (if last then c_fragmentingReadInLastArgument else c_fragmentingReadInArgument) 0
                (rs_rem x) (rs_cur x) (rs_more x) (rs_in x) (rs_ck x) (rs_got x) (rs_rel x) (rs_fin x))).
  { intros x Hx. apply steps_one, P_state; [exact Hx|apply (arg_state_mid last)]. }
  destruct (rs_state s =? c_fragmentingReadStart) eqn:Es.
  - destruct (r_recv s) as [[c2 s2]|] eqn:R; [|discriminate].
    destruct (recv_eff _ _ _ R) as (_ & _ & _ & _ & _ & C). destruct (C He) as [_ C']; clear C; rename C' into C.
    pose proof (steps_one _ _ (P_first s c2 s2 _ He ltac:(lia) (arg_state_mid last) R)) as P.
    destruct (c2 =? 0) eqn:E2; intros H; injection H as <- <-; (split; [exact P|]); intros _.
    + destruct C as [(_ & C & _)|[[C _] _]]; [|lia]. left. auto.
    + destruct C as [(C & _)|C]; [lia|right; exact C].
  - intros H; injection H as <- <-. split; [exact (G _ He)|]. intros _. left. auto.
Qed.

Lemma begin_total last s : ck_safe s -> r_begin last s <> None.
Proof.
  intros H. unfold r_begin. destruct (negb _); [discriminate|]. destruct (is_reading _); [discriminate|].
  destruct (_ =? c_fragmentingReadComplete); [discriminate|]. destruct (_ =? c_fragmentingReadStart); [|discriminate].
  pose proof (recv_total s H). destruct (r_recv s) as [[c s1]|]; [|congruence]. destruct (c =? 0); discriminate.
Qed.

Lemma read_loop_eff : forall fuel n acc s bs c s', rs_err s = 0 -> mid (rs_state s) ->
  (length (rs_in s) < fuel)%nat -> r_read_loop fuel n acc s = Some (bs, c, s') ->
  rsteps s s' /\ rs_state s' = rs_state s /\ exists got, bs = acc ++ got /\
    ((c = 0 /\ rs_err s' = 0 /\ (0 <= n -> zlen got = n /\ total_bytes s' + n <= total_bytes s)) \/
     (c = 12 /\ rs_err s' = 0 /\ (0 <= n -> at_eof s')) \/
     (is_err c /\ rs_err s' = c)).
Proof.
  induction fuel as [|fuel IH]; intros n acc s bs c s' He Hs Hf; [lia|].
  cbn [r_read_loop]. set (k := Z.min n (zlen (rs_cur s))).
  set (got := firstn (Z.to_nat k) (rs_cur s)).
  set (s1 := mkRst (rs_state s) (rs_err s) (rs_rem s) (skipn (Z.to_nat k) (rs_cur s)) (rs_more s)
                   (rs_in s) (rs_ck s) (rs_got s) (rs_rel s) (rs_fin s)).
  assert (P1 : rsteps s s1) by apply steps_one, P_skip.
  assert (T1 : total_bytes s1 + zlen got = total_bytes s).
  { rewrite !total_bytes_eq. unfold s1, got. prj. pose proof (zlen_firstn_skipn (Z.to_nat k) (rs_cur s)). lia. }
  pose proof (zlen_nonneg (rs_cur s)) as Zc.
  assert (G : 0 <= n -> zlen got = k /\ (n - k <> 0 -> rs_cur s1 = [] /\ 0 <= n - k)).
  { intros H0. unfold got, s1, zlen in *. prj. rewrite firstn_length. split; [lia|]. intros H1. split; [|lia]. apply skipn_all2. lia. }
  destruct (n - k =? 0) eqn:Enk.
  { intros H; injection H as <- <- <-. split; [exact P1|]. split; [reflexivity|]. exists got. split; [reflexivity|].
    left. split; [reflexivity|]. split; [exact He|]. intros H0. destruct (G H0). lia. }
  destruct (rs_rem s1) as [|rc rcs] eqn:Er.
  2:{ intros H; injection H as <- <- <-. split; [exact P1|]. split; [reflexivity|]. exists got. split; [reflexivity|].
      right; left. split; [reflexivity|]. split; [exact He|]. intros H0. destruct (G H0) as (_ & G1). destruct G1 as (Hc & _); [lia|].
      split; [exact Hc|]. left. rewrite Er. discriminate. }
  destruct (negb (rs_more s1)) eqn:Em.
  { intros H; injection H as <- <- <-. split; [exact P1|]. split; [reflexivity|]. exists got. split; [reflexivity|].
    right; left. split; [reflexivity|]. split; [exact He|]. intros H0. destruct (G H0) as (_ & G1). destruct G1 as (Hc & _); [lia|].
    split; [exact Hc|]. right. destruct (rs_more s1); [discriminate|reflexivity]. }
  destruct (r_recv s1) as [[c2 s2]|] eqn:R; [|discriminate].
  destruct (recv_eff _ _ _ R) as (S2 & L2 & T2 & _ & _ & C). destruct (C He) as [Cl C']; clear C; rename C' into C.
  assert (P2 : rsteps s s2).
  { apply (steps_trans _ _ _ P1), steps_one, (P_recv s1 c2); [exact He|exact Hs|destruct (rs_more s1); [reflexivity|discriminate]|exact R]. }
  destruct (c2 =? 0) eqn:Ec.
  - destruct C as [(_ & He2 & Ll2)|[[C _] _]]; [|lia]. apply Cl in Ll2. intros H.
    destruct (IH _ _ _ _ _ _ He2 ltac:(rewrite S2; exact Hs) ltac:(unfold s1 in Ll2; prj_in Ll2; lia) H) as (P' & S' & more & -> & C').
    split; [exact (steps_trans _ _ _ P2 P')|]. split; [rewrite S', S2; reflexivity|].
    exists (got ++ more). split; [rewrite app_assoc; reflexivity|]. rewrite zlen_app.
    destruct C' as [(C1 & C2 & C3)|[(C1 & C2 & C3)|C']].
    + left. split; [exact C1|]. split; [exact C2|]. intros H0. destruct (G H0) as (Hg & G1). destruct G1 as (_ & Hn); [lia|]. specialize (C3 Hn). lia.
    + right; left. split; [exact C1|]. split; [exact C2|]. intros H0. destruct (G H0) as (Hg & G1). destruct G1 as (_ & Hn); [lia|]. exact (C3 Hn).
    + right; right. exact C'.
  - intros H; injection H as <- <- <-. split; [exact P2|]. split; [exact S2|]. exists got. split; [reflexivity|].
    right; right. destruct C as [(C & _)|C]; [lia|exact C].
Qed.

Lemma read_err n s : rs_err s <> 0 -> r_read n s = Some ([], rs_err s, s).
Proof. intros H. unfold r_read. replace (negb (rs_err s =? 0)) with true by lia. reflexivity. Qed.

Lemma read_eff n s bs c s' : r_read n s = Some (bs, c, s') ->
  rsteps s s' /\ rs_state s' = rs_state s /\
  (rs_err s = 0 ->
     (c = 0 /\ rs_err s' = 0 /\ (0 <= n -> zlen bs = n /\ total_bytes s' + n <= total_bytes s)) \/
     (c = 12 /\ rs_err s' = 0 /\ is_reading (rs_state s) = true /\ (0 <= n -> at_eof s')) \/
     (is_err c /\ rs_err s' = c)).
Proof.
  unfold r_read. destruct (negb (rs_err s =? 0)) eqn:Ee; [intros H; injection H as <- <- <-; split; [apply steps_refl|split; [reflexivity|lia]]|].
  destruct (negb (is_reading (rs_state s))) eqn:Er.
  { intros H; injection H as <- <- <-. split; [apply steps_err; discriminate|]. split; [reflexivity|]. intros _. right; right. split; [split; discriminate|reflexivity]. }
  assert (Hr : is_reading (rs_state s) = true) by (destruct (is_reading (rs_state s)); [reflexivity|discriminate]).
  assert (He : rs_err s = 0) by lia.
  intros H. destruct (read_loop_eff _ _ _ _ _ _ _ He (reading_mid _ Hr) (Nat.lt_succ_diag_r _) H) as (P & S & got & -> & C).
  split; [exact P|]. split; [exact S|]. intros _. cbn [app]. destruct C as [C|[(C1 & C2 & C3)|C]]; [left; exact C|right; left; auto|right; right; exact C].
Qed.

Lemma read_loop_total : forall fuel n acc s, ck_safe s -> r_read_loop fuel n acc s <> None.
Proof.
  induction fuel as [|fuel IH]; intros n acc s H; cbn [r_read_loop]; prj;
    (destruct (_ - _ =? 0); [discriminate|]); (destruct (rs_rem s); [|discriminate]); (destruct (negb (rs_more s)); [discriminate|]); [discriminate|].
  match goal with |- match r_recv ?x with _ => _ end <> _ => pose proof (recv_total x H) as T; destruct (r_recv x) as [[c2 s2]|] eqn:R end; [|congruence].
  destruct (c2 =? 0); [|discriminate]. apply IH. exact (proj1 (proj2 (proj2 (proj2 (recv_eff _ _ _ R)))) H).
Qed.

Lemma read_total n s : ck_safe s -> r_read n s <> None.
Proof. intros H. unfold r_read. destruct (negb _); [discriminate|]. destruct (negb _); [discriminate|]. apply read_loop_total, H. Qed.

Lemma close_next_eff : forall fuel s c s', rs_err s = 0 -> mid (rs_state s) ->
  (length (rs_in s) < fuel)%nat -> r_close_next fuel s = Some (c, s') ->
  rsteps s s' /\ rs_state s' = rs_state s /\ ((c = 0 /\ rs_err s' = 0) \/ (is_err c /\ rs_err s' = c)).
Proof.
  induction fuel as [|fuel IH]; intros s c s' He Hs Hf; [lia|]. cbn [r_close_next]. unfold is_err.
  destruct (rs_rem s) as [|ch chs] eqn:Er.
  2:{ intros H; injection H as <- <-. split; [exact (steps_one _ _ (P_chunk s ch chs He Er))|]. split; [reflexivity|]. left. auto. }
  destruct (negb (rs_more s)) eqn:Em.
  { intros H; injection H as <- <-. split; [apply steps_err; discriminate|]. split; [reflexivity|]. right. split; [split; discriminate|reflexivity]. }
  destruct (r_recv s) as [[c2 s2]|] eqn:R; [|discriminate].
  destruct (recv_eff _ _ _ R) as (S2 & L2 & _ & _ & _ & C). destruct (C He) as [Cl C']; clear C; rename C' into C.
  assert (P2 : rsteps s s2).
  { apply steps_one, (P_recv s c2); [exact He|exact Hs|destruct (rs_more s); [reflexivity|discriminate]|exact R]. }
  destruct (negb (c2 =? 0)) eqn:Ec.
  { intros H; injection H as <- <-. split; [exact P2|]. split; [exact S2|]. right. destruct C as [(C & _)|C]; [lia|exact C]. }
  destruct C as [(_ & He2 & Ll2)|[[C _] _]]; [|lia]. apply Cl in Ll2.
  destruct (zlen (rs_cur s2) >? 0).
  { intros H; injection H as <- <-. split; [apply (steps_trans _ _ _ P2), steps_err; discriminate|]. split; [exact S2|]. right. split; [split; discriminate|reflexivity]. }
  intros H. destruct (IH _ _ _ He2 ltac:(rewrite S2; exact Hs) ltac:(lia) H) as (P' & S' & C').
  split; [exact (steps_trans _ _ _ P2 P')|]. split; [congruence|exact C'].
Qed.

Lemma close_err s : rs_err s <> 0 -> r_close s = Some (rs_err s, s).
Proof. intros H. unfold r_close. replace (negb (rs_err s =? 0)) with true by lia. reflexivity. Qed.

Lemma close_eff s c s' : r_close s = Some (c, s') ->
  rsteps s s' /\
  (rs_err s = 0 -> (c = 0 /\ rs_err s' = 0 /\ (rs_state s = c_fragmentingReadInLastArgument -> rs_state s' = c_fragmentingReadComplete)) \/
                   (is_err c /\ rs_err s' = c)).
Proof.
  unfold r_close. destruct (negb (rs_err s =? 0)) eqn:Ee; [intros H; injection H as <- <-; split; [apply steps_refl|lia]|].
  assert (He : rs_err s = 0) by lia.
  assert (E : forall e, e <> 0 -> e <> 12 -> Some (e, rset_err s e) = Some (c, s') ->
    rsteps s s' /\ (rs_err s = 0 -> (c = 0 /\ rs_err s' = 0 /\ (rs_state s = c_fragmentingReadInLastArgument -> rs_state s' = c_fragmentingReadComplete)) \/
                                     (is_err c /\ rs_err s' = c))).
  { intros e H0 H12 H. injection H as <- <-. split; [apply steps_err, H0|]. intros _. right. split; [split; assumption|reflexivity]. }
  destruct (negb (is_reading (rs_state s))) eqn:Er; [apply E; lia|].
  destruct (zlen (rs_cur s) >? 0); [apply E; lia|].
  destruct (rs_state s =? c_fragmentingReadInLastArgument) eqn:El.
  - destruct (rs_rem s); [|apply E; lia]. destruct (rs_more s) eqn:Em; [apply E; lia|].
    intros H; injection H as <- <-. split; [exact (steps_one _ _ (P_complete s He Em))|]. intros _. left. auto.
  - set (s1 := mkRst c_fragmentingReadWaitingForArgument 0 (rs_rem s) (rs_cur s) (rs_more s) (rs_in s) (rs_ck s)
                     (rs_got s) (rs_rel s) (rs_fin s)).
    intros H. assert (Hs1 : mid (rs_state s1)) by (split; discriminate).
    destruct (close_next_eff _ s1 _ _ eq_refl Hs1 (Nat.lt_succ_diag_r _) H) as (P & S & C).
    split; [exact (steps_trans _ _ _ (steps_one _ _ (P_state s _ He Hs1)) P)|].
    intros _. destruct C as [(C1 & C2)|C]; [left|right; exact C]. split; [exact C1|]. split; [exact C2|]. lia.
Qed.

Lemma close_next_total : forall fuel s, ck_safe s -> r_close_next fuel s <> None.
Proof.
  induction fuel as [|fuel IH]; intros s H; cbn [r_close_next];
    (destruct (rs_rem s); [|discriminate]); (destruct (negb (rs_more s)); [discriminate|]); [discriminate|].
  pose proof (recv_total s H) as T. destruct (r_recv s) as [[c2 s2]|] eqn:R; [|congruence].
  destruct (negb (c2 =? 0)); [discriminate|]. destruct (_ >? 0); [discriminate|].
  apply IH. exact (proj1 (proj2 (proj2 (proj2 (recv_eff _ _ _ R)))) H).
Qed.

Lemma close_total s : ck_safe s -> r_close s <> None.
Proof.
  intros H. unfold r_close. destruct (negb _); [discriminate|]. destruct (negb _); [discriminate|]. destruct (_ >? 0); [discriminate|].
  destruct (_ =? _); [destruct (rs_rem s); [destruct (rs_more s)|]; discriminate|]. apply close_next_total, H.
Qed.

Lemma readall_eff bufsz : forall fuel acc s bs c s', r_readall fuel bufsz acc s = Some (bs, c, s') ->
  rsteps s s' /\ rs_state s' = rs_state s /\
  (0 < bufsz -> rs_err s = 0 -> total_bytes s < Z.of_nat fuel ->
   (c = 0 /\ rs_err s' = 0 /\ at_eof s' /\ is_reading (rs_state s') = true) \/ (is_err c /\ rs_err s' = c)).
Proof.
  induction fuel as [|fuel IH]; intros acc s bs c s'; cbn [r_readall].
  { intros H; injection H as _ _ <-. split; [apply steps_refl|]. split; [reflexivity|]. pose proof (total_bytes_nonneg s); lia. }
  destruct (r_read bufsz s) as [[[bs1 c1] s1]|] eqn:R; [|discriminate].
  destruct (read_eff _ _ _ _ _ R) as (P1 & S1 & C). destruct (c1 =? 0) eqn:E0.
  - intros H. destruct (IH _ _ _ _ _ H) as (P' & S' & C').
    split; [exact (steps_trans _ _ _ P1 P')|]. split; [congruence|]. intros Hb He Hf.
    destruct (C He) as [(_ & C2 & C3)|[(C1 & _)|[[C1 _] _]]]; [|lia..]. apply (C' Hb C2). specialize (C3 ltac:(lia)). lia.
  - assert (Hc : (if c1 =? 12 then Some (acc ++ bs1, 0, s1) else Some (acc ++ bs1, c1, s1)) = Some (bs, c, s') ->
                 s' = s1 /\ c = (if c1 =? 12 then 0 else c1)) by (destruct (c1 =? 12); intros H; injection H as _ <- <-; auto).
    intros H. destruct (Hc H) as [-> ->]. split; [exact P1|]. split; [exact S1|]. intros Hb He _.
    destruct (C He) as [(C1 & _)|[(-> & C2 & C3 & C4)|C']]; [lia| |].
    + left. split; [reflexivity|]. split; [exact C2|]. split; [apply C4; lia|congruence].
    + right. replace (c1 =? 12) with false by (destruct C' as [[? ?] _]; lia). exact C'.
Qed.

(* EnsureEmpty after ReadAll: a read at EOF hands out nothing *)
Lemma read_at_eof n s : rs_err s = 0 -> is_reading (rs_state s) = true -> at_eof s -> 0 < n ->
  r_read n s = Some ([], 12, s).
Proof.
  intros He Hr [Hc Hm] Hn. destruct s as [st e rem cur more inn ck got rel fin]. prj_all. subst e cur.
  unfold r_read. prj. rewrite Hr. cbn [Z.eqb negb r_read_loop]. prj.
  change (zlen (@nil Z)) with 0. replace (Z.min n 0) with 0 by lia. cbn [Z.to_nat firstn skipn app].
  replace (n - 0 =? 0) with false by lia.
  destruct rem as [|rc rcs]; [|reflexivity]. destruct Hm as [Hm|Hm]; [congruence|]. subst more. reflexivity.
Qed.

(* EnsureEmpty (one more read) and Close *)
Definition helper_tail (bs : list Z) (s1 : rst) : option (list Z * Z * rst) :=
  match r_read 128 s1 with
  | None => None
  | Some (extra, c2, s2) =>
      if zlen extra >? 0 then Some (bs, 20, s2)
      else if negb (c2 =? 12) && negb (c2 =? 0) then Some (bs, c2, s2)
      else match r_close s2 with None => None | Some (c3, s3) => Some (bs, c3, s3) end
  end.

Lemma helper_unfold bufsz s : r_helper_read bufsz s =
  match r_readall (S (Z.to_nat (total_bytes s)) + length (rs_in s) + 2) bufsz [] s with
  | None => None
  | Some (bs, c, s1) => if negb (c =? 0) then Some (bs, c, s1) else helper_tail bs s1
  end.
Proof. reflexivity. Qed.

Lemma helper_tail_eff bs s1 bsF c s' : helper_tail bs s1 = Some (bsF, c, s') -> rsteps s1 s'.
Proof.
  unfold helper_tail. destruct (r_read 128 s1) as [[[ex c2] s2]|] eqn:R2; [|discriminate]. destruct (read_eff _ _ _ _ _ R2) as (P2 & _).
  destruct (zlen ex >? 0); [intros H; injection H as _ _ <-; exact P2|].
  destruct (_ && _); [intros H; injection H as _ _ <-; exact P2|].
  destruct (r_close s2) as [[c3 s3]|] eqn:R3; [|discriminate]. intros H; injection H as _ _ <-.
  exact (steps_trans _ _ _ P2 (proj1 (close_eff _ _ _ R3))).
Qed.

(* the "unexpected bytes" error (20) and the fuel exits are unreachable *)
Lemma helper_eff bufsz s bs c s' : r_helper_read bufsz s = Some (bs, c, s') ->
  rsteps s s' /\
  (0 < bufsz -> rs_err s = 0 ->
   (c = 0 /\ rs_err s' = 0 /\ (rs_state s = c_fragmentingReadInLastArgument -> rs_state s' = c_fragmentingReadComplete)) \/
   (is_err c /\ rs_err s' = c)).
Proof.
  rewrite helper_unfold. destruct (r_readall _ bufsz [] s) as [[[bs1 c1] s1]|] eqn:R; [|discriminate].
  destruct (readall_eff _ _ _ _ _ _ _ R) as (P1 & S1 & C1).
  destruct (negb (c1 =? 0)) eqn:E1.
  { intros H; injection H as <- <- <-. split; [exact P1|]. intros Hb He. pose proof (total_bytes_nonneg s).
    destruct (C1 Hb He ltac:(lia)) as [(C & _)|C]; [lia|right; exact C]. }
  intros H. split; [exact (steps_trans _ _ _ P1 (helper_tail_eff _ _ _ _ _ H))|]. intros Hb He. pose proof (total_bytes_nonneg s).
  destruct (C1 Hb He ltac:(lia)) as [(_ & C2 & C3 & C4)|[[C _] _]]; [|lia].
  revert H. unfold helper_tail. rewrite (read_at_eof 128 s1 C2 C4 C3 ltac:(lia)). change (zlen (@nil Z) >? 0) with false. cbn [Z.eqb negb andb].
  destruct (r_close s1) as [[c3 s3]|] eqn:R3; [|discriminate]. intros H; injection H as _ <- <-.
  destruct (proj2 (close_eff _ _ _ R3) C2) as [(D1 & D2 & D3)|D]; [left|right; exact D].
  split; [exact D1|]. split; [exact D2|]. intros Hl. apply D3. congruence.
Qed.

Lemma helper_err bufsz s : rs_err s <> 0 -> rs_err s <> 12 -> r_helper_read bufsz s = Some ([], rs_err s, s).
Proof.
  intros H0 H12. unfold r_helper_read. cbn [Nat.add r_readall]. rewrite (read_err bufsz s H0).
  assert (E0 : rs_err s =? 0 = false) by lia. rewrite E0. replace (rs_err s =? 12) with false by lia. cbv iota. rewrite E0. reflexivity.
Qed.

Lemma readall_total bufsz : forall fuel acc s, ck_safe s -> r_readall fuel bufsz acc s <> None.
Proof.
  induction fuel as [|fuel IH]; intros acc s H; cbn [r_readall]; [discriminate|].
  pose proof (read_total bufsz s H) as T. destruct (r_read bufsz s) as [[[bs c] s1]|] eqn:R; [|congruence].
  destruct (c =? 0); [|destruct (c =? 12); discriminate]. apply IH. exact (steps_safe _ _ (proj1 (read_eff _ _ _ _ _ R)) H).
Qed.

Lemma helper_total bufsz s : ck_safe s -> r_helper_read bufsz s <> None.
Proof.
  intros H. rewrite helper_unfold. pose proof (readall_total bufsz (S (Z.to_nat (total_bytes s)) + length (rs_in s) + 2) [] s H) as T.
  destruct (r_readall _ bufsz [] s) as [[[bs c] s1]|] eqn:R; [|congruence]. destruct (negb (c =? 0)); [discriminate|].
  pose proof (steps_safe _ _ (proj1 (readall_eff _ _ _ _ _ _ _ R)) H) as H1. unfold helper_tail.
  pose proof (read_total 128 s1 H1) as T2. destruct (r_read 128 s1) as [[[ex c2] s2]|] eqn:R2; [|congruence].
  destruct (_ >? 0); [discriminate|]. destruct (_ && _); [discriminate|].
  pose proof (close_total s2 (steps_safe _ _ (proj1 (read_eff _ _ _ _ _ R2)) H1)). destruct (r_close s2) as [[? ?]|]; [discriminate|congruence].
Qed.

Lemma reads_eff : forall ns s l s', reads ns s = Some (l, s') -> rsteps s s' /\ rs_state s' = rs_state s.
Proof.
  induction ns as [|n ns IH]; intros s l s'; cbn [reads]; [intros H; injection H as _ <-; split; [apply steps_refl|reflexivity]|].
  destruct (r_read n s) as [[[bs c] s1]|] eqn:R; [|discriminate]. destruct (read_eff _ _ _ _ _ R) as (P1 & S1 & _).
  destruct (reads ns s1) as [[l2 s2]|] eqn:RS; [|discriminate]. intros H; injection H as _ <-.
  destruct (IH _ _ _ RS) as (P2 & S2). split; [exact (steps_trans _ _ _ P1 P2)|congruence].
Qed.

Lemma arg_read_eff last ns s cb l cc s' : arg_read last ns s = Some (cb, l, cc, s') ->
  rsteps s s' /\ (last = true -> cb = 0 -> cc = 0 -> rs_state s' = c_fragmentingReadComplete).
Proof.
  unfold arg_read. destruct (r_begin last s) as [[cb1 s1]|] eqn:B; [|discriminate]. destruct (begin_eff _ _ _ _ B) as (P1 & C1).
  destruct (reads ns s1) as [[l2 s2]|] eqn:RS; [|discriminate]. destruct (reads_eff _ _ _ _ RS) as (P2 & S2).
  destruct (r_close s2) as [[cc3 s3]|] eqn:C; [|discriminate]. destruct (close_eff _ _ _ C) as (P3 & C3).
  intros H; injection H as <- <- <- <-. split; [exact (steps_trans _ _ _ P1 (steps_trans _ _ _ P2 P3))|]. intros -> -> ->.
  destruct (Z.eq_dec (rs_err s) 0) as [He|He]; [|rewrite (begin_err _ _ He) in B; congruence].
  destruct (C1 He) as [(_ & E1 & St1)|[[? _] _]]; [|congruence].
  destruct (Z.eq_dec (rs_err s2) 0) as [He2|He2]; [|rewrite (close_err _ He2) in C; congruence].
  destruct (C3 He2) as [(_ & _ & D)|[[? _] _]]; [|congruence]. apply D. rewrite S2, St1. reflexivity.
Qed.

(* Begin and the helper read of one argument as raw.Call does them: None = panic, Some None = error *)
Definition harg (last : bool) (n : Z) (s : rst) : option (option (list Z * rst)) :=
  match r_begin last s with
  | None => None
  | Some (cb, s0) =>
      if negb (cb =? 0) then Some None else
      match r_helper_read n s0 with
      | None => None
      | Some (a, c, s1) => if negb (c =? 0) then Some None else Some (Some (a, s1))
      end
  end.

Lemma call_outcome_hargs n1 n2 n3 fs : call_outcome n1 n2 n3 fs =
  match harg false n1 (r_init fs) with None => OPanic | Some None => OErr | Some (Some (a1, s1)) =>
  match harg false n2 s1 with None => OPanic | Some None => OErr | Some (Some (a2, s2)) =>
  match harg true n3 s2 with None => OPanic | Some None => OErr | Some (Some (a3, _)) => OOk [a1; a2; a3] end end end.
Proof.
  unfold call_outcome, harg.
  destruct (r_begin false (r_init fs)) as [[cb1 s0]|]; [|reflexivity]. destruct (negb (cb1 =? 0)); [reflexivity|].
  destruct (r_helper_read n1 s0) as [[[a1 c1] s1]|]; [|reflexivity]. destruct (negb (c1 =? 0)); [reflexivity|].
  destruct (r_begin false s1) as [[cb2 s1']|]; [|reflexivity]. destruct (negb (cb2 =? 0)); [reflexivity|].
  destruct (r_helper_read n2 s1') as [[[a2 c2] s2]|]; [|reflexivity]. destruct (negb (c2 =? 0)); [reflexivity|].
  destruct (r_begin true s2) as [[cb3 s2']|]; [|reflexivity]. destruct (negb (cb3 =? 0)); [reflexivity|].
  destruct (r_helper_read n3 s2') as [[[a3 c3] s3]|]; [|reflexivity]. destruct (negb (c3 =? 0)); reflexivity.
Qed.

Lemma call_outcome_ok n1 n2 n3 fs args : call_outcome n1 n2 n3 fs = OOk args ->
  exists a1 a2 a3 s1 s2 s3, harg false n1 (r_init fs) = Some (Some (a1, s1)) /\ harg false n2 s1 = Some (Some (a2, s2)) /\
    harg true n3 s2 = Some (Some (a3, s3)) /\ args = [a1; a2; a3].
Proof.
  rewrite call_outcome_hargs.
  destruct (harg false n1 (r_init fs)) as [[[a1 s1]|]|]; [|discriminate..].
  destruct (harg false n2 s1) as [[[a2 s2]|]|] eqn:A2; [|discriminate..].
  destruct (harg true n3 s2) as [[[a3 s3]|]|] eqn:A3; [|discriminate..].
  intros H; injection H as <-. exists a1, a2, a3, s1, s2, s3. auto.
Qed.

Lemma harg_eff last n s a s' : harg last n s = Some (Some (a, s')) ->
  (exists s0, r_begin last s = Some (0, s0) /\ r_helper_read n s0 = Some (a, 0, s')) /\ rsteps s s' /\
  (0 < n -> last = true -> rs_state s' = c_fragmentingReadComplete).
Proof.
  unfold harg. destruct (r_begin last s) as [[cb s0]|] eqn:B; [|discriminate]. destruct (negb (cb =? 0)) eqn:Eb; [discriminate|].
  destruct (r_helper_read n s0) as [[[a0 c] s1]|] eqn:R; [|discriminate]. destruct (negb (c =? 0)) eqn:Ec; [discriminate|].
  intros H; injection H as <- <-. assert (cb = 0) by lia. assert (c = 0) by lia. subst cb c.
  split; [exists s0; auto|]. split; [exact (steps_trans _ _ _ (proj1 (begin_eff _ _ _ _ B)) (proj1 (helper_eff _ _ _ _ _ R)))|].
  intros Hn ->. destruct (Z.eq_dec (rs_err s) 0) as [He|He]; [|rewrite (begin_err _ _ He) in B; congruence].
  destruct (proj2 (begin_eff _ _ _ _ B) He) as [(_ & E & St)|[[? _] _]]; [|congruence].
  destruct (proj2 (helper_eff _ _ _ _ _ R) Hn E) as [(_ & _ & D)|[[? _] _]]; [exact (D St)|congruence].
Qed.

Lemma harg_total last n s : ck_safe s -> harg last n s <> None.
Proof.
  intros H. unfold harg. pose proof (begin_total last s H). destruct (r_begin last s) as [[cb s0]|] eqn:B; [|congruence].
  destruct (negb (cb =? 0)); [discriminate|]. pose proof (helper_total n s0 (steps_safe _ _ (proj1 (begin_eff _ _ _ _ B)) H)).
  destruct (r_helper_read n s0) as [[[a c] s1]|]; [|congruence]. destruct (negb (c =? 0)); discriminate.
Qed.

Lemma call_outcome_no_panic n1 n2 n3 fs : ck_safe (r_init fs) -> call_outcome n1 n2 n3 fs <> OPanic.
Proof.
  intros S0. rewrite call_outcome_hargs.
  pose proof (harg_total false n1 _ S0). destruct (harg false n1 (r_init fs)) as [[[a1 s1]|]|] eqn:A1; [|discriminate|congruence].
  pose proof (steps_safe _ _ (proj1 (proj2 (harg_eff _ _ _ _ _ A1))) S0) as S1.
  pose proof (harg_total false n2 _ S1). destruct (harg false n2 s1) as [[[a2 s2]|]|] eqn:A2; [|discriminate|congruence].
  pose proof (steps_safe _ _ (proj1 (proj2 (harg_eff _ _ _ _ _ A2))) S1) as S2.
  pose proof (harg_total true n3 _ S2). destruct (harg true n3 s2) as [[[a3 s3]|]|]; [discriminate..|congruence].
Qed.

(* Part 1: the invariant of a reader whose input is a proper prefix *)
Definition MI (st : rst) : Prop :=
  rs_more st = true /\ all_more (rs_in st) /\ rs_state st <> c_fragmentingReadComplete.

Lemma steps_MI s s' : rsteps s s' -> MI s -> MI s'.
Proof.
  apply rsteps_inv. intros a b [s0 e _|s0 c s1 st _ _ Hc R|s0 c s1 _ _ _ R|s0 k|s0 st _ Hc|s0 ch chs _ E|s0 _ Hm] (A & B & C); unfold MI; prj; auto.
  - destruct (recv_eff _ _ _ R) as (S1 & _ & _ & _ & M & _). destruct (M A B). destruct (c =? 0); prj; [split; [|split]; [assumption..|apply Hc]|]. rewrite S1. auto.
  - destruct (recv_eff _ _ _ R) as (S1 & _ & _ & _ & M & _). destruct (M A B). rewrite S1. auto.
  - split; [exact A|]. split; [exact B|apply Hc].
  - congruence.
Qed.

Lemma arg_state_not_complete last : arg_state last <> c_fragmentingReadComplete.
Proof. apply arg_state_mid. Qed.

Lemma call_outcome_MI n1 n2 n3 fs : 0 < n3 -> ck_safe (r_init fs) -> MI (r_init fs) -> call_outcome n1 n2 n3 fs = OErr.
Proof.
  intros H3 S0 M. destruct (call_outcome n1 n2 n3 fs) as [| |args] eqn:E; [destruct (call_outcome_no_panic _ _ _ _ S0 E)|reflexivity|].
  destruct (call_outcome_ok _ _ _ _ _ E) as (a1 & a2 & a3 & s1 & s2 & s3 & A1 & A2 & A3 & _).
  destruct (harg_eff _ _ _ _ _ A1) as (_ & P1 & _). destruct (harg_eff _ _ _ _ _ A2) as (_ & P2 & _). destruct (harg_eff _ _ _ _ _ A3) as (_ & P3 & C).
  destruct (steps_MI _ _ P3 (steps_MI _ _ P2 (steps_MI _ _ P1 M))) as (_ & _ & N). destruct (N (C H3 eq_refl)).
Qed.

Lemma fr_ok_prefix_more : forall fs k, fr_ok fs -> (k < length fs)%nat -> all_more (firstn k fs).
Proof.
  induction fs as [|f r IH]; intros k H Hk; [cbn in Hk; lia|].
  destruct k as [|k]; [constructor|]. cbn [firstn]. cbn [fr_ok] in H. destruct H as (_ & Hm & Hr).
  cbn [length] in Hk. constructor.
  - apply Hm. destruct r; [cbn in Hk; lia|discriminate].
  - apply IH; [exact Hr|lia].
Qed.

Lemma MI_init_prefix fs ck0 k :
  wf fs -> ck_new (first_ctype fs) = Some ck0 -> (k < length fs)%nat ->
  MI (r_init (firstn k fs)) /\ ck_safe (r_init (firstn k fs)).
Proof.
  intros [capf [Hne Hfr]] Hck Hk. split.
  - split; [reflexivity|]. split; [|discriminate]. apply fr_ok_prefix_more; [exact (frames_ok_from_fr_ok _ _ _ Hfr)|exact Hk].
  - unfold ck_safe, r_init. prj. destruct fs as [|f r]; [congruence|]. destruct k; [exact I|]. cbn [firstn].
    cbn [first_ctype] in Hck. congruence.
Qed.

(* Part 2: the run on a prefix is simulated by the run on the whole *)
(* the same reader state with [post] still to be delivered *)
Definition ext (post : list frag) (s : rst) : rst :=
  mkRst (rs_state s) (rs_err s) (rs_rem s) (rs_cur s) (rs_more s) (rs_in s ++ post) (rs_ck s) (rs_got s) (rs_rel s) (rs_fin s).

Definition lift {A} (post : list frag) (r : option (A * rst)) : option (A * rst) :=
  match r with None => None | Some (a, s) => Some (a, ext post s) end.

(* the run [rC] on the prefix ran dry: receiver error 9, now sticky; the run [rF] on the whole
   has taken a fragment of [post] at that point *)
Definition into (post : list frag) (sF : rst) : Prop := post <> [] -> (length (rs_in sF) < length post)%nat.
Definition cut2 (post : list frag) (rC rF : option (Z * rst)) : Prop :=
  exists s', rC = Some (9, s') /\ rs_err s' = 9 /\ forall c sF, rF = Some (c, sF) -> into post sF.

Lemma ext_set_err post s e : ext post (rset_err s e) = rset_err (ext post s) e.
Proof. reflexivity. Qed.

Lemma ext_nil s : ext [] s = s.
Proof. destruct s. unfold ext. prj. rewrite app_nil_r. reflexivity. Qed.

(* a receive sees [post] only when the prefix is used up *)
Lemma recv_ext post s : r_recv (ext post s) = lift post (r_recv s) \/ cut2 post (r_recv s) (r_recv (ext post s)).
Proof.
  destruct (Z.eq_dec (rs_err s) 0) as [He|He]; [|left; rewrite !recv_err by exact He; reflexivity].
  destruct (rs_in s) as [|f rest] eqn:Hi.
  - right. exists (mkRst (rs_state s) 9 (rs_rem s) (rs_cur s) (rs_more s) [] (rs_ck s) (rs_got s)
                         (if rs_got s >? rs_rel s then rs_got s else rs_rel s) (rs_fin s)).
    split; [unfold r_recv; rewrite He, Hi; reflexivity|]. split; [reflexivity|]. intros c sF R Hp.
    destruct (proj2 (proj2 (proj2 (proj2 (proj2 (recv_eff _ _ _ R))))) He) as [L _].
    change (rs_in (ext post s)) with (rs_in s ++ post) in L. rewrite Hi in L. exact (L Hp).
  - left. unfold ext, r_recv. prj. rewrite He, Hi. cbn [Z.eqb negb app].
    destruct (match rs_ck s with Some c => Some c | None => ck_new (f_ctype f) end) as [c|]; [|reflexivity].
    destruct (negb (ck_typecode c =? f_ctype f) && match rs_ck s with Some _ => true | None => false end); [reflexivity|].
    destruct (negb (bytes_eqb (f_ck f) (ck_sum (fold_left ck_add (f_chunks f) c)))); [reflexivity|].
    destruct (f_chunks f); reflexivity.
Qed.

Lemma begin_ext post last s :
  r_begin last (ext post s) = lift post (r_begin last s) \/ cut2 post (r_begin last s) (r_begin last (ext post s)).
Proof.
  unfold r_begin. change (rs_err (ext post s)) with (rs_err s). change (rs_state (ext post s)) with (rs_state s).
  destruct (negb (rs_err s =? 0)) eqn:Ee; [left; reflexivity|].
  destruct (is_reading (rs_state s)); [left; reflexivity|].
  destruct (rs_state s =? c_fragmentingReadComplete); [left; reflexivity|].
  destruct (rs_state s =? c_fragmentingReadStart); [|left; reflexivity].
  destruct (recv_ext post s) as [->|(s' & R & E & F)].
  - left. destruct (r_recv s) as [[c s']|]; [|reflexivity].
    cbn [lift]. destruct (c =? 0); reflexivity.
  - right. rewrite R. cbn [Z.eqb]. exists s'. split; [reflexivity|]. split; [exact E|].
    intros c sF. destruct (r_recv (ext post s)) as [[c2 s2]|]; [|discriminate]. specialize (F _ _ eq_refl).
    destruct (c2 =? 0); intros H; injection H as _ <-; exact F.
Qed.

Definition cut3 (post : list frag) (rC rF : option (list Z * Z * rst)) : Prop :=
  exists bs s', rC = Some (bs, 9, s') /\ rs_err s' = 9 /\
                forall bsF cF sF, rF = Some (bsF, cF, sF) -> (exists more, bsF = bs ++ more) /\ into post sF.

Lemma read_loop_ext post : forall fuelC n acc s fuelF, rs_err s = 0 -> mid (rs_state s) ->
  (length (rs_in s) < fuelC)%nat -> (length (rs_in s ++ post) < fuelF)%nat ->
  r_read_loop fuelF n acc (ext post s) = lift post (r_read_loop fuelC n acc s) \/
  cut3 post (r_read_loop fuelC n acc s) (r_read_loop fuelF n acc (ext post s)).
Proof.
  induction fuelC as [|fuelC IH]; intros n acc s fuelF He Hs HC HF; [lia|].
  destruct fuelF as [|fuelF]; [lia|].
  destruct s as [st e rem cur more inn ck got0 rel fin]. prj_all.
  unfold ext at 1 2. prj. cbn [r_read_loop]. prj.
  set (k := Z.min n (zlen cur)). set (got := firstn (Z.to_nat k) cur).
  destruct (n - k =? 0); [left; reflexivity|].
  destruct rem as [|rc rcs]; [|left; reflexivity].
  destruct (negb more); [left; reflexivity|].
  set (s1 := mkRst st e [] (skipn (Z.to_nat k) cur) more inn ck got0 rel fin).
  change (mkRst st e [] (skipn (Z.to_nat k) cur) more (inn ++ post) ck got0 rel fin) with (ext post s1).
  destruct (recv_ext post s1) as [->|(s' & R & E & F)].
  - destruct (r_recv s1) as [[c s2]|] eqn:R; [|left; reflexivity].
    cbn [lift]. destruct (c =? 0) eqn:Ec; [|left; reflexivity].
    destruct (recv_eff _ _ _ R) as (S2 & _ & _ & _ & _ & C). destruct (C He) as [Cl [(_ & He2 & Hn)|[[? _] _]]]; [|lia].
    apply Cl in Hn. unfold s1 in Hn. prj_in Hn.
    apply IH; [exact He2|rewrite S2; exact Hs|lia|rewrite app_length in *; lia].
  - right. rewrite R. cbn [Z.eqb].
    exists (acc ++ got), s'. split; [reflexivity|]. split; [exact E|].
    intros bsF cF sF. destruct (r_recv (ext post s1)) as [[c2 s2]|] eqn:RF; [|discriminate]. specialize (F _ _ eq_refl).
    destruct (recv_eff _ _ _ RF) as (S2 & _ & _ & _ & _ & C). destruct (C He) as [Cl C2].
    destruct (c2 =? 0) eqn:Ec.
    + destruct C2 as [(_ & He2 & Hn)|[[? _] _]]; [|lia]. intros HL.
      assert (Lf : (length (rs_in s2) < fuelF)%nat) by (apply Cl in Hn; unfold ext, s1 in Hn; prj_in Hn; lia).
      destruct (read_loop_eff _ _ _ _ _ _ _ He2 ltac:(rewrite S2; exact Hs) Lf HL) as (P & _ & more0 & -> & _).
      split; [exists more0; reflexivity|]. intros Hp. pose proof (F Hp). pose proof (steps_len _ _ P). lia.
    + intros HL. injection HL as <- _ <-. split; [exists []; rewrite app_nil_r; reflexivity|exact F].
Qed.

Lemma read_ext post n s :
  r_read n (ext post s) = lift post (r_read n s) \/ cut3 post (r_read n s) (r_read n (ext post s)).
Proof.
  unfold r_read. change (rs_err (ext post s)) with (rs_err s). change (rs_state (ext post s)) with (rs_state s).
  destruct (negb (rs_err s =? 0)) eqn:Ee; [left; reflexivity|].
  destruct (negb (is_reading (rs_state s))) eqn:Er; [left; reflexivity|].
  change (rs_in (ext post s)) with (rs_in s ++ post).
  apply read_loop_ext; [lia|apply reading_mid; destruct (is_reading (rs_state s)); [reflexivity|discriminate]|lia..].
Qed.

Lemma close_next_ext post : forall fuelC s fuelF, rs_err s = 0 -> mid (rs_state s) ->
  (length (rs_in s) < fuelC)%nat -> (length (rs_in s ++ post) < fuelF)%nat ->
  r_close_next fuelF (ext post s) = lift post (r_close_next fuelC s) \/
  cut2 post (r_close_next fuelC s) (r_close_next fuelF (ext post s)).
Proof.
  induction fuelC as [|fuelC IH]; intros s fuelF He Hs HC HF; [lia|].
  destruct fuelF as [|fuelF]; [lia|].
  cbn [r_close_next].
  change (rs_rem (ext post s)) with (rs_rem s). change (rs_more (ext post s)) with (rs_more s).
  destruct (rs_rem s); [|left; reflexivity].
  destruct (negb (rs_more s)); [left; reflexivity|].
  destruct (recv_ext post s) as [->|(s' & R & E & F)].
  - destruct (r_recv s) as [[c s2]|] eqn:R; [|left; reflexivity].
    cbn [lift]. destruct (negb (c =? 0)) eqn:Ec; [left; reflexivity|].
    change (rs_cur (ext post s2)) with (rs_cur s2).
    destruct (zlen (rs_cur s2) >? 0); [left; reflexivity|].
    destruct (recv_eff _ _ _ R) as (S2 & _ & _ & _ & _ & C). destruct (C He) as [Cl [(_ & He2 & Hn)|[[? _] _]]]; [|lia].
    apply Cl in Hn. apply IH; [exact He2|rewrite S2; exact Hs|lia|].
    change (rs_in (ext post s2)) with (rs_in s2 ++ post). rewrite app_length in *. lia.
  - right. rewrite R. cbn [Z.eqb negb]. exists s'. split; [reflexivity|]. split; [exact E|].
    intros cF sF. destruct (r_recv (ext post s)) as [[c2 s2]|] eqn:RF; [|discriminate]. specialize (F _ _ eq_refl).
    destruct (recv_eff _ _ _ RF) as (S2 & _ & _ & _ & _ & C). destruct (C He) as [Cl C2].
    destruct (negb (c2 =? 0)) eqn:Ec; [intros H; injection H as _ <-; exact F|].
    destruct (zlen (rs_cur s2) >? 0); [intros H; injection H as _ <-; exact F|].
    destruct C2 as [(_ & He2 & Hn)|[[? _] _]]; [|lia]. intros HL.
    assert (Lf : (length (rs_in s2) < fuelF)%nat) by (apply Cl in Hn; unfold ext in Hn; prj_in Hn; lia).
    destruct (close_next_eff _ _ _ _ He2 ltac:(rewrite S2; exact Hs) Lf HL) as (P & _).
    intros Hp. pose proof (F Hp). pose proof (steps_len _ _ P). lia.
Qed.

Lemma close_ext post s : r_close (ext post s) = lift post (r_close s) \/ cut2 post (r_close s) (r_close (ext post s)).
Proof.
  unfold r_close. change (rs_err (ext post s)) with (rs_err s). change (rs_state (ext post s)) with (rs_state s).
  change (rs_cur (ext post s)) with (rs_cur s). change (rs_rem (ext post s)) with (rs_rem s).
  change (rs_more (ext post s)) with (rs_more s).
  destruct (negb (rs_err s =? 0)); [left; reflexivity|].
  destruct (negb (is_reading (rs_state s))); [left; reflexivity|].
  destruct (zlen (rs_cur s) >? 0); [left; reflexivity|].
  destruct (rs_state s =? c_fragmentingReadInLastArgument).
  - destruct (rs_rem s); [|left; reflexivity]. destruct (rs_more s); left; reflexivity.
  - change (rs_in (ext post s)) with (rs_in s ++ post). change (rs_ck (ext post s)) with (rs_ck s).
    change (rs_got (ext post s)) with (rs_got s). change (rs_rel (ext post s)) with (rs_rel s).
    change (rs_fin (ext post s)) with (rs_fin s).
    set (s1 := mkRst c_fragmentingReadWaitingForArgument 0 (rs_rem s) (rs_cur s) (rs_more s) (rs_in s) (rs_ck s)
                     (rs_got s) (rs_rel s) (rs_fin s)).
    change (mkRst c_fragmentingReadWaitingForArgument 0 (rs_rem s) (rs_cur s) (rs_more s) (rs_in s ++ post) (rs_ck s)
                  (rs_got s) (rs_rel s) (rs_fin s)) with (ext post s1).
    apply close_next_ext; [reflexivity|split; discriminate|lia|]. change (rs_in (ext post s1)) with (rs_in s1 ++ post). lia.
Qed.

Lemma data_of_cons bs c l : data_of ((bs, c) :: l) = bs ++ data_of l.
Proof. reflexivity. Qed.

Lemma data_of_err e ns : data_of (map (fun _ : Z => (@nil Z, e)) ns) = [].
Proof. induction ns as [|? ? IH]; [reflexivity|]. unfold data_of in *. cbn [map fst concat app]. exact IH. Qed.

Definition cutl (rC rF : option (list (list Z * Z) * rst)) : Prop :=
  exists l s', rC = Some (l, s') /\ rs_err s' = 9 /\ ~ Forall code_ok l /\
               forall lF sF, rF = Some (lF, sF) -> exists more, data_of lF = data_of l ++ more.

Lemma reads_ext post : forall ns s,
  reads ns (ext post s) = lift post (reads ns s) \/ cutl (reads ns s) (reads ns (ext post s)).
Proof.
  induction ns as [|n ns IH]; intros s; cbn [reads]; [left; reflexivity|].
  destruct (read_ext post n s) as [E|(bs & s' & RC & Es & P)].
  - rewrite E. destruct (r_read n s) as [[[bs c] s1]|]; [|left; reflexivity]. cbn [lift].
    destruct (IH s1) as [E1|(l & s' & RC & Es & Nl & P)].
    + left. rewrite E1. destruct (reads ns s1) as [[l s2]|]; reflexivity.
    + right. rewrite RC. exists ((bs, c) :: l), s'. split; [reflexivity|]. split; [exact Es|]. split.
      * intros F. apply Nl. exact (Forall_inv_tail F).
      * intros lF sF. destruct (reads ns (ext post s1)) as [[l2 s2]|]; [|discriminate].
        intros H. injection H as <- _. destruct (P l2 s2 eq_refl) as [more Hm].
        exists more. rewrite !data_of_cons, Hm, app_assoc. reflexivity.
  - right. rewrite RC. rewrite (reads_err 9 ns s' Es ltac:(lia)).
    eexists _, s'. split; [reflexivity|]. split; [exact Es|]. split.
    + intros F. pose proof (Forall_inv F) as [H|H]; cbn in H; discriminate.
    + intros lF sF. destruct (r_read n (ext post s)) as [[[bsF cF] s1F]|]; [|discriminate].
      destruct (P bsF cF s1F eq_refl) as [[more ->] _].
      destruct (reads ns s1F) as [[l2 s2]|]; [|discriminate].
      intros H. injection H as <- _. exists (more ++ data_of l2).
      rewrite !data_of_cons, data_of_err, app_nil_r, app_assoc. reflexivity.
Qed.

Definition cut4 (rC rF : option (Z * list (list Z * Z) * Z * rst)) : Prop :=
  exists cb l cc s', rC = Some (cb, l, cc, s') /\ rs_err s' = 9 /\ ~ arg_ok cb l cc /\
     forall cbF lF ccF sF, rF = Some (cbF, lF, ccF, sF) -> exists more, data_of lF = data_of l ++ more.

Lemma arg_read_ext post last ns s :
  arg_read last ns (ext post s) = lift post (arg_read last ns s) \/
  cut4 (arg_read last ns s) (arg_read last ns (ext post s)).
Proof.
  unfold arg_read.
  destruct (begin_ext post last s) as [E|(s' & RC & Es & _)].
  2:{ right. rewrite RC. rewrite (reads_err 9 ns s' Es ltac:(lia)), (close_err s') by lia. rewrite Es.
      do 4 eexists. split; [reflexivity|]. split; [exact Es|]. split; [intros (H & _); discriminate H|].
      intros cbF lF ccF sF _. exists (data_of lF). rewrite data_of_err. reflexivity. }
  rewrite E. destruct (r_begin last s) as [[cb s1]|]; [|left; reflexivity]. cbn [lift].
  destruct (reads_ext post ns s1) as [E1|(l & s' & RC & Es & Nl & P)].
  2:{ right. rewrite RC, (close_err s') by lia. rewrite Es.
      do 4 eexists. split; [reflexivity|]. split; [exact Es|]. split; [intros (_ & H & _); exact (Nl H)|].
      intros cbF lF ccF sF. destruct (reads ns (ext post s1)) as [[l2 s2]|]; [|discriminate].
      destruct (r_close s2) as [[c3 s3]|]; [|discriminate]. intros H. injection H as _ <- _ _. exact (P l2 s2 eq_refl). }
  rewrite E1. destruct (reads ns s1) as [[l s2]|]; [|left; reflexivity]. cbn [lift].
  destruct (close_ext post s2) as [E2|(s' & RC & Es & _)].
  2:{ right. rewrite RC. do 4 eexists. split; [reflexivity|]. split; [exact Es|]. split; [intros (_ & _ & H); discriminate H|].
      intros cbF lF ccF sF. destruct (r_close (ext post s2)) as [[c3 s3]|]; [|discriminate].
      intros H. injection H as _ <- _ _. exists []. rewrite app_nil_r. reflexivity. }
  left. rewrite E2. destruct (r_close s2) as [[cc s3]|]; reflexivity.
Qed.

(* one argument of the cut run against the same argument of the full run, in step with it or
   after the input ran dry; the cut run exists because the full one does *)
Lemma arg_sim post last ns sC sF a cbF lF ccF sF' :
  sF = ext post sC \/ rs_err sC = 9 ->
  arg_read last ns sF = Some (cbF, lF, ccF, sF') ->
  (exists r, a = data_of lF ++ r) -> (arg_ok cbF lF ccF -> data_of lF = a) ->
  exists cb l cc sC', arg_read last ns sC = Some (cb, l, cc, sC') /\
    (exists r, a = data_of l ++ r) /\ (arg_ok cb l cc -> data_of l = a) /\ (sF' = ext post sC' \/ rs_err sC' = 9).
Proof.
  intros [->|He] HF [r Hr] HokF.
  - destruct (arg_read_ext post last ns sC) as [E|(cb & l & cc & s' & RC & Es & Nok & P)].
    + rewrite E in HF. destruct (arg_read last ns sC) as [[[[cb l] cc] sC']|]; [|discriminate]. injection HF as <- <- <- <-.
      exists cb, l, cc, sC'. split; [reflexivity|]. split; [exists r; exact Hr|]. split; [exact HokF|left; reflexivity].
    + exists cb, l, cc, s'. split; [exact RC|]. destruct (P _ _ _ _ HF) as [more Hm].
      split; [exists (more ++ r); rewrite Hr, Hm, app_assoc; reflexivity|]. split; [intros H; destruct (Nok H)|right; exact Es].
  - rewrite (arg_read_err last ns sC 9 He ltac:(lia)). do 4 eexists. split; [reflexivity|]. rewrite data_of_err.
    split; [exists a; reflexivity|]. split; [intros (H & _); discriminate H|right; exact He].
Qed.

(* THE READER ON A PROPER PREFIX OF THE FRAGMENTS (any cut between two fragments), any read
   sizes: no panic; the three arguments are never all read successfully and the reader never
   becomes Complete; an argument read without error is exactly the argument that was sent;
   whatever data is handed out is a prefix of the right argument. *)
Theorem cut_reader_safe : forall fs ck0 a1 a2 a3,
  wf fs -> ck_new (first_ctype fs) = Some ck0 -> ck_chain ck0 fs ->
  denote (chunks_of fs) = [a1; a2; a3] ->
  forall k, (k < length fs)%nat ->
  forall ns1 ns2 ns3,
  Forall (fun n => 0 <= n) ns1 -> Forall (fun n => 0 <= n) ns2 -> Forall (fun n => 0 <= n) ns3 ->
  exists cb1 l1 cc1 st1 cb2 l2 cc2 st2 cb3 l3 cc3 st3,
    arg_read false ns1 (r_init (firstn k fs)) = Some (cb1, l1, cc1, st1) /\
    arg_read false ns2 st1 = Some (cb2, l2, cc2, st2) /\
    arg_read true ns3 st2 = Some (cb3, l3, cc3, st3) /\
    ~ (arg_ok cb1 l1 cc1 /\ arg_ok cb2 l2 cc2 /\ arg_ok cb3 l3 cc3) /\
    rs_state st3 <> c_fragmentingReadComplete /\
    (arg_ok cb1 l1 cc1 -> data_of l1 = a1) /\ (arg_ok cb2 l2 cc2 -> data_of l2 = a2) /\
    (exists r1, a1 = data_of l1 ++ r1) /\ (exists r2, a2 = data_of l2 ++ r2) /\ (exists r3, a3 = data_of l3 ++ r3).
Proof.
  intros fs ck0 a1 a2 a3 Hwf Hck Hchain Hden k Hk ns1 ns2 ns3 Hp1 Hp2 Hp3.
  destruct (reader_safe fs ck0 a1 a2 a3 Hwf Hck Hchain Hden ns1 ns2 ns3 Hp1 Hp2 Hp3)
    as (fb1 & fl1 & fc1 & ft1 & fb2 & fl2 & fc2 & ft2 & fb3 & fl3 & fc3 & ft3 & F1 & F2 & F3 & O1 & O2 & O3 & P1 & P2 & P3 & _).
  set (post := skipn k fs).
  assert (E0 : r_init fs = ext post (r_init (firstn k fs))).
  { unfold ext, r_init, post. prj. rewrite firstn_skipn. reflexivity. }
  destruct (arg_sim post false ns1 _ _ a1 _ _ _ _ (or_introl E0) F1 P1 O1) as (cb1 & l1 & cc1 & st1 & A1 & Q1 & R1 & X1).
  destruct (arg_sim post false ns2 _ _ a2 _ _ _ _ X1 F2 P2 O2) as (cb2 & l2 & cc2 & st2 & A2 & Q2 & R2 & X2).
  destruct (arg_sim post true ns3 _ _ a3 _ _ _ _ X2 F3 P3 O3) as (cb3 & l3 & cc3 & st3 & A3 & Q3 & _).
  destruct (arg_read_eff _ _ _ _ _ _ _ A1) as (T1 & _). destruct (arg_read_eff _ _ _ _ _ _ _ A2) as (T2 & _).
  destruct (arg_read_eff _ _ _ _ _ _ _ A3) as (T3 & C3).
  destruct (steps_MI _ _ T3 (steps_MI _ _ T2 (steps_MI _ _ T1 (proj1 (MI_init_prefix fs ck0 k Hwf Hck Hk))))) as (_ & _ & N3).
  exists cb1, l1, cc1, st1, cb2, l2, cc2, st2, cb3, l3, cc3, st3.
  split; [exact A1|]. split; [exact A2|]. split; [exact A3|].
  split. { intros (_ & _ & (H1 & _ & H2)). exact (N3 (C3 eq_refl H1 H2)). }
  split; [exact N3|]. split; [exact R1|]. split; [exact R2|]. split; [exact Q1|]. split; [exact Q2|exact Q3].
Qed.

Lemma total_ext post s : total_bytes (ext post s) = total_bytes s + fsum post.
Proof.
  rewrite !total_bytes_eq. unfold ext. prj. assert (fsum (rs_in s ++ post) = fsum (rs_in s) + fsum post); [|lia].
  induction (rs_in s) as [|f a IH]; [reflexivity|]. cbn [app]. rewrite !fsum_cons, IH. lia.
Qed.

(* the run on the prefix failed after running dry *)
Definition dry3 (post : list frag) (rC rF : option (list Z * Z * rst)) : Prop :=
  exists bs c s', rC = Some (bs, c, s') /\ c <> 0 /\ forall bsF cF sF, rF = Some (bsF, cF, sF) -> into post sF.

Lemma into_steps post s s' : into post s -> rsteps s s' -> into post s'.
Proof. intros H P Hp. pose proof (H Hp). pose proof (steps_len _ _ P). lia. Qed.

Lemma readall_ext post bufsz : 0 < bufsz -> forall fuelC acc s fuelF,
  total_bytes s < Z.of_nat fuelC -> total_bytes (ext post s) < Z.of_nat fuelF ->
  r_readall fuelF bufsz acc (ext post s) = lift post (r_readall fuelC bufsz acc s) \/
  dry3 post (r_readall fuelC bufsz acc s) (r_readall fuelF bufsz acc (ext post s)).
Proof.
  intros Hb. induction fuelC as [|fuelC IH]; intros acc s fuelF HC HF; [pose proof (total_bytes_nonneg s); lia|].
  destruct fuelF as [|fuelF]; [pose proof (total_bytes_nonneg (ext post s)); lia|].
  cbn [r_readall]. destruct (read_ext post bufsz s) as [E|(bs & s' & RC & Es & F)].
  - rewrite E. destruct (r_read bufsz s) as [[[bs c] s1]|] eqn:R; [|left; reflexivity]. cbn [lift].
    destruct (c =? 0) eqn:Ec; [|destruct (c =? 12); left; reflexivity].
    destruct (Z.eq_dec (rs_err s) 0) as [He|He]; [|rewrite (read_err _ _ He) in R; injection R as _ <- _; lia].
    destruct (proj2 (proj2 (read_eff _ _ _ _ _ R)) He) as [(_ & _ & T)|[(? & _)|[[? _] _]]]; [|lia..].
    specialize (T ltac:(lia)). apply IH; [lia|]. rewrite total_ext in *. lia.
  - right. rewrite RC. cbn [Z.eqb]. do 3 eexists. split; [reflexivity|]. split; [lia|].
    intros bsF cF sF. destruct (r_read bufsz (ext post s)) as [[[b1 c1] s1F]|]; [|discriminate].
    destruct (F _ _ _ eq_refl) as [_ I1]. destruct (c1 =? 0).
    + intros H. exact (into_steps _ _ _ I1 (proj1 (readall_eff _ _ _ _ _ _ _ H))).
    + destruct (c1 =? 12); intros H; injection H as _ _ <-; exact I1.
Qed.

Lemma helper_tail_ext post bs s :
  helper_tail bs (ext post s) = lift post (helper_tail bs s) \/ dry3 post (helper_tail bs s) (helper_tail bs (ext post s)).
Proof.
  unfold helper_tail. destruct (read_ext post 128 s) as [E1|(bs2 & s' & RC & Es & F)].
  - rewrite E1. destruct (r_read 128 s) as [[[ex c2] s2]|]; [|left; reflexivity]. cbn [lift].
    destruct (zlen ex >? 0); [left; reflexivity|].
    destruct (negb (c2 =? 12) && negb (c2 =? 0)); [left; reflexivity|].
    destruct (close_ext post s2) as [E2|(s' & RC & Es & F)].
    + rewrite E2. destruct (r_close s2) as [[c3 s3]|]; left; reflexivity.
    + right. rewrite RC. do 3 eexists. split; [reflexivity|]. split; [lia|]. intros bsF cF sF.
      destruct (r_close (ext post s2)) as [[c3 s3F]|]; [|discriminate]. intros H; injection H as _ _ <-. exact (F _ _ eq_refl).
  - right. rewrite RC. exists bs, (if zlen bs2 >? 0 then 20 else 9), s'.
    split; [destruct (zlen bs2 >? 0); reflexivity|]. split; [destruct (zlen bs2 >? 0); lia|].
    intros bsF cF sF. destruct (r_read 128 (ext post s)) as [[[ex c2] s2F]|]; [|discriminate].
    destruct (F _ _ _ eq_refl) as [_ I2].
    destruct (zlen ex >? 0); [intros H; injection H as _ _ <-; exact I2|].
    destruct (_ && _); [intros H; injection H as _ _ <-; exact I2|].
    destruct (r_close s2F) as [[c3 s3F]|] eqn:R3; [|discriminate]. intros H; injection H as _ _ <-.
    exact (into_steps _ _ _ I2 (proj1 (close_eff _ _ _ R3))).
Qed.

Lemma helper_ext post bufsz s : 0 < bufsz ->
  r_helper_read bufsz (ext post s) = lift post (r_helper_read bufsz s) \/
  dry3 post (r_helper_read bufsz s) (r_helper_read bufsz (ext post s)).
Proof.
  intros Hb. rewrite !helper_unfold.
  destruct (readall_ext post bufsz Hb (S (Z.to_nat (total_bytes s)) + length (rs_in s) + 2) [] s
              (S (Z.to_nat (total_bytes (ext post s))) + length (rs_in (ext post s)) + 2)) as [E|(bs & c & s' & RC & Hc & F)].
  { pose proof (total_bytes_nonneg s). lia. }
  { pose proof (total_bytes_nonneg (ext post s)). lia. }
  - rewrite E. destruct (r_readall _ bufsz [] s) as [[[bs c] s1]|]; [|left; reflexivity]. cbn [lift].
    destruct (negb (c =? 0)); [left; reflexivity|apply helper_tail_ext].
  - right. rewrite RC. replace (negb (c =? 0)) with true by lia. do 3 eexists. split; [reflexivity|]. split; [exact Hc|].
    intros bsF cF sF. destruct (r_readall _ bufsz [] (ext post s)) as [[[b1 c1] s1F]|]; [|discriminate].
    specialize (F _ _ _ eq_refl). destruct (negb (c1 =? 0)); [intros H; injection H as _ _ <-; exact F|].
    intros H. exact (into_steps _ _ _ F (helper_tail_eff _ _ _ _ _ H)).
Qed.

Definition lifth (post : list frag) (r : option (option (list Z * rst))) : option (option (list Z * rst)) :=
  match r with Some (Some (a, s)) => Some (Some (a, ext post s)) | Some None => Some None | None => None end.

Lemma harg_ext post last n s : 0 < n ->
  harg last n (ext post s) = lifth post (harg last n s) \/
  (harg last n s = Some None /\ forall a sF, harg last n (ext post s) = Some (Some (a, sF)) -> into post sF).
Proof.
  intros Hn. unfold harg. destruct (begin_ext post last s) as [E|(s' & RC & _ & F)].
  - rewrite E. destruct (r_begin last s) as [[cb s0]|]; [|left; reflexivity]. cbn [lift].
    destruct (negb (cb =? 0)); [left; reflexivity|].
    destruct (helper_ext post n s0 Hn) as [E1|(bs & c & s' & RC & Hc & F)].
    + rewrite E1. destruct (r_helper_read n s0) as [[[a c] s1]|]; [|left; reflexivity]. cbn [lift].
      destruct (negb (c =? 0)); left; reflexivity.
    + right. rewrite RC. replace (negb (c =? 0)) with true by lia. split; [reflexivity|]. intros a sF.
      destruct (r_helper_read n (ext post s0)) as [[[aF cF] s1F]|]; [|discriminate]. specialize (F _ _ _ eq_refl).
      destruct (negb (cF =? 0)); [discriminate|]. intros H; injection H as _ <-. exact F.
  - right. rewrite RC. split; [reflexivity|]. intros a sF.
    destruct (r_begin last (ext post s)) as [[cbF s0F]|] eqn:BF; [|discriminate]. specialize (F _ _ eq_refl).
    destruct (negb (cbF =? 0)); [discriminate|]. destruct (r_helper_read n s0F) as [[[aF cF] s1F]|] eqn:RF; [|discriminate].
    destruct (negb (cF =? 0)); [discriminate|]. intros H; injection H as _ <-.
    exact (into_steps _ _ _ F (proj1 (helper_eff _ _ _ _ _ RF))).
Qed.

(* THE CALLER'S THREE HELPER READS: on a prefix of the fragments the outcome is an error, or
   it is the outcome on the whole list (in particular a success is never altered by what follows) *)
Theorem call_outcome_ext n1 n2 n3 pre post : 0 < n1 -> 0 < n2 -> 0 < n3 ->
  call_outcome n1 n2 n3 pre = OErr \/ call_outcome n1 n2 n3 (pre ++ post) = call_outcome n1 n2 n3 pre.
Proof.
  intros H1 H2 H3. rewrite !call_outcome_hargs. change (r_init (pre ++ post)) with (ext post (r_init pre)).
  destruct (harg_ext post false n1 (r_init pre) H1) as [->|[-> _]]; [|left; reflexivity].
  destruct (harg false n1 (r_init pre)) as [[[a1 s1]|]|]; [|right; reflexivity..]. cbn [lifth].
  destruct (harg_ext post false n2 s1 H2) as [->|[-> _]]; [|left; reflexivity].
  destruct (harg false n2 s1) as [[[a2 s2]|]|]; [|right; reflexivity..]. cbn [lifth].
  destruct (harg_ext post true n3 s2 H3) as [->|[-> _]]; [|left; reflexivity].
  destruct (harg true n3 s2) as [[[a3 s3]|]|]; right; reflexivity.
Qed.

(* the converse: an argument read that leaves [post] untouched is the read of the reader that was
   never given [post] (a run that ran dry on the prefix would have taken from it) *)
Lemma harg_unext post last n s a sF : 0 < n -> harg last n (ext post s) = Some (Some (a, sF)) ->
  (length post <= length (rs_in sF))%nat -> exists sC, harg last n s = Some (Some (a, sC)) /\ sF = ext post sC.
Proof.
  destruct post as [|f post]; [rewrite ext_nil; intros _ H _; exists sF; rewrite ext_nil; auto|]. intros Hn H L.
  destruct (harg_ext (f :: post) last n s Hn) as [E|[_ F]].
  - rewrite E in H. destruct (harg last n s) as [[[a' sC]|]|]; [|discriminate..]. injection H as <- <-. eauto.
  - pose proof (F _ _ H ltac:(discriminate)). lia.
Qed.

Lemma harg_helper last n s a s' : arg_helper last n s = Some (0, a, 0, s') -> harg last n s = Some (Some (a, s')).
Proof.
  unfold arg_helper, harg. destruct (r_begin last s) as [[cb s0]|]; [|discriminate].
  destruct (r_helper_read n s0) as [[[b c] s1]|]; [|discriminate]. intros H; injection H as -> -> -> ->. reflexivity.
Qed.

(* the caller's three helper reads (raw.Call / ReadArgsV2): error on every proper prefix,
   exactly the arguments on the whole sequence *)
Theorem cut_call_outcome : forall fs ck0 a1 a2 a3,
  wf fs -> ck_new (first_ctype fs) = Some ck0 -> ck_chain ck0 fs ->
  denote (chunks_of fs) = [a1; a2; a3] ->
  forall n1 n2 n3, 0 < n1 -> 0 < n2 -> 0 < n3 ->
  forall k, (k <= length fs)%nat ->
  call_outcome n1 n2 n3 (firstn k fs) = if (k <? length fs)%nat then OErr else OOk [a1; a2; a3].
Proof.
  intros fs ck0 a1 a2 a3 Hwf Hck Hchain Hden n1 n2 n3 H1 H2 H3 k Hk.
  destruct (k <? length fs)%nat eqn:E.
  - destruct (MI_init_prefix fs ck0 k Hwf Hck) as [M S]; [apply Nat.ltb_lt, E|]. exact (call_outcome_MI _ _ _ _ H3 S M).
  - apply Nat.ltb_ge in E. rewrite firstn_all2 by lia.
    destruct (reader_helper fs ck0 a1 a2 a3 Hwf Hck Hchain Hden n1 n2 n3 H1 H2 H3) as (st1 & st2 & st3 & A1 & A2 & A3 & _).
    rewrite call_outcome_hargs, (harg_helper _ _ _ _ _ A1), (harg_helper _ _ _ _ _ A2), (harg_helper _ _ _ _ _ A3). reflexivity.
Qed.

(* Part 3: the byte stream *)
(* a frame on the wire: type, id, payload *)
Definition wframe : Type := (Z * Z * list Z)%type.
Definition wframe_ok (f : wframe) : Prop :=
  let '(t, id, p) := f in u_ok 1 t /\ u_ok 4 id /\ zlen p <= 65519.
Definition wframe_bytes (f : wframe) : list Z := let '(t, id, p) := f in s_frame t id p.
Definition stream_of (frs : list wframe) : list Z := flat_map wframe_bytes frs.
Definition hp_of (f : wframe) : fheader * list Z := let '(t, id, p) := f in (mkFH (16 + zlen p) t 0 id, p).

Lemma s_frame_length t id p : length (s_frame t id p) = (16 + length p)%nat.
Proof. rewrite s_frame_split, app_length, hdr_length. reflexivity. Qed.

(* readFrames on the first n bytes of a stream of well-formed frames returns exactly the
   frames that lie completely inside those n bytes: all of them iff nothing was cut off *)
Lemma read_frames_cut : forall frs, Forall wframe_ok frs ->
  forall n fuel, (n <= length (stream_of frs))%nat -> (n < fuel)%nat ->
  exists k, (k <= length frs)%nat /\
            fst (read_frames fuel (firstn n (stream_of frs))) = map hp_of (firstn k frs) /\
            ((n < length (stream_of frs))%nat -> (k < length frs)%nat) /\
            (n = length (stream_of frs) -> k = length frs).
Proof.
  induction frs as [|f r IH]; intros Hok n fuel Hn Hf.
  - cbn in Hn. assert (n = O) by lia. subst n. destruct fuel; [lia|]. exists O. cbn. repeat split; lia.
  - destruct f as [[t id] p]. pose proof (Forall_inv Hok) as (Ht & Hid & Hp). pose proof (Forall_inv_tail Hok) as Hr.
    unfold stream_of in *. cbn [flat_map wframe_bytes] in *. fold (stream_of r) in *.
    set (A := s_frame t id p) in *. pose proof (s_frame_length t id p) as LA. fold A in LA.
    rewrite app_length in Hn. destruct fuel as [|fuel]; [lia|].
    destruct (le_lt_dec (length A) n) as [Hge|Hlt].
    +
      rewrite firstn_app, (firstn_all2 A) by lia.
      destruct (IH Hr (n - length A)%nat fuel) as (k & Hk & E & Hl & He); [lia|lia|].
      exists (S k). cbn [read_frames].
      destruct (A ++ firstn (n - length A) (stream_of r)) as [|x xs] eqn:Es.
      { apply (f_equal (@length Z)) in Es. rewrite app_length in Es. cbn in Es. lia. }
      rewrite <- Es. unfold A. rewrite (frame_read_in_spec t id p _ Ht Hid Hp). cbn [Z.eqb].
      destruct (read_frames fuel (firstn (n - length (s_frame t id p)) (stream_of r))) as [l c] eqn:ER.
      fold A in ER. rewrite ER in E. cbn [fst] in *. cbn [length firstn map hp_of]. rewrite E.
      split; [lia|]. split; [reflexivity|]. rewrite app_length. fold A. split; intros H.
      * assert (H' : (n - length A < length (stream_of r))%nat) by lia. apply Hl in H'. lia.
      * rewrite He; lia.
    +
      exists O. replace (n - length A)%nat with O by lia.
      rewrite firstn_app. replace (n - length A)%nat with O by lia. cbn [firstn]. rewrite app_nil_r.
      cbn [length map firstn]. split; [lia|]. split; [|split; [intros _; lia|rewrite app_length; lia]].
      cbn [read_frames]. destruct (firstn n A) as [|x xs] eqn:Ep; [reflexivity|].
      rewrite <- Ep.
      assert (SP : strict_prefix (firstn n A) (s_frame t id p)).
      { exists (skipn n A). split; [|fold A; symmetry; apply firstn_skipn].
        intros H. apply (f_equal (@length Z)) in H. rewrite skipn_length in H. cbn [length] in H. lia. }
      pose proof (frame_read_in_prefix t id p _ Ht Hid Hp SP) as C.
      destruct (frame_read_in (firstn n A)) as [[[code h] p'] rest]. cbn [fst] in C. subst code. reflexivity.
Qed.

(* the frames of one message: the first with the initial message type and header, the
   others continuation frames *)
Fixpoint msg_frames (initial : bool) (mt0 mtc id : Z) (hdr0 : list Z) (fs : list frag) : list wframe :=
  match fs with
  | [] => []
  | f :: r => (if initial then mt0 else mtc, id, enc_frag_payload (if initial then hdr0 else []) f)
              :: msg_frames false mt0 mtc id hdr0 r
  end.

Lemma firstn_msg_frames mt0 mtc id hdr0 : forall k i fs,
  firstn k (msg_frames i mt0 mtc id hdr0 fs) = msg_frames i mt0 mtc id hdr0 (firstn k fs).
Proof.
  induction k as [|k IH]; intros i fs; [reflexivity|]. destruct fs as [|f r]; [reflexivity|].
  cbn [msg_frames firstn]. rewrite IH. reflexivity.
Qed.

Lemma msg_frames_length mt0 mtc id hdr0 : forall i fs, length (msg_frames i mt0 mtc id hdr0 fs) = length fs.
Proof. intros i fs; revert i. induction fs as [|f r IH]; intros i; [reflexivity|]. cbn [msg_frames length]. rewrite IH. reflexivity. Qed.

(* what parseInboundFragment needs of a fragment's fields *)
Definition frag_wire_ok (f : frag) : Prop :=
  0 <= f_ctype f < c_checksumCount /\ zlen (f_ck f) = ChecksumSize (f_ctype f) /\
  zlen (enc_chunks (f_chunks f)) <= 65535.

(* the message header [hdr] is what the message of type [mt] reads *)
Definition hdr_parses (mt : Z) (hdr : list Z) : Prop :=
  forall rest,
    (if mt =? c_messageTypeCallReq then snd (r_callreq (rb (hdr ++ rest)))
     else if mt =? c_messageTypeCallRes then snd (r_callres (rb (hdr ++ rest))) else rb (hdr ++ rest)) = rb rest.

Lemma headers_parse :
  (forall m, callres_ok m -> hdr_parses c_messageTypeCallRes (spec_callres m)) /\
  (forall m ttl, callreq_ok m ttl -> hdr_parses c_messageTypeCallReq (spec_callreq m ttl)) /\
  hdr_parses c_messageTypeCallResContinue [] /\ hdr_parses c_messageTypeCallReqContinue [].
Proof.
  split; [|split; [|split; intros rest; reflexivity]].
  - intros m H rest. change (c_messageTypeCallRes =? c_messageTypeCallReq) with false.
    rewrite Z.eqb_refl, (proj1 (r_callres_consumes m H)). reflexivity.
  - intros m ttl H rest. rewrite Z.eqb_refl, (proj1 (r_callreq_consumes m ttl H)). reflexivity.
Qed.

Lemma parse_tail_ok f : frag_wire_ok f ->
  parse_frag_tail (if f_more f then c_hasMoreFragmentsFlag else 0)
                  (rb ([f_ctype f] ++ f_ck f ++ enc_chunks (f_chunks f))) = (0, f).
Proof.
  intros (Ht & Hck & Hsz).
  pose proof (parse_frag_roundtrip f (or_intror I) Ht Hck Hsz) as R.
  unfold parse_frag_payload, enc_frag_payload in R.
  set (fl := if f_more f then c_hasMoreFragmentsFlag else 0) in *.
  assert (Hfl : 0 <= fl < 256) by (unfold fl, c_hasMoreFragmentsFlag; destruct (f_more f); lia).
  cbn [app] in R. rewrite r_u8_byte' in R by exact Hfl.
  replace (c_messageTypeCallReqContinue =? c_messageTypeCallReq) with false in R by reflexivity.
  replace (c_messageTypeCallReqContinue =? c_messageTypeCallRes) with false in R by reflexivity.
  cbn [rerr rb] in R. exact R.
Qed.

Lemma parse_frag_roundtrip_hdr mt hdr f : hdr_parses mt hdr -> frag_wire_ok f ->
  parse_frag_payload mt (enc_frag_payload hdr f) = (0, f).
Proof.
  intros Hh Hf. unfold parse_frag_payload, enc_frag_payload.
  set (fl := if f_more f then c_hasMoreFragmentsFlag else 0).
  assert (Hfl : 0 <= fl < 256) by (unfold fl, c_hasMoreFragmentsFlag; destruct (f_more f); lia).
  cbn [app]. rewrite r_u8_byte' by exact Hfl.
  specialize (Hh ([f_ctype f] ++ f_ck f ++ enc_chunks (f_chunks f))).
  cbn [app] in Hh. rewrite Hh. cbn [rerr rb]. exact (parse_tail_ok f Hf).
Qed.

Section Wire.
  Variables (mt0 mtc id : Z) (hdr0 : list Z).
  Hypothesis Hmt0 : u_ok 1 mt0.
  Hypothesis Hmtc : u_ok 1 mtc.
  Hypothesis Hid : u_ok 4 id.
  Hypothesis Hh0 : hdr_parses mt0 hdr0.
  Hypothesis Hhc : hdr_parses mtc [].

  Definition fits (fs : list frag) : Prop :=
    Forall (fun f => frag_wire_ok f /\ zlen (enc_frag_payload hdr0 f) <= 65519 /\ zlen (enc_frag_payload [] f) <= 65519) fs.

  Lemma msg_frames_ok : forall i fs, fits fs -> Forall wframe_ok (msg_frames i mt0 mtc id hdr0 fs).
  Proof.
    intros i fs; revert i. induction fs as [|f r IH]; intros i H; cbn [msg_frames]; [constructor|].
    pose proof (Forall_inv H) as (_ & H1 & H2). constructor; [|exact (IH false (Forall_inv_tail H))].
    destruct i; cbn [wframe_ok]; auto.
  Qed.

  (* dispatch by id + recvNextFragment + parseInboundFragment recover the fragments *)
  Lemma recv_frags_msg : forall fs i, fits fs ->
    recv_frags i mt0 mtc (for_call id mt0 mtc (map hp_of (msg_frames i mt0 mtc id hdr0 fs))) = fs.
  Proof.
    induction fs as [|f r IH]; intros i H; [reflexivity|].
    pose proof (Forall_inv H) as (Hw & _ & _).
    cbn [msg_frames map hp_of for_call filter fst fh_id fh_type].
    rewrite Z.eqb_refl. cbn [andb].
    assert (T : ((if i then mt0 else mtc) =? mt0) || ((if i then mt0 else mtc) =? mtc) ||
                ((if i then mt0 else mtc) =? c_messageTypeError) = true).
    { destruct i; rewrite Z.eqb_refl; [reflexivity|]. rewrite orb_true_r. reflexivity. }
    rewrite T. cbn [recv_frags fst snd fh_type]. rewrite Z.eqb_refl.
    assert (P : parse_frag_payload (if i then mt0 else mtc) (enc_frag_payload (if i then hdr0 else []) f) = (0, f)).
    { destruct i; apply parse_frag_roundtrip_hdr; assumption. }
    rewrite P. cbn [Z.eqb]. fold (for_call id mt0 mtc (map hp_of (msg_frames false mt0 mtc id hdr0 r))).
    rewrite (IH false (Forall_inv_tail H)). reflexivity.
  Qed.

  Lemma fits_firstn k fs : fits fs -> fits (firstn k fs).
  Proof. unfold fits. revert fs. induction k; intros fs H; [constructor|]. destruct fs; [constructor|].
    cbn [firstn]. constructor; [exact (Forall_inv H)|apply IHk, (Forall_inv_tail H)]. Qed.

  (* THE BYTE STREAM OF A MESSAGE CUT AT ANY BYTE OFFSET n: the receiving side (frame loop,
     dispatch, fragment parser, reader, three helper reads) ends in an error for every
     n below the stream length and in exactly the three arguments for the whole stream *)
  Theorem cut_stream_outcome : forall fs ck0 a1 a2 a3,
    wf fs -> ck_new (first_ctype fs) = Some ck0 -> ck_chain ck0 fs ->
    denote (chunks_of fs) = [a1; a2; a3] -> fits fs ->
    forall n1 n2 n3, 0 < n1 -> 0 < n2 -> 0 < n3 ->
    let stream := stream_of (msg_frames true mt0 mtc id hdr0 fs) in
    forall n, 0 <= n <= zlen stream ->
    recv_outcome id mt0 mtc n1 n2 n3 (cut_at n stream) =
      if n <? zlen stream then OErr else OOk [a1; a2; a3].
  Proof.
    intros fs ck0 a1 a2 a3 Hwf Hck Hchain Hden Hfit n1 n2 n3 H1 H2 H3 stream n Hn.
    unfold recv_outcome, cut_at. unfold zlen in Hn.
    set (nn := Z.to_nat n). assert (Hnn : (nn <= length stream)%nat) by (unfold nn; lia).
    destruct (read_frames_cut _ (msg_frames_ok true fs Hfit) nn (S (length (firstn nn stream))) Hnn) as (k & Hk & E & Hl & He).
    { rewrite firstn_length. lia. }
    fold stream in E. destruct (read_frames (S (length (firstn nn stream))) (firstn nn stream)) as [frames c].
    cbn [fst] in E. subst frames. rewrite msg_frames_length in *.
    rewrite firstn_msg_frames, (recv_frags_msg _ true (fits_firstn k fs Hfit)).
    rewrite (cut_call_outcome fs ck0 a1 a2 a3 Hwf Hck Hchain Hden n1 n2 n3 H1 H2 H3 k Hk).
    fold stream in Hl, He. unfold zlen.
    destruct (n <? Z.of_nat (length stream)) eqn:En.
    - replace (k <? length fs)%nat with true; [reflexivity|]. symmetry. apply Nat.ltb_lt. apply Hl. unfold nn. lia.
    - replace (k <? length fs)%nat with false; [reflexivity|]. symmetry. apply Nat.ltb_ge. rewrite He; [lia|]. unfold nn. lia.
  Qed.
End Wire.
