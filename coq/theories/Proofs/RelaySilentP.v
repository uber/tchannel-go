(* Relay model, C09 "nothing is reported for a call after End":
   - refuted by a concrete interleaving (a frame looked up before the timeout completes the call);
   - proved for all "calm" schedules: those in which (a) no goroutine still holds a looked-up
     copy of the call (or pending callbacks for it) at the moment End is reported, and (b) no
     frame finds a live item of a call whose End has already been reported. *)
From Coq Require Import ZArith List Bool Lia.
From Verif Require Import Base.Wrap Gen.GenConsts Gen.GenFrame Model.RelayItems Spec.RelayAccount
  Proofs.RelayAssocP Proofs.RelayCoreP Proofs.RelayInv9P Proofs.RelayTimerP Proofs.RelayThmP.
Import ListNotations.
Local Open Scope Z_scope.

Definition wit_cf : config := {| cf_maxtombs := 30000; cf_cancel := true |}.
Definition wit_env : env := {| e_start := 0; e_code := 0; e_dest := 1; e_mode := 0 |}.
Definition wit_req : frame := {| f_mt := c_messageTypeCallReq; f_id := 7; f_flags := 0; f_code := 0; f_wf := true |}.
Definition wit_res_more : frame := {| f_mt := c_messageTypeCallRes; f_id := 1; f_flags := 1; f_code := 0; f_wf := true |}.

(* call req 7 is relayed; the destination's first (non-final) call res is looked up; the
   originating item's timeout fires and completes the call; the reader goes on *)
Definition wit_silent : list label :=
  [LArrive 0 wit_req wit_env] ++ repeat (LStep (TR 0) true) 10 ++
  [LArrive 1 wit_res_more wit_env; LStep (TR 1) true; LFire 2] ++ repeat (LStep (TT 2) true) 6 ++
  [LStep (TR 1) true; LStep (TR 1) true].

Lemma silent_after_end_refuted_lemma :
  exists ls st, run_fresh wit_cf init ls = Some st /\ ~ silent_after_end cb_is_end (cblog st).
Proof.
  exists wit_silent. eexists. split; [vm_compute; reflexivity|].
  intro H. apply (H 1 [(1, CbResp)] [(1, CbFailed 101); (1, CbSent)] CbEnd eq_refl eq_refl CbResp). left. reflexivity.
Qed.

(* instructions that can still report a non-End callback for call c *)
Definition reporter (c : Z) (i : instr) : bool :=
  match i with
  | ICb c' x => (c' =? c) && negb (cb_is_end x)
  | ICanHandle _ _ _ c' | IGetDest _ _ _ c' | IRemoteCan _ _ _ c' _ | IAddDest _ _ _ c' _ | IAddOrig _ _ _ c' _ _ => c' =? c
  | INcChk _ _ _ _ (Some (it, _)) => (it_call it =? c) && negb (it_tomb it)
  | IRcvGet r => r_call r =? c
  | IRcvChk r _ g =>
      (r_call r =? c) || match g with Some (it, _) => (it_call it =? c) && negb (it_tomb it) | None => false end
  | IRcvEnq r _ _ => r_call r =? c
  | _ => false
  end.

Definition calm_step (st : state) (l : label) : Prop :=
  match l with
  | LStep th _ =>
      match lookup tid_eqb th (threads st) with
      | Some (ICb c CbEnd :: _) =>
          forall th' code j, In (th', code) (threads st) -> In j code -> reporter c j = false
      | Some (INcGet k f :: _) =>
          forall ft it, frameTypeFor (f_mt f) = Some ft ->
            klookup (k, (if ft =? c_responseFrame then 1 else 0), f_id f) (items st) = Some it ->
            it_tomb it = false -> ends (it_call it) (cblog st) = 0
      | Some (IRcvGet r :: _) =>
          forall it, klookup (r_d r, (if r_ft r =? c_requestFrame then 1 else 0), f_id (r_f r)) (items st) = Some it ->
            it_tomb it = false -> ends (it_call it) (cblog st) = 0
      | _ => True
      end
  | _ => True
  end.

Fixpoint calm_run (cf : config) (st : state) (ls : list label) : Prop :=
  match ls with
  | [] => True
  | l :: r => calm_step st l /\ match step cf st l with Some st' => calm_run cf st' r | None => True end
  end.

Definition SInv (st : state) : Prop :=
  silent_after_end cb_is_end (cblog st) /\
  forall c, 1 <= ends c (cblog st) -> forall th code j, In (th, code) (threads st) -> In j code -> reporter c j = false.

(* a call whose End token is still in a thread or in the table has no End in the log *)
Lemma ends_zero_thread : forall st c th code j, Inv st -> In (th, code) (threads st) -> In j code -> 1 <= tok_i c j ->
  ends c (cblog st) = 0.
Proof.
  intros st c th code j HI Hin Hj Ht. pose proof (total_split st c HI) as Hs.
  pose proof (asum_ge (fun _ code0 => csum (tok_i c) code0) th code (threads st)
                (fun _ code0 => csum_nonneg (tok_i c) code0 (tok_i_nonneg c)) Hin) as H1.
  pose proof (csum_ge (tok_i c) j code (tok_i_nonneg c) Hj) as H2. unfold tsum in Hs. cbn beta in H1. lia.
Qed.

Lemma ends_zero_item : forall st c t it, Inv st -> In (t, it) (items st) -> it_call it = c -> it_orig it = true -> it_tomb it = false ->
  ends c (cblog st) = 0.
Proof.
  intros st c t it HI Hin Hc Ho Ht. pose proof (total_split st c HI) as Hs.
  pose proof (asum_ge (item_tok c) t it (items st) (item_tok_nonneg c) Hin) as H1.
  assert (Hi : item_tok c t it = 1) by (unfold item_tok; rewrite Hc, Z.eqb_refl, Ho, Ht; reflexivity). lia.
Qed.

Lemma ends_zero_fresh : forall st, Inv st -> ends (next_call st) (cblog st) = 0.
Proof.
  intros st HI. pose proof (total_split st (next_call st) HI) as Hs.
  unfold started in Hs. rewrite Z.ltb_irrefl, andb_false_r in Hs. cbn [b2z] in Hs. lia.
Qed.

Lemma after_sent_reporter : forall r c j, In j (after_sent r) -> reporter c j = true -> r_call r = c.
Proof.
  intros r c j Hj Hr. unfold after_sent in Hj. apply in_app_or in Hj. destruct Hj as [Hj|Hj].
  - destruct (fin_of (r_f r)); [|contradiction]. destruct Hj as [<-|[]]. discriminate.
  - destruct (0 <? r_more r); [|contradiction]. destruct Hj as [<-|[<-|[]]]; cbn in Hr.
    + apply andb_true_iff in Hr. destruct Hr as [Hr _]. apply Z.eqb_eq in Hr. exact Hr.
    + apply Z.eqb_eq in Hr. exact Hr.
Qed.

Lemma pushed_reporter : forall cf st th i rest room st1 pushed c j,
  Inv st -> SInv st -> lookup tid_eqb th (threads st) = Some (i :: rest) ->
  calm_step st (LStep th room) -> exec cf st i room = (st1, pushed) ->
  In j pushed -> reporter c j = true -> ends c (cblog st) = 0.
Proof.
  intros cf st th i rest room st1 pushed c j HI [_ HS] Hl Hcalm H Hj Hr.
  pose proof (lookup_in tid_eqb tid_eqb_ok _ _ _ Hl) as Hin0.
  assert (Hpop : reporter c i = true -> ends c (cblog st) = 0).
  { intro Hri. destruct (Z_lt_le_dec (ends c (cblog st)) 1) as [Hlt|Hge].
    - pose proof (ends_nonneg c (cblog st)). lia.
    - rewrite (HS c Hge th _ i Hin0 (or_introl eq_refl)) in Hri. discriminate. }
  assert (Htokpop : 1 <= tok_i c i -> ends c (cblog st) = 0).
  { intro Ht. eapply ends_zero_thread; [exact HI|exact Hin0|left; reflexivity|exact Ht]. }
  unfold calm_step in Hcalm. rewrite Hl in Hcalm.
  (* admission: the pushed instructions carry the call of the popped one, which holds its End token *)
  destruct (exec_cases _ _ _ _ _ _ H);
    try (in_cases Hj; cbn in Hr; rewrite ?andb_false_r, ?andb_true_r in Hr; try discriminate;
         apply Z.eqb_eq in Hr; subst c; apply Htokpop; cbn; rewrite Z.eqb_refl; cbn; lia).
  - (* IStart: the call is new *)
    destruct Hj as [<-|[]]. cbn in Hr. apply Z.eqb_eq in Hr. subst c. apply ends_zero_fresh. exact HI.
  - in_cases Hj; cbn in Hr; rewrite ?andb_false_r, ?andb_true_r in Hr; try discriminate.
    apply Z.eqb_eq in Hr. subst c. apply ends_zero_fresh. exact HI.
  - (* INcGet: a live item found is of a call that has not ended (calm) *)
    destruct Hj as [<-|[]]. cbn in Hr. destruct g as [[it b]|]; [|discriminate]. pose proof (items_get_found _ _ _ _ _ _ Eget) as El.
    apply andb_true_iff in Hr. destruct Hr as [Hc Hnt]. apply Z.eqb_eq in Hc. subst c.
    apply negb_true_iff in Hnt. eapply (Hcalm ft it Eft El Hnt).
  - (* INcChk *)
    apply orb_false_iff in Echk. destruct Echk as [Et _].
    assert (Hc : it_call it = c -> ends c (cblog st) = 0).
    { intros <-. apply Hpop. cbn. rewrite Z.eqb_refl, Et. reflexivity. }
    in_cases Hj; cbn in Hr; try (apply andb_true_iff in Hr; destruct Hr as [Hr _]); apply Z.eqb_eq in Hr; apply Hc; exact Hr.
  - (* IRcvGet *)
    destruct Hj as [<-|[]]. cbn in Hr. apply orb_true_iff in Hr. destruct Hr as [Hr|Hr]; [apply Hpop; exact Hr|].
    destruct g as [[it b]|]; [|discriminate]. pose proof (items_get_found _ _ _ _ _ _ Eget) as El.
    apply andb_true_iff in Hr. destruct Hr as [Hc Hnt]. apply Z.eqb_eq in Hc. subst c.
    apply negb_true_iff in Hnt. eapply (Hcalm it El Hnt).
  - (* IRcvChk *)
    apply Hpop. cbn. rewrite (after_sent_reporter _ _ _ Hj Hr), Z.eqb_refl. reflexivity.
  - apply orb_false_iff in Echk. destruct Echk as [Et _].
    apply in_app_or in Hj. destruct Hj as [Hj|[<-|[]]].
    + apply Hpop. cbn. rewrite Et. in_cases Hj; cbn in Hr; try discriminate;
        try (apply andb_true_iff in Hr; destruct Hr as [Hr _]); rewrite Hr; apply orb_true_r.
    + apply Hpop. cbn in *. rewrite Hr. reflexivity.
  - (* IRcvEnq *)
    apply in_app_or in Hj. destruct Hj as [Hj|Hj]; [in_cases Hj; cbn in Hr; rewrite ?andb_false_r in Hr; discriminate|].
    apply Hpop. cbn. rewrite (after_sent_reporter _ _ _ Hj Hr). apply Z.eqb_refl.
  - (* IFailGet *)
    destruct g as [[it [|]]|]; in_cases Hj; discriminate.
  - (* IEntomb: callbacks only for the originating item, live until now, which holds the End token *)
    destruct g as [[it [|]]|]; try contradiction.
    destruct (items_entomb_done _ _ _ _ _ Eent) as (it0&El&Hnt&Hcall&Hor).
    pose proof (lookup_in key_eqb key_eqb_ok _ _ _ El) as Hin.
    assert (Horig : match s with FromFail _ => it_orig it0 | FromTimeout o => o end = it_orig it0).
    { destruct s as [r0|o]; [reflexivity|]. destruct (inv_code _ HI _ _ Hin0) as [Hf _]. inversion Hf as [|? ? Hi _]. subst.
      unfold iok in Hi. cbn in Hi. subst o. symmetry. eapply (inv_orig _ HI). exact Hin. }
    apply in_app_or in Hj. destruct Hj as [Hj|[<-|[]]]; [|discriminate].
    rewrite Hor in *. rewrite Horig in Hj. destruct (it_orig it0) eqn:Eo; [|contradiction].
    assert (Hcc : it_call it = c).
    { unfold orig_tail in Hj. destruct s; in_cases Hj; cbn in Hr; try discriminate;
        apply andb_true_iff in Hr; destruct Hr as [Hr _]; apply Z.eqb_eq in Hr; exact Hr. }
    eapply ends_zero_item; [exact HI|exact Hin|congruence|exact Eo|exact Hnt].
  - (* IDelete *)
    destruct g as [[it [|]]|]; in_cases Hj; cbn in Hr; rewrite ?andb_false_r in Hr; discriminate.
Qed.

Lemma exec_cblog : forall cf st i room st1 pushed, exec cf st i room = (st1, pushed) ->
  threads st1 = threads st /\
  cblog st1 = match i with ICb c x => (c, x) :: cblog st | _ => cblog st end.
Proof.
  intros cf st i room st1 pushed H.
  destruct (exec_cases _ _ _ _ _ _ H); try (split; reflexivity);
    try (apply items_get_spec in Eget; destruct Eget as [(_&_&_&A&B&_) _]; split; assumption).
  - apply items_entomb_spec in Eent. destruct Eent as (_&A&B&_). split; assumption.
  - apply items_delete_call_spec in Edel. destruct Edel as (_&_&A&B&_). split; assumption.
Qed.

Lemma ends_app_end : forall c e l1 l2, cb_is_end e = true -> 1 <= ends c (l1 ++ (c, e) :: l2).
Proof.
  intros c e l1 l2 He. induction l1 as [|q r IH]; cbn.
  - unfold is_end. cbn. rewrite Z.eqb_refl. destruct e; try discriminate. pose proof (ends_nonneg c l2). lia.
  - assert (0 <= is_end c q) by (unfold is_end; destruct (snd q); try lia; destruct (fst q =? c); lia). lia.
Qed.

Lemma silent_cons : forall log c x, silent_after_end cb_is_end log -> ends c log = 0 ->
  silent_after_end cb_is_end ((c, x) :: log).
Proof.
  intros log c x Hs Hz c0 later earlier e Heq He e' Hin.
  destruct later as [|p later']; [contradiction|].
  cbn in Heq. inversion Heq as [[Hp Hlog]]. subst p.
  destruct Hin as [Hin|Hin].
  - inversion Hin. subst c0 e'. pose proof (ends_app_end c e later' earlier He) as Hpos. rewrite <- Hlog in Hpos. lia.
  - eapply Hs; [exact Hlog|exact He|exact Hin].
Qed.

Lemma SInv_new_thread : forall st th code, SInv st -> (forall c j, In j code -> reporter c j = false) ->
  SInv (set_thread st th code).
Proof.
  intros st th code [Hs HS] Hc. split; [exact Hs|].
  intros c Hge th' code' j Hin Hj. apply set_thread_in in Hin. destruct Hin as [[-> ->]|[_ Hin]].
  - apply Hc. exact Hj.
  - eapply HS; eassumption.
Qed.

Lemma step_sinv : forall cf st l st', Inv st -> SInv st -> calm_step st l -> step cf st l = Some st' -> SInv st'.
Proof.
  intros cf st l st' HI HS Hcalm H. destruct (step_cases _ _ _ _ H) as [_ Hc]. clear H.
  destruct Hc as [| | |th room i rest st1 pushed El E| |t Emem|]; try exact HS.
  - apply (SInv_new_thread (set_seen st ((k, f_id f) :: seen st))); [exact HS|]. intros c j [<-|[]]. reflexivity.
  - apply SInv_new_thread; [exact HS|]. intros c j [<-|[]]. reflexivity.
  - destruct (exec_cblog _ _ _ _ _ _ E) as [Hth Hlog].
    pose proof (lookup_in tid_eqb tid_eqb_ok _ _ _ El) as Hin0.
    assert (Hpushed0 : forall c j, In j pushed -> reporter c j = true -> ends c (cblog st) = 0).
    { intros c j Hj Hr. eapply pushed_reporter; [exact HI|exact HS|exact El|exact Hcalm|exact E|exact Hj|exact Hr]. }
    destruct HS as [Hs HS0].
    assert (Hkeep : forall c, 1 <= ends c (cblog st) ->
              forall th' code j, In (th', code) (threads (set_thread st1 th (pushed ++ rest))) -> In j code ->
                (th' = th /\ In j pushed) \/ reporter c j = false).
    { intros c Hge th' code j Hin Hj. apply set_thread_in in Hin. destruct Hin as [[-> ->]|[_ Hin]].
      - apply in_app_or in Hj. destruct Hj as [Hj|Hj]; [left; split; [reflexivity|exact Hj]|right].
        eapply (HS0 c Hge th (i :: rest) j Hin0). right. exact Hj.
      - right. rewrite Hth in Hin. eapply (HS0 c Hge); eassumption. }
    destruct (match i with ICb _ _ => true | _ => false end) eqn:Eicb.
    + destruct i; try discriminate. clear Eicb. cbn [exec] in E. inversion E. subst st1 pushed. clear E.
      assert (Hz : ends c (cblog st) = 0).
      { destruct (cb_is_end x) eqn:Ex.
        - destruct x; try discriminate. eapply ends_zero_thread; [exact HI|exact Hin0|left; reflexivity|].
          cbn. rewrite Z.eqb_refl. cbn. lia.
        - destruct (Z_lt_le_dec (ends c (cblog st)) 1) as [Hlt|Hge]; [pose proof (ends_nonneg c (cblog st)); lia|].
          pose proof (HS0 c Hge th _ _ Hin0 (or_introl eq_refl)) as Hr. cbn in Hr. rewrite Z.eqb_refl, Ex in Hr. discriminate. }
      split.
      * cbn [log_cb set_cblog set_thread set_threads cblog]. apply silent_cons; assumption.
      * intros c0 Hge th' code j Hin Hj. cbn [log_cb set_cblog set_thread set_threads cblog] in Hge.
        cbn [ends] in Hge. unfold is_end in Hge. cbn [fst snd] in Hge.
        assert (Hcase : (c = c0 /\ cb_is_end x = true) \/ 1 <= ends c0 (cblog st)).
        { destruct x; try (right; lia). destruct (c =? c0) eqn:Ec; [left; apply Z.eqb_eq in Ec; split; [exact Ec|reflexivity]|right; lia]. }
        destruct Hcase as [[<- Hx]|Hge0].
        -- unfold calm_step in Hcalm. rewrite El in Hcalm. destruct x; try discriminate.
           apply set_thread_in in Hin. cbn [app] in Hin. destruct Hin as [[-> ->]|[_ Hin]].
           ++ eapply (Hcalm th _ j Hin0). right. exact Hj.
           ++ eapply Hcalm; eassumption.
        -- destruct (Hkeep c0 Hge0 th' code j Hin Hj) as [[_ []]|Hr]. exact Hr.
    + assert (Hsame : cblog st1 = cblog st) by (rewrite Hlog; destruct i; try reflexivity; discriminate).
      split.
      * cbn [set_thread set_threads cblog]. rewrite Hsame. exact Hs.
      * intros c Hge1 th' code j Hin Hj. cbn [set_thread set_threads cblog] in Hge1. rewrite Hsame in Hge1.
        destruct (Hkeep c Hge1 th' code j Hin Hj) as [[_ Hp]|Hr]; [|exact Hr].
        destruct (reporter c j) eqn:Er; [|reflexivity]. rewrite (Hpushed0 c j Hp Er) in Hge1. lia.
  - apply (SInv_new_thread (set_timers st _)); [exact HS|]. intros c j [<-|[]]. reflexivity.
  - destruct (items_delete_tomb_spec (set_gcs st (remove_one t (gcs st))) t) as (_&_&A&B&_).
    destruct HS as [Hs HS0]. split.
    + rewrite B. exact Hs.
    + intros c Hge. rewrite B in Hge. rewrite A. apply (HS0 c Hge).
Qed.

Theorem silent_after_end_partial_lemma : forall cf ls st,
  run_fresh cf init ls = Some st -> calm_run cf init ls -> silent_after_end cb_is_end (cblog st).
Proof.
  intros cf ls.
  assert (G : forall st0 st, Inv st0 -> SInv st0 -> run_fresh cf st0 ls = Some st -> calm_run cf st0 ls -> SInv st).
  { induction ls as [|l r IH]; intros st0 st HI HS H Hc; cbn in H.
    - inversion H. subst. exact HS.
    - destruct (fresh_label st0 l) eqn:Ef; [|discriminate]. destruct (step cf st0 l) as [st1|] eqn:Es; [|discriminate].
      cbn in Hc. rewrite Es in Hc. destruct Hc as [Hc1 Hc2].
      eapply IH; [eapply step_inv; eassumption|eapply step_sinv; eassumption|exact H|exact Hc2]. }
  intros st H Hc. eapply G; [apply Inv_init| |exact H|exact Hc].
  split.
  - intros c later earlier e Heq. destruct later; discriminate.
  - intros c _ th code j [].
Qed.

(* ---- a decidable form of the calm hypothesis (used for the non-vacuity example) ---- *)

Definition calm_stepb (st : state) (l : label) : bool :=
  match l with
  | LStep th _ =>
      match lookup tid_eqb th (threads st) with
      | Some (ICb c CbEnd :: _) => forallb (fun p => forallb (fun j => negb (reporter c j)) (snd p)) (threads st)
      | Some (INcGet k f :: _) =>
          match frameTypeFor (f_mt f) with
          | Some ft => match klookup (k, (if ft =? c_responseFrame then 1 else 0), f_id f) (items st) with
                       | Some it => it_tomb it || (ends (it_call it) (cblog st) =? 0)
                       | None => true
                       end
          | None => true
          end
      | Some (IRcvGet r :: _) =>
          match klookup (r_d r, (if r_ft r =? c_requestFrame then 1 else 0), f_id (r_f r)) (items st) with
          | Some it => it_tomb it || (ends (it_call it) (cblog st) =? 0)
          | None => true
          end
      | _ => true
      end
  | _ => true
  end.

Fixpoint calm_runb (cf : config) (st : state) (ls : list label) : bool :=
  match ls with
  | [] => true
  | l :: r => calm_stepb st l && match step cf st l with Some st' => calm_runb cf st' r | None => true end
  end.

Lemma calm_stepb_ok : forall st l, calm_stepb st l = true -> calm_step st l.
Proof.
  intros st l H. destruct l as [| th room | | | | |]; try exact I. unfold calm_stepb in H. unfold calm_step.
  destruct (lookup tid_eqb th (threads st)) as [[|i rest]|]; try exact I. destruct i; try exact I.
  - destruct x; try exact I. intros th' code j Hin Hj. rewrite forallb_forall in H. specialize (H _ Hin). cbn in H.
    rewrite forallb_forall in H. specialize (H _ Hj). apply negb_true_iff in H. exact H.
  - intros ft it Hft Hl Hnt. rewrite Hft, Hl, Hnt in H. cbn in H. apply Z.eqb_eq in H. exact H.
  - intros it Hl Hnt. rewrite Hl, Hnt in H. cbn in H. apply Z.eqb_eq in H. exact H.
Qed.

Lemma calm_runb_ok : forall cf ls st, calm_runb cf st ls = true -> calm_run cf st ls.
Proof.
  intros cf ls. induction ls as [|l r IH]; intros st H; cbn in *; [exact I|].
  apply andb_true_iff in H. destruct H as [H1 H2]. split; [apply calm_stepb_ok; exact H1|].
  destruct (step cf st l); [apply IH; exact H2|exact I].
Qed.

(* a complete, calm relayed call: request, two-frame response, everything in program order *)
Definition wit_res_last : frame := {| f_mt := c_messageTypeCallResContinue; f_id := 1; f_flags := 0; f_code := 0; f_wf := true |}.
Definition calm_example : list label :=
  [LArrive 0 wit_req wit_env] ++ repeat (LStep (TR 0) true) 10 ++
  [LArrive 1 wit_res_more wit_env] ++ repeat (LStep (TR 1) true) 8 ++
  [LArrive 1 wit_res_last wit_env] ++ repeat (LStep (TR 1) true) 13.
