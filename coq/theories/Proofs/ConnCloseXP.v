(* Proofs about two thread kinds of Model/ConnClose.v (strengthening of C07): the handler of an
   accepted call that answers with a SYSTEM ERROR (TFinInErr: PErr, PErrRm) and ping requests
   (TPing: PPing, PPong).  Every theorem of Proofs/ConnCloseP.v is stated over
   [Reach step (init relay)] and therefore quantifies over these labels as well. *)
From Coq Require Import ZArith List Bool Lia Arith.
From Verif Require Import Base.Wrap Base.Wire Gen.GenConsts Model.CloseKernel Model.ConnClose
  Proofs.CloseKernelP Proofs.ConnCloseP.
Import ListNotations.
Local Open Scope Z_scope.

(* [run_to] is the harness' "run this thread until ..." *)
Lemma run_to_reach : forall relay f s tid m first, Reach step (init relay) s ->
  Reach step (init relay) (fst (run_to f s tid m first)).
Proof.
  intros relay f. induction f as [|f IH]; intros s tid m first Hr; cbn [run_to].
  - destruct (nth_error (thr s) tid) as [p|]; [|exact Hr].
    destruct (pc_class p =? 0); [exact Hr|].
    destruct (negb first && (pc_class p <? 64) && Z.testbit m (pc_class p)); exact Hr.
  - destruct (nth_error (thr s) tid) as [p|]; [|exact Hr].
    destruct (pc_class p =? 0); [exact Hr|].
    destruct (negb first && (pc_class p <? 64) && Z.testbit m (pc_class p)); [exact Hr|].
    destruct (step s (LRun tid)) as [s'|] eqn:E; [|exact Hr].
    apply IH. eapply reach_step; eauto.
Qed.

(* A handler thread that answered with system error [code] and has finished queued exactly one
   error frame, (id, code) -- or none and the connection is Closed. *)
Theorem conn_error_result : forall relay s n id code, Reach step (init relay) s ->
  code_ok code = true ->
  nth_error (thr s) n = Some (PDone (oErrBase + code) id) -> answered (sh s) n id code.
Proof.
  intros relay s n id code Hr Hc Hn. destruct (ref_inv relay s Hr) as [_ HA]. specialize (HA n _ Hn).
  unfold A_ref in HA. cbn [sent] in HA. rewrite (sent_done_err code id Hc) in HA. exact HA.
Qed.

(* The decisive step: without a connection failure, when the handler of a DISPATCHED call whose
   exchange is still registered answers with a system error, the connection is at most in
   StartClose (conn_drain), so the frame IS queued -- exactly one frame (id, code) of this thread --
   and the exchange is still registered afterwards: the removal that may close the connection
   comes after the frame. *)
Theorem conn_error_queued : forall relay s n id code, Reach step (init relay) s ->
  stopped (sh s) = false -> code_ok code = true ->
  nth_error (thr s) n = Some (PErr id code) -> In (id, true) (inb (sh s)) ->
  st (sh s) <= sSC /\
  exists s', step s (LRun n) = Some s' /\
    nth_error (thr s') n = Some (PErrRm id code) /\
    replies_of n (sh s') = [(n, id, code)] /\
    In (id, true) (inb (sh s')) /\ st (sh s') = st (sh s).
Proof.
  intros relay s n id code Hr Hns Hc Hn Hin.
  destruct (conn_drain relay s Hr Hns) as [Hd _].
  assert (Hle : st (sh s) <= sSC) by (apply Hd; exists id; exact Hin).
  split; [exact Hle|].
  destruct (ref_inv relay s Hr) as [_ HA]. specialize (HA n _ Hn). unfold A_ref in HA. cbn [sent] in HA.
  cbn [step]. rewrite Hn. cbn [tstep]. rewrite Hc.
  eexists. split; [reflexivity|]. cbn [sh thr].
  split; [apply nth_error_upd_same; eapply nth_error_lt; exact Hn|].
  rewrite replies_of_send_same.
  assert (Hncl : (st (sh s) =? sCl) = false) by (apply Z.eqb_neq; consts; lia).
  rewrite Hncl, HA. split; [reflexivity|].
  unfold send_err. rewrite Hncl. split; [exact Hin|reflexivity].
Qed.

(* The handler thread stays inside its own program counters and can only finish with the
   outcome "answered with [code]": there is no path on which the error is not sent first. *)
Definition err_k (id code : Z) (k : cont) : bool :=
  match k with KDone o i => (o =? oErrBase + code) && (i =? id) | _ => false end.
Definition err_pc (id code : Z) (p : pc) : bool :=
  match p with
  | PErr i c | PErrRm i c => (i =? id) && (c =? code)
  | PCE0 k | PCE1 _ k | PCE2 _ k | PCE3 k | PCE4 k | PCE5 k | PCE6 _ k | PCE7 _ k
  | PCE8 _ k | PCE9 k | PCE10 k => err_k id code k
  | PDone o i => (o =? oErrBase + code) && (i =? id)
  | _ => false
  end.

Lemma conn_err_outcomes : forall id code,
  err_pc id code (start_pc (TFinInErr id code)) = true /\
  (forall s n p s' p', err_pc id code p = true -> tstep s n p = Some (s', p') -> err_pc id code p' = true) /\
  (forall s n s' p', tstep s n (PErr id code) = Some (s', p') -> s' = send_err s n id code /\ p' = PErrRm id code).
Proof.
  intros id code. split; [cbn; rewrite !Z.eqb_refl; reflexivity|]. split.
  - intros s n p s' p' Hp H.
    destruct p; cbn [err_pc] in Hp; try discriminate; tstep_branches H; cbn [err_pc err_k] in *;
      try discriminate; zprop; subst; rewrite ?Z.eqb_refl; auto.
  - intros s n s' p' H. cbn [tstep] in H. destruct (code_ok code); [|discriminate]. inversion H. auto.
Qed.

(* A ping req on a connection that is not Closed -- Active, StartClose or InboundClosed -- is
   answered with a ping res (outcome oPong) in two steps that change NO shared variable: the
   exchanges of the calls being drained, the state, stoppedExchanges are exactly as before.
   Only a Closed connection takes the protocol-error path. *)
Theorem conn_ping_steps : forall s n id,
  (st s <> sCl -> tstep s n (PPing id) = Some (s, PPong id)) /\
  (st s = sCl -> tstep s n (PPing id) = Some (s, PProtoSend id)) /\
  tstep s n (PPong id) = Some (s, PDone oPong id).
Proof.
  intros s n id. cbn [tstep]. repeat split.
  - intros H. apply Z.eqb_neq in H. rewrite H. reflexivity.
  - intros H. apply Z.eqb_eq in H. rewrite H. reflexivity.
Qed.

(* While a dispatched call holds the connection open (no connection failure) the ping is
   answered: the connection is not Closed. *)
Theorem conn_ping_drain : forall relay s n id idc, Reach step (init relay) s ->
  stopped (sh s) = false -> nth_error (thr s) n = Some (PPing id) -> In (idc, true) (inb (sh s)) ->
  exists s', step s (LRun n) = Some s' /\ sh s' = sh s /\ nth_error (thr s') n = Some (PPong id).
Proof.
  intros relay s n id idc Hr Hns Hn Hin.
  destruct (conn_drain relay s Hr Hns) as [Hd _].
  assert (Hle : st (sh s) <= sSC) by (apply Hd; exists idc; exact Hin).
  assert (Hncl : (st (sh s) =? sCl) = false) by (apply Z.eqb_neq; consts; lia).
  cbn [step]. rewrite Hn. cbn [tstep]. rewrite Hncl. eexists. split; [reflexivity|]. cbn [sh thr].
  split; [reflexivity|]. apply nth_error_upd_same. eapply nth_error_lt; exact Hn.
Qed.

Definition ping_k (id : Z) (k : cont) : bool := match k with KProto i => i =? id | _ => false end.
Definition ping_pc (id : Z) (p : pc) : bool :=
  match p with
  | PPing i | PPong i | PProtoSend i | PProtoCAS i | PProtoStopOut i | PProtoStopIn i => i =? id
  | PClose k | PCloseCb k | PCE0 k | PCE1 _ k | PCE2 _ k | PCE3 k | PCE4 k | PCE5 k | PCE6 _ k | PCE7 _ k
  | PCE8 _ k | PCE9 k | PCE10 k => ping_k id k
  | PDone o i => ((o =? oPong) || (o =? oProto)) && (i =? id)
  | _ => false
  end.

Lemma conn_ping_outcomes : forall id,
  ping_pc id (start_pc (TPing id)) = true /\
  (forall s n p s' p', ping_pc id p = true -> tstep s n p = Some (s', p') -> ping_pc id p' = true) /\
  (forall o i, ping_pc id (PDone o i) = true -> i = id /\ (o = oPong \/ o = oProto)).
Proof.
  intros id. split; [cbn; apply Z.eqb_refl|]. split.
  - intros s n p s' p' Hp H.
    destruct p; cbn [ping_pc] in Hp; try discriminate; tstep_branches H; cbn [ping_pc ping_k] in *;
      try discriminate; zprop; subst; rewrite ?Z.eqb_refl; auto.
  - intros o i H. cbn [ping_pc] in H. apply andb_true_iff in H. destruct H as [H1 H2].
    apply Z.eqb_eq in H2. split; [exact H2|].
    apply orb_true_iff in H1. destruct H1 as [H1|H1]; apply Z.eqb_eq in H1; auto.
Qed.
