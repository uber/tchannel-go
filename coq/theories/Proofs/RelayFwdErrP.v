(* C08 clauses (b)/(c) over the frame-path model of the relay (Model/RelayFwd.v): every error frame
   the relay makes while it handles a frame read on connection c carries connection c and the id
   of THAT frame as read (never the destination-side id the frame was rewritten to); a relay timer
   makes its timeout error for the connection and id it was started with.  Forwarding itself
   (Receive) never makes an error frame. *)
From Coq Require Import ZArith List Bool Lia.
From Verif Require Import Base.Wrap Base.Bytes Base.Wire Gen.GenConsts Gen.GenFrame Gen.GenRelayFwd
  Model.TypedBuf Model.Messages Model.Crc Model.Frag Model.RelayLazy Model.RelayAppend Model.RelayFwd.
Import ListNotations.
Local Open Scope Z_scope.

Definition out_err_ok (c : nat) (id : Z) (o : out) : Prop :=
  match o with
  | OErr c' id' _ _ _ => c' = c /\ id' = id
  | OFrame _ _ _ => True
  end.
Definition out_no_err (o : out) : Prop := match o with OErr _ _ _ _ _ => False | OFrame _ _ _ => True end.

Lemma no_err_ok : forall c id outs, Forall out_no_err outs -> Forall (out_err_ok c id) outs.
Proof. intros c id outs H. eapply Forall_impl; [|exact H]. intros [ | ]; cbn; tauto. Qed.

Lemma receive_no_err : forall st d h p ft sent outs st', receive st d h p ft = (sent, outs, st') -> Forall out_no_err outs.
Proof.
  intros st d h p ft sent outs st' H. unfold receive in H.
  destruct (get_items st (negb (ft =? c_requestFrame)) d (fh_id h)) as [it|]; [|inversion H; constructor].
  destruct (it_tomb it); inversion H; subst; [constructor|]. constructor; [exact I|constructor].
Qed.

Lemma fail_item_err : forall st c outb id reason outs st', fail_item st c outb id reason = (outs, st') ->
  Forall (out_err_ok c id) outs.
Proof.
  intros st c outb id reason outs st' H. unfold fail_item in H.
  destruct (get_items st outb c id) as [it|]; [|inversion H; constructor].
  destruct (it_tomb it); [inversion H; constructor|].
  destruct (it_orig it && negb (bytes_eqb reason c_u_relayErrorSourceConnSlow)); inversion H; subst; [|constructor].
  constructor; [split; reflexivity|constructor].
Qed.

Lemma send_frags_no_err : forall fs st d id outs st', send_frags st d id fs = (outs, st') -> Forall out_no_err outs.
Proof.
  induction fs as [|[initial pl] r IH]; intros st d id outs st' H; cbn in H; [inversion H; constructor|].
  match type of H with context [receive ?a ?b ?c ?dd ?e] => destruct (receive a b c dd e) as [[s o] st1] eqn:E end.
  destruct (send_frags st1 d id r) as [o2 st2] eqn:E2. inversion H. subst.
  apply Forall_app. split; [eapply receive_no_err; exact E|eapply IH; exact E2].
Qed.

Lemma handle_other_err : forall st c h p outs st', handle_other st c h p = Some (outs, st') ->
  Forall (out_err_ok c (fh_id h)) outs.
Proof.
  intros st c h p outs st' H. unfold handle_other in H.
  destruct (frameTypeFor (fh_type h)) as [ft|]; [|discriminate].
  destruct (get_items st (ft =? c_requestFrame) c (fh_id h)) as [it|]; [|inversion H; constructor].
  destruct (it_tomb it); [inversion H; constructor|].
  match type of H with context [let '(p1, st1) := ?X in _] => destruct X as [p1 st1] end.
  match type of H with context [receive ?a ?b ?cc ?dd ?e] => destruct (receive a b cc dd e) as [[s o] st2] eqn:E end.
  destruct s; cbn [negb] in H.
  - inversion H. subst. apply no_err_ok. eapply receive_no_err. exact E.
  - inversion H as [H1]. eapply fail_item_err. exact H1.
Qed.

Lemma handle_callreq_err : forall maxT st c h p hd outs st', handle_callreq maxT st c h p hd = Some (outs, st') ->
  Forall (out_err_ok c (fh_id h)) outs.
Proof.
  intros maxT st c h p hd outs st' H. unfold handle_callreq in H.
  destruct (lazy_callreq p) as [code lz]. destruct (negb (code =? 0)); [inversion H; constructor|].
  destruct hd as [d appends|sys ecode msg| |].
  - destruct (st_out st c (fh_id h)); [inversion H; constructor|].
    destruct (alloc_id st d) as [destID st1].
    destruct appends as [|a appends].
    + match type of H with context [receive ?a ?b ?cc ?dd ?e] => destruct (receive a b cc dd e) as [[s o] st4] eqn:E end.
      destruct s.
      * inversion H. subst. apply no_err_ok. eapply receive_no_err. exact E.
      * inversion H as [H1]. eapply fail_item_err. exact H1.
    + destruct (ck_new (lz_ctype lz)) as [ck|]; [|discriminate].
      match type of H with context [append_send ?a ?b ?cc ?dd] => destruct (append_send a b cc dd) as [[acode frames] ck'] end.
      destruct (acode =? 5); [discriminate|]. destruct (acode =? 0).
      * inversion H as [H1]. apply no_err_ok. eapply send_frags_no_err. exact H1.
      * inversion H as [H1]. eapply fail_item_err. exact H1.
  - destruct ((if sys then ecode else c_ErrCodeDeclined) =? c_ErrCodeProtocol); [discriminate|].
    inversion H. subst. constructor; [split; reflexivity|constructor].
  - inversion H. constructor.
  - destruct (st_out st c (fh_id h)); inversion H; subst; [constructor|]. constructor; [split; reflexivity|constructor].
Qed.

(* every error frame made while a frame read on connection c is handled: connection c, the id read *)
Theorem fwd_error_id : forall maxT pc st c h p hd outs st',
  step maxT pc st (LFrame c h p hd) = Some (outs, st') -> Forall (out_err_ok c (fh_id h)) outs.
Proof.
  intros maxT pc st c h p hd outs st' H. cbn [step] in H.
  destruct (relayRoute (fh_type h) pc =? 0); [inversion H; constructor|].
  destruct (((fh_type h =? c_messageTypeCallRes) || (fh_type h =? c_messageTypeCallResContinue)) && (zlen p =? 0)); [discriminate|].
  destruct (relayRoute (fh_type h) pc =? 1); [|discriminate].
  destruct (fh_type h =? c_messageTypeCallReq); [eapply handle_callreq_err|eapply handle_other_err]; exact H.
Qed.

(* the error frame of a relay timer: the connection, table and id the timer was started with *)
Theorem fwd_expire_id : forall maxT pc st c outb id outs st',
  step maxT pc st (LExpire c outb id) = Some (outs, st') -> Forall (out_err_ok c id) outs.
Proof.
  intros maxT pc st c outb id outs st' H. cbn [step] in H. inversion H as [H1]. clear H. unfold expire in H1.
  destruct (get_items st outb c id) as [it|]; [|inversion H1; constructor].
  destruct (it_tomb it); [inversion H1; constructor|].
  destruct (it_orig it); inversion H1; subst; [|constructor]. constructor; [split; reflexivity|constructor].
Qed.

Theorem fwd_no_other_outputs : forall maxT pc st l outs st',
  step maxT pc st l = Some (outs, st') ->
  match l with LOwn _ | LGC _ _ _ => outs = [] | _ => True end.
Proof.
  intros maxT pc st l outs st' H. destruct l; try exact I; cbn [step] in H.
  - destruct (alloc_id st c). inversion H. reflexivity.
  - destruct (get_items st outb c id) as [it|]; [destruct (it_tomb it)|]; inversion H; reflexivity.
Qed.
