(* Proofs about Model/TTL.v (property C14, time-to-live clauses). *)
From Coq Require Import ZArith List Bool Lia.
From Verif Require Import Base.Wrap Base.Wire Gen.GenConsts Gen.GenTTL Model.TypedBuf Model.Messages Model.TTL.
Import ListNotations.
Local Open Scope Z_scope.

Lemma ms_pos : ms_ns = 1000000. Proof. reflexivity. Qed.
Lemma p32 : 2 ^ 32 = 4294967296. Proof. reflexivity. Qed.
Lemma p63 : 2 ^ 63 = 9223372036854775808. Proof. reflexivity. Qed.
Lemma p64 : 2 ^ 64 = 18446744073709551616. Proof. reflexivity. Qed.

Definition is_duration (d : Z) : Prop := min_dur <= d <= max_dur.
Definition is_u32 (f : Z) : Prop := 0 <= f < 2 ^ 32.

(* ---- beginCall ---------------------------------------------------------------------- *)

Lemma min_dur_val : min_dur = -9223372036854775808. Proof. reflexivity. Qed.
Lemma max_dur_val : max_dur = 9223372036854775807. Proof. reflexivity. Qed.

Lemma time_sub_spec t u :
  time_sub t u = Z.max min_dur (Z.min max_dur (t - u)).
Proof.
  unfold time_sub. cbv zeta. rewrite min_dur_val, max_dur_val.
  destruct (Z.ltb_spec (t - u) (-9223372036854775808)) as [A|A]; [lia|].
  destruct (Z.gtb_spec (t - u) 9223372036854775807) as [B|B]; lia.
Qed.

Lemma time_sub_dur t u : is_duration (time_sub t u).
Proof. rewrite time_sub_spec. unfold is_duration. rewrite min_dur_val, max_dur_val. lia. Qed.

Lemma begin_call_ok state has dl now cerr ttl :
  begin_call state has dl now cerr = BcOk ttl ->
  state = c_connectionActive /\ has = true /\ cerr = 0 /\ ttl = time_sub dl now /\ ms_ns <= ttl.
Proof.
  unfold begin_call. intros H.
  destruct (state =? c_connectionActive) eqn:S.
  - destruct has; cbn [negb] in H; [|discriminate].
    destruct (time_sub dl now <? ms_ns) eqn:T; [discriminate|].
    destruct (cerr =? 0) eqn:C; cbn [negb] in H; [|discriminate].
    inversion H; subst. repeat split; lia.
  - destruct ((state =? c_connectionStartClose) || (state =? c_connectionInboundClosed) || (state =? c_connectionClosed)); discriminate.
Qed.

Lemma begin_call_accepts dl now :
  ms_ns <= dl - now ->
  begin_call c_connectionActive true dl now 0 = BcOk (time_sub dl now) /\ ms_ns <= time_sub dl now <= dl - now.
Proof.
  intros H. unfold begin_call. rewrite Z.eqb_refl. cbn [negb].
  assert (T : ms_ns <= time_sub dl now <= dl - now).
  { rewrite time_sub_spec. rewrite min_dur_val, max_dur_val, ms_pos in *. lia. }
  destruct (time_sub dl now <? ms_ns) eqn:E; [lia|]. cbn. split; [reflexivity|exact T].
Qed.

(* under a millisecond left: local timeout, whatever the state of the context *)
Lemma begin_call_sub_ms dl now cerr :
  dl - now < ms_ns -> begin_call c_connectionActive true dl now cerr = BcErr c_ErrCodeTimeout.
Proof.
  intros H. unfold begin_call. rewrite Z.eqb_refl. cbn [negb].
  assert (T : time_sub dl now < ms_ns).
  { rewrite time_sub_spec. rewrite min_dur_val, max_dur_val, ms_pos in *. lia. }
  destruct (time_sub dl now <? ms_ns) eqn:E; [reflexivity|lia].
Qed.

(* an expired / cancelled context with time formally left maps through GetContextError *)
Lemma begin_call_ctx_err dl now cerr :
  ms_ns <= dl - now -> cerr = 1 \/ cerr = 2 ->
  begin_call c_connectionActive true dl now cerr =
    BcErr (if cerr =? 1 then c_ErrCodeTimeout else c_ErrCodeCancelled).
Proof.
  intros H C. unfold begin_call. rewrite Z.eqb_refl. cbn [negb].
  destruct (begin_call_accepts dl now H) as [_ T].
  destruct (time_sub dl now <? ms_ns) eqn:E; [lia|].
  destruct C; subst cerr; reflexivity.
Qed.

(* ---- the ttl field --------------------------------------------------------------------- *)

Lemma quot_ms_nonneg x : 0 <= x -> Z.quot x ms_ns = x / ms_ns.
Proof. intros H. apply Z.quot_div_nonneg; [exact H|rewrite ms_pos; lia]. Qed.

Lemma wire_ttl_bounds ttl :
  0 <= ttl -> is_u32 (wire_ttl_ms ttl) /\ wire_ttl_ms ttl * ms_ns <= ttl.
Proof.
  intros H. unfold wire_ttl_ms, is_u32, wrapU. rewrite ms_pos, p32.
  Z.to_euclidean_division_equations. lia.
Qed.

Lemma wire_ttl_exact ttl :
  0 <= ttl < 2 ^ 32 * ms_ns ->
  wire_ttl_ms ttl = ttl / ms_ns /\ ttl - wire_ttl_ms ttl * ms_ns < ms_ns.
Proof.
  unfold wire_ttl_ms, wrapU. rewrite ms_pos, p32. intros H.
  Z.to_euclidean_division_equations. lia.
Qed.

Lemma wire_ttl_positive ttl :
  ms_ns <= ttl < 2 ^ 32 * ms_ns -> 1 <= wire_ttl_ms ttl.
Proof.
  unfold wire_ttl_ms, wrapU. rewrite ms_pos, p32. intros H.
  Z.to_euclidean_division_equations. lia.
Qed.

(* full statement of the wire clause *)
Lemma wire_ttl_sound state has dl now cerr ttl :
  begin_call state has dl now cerr = BcOk ttl ->
  is_u32 (wire_ttl_ms ttl) /\ wire_ttl_ms ttl * ms_ns <= dl - now /\
  (dl - now < 2 ^ 32 * ms_ns ->
     1 <= wire_ttl_ms ttl /\ wire_ttl_ms ttl = (dl - now) / ms_ns).
Proof.
  intros H. apply begin_call_ok in H as [_ [_ [_ [E G]]]].
  assert (P : 0 <= ttl) by (rewrite ms_pos in G; lia).
  destruct (wire_ttl_bounds ttl P) as [U L].
  assert (T : ttl <= dl - now).
  { subst ttl. rewrite time_sub_spec in *. rewrite min_dur_val, max_dur_val, ms_pos in *. lia. }
  split; [exact U|]. split; [lia|].
  intros B.
  assert (X : ttl = dl - now).
  { subst ttl. rewrite time_sub_spec in *. rewrite min_dur_val, max_dur_val, p32, ms_pos in *. lia. }
  split; [apply wire_ttl_positive; lia|]. rewrite <- X. apply wire_ttl_exact. lia.
Qed.

(* beyond 2^32 ms the uint32 conversion wraps: the field can even be zero *)
Lemma wire_ttl_zero_witness :
  exists dl now ttl, begin_call c_connectionActive true dl now 0 = BcOk ttl /\ wire_ttl_ms ttl = 0.
Proof. exists (2 ^ 32 * ms_ns), 0, (2 ^ 32 * ms_ns). vm_compute. split; reflexivity. Qed.

(* the model's field is the one Model.Messages writes in front of a call req *)
Lemma wire_field_is_callreq_field m :
  w_callreq m = (fun b => w_headers (cq_headers m) (w_len8 (cq_service m) (w_span (cq_span m) (w_u32 (wire_ttl_ms (cq_ttl_ns m)) b)))).
Proof. reflexivity. Qed.

Lemma recv_ttl_exact f : is_u32 f -> recv_ttl_ns f = f * ms_ns.
Proof.
  unfold is_u32, recv_ttl_ns. intros H. apply wrapS_id; [lia|]. rewrite p32 in H. rewrite ms_pos.
  change (2 ^ (64 - 1)) with 9223372036854775808. lia.
Qed.

Lemma lazy_ttl_exact f : is_u32 f -> lazyCallReqTTL f = f * ms_ns.
Proof.
  unfold is_u32, lazyCallReqTTL. intros H. rewrite p32 in H.
  rewrite (wrapS_id 64 f); [|lia|change (2 ^ (64 - 1)) with 9223372036854775808; lia].
  rewrite ms_pos. apply wrapS_id; [lia|]. change (2 ^ (64 - 1)) with 9223372036854775808. lia.
Qed.

(* ---- handler context --------------------------------------------------------------------- *)

Definition spec_deadline (base : option Z) (arrival ttl_ns : Z) : Z :=
  match base with None => arrival + ttl_ns | Some b => Z.min b (arrival + ttl_ns) end.

Lemma with_timeout_spec parent now d :
  with_timeout parent now d = Some (spec_deadline parent now d).
Proof.
  unfold with_timeout, spec_deadline. destruct parent as [pd|]; [|reflexivity].
  destruct (pd <? now + d) eqn:E; f_equal; lia.
Qed.

Lemma incoming_ctx_spec base now f :
  is_u32 f -> incoming_ctx base now (recv_ttl_ns f) = Some (spec_deadline base now (f * ms_ns)).
Proof.
  intros H. rewrite recv_ttl_exact by exact H. unfold incoming_ctx.
  destruct (f * ms_ns =? 0) eqn:Z0.
  - rewrite with_timeout_spec. unfold build_ctx. rewrite Z0.
    assert (E : f * ms_ns = 0) by lia. rewrite E.
    unfold spec_deadline. destruct base as [b|]; reflexivity.
  - unfold build_ctx. destruct base as [b|]; [rewrite Z0|]; apply with_timeout_spec.
Qed.

Lemma handler_deadline base now f :
  is_u32 f ->
  exists d, incoming_ctx base now (recv_ttl_ns f) = Some d /\ d <= now + f * ms_ns /\
            (base = None -> d = now + f * ms_ns) /\
            (forall b, base = Some b -> d = Z.min b (now + f * ms_ns)).
Proof.
  intros H. exists (spec_deadline base now (f * ms_ns)). split; [apply incoming_ctx_spec, H|].
  unfold spec_deadline. destruct base as [b|].
  - split; [lia|]. split; [discriminate|]. intros b' E. inversion E; reflexivity.
  - split; [lia|]. split; [reflexivity|]. discriminate.
Qed.

(* why newIncomingContext needs its guard: the builder alone turns a zero timeout into
   "inherit the parent's deadline" *)
Lemma builder_zero_timeout_inherits :
  exists base now d, build_ctx base now 0 = Some d /\ now + 0 < d.
Proof. exists (Some 3600), 0, 3600. vm_compute. split; reflexivity. Qed.

Lemma zero_ttl_expired base now :
  expired_at (incoming_ctx base now (recv_ttl_ns 0)) now = true.
Proof.
  rewrite incoming_ctx_spec by (unfold is_u32; rewrite p32; lia).
  unfold expired_at, spec_deadline. destruct base as [b|]; lia.
Qed.

(* ---- relay ---------------------------------------------------------------------------------- *)

Definition valid_max (m : Z) : Prop := ms_ns <= m < 2 ^ 32 * ms_ns.

Lemma relay_max_valid cfg : is_duration cfg -> valid_max (relay_max cfg).
Proof.
  unfold is_duration, relay_max, validateRelayMaxTimeout, valid_max.
  rewrite min_dur_val, max_dur_val, p32, ms_pos. intros H.
  assert (W : wrapS 64 (Z.quot cfg 1000000) = Z.quot cfg 1000000).
  { apply wrapS_id; [lia|]. change (2 ^ (64 - 1)) with 9223372036854775808.
    Z.to_euclidean_division_equations. lia. }
  rewrite W.
  destruct ((Z.quot cfg 1000000 >? 0) && (Z.quot cfg 1000000 <=? 4294967295)) eqn:C.
  - apply andb_true_iff in C as [C1 C2]. Z.to_euclidean_division_equations. lia.
  - destruct (cfg =? 0); unfold c_u_defaultRelayMaxTimeout; lia.
Qed.

Lemma relay_max_keeps_valid cfg : is_duration cfg -> valid_max cfg -> relay_max cfg = cfg.
Proof.
  unfold is_duration, relay_max, validateRelayMaxTimeout, valid_max.
  rewrite min_dur_val, max_dur_val, p32, ms_pos. intros H V.
  assert (Q : 1 <= Z.quot cfg 1000000 <= 4294967295) by (Z.to_euclidean_division_equations; lia).
  rewrite wrapS_id; [|lia|change (2 ^ (64 - 1)) with 9223372036854775808; lia].
  destruct ((Z.quot cfg 1000000 >? 0) && (Z.quot cfg 1000000 <=? 4294967295)) eqn:C; [reflexivity|lia].
Qed.

Lemma set_ttl_field_valid m :
  valid_max m -> set_ttl_field m = m / ms_ns /\ 1 <= m / ms_ns < 2 ^ 32 /\ (m / ms_ns) * ms_ns <= m.
Proof.
  unfold valid_max, set_ttl_field, wrapU. rewrite ms_pos, p32. intros V.
  Z.to_euclidean_division_equations. lia.
Qed.

Lemma relay_ttl_spec m f :
  valid_max m -> is_u32 f ->
  let r := relay_ttl m f in
  fst r = Z.min (f * ms_ns) m /\
  snd r = (if f * ms_ns >? m then m / ms_ns else f) /\
  is_u32 (snd r) /\ snd r <= f /\ snd r * ms_ns <= m /\
  snd r * ms_ns <= fst r /\ fst r <= f * ms_ns /\ fst r <= m.
Proof.
  intros V U. unfold relay_ttl. rewrite lazy_ttl_exact by exact U.
  destruct (set_ttl_field_valid m V) as [S [Q L]].
  unfold is_u32 in *. destruct (f * ms_ns >? m) eqn:C; cbn [fst snd].
  - rewrite S. rewrite ms_pos in *. Z.to_euclidean_division_equations. lia.
  - unfold valid_max in V. repeat split; lia.
Qed.

Lemma hops_ttl_spec maxes : forall f,
  Forall is_duration maxes -> is_u32 f ->
  is_u32 (hops_ttl maxes f) /\ hops_ttl maxes f <= f /\
  Forall (fun cfg => hops_ttl maxes f * ms_ns <= relay_max cfg) maxes.
Proof.
  induction maxes as [|cfg r IH]; intros f D U; cbn [hops_ttl].
  - split; [exact U|]. split; [lia|constructor].
  - inversion D as [|? ? Dc Dr]; subst.
    pose proof (relay_ttl_spec (relay_max cfg) f (relay_max_valid cfg Dc) U) as R. cbv zeta in R.
    destruct R as [_ [_ [U' [Lf [Lm _]]]]].
    destruct (IH (snd (relay_ttl (relay_max cfg) f)) Dr U') as [A [B C]].
    split; [exact A|]. split; [lia|]. constructor; [|exact C].
    unfold is_u32 in *. rewrite ms_pos in *. nia.
Qed.

(* ---- the whole path ---------------------------------------------------------------------------- *)
Lemma e2e_spec dl now maxes base arrival r :
  Forall is_duration maxes ->
  e2e dl now maxes base arrival = Some r ->
  e2e_wire r * ms_ns <= dl - now /\
  is_u32 (e2e_arrived r) /\ e2e_arrived r <= e2e_wire r /\
  Forall (fun cfg => e2e_arrived r * ms_ns <= relay_max cfg) maxes /\
  exists d, e2e_deadline r = Some d /\ d <= arrival + e2e_arrived r * ms_ns /\ d <= arrival + (dl - now).
Proof.
  intros D H. unfold e2e in H.
  destruct (begin_call c_connectionActive true dl now 0) as [e|ttl] eqn:B; [discriminate|].
  inversion H; subst r; clear H. cbn [e2e_wire e2e_arrived e2e_deadline].
  destruct (wire_ttl_sound _ _ _ _ _ _ B) as [U [L _]].
  destruct (hops_ttl_spec maxes (wire_ttl_ms ttl) D U) as [A [Le F]].
  destruct (handler_deadline base arrival (hops_ttl maxes (wire_ttl_ms ttl)) A) as [d [E [Ld _]]].
  split; [exact L|]. split; [exact A|]. split; [exact Le|]. split; [exact F|].
  exists d. split; [exact E|]. split; [exact Ld|].
  unfold is_u32 in *. rewrite ms_pos in *. nia.
Qed.

Lemma e2e_rejects dl now maxes base arrival :
  dl - now < ms_ns -> e2e dl now maxes base arrival = None.
Proof. intros H. unfold e2e. rewrite begin_call_sub_ms by exact H. reflexivity. Qed.

(* the relay clause in one statement *)
Lemma relay_clause cfg f :
  is_duration cfg -> is_u32 f ->
  let m := relay_max cfg in
  let r := relay_ttl m f in
  valid_max m /\ (valid_max cfg -> m = cfg) /\
  is_u32 (snd r) /\ snd r <= f /\ snd r * ms_ns <= m /\
  fst r = Z.min (f * ms_ns) m /\ snd r * ms_ns <= fst r /\
  snd r = (if f * ms_ns >? m then m / ms_ns else f).
Proof.
  intros D U. cbv zeta.
  pose proof (relay_max_valid cfg D) as V.
  pose proof (relay_ttl_spec (relay_max cfg) f V U) as R. cbv zeta in R.
  destruct R as [R1 [R2 [R3 [R4 [R5 [R6 _]]]]]].
  split; [exact V|]. split; [intros W; apply relay_max_keeps_valid; assumption|].
  split; [exact R3|]. split; [exact R4|]. split; [exact R5|]. split; [exact R1|]. split; [exact R6|exact R2].
Qed.

(* the handler clause in one statement *)
Lemma handler_clause base arrival field :
  is_u32 field ->
  recv_ttl_ns field = field * ms_ns /\
  exists d, incoming_ctx base arrival (recv_ttl_ns field) = Some d /\
            d <= arrival + field * ms_ns /\
            (base = None -> d = arrival + field * ms_ns) /\
            (forall b, base = Some b -> d = Z.min b (arrival + field * ms_ns)).
Proof. intros H. split; [exact (recv_ttl_exact field H)|exact (handler_deadline base arrival field H)]. Qed.
