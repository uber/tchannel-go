(* Relay model: invariants of runs WITHOUT OVERLAP (RelayCalm.no_overlap) used by the C10 grammar
   theorem:
   - the two items of a relayed call point at each other (pairing), ids of destination items
     are allocated before use;
   - a reader that holds a looked-up live copy of a destination item keeps that item live and
     unchanged until it is done with the frame (nobody else may act on the call);
   - a fired timer whose item is still live holds the call, hence a Get that has to stop a
     timer never loses against the timer in such a run. *)
From Coq Require Import ZArith List Bool Lia.
From Verif Require Import Base.Wrap Gen.GenConsts Gen.GenFrame Model.RelayItems Model.RelayCalm Spec.WireOk
  Proofs.RelayAssocP Proofs.RelayCoreP Proofs.RelayInv9P Proofs.RelayTimerP Proofs.RelayThmP Proofs.RelaySilentP
  Proofs.RelayWireP Proofs.RelayCalmP Proofs.RelayStepP.
Import ListNotations.
Local Open Scope Z_scope.

Lemma pushes_adm : forall st st1 i j k f, pushes st st1 i j -> adm_kf j = Some (k, f) ->
  adm_kf i = Some (k, f) /\
  (forall k' f' e c d did, j = IAddOrig k' f' e c d did -> i = IAddDest k' f' e c d /\ did = c_nextid (get_conn st d)) /\
  (forall k' f' e c d did, i <> IAddOrig k' f' e c d did).
Proof.
  intros st st1 i j k f Hp Ha. destruct Hp; try discriminate; (split; [exact Ha|]); split; intros; try discriminate.
  match goal with Heq : IAddOrig _ _ _ _ _ _ = _ |- _ => inversion Heq end. split; reflexivity.
Qed.

(* a reader instruction holding a live copy of a destination item / acting for it:
   (key of the destination item, caller connection, caller id, call) *)
Definition flight (j : instr) : option (key * Z * Z * Z) :=
  match j with
  | INcChk _ _ ft own (Some (it, _)) =>
      if (ft =? c_responseFrame) && negb (it_tomb it) then Some (own, it_dest it, it_remap it, it_call it) else None
  | IRcvGet r | IRcvChk r _ _ | IRcvEnq r _ _ =>
      if r_ft r =? c_responseFrame then Some (r_own r, r_d r, f_id (r_f r), r_call r) else None
  | _ => None
  end.

Lemma flight_oncall : forall j own tk ti c, flight j = Some (own, tk, ti, c) -> oncall c j = true.
Proof.
  intros j own tk ti c H. destruct j; cbn in *; try discriminate.
  - destruct g as [[it s]|]; [|discriminate]. destruct ((ft =? c_responseFrame) && negb (it_tomb it)) eqn:E; [|discriminate].
    inversion H. subst. apply andb_true_iff in E. destruct E as [_ E]. rewrite E, Z.eqb_refl. reflexivity.
  - destruct (r_ft r =? c_responseFrame); inversion H. apply Z.eqb_refl.
  - destruct (r_ft r =? c_responseFrame); inversion H. rewrite Z.eqb_refl. reflexivity.
  - destruct (r_ft r =? c_responseFrame); inversion H. apply Z.eqb_refl.
Qed.

Lemma quiet_flight : forall j, quiet j = true -> flight j = None.
Proof. intros j H. destruct j; cbn in *; try discriminate; reflexivity. Qed.

Lemma pushes_flight : forall st st1 i j x, pushes st st1 i j -> flight j = Some x ->
  flight i = Some x \/
  (exists k f it, i = INcGet k f /\ frameTypeFor (f_mt f) = Some c_responseFrame /\
     klookup (k, 1, f_id f) (items st) = Some it /\ it_tomb it = false /\
     x = ((k, 1, f_id f), it_dest it, it_remap it, it_call it)).
Proof.
  intros st st1 i j x Hp Hf. destruct Hp; cbn [flight] in Hf |- *; try discriminate; try (left; exact Hf).
  - (* INcGet *) right. destruct g as [[it s]|]; [|discriminate]. destruct (ft =? c_responseFrame) eqn:E1; [|discriminate].
    apply Z.eqb_eq in E1. subst ft. destruct (it_tomb it) eqn:E2; [discriminate|]. inversion Hf.
    exists k, f, it. repeat split; try assumption. eapply items_get_found. eassumption.
  - (* INcChk *) left. apply orb_false_iff in H. destruct H as [-> _]. cbn in Hf |- *. rewrite andb_true_r. exact Hf.
Qed.

Record TPair (st : state) : Prop := {
  tp1 : forall t1 it1 th code i f, In (t1, it1) (items st) -> key_dir t1 = 1 ->
          In (th, code) (threads st) -> In i code -> adm_kf i = Some (it_dest it1, f) -> f_id f = it_remap it1 ->
          exists e, i = IAddOrig (it_dest it1) f e (it_call it1) (key_conn t1) (key_id t1);
  tp2 : forall t1 it1 it0, In (t1, it1) (items st) -> key_dir t1 = 1 ->
          klookup (it_dest it1, 0, it_remap it1) (items st) = Some it0 -> it_dest it0 = key_conn t1 /\ it_remap it0 = key_id t1;
  tp3 : forall t0 it0 it1, In (t0, it0) (items st) -> key_dir t0 = 0 ->
          klookup (it_dest it0, 1, it_remap it0) (items st) = Some it1 -> it_dest it1 = key_conn t0 /\ it_remap it1 = key_id t0;
  tp_alloc : forall t0 it0, In (t0, it0) (items st) -> key_dir t0 = 0 -> it_remap it0 < c_nextid (getc (conns st) (it_dest it0));
  tp_addorig : forall th code k f e c d did, In (th, code) (threads st) -> In (IAddOrig k f e c d did) code ->
          did < c_nextid (getc (conns st) d) /\
          forall it1, klookup (d, 1, did) (items st) = Some it1 -> it_dest it1 = k /\ it_remap it1 = f_id f /\ it_call it1 = c
}.

Lemma key_eta : forall t : key, t = (key_conn t, key_dir t, key_id t).
Proof. intros [[a b] c]. reflexivity. Qed.

Lemma TPair_init : TPair init.
Proof. constructor; cbn; intros; try contradiction; discriminate. Qed.

Lemma step_tpair : forall cf st l st', Inv st -> WInv st -> TPair st -> fresh_label st l = true ->
  step cf st l = Some st' -> TPair st'.
Proof.
  intros cf st l st' HI HW HP Hfresh H.
  pose proof (fun t it => step_items _ _ _ _ t it H) as Hitems. pose proof (fun th code j => step_code _ _ _ _ th code j H) as Hcode.
  pose proof (fun d => step_nextid_mono _ _ _ _ d H) as Hmono.
  assert (Hlk : forall t it, klookup t (items st') = Some it -> In (t, it) (items st')).
  { intros t it Hl. eapply (lookup_in key_eqb key_eqb_ok). exact Hl. }
  assert (Hold : forall t it, In (t, it) (items st) -> klookup t (items st) = Some it).
  { intros t it Hin. exact (item_lookup _ _ _ HI Hin). }
  assert (Hhead : forall th i rest, lookup tid_eqb th (threads st) = Some (i :: rest) ->
            In (th, i :: rest) (threads st) /\ iok (items st) (gcs st) (seen st) th i /\ (is_adm i = true -> rest = [])).
  { intros th i rest El. apply (lookup_in tid_eqb tid_eqb_ok) in El. split; [exact El|].
    destruct (inv_code _ HI _ _ El) as [Hf Hsing]. inversion Hf as [|? ? Hiok _]. split; [exact Hiok|].
    intro Ha. pose proof (Hsing _ (or_introl eq_refl) Ha) as Hs. inversion Hs. reflexivity. }
  assert (Hunalloc : forall d it, ~ In ((d, 1, c_nextid (get_conn st d)), it) (items st)).
  { intros d it Hin. pose proof (dest_key_alloc _ _ _ HI (Hold _ _ Hin) eq_refl) as Hlt. cbn in Hlt. rewrite get_conn_getc in Hlt. lia. }
  constructor.
  - (* tp1 *)
    intros t1 it1 th' code' j f Hit Hd Hin Hj Ha Hfid.
    destruct (Hitems _ _ Hit) as [(it0&Hi0&Hc&Hde&Hr&_)|[(th&room&rest&k&f0&e0&c0&d0&Hl&El&->&Hc&Hde&Hr&_)|(th&room&rest&k&f0&e0&c0&d0&did0&_&_&->&_)]];
      [|cbn [key_conn key_id fst snd]|discriminate]; rewrite Hc, Hde in *; rewrite Hr in Hfid.
    + destruct (Hcode _ _ _ Hin Hj) as [(code0&Hin1&Hj1&_)|[(th&room&i&rest&st1&pushed&_&_&El&E&Hp)|[(k&f1&e1&Hlab&_&_&_&[[-> Em]|[-> _]])|(tm&_&_&->)]]];
        try discriminate.
      * eapply (tp1 _ HP); eassumption.
      * destruct (pushes_adm _ _ _ _ _ _ (exec_pushes _ _ _ _ _ _ _ E Hp) Ha) as (Hai&_&Hno). destruct (Hhead _ _ _ El) as (Hin0&_).
        destruct (tp1 _ HP _ _ _ _ _ _ Hi0 Hd Hin0 (or_introl eq_refl) Hai Hfid) as [e He]. exfalso. eapply Hno. exact He.
      * (* a new request of the caller does not carry the id of a call in progress *)
        exfalso. subst l. inversion Ha. subst f1. eapply fresh_unseen; [exact Hfresh|exact Em|]. rewrite Hfid, H1. eapply (w_items _ HW); eassumption.
    + (* the new destination item: only the admission that added it refers to it *)
      destruct (Hhead _ _ _ El) as (Hin0&Hiok&Hrest). specialize (Hrest eq_refl). subst rest.
      destruct (iok_adm _ _ _ _ (IAddDest k f0 e0 c0 d0) k f0 eq_refl Hiok) as [Hthk _].
      destruct (Hcode _ _ _ Hin Hj) as [(code0&Hin1&Hj1&Hsame)|[(th2&room2&i&rest2&st1&pushed&Hl2&_&El2&E&Hp)|[(k1&f1&e1&Hl2&_)|(tm&Hl2&_)]]];
        try congruence.
      * exfalso. destruct (inv_code _ HI _ _ Hin1) as [Hf1 _]. rewrite Forall_forall in Hf1.
        destruct (iok_adm _ _ _ _ _ _ _ Ha (Hf1 _ Hj1)) as [Hth1 _]. rewrite <- Hthk in Hth1.
        destruct (Hsame _ _ Hl Hth1) as (i&r&El1&Hnil). rewrite El in El1. inversion El1. subst. contradiction.
      * rewrite Hl in Hl2. inversion Hl2. subst th2 room2. rewrite El in El2. inversion El2. subst i rest2.
        pose proof (exec_pushes _ _ _ _ _ _ _ E Hp) as Hps. inversion Hps. subst. cbn in Ha. inversion Ha. exists e0. reflexivity.
  - (* tp2 *)
    intros t1 it1 it0 Hit Hd Hl. apply Hlk in Hl.
    destruct (Hitems _ _ Hit) as [(it1'&Hi1&_&Hde1&Hr1&_)|[(th&room&rest&k&f0&e0&c0&d0&Hlab&El&->&_&Hde1&Hr1&_)|(th&room&rest&k&f0&e0&c0&d0&did0&_&_&->&_)]];
      [| |discriminate]; rewrite Hde1, Hr1 in *.
    + destruct (Hitems _ _ Hl) as [(it0'&Hi0&_&Hde0&Hr0&_)|[(th&room&rest&k&f0&e0&c0&d0&_&_&Ht&_)|(th&room&rest&k&f0&e0&c0&d0&did0&_&El&Ht&_&Hde0&Hr0&_)]];
        [| discriminate |]; rewrite Hde0, Hr0.
      * eapply (tp2 _ HP); [exact Hi1|exact Hd|apply Hold; exact Hi0].
      * (* the originating item just added is the one the pending admission announced *)
        inversion Ht. destruct (Hhead _ _ _ El) as (Hin0&_).
        destruct (tp1 _ HP _ _ _ _ _ f0 Hi1 Hd Hin0 (or_introl eq_refl)) as [e He]; [cbn; congruence|congruence|].
        inversion He. split; reflexivity.
    + exfalso. destruct (Hhead _ _ _ El) as (_&Hiok&_).
      destruct (iok_adm _ _ _ _ (IAddDest k f0 e0 c0 d0) k f0 eq_refl Hiok) as [_ (_&Hfree&_)].
      destruct (Hitems _ _ Hl) as [(it0'&Hi0&_)|[(th2&room2&rest2&k1&f1&e1&c1&d1&_&_&Ht&_)|(th2&room2&rest2&k1&f1&e1&c1&d1&did1&Hlab2&El2&_)]].
      * apply Hold in Hi0. congruence.
      * discriminate.
      * congruence.
  - (* tp3 *)
    intros t0 it0 it1 Hit Hd Hl. apply Hlk in Hl.
    destruct (Hitems _ _ Hit) as [(it0'&Hi0&_&Hde0&Hr0&_)|[(th&room&rest&k&f0&e0&c0&d0&_&_&->&_)|(th&room&rest&k&f0&e0&c0&d0&did0&Hlab&El&->&_&Hde0&Hr0&_)]];
      [|discriminate|cbn [key_conn key_id fst snd]]; rewrite Hde0, Hr0 in *.
    + destruct (Hitems _ _ Hl) as [(it1'&Hi1&_&Hde1&Hr1&_)|[(th&room&rest&k&f0&e0&c0&d0&_&_&Ht&_)|(th&room&rest&k&f0&e0&c0&d0&did0&_&_&Ht&_)]];
        [| |discriminate].
      * rewrite Hde1, Hr1. eapply (tp3 _ HP); [exact Hi0|exact Hd|apply Hold; exact Hi1].
      * (* the id of the new destination item was not allocated when it0 was added *)
        exfalso. inversion Ht. pose proof (tp_alloc _ HP _ _ Hi0 Hd) as Ha. rewrite get_conn_getc in *. subst. lia.
    + destruct (Hhead _ _ _ El) as (Hin0&_). destruct (tp_addorig _ HP _ _ _ _ _ _ _ _ Hin0 (or_introl eq_refl)) as [_ Hao].
      destruct (Hitems _ _ Hl) as [(it1'&Hi1&_&Hde1&Hr1&_)|[(th2&room2&rest2&k1&f1&e1&c1&d1&Hlab2&El2&_)|(th2&room2&rest2&k1&f1&e1&c1&d1&did1&_&_&Ht&_)]];
        [|congruence|discriminate].
      rewrite Hde1, Hr1. destruct (Hao _ (Hold _ _ Hi1)) as (A&B&_). split; assumption.
  - (* tp_alloc *)
    intros t0 it0 Hit Hd.
    destruct (Hitems _ _ Hit) as [(it0'&Hi0&_&Hde0&Hr0&_)|[(th&room&rest&k&f0&e0&c0&d0&_&_&->&_)|(th&room&rest&k&f0&e0&c0&d0&did0&_&El&_&_&Hde0&Hr0&_)]];
      [|discriminate|]; rewrite Hde0, Hr0.
    + pose proof (tp_alloc _ HP _ _ Hi0 Hd). specialize (Hmono (it_dest it0')). lia.
    + destruct (Hhead _ _ _ El) as (Hin0&_). destruct (tp_addorig _ HP _ _ _ _ _ _ _ _ Hin0 (or_introl eq_refl)) as [Hlt _].
      specialize (Hmono d0). lia.
  - (* tp_addorig *)
    intros th' code' k f e c d did Hin Hj.
    destruct (Hcode _ _ _ Hin Hj) as [(code0&Hin1&Hj1&_)|[(th&room&i&rest&st1&pushed&Hlab&_&El&E&Hp)|[(k1&f1&e1&_&_&_&_&[[Hx _]|[Hx _]])|(tm&_&_&Hx)]]];
      try discriminate.
    + destruct (tp_addorig _ HP _ _ _ _ _ _ _ _ Hin1 Hj1) as [Hlt Hao]. split; [specialize (Hmono d); lia|].
      intros it1 Hl. apply Hlk in Hl.
      destruct (Hitems _ _ Hl) as [(it1'&Hi1&Hc1&Hde1&Hr1&_)|[(th&room&rest&k1&f1&e1&c1&d1&_&_&Ht&_)|(th&room&rest&k1&f1&e1&c1&d1&did1&_&_&Ht&_)]];
        [| |discriminate].
      * rewrite Hc1, Hde1, Hr1. apply Hao. apply Hold. exact Hi1.
      * exfalso. inversion Ht. rewrite get_conn_getc in *. subst. lia.
    + (* pushed by the addRelayItem of the destination item: did is the id just allocated *)
      destruct (pushes_adm _ _ _ _ k f (exec_pushes _ _ _ _ _ _ _ E Hp) eq_refl) as (_&Hao&_). destruct (Hao _ _ _ _ _ _ eq_refl) as [-> ->].
      subst l. rewrite (step_exec_eq _ _ _ _ _ _ _ _ _ H El E). cbn [set_thread set_threads conns items]. split.
      * rewrite (exec_nextid _ _ _ _ _ _ E), Z.eqb_refl, get_conn_getc. cbn. lia.
      * intros it1 Hl. rewrite (step_exec_eq _ _ _ _ _ _ _ _ _ H El E) in Hitems. apply (lookup_in key_eqb key_eqb_ok) in Hl.
        destruct (Hitems _ _ Hl) as [(it1'&Hi1&_)|[(th2&room2&rest2&k1&f1&e1&c1&d1&Hlab2&El2&_&A&B&C&_)|(th2&room2&rest2&k1&f1&e1&c1&d1&did1&_&_&Ht&_)]];
          [exfalso; eapply Hunalloc; exact Hi1| |discriminate].
        inversion Hlab2. subst th2 room2. rewrite El in El2. inversion El2. subst. repeat split; try reflexivity; assumption.
Qed.

Lemma reach_tpair : forall cf ls st, run_fresh cf init ls = Some st -> TPair st.
Proof.
  intros cf ls. assert (G : forall st0 st, Inv st0 -> WInv st0 -> TPair st0 -> run_fresh cf st0 ls = Some st -> TPair st).
  { induction ls as [|l r IH]; intros st0 st HI HW HP H; cbn in H.
    - inversion H. subst. exact HP.
    - destruct (fresh_label st0 l) eqn:Ef; [|discriminate]. destruct (step cf st0 l) as [st1|] eqn:Es; [|discriminate].
      eapply IH; [eapply step_inv; eassumption|eapply step_winv; eassumption|eapply step_tpair; eassumption|exact H]. }
  intros st H. eapply G; [apply Inv_init|apply WInv_init|apply TPair_init|exact H].
Qed.

Definition thr_ok (th : tid) (j : instr) : Prop :=
  match j with
  | INcGet k _ => th = TR k
  | INcChk k f ft own _ => th = TR k /\ own = (k, (if ft =? c_responseFrame then 1 else 0), f_id f)
  | IRcvGet r => r_ft r = c_responseFrame -> th = TR (key_conn (r_own r)) /\ key_dir (r_own r) = 1
  | IRcvChk r rk _ | IRcvEnq r rk _ =>
      rk = rcv_key r /\ (r_ft r = c_responseFrame -> th = TR (key_conn (r_own r)) /\ key_dir (r_own r) = 1)
  | _ => True
  end.

Lemma pushes_thr : forall st st1 th i j, pushes st st1 i j -> thr_ok th i -> thr_ok th j.
Proof.
  intros st st1 th i j Hp Hi. destruct Hp; cbn [thr_ok next_frag r_ft r_own] in *; try exact I; try (apply Hi).
  - (* IAddOrig *) discriminate.
  - (* INcGet *) split; [exact Hi|reflexivity].
  - (* INcChk *) destruct Hi as [-> ->]. intros ->. rewrite Z.eqb_refl. split; reflexivity.
  - (* IRcvGet *) split; [reflexivity|exact Hi].
Qed.

Definition commit_ok (j : instr) : Prop :=
  match j with
  | INcChk _ f _ _ (Some (it, s)) => it_tomb it = false -> fin_of f = true -> s = true
  | IRcvChk r _ (Some (it, s)) => it_tomb it = false -> fin_of (r_f r) = true -> s = true
  | _ => True
  end.

Record FInv (st : state) (h : held) : Prop := {
  f_thr : forall th code j, In (th, code) (threads st) -> In j code -> thr_ok th j;
  f_fired : forall code t it, In (TT (it_tm it), code) (threads st) -> tt_pending code (it_tm it) t ->
              In (t, it) (items st) -> it_tomb it = false -> In (TT (it_tm it), it_call it) h;
  f_commit : forall th code j, In (th, code) (threads st) -> In j code -> commit_ok j;
  f_own : forall th code j own tk ti c, In (th, code) (threads st) -> In j code -> flight j = Some (own, tk, ti, c) ->
            exists it1, klookup own (items st) = Some it1 /\ it_tomb it1 = false /\ it_call it1 = c /\ it_dest it1 = tk /\ it_remap it1 = ti;
  f_noadm : forall th code j own tk ti c, In (th, code) (threads st) -> In j code -> flight j = Some (own, tk, ti, c) ->
            forall th2 code2 i f, In (th2, code2) (threads st) -> In i code2 -> adm_kf i = Some (tk, f) -> f_id f <> ti;
  f_ncget : forall th code k f, In (th, code) (threads st) -> In (INcGet k f) code -> kind_of f <> None ->
            f_id f < c_nextid (getc (conns st) k)
}.

Lemma FInv_init : FInv init [].
Proof. constructor; cbn; intros; contradiction. Qed.

(* in a run without overlap a Get that has to stop the timer of a live item does stop it *)
Lemma get_wins : forall st h th i rest t st2 it, Inv st -> TInv st -> HInv st h -> FInv st h ->
  lookup tid_eqb th (threads st) = Some (i :: rest) -> is_trun i = false -> is_tent i = false ->
  (forall c, In c (live_call st t) -> others_hold h th c = false) ->
  items_get st t true = (st2, Some (it, false)) -> it_tomb it = false -> False.
Proof.
  intros st h th i rest t st2 it HI HT HH HF El Hg1 Hg2 Hto E Hlive.
  destruct (items_get_tspec _ _ _ _ _ HT E) as (_&_&_&Hm).
  destruct (klookup t (items st)) as [it0|] eqn:Hl; [|destruct Hm as [Hm _]; discriminate].
  destruct Hm as (x&Hx&Hk&[(Hs&_)|[(_&Hgg&_)|[(_&Hgg&_)|(_&Hgg&Hns&Hna&_)]]]); try discriminate.
  inversion Hgg. subst it0.
  pose proof (lookup_in key_eqb key_eqb_ok _ _ _ Hl) as Hin.
  destruct (t_oblig _ HT _ _ Hin Hlive) as (y&Hy&[A|[(code&Hc&Hp)|(S&_)]]); rewrite Hx in Hy; inversion Hy; subst y.
  - congruence.
  - pose proof (f_fired _ _ HF _ _ _ Hc Hp Hin Hlive) as Hh.
    assert (Hth : TT (it_tm it) = th).
    { eapply others_hold_false; [|exact Hh]. apply Hto. apply live_call_in; assumption. }
    subst th. pose proof (thread_lookup _ _ _ HI Hc) as Hl2. rewrite El in Hl2. inversion Hl2. subst code.
    destruct Hp as [Hp|(o&r'&Hp)]; inversion Hp; subst i; discriminate.
  - congruence.
Qed.

Lemma held_keep : forall st l st' h th c code, In (th, c) h -> lookup tid_eqb th (threads st') = Some code ->
  In (th, c) (held_next st l st' h).
Proof.
  intros st l st' h th c code Hh Hl. destruct (actor l) as [a|] eqn:Ea; [|apply held_next_other; [exact Hh|congruence]].
  destruct (eqb_dec tid_eqb tid_eqb_ok th a) as [->|Hne].
  - eapply held_next_self; [exact Ea|exact Hl|left; exact Hh].
  - apply held_next_other; [exact Hh|congruence].
Qed.

Lemma no_overlap_touch : forall st h th room i rest c, no_overlap_step st h (LStep th room) = true ->
  lookup tid_eqb th (threads st) = Some (i :: rest) -> In c (touches_i st i) -> others_hold h th c = false.
Proof.
  intros st h th room i rest c Hno El Hc. unfold no_overlap_step in Hno. cbn [actor touches] in Hno. unfold head_of in Hno. rewrite El in Hno.
  rewrite forallb_forall in Hno. apply negb_true_iff. apply Hno. exact Hc.
Qed.

Lemma tt_pending_head : forall code tm t, tt_pending code tm t ->
  exists j, In j code /\ (j = ITimerRun tm \/ exists o, j = IEntomb t (FromTimeout o)).
Proof.
  intros code tm t [->|(o&r&->)]; eexists; (split; [left; reflexivity|]); [left; reflexivity|right; exists o; reflexivity].
Qed.

Lemma step_finv_LStep : forall cf st h th i rest room st1 pushed,
  Inv st -> TInv st -> WInv st -> HInv st h -> Shape st -> TPair st -> FInv st h ->
  lookup tid_eqb th (threads st) = Some (i :: rest) -> exec cf st i room = (st1, pushed) ->
  no_overlap_step st h (LStep th room) = true ->
  FInv (set_thread st1 th (pushed ++ rest)) (held_next st (LStep th room) (set_thread st1 th (pushed ++ rest)) h).
Proof.
  intros cf st h th i rest room st1 pushed HI HT HW HH HS HP HF El E Hno.
  pose proof (lookup_in tid_eqb tid_eqb_ok _ _ _ El) as Hin0.
  pose proof (exec_threads _ _ _ _ _ _ E) as Hth.
  pose proof (exec_nextid_le _ _ _ _ _ _ E) as Hmono.
  destruct (inv_code _ HI _ _ Hin0) as [Hfo Hsing]. inversion Hfo as [|? ? Hiok _]. subst.
  pose proof (fun c => no_overlap_touch _ _ _ _ _ _ c Hno El) as Htouch.
  assert (Hold : forall t it, In (t, it) (items st) -> klookup t (items st) = Some it).
  { intros t it Hin. exact (item_lookup _ _ _ HI Hin). }
  set (st' := set_thread st1 th (pushed ++ rest)).
  assert (Hcode : forall th' code' j, In (th', code') (threads st') -> In j code' ->
     (th' = th /\ code' = pushed ++ rest /\ In j pushed) \/ (exists code0, In (th', code0) (threads st) /\ In j code0 /\ (th' = th -> In j rest))).
  { intros th' code' j Hin Hj. apply set_thread_in in Hin. destruct Hin as [[-> ->]|[Hne Hin]].
    - apply in_app_or in Hj. destruct Hj as [Hj|Hj]; [left; repeat split; assumption|].
      right. exists (i :: rest). split; [exact Hin0|]. split; [right; exact Hj|intros _; exact Hj].
    - right. rewrite Hth in Hin. exists code'. split; [exact Hin|]. split; [exact Hj|]. intro Heq. contradiction. }
  assert (Hkeep : forall th' c code', In (th', code') (threads st') -> In (th', c) h -> In (th', c) (held_next st (LStep th room) st' h)).
  { intros th' c code' Hin Hh. eapply held_keep; [exact Hh|]. apply (in_lookup tid_eqb tid_eqb_ok); [|exact Hin].
    apply set_thread_nodup. rewrite Hth. apply (inv_threads_nd _ HI). }
  assert (Hholds : forall th' code0 j c, In (th', code0) (threads st) -> In j code0 -> oncall c j = true -> In (th', c) h).
  { intros. eapply (h_code _ _ HH); eassumption. }
  constructor.
  - (* f_thr *)
    intros th' code' j Hin Hj. destruct (Hcode _ _ _ Hin Hj) as [(->&_&Hp)|(code0&Hin1&Hj1&_)].
    + eapply pushes_thr; [eapply exec_pushes; eassumption|]. eapply (f_thr _ _ HF); [exact Hin0|left; reflexivity].
    + eapply (f_thr _ _ HF); eassumption.
  - (* f_fired *)
    intros code' t it Hin Hp Hit Hlive. cbn [st' set_thread set_threads items] in Hit.
    destruct (tt_pending_head _ _ _ Hp) as (j&Hj&Hjk).
    assert (Horigin : (exists it0, In (t, it0) (items st) /\ it_call it = it_call it0 /\ it_tm it = it_tm it0 /\ (it_tomb it0 = true -> it_tomb it = true)) \/
                      (it_tm it = next_tm st /\ exists k f, adm_kf i = Some (k, f))).
    { destruct (exec_items_fields _ _ _ _ _ _ _ _ E Hit) as [(it0&Hi0&Hc&_&_&_&Htm&Htomb)|[(k&f&e&c&d&->&_&_&_&_&_&_&Htm)|(k&f&e&c&d&did&->&_&_&_&_&_&_&Htm)]];
        [left; exists it0; repeat split; assumption|right; split; [exact Htm|eexists; eexists; reflexivity]..]. }
    destruct Horigin as [(it0&Hi0&Hc&Htm&Htomb)|(Htm&k&f&Hadm)].
    + assert (Hl0 : it_tomb it0 = false) by (destruct (it_tomb it0); [rewrite Htomb in Hlive by reflexivity; discriminate|reflexivity]).
      rewrite Hc, Htm in *.
      destruct (Hcode _ _ _ Hin Hj) as [(Heq&Hc'&Hpj)|(code0&Hin1&Hj1&Hrest)].
      * (* the timer goroutine itself stepped *)
        destruct (exec_pushed _ _ _ _ _ _ _ E Hpj) as (Htr&Hte&_).
        destruct Hjk as [->|(o&->)]; [discriminate|].
        assert (exists tm1, i = ITimerRun tm1) as [tm1 ->] by (destruct i; try discriminate (Hte eq_refl); eexists; reflexivity).
        pose proof (t_code _ HT _ _ Hin0) as Htc. cbn in Htc. destruct Htc as (_&Hthq&Hr&_). subst rest.
        rewrite <- Heq in Hthq. inversion Hthq. subst tm1.
        eapply Hkeep; [exact Hin|].
        eapply (f_fired _ _ HF); [rewrite Heq; exact Hin0|left; reflexivity|exact Hi0|exact Hl0].
      * destruct (eqb_dec tid_eqb tid_eqb_ok (TT (it_tm it0)) th) as [Heq|Hn].
        -- exfalso. specialize (Hrest Heq). pose proof (t_code _ HT _ _ Hin0) as Htc. cbn in Htc. destruct Htc as [Hr _].
           destruct (Hr _ Hrest) as [A B]. destruct Hjk as [->|(o&->)]; discriminate.
        -- assert (Hc0 : code0 = code').
           { apply set_thread_in in Hin. destruct Hin as [[Hx _]|[_ Hin]]; [contradiction|]. rewrite Hth in Hin.
             pose proof (thread_lookup _ _ _ HI Hin) as L1.
             pose proof (thread_lookup _ _ _ HI Hin1) as L2. congruence. }
           subst code0. eapply Hkeep; [exact Hin|]. eapply (f_fired _ _ HF); eassumption.
    + (* a freshly added item: its timer is new, no goroutine of it exists *)
      exfalso. rewrite Htm in *.
      destruct (Hcode _ _ _ Hin Hj) as [(Heq&_&_)|(code0&Hin1&Hj1&_)].
      * destruct (iok_adm _ _ _ _ i k f Hadm Hiok) as [Hk _]. congruence.
      * pose proof (t_code _ HT _ _ Hin1) as Htc. destruct code0 as [|a r]; [contradiction|]. cbn in Htc. destruct Htc as [Hr Hm].
        assert (Hbound : forall tm x, zlookup tm (timers st) = Some x -> tm < next_tm st) by (intros tm x Hx; apply (t_alloc _ HT _ _ Hx)).
        destruct Hj1 as [->|Hj1].
        -- destruct Hjk as [->|(o&->)].
           ++ destruct Hm as (Hq&_&x&Hx&_). inversion Hq. pose proof (Hbound _ _ Hx). lia.
           ++ destruct Hm as (tm0&x&Hq&Hx&_). inversion Hq. pose proof (Hbound _ _ Hx). lia.
        -- destruct (Hr _ Hj1) as [A B]. destruct Hjk as [->|(o&->)]; discriminate.
  - (* f_commit *)
    intros th' code' j Hin Hj. destruct (Hcode _ _ _ Hin Hj) as [(->&_&Hp)|(code0&Hin1&Hj1&_)]; [|eapply (f_commit _ _ HF); eassumption].
    (* a Get that has to stop the timer of a live item wins: nobody else acts on the call *)
    destruct (exec_pushes _ _ _ _ _ _ _ E Hp); try exact I;
      (destruct g as [[it s]|]; [|exact I]); cbn; intros Hlive Hfin; (destruct s; [reflexivity|]); exfalso;
      match goal with Eg : items_get _ _ _ = _ |- _ => rewrite Hfin in Eg; eapply (get_wins st h th); try eassumption; try reflexivity end.
    intros c Hc. apply Htouch. cbn [touches_i gets_i]. unfold nc_key.
    match goal with Eft : frameTypeFor _ = _ |- _ => rewrite Eft end. exact Hc.
  - (* f_own *)
    intros th' code' j own tk ti c Hin Hj Hfl. cbn [st' set_thread set_threads items].
    assert (Hpersist : forall it1, klookup own (items st) = Some it1 -> it_tomb it1 = false -> it_call it1 = c ->
              (forall thj code0, In (thj, code0) (threads st) -> In j code0 -> (thj = th -> In j rest) -> True) ->
              (exists thj code0, In (thj, code0) (threads st) /\ In j code0 /\ (thj = th -> In j rest)) \/ flight i <> None ->
              klookup own (items st1) = Some it1).
    { intros it1 Hl1 Hlive1 Hcall1 _ Hwho.
      destruct (exec_items_keep _ _ _ _ _ _ _ _ E Hl1) as [Hk|[Hi|[(k&f&e&c0&d&Hi&Ht)|(k&f&e&c0&d&did&Hi&Ht)]]%or_assoc]; [exact Hk| | |].
      - (* Entomb / Delete of the item: excluded while another goroutine holds the call; the goroutine itself is past its flight instructions *)
        exfalso. assert (Hti : In c (touches_i st i) /\ flight i = None /\ opener i = true).
        { rewrite <- Hcall1. destruct Hi as [(s&->)|(lk0&->)]; (split; [apply live_call_in; assumption|split; reflexivity]). }
        destruct Hti as (Hti&Hfi0&Hop). destruct Hwho as [(thj&code0&Hinj&Hjj&Hrest)|Hfi]; [|apply Hfi; exact Hfi0].
        assert (Hhj : In (thj, c) h) by (eapply Hholds; [exact Hinj|exact Hjj|eapply flight_oncall; exact Hfl]).
        assert (Heq : thj = th) by (eapply others_hold_false; [|exact Hhj]; apply Htouch; exact Hti).
        destruct (shape_head _ _ (HS _ _ Hin0)) as (_&_&Hq). specialize (Hq Hop). rewrite forallb_forall in Hq.
        rewrite (quiet_flight _ (Hq _ (Hrest Heq))) in Hfl. discriminate.
      - exfalso. subst own. pose proof (dest_key_alloc _ _ _ HI Hl1 eq_refl) as Hlt. cbn in Hlt. rewrite get_conn_getc in Hlt. lia.
      - exfalso. subst i own. destruct (iok_adm _ _ _ _ (IAddOrig k f e c0 d did) k f eq_refl Hiok) as [_ (_&Hfree&_)]. congruence. }
    destruct (Hcode _ _ _ Hin Hj) as [(->&_&Hp)|(code0&Hin1&Hj1&Hrest)].
    + destruct (pushes_flight _ _ _ _ _ (exec_pushes _ _ _ _ _ _ _ E Hp) Hfl) as [Hfi|(k&f&it&Hi&Hft&Hl&Hlive&Hx)].
      * destruct (f_own _ _ HF _ _ _ _ _ _ _ Hin0 (or_introl eq_refl) Hfi) as (it1&Hl1&A&B&C&D).
        exists it1. split; [|repeat split; assumption]. apply Hpersist; try assumption; [intros; exact I|]. right. congruence.
      * inversion Hx. subst own tk ti c. exists it. split; [|repeat split; assumption].
        destruct (exec_items_keep _ _ _ _ _ _ _ _ E Hl) as [Hk|[(s&Hi2)|[(lk0&Hi2)|[(k2&f2&e2&c2&d2&Hi2&_)|(k2&f2&e2&c2&d2&did2&Hi2&_)]]]]; [exact Hk| | | |]; subst i; discriminate.
    + destruct (f_own _ _ HF _ _ _ _ _ _ _ Hin1 Hj1 Hfl) as (it1&Hl1&A&B&C&D).
      exists it1. split; [|repeat split; assumption]. apply Hpersist; try assumption; [intros; exact I|]. left. exists th', code0. repeat split; assumption.
  - (* f_noadm *)
    intros th' code' j own tk ti c Hin Hj Hfl th2 code2 i2 f2 Hin2 Hj2 Ha Hfid.
    assert (Hadm_old : exists thx codex, In (thx, codex) (threads st) /\ exists ix, In ix codex /\ adm_kf ix = Some (tk, f2)).
    { destruct (Hcode _ _ _ Hin2 Hj2) as [(->&_&Hp2)|(code0&Hin1&Hj1&_)].
      - destruct (pushes_adm _ _ _ _ _ _ (exec_pushes _ _ _ _ _ _ _ E Hp2) Ha) as (Hai&_). exists th, (i :: rest). split; [exact Hin0|]. exists i. split; [left; reflexivity|exact Hai].
      - exists th2, code0. split; [exact Hin1|]. exists i2. split; assumption. }
    destruct Hadm_old as (thx&codex&Hinx&ix&Hjx&Hax).
    destruct (Hcode _ _ _ Hin Hj) as [(->&_&Hp)|(code0&Hin1&Hj1&_)].
    + destruct (pushes_flight _ _ _ _ _ (exec_pushes _ _ _ _ _ _ _ E Hp) Hfl) as [Hfi|(k&f&it&Hi&Hft&Hl&Hlive&Hx)].
      * exact (f_noadm _ _ HF _ _ _ _ _ _ _ Hin0 (or_introl eq_refl) Hfi _ _ _ _ Hinx Hjx Hax Hfid).
      * assert (Hfid' : f_id f2 = it_remap it) by (inversion Hx; congruence).
        assert (Htk' : tk = it_dest it) by (inversion Hx; congruence).
        subst i tk.
        pose proof (lookup_in key_eqb key_eqb_ok _ _ _ Hl) as Hit.
        destruct (tp1 _ HP _ _ _ _ _ _ Hit eq_refl Hinx Hjx Hax Hfid') as [e He]. subst ix.
        assert (Hhx : In (thx, it_call it) h) by (eapply Hholds; [exact Hinx|exact Hjx|cbn; apply Z.eqb_refl]).
        assert (Heq : thx = th).
        { eapply others_hold_false; [|exact Hhx]. apply Htouch. cbn [touches_i gets_i]. unfold nc_key. rewrite Hft, Z.eqb_refl.
          apply live_call_in; assumption. }
        subst thx. pose proof (thread_lookup _ _ _ HI Hinx) as Lx. rewrite El in Lx. inversion Lx. subst codex.
        pose proof (Hsing _ Hjx eq_refl) as Hs. inversion Hs.
    + exact (f_noadm _ _ HF _ _ _ _ _ _ _ Hin1 Hj1 Hfl _ _ _ _ Hinx Hjx Hax Hfid).
  - (* f_ncget *)
    intros th' code' k f Hin Hj Hk. cbn [st' set_thread set_threads conns].
    destruct (Hcode _ _ _ Hin Hj) as [(->&_&Hp)|(code0&Hin1&Hj1&_)].
    + destruct (exec_pushed _ _ _ _ _ _ _ E Hp) as (_&_&_&Hn). exfalso. eapply Hn. reflexivity.
    + pose proof (f_ncget _ _ HF _ _ _ _ Hin1 Hj1 Hk). specialize (Hmono k). lia.
Qed.

Lemma flight_seen : forall st th code j own tk ti c, WInv st -> In (th, code) (threads st) -> In j code ->
  flight j = Some (own, tk, ti, c) -> In (tk, ti) (seen st).
Proof.
  intros st th code j own tk ti c HW Hin Hj Hfl. pose proof (w_code _ HW _ _ _ Hin Hj) as Hw.
  destruct j; cbn in Hfl; try discriminate.
  - destruct g as [[it s]|]; [|discriminate]. destruct ((ft =? c_responseFrame) && negb (it_tomb it)) eqn:Eb; [|discriminate].
    apply andb_true_iff in Eb. destruct Eb as [E1 _]. apply Z.eqb_eq in E1. inversion Hfl. subst. cbn in Hw. destruct Hw as [_ Hw]. apply Hw. reflexivity.
  - destruct (r_ft r =? c_responseFrame) eqn:E1; [|discriminate]. apply Z.eqb_eq in E1. inversion Hfl. subst. cbn in Hw. destruct Hw as (_&Hw&_). apply Hw. exact E1.
  - destruct (r_ft r =? c_responseFrame) eqn:E1; [|discriminate]. apply Z.eqb_eq in E1. inversion Hfl. subst. cbn in Hw. destruct Hw as (_&Hw&_). apply Hw. exact E1.
  - destruct (r_ft r =? c_responseFrame) eqn:E1; [|discriminate]. apply Z.eqb_eq in E1. inversion Hfl. subst. cbn in Hw. destruct Hw as (_&Hw&_). apply Hw. exact E1.
Qed.

(* what the single instruction of a goroutine created by an arrival or a firing satisfies: it is not in
   flight, is admitted under a fresh id, reads an allocated id and, if it is a timer's, holds the
   call of its item *)
Definition new_ok (st : state) (h' : held) (th : tid) (j : instr) : Prop :=
  thr_ok th j /\ commit_ok j /\ flight j = None /\
  (forall k f, adm_kf j = Some (k, f) -> ~ In (k, f_id f) (seen st)) /\
  (forall k f, j = INcGet k f -> kind_of f <> None -> f_id f < c_nextid (getc (conns st) k)) /\
  (forall t it, th = TT (it_tm it) -> In (t, it) (items st) -> it_tomb it = false -> In (th, it_call it) h').

(* a step that executes no instruction: items only go, live ones stay, the code is the old code
   plus at most one such goroutine *)
Lemma FInv_other : forall st st' h h', WInv st -> FInv st h ->
  (forall t it, In (t, it) (items st') -> In (t, it) (items st)) ->
  (forall t it, klookup t (items st) = Some it -> it_tomb it = false -> klookup t (items st') = Some it) ->
  (forall k, c_nextid (getc (conns st) k) <= c_nextid (getc (conns st') k)) ->
  (forall th code, In (th, code) (threads st') -> In (th, code) (threads st) \/ exists j, code = [j] /\ new_ok st h' th j) ->
  (forall th c code, In (th, code) (threads st') -> In (th, c) h -> In (th, c) h') ->
  FInv st' h'.
Proof.
  intros st st' h h' HW HF Hsub Hkeep Hmono Hcode Hh. unfold new_ok in Hcode. constructor.
  - intros th code j Hin Hj. destruct (Hcode _ _ Hin) as [Hold|(j0&->&A&_)]; [eapply (f_thr _ _ HF); eassumption|].
    destruct Hj as [<-|[]]. exact A.
  - intros code t it Hin Hp Hit Hlive. apply Hsub in Hit. destruct (Hcode _ _ Hin) as [Hold|(j0&->&_&_&_&_&_&A)].
    + eapply Hh; [exact Hin|]. eapply (f_fired _ _ HF); eassumption.
    + eapply A; [reflexivity|eassumption|exact Hlive].
  - intros th code j Hin Hj. destruct (Hcode _ _ Hin) as [Hold|(j0&->&_&A&_)]; [eapply (f_commit _ _ HF); eassumption|].
    destruct Hj as [<-|[]]. exact A.
  - intros th code j own tk ti c Hin Hj Hfl. destruct (Hcode _ _ Hin) as [Hold|(j0&->&_&_&A&_)].
    + destruct (f_own _ _ HF _ _ _ _ _ _ _ Hold Hj Hfl) as (it1&Hl1&Hlive&Rest). exists it1. split; [apply Hkeep; assumption|split; assumption].
    + destruct Hj as [<-|[]]. congruence.
  - intros th code j own tk ti c Hin Hj Hfl th2 code2 i f Hin2 Hi Ha Hfid.
    destruct (Hcode _ _ Hin) as [Hold|(j0&->&_&_&A&_)]; [|destruct Hj as [<-|[]]; congruence].
    destruct (Hcode _ _ Hin2) as [Hold2|(j0&->&_&_&_&A&_)].
    + exact (f_noadm _ _ HF _ _ _ _ _ _ _ Hold Hj Hfl _ _ _ _ Hold2 Hi Ha Hfid).
    + destruct Hi as [<-|[]]. apply (A _ _ Ha). rewrite Hfid. eapply flight_seen; eassumption.
  - intros th code k f Hin Hj Hk. specialize (Hmono k). destruct (Hcode _ _ Hin) as [Hold|(j0&->&_&_&_&_&A&_)].
    + pose proof (f_ncget _ _ HF _ _ _ _ Hold Hj Hk). lia.
    + destruct Hj as [->|[]]. pose proof (A _ _ eq_refl Hk). lia.
Qed.

Lemma step_finv : forall cf st h l st', Inv st -> TInv st -> WInv st -> HInv st h -> Shape st -> TPair st -> FInv st h ->
  fresh_label st l = true -> no_overlap_step st h l = true -> causal_step st l = true ->
  step cf st l = Some st' -> FInv st' (held_next st l st' h).
Proof.
  intros cf st h l st' HI HT HW HH HS HP HF Hfresh Hno Hcau H.
  pose proof (step_inv _ _ _ _ HI Hfresh H) as HI'.
  assert (Hother : (forall th room, l <> LStep th room) -> (forall t it, In (t, it) (items st') -> In (t, it) (items st)) ->
            (forall th code, In (th, code) (threads st') -> In (th, code) (threads st) \/
               exists j, code = [j] /\ new_ok st (held_next st l st' h) th j) ->
            FInv st' (held_next st l st' h)).
  { intros Hn Hsub Hcode. apply (FInv_other st st' h); try assumption.
    - intros t it Hl Hlv. destruct (step_items_keep _ _ _ _ _ _ HI H Hl Hlv) as [Hk|(th&room&_&_&Hlab&_)]; [exact Hk|]. exfalso. eapply Hn. exact Hlab.
    - intro k. eapply step_nextid_mono. exact H.
    - intros th c code Hin Hh. eapply held_keep; [exact Hh|]. exact (thread_lookup _ _ _ HI' Hin). }
  assert (Hnew : forall s th j, threads s = threads st -> new_ok st (held_next st l st' h) th j ->
            forall th' code, In (th', code) (threads (set_thread s th [j])) -> In (th', code) (threads st) \/
              exists j0, code = [j0] /\ new_ok st (held_next st l st' h) th' j0).
  { intros s th j Hs Hj th' code Hin. apply set_thread_in in Hin. destruct Hin as [[-> ->]|[_ Hin]]; [right; exists j; split; [reflexivity|exact Hj]|left; rewrite <- Hs; exact Hin]. }
  destruct (Step_of_step _ _ _ _ H) as [k f e El Er|k f e El Er Em|k f e El Er Em|th room i rest st1 pushed El E|tm x Ex Ea El|t Em|k s|k s|k s];
    try (apply Hother; [intros; discriminate|intros; assumption|intros; left; assumption]).
  - apply Hother; [intros; discriminate|intros; assumption|].
    apply (Hnew (set_seen st ((k, f_id f) :: seen st))); [reflexivity|]. unfold new_ok. repeat split; try (intros; discriminate).
    intros k1 f1 Ha. inversion Ha. subst. eapply fresh_unseen; eassumption.
  - apply Hother; [intros; discriminate|intros; assumption|].
    apply (Hnew st); [reflexivity|]. unfold new_ok. repeat split; try (intros; discriminate).
    intros k1 f1 Heq Hk. inversion Heq. subst. cbn [causal_step] in Hcau. destruct (kind_of f1); [|contradiction Hk; reflexivity].
    apply Z.ltb_lt in Hcau. exact Hcau.
  - eapply step_finv_LStep; eassumption.
  - (* the timer goroutine holds the call of its live item from the start *)
    apply Hother; [intros; discriminate|intros; assumption|].
    apply (Hnew (set_timers st (zinsert tm (fired_timer x) (timers st)))); [reflexivity|]. unfold new_ok. repeat split; try (intros; discriminate).
    intros t it Hq Hit Hlv. assert (Htm : it_tm it = tm) by (inversion Hq; reflexivity).
    apply (held_next_self _ _ _ _ _ _ [ITimerRun tm]); [reflexivity|rewrite lookup_set_thread_self; reflexivity|].
    right. unfold acquires, touches. rewrite Ex, app_nil_r.
    destruct (t_item _ HT _ _ Hit) as (y&Hy&Hk&_). rewrite Htm, Ex in Hy. inversion Hy. subst y.
    rewrite Hk. apply live_call_in; [|exact Hlv]. exact (item_lookup _ _ _ HI Hit).
  - destruct (gc_fields st t) as (_&A&_&_&Hsub).
    apply Hother; [intros; discriminate|exact Hsub|]. intros th code Hin. left. rewrite <- A. exact Hin.
Qed.

Record AllInv (st : state) (h : held) : Prop := {
  a_inv : Inv st; a_tinv : TInv st; a_winv : WInv st; a_hinv : HInv st h; a_shape : Shape st;
  a_tpair : TPair st; a_finv : FInv st h; a_linv : LInv st
}.

Lemma AllInv_init : AllInv init [].
Proof.
  constructor; [apply Inv_init|apply TInv_init|apply WInv_init|apply HInv_init|apply Shape_init|apply TPair_init|apply FInv_init|apply LInv_init].
Qed.

Lemma step_all : forall cf st h l st', AllInv st h -> fresh_label st l = true -> no_overlap_step st h l = true ->
  causal_step st l = true -> step cf st l = Some st' -> AllInv st' (held_next st l st' h).
Proof.
  intros cf st h l st' [HI HT HW HH HS HP HF HL] Hf Hno Hc Hs. constructor.
  - eapply step_inv; eassumption.
  - eapply step_tinv; eassumption.
  - eapply step_winv; eassumption.
  - eapply step_hinv; eassumption.
  - eapply step_shape; eassumption.
  - eapply step_tpair; eassumption.
  - eapply step_finv; eassumption.
  - eapply LInv_step; eassumption.
Qed.
