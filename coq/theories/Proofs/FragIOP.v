(* The io.Writer / io.Reader contract of the argument streams (Model/FragIO.v):
   - Write returns n = len(p) with a nil error, for every write size and every capacity that
     lets a continuation fragment take at least one byte; the state it leaves is the one of
     Model/Frag.v (so everything proved there carries over);
   - for every script of three arguments the counts returned for an argument add up to the length
     of the argument the emitted fragments denote;
   - a caller that re-offers whatever a short count leaves transmits its bytes exactly once;
   - Read returns n = the number of bytes it delivered, at most len(buf), and fewer than len(buf)
     only together with io.EOF or an error. *)
From Coq Require Import ZArith List Bool Lia.
From Verif Require Import Base.Wrap Base.Bytes Base.Wire Gen.GenConsts Gen.GenFrame Model.Crc Model.Frag
  Model.FragWire Model.FragIO Spec.FragSpec Spec.FragOk Proofs.FragWP Proofs.FragRP.
Import ListNotations.
Local Open Scope Z_scope.

Lemma zlen_skipn {A} (l : list A) k : 0 <= k <= zlen l -> zlen (skipn (Z.to_nat k) l) = zlen l - k.
Proof. intros H. unfold zlen in *. rewrite skipn_length. lia. Qed.

Lemma skipn_zlen {A} (l : list A) : skipn (Z.to_nat (zlen l)) l = [].
Proof. unfold zlen. rewrite Nat2Z.id. apply skipn_all. Qed.

Definition int_max : Z := 2 ^ 63.

Lemma wrap_int x : 0 <= x < int_max -> wrapS 64 x = x.
Proof. intros H. apply wrapS_id; [lia|]. unfold int_max in H. change (64 - 1) with 63. lia. Qed.

Section WriterIO.
  Variable capf : bool -> Z.

  Lemma w_fits_range st b : 0 <= w_fits st b <= zlen b.
  Proof. unfold w_fits. pose proof (zlen_nonneg b). lia. Qed.

  Lemma loop_n_state fuel : forall b st t,
    snd (w_write_loop_n capf fuel b st t) = w_write_loop capf fuel b st.
  Proof.
    induction fuel as [|f IH]; intros b st t; cbn [w_write_loop_n w_write_loop]; unfold wr_iter, w_put;
      change (Z.min (zlen b) (Z.max (ws_room st) 0)) with (w_fits st b);
      destruct (w_fits st b =? zlen b); try reflexivity.
    apply IH.
  Qed.

  (* the running total ends as the length of the slice, once a fresh fragment takes a byte
     (3 <= capf false): an iteration in a fragment with room moves at least one byte, an iteration
     without room costs one unit of fuel and is followed by one with room *)
  Lemma loop_n_total fuel : forall b st t,
    3 <= capf false -> (0 < ws_room st -> (length b <= fuel)%nat) -> (ws_room st <= 0 -> (length b < fuel)%nat) ->
    0 <= t -> t + zlen b < int_max ->
    fst (w_write_loop_n capf fuel b st t) = t + zlen b.
  Proof.
    induction fuel as [|f IH]; intros b st t Hc F1 F2 Ht Hb; cbn [w_write_loop_n]; unfold wr_iter;
      pose proof (w_fits_range st b) as Hn; pose proof (zlen_nonneg b) as Hl;
      rewrite (wrap_int (t + w_fits st b)) by lia;
      destruct (w_fits st b =? zlen b) eqn:E; cbn [fst]; try lia.
    - exfalso. unfold w_fits, zlen in *. lia.
    - rewrite IH.
      + rewrite zlen_skipn by lia. lia.
      + exact Hc.
      + intros _. rewrite skipn_length. unfold w_fits, zlen in *. lia.
      + unfold w_flush_raw. cbn [ws_room]. change c_chunkHeaderSize with 2. lia.
      + lia.
      + rewrite zlen_skipn by lia. lia.
  Qed.

  Lemma loop_n_count fuel : forall b st t,
    3 <= capf false -> 1 <= ws_room st -> (length b <= fuel)%nat -> 0 <= t -> t + zlen b < int_max ->
    fst (w_write_loop_n capf fuel b st t) = t + zlen b.
  Proof. intros b st t Hc Hr Hf. apply loop_n_total; [exact Hc|intros _; exact Hf|lia]. Qed.

  Lemma write_loop_count b st :
    3 <= capf false -> zlen b < int_max ->
    fst (w_write_loop_n capf (S (length b)) b st 0) = zlen b.
  Proof. intros Hc Hb. apply (loop_n_total (S (length b)) b st 0); [exact Hc|lia|lia|lia|exact Hb]. Qed.

  Lemma write_n_write b st :
    w_write_n capf b st =
    match w_write capf b st with
    | None => None
    | Some (c, st') => Some (if (ws_err st =? 0) && is_writing (ws_state st)
                             then fst (w_write_loop_n capf (S (length b)) b st 0) else 0, c, st')
    end.
  Proof.
    unfold w_write_n, w_write.
    destruct (ws_err st =? 0); cbn [negb andb]; [|reflexivity].
    destruct (is_writing (ws_state st)); cbn [negb]; [|reflexivity].
    rewrite <- (loop_n_state (S (length b)) b st 0).
    destruct (w_write_loop_n capf (S (length b)) b st 0) as [n st']. reflexivity.
  Qed.

  Lemma step_n_step st o :
    match w_step_n capf st o, w_step capf st o with
    | Some (_, c, st1), Some (c', st1') => c = c' /\ st1 = st1'
    | None, None => True
    | _, _ => False
    end.
  Proof.
    destruct o as [l|b| |]; cbn [w_step_n w_step].
    - destruct (w_begin capf l st) as [[c s]|]; auto.
    - rewrite write_n_write. destruct (w_write capf b st) as [[c s]|]; auto.
    - destruct (w_flush capf st) as [[c s]|]; auto.
    - destruct (w_close capf st) as [[c s]|]; auto.
  Qed.

  Lemma run_n_run ops : forall st acc,
    w_run capf ops st acc =
    match w_run_n capf ops st with None => None | Some (rets, stf) => Some (acc ++ map snd rets, stf) end.
  Proof.
    induction ops as [|o r IH]; intros st acc; cbn [w_run w_run_n].
    - cbn [map]. rewrite app_nil_r. reflexivity.
    - pose proof (step_n_step st o) as H.
      destruct (w_step_n capf st o) as [[[n c] s]|], (w_step capf st o) as [[c' s']|]; try contradiction.
      + destruct H as [-> ->]. rewrite IH.
        destruct (w_run_n capf r s') as [[rets stf]|]; [|reflexivity].
        cbn [map snd]. rewrite <- app_assoc. reflexivity.
      + reflexivity.
  Qed.

  Lemma run_n_app a : forall b st,
    w_run_n capf (a ++ b) st =
    match w_run_n capf a st with
    | None => None
    | Some (ra, sta) => match w_run_n capf b sta with None => None | Some (rb, stb) => Some (ra ++ rb, stb) end
    end.
  Proof.
    induction a as [|o a IH]; intros b st; cbn [app w_run_n].
    - destruct (w_run_n capf b st) as [[rb stb]|]; reflexivity.
    - destruct (w_step_n capf st o) as [[[n c] s]|]; [|reflexivity].
      rewrite IH. destruct (w_run_n capf a s) as [[ra sta]|]; [|reflexivity].
      destruct (w_run_n capf b sta) as [[rb stb]|]; reflexivity.
  Qed.

  (* what an operation must return: Write(p) = (len(p), nil), everything else nil *)
  Definition ret_ok (o : wop) (r : Z * Z) : Prop :=
    match o with WWrite b => r = (zlen b, 0) | _ => r = (0, 0) end.

  Definition small_op (o : wop) : Prop := match o with WWrite b => zlen b < int_max | _ => True end.

  Lemma step_n_ret st o n st' :
    3 <= capf false -> small_op o -> w_step_n capf st o = Some (n, 0, st') -> ret_ok o (n, 0).
  Proof.
    intros Hc Hs H. destruct o as [l|b| |]; cbn [w_step_n w_step ret_ok small_op] in *.
    - destruct (w_begin capf l st) as [[c s]|]; inversion H; reflexivity.
    - unfold w_write_n in H.
      destruct (ws_err st =? 0) eqn:E; cbn [negb] in H.
      + destruct (is_writing (ws_state st)); cbn [negb] in H; [|discriminate].
        pose proof (write_loop_count b st Hc Hs) as Hn.
        destruct (w_write_loop_n capf (S (length b)) b st 0) as [k s]. cbn [fst] in Hn.
        inversion H; subst. reflexivity.
      + inversion H. apply Z.eqb_neq in E. congruence.
    - destruct (w_flush capf st) as [[c s]|]; inversion H; reflexivity.
    - destruct (w_close capf st) as [[c s]|]; inversion H; reflexivity.
  Qed.

  Lemma run_n_rets ops : forall st rets stf,
    3 <= capf false -> Forall small_op ops ->
    w_run_n capf ops st = Some (rets, stf) -> Forall (fun c => c = 0) (map snd rets) ->
    Forall2 ret_ok ops rets.
  Proof.
    induction ops as [|o r IH]; intros st rets stf Hc Hs H H0; cbn [w_run_n] in H.
    - inversion H. constructor.
    - destruct (w_step_n capf st o) as [[[n c] s]|] eqn:E; [|discriminate].
      destruct (w_run_n capf r s) as [[rets' stf']|] eqn:E2; [|discriminate].
      inversion H; subst. cbn [map snd] in H0. inversion H0; subst. inversion Hs; subst.
      constructor.
      + eapply step_n_ret; eauto.
      + eapply IH; eauto.
  Qed.
End WriterIO.

(* the counts returned for the operations of one argument *)
Definition returned (rets : list (Z * Z)) : Z := zsum (map fst rets).

Definition small_writes (items : list witem) : Prop :=
  Forall (fun i => match i with IWrite b => zlen b < int_max | IFlush => True end) items.

Lemma small_arg_ops last items : small_writes items -> Forall small_op (arg_ops last items).
Proof.
  intros H. unfold arg_ops. constructor; [exact I|]. apply Forall_app. split.
  - induction H as [|i r Hi Hr IH]; cbn [map]; constructor; [|exact IH]. destruct i; exact Hi.
  - constructor; [exact I|constructor].
Qed.

Lemma zsum_app a b : zsum (a ++ b) = zsum a + zsum b.
Proof. induction a as [|x a IH]; cbn [app zsum fold_right]; [reflexivity|]. fold (zsum (a ++ b)) (zsum a). lia. Qed.

Lemma returned_items items : forall rets,
  Forall2 ret_ok (map item_op items) rets -> returned rets = zlen (arg_bytes items).
Proof.
  induction items as [|i r IH]; intros rets H; inversion H; subst.
  - reflexivity.
  - unfold returned, arg_bytes in *. cbn [map zsum fold_right flat_map].
    fold (zsum (map fst l')). rewrite zlen_app, (IH l') by assumption.
    destruct i; cbn [item_op ret_ok] in *; subst; cbn [fst]; [reflexivity|]. change (zlen (@nil Z)) with 0. lia.
Qed.

Lemma returned_arg last items rets :
  Forall2 (ret_ok) (arg_ops last items) rets -> returned rets = zlen (arg_bytes items).
Proof.
  unfold arg_ops. intros H. inversion H as [|o r l l' Hb Hr]; subst. cbn [ret_ok] in Hb. subst.
  apply Forall2_app_inv_l in Hr as (l1 & l2 & H1 & H2 & ->).
  inversion H2 as [|o2 r2 l3 l4 Hc Hn]; subst. inversion Hn; subst. cbn [ret_ok] in Hc. subst.
  unfold returned. cbn [map fst zsum fold_right]. fold (zsum (map fst (l1 ++ [(0, 0)]))).
  rewrite map_app, zsum_app. cbn [map fst zsum fold_right].
  pose proof (returned_items items l1 H1) as E. unfold returned in E. lia.
Qed.

(* WRITER, all scripts, with the returned values: for every capacity function, checksum and three
   arguments written with ANY sequence of write sizes (each < 2^63, as every Go slice) and flushes:
   no panic; every Write(p) returns (len(p), nil), every other operation nil; the counts returned
   for the Writes of an argument add up to the length of that argument; the fragments denote the
   arguments; and codes and final state are those of the run of Model/Frag.v (C01_writer). *)
Theorem io_writer : forall (capf : bool -> Z) ck a1 a2 a3,
  3 <= capf true -> 5 <= capf false ->
  small_writes a1 -> small_writes a2 -> small_writes a3 ->
  exists r1 st1 r2 st2 r3 st3,
    w_run_n capf (arg_ops false a1) (w_init ck) = Some (r1, st1) /\
    w_run_n capf (arg_ops false a2) st1 = Some (r2, st2) /\
    w_run_n capf (arg_ops true a3) st2 = Some (r3, st3) /\
    Forall2 ret_ok (arg_ops false a1) r1 /\ Forall2 ret_ok (arg_ops false a2) r2 /\ Forall2 ret_ok (arg_ops true a3) r3 /\
    returned r1 = zlen (arg_bytes a1) /\ returned r2 = zlen (arg_bytes a2) /\ returned r3 = zlen (arg_bytes a3) /\
    denote (chunks_of (ws_out st3)) = [arg_bytes a1; arg_bytes a2; arg_bytes a3] /\
    map zlen (denote (chunks_of (ws_out st3))) = [returned r1; returned r2; returned r3] /\
    w_run capf (script3 a1 a2 a3) (w_init ck) [] = Some (map snd (r1 ++ r2 ++ r3), st3).
Proof.
  intros capf ck a1 a2 a3 H1 H2 S1 S2 S3.
  destruct (writer_correct capf ck a1 a2 a3 H1 H2) as (codes & st & R & C0 & _ & _ & D & _ & _).
  assert (Hc : 3 <= capf false) by lia.
  rewrite run_n_run in R. unfold script3 in R. rewrite run_n_app in R.
  destruct (w_run_n capf (arg_ops false a1) (w_init ck)) as [[r1 st1]|] eqn:E1; [|discriminate].
  rewrite run_n_app in R.
  destruct (w_run_n capf (arg_ops false a2) st1) as [[r2 st2]|] eqn:E2; [|discriminate].
  destruct (w_run_n capf (arg_ops true a3) st2) as [[r3 st3]|] eqn:E3; [|discriminate].
  cbn [app] in R. inversion R; subst codes st. clear R.
  rewrite !map_app in C0. apply Forall_app in C0 as [C1 C0]. apply Forall_app in C0 as [C2 C3].
  pose proof (run_n_rets capf _ _ _ _ Hc (small_arg_ops false a1 S1) E1 C1) as F1.
  pose proof (run_n_rets capf _ _ _ _ Hc (small_arg_ops false a2 S2) E2 C2) as F2.
  pose proof (run_n_rets capf _ _ _ _ Hc (small_arg_ops true a3 S3) E3 C3) as F3.
  pose proof (returned_arg _ _ _ F1) as N1. pose proof (returned_arg _ _ _ F2) as N2. pose proof (returned_arg _ _ _ F3) as N3.
  exists r1, st1, r2, st2, r3, st3.
  split; [reflexivity|]. split; [exact E2|]. split; [exact E3|].
  split; [exact F1|]. split; [exact F2|]. split; [exact F3|].
  split; [exact N1|]. split; [exact N2|]. split; [exact N3|].
  split; [exact D|]. split; [rewrite D, N1, N2, N3; reflexivity|].
  rewrite run_n_run. unfold script3. rewrite run_n_app, E1, run_n_app, E2, E3. reflexivity.
Qed.

(* ONE Write, any state in which an argument is open: n = len(p), nil, and the state of Model/Frag.v *)
Theorem io_write_once : forall (capf : bool -> Z) st p,
  3 <= capf false -> zlen p < int_max -> ws_err st = 0 -> is_writing (ws_state st) = true ->
  exists st', w_write capf p st = Some (0, st') /\ w_write_n capf p st = Some (zlen p, 0, st').
Proof.
  intros capf st p Hc Hp He Hw. rewrite write_n_write. unfold w_write. rewrite He, Hw. cbn [Z.eqb negb andb].
  eexists. split; [reflexivity|]. rewrite write_loop_count by assumption. reflexivity.
Qed.

(* a caller that re-offers what a short count leaves makes ONE call and leaves the writer as one Write does *)
Theorem io_send_all_once : forall (capf : bool -> Z) st p fuel,
  3 <= capf false -> zlen p < int_max -> ws_err st = 0 -> is_writing (ws_state st) = true -> p <> [] ->
  exists st', w_write capf p st = Some (0, st') /\ w_send_all capf (S fuel) p st 0 = Some (1, 0, st').
Proof.
  intros capf st p fuel Hc Hp He Hw Hne.
  destruct (io_write_once capf st p Hc Hp He Hw) as (st' & W & N).
  exists st'. split; [exact W|].
  destruct p as [|x p]; [congruence|]. cbn [w_send_all]. rewrite N. cbn [Z.eqb negb].
  rewrite skipn_zlen. destruct fuel; reflexivity.
Qed.

(* ---- reader ---- *)

Lemma read_loop_len fuel : forall n acc st bs c st1,
  0 <= n -> r_read_loop fuel n acc st = Some (bs, c, st1) ->
  zlen bs <= zlen acc + n /\ (c = 0 -> zlen bs = zlen acc + n) /\ (c <> 0 -> zlen bs < zlen acc + n).
Proof.
  induction fuel as [|f IH]; intros n acc st bs c st1 Hn H; cbn [r_read_loop] in H;
    pose proof (zlen_nonneg (rs_cur st)) as Hl;
    set (k := Z.min n (zlen (rs_cur st))) in *;
    assert (Hk : 0 <= k <= zlen (rs_cur st) /\ k <= n) by (subst k; lia);
    assert (Hg : zlen (acc ++ firstn (Z.to_nat k) (rs_cur st)) = zlen acc + k) by (rewrite zlen_app, zlen_firstn by lia; reflexivity);
    destruct (n - k =? 0) eqn:E.
  - inversion H; subst. rewrite Hg. lia.
  - cbn [rs_rem rs_more] in H. destruct (rs_rem st); [|inversion H; subst; rewrite Hg; lia].
    destruct (negb (rs_more st)); inversion H; subst; rewrite Hg; lia.
  - inversion H; subst. rewrite Hg. lia.
  - cbn [rs_rem rs_more] in H. destruct (rs_rem st); [|inversion H; subst; rewrite Hg; lia].
    destruct (negb (rs_more st)); [inversion H; subst; rewrite Hg; lia|].
    match type of H with match ?r with _ => _ end = _ => destruct r as [[c2 st2]|] eqn:R end; [|discriminate].
    destruct (c2 =? 0) eqn:E2.
    + apply IH in H; [|lia]. rewrite Hg in H. lia.
    + inversion H; subst. rewrite Hg. apply Z.eqb_neq in E2. lia.
Qed.

Lemma read_loop_n_loop fuel : forall n acc t st,
  0 <= n -> t = zlen acc -> t + n < int_max ->
  r_read_loop_n fuel n acc t st =
  match r_read_loop fuel n acc st with None => None | Some (bs, c, st1) => Some (zlen bs, bs, c, st1) end.
Proof.
  induction fuel as [|f IH]; intros n acc t st Hn Ht Hb; cbn [r_read_loop_n r_read_loop]; unfold rd_iter;
    pose proof (zlen_nonneg (rs_cur st)) as Hl; pose proof (zlen_nonneg acc) as Ha;
    set (k := Z.min n (zlen (rs_cur st))) in *;
    assert (Hk : 0 <= k <= zlen (rs_cur st) /\ k <= n) by (subst k; lia);
    assert (Hg : zlen (acc ++ firstn (Z.to_nat k) (rs_cur st)) = zlen acc + k) by (rewrite zlen_app, zlen_firstn by lia; reflexivity);
    rewrite (wrap_int (t + k)) by lia; subst t; rewrite <- Hg;
    destruct (n - k =? 0) eqn:E; try reflexivity.
  - cbn [rs_rem rs_more]. destruct (rs_rem st); [|reflexivity]. destruct (negb (rs_more st)); reflexivity.
  - cbn [rs_rem rs_more]. destruct (rs_rem st); [|reflexivity]. destruct (negb (rs_more st)); [reflexivity|].
    match goal with |- match ?r with _ => _ end = _ => destruct r as [[c2 st2]|] end; [|reflexivity].
    destruct (c2 =? 0); [|reflexivity].
    apply IH; [lia|reflexivity|rewrite Hg; lia].
Qed.

(* READ with its count: the same bytes, code and state as Read of Model/Frag.v; the count is the
   number of bytes delivered; never more than len(buf); len(buf) exactly iff the error is nil *)
Theorem io_read : forall n st, 0 <= n < int_max ->
  r_read_n n st = match r_read n st with None => None | Some (bs, c, st1) => Some (zlen bs, bs, c, st1) end /\
  forall bs c st1, r_read n st = Some (bs, c, st1) ->
    zlen bs <= n /\ (c = 0 -> zlen bs = n) /\ (c <> 0 -> zlen bs < n \/ n = 0).
Proof.
  intros n st Hn. split.
  - unfold r_read_n, r_read. destruct (rs_err st =? 0); cbn [negb]; [|reflexivity].
    destruct (is_reading (rs_state st)); cbn [negb]; [|reflexivity].
    apply read_loop_n_loop; [lia|reflexivity|change (zlen (@nil Z)) with 0; lia].
  - intros bs c st1 H. unfold r_read in H.
    destruct (rs_err st =? 0) eqn:E; cbn [negb] in H.
    + destruct (is_reading (rs_state st)); cbn [negb] in H.
      * apply read_loop_len in H; [|lia]. change (zlen (@nil Z)) with 0 in H. lia.
      * inversion H; subst. change (zlen (@nil Z)) with 0. lia.
    + inversion H; subst. apply Z.eqb_neq in E. change (zlen (@nil Z)) with 0. lia.
Qed.

(* non-vacuity: a single Write across 2, 3 and 5 fragments (capacity 10: 8 data bytes per
   continuation fragment) returns its full length; and the counts as the harness sees them *)
Example io_write_spans :
  let capf := fun _ : bool => 10 in
  let st0 := match w_begin capf false (w_init (mkCk 0 0)) with Some (_, s) => s | None => w_init (mkCk 0 0) end in
  map (fun k => match w_write_n capf (repeat 7 k) st0 with
                | Some (n, c, st) => (n, c, Z.of_nat (length (ws_out st)))
                | None => (-1, -1, -1) end) [8%nat; 9%nat; 17%nat; 33%nat; 40%nat]
  = [(8, 0, 0); (9, 0, 1); (17, 0, 2); (33, 0, 4); (40, 0, 4)].
Proof. vm_compute. reflexivity. Qed.

Print Assumptions io_writer.
Print Assumptions io_send_all_once.
Print Assumptions io_read.
