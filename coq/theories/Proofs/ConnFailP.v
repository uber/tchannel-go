(* Proofs about Model/ConnFail.v (property C14, clause d: a connection failure of ANY kind ends
   the context of every handler running on that connection and every wait of the calls made
   over it) and the tie to the source: Gen/GenCtxFlow.stop_sites / notify_sites / watch_sites. *)
From Coq Require Import ZArith List Bool Lia.
From Verif Require Import Base.Wrap Base.Wire Gen.GenCtxFlow Spec.CtxFlowSpec Model.ConnFail.
Import ListNotations.
Local Open Scope Z_scope.

(* ------------------------------------------------------------------ the tie to the source *)

(* one row of stop_sites as a stop statement of the model: the receiver names the set, the
   guard is the shared once-only CAS or nothing; anything else (a stop under some other
   condition, on some other set) has no counterpart in the model *)
Definition stmt_of_row (r : list Z * list Z * list Z * list Z) : option stop_stmt :=
  let '(_, rx, _, g) := r in
  let set := if lz_eqb rx rx_inbound then Some XIn else if lz_eqb rx rx_outbound then Some XOut else None in
  let cas := if lz_eqb g cas_guard then Some true else if lz_eqb g [] then Some false else None in
  match set, cas with
  | Some x, Some c => Some (mkStop c x)
  | _, _ => None
  end.

Definition row_fn (r : list Z * list Z * list Z * list Z) : list Z := let '(f, _, _, _) := r in f.

(* the stop program of function [fn]: its rows in source order *)
Definition prog_of (fn : list Z) (rows : list (list Z * list Z * list Z * list Z)) : list (option stop_stmt) :=
  map stmt_of_row (filter (fun r => lz_eqb (row_fn r) fn) rows).

(* connectionError and protocolError are the only callers of stopExchanges, and their stop
   statements are the programs of the model *)
Lemma stop_programs_generated :
  prog_of fn_connection_error stop_sites = map Some ce_prog /\
  prog_of fn_protocol_error stop_sites = map Some pe_prog /\
  forallb (fun r => lz_eqb (row_fn r) fn_connection_error || lz_eqb (row_fn r) fn_protocol_error) stop_sites = true.
Proof.
  first [ vm_compute; repeat split; reflexivity
        | fail 1 "the stopExchanges statements regenerated from the source (Gen/GenCtxFlow.stop_sites) are not the stop programs of Model/ConnFail.v: Connection.connectionError and Connection.protocolError must each stop the OUTBOUND and the INBOUND exchange set under the shared once-only guard c.stoppedExchanges.CAS(false, true), and nothing else may call stopExchanges" ].
Qed.

Lemma notify_statements_generated : notify_sites = model_notify_sites.
Proof.
  first [ vm_compute; reflexivity
        | fail 1 "messageExchangeSet.stopExchanges (mex.go) changed: its calls / assignments / returns with their guards (Gen/GenCtxFlow.notify_sites) differ from Spec/CtxFlowSpec.model_notify_sites (latch shutdown under the lock, return early when already shut down, notify every copied exchange once)" ].
Qed.

Lemma watcher_statements_generated : watch_sites = model_watch_sites.
Proof.
  first [ vm_compute; reflexivity
        | fail 1 "the goroutine Connection.dispatchInbound starts for a dispatched call changed: the calls in its select clauses (Gen/GenCtxFlow.watch_sites) differ from Spec/CtxFlowSpec.model_watch_sites (ctx.Done: inboundExpired; errCh: response.cancel() then inboundExpired)" ].
Qed.

Definition has_set (x : xset) (p : prog) : bool := existsb (fun st => xset_eqb (ss_set st) x) p.
(* a stop program is complete when it stops both sets (under the CAS or not) *)
Definition prog_ok (p : prog) : Prop := has_set XIn p = true /\ has_set XOut p = true.

Lemma ce_prog_ok : prog_ok ce_prog. Proof. split; reflexivity. Qed.
Lemma pe_prog_ok : prog_ok pe_prog. Proof. split; reflexivity. Qed.

Definition notified_all (l : list exch) : Prop := Forall (fun e => x_notified e = true) l.
Definition cnt_ok (e : exch) : Prop := x_notifies e = if x_notified e then 1 else 0.

(* everything except the link between the failure flags and the shut-down sets *)
Definition base (s : cst) : Prop :=
  (in_shut s = true -> notified_all (inb s)) /\
  (out_shut s = true -> notified_all (outb s)) /\
  in_stops s = (if in_shut s then 1 else 0) /\
  out_stops s = (if out_shut s then 1 else 0) /\
  Forall cnt_ok (inb s) /\ Forall cnt_ok (outb s) /\
  Forall (fun p => snd p <> 0) (gone s) /\
  (failed s = true -> active s = false).

(* the link: once the shared flag is set, or a failure ran, BOTH sets are shut down *)
Definition linked (s : cst) : Prop :=
  (stopped s = true -> in_shut s = true /\ out_shut s = true) /\
  (failed s = true -> in_shut s = true /\ out_shut s = true).

Lemma notify_notified e : x_notified (notify e) = true.
Proof. unfold notify. destruct (x_notified e) eqn:N; [exact N|reflexivity]. Qed.
Lemma notify_cnt e : cnt_ok e -> cnt_ok (notify e).
Proof. unfold notify, cnt_ok. destruct (x_notified e) eqn:N; cbn; intros H; [rewrite N; exact H|lia]. Qed.
Lemma notify_id e : x_id (notify e) = x_id e.
Proof. unfold notify. destruct (x_notified e); reflexivity. Qed.
Lemma notify_ctx e : x_ctx (notify e) = x_ctx e.
Proof. unfold notify. destruct (x_notified e); reflexivity. Qed.

Lemma map_notify_all l : notified_all (map notify l).
Proof. induction l; constructor; [apply notify_notified|assumption]. Qed.
Lemma map_notify_cnt l : Forall cnt_ok l -> Forall cnt_ok (map notify l).
Proof. induction 1; constructor; [apply notify_cnt; assumption|assumption]. Qed.

Lemma stop_set_base x s : base s -> base (stop_set x s).
Proof.
  intros B. pose proof B as [B1 [B2 [B3 [B4 [B5 [B6 [B7 B8]]]]]]]. destruct x; unfold stop_set.
  - destruct (in_shut s) eqn:I; [exact B|].
    unfold base; cbn.
    repeat split; auto; try lia; [intros _; apply map_notify_all|apply map_notify_cnt; exact B5].
  - destruct (out_shut s) eqn:O; [exact B|].
    unfold base; cbn.
    repeat split; auto; try lia; [intros _; apply map_notify_all|apply map_notify_cnt; exact B6].
Qed.

Definition shut (x : xset) (s : cst) : bool := match x with XIn => in_shut s | XOut => out_shut s end.

Lemma stop_set_flags x s :
  active (stop_set x s) = active s /\ failed (stop_set x s) = failed s /\ stopped (stop_set x s) = stopped s /\
  shut x (stop_set x s) = true /\ (forall y, shut y s = true -> shut y (stop_set x s) = true).
Proof.
  destruct x; unfold stop_set; destruct (in_shut s) eqn:I; destruct (out_shut s) eqn:O; cbn; rewrite ?I, ?O;
    repeat split; auto; intros []; cbn; congruence.
Qed.

Definition exec (won : bool) (acc : cst) (st : stop_stmt) : cst :=
  if ss_cas st then (if won then stop_set (ss_set st) acc else acc) else stop_set (ss_set st) acc.

Lemma exec_base won acc st : base acc -> base (exec won acc st).
Proof. intros B. unfold exec. destruct (ss_cas st); [destruct won|]; auto using stop_set_base. Qed.

Lemma exec_flags won acc st :
  active (exec won acc st) = active acc /\ failed (exec won acc st) = failed acc /\ stopped (exec won acc st) = stopped acc /\
  (forall y, shut y acc = true -> shut y (exec won acc st) = true).
Proof.
  unfold exec. destruct (stop_set_flags (ss_set st) acc) as [A [B [C [_ D]]]].
  destruct (ss_cas st); [destruct won|]; repeat split; auto.
Qed.

Lemma fold_exec_base won p : forall s, base s -> base (fold_left (exec won) p s).
Proof. induction p as [|st r IH]; intros s B; cbn [fold_left]; [exact B|]. apply IH, exec_base, B. Qed.

Lemma fold_exec_flags won p : forall s,
  let s' := fold_left (exec won) p s in
  active s' = active s /\ failed s' = failed s /\ stopped s' = stopped s /\
  (forall y, shut y s = true -> shut y s' = true).
Proof.
  induction p as [|st r IH]; intros s; cbn [fold_left]; [repeat split; auto|].
  destruct (exec_flags won s st) as [A [B [C D]]].
  destruct (IH (exec won s st)) as [A' [B' [C' D']]]. cbv zeta in *.
  repeat split; try congruence; auto.
Qed.

(* with the CAS won (or for an unguarded statement) a statement on set x shuts x down *)
Lemma fold_exec_shuts p : forall s x, has_set x p = true -> shut x (fold_left (exec true) p s) = true.
Proof.
  induction p as [|st r IH]; intros s x H; [discriminate|].
  cbn [has_set existsb] in H. cbn [fold_left].
  destruct (xset_eqb (ss_set st) x) eqn:E; [|apply IH, H].
  assert (X : ss_set st = x) by (destruct (ss_set st), x; try discriminate; reflexivity).
  destruct (fold_exec_flags true r (exec true s st)) as (_ & _ & _ & D). apply D.
  unfold exec. rewrite X. destruct (stop_set_flags x s) as (_ & _ & _ & S & _). destruct (ss_cas st); exact S.
Qed.

Lemma fold_exec_keeps won p : forall s,
  gone (fold_left (exec won) p s) = gone s /\ out_res (fold_left (exec won) p s) = out_res s /\
  List.length (inb (fold_left (exec won) p s)) = List.length (inb s).
Proof.
  induction p as [|st r IH]; intros s; cbn [fold_left]; [repeat split; reflexivity|].
  destruct (IH (exec won s st)) as [A [B C]]. rewrite A, B, C.
  unfold exec. destruct (ss_cas st); try destruct won; try (repeat split; reflexivity);
    destruct (ss_set st); unfold stop_set; try destruct (in_shut s); try destruct (out_shut s); cbn; rewrite ?map_length; repeat split; reflexivity.
Qed.

Lemma set_failed_base s : base s -> base (set_failed s).
Proof. intros [B1 [B2 [B3 [B4 [B5 [B6 [B7 B8]]]]]]]. unfold base, set_failed; cbn. repeat split; auto. Qed.

Lemma set_stopped_base s : base s -> base (set_stopped s).
Proof. intros [B1 [B2 [B3 [B4 [B5 [B6 [B7 B8]]]]]]]. unfold base, set_stopped; cbn. repeat split; auto. Qed.

Lemma run_prog_eq p s :
  run_prog p s = fold_left (exec (negb (stopped s))) p (if existsb ss_cas p then set_stopped s else s).
Proof. reflexivity. Qed.

Lemma run_prog_inb_len p s : List.length (inb (run_prog p s)) = List.length (inb s).
Proof.
  rewrite run_prog_eq. destruct (fold_exec_keeps (negb (stopped s)) p (if existsb ss_cas p then set_stopped s else s)) as [_ [_ ->]].
  destruct (existsb ss_cas p); reflexivity.
Qed.

Lemma run_prog_fail p s :
  prog_ok p -> base s -> (stopped s = true -> in_shut s = true /\ out_shut s = true) ->
  let s' := run_prog p (set_failed s) in
  base s' /\ linked s' /\ failed s' = true /\ active s' = false /\
  gone s' = gone s /\ out_res s' = out_res s.
Proof.
  intros [PI PO] B L. cbv zeta. rewrite run_prog_eq.
  set (s0 := set_failed s).
  assert (B0 : base s0) by (apply set_failed_base, B).
  set (s1 := if existsb ss_cas p then set_stopped s0 else s0).
  assert (B1 : base s1) by (unfold s1; destruct (existsb ss_cas p); [apply set_stopped_base|]; exact B0).
  assert (F1 : failed s1 = true /\ active s1 = false /\ in_shut s1 = in_shut s /\ out_shut s1 = out_shut s /\ gone s1 = gone s /\ out_res s1 = out_res s).
  { unfold s1, s0. destruct (existsb ss_cas p); cbn; repeat split; reflexivity. }
  destruct F1 as [Ff [Fa [Fi [Fo [Fg Fr]]]]].
  assert (S0 : stopped s0 = stopped s) by reflexivity. rewrite S0.
  pose proof (fold_exec_base (negb (stopped s)) p s1 B1) as BB.
  destruct (fold_exec_flags (negb (stopped s)) p s1) as [A' [F' [S' I']]]. cbv zeta in *.
  assert (SH : in_shut (fold_left (exec (negb (stopped s))) p s1) = true /\ out_shut (fold_left (exec (negb (stopped s))) p s1) = true).
  { destruct (stopped s) eqn:St.
    - destruct (L eq_refl) as [LI LO]. split; [apply (I' XIn)|apply (I' XOut)]; cbn [shut]; congruence.
    - cbn [negb]. split; [exact (fold_exec_shuts p s1 XIn PI)|exact (fold_exec_shuts p s1 XOut PO)]. }
  split; [exact BB|]. split; [split; intros _; exact SH|].
  split; [congruence|]. split; [congruence|].
  destruct (fold_exec_keeps (negb (stopped s)) p s1) as [K1 [K2 _]]. split; congruence.
Qed.

Lemma find_in id l e : find id l = Some e -> In e l /\ x_id e = id.
Proof.
  induction l as [|a r IH]; cbn [find]; [discriminate|].
  destruct (x_id a =? id) eqn:E; intros H.
  - inversion H; subst. split; [left; reflexivity|lia].
  - destruct (IH H) as [I X]. split; [right; exact I|exact X].
Qed.

Lemma forall_remove (P : exch -> Prop) id l : Forall P l -> Forall P (remove id l).
Proof.
  induction 1 as [|a r Ha Hr IH]; cbn [remove]; [constructor|].
  destruct (x_id a =? id); [exact Hr|constructor; assumption].
Qed.

Lemma forall_update (P : exch -> Prop) id f l : (forall e, P e -> P (f e)) -> Forall P l -> Forall P (update id f l).
Proof.
  intros Hf. induction 1 as [|a r Ha Hr IH]; cbn [update]; [constructor|].
  destruct (x_id a =? id); constructor; auto.
Qed.

Lemma forall_snoc {A} (P : A -> Prop) l a : Forall P l -> P a -> Forall P (l ++ [a]).
Proof. intros H Ha. apply Forall_app. split; [exact H|constructor; [exact Ha|constructor]]. Qed.

Section Inv.
Variable ce pe : prog.
Hypothesis CE : prog_ok ce.
Hypothesis PE : prog_ok pe.

Definition inv (s : cst) : Prop := base s /\ linked s.

Lemma inv_init : inv init.
Proof.
  unfold inv, base, linked, init; cbn.
  repeat split; try discriminate; try constructor; auto.
Qed.

Lemma fail_inv p s : prog_ok p -> inv s -> inv (run_prog p (set_failed s)).
Proof.
  intros P [B [L1 L2]]. destruct (run_prog_fail p s P B L1) as [B' [L' _]]. split; assumption.
Qed.

Lemma fail_failed p s : prog_ok p -> inv s -> failed (run_prog p (set_failed s)) = true.
Proof. intros P [B [L1 _]]. apply (run_prog_fail p s P B L1). Qed.

(* changing only the exchange lists / the bookkeeping lists keeps the link *)
Lemma linked_same s s' :
  stopped s' = stopped s -> failed s' = failed s -> in_shut s' = in_shut s -> out_shut s' = out_shut s ->
  linked s -> linked s'.
Proof. intros A B C D [L1 L2]. unfold linked. rewrite A, B, C, D. split; assumption. Qed.

Lemma step_inv s l : inv s -> inv (step ce pe s l).
Proof.
  intros I. pose proof I as [B L]. pose proof B as [B1 [B2 [B3 [B4 [B5 [B6 [B7 B8]]]]]]].
  destruct l as [id|id| | |id|id|id|id]; cbn [step].
  - (* FCallReq *)
    destruct (active s) eqn:A; cbn [negb]; [|exact I].
    destruct (in_shut s) eqn:IS; [apply fail_inv; assumption|].
    destruct (find id (inb s)) as [e|] eqn:F; [apply fail_inv; assumption|].
    split; [|apply (linked_same s); try reflexivity; exact L].
    unfold base, set_inb; cbn. rewrite ?IS, ?A.
    repeat split; auto; try discriminate; try (intros HF; apply B8 in HF; discriminate).
    apply forall_snoc; [exact B5|reflexivity].
  - (* FOutCall *)
    destruct (negb (active s) || out_shut s) eqn:G; [exact I|].
    destruct (find id (outb s)) as [e|] eqn:F; [exact I|].
    assert (OS : out_shut s = false) by (destruct (active s), (out_shut s); try discriminate; reflexivity).
    split; [|apply (linked_same s); try reflexivity; exact L].
    unfold base, set_outb; cbn. rewrite OS in *.
    repeat split; auto; try discriminate.
    apply forall_snoc; [exact B6|reflexivity].
  - apply fail_inv; assumption.
  - apply fail_inv; assumption.
  - (* FWatch *)
    destruct (find id (inb s)) as [e|] eqn:F; [|exact I].
    assert (EX : forall c, c <> 0 -> inv (expire id c s)).
    { intros c Hc. split; [|apply (linked_same s); try reflexivity; exact L].
      unfold base, expire, set_gone, set_inb; cbn.
      unfold notified_all in *. repeat split; auto using forall_remove, forall_snoc. }
    destruct (x_ctx e =? 0) eqn:C; cbn [negb].
    + destruct (x_notified e); [apply EX; lia|exact I].
    + apply EX. lia.
  - (* FDeadline *)
    split; [|apply (linked_same s); try reflexivity; exact L].
    unfold base, set_inb; cbn.
    repeat split; auto.
    + intros H. apply forall_update; [|apply B1, H]. intros e He. destruct (x_ctx e =? 0); [cbn; exact He|exact He].
    + apply forall_update; [|exact B5]. intros e He. unfold cnt_ok in *. destruct (x_ctx e =? 0); [cbn; exact He|exact He].
  - (* FComplete *)
    destruct (find id (inb s)) as [e|] eqn:F; [|exact I].
    split; [|apply (linked_same s); try reflexivity; exact L].
    unfold base, expire, set_gone, set_inb; cbn.
    unfold notified_all in *. repeat split; auto using forall_remove.
    apply forall_snoc; [exact B7|]. cbn. destruct (x_ctx e =? 0) eqn:C; lia.
  - (* FOutWait *)
    destruct (find id (outb s)) as [e|] eqn:F; [|exact I].
    destruct (x_notified e); [|exact I].
    split; [|apply (linked_same s); try reflexivity; exact L].
    unfold base, set_out_res, set_outb; cbn.
    unfold notified_all in *. repeat split; auto using forall_remove.
Qed.

Lemma fold_inv ls : forall s, inv s -> inv (fold_left (step ce pe) ls s).
Proof. induction ls as [|l r IH]; intros s I; cbn [fold_left]; [exact I|]. apply IH, step_inv, I. Qed.

Lemma run_inv ls : inv (run ce pe ls).
Proof. apply fold_inv, inv_init. Qed.

(* after any connection failure both exchange sets are shut down and every registered
   exchange -- every handler still running, every call still waiting -- has been notified *)
Theorem failure_notifies_all ls :
  let s := run ce pe ls in
  failed s = true ->
  active s = false /\ in_shut s = true /\ out_shut s = true /\
  notified_all (inb s) /\ notified_all (outb s).
Proof.
  cbv zeta. intros F. destruct (run_inv ls) as [[B1 [B2 [_ [_ [_ [_ [_ B8]]]]]]] [_ L2]].
  destruct (L2 F) as [I O]. repeat split; auto.
Qed.

(* what counts as a failure: connectionError, protocolError, a call req whose id is still
   active, on a connection that has not failed before *)
Theorem failure_events ls l :
  let s := run ce pe ls in
  l = FConnErr \/ l = FProtoErr \/ (exists id e, l = FCallReq id /\ active s = true /\ find id (inb s) = Some e) ->
  failed (run ce pe (ls ++ [l])) = true.
Proof.
  cbv zeta. intros H. unfold run. rewrite fold_left_app. cbn [fold_left]. fold (run ce pe ls).
  pose proof (run_inv ls) as I.
  destruct H as [H|[H|[id [e [H [A F]]]]]]; subst l; cbn [step].
  - apply fail_failed; assumption.
  - apply fail_failed; assumption.
  - rewrite A. cbn [negb]. destruct (in_shut (run ce pe ls)); [|rewrite F]; apply fail_failed; assumption.
Qed.

(* ... and the goroutine watching a registered handler then cancels its context: the exchange
   leaves the map and the context reports Canceled (or keeps DeadlineExceeded if the deadline
   had passed before) *)
Lemma lookup_last_snoc id g acc c : lookup_last id (g ++ [(id, c)]) acc = Some c.
Proof. revert acc. induction g as [|p r IH]; intros acc; cbn [lookup_last app fst snd]; [rewrite Z.eqb_refl; reflexivity|apply IH]. Qed.

Lemma find_remove_first id l e : find id l = Some e -> (forall e', find id (remove id l) = Some e' -> In e' (remove id l)).
Proof. intros _ e' H. apply find_in in H. tauto. Qed.

Theorem failure_cancels_handler ls id e :
  let s := run ce pe ls in
  failed s = true -> find id (inb s) = Some e ->
  let s' := step ce pe s (FWatch id) in
  inb s' = remove id (inb s) /\
  lookup_last id (gone s') None = Some (if x_ctx e =? 0 then 2 else x_ctx e).
Proof.
  cbv zeta. intros F Hf.
  destruct (failure_notifies_all ls F) as [_ [_ [_ [NI _]]]].
  destruct (find_in _ _ _ Hf) as [Hin _].
  assert (N : x_notified e = true) by (unfold notified_all in NI; rewrite Forall_forall in NI; exact (NI e Hin)).
  cbn [step]. rewrite Hf, N.
  destruct (x_ctx e =? 0) eqn:C; cbn [negb]; unfold expire, set_gone, set_inb; cbn;
    (split; [reflexivity|apply lookup_last_snoc]).
Qed.

(* once every watcher and every blocked caller has run, nothing is left on the connection: no
   handler context is live, no outbound call is waiting *)
Lemma settle_in_empty n : forall s,
  inv s -> in_shut s = true -> (List.length (inb s) <= n)%nat ->
  let s' := settle_in ce pe n s in
  inb s' = [] /\ inv s' /\ failed s' = failed s /\ outb s' = outb s /\ out_shut s' = out_shut s.
Proof.
  induction n as [|k IH]; intros s I IS Len; cbn [settle_in];
    (destruct (inb s) as [|e r] eqn:E; [split; [first [exact E|reflexivity]|split; [exact I|repeat split; reflexivity]]|]).
  - cbn in Len; lia.
  - pose proof I as [[B1 _] _].
    assert (N : x_notified e = true).
    { specialize (B1 IS). rewrite E in B1. inversion B1; assumption. }
    assert (ST : step ce pe s (FWatch (x_id e)) = expire (x_id e) (if x_ctx e =? 0 then 2 else x_ctx e) s).
    { cbn [step]. rewrite E. cbn [find]. rewrite Z.eqb_refl, N. destruct (x_ctx e =? 0); reflexivity. }
    pose proof (step_inv s (FWatch (x_id e)) I) as I'. rewrite ST in *.
    destruct (IH (expire (x_id e) (if x_ctx e =? 0 then 2 else x_ctx e) s) I') as [A [B [C [D G]]]].
    + exact IS.
    + unfold expire, set_gone, set_inb; cbn. rewrite E. cbn [remove]. rewrite Z.eqb_refl. cbn in Len. lia.
    + cbv zeta in *. split; [exact A|]. split; [exact B|]. repeat split; assumption.
Qed.

Lemma settle_out_empty n : forall s,
  inv s -> out_shut s = true -> (List.length (outb s) <= n)%nat ->
  let s' := settle_out ce pe n s in
  outb s' = [] /\ inv s' /\ inb s' = inb s /\ gone s' = gone s.
Proof.
  induction n as [|k IH]; intros s I OS Len; cbn [settle_out];
    (destruct (outb s) as [|e r] eqn:E; [split; [first [exact E|reflexivity]|split; [exact I|split; reflexivity]]|]).
  - cbn in Len; lia.
  - pose proof I as [[_ [B2 _]] _].
    assert (N : x_notified e = true).
    { specialize (B2 OS). rewrite E in B2. inversion B2; assumption. }
    assert (ST : step ce pe s (FOutWait (x_id e)) = set_out_res (out_res s ++ [(x_id e, 1)]) (set_outb (remove (x_id e) (outb s)) s)).
    { cbn [step]. rewrite E. cbn [find]. rewrite Z.eqb_refl, N. reflexivity. }
    pose proof (step_inv s (FOutWait (x_id e)) I) as I'. rewrite ST in *.
    destruct (IH _ I') as [A [B [C D]]].
    + exact OS.
    + unfold set_out_res, set_outb; cbn. rewrite E. cbn [remove]. rewrite Z.eqb_refl. cbn in Len. lia.
    + cbv zeta in *. split; [exact A|]. split; [exact B|]. split; assumption.
Qed.

Lemma lookup_last_nonzero id g : Forall (fun p : Z * Z => snd p <> 0) g ->
  forall acc, acc <> Some 0 -> lookup_last id g acc <> Some 0.
Proof.
  induction 1 as [|p r Hp Hr IH]; intros acc Ha; cbn [lookup_last]; [exact Ha|].
  apply IH. destruct (fst p =? id); [|exact Ha]. intros X. inversion X. contradiction.
Qed.

Theorem failure_settles ls :
  let s := run ce pe ls in
  failed s = true ->
  inb (settle ce pe s) = [] /\ outb (settle ce pe s) = [] /\
  forall id, hctx_of (settle ce pe s) id <> Some 0.
Proof.
  cbv zeta. intros F. pose proof (run_inv ls) as I.
  destruct (failure_notifies_all ls F) as [_ [IS [OS _]]].
  unfold settle.
  destruct (settle_in_empty (List.length (inb (run ce pe ls))) (run ce pe ls) I IS (le_n _)) as [A [I1 [_ [_ O1]]]].
  cbv zeta in *. set (s1 := settle_in ce pe (List.length (inb (run ce pe ls))) (run ce pe ls)) in *.
  destruct (settle_out_empty (List.length (outb s1)) s1 I1 ltac:(congruence) (le_n _)) as [B [I2 [C D]]].
  cbv zeta in *. split; [congruence|]. split; [exact B|].
  intros id. unfold hctx_of. rewrite C, A. cbn [find].
  destruct I2 as [[_ [_ [_ [_ [_ [_ [G _]]]]]]] _].
  apply lookup_last_nonzero; [exact G|discriminate].
Qed.

(* exactly once: each set is stopped at most once -- exactly once after a failure -- and no
   exchange is notified twice *)
Theorem stops_exactly_once ls :
  let s := run ce pe ls in
  0 <= in_stops s <= 1 /\ 0 <= out_stops s <= 1 /\
  (failed s = true -> in_stops s = 1 /\ out_stops s = 1) /\
  Forall (fun e => 0 <= x_notifies e <= 1) (inb s ++ outb s).
Proof.
  cbv zeta. destruct (run_inv ls) as [[_ [_ [B3 [B4 [B5 [B6 _]]]]]] [_ L2]].
  split; [destruct (in_shut (run ce pe ls)); lia|]. split; [destruct (out_shut (run ce pe ls)); lia|].
  split.
  - intros F. destruct (L2 F) as [I O]. rewrite I in B3. rewrite O in B4. split; assumption.
  - apply Forall_app. split; [eapply Forall_impl; [|exact B5]|eapply Forall_impl; [|exact B6]];
      intros e He; unfold cnt_ok in He; destruct (x_notified e); lia.
Qed.

End Inv.

(* ------------------------------------------------------------------ necessity *)

(* a protocolError that stops only the outbound set (the shared flag is consumed, so the
   connectionError that follows when the peer closes the socket stops nothing either): the
   handler's context stays live for good *)
Definition pe_outbound_only : prog := [mkStop true XOut].

Lemma inbound_stop_needed :
  let ls := [FCallReq 1; FCallReq 2; FCallReq 1; FConnErr] in
  let s := settle ce_prog pe_outbound_only (run ce_prog pe_outbound_only ls) in
  failed s = true /\ hctx_of s 1 = Some 0 /\ hctx_of s 2 = Some 0.
Proof. vm_compute. repeat split. Qed.

(* ... and the same schedule with the programs of the source *)
Lemma inbound_stop_example :
  let ls := [FCallReq 1; FCallReq 2; FCallReq 1; FConnErr] in
  let s := settle ce_prog pe_prog (run ce_prog pe_prog ls) in
  failed s = true /\ hctx_of s 1 = Some 2 /\ hctx_of s 2 = Some 2 /\
  run_connfail [0; 0; 4; 0; 1; 0; 2; 0; 1; 2] = [2; 1; 2; 2; 2; 0; 0].
Proof. vm_compute. repeat split. Qed.

(* ------------------------------------------------------------------ the harness entry point *)

(* every id listed by [dispatched] was registered in the inbound set by its call req *)
Lemma dispatched_registered ce pe : forall ls s id,
  In id (dispatched ce pe s ls) -> exists pre post e, ls = pre ++ FCallReq id :: post /\
    find id (inb (step ce pe (fold_left (step ce pe) pre s) (FCallReq id))) = Some e.
Proof.
  induction ls as [|l r IH]; intros s id H; [contradiction|].
  cbn [dispatched] in H.
  assert (REC : In id (dispatched ce pe (step ce pe s l) r) ->
     exists pre post e, l :: r = pre ++ FCallReq id :: post /\
       find id (inb (step ce pe (fold_left (step ce pe) pre s) (FCallReq id))) = Some e).
  { intros H'. destruct (IH _ _ H') as [pre [post [e [E F]]]]. exists (l :: pre), post, e. split; [cbn; rewrite E; reflexivity|exact F]. }
  destruct l as [i|i| | |i|i|i|i]; try (apply REC; exact H).
  apply in_app_or in H. destruct H as [H|H]; [|apply REC; exact H].
  destruct ((List.length (inb s) <? List.length (inb (step ce pe s (FCallReq i))))%nat) eqn:G; [|contradiction].
  destruct H as [H|[]]. subst i.
  exists [], r. cbn [fold_left app].
  (* the list grew: the only branch of FCallReq that lengthens inb registers id *)
  cbn [step] in *. destruct (active s); cbn [negb] in *; [|apply Nat.ltb_lt in G; lia].
  assert (X : ~ (List.length (inb s) < List.length (inb (protocol_error pe s)))%nat).
  { unfold protocol_error. rewrite run_prog_inb_len. cbn. lia. }
  apply Nat.ltb_lt in G.
  destruct (in_shut s) eqn:IS; [contradiction|].
  destruct (find id (inb s)) as [e0|] eqn:F; [contradiction|].
  exists (mkEx id false 0 0). split; [reflexivity|].
  unfold set_inb; cbn.
  clear - F. induction (inb s) as [|a q IHq]; cbn [find app]; [rewrite Z.eqb_refl; reflexivity|].
  cbn [find] in F. destruct (x_id a =? id); [discriminate|]. apply IHq, F.
Qed.
