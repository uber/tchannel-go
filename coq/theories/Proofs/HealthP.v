(* Proofs about Model/Health.v (history ring, loop) and the health part of
   Model/IdleHealthSys.v. *)
From Coq Require Import ZArith List Bool Lia Arith PeanoNat.
From Verif Require Import Base.Wrap Base.Wire Gen.GenConsts Gen.GenRetry Gen.GenFrame Gen.GenHealthIdle
  Spec.IdleHealthSpec Model.Health Model.Idle Model.IdleHealthSys Proofs.IdleP.
Import ListNotations.
Local Open Scope Z_scope.

Section Lists.
Context {A : Type}.

Definition rot (k : nat) (s : list A) : list A := skipn k s ++ firstn k s.
Definition set_nth_nat (i : nat) (b : A) (s : list A) : list A := firstn i s ++ b :: skipn (S i) s.

Lemma skipn_S_tl : forall (k : nat) (l : list A), skipn (S k) l = tl (skipn k l).
Proof.
  induction k as [|k IH]; intros l.
  - destruct l; reflexivity.
  - destruct l as [|a r]; [reflexivity|]. change (skipn (S (S k)) (a :: r)) with (skipn (S k) r).
    change (skipn (S k) (a :: r)) with (skipn k r). apply IH.
Qed.

Lemma app_inv_len : forall (l1 l3 l2 l4 : list A),
  l1 ++ l2 = l3 ++ l4 -> length l1 = length l3 -> l1 = l3 /\ l2 = l4.
Proof.
  induction l1 as [|a r IH]; intros [|b r3] l2 l4 H Hl; cbn [length] in Hl; try discriminate.
  - cbn [app] in H. auto.
  - cbn [app] in H. injection H as -> H. injection Hl as Hl.
    destruct (IH r3 l2 l4 H Hl) as [-> ->]. auto.
Qed.

Lemma rot_step (s : list A) (i n : nat) (b : A) :
  length s = n -> (i < n)%nat ->
  rot ((i + 1) mod n) (set_nth_nat i b s) = tl (rot i s) ++ [b].
Proof.
  intros Hl Hi. unfold rot, set_nth_nat.
  assert (Hfi : length (firstn i s) = i) by (rewrite firstn_length; lia).
  assert (Hsk : exists x, skipn i s = x :: skipn (S i) s).
  { rewrite skipn_S_tl. destruct (skipn i s) as [|x r] eqn:E.
    - exfalso. assert (length (skipn i s) = 0%nat) by now rewrite E. rewrite skipn_length in H. lia.
    - exists x. reflexivity. }
  destruct Hsk as [x Hx]. rewrite Hx. cbn [app tl].
  remember (skipn (S i) s) as X eqn:EX. remember (firstn i s) as Y eqn:EY.
  destruct (Nat.eq_dec (i + 1) n) as [E|E].
  - rewrite E, Nat.mod_same by lia. rewrite skipn_O, firstn_O, app_nil_r.
    assert (Hnil : X = []). { subst X. apply skipn_all2. lia. }
    rewrite Hnil. cbn [app]. reflexivity.
  - rewrite Nat.mod_small by lia. replace (i + 1)%nat with (length Y + 1)%nat by lia.
    rewrite skipn_app. rewrite skipn_all2 by lia. cbn [app].
    replace (length Y + 1 - length Y)%nat with 1%nat by lia. cbn [skipn].
    rewrite firstn_app. rewrite firstn_all2 by lia.
    replace (length Y + 1 - length Y)%nat with 1%nat by lia. cbn [firstn].
    rewrite <- app_assoc. reflexivity.
Qed.

Lemma set_nth_nat_length (s : list A) i b : (i < length s)%nat -> length (set_nth_nat i b s) = length s.
Proof.
  intros Hi. unfold set_nth_nat. rewrite app_length. cbn [length]. rewrite firstn_length, skipn_length. lia.
Qed.

Lemma lastn_snoc (n : nat) (l : list A) (b : A) :
  (n <= length l)%nat -> (0 < n)%nat -> lastn n (l ++ [b]) = tl (lastn n l) ++ [b].
Proof.
  intros Hn Hpos. unfold lastn. rewrite app_length. cbn [length].
  replace (length l + 1 - n)%nat with (S (length l - n)) by lia.
  rewrite skipn_S_tl. rewrite skipn_app.
  replace (length l - n - length l)%nat with 0%nat by lia. cbn [skipn].
  destruct (skipn (length l - n) l) as [|x r] eqn:E.
  - exfalso. assert (H : length (skipn (length l - n) l) = 0%nat) by now rewrite E. rewrite skipn_length in H. lia.
  - reflexivity.
Qed.
End Lists.

(* ---- the history ring ---------------------------------------------------------------------- *)
Definition HN : nat := 256.
Lemma HN_eq : Z.to_nat c_u_healthHistorySize = HN. Proof. reflexivity. Qed.
Lemma HN_z : c_u_healthHistorySize = Z.of_nat HN. Proof. reflexivity. Qed.

Lemma set_nth_of_nat i b s : set_nth (Z.of_nat i) b s = set_nth_nat i b s.
Proof. unfold set_nth, set_nth_nat. now rewrite Nat2Z.id. Qed.

Definition ring_inv (l : list bool) (h : ring) : Prop :=
  hh_bad h = false /\ length (hh_states h) = HN /\ hh_total h = zlen l /\
  hh_insert h = Z.of_nat (length l mod HN) /\
  rot (length l mod HN) (hh_states h) = lastn HN (repeat false HN ++ l).

Lemma ring_inv_new : ring_inv [] hh_new.
Proof.
  unfold ring_inv, hh_new. cbn [hh_bad hh_states hh_total hh_insert]. rewrite HN_eq.
  split; [reflexivity|]. split; [apply repeat_length|]. split; [reflexivity|]. split; [reflexivity|].
  unfold lastn. rewrite app_nil_r, repeat_length, Nat.sub_diag. reflexivity.
Qed.

Lemma ring_inv_add l h b : ring_inv l h -> ring_inv (l ++ [b]) (hh_add h b).
Proof.
  intros (Hb & Hlen & Ht & Hi & Hrot).
  assert (Hpos : (0 < HN)%nat) by (unfold HN; lia).
  assert (Hm : (length l mod HN < HN)%nat) by (apply Nat.mod_upper_bound; lia).
  unfold hh_add. unfold zlen. rewrite Hlen, Hi.
  assert (E : (0 <=? Z.of_nat (length l mod HN)) && (Z.of_nat (length l mod HN) <? Z.of_nat HN) = true) by lia.
  rewrite E. unfold ring_inv. cbn [hh_bad hh_states hh_total hh_insert].
  rewrite set_nth_of_nat.
  rewrite app_length. cbn [length].
  assert (Hmod : ((length l + 1) mod HN = (length l mod HN + 1) mod HN)%nat).
  { rewrite (Nat.add_mod (length l) 1 HN) by lia.
    destruct (Nat.eq_dec HN 1) as [E1|E1]; [unfold HN in E1; discriminate|].
    rewrite (Nat.mod_small 1 HN) by (unfold HN; lia). reflexivity. }
  repeat split.
  - exact Hb.
  - rewrite set_nth_nat_length; lia.
  - rewrite Ht. unfold zlen. rewrite app_length. cbn [length]. lia.
  - rewrite Hmod. generalize dependent (length l mod HN)%nat. intros m _ _ _ _ _.
    rewrite HN_z, Z.rem_mod_nonneg; [|lia|unfold HN; lia]. rewrite Nat2Z.inj_mod. f_equal. lia.
  - rewrite Hmod. rewrite (rot_step (hh_states h) (length l mod HN) HN b Hlen Hm). rewrite Hrot.
    rewrite app_assoc. rewrite lastn_snoc; [reflexivity| |exact Hpos].
    rewrite app_length, repeat_length. lia.
Qed.

Lemma ring_inv_fold bs : forall l h, ring_inv l h ->
  ring_inv (l ++ bs) (fold_left hh_add bs h).
Proof.
  induction bs as [|b r IH]; intros l h H; cbn [fold_left]; [now rewrite app_nil_r|].
  replace (l ++ b :: r) with ((l ++ [b]) ++ r) by (rewrite <- app_assoc; reflexivity).
  apply IH. now apply ring_inv_add.
Qed.

Lemma ring_inv_as_bools l h : ring_inv l h -> hh_as_bools h = lastn HN l.
Proof.
  intros (Hb & Hlen & Ht & Hi & Hrot). unfold hh_as_bools. rewrite Ht, Hi, HN_z. unfold zlen.
  destruct (Z.of_nat (length l) <? Z.of_nat HN) eqn:E.
  - assert (Hlt : (length l < HN)%nat) by lia.
    rewrite Nat.mod_small in Hrot by lia. rewrite Nat2Z.id.
    unfold rot, lastn in Hrot. rewrite app_length, repeat_length in Hrot.
    replace (HN + length l - HN)%nat with (length l) in Hrot by lia.
    rewrite skipn_app in Hrot. rewrite repeat_length in Hrot.
    replace (length l - HN)%nat with 0%nat in Hrot by lia. cbn [skipn] in Hrot.
    apply app_inv_len in Hrot as [_ H2].
    + rewrite H2. unfold lastn. replace (length l - HN)%nat with 0%nat by lia. reflexivity.
    + rewrite !skipn_length, repeat_length. lia.
  - assert (Hge : (HN <= length l)%nat) by lia.
    rewrite Nat2Z.id. fold (rot (length l mod HN) (hh_states h)). rewrite Hrot.
    unfold lastn. rewrite app_length, repeat_length.
    replace (HN + length l - HN)%nat with (length l) by lia.
    rewrite skipn_app. rewrite repeat_length. rewrite skipn_all2 by (rewrite repeat_length; lia).
    reflexivity.
Qed.

(* asBools of the history after any sequence of results is its last 256 results, in order,
   and the index expression never leaves the array *)
Theorem ring_as_bools (bs : list bool) :
  let h := fold_left hh_add bs hh_new in
  hh_as_bools h = lastn 256 bs /\ hh_bad h = false /\ hh_total h = zlen bs.
Proof.
  intros h. pose proof (ring_inv_fold bs [] hh_new ring_inv_new) as H. cbn [app] in H. fold h in H.
  split; [exact (ring_inv_as_bools bs h H)|]. destruct H as (Hb & _ & Ht & _). auto.
Qed.

(* ---- the health loop over outcome sequences ------------------------------------------------- *)
Lemma health_iter_ok F l : hl_fails (fst (health_iter F POk l)) = 0 /\ snd (health_iter F POk l) = false
  /\ hl_running (fst (health_iter F POk l)) = true.
Proof. cbn. auto. Qed.

(* the counter is the length of the run of failures that ends the consumed prefix *)
Definition fails_inv (pre : list outcome) (f : nat) : Prop :=
  (f <= length pre)%nat /\
  (forall j, (length pre - f <= j < length pre)%nat -> nth j pre POk = PFail) /\
  ((f < length pre)%nat -> nth (length pre - f - 1) pre POk <> PFail).

Lemma window_app_l F pre outs j : (j < length pre)%nat ->
  window_fails F (pre ++ outs) j <-> window_fails F pre j.
Proof.
  intros Hj. unfold window_fails. split; intros [H1 H2]; (split; [exact H1|]); intros k Hk.
  - rewrite <- (app_nth1 pre outs) by lia. now apply H2.
  - rewrite app_nth1 by lia. now apply H2.
Qed.

Lemma health_loop_spec F (HF : (1 <= F)%nat) : forall outs pre l f,
  hl_running l = true -> hl_fails l = Z.of_nat f -> (f < F)%nat -> fails_inv pre f ->
  (forall j, (j < length pre)%nat -> ~ window_fails F pre j) ->
  (forall j, (j < length pre)%nat -> nth j pre POk <> PStop) ->
  forall i, snd (health_loop (Z.of_nat F) outs (length pre) l) = Some i <-> health_closes_at F (pre ++ outs) i.
Proof.
  induction outs as [|o r IH]; intros pre l f Hrun Hf HfF Hinv Hnow Hnos i.
  - cbn [health_loop snd]. rewrite app_nil_r. split; [discriminate|].
    intros (Hi & Hw & _). exfalso. exact (Hnow i Hi Hw).
  - cbn [health_loop]. rewrite Hrun.
    assert (Happ : pre ++ o :: r = (pre ++ [o]) ++ r) by (rewrite <- app_assoc; reflexivity).
    assert (Hlen : length (pre ++ [o]) = S (length pre)) by (rewrite app_length; cbn; lia).
    assert (Hnth : nth (length pre) (pre ++ [o]) POk = o) by (rewrite app_nth2, Nat.sub_diag by lia; reflexivity).
    destruct Hinv as (Hfl & Hall & Hprev).
    destruct o.
    + (* success: counter reset *)
      cbn [health_iter]. rewrite Happ, <- Hlen.
      apply (IH (pre ++ [POk]) _ 0%nat); cbn [hl_running hl_fails]; try reflexivity; try lia.
      * unfold fails_inv. rewrite Hlen. split; [lia|]. split; [intros j Hj; lia|]. intros _.
        replace (S (length pre) - 0 - 1)%nat with (length pre) by lia. rewrite Hnth. discriminate.
      * intros j Hj. rewrite Hlen in Hj. destruct (Nat.eq_dec j (length pre)) as [->|Hne].
        -- intros [_ Hw]. specialize (Hw (length pre)). rewrite Hnth in Hw. assert (POk = PFail) by (apply Hw; lia). discriminate.
        -- rewrite window_app_l by lia. apply Hnow. lia.
      * intros j Hj. rewrite Hlen in Hj. destruct (Nat.eq_dec j (length pre)) as [->|Hne].
        -- rewrite Hnth. discriminate.
        -- rewrite app_nth1 by lia. apply Hnos. lia.
    + (* failure *)
      cbn [health_iter]. rewrite Hf.
      destruct (Z.of_nat f + 1 >=? Z.of_nat F) eqn:E.
      * (* the F-th consecutive failure: close here *)
        cbn [snd]. assert (HfF1 : (f + 1 = F)%nat) by lia.
        assert (Hwin : window_fails F (pre ++ PFail :: r) (length pre)).
        { split; [lia|]. intros j Hj. destruct (Nat.eq_dec j (length pre)) as [->|Hne].
          - rewrite app_nth2, Nat.sub_diag by lia. reflexivity.
          - rewrite app_nth1 by lia. apply Hall. lia. }
        split.
        -- intros H. injection H as <-. split; [rewrite app_length; cbn; lia|]. split; [exact Hwin|]. split.
           ++ intros j Hj. rewrite window_app_l by lia. now apply Hnow.
           ++ intros j Hj. destruct (Nat.eq_dec j (length pre)) as [->|Hne].
              ** rewrite app_nth2, Nat.sub_diag by lia. discriminate.
              ** rewrite app_nth1 by lia. apply Hnos. lia.
        -- intros (Hi & Hw & Hfirst & Hns). f_equal.
           destruct (Nat.lt_trichotomy i (length pre)) as [Hlt|[->|Hgt]]; [|reflexivity|].
           ++ exfalso. rewrite window_app_l in Hw by lia. exact (Hnow i Hlt Hw).
           ++ exfalso. exact (Hfirst (length pre) Hgt Hwin).
      * (* fewer than F so far: continue *)
        rewrite Happ, <- Hlen.
        apply (IH (pre ++ [PFail]) _ (S f)); cbn [hl_running hl_fails]; try reflexivity; try lia.
        -- unfold fails_inv. rewrite Hlen. split; [lia|]. split.
           ++ intros j Hj. destruct (Nat.eq_dec j (length pre)) as [->|Hne]; [exact Hnth|].
              rewrite app_nth1 by lia. apply Hall. lia.
           ++ intros Hlt. replace (S (length pre) - S f - 1)%nat with (length pre - f - 1)%nat by lia.
              rewrite app_nth1 by lia. apply Hprev. lia.
        -- intros j Hj. rewrite Hlen in Hj. destruct (Nat.eq_dec j (length pre)) as [->|Hne].
           ++ intros [Hw1 Hw2].
              destruct (Nat.lt_ge_cases f (length pre)) as [Hlt|Hge]; [|lia].
              apply (Hprev Hlt). rewrite <- (app_nth1 pre [PFail]) by lia. apply Hw2. lia.
           ++ rewrite window_app_l by lia. apply Hnow. lia.
        -- intros j Hj. rewrite Hlen in Hj. destruct (Nat.eq_dec j (length pre)) as [->|Hne].
           ++ rewrite Hnth. discriminate.
           ++ rewrite app_nth1 by lia. apply Hnos. lia.
    + (* stop: the loop returns without closing *)
      cbn [health_iter].
      assert (Hnone : forall k l', hl_running l' = false -> snd (health_loop (Z.of_nat F) r k l') = None).
      { intros k l' Hr'. destruct r; cbn [health_loop]; [reflexivity|]. now rewrite Hr'. }
      rewrite Hnone by reflexivity. split; [discriminate|].
      intros (Hi & Hw & Hfirst & Hns). exfalso.
      destruct (Nat.lt_ge_cases i (length pre)) as [Hlt|Hge].
      * rewrite window_app_l in Hw by lia. exact (Hnow i Hlt Hw).
      * apply (Hns (length pre) Hge). rewrite app_nth2, Nat.sub_diag by lia. reflexivity.
Qed.

Theorem health_loop_closes_iff (F : Z) (outs : list outcome) (i : nat) :
  1 <= F ->
  snd (health_loop F outs 0 hl_init) = Some i <-> health_closes_at (Z.to_nat F) outs i.
Proof.
  intros HF. rewrite <- (Z2Nat.id F) at 1 by lia.
  apply (health_loop_spec (Z.to_nat F) ltac:(lia) outs [] hl_init 0%nat); try reflexivity; try lia.
  - split; [cbn; lia|]. split; [intros j Hj; cbn in Hj; lia|]. cbn. lia.
  - intros j Hj. cbn in Hj. lia.
  - intros j Hj. cbn in Hj. lia.
Qed.

Lemma health_iter_hist F o l :
  hl_hist (fst (health_iter F o l)) = hh_add (hl_hist l) (match o with POk => true | _ => false end).
Proof. destruct o; cbn [health_iter]; try reflexivity. destruct (_ >=? _); reflexivity. Qed.

(* ---- the health step inside the system ------------------------------------------------------ *)
Lemma k_health_check c : k_health (check_exchanges c) = k_health c.
Proof. unfold check_exchanges. destruct (_ && _); reflexivity. Qed.
Lemma k_health_close c : k_health (conn_close c) = k_health c.
Proof. unfold conn_close. destruct (_ =? _); [rewrite k_health_check|]; reflexivity. Qed.
Lemma k_health_error c : k_health (conn_error c) = k_health c.
Proof. unfold conn_error. rewrite k_health_check. cbn. apply k_health_close. Qed.

Lemma k_health_after_ping F o c : k_health (after_ping F o c) = fst (health_iter F o (k_health c)).
Proof.
  unfold after_ping. destruct (health_iter F o (k_health c)) as [l closed]. cbn [fst].
  destruct closed; destruct (_ =? _); cbn [set_health k_health]; rewrite ?k_health_close; reflexivity.
Qed.

Lemma state_close_set_health hs l c : k_state (conn_close (set_health hs l c)) = k_state (conn_close c).
Proof.
  unfold conn_close. cbn [set_health k_state]. destruct (k_state c =? c_connectionActive); [|reflexivity].
  unfold check_exchanges.
  change (check_exchanges_state (set_state c_connectionStartClose (set_health hs l c)))
    with (check_exchanges_state (set_state c_connectionStartClose c)).
  cbn [set_state set_health k_state]. destruct (_ && _); reflexivity.
Qed.

(* A ping that ends on a connection whose health check is waiting for it: the exchange of the
   ping is removed, the loop body runs once, and the connection is closed exactly when the loop
   body says so. *)
Theorem ping_end_step F o c :
  k_hstatus c = 2 ->
  let c1 := check_exchanges (set_counts (k_inb c) (k_outb c) (k_pings c - 1) (k_relay c) c) in
  let r := health_iter F o (k_health c) in
  k_health (ping_end F o c) = fst r /\
  (snd r = true <-> o = PFail /\ hl_fails (k_health c) + 1 >= F) /\
  (snd r = true -> k_state (ping_end F o c) = k_state (conn_close c1)) /\
  (snd r = false -> k_state (ping_end F o c) = k_state c1).
Proof.
  intros Hs c1 r. unfold ping_end. rewrite Hs. cbn [Z.eqb Pos.eqb negb]. cbv zeta. fold c1.
  assert (Hk : k_health c1 = k_health c) by (unfold c1; rewrite k_health_check; reflexivity).
  split; [rewrite k_health_after_ping, Hk; reflexivity|].
  unfold after_ping. rewrite Hk. fold r. split.
  - unfold r. destruct o; cbn [health_iter snd].
    + split; [discriminate|intros [H _]; discriminate].
    + destruct (hl_fails (k_health c) + 1 >=? F) eqn:E1; cbn [snd].
      * split; [intros _; split; [reflexivity|lia]|reflexivity].
      * split; [discriminate|intros [_ H]; lia].
    + split; [discriminate|intros [H _]; discriminate].
  - destruct r as [l closed]. cbn [snd]. split; intros ->; destruct (_ =? _); cbn [set_health k_state];
      auto using state_close_set_health.
Qed.

Lemma closed_stays : op_closed (fun c c' => k_state c = c_connectionClosed -> k_state c' = c_connectionClosed).
Proof.
  split; auto.
  - intros c H. unfold check_exchanges. rewrite (ces_closed_stays c H). destruct (_ && _); reflexivity.
  - intros c E H. rewrite E in H. discriminate H.
Qed.

(* a ping that cannot be queued: the connection is closed through the connection-error path,
   untracked, and the health goroutine has exited (no self-deadlock) *)
Theorem ping_not_sent F c :
  k_hstatus c = 1 -> conn_wf c ->
  let c' := ping_start F false c in
  k_state c' = c_connectionClosed /\ k_tracked c' = false /\ k_hstatus c' = 3 /\
  hl_hist (k_health c') = hh_add (hl_hist (k_health c)) false.
Proof.
  intros Hs Hwf c'. unfold c', ping_start. rewrite Hs. cbn [Z.eqb Pos.eqb negb]. cbv zeta.
  set (c0 := set_counts (k_inb c) (k_outb c) (k_pings c + 1) (k_relay c) c).
  set (c1 := conn_error c0).
  set (c2 := check_exchanges (set_counts (k_inb c1) (k_outb c1) (k_pings c1 - 1) (k_relay c1) c1)).
  set (c3 := after_ping F PFail c2).
  (* connectionError stops the exchanges, so its checkExchanges ends in Closed *)
  assert (H1 : k_state c1 = c_connectionClosed).
  { unfold c1, conn_error, check_exchanges.
    assert (E : check_exchanges_state (set_stopped true (conn_close c0)) = c_connectionClosed).
    { unfold check_exchanges_state. cbn [set_stopped k_stopped k_state].
      destruct (Z.eqb_spec (k_state (conn_close c0)) c_connectionClosed) as [E0|_]; [rewrite E0|]; reflexivity. }
    rewrite E. destruct (_ && _); reflexivity. }
  assert (H3 : k_state c3 = c_connectionClosed)
    by (apply (oc_after_ping _ closed_stays), (oc_check _ closed_stays), (oc_pings _ closed_stays), H1).
  assert (Hwf3 : conn_wf c3)
    by (apply (oc_after_ping _ wf_closed), (oc_check _ wf_closed), (oc_pings _ wf_closed),
          (oc_error _ wf_closed), (oc_pings _ wf_closed), Hwf).
  cbn [set_health k_state k_tracked k_hstatus k_health].
  split; [exact H3|]. split; [rewrite (proj2 Hwf3), H3; reflexivity|]. split; [reflexivity|].
  unfold c3. rewrite k_health_after_ping, health_iter_hist. unfold c2. rewrite k_health_check.
  cbn [set_counts k_health]. unfold c1. rewrite k_health_error. reflexivity.
Qed.

Theorem other_conns_untouched cf s e id id' :
  ev_conn e = Some id' -> id' <> id ->
  (forall i rl, e <> ENewConn i rl) ->
  lookup id (ch_conns (step cf s e)) = lookup id (ch_conns s).
Proof.
  intros He Hne Hnew. apply Z.eqb_neq in Hne. rewrite step_lookup.
  destruct e; try discriminate He; try (now elim (Hnew id0 relay)); injection He as ->;
    cbn [ev_on]; rewrite Hne; destruct (lookup id (ch_conns s)); reflexivity.
Qed.

Theorem defaults_spec o :
  let o' := ho_with_defaults o in
  ho_interval o' = ho_interval o /\
  ho_timeout o' = (if ho_timeout o =? 0 then 1000000000 else ho_timeout o) /\
  ho_failures o' = (if ho_failures o =? 0 then 5 else ho_failures o) /\
  (ho_enabled o' = true <-> 0 < ho_interval o).
Proof.
  unfold ho_with_defaults, ho_enabled, hcEnabled. cbn [ho_interval ho_timeout ho_failures].
  repeat split; intros H; lia.
Qed.

(* along every history a connection is tracked by the channel exactly while it is not Closed,
   and its exchange / relay counters never go negative *)
Theorem run_tracked_iff_open cf t0 h id c :
  lookup id (ch_conns (run cf t0 h)) = Some c ->
  (k_tracked c = true <-> k_state c <> c_connectionClosed) /\ counts_ok c.
Proof.
  intros L. destruct (run_wf cf t0 h) as [_ Hall]. destruct (Hall id c L) as [Hc Ht].
  split; [|exact Hc]. rewrite Ht. destruct (k_state c =? c_connectionClosed) eqn:E; cbn [negb]; split; intros H; try lia; try discriminate; auto.
Qed.
