(* C08 clauses (b)/(c): the id tables go2v regenerates from the relay files on every run
   (Gen/GenRelayIdSites.v, go2v/relayidsites.go) obey the id-space discipline of
   Model/RelayIdSites.v, the three site tables that are instructions of the model are the model's
   copy, and the model's instructions behave as the rows say: an item is failed under the id the
   frame was READ with (own space), the frame travels on under the id of the other connection.
   An edit that makes an error / clean-up path use the rewritten header id, the remapID or the
   destination's fresh id (or the other relayer's table) changes a generated table and breaks a
   proof of this file. *)
From Coq Require Import ZArith List Bool Lia String.
From Verif Require Import Base.Wrap Gen.GenConsts Gen.GenFrame Gen.GenRelayIdSites Model.RelayItems Model.RelaySites
  Model.RelayIdSites.
Import ListNotations.
Local Open Scope Z_scope.

Section Parts.
  Variables (ia : list (list Z * list Z * list Z * list Z)) (st fa sy lit fv : list (list Z * list Z * list Z))
    (fl : list (list Z * list Z * list Z * list Z * list Z)).

  Lemma discipline_own : id_discipline ia st fa fl sy lit fv = true ->
    forallb (fun row => let '(fn, callee, _, id, _) := row in idsp_eqb (adj callee (space_of ia st fa fn id)) SpOwn) fl = true /\
    forallb (fun row => let '(fn, rcv, id) := row in
      bytes_eqb rcv (s2z "r.conn") && idsp_eqb (space_of ia st fa fn id) SpOwn) sy = true.
  Proof.
    unfold id_discipline. rewrite !andb_true_iff. intros [[[[[[[_ _] Hf] Hy] _] _] _] _]. split; [|exact Hy].
    unfold fails_ok in Hf. rewrite forallb_forall in *. intros [[[[fn callee] items] id] reason] Hin.
    apply Hf in Hin. apply andb_true_iff in Hin. apply Hin.
  Qed.

  (* only the failing part of a rejected table needs evaluating *)
  Lemma rejected : args_ok ia st fa = false \/ stores_ok ia st fa = false \/ fails_ok ia st fa fl lit = false \/
    receive_ok fa = false -> id_discipline ia st fa fl sy lit fv = false.
  Proof. unfold id_discipline. intros [H|[H|[H|H]]]; rewrite H, ?andb_false_r; reflexivity. Qed.
End Parts.

(* ---------------------------------------------------------------- a resolver that remembers

   Evaluated as it stands, [resolve] resolves the same few (function, parameter) pairs over and
   over, each by a pass over the whole table, and recomputes [frame_space] at every header id.
   [resolve_m] is [resolve] with a table of known values, which is checked entry by entry. *)

Lemma forallb_ext : forall (A : Type) (f g : A -> bool) l, (forall x, f x = g x) -> forallb f l = forallb g l.
Proof. intros A f g l H. induction l as [|x r IH]; cbn [forallb]; [reflexivity|]. rewrite H, IH. reflexivity. Qed.

Lemma forallb_filter_false : forall (A : Type) (f g : A -> bool) l, forallb f (filter g l) = false -> forallb f l = false.
Proof.
  intros A f g l H. apply not_true_is_false. intro Ht. rewrite forallb_forall in Ht.
  rewrite (proj2 (forallb_forall f (filter g l))) in H; [discriminate|]. intros x Hx. apply Ht. apply filter_In in Hx. apply Hx.
Qed.

Lemma idsp_eqb_eq : forall a b, idsp_eqb a b = true -> a = b.
Proof. intros [] []; try discriminate; reflexivity. Qed.

(* a value other than SpBad does not depend on the fuel ([resolve_from]) *)
Lemma join_bad : forall l, In (Some SpBad) l -> join l = Some SpBad.
Proof.
  induction l as [|o r IH]; [intros []|]. cbn [join]. intros [->|H].
  - destruct (join r) as [[]|]; reflexivity.
  - rewrite (IH H). destruct o as [[]|]; reflexivity.
Qed.

Lemma adj_bad : forall callee, adj callee SpBad = SpBad.
Proof. intro callee. unfold adj. destruct (receiver_remote callee) as [[]|]; reflexivity. Qed.

Section Checked.
  Variables (ia : list (list Z * list Z * list Z * list Z)) (st fa : list (list Z * list Z * list Z)).

  Lemma resolve_from : forall k m fn c, (k <= m)%nat -> resolve ia st fa k fn c <> SpBad ->
    resolve ia st fa m fn c = resolve ia st fa k fn c.
  Proof.
    induction k as [|k IH]; intros m fn c Hle H; [exfalso; apply H; reflexivity|].
    destruct m as [|m]; [lia|]. apply le_S_n in Hle. destruct c; cbn [resolve] in *; try reflexivity; f_equal; apply map_ext_in.
    - intros [[[caller callee] p'] arg] Hin. destruct (calls_fn fn callee && bytes_eqb p' p) eqn:E; [|reflexivity].
      f_equal. f_equal. apply IH; [exact Hle|]. intro Hb. apply H. unfold joined. rewrite join_bad; [reflexivity|].
      apply in_map_iff. exists (caller, callee, p', arg). split; [|exact Hin]. rewrite E, Hb, adj_bad. reflexivity.
    - intros [[sfn f'] v] Hin. destruct (bytes_eqb f' f) eqn:E; [|reflexivity].
      destruct (classify 4 v) eqn:Ec; try reflexivity; f_equal; (apply IH; [exact Hle|]); intro Hb; apply H; unfold joined;
        (rewrite join_bad; [reflexivity|]); apply in_map_iff; exists (sfn, f', v); (split; [|exact Hin]); rewrite E, Ec, Hb; reflexivity.
  Qed.

  (* (n, fn, c, v): with fuel n or more, (fn, c) resolves to v, which is not SpBad *)
  Definition same_idc (a b : idc) : bool :=
    match a, b with
    | CParam p, CParam q | CField p, CField q => bytes_eqb p q
    | CHdrPre, CHdrPre | CHdrPost, CHdrPost | CSenderHdr, CSenderHdr => true
    | _, _ => false
    end.
  Fixpoint look (m : list (nat * list Z * idc * idsp)) (k : nat) (fn : list Z) (c : idc) : option idsp :=
    match m with
    | [] => None
    | (n, fn', c', v) :: r => if (n <=? k)%nat && bytes_eqb fn' fn && same_idc c' c then Some v else look r k fn c
    end.

  Section Resolver.
    Variable m : list (nat * list Z * idc * idsp).

    Fixpoint resolve_m (fuel : nat) (fn : list Z) (c : idc) : idsp :=
      match fuel with
      | O => SpBad
      | S fuel' =>
          match look m fuel fn c with
          | Some v => v
          | None =>
              match c with
              | CHdrPre => fs fa fn
              | CHdrPost => flip (fs fa fn)
              | CSenderHdr => fs fa (s2z "Relayer.newFragmentSender")
              | CFresh => SpRemote
              | CParam p =>
                  joined (map (fun row =>
                    let '(caller, callee, p', arg) := row in
                    if calls_fn fn callee && bytes_eqb p' p
                    then Some (adj callee (resolve_m fuel' caller (classify 4 arg))) else None) ia)
              | CField f =>
                  joined (map (fun row =>
                    let '(sfn, f', v) := row in
                    if bytes_eqb f' f
                    then match classify 4 v with CLit => None | c' => Some (resolve_m fuel' sfn c') end
                    else None) st)
              | CLit | CBad => SpBad
              end
          end
      end.

    Lemma resolve_m_ok : (forall k fn c v, look m k fn c = Some v -> resolve ia st fa k fn c = v) ->
      forall k fn c, resolve_m k fn c = resolve ia st fa k fn c.
    Proof.
      intro Hm. induction k as [|k IH]; intros fn c; [reflexivity|]. cbn [resolve_m].
      destruct (look m (S k) fn c) as [v|] eqn:E; [symmetry; exact (Hm _ _ _ _ E)|].
      destruct c; cbn [resolve]; try reflexivity; f_equal; apply map_ext.
      - intros [[[caller callee] p'] arg]. rewrite IH. reflexivity.
      - intros [[sfn f'] v]. destruct (classify 4 v); rewrite ?IH; reflexivity.
    Qed.
  End Resolver.

  (* an entry is checked with the help of the entries behind it *)
  Fixpoint memo_ok (m : list (nat * list Z * idc * idsp)) : bool :=
    match m with
    | [] => true
    | (n, fn, c, v) :: r => negb (idsp_eqb v SpBad) && idsp_eqb (resolve_m r n fn c) v && memo_ok r
    end.

  Lemma look_ok : forall m, memo_ok m = true -> forall k fn c v, look m k fn c = Some v -> resolve ia st fa k fn c = v.
  Proof.
    induction m as [|[[[n fn'] c'] v'] r IH]; cbn [memo_ok look]; intros Hm k fn c v Hl; [discriminate|].
    apply andb_true_iff in Hm. destruct Hm as [Hm Hr]. apply andb_true_iff in Hm. destruct Hm as [Hb Hv]. specialize (IH Hr).
    destruct ((n <=? k)%nat && bytes_eqb fn' fn && same_idc c' c) eqn:E; [|exact (IH _ _ _ _ Hl)].
    inversion Hl. subst v'. apply andb_true_iff in E. destruct E as [E Ec]. apply andb_true_iff in E. destruct E as [En Ef].
    apply Nat.leb_le in En. apply bytes_eqb_eq in Ef. subst fn'.
    assert (c' = c) as -> by (destruct c', c; try discriminate; try reflexivity; apply bytes_eqb_eq in Ec; subst; reflexivity).
    apply idsp_eqb_eq in Hv. rewrite (resolve_m_ok r IH) in Hv.
    rewrite (resolve_from n k fn c En); [exact Hv|]. rewrite Hv. intros ->. discriminate Hb.
  Qed.

  Variables (fl : list (list Z * list Z * list Z * list Z * list Z)) (sy lit fv : list (list Z * list Z * list Z)).
  Definition checks_with (r : list Z -> idc -> idsp) : bool :=
    forallb (fun row => let '(fn, callee, p, arg) := row in
      idsp_eqb (adj callee (r fn (classify 4 arg))) (expect_param p)) ia &&
    forallb (fun row => let '(fn, f, v) := row in
      match classify 4 v with CLit => true | c => idsp_eqb (r fn c) (expect_store f) end) st &&
    forallb (fun row => let '(fn, callee, items, id, _) := row in
      own_table lit fn items && idsp_eqb (adj callee (r fn (classify 4 id))) SpOwn) fl &&
    forallb (fun row => let '(fn, rcv, id) := row in
      bytes_eqb rcv (s2z "r.conn") && idsp_eqb (r fn (classify 4 id)) SpOwn) sy.

  Lemma discipline_by : forall r, (forall fn c, r fn c = resolve ia st fa 14 fn c) ->
    checks_with r && receive_ok fa && funcvals_ok lit fv && negb (zlen fl =? 0) && negb (zlen sy =? 0) = true ->
    id_discipline ia st fa fl sy lit fv = true.
  Proof.
    intros r Hr H. rewrite <- H. unfold id_discipline, checks_with, args_ok, stores_ok, fails_ok, syserrs_ok, space_of.
    do 4 f_equal. f_equal; [f_equal; [f_equal|]|]; apply forallb_ext.
    - intros [[[fn callee] p] arg]. rewrite Hr. reflexivity.
    - intros [[fn f] v]. destruct (classify 4 v); rewrite ?Hr; reflexivity.
    - intros [[[[fn callee] items] id] reason]. rewrite Hr. reflexivity.
    - intros [[fn rcv] id]. rewrite Hr. reflexivity.
  Qed.
End Checked.

(* ---------------------------------------------------------------- the generated tables *)

Definition gen_space (fn id : list Z) : idsp := space_of relay_id_args relay_id_stores relay_frame_args fn id.

Definition site_ids : list (list Z * idc) :=
  map (fun '(fn, _, _, arg) => (fn, classify 4 arg)) relay_id_args ++ map (fun '(fn, _, v) => (fn, classify 4 v)) relay_id_stores ++
  map (fun '(fn, _, _, id, _) => (fn, classify 4 id)) relay_fail_sites ++ map (fun '(fn, _, id) => (fn, classify 4 id)) relay_syserr_sites.

(* the ids of the tables by the fuel they need: each is resolved with those that need less already
   known (a header id is known once the frame space of its function is) *)
Definition res_memo : list (nat * list Z * idc * idsp) := Eval vm_compute in
  fold_left (fun m k => fold_left (fun m '(fn, c) =>
    match c, look m k fn c with
    | (CLit | CBad | CFresh), _ | _, Some _ => m
    | _, None =>
        match resolve_m relay_id_args relay_id_stores relay_frame_args m k fn c with SpBad => m | v => (k, fn, c, v) :: m end
    end) site_ids m) (seq 1 14) [].
Definition fast : list Z -> idc -> idsp := resolve_m relay_id_args relay_id_stores relay_frame_args res_memo 14.

Lemma fast_ok : forall fn c, fast fn c = resolve relay_id_args relay_id_stores relay_frame_args 14 fn c.
Proof. apply resolve_m_ok. apply look_ok. vm_compute. reflexivity. Qed.

Lemma gen_id_discipline :
  id_discipline relay_id_args relay_id_stores relay_frame_args relay_fail_sites relay_syserr_sites
                relay_fragsender_lit relay_funcval_sites = true.
Proof. apply (discipline_by _ _ _ _ _ _ _ fast fast_ok). vm_compute. reflexivity. Qed.

Lemma gen_fail_sites : relay_fail_sites = ri_fail_rows.
Proof. vm_compute. reflexivity. Qed.
Lemma gen_syserr_sites : relay_syserr_sites = ri_syserr_rows.
Proof. vm_compute. reflexivity. Qed.
Lemma gen_fragsender_lit : relay_fragsender_lit = ri_lit_rows.
Proof. vm_compute. reflexivity. Qed.

(* row by row: the id of every fail site and of every SendSystemError site is an id of the
   relayer's OWN connection *)
Lemma gen_fail_own :
  forallb (fun row => let '(fn, callee, _, id, _) := row in idsp_eqb (adj callee (gen_space fn id)) SpOwn) relay_fail_sites = true.
Proof. exact (proj1 (discipline_own _ _ _ _ _ _ _ gen_id_discipline)). Qed.
Lemma gen_syserr_own :
  forallb (fun row => let '(fn, rcv, id) := row in bytes_eqb rcv (s2z "r.conn") && idsp_eqb (gen_space fn id) SpOwn) relay_syserr_sites = true.
Proof. exact (proj2 (discipline_own _ _ _ _ _ _ _ gen_id_discipline)). Qed.
(* every frame a Receive gets carries the receiving relayer's id (not read off [receive_ok]: the
   kernel converts [fs] into [frame_space 10] by unrolling both) *)
Lemma gen_receive_own : frame_space relay_frame_args 10 (s2z "Relayer.Receive") = SpOwn.
Proof. vm_compute. reflexivity. Qed.
(* the header of a forwarded frame is rewritten to the id of the other connection, and the frame
   reaches the fragment sender only after that *)
Lemma gen_sender_remote : frame_space relay_frame_args 10 (s2z "Relayer.newFragmentSender") = SpRemote.
Proof. vm_compute. reflexivity. Qed.

(* ---------------------------------------------------------------- the checker is not vacuous *)

Definition set_store (f v : list Z) (tbl : list (list Z * list Z * list Z)) :=
  map (fun row => let '(fn, f', v') := row in if bytes_eqb f' f then (fn, f', v) else row) tbl.
Definition set_fail_id (fn id : list Z) (tbl : list (list Z * list Z * list Z * list Z * list Z)) :=
  map (fun row => let '(fn', c, it, id', r) := row in if bytes_eqb fn' fn then (fn', c, it, id, r) else row) tbl.
Definition set_arg (callee p arg : list Z) (tbl : list (list Z * list Z * list Z * list Z)) :=
  map (fun row => let '(fn, c, p', a) := row in if bytes_eqb c callee && bytes_eqb p' p then (fn, c, p', arg) else row) tbl.

(* the fragment sender records the header id of the call req it is built with (already rewritten) *)
Example discipline_rejects_sender_hdr :
  id_discipline relay_id_args (set_store (s2z "relayFragmentSender.origID") (s2z "cr.Header.ID@pre") relay_id_stores)
    relay_frame_args relay_fail_sites relay_syserr_sites relay_fragsender_lit relay_funcval_sites = false.
Proof.
  apply rejected. right. left.
  apply (forallb_filter_false _ _ (fun '(_, f, _) => bytes_eqb f (s2z "relayFragmentSender.origID"))). vm_compute. reflexivity.
Qed.
(* handleCallReq / handleNonCallReq fail their item under the header id after the rewrite *)
Example discipline_rejects_post_hdr :
  id_discipline relay_id_args relay_id_stores relay_frame_args
    (set_fail_id (s2z "Relayer.handleCallReq") (s2z "f.Header.ID@post") relay_fail_sites)
    relay_syserr_sites relay_fragsender_lit relay_funcval_sites = false /\
  id_discipline relay_id_args relay_id_stores relay_frame_args
    (set_fail_id (s2z "Relayer.handleNonCallReq") (s2z "f.Header.ID@post") relay_fail_sites)
    relay_syserr_sites relay_fragsender_lit relay_funcval_sites = false.
Proof.
  split; apply rejected; right; right; left.
  - apply (forallb_filter_false _ _ (fun '(fn, _, _, _, _) => bytes_eqb fn (s2z "Relayer.handleCallReq"))). vm_compute. reflexivity.
  - apply (forallb_filter_false _ _ (fun '(fn, _, _, _, _) => bytes_eqb fn (s2z "Relayer.handleNonCallReq"))). vm_compute. reflexivity.
Qed.
(* the relay timer is started with the id of the other connection: the timeout error and the Entomb
   of timeoutRelayItem would use it *)
Example discipline_rejects_timer_remap :
  id_discipline (set_arg (s2z "item.timeout.Start") (s2z "id") (s2z "param:remapID") relay_id_args)
    relay_id_stores relay_frame_args relay_fail_sites relay_syserr_sites relay_fragsender_lit relay_funcval_sites = false.
Proof.
  apply rejected. left.
  apply (forallb_filter_false _ _ (fun '(_, c, p, _) => bytes_eqb c (s2z "item.timeout.Start") && bytes_eqb p (s2z "id"))).
  vm_compute. reflexivity.
Qed.
(* the frame is handed to the destination's Receive before its header is rewritten *)
Example discipline_rejects_unrewritten_frame :
  id_discipline relay_id_args relay_id_stores
    (map (fun row => let '(fn, c, a) := row in
       if bytes_eqb c (s2z "item.destination.Receive") then (fn, c, s2z "f@pre") else row) relay_frame_args)
    relay_fail_sites relay_syserr_sites relay_fragsender_lit relay_funcval_sites = false.
Proof. apply rejected. right. right. right. vm_compute. reflexivity. Qed.

(* ---------------------------------------------------------------- the rows as instructions of the model *)

(* own space = the id the frame was read with; remote space = the id on the other connection *)
Lemma site_key_own : forall k dir id rid, site_key SpOwn k dir id rid = Some (k, dir, id).
Proof. reflexivity. Qed.

Lemma fail_sites_model : forall cf st,
  (* row 1, Relayer.Receive: the receiving relayer fails ITS item of the frame (key rk), then answers
     not-sent and the caller fails its own *)
  (forall r rk lk, exists reason,
     exec cf st (IRcvEnq r rk lk) false = (st, [IFailGet rk reason; IFailGet (r_own r) reason])) /\
  (* row 2, handleCallReq: fragmentingSend failed before the first fragment *)
  (forall k f e c d did, e_mode e <? 0 = true -> exists st1,
     exec cf st (IAddOrig k f e c d did) true = (st1, [IFailGet (k, 0, f_id f) reason_arg2_modify])) /\
  (* rows 3 and 5, handleCallReq / flushFragment: the call req (first fragment) is sent under the
     destination id did; the item to fail is filed under the id read, f_id f *)
  (forall k f e c d did, e_mode e <? 0 = false -> exists st1 r,
     exec cf st (IAddOrig k f e c d did) true = (st1, [ICb c CbSent; IRcvGet r]) /\
     r_own r = (k, 0, f_id f) /\ f_id (r_f r) = did /\ r_d r = d) /\
  (* row 4, handleNonCallReq: the frame is sent under the item's remapID; the item to fail is the
     reader's own *)
  (forall k f ft own it stopped, it_tomb it || (fin_of f && negb stopped) = false -> exists pre r,
     exec cf st (INcChk k f ft own (Some (it, stopped))) true = (st, pre ++ [IRcvGet r]) /\
     r_own r = own /\ f_id (r_f r) = it_remap it /\ r_d r = it_dest it) /\
  (* row 5, flushFragment: every further fragment keeps the own item and the destination id *)
  (forall r r', In (IRcvGet r') (after_sent r) ->
     r_own r' = r_own r /\ f_id (r_f r') = f_id (r_f r) /\ r_d r' = r_d r) /\
  (* the not-sent answer of Receive: the caller fails its own item *)
  (forall r reason, after_unsent r reason = [IFailGet (r_own r) reason]).
Proof.
  intros cf st. split; [|split; [|split; [|split; [|split]]]].
  - intros r rk lk. eexists. cbn. reflexivity.
  - intros k f e c d did Hm. unfold exec, timer_new. cbn [fst snd]. rewrite Hm. eexists. reflexivity.
  - intros k f e c d did Hm. unfold exec, timer_new. cbn [fst snd]. rewrite Hm. eexists. eexists. split; [reflexivity|].
    cbn. repeat split; reflexivity.
  - intros k f ft own it stopped Hg. cbn [exec]. rewrite Hg.
    eexists ((if (f_mt f =? c_messageTypeCallRes) && f_wf f then [ICb (it_call it) CbResp] else []) ++
             [ICb (it_call it) (if ft =? c_requestFrame then CbSent else CbRecv)]).
    eexists. split; [rewrite <- app_assoc; reflexivity|]. cbn. repeat split; reflexivity.
  - intros r r' H. unfold after_sent in H. apply in_app_or in H. destruct H as [H|H].
    + destruct (fin_of (r_f r)); [|contradiction]. destruct H as [H|[]]. discriminate.
    + destruct (0 <? r_more r); [|contradiction]. destruct H as [H|[H|[]]]; [discriminate|]. inversion H. repeat split; reflexivity.
  - reflexivity.
Qed.

(* rows 6 and 7 of the SendSystemError table: the error frames of timeoutRelayItem / failRelayItem
   carry the connection and id of the key that was entombed *)
Lemma syserr_sites_model : forall k id c s j,
  In j (orig_tail k id c s) -> forall k' id' code, j = ISendErr k' id' code -> k' = k /\ id' = id.
Proof.
  intros k id c s j Hj k' id' code ->. unfold orig_tail in Hj. destruct s as [reason|o].
  - apply in_app_or in Hj. destruct Hj as [Hj|Hj].
    + destruct (reason =? reason_source_slow); [contradiction|]. destruct Hj as [Hj|[]]. inversion Hj. split; reflexivity.
    + destruct Hj as [Hj|[Hj|[]]]; discriminate.
  - destruct Hj as [Hj|[Hj|[Hj|[]]]]; try discriminate. inversion Hj. split; reflexivity.
Qed.
