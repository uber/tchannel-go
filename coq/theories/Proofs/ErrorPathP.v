(* Proofs about the error path model (property C20). *)
From Coq Require Import ZArith List Bool Lia.
From Verif Require Import Base.Wrap Base.Bytes Gen.GenConsts Gen.GenRetry Gen.GenFrame Gen.GenErrors
  Model.TypedBuf Model.Messages Model.ErrorPath Spec.Protocol Spec.ErrorSpec Spec.RelayErrors
  Proofs.CodecP Proofs.FrameP.
Import ListNotations.
Local Open Scope Z_scope.

Lemma code_names_tie :
  List.concat code_names = c_u_SystemErrCode_name_0 /\ code_string 255 = c_u_SystemErrCode_name_1 /\
  List.concat state_names = c_u_connectionState_name.
Proof. vm_compute. repeat split. Qed.

(* ---------------------------------------------------------------- error values *)
Lemma sys_code_sys c m : sys_code (ESys c m) = c.
Proof. reflexivity. Qed.
Lemma sys_message_sys c m : sys_message (ESys c m) = Some m.
Proof. reflexivity. Qed.
Lemma sys_code_nonsys e : is_sys e = false -> is_nil e = false -> sys_code e = 5.
Proof. destruct e; cbn; intros; try discriminate; reflexivity. Qed.
Lemma sys_message_nonsys e : is_sys e = false -> is_nil e = false -> sys_message e = Some (err_text e).
Proof. destruct e; cbn; intros; try discriminate; reflexivity. Qed.

Lemma new_wrapped_sys code c m : new_wrapped code (ESys c m) = ESys c m.
Proof. reflexivity. Qed.
Lemma new_wrapped_nonsys code e : is_sys e = false -> new_wrapped code e = ESys code (err_text e).
Proof. destruct e; cbn; intros; try discriminate; reflexivity. Qed.

(* a SystemError keeps its code through any number of wraps: the rule that made the relay's
   "selected remote inactive" error a network error although it was wrapped as declined *)
Lemma wrap_wrap_keeps_inner c1 c2 e : is_sys e = false ->
  sys_code (new_wrapped c1 (new_wrapped c2 e)) = c2.
Proof. intros H. rewrite (new_wrapped_nonsys c2 e H). reflexivity. Qed.

Lemma log_connection_error_nonsys e : is_sys e = false ->
  log_connection_error e = ESys 7 (err_text e).
Proof. destruct e; cbn; intros; try discriminate; reflexivity. Qed.
Lemma log_connection_error_sys c m : log_connection_error (ESys c m) = ESys c m.
Proof. reflexivity. Qed.

Lemma get_context_error_deadline : get_context_error ECtxDeadline = v_ErrTimeout.
Proof. reflexivity. Qed.
Lemma get_context_error_canceled : get_context_error ECtxCanceled = v_ErrRequestCancelled.
Proof. reflexivity. Qed.

Definition msg_ok (m : list Z) : Prop := bytes_ok m = true.
Definition code_ok (c : Z) : Prop := 0 <= c < 256.

(* ---------------------------------------------------------------- sending *)
(* the largest message an error frame can carry *)
Definition max_error_msg : Z := c_MaxFramePayloadSize - 28.

Lemma error_frame_ok id sp e m :
  sys_message e = Some m -> code_ok (sys_code e) -> span_ok sp -> zlen m <= max_error_msg ->
  error_frame id sp e =
    Some (Some (mkFH (16 + zlen (s_error (sys_code e) (spec_span sp) m)) c_messageTypeError 0 id,
                s_error (sys_code e) (spec_span sp) m)).
Proof.
  intros Hm Hc Hs Hl. unfold error_frame. rewrite Hm. unfold max_error_msg, c_MaxFramePayloadSize in Hl.
  rewrite (frame_write_ok _ _ _ c_messageTypeError id (w_error_layout _ sp m Hc (proj2 (proj2 (proj2 Hs))) ltac:(lia))).
  - reflexivity.
  - rewrite zlen_s_error, zlen_spec_span. unfold c_MaxFramePayloadSize. lia.
  - lia.
Qed.

Lemma send_ok c id sp e m :
  sys_message e = Some m -> code_ok (sys_code e) -> span_ok sp -> zlen m <= max_error_msg ->
  cn_state c <> c_connectionClosed -> 0 < cn_room c ->
  send_system_error c id sp e = Sent (s_frame 255 id (s_error (sys_code e) (spec_span sp) m)).
Proof.
  intros Hm Hc Hs Hl Hst Hroom. unfold send_system_error.
  rewrite (error_frame_ok id sp e m Hm Hc Hs Hl).
  destruct (cn_state c =? c_connectionClosed) eqn:E; [lia|].
  destruct (cn_room c <=? 0) eqn:R; [lia|].
  f_equal. apply frame_out_spec.
  - apply u_ok_1. unfold c_messageTypeError. lia.
  - rewrite zlen_s_error, zlen_spec_span. unfold max_error_msg, c_MaxFramePayloadSize in Hl. lia.
Qed.

(* a message that does not fit is refused at frame construction: nothing is sent *)
Lemma error_frame_too_long id sp e m :
  sys_message e = Some m -> code_ok (sys_code e) -> span_ok sp -> max_error_msg < zlen m ->
  error_frame id sp e = Some None.
Proof.
  intros Hm Hc Hs Hl. unfold error_frame. rewrite Hm. unfold max_error_msg, c_MaxFramePayloadSize in Hl.
  destruct (Z_le_gt_dec (zlen m) 65535) as [L|L].
  - rewrite (frame_write_full _ _ _ c_messageTypeError id (w_error_layout _ sp m Hc (proj2 (proj2 (proj2 Hs))) L)); [reflexivity|].
    rewrite zlen_s_error, zlen_spec_span. unfold c_MaxFramePayloadSize. lia.
  - (* longer than a uint16 length: errStringTooLong once code and tracing are written *)
    destruct (seq_writes _ _ _ _ (w_u8_writes _ Hc) (w_span_writes sp (proj2 (proj2 (proj2 Hs))))) as [P _].
    unfold frame_write, w_error, seqW in *. cbn [em_code em_span em_msg].
    rewrite P, w_len16_toolong; try reflexivity; [lia|].
    cbn [wroom wb]. rewrite zlen_app, zlen_spec_span. unfold c_MaxFramePayloadSize. change (zlen [sys_code e]) with 1. lia.
Qed.

Lemma send_too_long c id sp e m :
  sys_message e = Some m -> code_ok (sys_code e) -> span_ok sp -> max_error_msg < zlen m ->
  send_system_error c id sp e = NotSent 1.
Proof.
  intros Hm Hc Hs Hl. unfold send_system_error. rewrite (error_frame_too_long id sp e m Hm Hc Hs Hl). reflexivity.
Qed.

(* ---------------------------------------------------------------- receiving *)
(* the exchange of a call that is waiting: live context, nothing queued, no connection error *)
Definition waiting : mex := mkMex ENil [] ENil.

Lemma r_error_spec code sp msg rest :
  error_ok (mkErr code sp msg) ->
  r_error (rb (s_error code (spec_span sp) msg ++ rest)) = (mkErr code sp msg, rb rest).
Proof. intros OK. destruct (r_error_consumes _ OK) as [C _]. exact (C rest). Qed.

(* handleError: an error frame is parsed; junk after the message is ignored *)
Lemma handle_error_spec id code sp msg junk :
  error_ok (mkErr code sp msg) ->
  handle_error id (s_error code (spec_span sp) msg ++ junk) =
    if code =? 255 then AClose 2 (ESys code msg) else AForward id.
Proof.
  intros OK. unfold handle_error. rewrite (r_error_spec code sp msg junk OK). cbn [rerr rb em_code em_msg].
  reflexivity.
Qed.

Lemma read_response_error_frame id h code sp msg junk :
  error_ok (mkErr code sp msg) -> fh_id h = id -> fh_type h = c_messageTypeError ->
  read_response id (mkMex ENil [(h, s_error code (spec_span sp) msg ++ junk)] ENil) = CErr (ESys code msg).
Proof.
  intros OK Hid Ht. unfold read_response, recv_peer_frame_of_type, recv_peer_frame.
  cbn [mx_ctx mx_queue is_nil negb]. rewrite Hid, Z.eqb_refl, Ht.
  cbn [Z.eqb c_messageTypeError c_messageTypeCallRes Pos.eqb].
  rewrite (r_error_spec code sp msg junk OK). reflexivity.
Qed.

(* direct path: the error frame arrives on the caller's (non-relay) connection *)
Lemma caller_receive_error id code sp msg rest :
  u_ok 4 id -> code_ok code -> span_ok sp -> msg_ok msg -> zlen msg <= max_error_msg ->
  caller_receive false id waiting (s_frame 255 id (s_error code (spec_span sp) msg) ++ rest) =
    (CErr (ESys code msg), code =? 255).
Proof.
  intros Hid Hc Hs Hm Hl. unfold max_error_msg, c_MaxFramePayloadSize in Hl.
  assert (OK : error_ok (mkErr code sp msg)) by (split; [exact Hc|split; [exact Hs|split; [cbn; lia|exact Hm]]]).
  unfold caller_receive.
  rewrite frame_read_in_spec; [|apply u_ok_1; lia|exact Hid|rewrite zlen_s_error, zlen_spec_span; lia].
  cbn [Z.eqb negb]. unfold handle_frame. cbn [fh_type fh_id andb].
  change (255 =? c_messageTypeError) with true. cbn iota.
  rewrite <- (app_nil_r (s_error code (spec_span sp) msg)) at 1.
  rewrite (handle_error_spec id code sp msg [] OK).
  destruct (code =? 255) eqn:E.
  - (* protocol error: connection closed, the exchange is notified with the same system error *)
    apply Z.eqb_eq in E. subst code. reflexivity.
  - unfold waiting. cbn [mx_ctx mx_queue mx_err is_nil andb]. rewrite Z.eqb_refl.
    change (zlen (@nil (fheader * list Z)) <? c_mexChannelBufferSize) with true. cbn [andb app].
    rewrite <- (app_nil_r (s_error code (spec_span sp) msg)).
    rewrite (read_response_error_frame id _ code sp msg [] OK); reflexivity.
Qed.

(* on a connection of a relay channel an error frame never closes the connection: it is routed
   to the relayer *)
Lemma handle_frame_relay_error h payload :
  fh_type h = c_messageTypeError -> handle_frame true h payload = ARelay.
Proof. intros H. unfold handle_frame. rewrite H. reflexivity. Qed.

(* outside relay channels: which frames close the connection they arrive on *)
Lemma handle_frame_close h payload site e :
  handle_frame false h payload = AClose site e ->
  fh_type h = c_messageTypeError /\
  ((site = 1 /\ rerr (snd (r_error (rb payload))) = true) \/
   (site = 2 /\ exists m, e = ESys 255 m /\ em_code (fst (r_error (rb payload))) = 255)).
Proof.
  unfold handle_frame. cbn [andb].
  destruct (fh_type h =? c_messageTypeError) eqn:T.
  - apply Z.eqb_eq in T. intros H. split; [exact T|]. unfold handle_error in H.
    destruct (r_error (rb payload)) as [m r] eqn:R. cbn [fst snd].
    destruct (rerr r) eqn:Er.
    + left. inversion H. auto.
    + destruct (em_code m =? c_ErrCodeProtocol) eqn:P; [|discriminate].
      right. apply Z.eqb_eq in P. inversion H. split; [reflexivity|]. exists (em_msg m). rewrite P. auto.
  - destruct ((fh_type h =? c_messageTypeCallRes) || (fh_type h =? c_messageTypeCallResContinue)); discriminate.
Qed.

(* ---------------------------------------------------------------- relays *)
Definition item_live (finished : bool) (it : item) : Prop :=
  match it with ILive stoppable remap => (finished = true -> stoppable = true) /\ u_ok 4 remap | _ => False end.
Definition hop_live (finished : bool) (hp : hop) : Prop :=
  item_live finished (hp_in hp) /\ item_live finished (hp_out hp) /\ 0 < hp_room hp.
Definition hop_ids_ok (hp : hop) : Prop :=
  match hp_in hp with ILive _ remap => u_ok 4 remap | _ => True end.

Definition hop_remap (hp : hop) (id : Z) : Z := match hp_in hp with ILive _ r => r | _ => id end.
Definition final_id (sid : Z) (hops : list hop) : Z := fold_left (fun id hp => hop_remap hp id) hops sid.

Lemma relay_hop_forward hp t id p :
  u_ok 1 t -> zlen p <= 65519 -> hop_live (finishesCall t (frame_flags p)) hp ->
  relay_hop hp (mkFH (16 + zlen p) t 0 id) p = HForward (s_frame t (hop_remap hp id) p).
Proof.
  intros Ht Hp [Hi [Ho Hr]]. unfold relay_hop, hop_remap. cbn [fh_type fh_size fh_res1].
  destruct (hp_in hp) as [| |s1 r1]; try contradiction. destruct Hi as [S1 _].
  destruct (hp_out hp) as [| |s2 r2]; try contradiction. destruct Ho as [S2 _].
  destruct (finishesCall t (frame_flags p)) eqn:F.
  - rewrite (S1 eq_refl), (S2 eq_refl). cbn [negb andb].
    destruct (hp_room hp <=? 0) eqn:R; [lia|]. f_equal. apply frame_out_spec; assumption.
  - cbn [andb]. destruct (hp_room hp <=? 0) eqn:R; [lia|]. f_equal. apply frame_out_spec; assumption.
Qed.

(* whatever the state of the relay items: a frame that passes a hop keeps type and payload *)
Lemma relay_hop_transparent hp t id p w :
  u_ok 1 t -> zlen p <= 65519 -> hop_ids_ok hp ->
  relay_hop hp (mkFH (16 + zlen p) t 0 id) p = HForward w ->
  exists id', u_ok 4 id' /\ w = s_frame t id' p.
Proof.
  intros Ht Hp Hok. unfold relay_hop. cbn [fh_type fh_size fh_res1]. unfold hop_ids_ok in Hok.
  destruct (hp_in hp) as [| |s1 r1]; try discriminate.
  destruct (finishesCall t (frame_flags p) && negb s1); [discriminate|].
  destruct (hp_out hp) as [| |s2 r2]; try discriminate.
  destruct (finishesCall t (frame_flags p) && negb s2); [discriminate|].
  destruct (hp_room hp <=? 0); [discriminate|].
  intros H. inversion H. exists r1. split; [exact Hok|]. apply frame_out_spec; assumption.
Qed.

Lemma relay_chain_forward hops : forall t sid p,
  u_ok 1 t -> u_ok 4 sid -> zlen p <= 65519 ->
  Forall (hop_live (finishesCall t (frame_flags p))) hops ->
  relay_chain hops (s_frame t sid p) = Some (s_frame t (final_id sid hops) p) /\ u_ok 4 (final_id sid hops).
Proof.
  induction hops as [|hp hops IH]; intros t sid p Ht Hs Hp Hl.
  - cbn. auto.
  - inversion Hl as [|? ? L1 L2]; subst. cbn [relay_chain].
    rewrite <- (app_nil_r (s_frame t sid p)). rewrite frame_read_in_spec by assumption.
    cbn [Z.eqb negb]. rewrite (relay_hop_forward hp t sid p Ht Hp L1).
    assert (U : u_ok 4 (hop_remap hp sid)).
    { unfold hop_remap. destruct L1 as [Hi _]. destruct (hp_in hp); try contradiction. apply Hi. }
    destruct (IH t (hop_remap hp sid) p Ht U Hp L2) as [E F]. split; [exact E|exact F].
Qed.

Lemma relay_chain_transparent hops : forall t sid p w,
  u_ok 1 t -> u_ok 4 sid -> zlen p <= 65519 -> Forall hop_ids_ok hops ->
  relay_chain hops (s_frame t sid p) = Some w -> exists cid, u_ok 4 cid /\ w = s_frame t cid p.
Proof.
  induction hops as [|hp hops IH]; intros t sid p w Ht Hs Hp Hok H.
  - cbn in H. inversion H. exists sid. auto.
  - inversion Hok as [|? ? O1 O2]; subst. cbn [relay_chain] in H.
    rewrite <- (app_nil_r (s_frame t sid p)) in H. rewrite frame_read_in_spec in H by assumption.
    cbn [Z.eqb negb] in H.
    destruct (relay_hop hp (mkFH (16 + zlen p) t 0 sid) p) as [w1| |] eqn:R; try discriminate.
    destruct (relay_hop_transparent hp t sid p w1 Ht Hp O1 R) as [id' [U ->]].
    exact (IH t id' p w Ht U Hp O2 H).
Qed.

(* ---------------------------------------------------------------- end to end: system errors *)
Definition active_conn (c : conn) : Prop := cn_state c = c_connectionActive /\ 0 < cn_room c.

(* a system error that is sent reaches the caller, directly or through any number of relays *)
Lemma syserr_travels c sid sp e m hops :
  sys_message e = Some m -> code_ok (sys_code e) -> span_ok sp -> msg_ok m -> u_ok 4 sid ->
  cn_state c <> c_connectionClosed -> 0 < cn_room c -> Forall (hop_live true) hops -> zlen m <= max_error_msg ->
  exists wire',
    send_system_error c sid sp e = Sent (s_frame 255 sid (s_error (sys_code e) (spec_span sp) m)) /\
    relay_chain hops (s_frame 255 sid (s_error (sys_code e) (spec_span sp) m)) = Some wire' /\
    caller_receive false (final_id sid hops) waiting wire' = (CErr (ESys (sys_code e) m), sys_code e =? 255).
Proof.
  intros Hm Hc Hs Hb Hid Hst Hroom Hl Hlen.
  assert (Hp : zlen (s_error (sys_code e) (spec_span sp) m) <= 65519).
  { rewrite zlen_s_error, zlen_spec_span. unfold max_error_msg, c_MaxFramePayloadSize in Hlen. lia. }
  destruct (relay_chain_forward hops 255 sid _ (u_ok_1 255 ltac:(lia)) Hid Hp Hl) as [E U].
  eexists. split; [apply (send_ok c sid sp e m); assumption|]. split; [exact E|].
  rewrite <- (app_nil_r (s_frame 255 _ _)). apply caller_receive_error; assumption.
Qed.

Theorem syserr_roundtrip c sid sp e m hops :
  sys_message e = Some m -> code_ok (sys_code e) -> span_ok sp -> msg_ok m -> u_ok 4 sid ->
  active_conn c -> Forall (hop_live true) hops ->
  (zlen m <= max_error_msg ->
     exists wire wire',
       send_system_error c sid sp e = Sent wire /\
       wire = s_frame 255 sid (s_error (sys_code e) (spec_span sp) m) /\
       relay_chain hops wire = Some wire' /\
       caller_receive false (final_id sid hops) waiting wire' = (CErr (ESys (sys_code e) m), sys_code e =? 255)) /\
  (max_error_msg < zlen m -> send_system_error c sid sp e = NotSent 1).
Proof.
  intros Hm Hc Hs Hb Hid [Hst Hroom] Hl. split; [|apply (send_too_long c sid sp e m); assumption].
  intros Hlen. destruct (syserr_travels c sid sp e m hops Hm Hc Hs Hb Hid) as [wire' [S [R C]]]; try assumption.
  { rewrite Hst. discriminate. }
  eexists _, wire'. split; [exact S|]. split; [reflexivity|]. split; [exact R|exact C].
Qed.

Lemma syserr_roundtrip_sys c sid sp code msg hops :
  code_ok code -> span_ok sp -> msg_ok msg -> u_ok 4 sid -> active_conn c -> Forall (hop_live true) hops ->
  (zlen msg <= c_MaxFramePayloadSize - 28 ->
     exists wire wire',
       send_system_error c sid sp (ESys code msg) = Sent wire /\
       wire = s_frame 255 sid (s_error code (spec_span sp) msg) /\
       relay_chain hops wire = Some wire' /\
       caller_receive false (final_id sid hops) waiting wire' = (CErr (ESys code msg), code =? 255)) /\
  (c_MaxFramePayloadSize - 28 < zlen msg -> send_system_error c sid sp (ESys code msg) = NotSent 1).
Proof. exact (syserr_roundtrip c sid sp (ESys code msg) msg hops eq_refl). Qed.

(* ---------------------------------------------------------------- call responses *)

Lemma set_application_error_ok st : st <= 1 ->
  set_application_error (mkResp st false) = Some (mkResp st true).
Proof. intros H. unfold set_application_error. cbn [rs_state]. destruct (st >? 1) eqn:E; [lia|reflexivity]. Qed.
Lemma set_application_error_late st app : 1 < st -> set_application_error (mkResp st app) = None.
Proof. intros H. unfold set_application_error. cbn [rs_state]. destruct (st >? 1) eqn:E; [reflexivity|lia]. Qed.

Definition s_callres_fragment (flags code : Z) (hdrs : kvs) (rest : list Z) : list Z :=
  [flags] ++ s_callres code (s_tracing 0 0 0 0) hdrs ++ rest.

Lemma zero_span_ok : span_ok zero_span.
Proof. unfold span_ok, zero_span, u_ok. cbn. repeat split; lia. Qed.

Lemma callres_ok_zero code hdrs : u_ok 1 code -> kvs8_ok hdrs -> callres_ok (mkCallRes code zero_span hdrs).
Proof. intros Hc Hh. exact (conj Hc (conj zero_span_ok Hh)). Qed.

Lemma w_callres_fragment_writes flags rs hdrs rest :
  u_ok 1 flags -> kvs8_ok hdrs ->
  writes (w_callres_fragment flags rs hdrs rest) (s_callres_fragment flags (response_code_of rs) hdrs rest).
Proof.
  intros Hf Hh. unfold w_callres_fragment, s_callres_fragment.
  apply seq_writes; [apply w_u8_writes; exact Hf|].
  apply seq_writes; [|apply w_bytes_writes]. apply (w_callres_writes (mkCallRes _ zero_span hdrs)), callres_ok_zero, Hh.
  unfold response_code_of, c_responseApplicationError, c_responseOK. destruct (rs_app rs); apply u_ok_1; lia.
Qed.

Lemma parse_callres_spec flags code hdrs rest :
  u_ok 1 flags -> callres_ok (mkCallRes code zero_span hdrs) ->
  parse_callres (s_callres_fragment flags code hdrs rest) = Some (flags, mkCallRes code zero_span hdrs, rest).
Proof.
  intros Hf OK. unfold parse_callres, s_callres_fragment.
  destruct (r_u8_consumes flags Hf) as [C1 _]. rewrite C1.
  destruct (r_callres_consumes _ OK) as [C2 _]. unfold spec_callres in C2. cbn [cs_code cs_span cs_headers] in C2.
  change (spec_span zero_span) with (s_tracing 0 0 0 0) in C2. rewrite C2. reflexivity.
Qed.

Lemma caller_receive_callres id flags code hdrs rest tail :
  u_ok 4 id -> u_ok 1 flags -> callres_ok (mkCallRes code zero_span hdrs) ->
  zlen (s_callres_fragment flags code hdrs rest) <= 65519 ->
  caller_receive false id waiting (s_frame 4 id (s_callres_fragment flags code hdrs rest) ++ tail) =
    (CRes code rest, false).
Proof.
  intros Hid Hf OK Hl. unfold caller_receive.
  rewrite frame_read_in_spec; [|apply u_ok_1; lia|exact Hid|exact Hl].
  cbn [Z.eqb negb]. unfold handle_frame. cbn [fh_type fh_id andb].
  change (4 =? c_messageTypeError) with false. change (4 =? c_messageTypeCallRes) with true. cbn [orb].
  unfold waiting. cbn [mx_ctx mx_queue mx_err is_nil andb]. rewrite Z.eqb_refl.
  change (zlen (@nil (fheader * list Z)) <? c_mexChannelBufferSize) with true. cbn [andb app].
  unfold read_response, recv_peer_frame_of_type, recv_peer_frame. cbn [mx_ctx mx_queue is_nil negb fh_id fh_type].
  rewrite Z.eqb_refl. cbn [fh_type]. change (4 =? c_messageTypeCallRes) with true. cbn iota.
  rewrite (parse_callres_spec flags code hdrs rest Hf OK). reflexivity.
Qed.

Theorem apperr_roundtrip sid flags (app : bool) hdrs rest hops :
  u_ok 4 sid -> u_ok 1 flags -> kvs8_ok hdrs ->
  zlen (s_callres_fragment flags (if app then 1 else 0) hdrs rest) <= 65519 ->
  Forall (hop_live (finishesCall 4 flags)) hops ->
  forall rs, (if app then set_application_error (mkResp 0 false) else Some (mkResp 0 false)) = Some rs ->
  exists h p wire',
    callres_frame sid flags rs hdrs rest = Some (h, p) /\
    frame_out h p = s_frame 4 sid (s_callres_fragment flags (if app then 1 else 0) hdrs rest) /\
    relay_chain hops (frame_out h p) = Some wire' /\
    caller_receive false (final_id sid hops) waiting wire' = (CRes (if app then 1 else 0) rest, false) /\
    application_error (if app then 1 else 0) = app /\ spec_app_error (if app then 1 else 0) = app.
Proof.
  intros Hid Hf Hh Hl Hhops rs Hrs.
  assert (Hcode : response_code_of rs = if app then 1 else 0).
  { destruct app; cbn in Hrs; inversion Hrs; reflexivity. }
  pose proof (w_callres_fragment_writes flags rs hdrs rest Hf Hh) as W. rewrite Hcode in W.
  set (body := s_callres_fragment flags (if app then 1 else 0) hdrs rest) in *.
  assert (Ht : u_ok 1 4) by (apply u_ok_1; lia).
  assert (FW : callres_frame sid flags rs hdrs rest = Some (mkFH (16 + zlen body) 4 0 sid, body)).
  { unfold callres_frame. apply frame_write_ok; [exact W| |unfold c_MaxFramePayloadSize; lia].
    unfold c_MaxFramePayloadSize. exact Hl. }
  assert (FO : frame_out (mkFH (16 + zlen body) 4 0 sid) body = s_frame 4 sid body) by (apply frame_out_spec; assumption).
  assert (FF : frame_flags body = flags) by reflexivity.
  destruct (relay_chain_forward hops 4 sid body Ht Hid Hl) as [E U]. { rewrite FF. exact Hhops. }
  exists (mkFH (16 + zlen body) 4 0 sid), body, (s_frame 4 (final_id sid hops) body).
  split; [exact FW|split; [exact FO|split; [rewrite FO; exact E|split]]].
  - rewrite <- (app_nil_r (s_frame 4 _ _)). apply caller_receive_callres; auto.
    apply callres_ok_zero, Hh. destruct app; apply u_ok_1; lia.
  - destruct app; split; reflexivity.
Qed.

(* ---------------------------------------------------------------- local conditions *)
(* a done context wins over anything queued and over the connection's error *)
Lemma read_response_ctx id m :
  (mx_ctx m = ECtxDeadline -> read_response id m = CErr v_ErrTimeout) /\
  (mx_ctx m = ECtxCanceled -> read_response id m = CErr v_ErrRequestCancelled).
Proof.
  split; intros H; unfold read_response, recv_peer_frame_of_type, recv_peer_frame; rewrite H; reflexivity.
Qed.

Lemma read_response_conn_lost id e :
  is_sys e = false -> read_response id (notify waiting e) = CErr (ESys 7 (err_text e)).
Proof.
  intros H. unfold notify, waiting. cbn [mx_ctx mx_queue mx_err is_nil].
  rewrite (log_connection_error_nonsys e H). reflexivity.
Qed.

Lemma read_error_nonsys code h stream : is_sys (read_error code h stream) = false.
Proof.
  unfold read_error. destruct (code =? 1); [reflexivity|].
  destruct ((zlen stream =? 0) || (zlen stream =? c_FrameHeaderSize)); reflexivity.
Qed.

(* the stream ends before / inside a frame: the waiting caller gets a network error *)
Lemma caller_receive_cut id t fid p pre :
  u_ok 1 t -> u_ok 4 fid -> zlen p <= 65519 -> strict_prefix pre (s_frame t fid p) ->
  exists msg, caller_receive false id waiting pre = (CErr (ESys 7 msg), true).
Proof.
  intros Ht Hf Hp Hpre. pose proof (frame_read_in_prefix t fid p pre Ht Hf Hp Hpre) as E.
  unfold caller_receive. destruct (frame_read_in pre) as [[[code h] payload] rest]. cbn [fst] in E. subst code.
  cbn [Z.eqb negb]. eexists. rewrite read_response_conn_lost by apply read_error_nonsys. reflexivity.
Qed.

Lemma closing_peer_rejects c id sp :
  cn_state c = c_connectionStartClose \/ cn_state c = c_connectionInboundClosed \/ cn_state c = c_connectionClosed ->
  handle_call_req_state c id sp = Rejected (send_system_error c id sp v_ErrChannelClosed).
Proof. intros [H|[H|H]]; unfold handle_call_req_state; rewrite H; reflexivity. Qed.

Lemma channel_closed_fits : zlen (sys_msg v_ErrChannelClosed) <= max_error_msg.
Proof. vm_compute. discriminate. Qed.

Lemma closing_peer_closed c id sp : cn_state c = c_connectionClosed -> span_ok sp ->
  handle_call_req_state c id sp = Rejected (NotSent 2).
Proof.
  intros Hst Hs. rewrite closing_peer_rejects by auto. unfold send_system_error.
  rewrite (error_frame_ok id sp v_ErrChannelClosed _ eq_refl ltac:(cbv; split; congruence) Hs channel_closed_fits).
  rewrite Hst. reflexivity.
Qed.

(* beginCall: what a caller gets before anything is sent *)
Lemma begin_call_spec :
  (forall st hd ttl ctx,
     st = c_connectionStartClose \/ st = c_connectionInboundClosed \/ st = c_connectionClosed ->
     begin_call st hd ttl ctx = v_ErrConnectionClosed) /\
  (forall ttl ctx, begin_call c_connectionActive false ttl ctx = v_ErrTimeoutRequired) /\
  (forall ctx, begin_call c_connectionActive true true ctx = v_ErrTimeout) /\
  begin_call c_connectionActive true false ECtxDeadline = v_ErrTimeout /\
  begin_call c_connectionActive true false ECtxCanceled = v_ErrRequestCancelled /\
  begin_call c_connectionActive true false ENil = ENil /\
  sys_code v_ErrTimeout = spec_local_code LDeadline /\ sys_code v_ErrRequestCancelled = spec_local_code LCancelled.
Proof.
  split.
  { intros st hd ttl ctx [-> | [-> | ->]]; reflexivity. }
  repeat split.
Qed.

(* protocolError(id, err) for a non-system err: the peer is sent a protocol-error frame with the
   error's text, the connection's exchanges get the same system error *)
Lemma protocol_error_spec c id e :
  is_sys e = false -> msg_ok (err_text e) -> zlen (err_text e) <= max_error_msg ->
  cn_state c <> c_connectionClosed -> 0 < cn_room c ->
  protocol_error c id e =
    (ESys 255 (err_text e), Sent (s_frame 255 id (s_error 255 (spec_span zero_span) (err_text e)))).
Proof.
  intros Hs Hm Hl Hst Hroom. unfold protocol_error. change c_ErrCodeProtocol with 255.
  rewrite (new_wrapped_nonsys 255 e Hs). f_equal.
  apply (send_ok c id zero_span (ESys 255 (err_text e)) (err_text e)); auto.
  - unfold code_ok. rewrite sys_code_sys. lia.
  - apply zero_span_ok.
Qed.

(* ---------------------------------------------------------------- relay-originated errors *)
(* the situation a relay is in when a call req arrives, in the terms of Spec/RelayErrors.v;
   None = no failure (the call is handled locally, forwarded, or is a duplicate id, for which
   the code documents no error frame yet) *)
Definition env_site (env : callreq_env) : option relay_site :=
  if ce_local env then (if ce_fragmented env then Some RSLocalFragmented else None)
  else match ce_start env with
       | ENil =>
           if negb (ce_src_state env =? 1) then Some RSSourceInactive
           else if ce_dup env then None
           else if negb (ce_has_dest env) then Some RSBadHost
           else match ce_connect env with
                | ENil => if negb (ce_remote_state env =? 1) then Some RSRemoteInactive else None
                | ESys c _ => Some (RSConnectSystem c)
                | _ => Some RSConnectOther
                end
       | ESys c _ => if ce_ratelimit env then Some RSStartRateLimit else Some (RSStartSystem c)
       | _ => if ce_ratelimit env then Some RSStartRateLimit else Some RSStartOther
       end.

(* one row of the table below: the site is read off the hypothesis, the code off the error, and
   the connection is not closed *)
Local Ltac row := intros H; inversion H; rewrite ?new_wrapped_nonsys by reflexivity; cbn;
                  split; [reflexivity|split; discriminate].

Theorem relay_callreq_codes env site :
  env_site env = Some site ->
  match relay_handle_callreq env with
  | RRError e close => spec_relay_code site = Some (sys_code e) /\
                       (close = true <-> site = RSStartSystem 255)
  | RRSilent => spec_relay_code site = None
  | _ => False
  end.
Proof.
  unfold env_site, relay_handle_callreq. change c_connectionActive with 1. change c_ErrCodeProtocol with 255.
  destruct (ce_local env).
  { destruct (ce_fragmented env); [row|discriminate]. }
  destruct (ce_start env) as [|c m| | | |m n]; cbn [is_nil negb is_sys].
  - destruct (ce_src_state env =? 1); cbn [negb]; [|row].
    destruct (ce_dup env); [discriminate|].
    destruct (ce_has_dest env); cbn [negb]; [|row].
    destruct (ce_connect env) as [|c m| | | |m n]; cbn [is_nil negb]; try row.
    destruct (ce_remote_state env =? 1); cbn [negb]; [discriminate|row].
  - destruct (ce_ratelimit env); intros H; inversion H; [reflexivity|].
    rewrite sys_code_sys. split; [reflexivity|]. split.
    + intros E. apply Z.eqb_eq in E. subst c. reflexivity.
    + intros E. inversion E. reflexivity.
  - destruct (ce_ratelimit env); [intros H; inversion H; reflexivity|row].
  - destruct (ce_ratelimit env); [intros H; inversion H; reflexivity|row].
  - destruct (ce_ratelimit env); [intros H; inversion H; reflexivity|row].
  - destruct (ce_ratelimit env); [intros H; inversion H; reflexivity|row].
Qed.

Theorem relay_timer_fail_codes :
  (* timeout: only the originating side, only when it won the race for the item *)
  (forall entombed orig, relay_timeout entombed orig =
     if entombed && orig then RRError v_ErrTimeout false else RRSilent) /\
  spec_relay_code RSTimeout = Some (sys_code v_ErrTimeout) /\
  (* frame not sent: unexpected + the reason text; nothing for a slow caller *)
  (forall reason e, reason <> c_u_relayErrorSourceConnSlow ->
     exists m, relay_fail true true true true reason e = RRError (EOther m 0) false /\
               sys_code (EOther m 0) = 5 /\ firstn (length reason) m = reason) /\
  (forall e, relay_fail true true true true c_u_relayErrorSourceConnSlow e = RRSilent) /\
  (forall found stopped entombed orig reason e,
     found && stopped && entombed && orig = false -> relay_fail found stopped entombed orig reason e = RRSilent) /\
  spec_relay_code RSDestSlow = Some 5 /\ spec_relay_reason RSDestSlow = c_u_relayErrorDestConnSlow /\
  spec_relay_code RSArg2ModifyFailed = Some 5 /\ spec_relay_reason RSArg2ModifyFailed = c_u_relayArg2ModifyFailed /\
  spec_relay_code RSSourceSlow = None.
Proof.
  split; [intros [] []; reflexivity|]. split; [reflexivity|].
  split.
  { intros reason e Hr. unfold relay_fail. cbn [negb].
    destruct (bytes_eqb reason c_u_relayErrorSourceConnSlow) eqn:E.
    - apply bytes_eqb_eq in E. contradiction.
    - eexists. split; [reflexivity|]. split; [reflexivity|]. apply firstn_exact. }
  split; [intros e; reflexivity|].
  split.
  { intros found stopped entombed orig reason e H. unfold relay_fail.
    destruct found; [|reflexivity]. destruct stopped; [|reflexivity]. destruct entombed; [|reflexivity].
    destruct orig; [discriminate|reflexivity]. }
  repeat split.
Qed.

(* a call reaching a closing peer: the declined error travels back to the caller, directly or
   through any number of relays *)
Lemma closing_peer_roundtrip c id sp hops :
  cn_state c = c_connectionStartClose \/ cn_state c = c_connectionInboundClosed ->
  0 < cn_room c -> span_ok sp -> u_ok 4 id -> Forall (hop_live true) hops ->
  exists wire wire' msg,
    handle_call_req_state c id sp = Rejected (Sent wire) /\
    relay_chain hops wire = Some wire' /\
    caller_receive false (final_id id hops) waiting wire' = (CErr (ESys 4 msg), false).
Proof.
  intros Hst Hroom Hs Hid Hl. rewrite closing_peer_rejects by tauto.
  destruct (syserr_travels c id sp v_ErrChannelClosed _ hops eq_refl ltac:(cbv; split; congruence) Hs eq_refl Hid)
    as [wire' [S [R C]]]; [|exact Hroom|exact Hl|exact channel_closed_fits|].
  { destruct Hst as [-> | ->]; discriminate. }
  rewrite S. eexists _, wire', _. split; [reflexivity|]. split; [exact R|exact C].
Qed.

(* ---------------------------------------------------------------- statements assembled for Props/C20.v *)
Lemma handler_plain_error e : is_sys e = false -> is_nil e = false ->
  sys_code e = 5 /\ sys_message e = Some (err_text e).
Proof. intros H1 H2. split; [exact (sys_code_nonsys e H1 H2)|exact (sys_message_nonsys e H1 H2)]. Qed.

Lemma local_map : forall cond,
  match cond with
  | LDeadline =>   (* whatever is queued or notified: a passed deadline wins *)
      forall id m, mx_ctx m = ECtxDeadline ->
        exists msg, read_response id m = CErr (ESys (spec_local_code cond) msg)
  | LCancelled =>
      forall id m, mx_ctx m = ECtxCanceled ->
        exists msg, read_response id m = CErr (ESys (spec_local_code cond) msg)
  | LConnLost =>   (* any non-system failure of the connection, wrapped with its text *)
      (forall id e, is_sys e = false ->
         read_response id (notify waiting e) = CErr (ESys (spec_local_code cond) (err_text e))) /\
      (forall id t fid p pre, u_ok 1 t -> u_ok 4 fid -> zlen p <= 65519 -> strict_prefix pre (s_frame t fid p) ->
         exists msg, caller_receive false id waiting pre = (CErr (ESys (spec_local_code cond) msg), true))
  | LClosingPeer => (* start-close / inbound-closed; the answer travels back through any relays *)
      forall c id sp hops,
        cn_state c = c_connectionStartClose \/ cn_state c = c_connectionInboundClosed ->
        0 < cn_room c -> span_ok sp -> u_ok 4 id -> Forall (hop_live true) hops ->
        exists wire wire' msg,
          handle_call_req_state c id sp = Rejected (Sent wire) /\
          relay_chain hops wire = Some wire' /\
          caller_receive false (final_id id hops) waiting wire' = (CErr (ESys (spec_local_code cond) msg), false)
  end.
Proof.
  intros [].
  - intros id m H. eexists. exact (proj1 (read_response_ctx id m) H).
  - intros id m H. eexists. exact (proj2 (read_response_ctx id m) H).
  - split; [exact read_response_conn_lost|exact caller_receive_cut].
  - exact closing_peer_roundtrip.
Qed.

Lemma protocol_frames :
  (forall id sp msg junk, error_ok (mkErr 255 sp msg) ->
     handle_error id (s_error 255 (spec_span sp) msg ++ junk) = AClose 2 (ESys 255 msg)) /\
  (forall h payload site e, handle_frame false h payload = AClose site e ->
     fh_type h = c_messageTypeError /\
     ((site = 1 /\ rerr (snd (r_error (rb payload))) = true) \/
      (site = 2 /\ exists m, e = ESys 255 m /\ em_code (fst (r_error (rb payload))) = 255))) /\
  (forall h payload, fh_type h = c_messageTypeError -> handle_frame true h payload = ARelay).
Proof.
  split; [|split; [exact handle_frame_close|exact handle_frame_relay_error]].
  intros id sp msg junk OK. exact (handle_error_spec id 255 sp msg junk OK).
Qed.
