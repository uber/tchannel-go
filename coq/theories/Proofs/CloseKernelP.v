(* Lemmas about the interleaving kernel of the C07 models. *)
From Coq Require Import ZArith List Arith Lia Bool.
From Verif Require Import Model.CloseKernel.
Import ListNotations.

(* boolean tests in the context become propositions *)
Ltac zprop := repeat match goal with
  | H : (_ =? _)%Z = true |- _ => apply Z.eqb_eq in H
  | H : (_ =? _)%Z = false |- _ => apply Z.eqb_neq in H
  | H : (_ <? _)%Z = true |- _ => apply Z.ltb_lt in H
  | H : (_ <? _)%Z = false |- _ => apply Z.ltb_ge in H
  | H : (_ <=? _)%Z = true |- _ => apply Z.leb_le in H
  | H : (_ <=? _)%Z = false |- _ => apply Z.leb_gt in H
  | H : (_ && _) = true |- _ => apply andb_true_iff in H; destruct H
  | H : (_ || _) = false |- _ => apply orb_false_iff in H; destruct H
  | H : negb _ = true |- _ => apply negb_true_iff in H
  | H : negb _ = false |- _ => apply negb_false_iff in H
  end.

Section Run.
  Context {St Lbl : Type}.
  Variable step : St -> Lbl -> option St.

  Lemma run_none : forall ls, fold_left (fun o l => match o with Some s' => step s' l | None => None end) ls None = None.
  Proof. induction ls as [|l ls IH]; cbn; auto. Qed.

  Lemma run_snoc : forall s ls l,
    run step s (ls ++ [l]) = match run step s ls with Some s' => step s' l | None => None end.
  Proof. intros s ls l. unfold run. rewrite fold_left_app. reflexivity. Qed.

  Lemma run_cons : forall s l ls,
    run step s (l :: ls) = match step s l with Some s' => run step s' ls | None => None end.
  Proof.
    intros s l ls. unfold run. cbn [fold_left]. destruct (step s l); [reflexivity|apply run_none].
  Qed.

  Lemma run_app : forall s l1 l2,
    run step s (l1 ++ l2) = match run step s l1 with Some s' => run step s' l2 | None => None end.
  Proof.
    intros s l1 l2. unfold run at 1 2. rewrite fold_left_app.
    destruct (fold_left _ l1 (Some s)); [reflexivity|apply run_none].
  Qed.

  Theorem reach_ind : forall (init : St) (P : St -> Prop),
    P init ->
    (forall s l s', Reach step init s -> P s -> step s l = Some s' -> P s') ->
    forall s, Reach step init s -> P s.
  Proof.
    intros init P H0 Hs s [ls Hr]. revert s Hr.
    induction ls as [|l ls IH] using rev_ind; intros s Hr.
    - cbn in Hr. inversion Hr. subst. exact H0.
    - rewrite run_snoc in Hr. destruct (run step init ls) as [s1|] eqn:E; [|discriminate].
      apply (Hs s1 l s); auto. exists ls; exact E.
  Qed.

  Lemma reach_step : forall init s l s', Reach step init s -> step s l = Some s' -> Reach step init s'.
  Proof. intros init s l s' [ls H] Hs. exists (ls ++ [l]). rewrite run_snoc, H. exact Hs. Qed.

  Lemma reach_init : forall init, Reach step init init.
  Proof. intros; exists []; reflexivity. Qed.

  Lemma run_rel : forall (R : St -> St -> Prop),
    (forall s, R s s) -> (forall a b c, R a b -> R b c -> R a c) ->
    (forall s l s', step s l = Some s' -> R s s') ->
    forall ls s s', run step s ls = Some s' -> R s s'.
  Proof.
    intros R Hr Ht Hs ls. induction ls as [|l ls IH] using rev_ind; intros s s' H.
    - cbn in H. inversion H. apply Hr.
    - rewrite run_snoc in H. destruct (run step s ls) as [s1|] eqn:E; [|discriminate].
      eapply Ht; [apply IH; exact E|eapply Hs; exact H].
  Qed.
End Run.

Definition b2z (b : bool) : Z := if b then 1 else 0.

(* a signal given [g] times and owed by [owed] threads, in balance with "closed": it is given at most once *)
Lemma once_from_balance : forall (g owed : Z) (closed : bool),
  (0 <= g)%Z -> (0 <= owed)%Z -> (g + owed)%Z = b2z closed ->
  (0 <= g <= 1)%Z /\ (closed = false -> g = 0%Z /\ owed = 0%Z) /\ (closed = true -> (g + owed)%Z = 1%Z) /\
  (closed = true -> owed = 0%Z -> g = 1%Z).
Proof. intros g owed [] Hg Ho H; cbn [b2z] in H; repeat split; intros; try discriminate; lia. Qed.

Section Ext.
  Context {St Lbl : Type}.
  Variables f g : St -> Lbl -> option St.
  Hypothesis Hfg : forall s l, f s l = g s l.

  Lemma run_ext : forall ls s, run f s ls = run g s ls.
  Proof.
    induction ls as [|l ls IH] using rev_ind; intros s; [reflexivity|].
    rewrite !run_snoc, IH. destruct (run g s ls); [apply Hfg|reflexivity].
  Qed.

  Lemma reach_ext : forall init s, Reach f init s <-> Reach g init s.
  Proof. intros init s. unfold Reach. split; intros [ls H]; exists ls; [rewrite <- run_ext|rewrite run_ext]; exact H. Qed.
End Ext.

Section Upd.
  Context {A : Type}.

  Lemma length_upd : forall (l : list A) n x, length (upd l n x) = length l.
  Proof. induction l as [|y l IH]; intros [|n] x; cbn; auto. Qed.

  Lemma nth_error_upd_same : forall (l : list A) n x, n < length l -> nth_error (upd l n x) n = Some x.
  Proof.
    induction l as [|y l IH]; intros [|n] x H; cbn in *; try lia; auto. apply IH. lia.
  Qed.

  Lemma nth_error_upd_other : forall (l : list A) n m x, m <> n -> nth_error (upd l n x) m = nth_error l m.
  Proof.
    induction l as [|y l IH]; intros [|n] [|m] x H; cbn; auto; try congruence.
  Qed.

  Lemma upd_app_last : forall (l : list A) x y, upd (l ++ [x]) (length l) y = l ++ [y].
  Proof. intros l x y. induction l as [|a l IH]; cbn [app length upd]; [reflexivity|]. rewrite IH. reflexivity. Qed.

  Lemma nth_error_upd : forall (l : list A) n m x q,
    nth_error (upd l n x) m = Some q ->
    (m = n /\ q = x) \/ (m <> n /\ nth_error l m = Some q).
  Proof.
    intros l n m x q H. destruct (Nat.eq_dec m n) as [E|E].
    - subst. left. split; auto.
      assert (Hl : n < length l).
      { rewrite <- (length_upd l n x). apply nth_error_Some. congruence. }
      rewrite nth_error_upd_same in H by exact Hl. congruence.
    - right. rewrite nth_error_upd_other in H by exact E. auto.
  Qed.

  Lemma nth_error_snoc : forall (l : list A) x m q,
    nth_error (l ++ [x]) m = Some q ->
    (m < length l /\ nth_error l m = Some q) \/ (m = length l /\ q = x).
  Proof.
    intros l x m q H. destruct (lt_dec m (length l)) as [L|L].
    - left. rewrite nth_error_app1 in H by exact L. auto.
    - right. rewrite nth_error_app2 in H by lia.
      destruct (m - length l) as [|k] eqn:E.
      + cbn in H. split; [lia|congruence].
      + cbn in H. destruct k; discriminate.
  Qed.

  Lemma nth_error_snoc_old : forall (l : list A) x m q,
    nth_error l m = Some q -> nth_error (l ++ [x]) m = Some q.
  Proof.
    intros l x m q H. rewrite nth_error_app1; auto. apply nth_error_Some. congruence.
  Qed.

  Lemma nth_error_lt : forall (l : list A) m q, nth_error l m = Some q -> m < length l.
  Proof. intros l m q H. apply nth_error_Some. congruence. Qed.

  Variable f : A -> bool.

  Lemma count_if_app : forall l1 l2, count_if f (l1 ++ l2) = count_if f l1 + count_if f l2.
  Proof. intros. unfold count_if. rewrite filter_app, app_length. reflexivity. Qed.

  Lemma count_if_cons : forall x l, count_if f (x :: l) = (if f x then 1 else 0) + count_if f l.
  Proof. intros. unfold count_if. cbn. destruct (f x); reflexivity. Qed.

  Lemma count_if_snoc : forall l x, count_if f (l ++ [x]) = count_if f l + (if f x then 1 else 0).
  Proof. intros. rewrite count_if_app, count_if_cons. unfold count_if. cbn. lia. Qed.

  Lemma count_if_upd : forall (l : list A) n old x,
    nth_error l n = Some old ->
    count_if f (upd l n x) + (if f old then 1 else 0) = count_if f l + (if f x then 1 else 0).
  Proof.
    induction l as [|y l IH]; intros [|n] old x H; cbn in H; try discriminate.
    - inversion H; subst. cbn [upd]. rewrite !count_if_cons. lia.
    - cbn [upd]. rewrite !count_if_cons. specialize (IH n old x H). lia.
  Qed.

  Lemma count_if_zero : forall (l : list A), (forall m q, nth_error l m = Some q -> f q = false) -> count_if f l = 0.
  Proof.
    induction l as [|y l IH]; intros H; [reflexivity|].
    rewrite count_if_cons. rewrite (H 0 y eq_refl). rewrite IH; [reflexivity|].
    intros m q Hm. apply (H (S m) q). exact Hm.
  Qed.

  Lemma count_if_pos : forall (l : list A) m q, nth_error l m = Some q -> f q = true -> 0 < count_if f l.
  Proof.
    induction l as [|y l IH]; intros [|m] q H Hq; cbn in H; try discriminate; rewrite count_if_cons.
    - inversion H; subst. rewrite Hq. lia.
    - specialize (IH m q H Hq). lia.
  Qed.
End Upd.

Lemma upd_map : forall (A B : Type) (f : A -> B) (l : list A) n x, upd (map f l) n (f x) = map f (upd l n x).
Proof.
  intros A B f l. induction l as [|y r IH]; intros n x; [destruct n; reflexivity|].
  destruct n; cbn [map upd]; [reflexivity|]. rewrite IH. reflexivity.
Qed.
