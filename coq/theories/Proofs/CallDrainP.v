(* Proofs about Model/CallDrain.v: every call that is over for its owner has shut its
   exchange down, for every interleaving; hence (Proofs/MexDrainP.v) the exchange maps are empty. *)
From Coq Require Import ZArith List Bool Lia.
From Verif Require Import Base.Wire Model.MexDrain Model.CallDrain Proofs.DrainBaseP Proofs.MexDrainP.
Import ListNotations.
Local Open Scope Z_scope.

(* An operation that calls mex.shutdown() does so on a writer that had not failed, returns an
   error and marks the writer failed; an operation that returns an error WITHOUT calling
   shutdown() is the sticky error of a writer that failed (and shut down) before. *)
Lemma op_code_sound werr o :
  op_enabled o = true ->
  let c := op_code werr o in
  (x_shut c = true -> werr = false /\ x_err c = true /\ x_set c = true) /\
  (x_shut c = false -> x_set c = false /\ (x_err c = true -> werr = true)).
Proof.
  intros He. destruct o as [state_ok b|ce|ce arm]; cbn [op_enabled] in He.
  - assert (Hb : b = 0 \/ b = 1 \/ b = 2) by lia.
    destruct Hb as [->|[->| ->]]; destruct werr, state_ok; vm_compute; repeat split; intros; congruence.
  - destruct werr, ce; vm_compute; repeat split; intros; congruence.
  - assert (Ha : arm = 0 \/ arm = 1 \/ arm = 2) by lia.
    destruct Ha as [->|[->| ->]]; destruct werr, ce; vm_compute; repeat split; intros; congruence.
Qed.

(* the same read on flushFragment alone: whatever makes it return an error, the exchange is
   shut down by that call or was shut down by the failure that made the error sticky *)
Lemma flush_error_shuts werr ce arm :
  0 <= arm <= 2 ->
  x_err (w_flush_fragment werr ce arm) = true ->
  x_shut (w_flush_fragment werr ce arm) = true \/ werr = true.
Proof.
  intros Ha He. assert (H : arm = 0 \/ arm = 1 \/ arm = 2) by lia.
  destruct H as [->|[->| ->]]; destruct werr, ce; vm_compute in *; auto; discriminate.
Qed.

Definition pcs (m : mexset) : list Z := map mo_pc (ms_objs m).

Lemma upd_nth_length {A} n (x : A) l : length (upd_nth n x l) = length l.
Proof.
  revert n. induction l as [|y r IH]; intros n; destruct n; cbn [upd_nth length]; try reflexivity.
  rewrite IH. reflexivity.
Qed.

Lemma notify_all_pcs hs : forall objs, map mo_pc (notify_all hs objs) = map mo_pc objs.
Proof.
  induction hs as [|h r IH]; intros objs; cbn [notify_all]; [reflexivity|].
  destruct (h <? 0); [apply IH|].
  destruct (nth_error objs (Z.to_nat h)) as [o|] eqn:Hn; [|apply IH].
  rewrite IH, map_upd_nth. cbn [mo_pc].
  apply upd_nth_same. rewrite nth_error_map, Hn. reflexivity.
Qed.

Lemma get_obj_pcs m h o : get_obj m h = Some o -> nth_error (pcs m) (Z.to_nat h) = Some (mo_pc o).
Proof. intros H. unfold pcs. rewrite nth_error_map, (zindex_nth _ _ _ H). reflexivity. Qed.

Lemma pcs_new m id m' :
  mstep m (MNew id) = Some m' ->
  pcs m' = if ms_shutdown m || has_key id (ms_exch m) then pcs m else pcs m ++ [0].
Proof.
  cbn [mstep]. destruct (ms_shutdown m); cbn [orb].
  - intros H. injection H as <-. reflexivity.
  - destruct (has_key id (ms_exch m)); intros H; injection H as <-; [reflexivity|].
    unfold pcs. cbn [ms_objs]. rewrite map_app. reflexivity.
Qed.

Lemma pcs_cas m h o m' :
  get_obj m h = Some o -> mstep m (MShutCas h) = Some m' ->
  pcs m' = if mo_pc o =? 0 then upd_nth (Z.to_nat h) 1 (pcs m) else pcs m.
Proof.
  intros Hg. cbn [mstep]. rewrite Hg. destruct (mo_pc o =? 0); intros H; injection H as <-; [|reflexivity].
  unfold pcs, set_obj. cbn [ms_objs]. rewrite map_upd_nth. reflexivity.
Qed.

Lemma pcs_remove m h m' :
  mstep m (MShutRemove h) = Some m' ->
  exists o, get_obj m h = Some o /\ mo_pc o = 1 /\ pcs m' = upd_nth (Z.to_nat h) 2 (pcs m).
Proof.
  cbn [mstep]. destruct (get_obj m h) as [o|] eqn:Hg; [|discriminate].
  destruct (mo_pc o =? 1) eqn:E; [|discriminate]. intros H. injection H as <-.
  exists o. split; [reflexivity|]. split; [lia|].
  unfold pcs. rewrite remove_exchange_objs. unfold set_obj. cbn [ms_objs]. rewrite map_upd_nth. reflexivity.
Qed.

Lemma pcs_env m l m' :
  mstep m l = Some m' -> match l with MExpire _ | MStop | MForward _ => True | _ => False end ->
  pcs m' = pcs m.
Proof.
  intros H Hl. revert H. destruct l as [id|h|h|h|h| |id]; destruct Hl; cbn [mstep].
  - destruct (get_obj m h); [|discriminate]. intros H. injection H as <-.
    unfold pcs. rewrite expire_exchange_objs. reflexivity.
  - destruct (ms_shutdown m); intros H; injection H as <-; [reflexivity|].
    unfold pcs. cbn [ms_objs]. apply notify_all_pcs.
  - intros H. injection H as <-. reflexivity.
Qed.

(* ---- the invariant: thread t and exchange object t ------------------------------------ *)

Definition TI (x : cthread) (opc : Z) : Prop :=
  (ct_pc x = 0 /\ opc = (if ct_werr x then 2 else 0) /\ (ct_lasterr x = true -> ct_werr x = true)) \/
  (ct_pc x = 1 /\ opc = 0 /\ (ct_after x = 0 /\ ct_werr x = true \/ ct_after x = 3)) \/
  (ct_pc x = 2 /\ opc = 1 /\ (ct_after x = 0 /\ ct_werr x = true \/ ct_after x = 3)) \/
  (ct_pc x = 3 /\ opc = 2).

Definition CInv (s : cstate) : Prop := Forall2 TI (cs_thr s) (pcs (cs_mex s)).

Lemma Forall2_nth {A B} (R : A -> B -> Prop) l1 l2 n x :
  Forall2 R l1 l2 -> nth_error l1 n = Some x -> exists y, nth_error l2 n = Some y /\ R x y.
Proof.
  intros H. revert n. induction H as [|a b r1 r2 Hab _ IH]; intros n Hn.
  - destruct n; discriminate.
  - destruct n; cbn [nth_error] in *.
    + injection Hn as <-. exists b. split; [reflexivity|exact Hab].
    + apply IH. exact Hn.
Qed.

Lemma Forall2_upd {A B} (R : A -> B -> Prop) l1 l2 n x y :
  Forall2 R l1 l2 -> R x y -> Forall2 R (upd_nth n x l1) (upd_nth n y l2).
Proof.
  intros H Hxy. revert n. induction H as [|a b r1 r2 Hab Hr IH]; intros n; destruct n; cbn [upd_nth]; constructor; auto.
Qed.

Lemma Forall2_upd_l {A B} (R : A -> B -> Prop) l1 l2 n x y :
  Forall2 R l1 l2 -> nth_error l2 n = Some y -> R x y -> Forall2 R (upd_nth n x l1) l2.
Proof.
  intros H Hn Hxy. rewrite <- (upd_nth_same n y l2 Hn). apply Forall2_upd; assumption.
Qed.

Lemma CInv_init : CInv cs_init.
Proof. constructor. Qed.

(* a step of the application: the thread is between two operations, its exchange live or, after a
   failed operation, finished; the exchange set is not touched *)
Lemma CInv_app s t x x' :
  CInv s -> get_thr s t = Some x -> (ct_pc x =? 0) = true ->
  (forall opc, opc = (if ct_werr x then 2 else 0) -> (ct_lasterr x = true -> ct_werr x = true) -> TI x' opc) ->
  CInv (set_thr s t x').
Proof.
  intros HI Hg Hpc Hx'.
  destruct (Forall2_nth _ _ _ _ _ HI (zindex_nth _ _ _ Hg)) as (opc & Hn & HT).
  destruct HT as [(_ & Hopc & Hle)|[(H1 & _)|[(H1 & _)|(H1 & _)]]]; try lia.
  unfold CInv, set_thr. cbn [cs_thr cs_mex]. eapply Forall2_upd_l; eauto.
Qed.

Lemma CInv_step s l s' : CInv s -> cstep s l = Some s' -> CInv s'.
Proof.
  intros HI Hs. destruct l as [id|t o|t|t|t|t|h| |id]; cbn [cstep] in Hs.
  (* CExpire, CStop, CForward: the set's own steps leave the program counters alone *)
  7-9: unfold lift_mex in Hs; destruct (mstep (cs_mex s) _) as [m|] eqn:Hm; [|discriminate]; injection Hs as <-;
    unfold CInv, with_mex; cbn [cs_thr cs_mex]; rewrite (pcs_env _ _ _ Hm I); exact HI.
  - (* CBegin *)
    destruct (mstep (cs_mex s) (MNew id)) as [m|] eqn:Hm; [|discriminate].
    pose proof (pcs_new _ _ _ Hm) as Hp.
    destruct (ms_shutdown (cs_mex s) || has_key id (ms_exch (cs_mex s))); injection Hs as <-;
      unfold CInv; cbn [with_mex cs_thr cs_mex]; rewrite Hp; [exact HI|].
    apply Forall2_app; [exact HI|]. constructor; [|constructor].
    left. cbn. repeat split; intros; congruence.
  - (* COp *)
    destruct (get_thr s t) as [x|] eqn:Hg; [|discriminate].
    destruct ((ct_pc x =? 0) && op_enabled o) eqn:Hen; [|discriminate].
    apply andb_true_iff in Hen as [Hpc Hop].
    pose proof (op_code_sound (ct_werr x) o Hop) as [Hshut Hnoshut]. cbn zeta in Hshut, Hnoshut.
    destruct (x_shut (op_code (ct_werr x) o)) eqn:Hsh; injection Hs as <-;
      apply (CInv_app _ _ x _ HI Hg Hpc); intros opc Hopc Hle.
    + destruct (Hshut eq_refl) as (Hw & He & Hse). right. left. cbn [ct_pc ct_after ct_werr].
      rewrite Hse, orb_true_r. rewrite Hw in Hopc. auto.
    + destruct (Hnoshut eq_refl) as (Hse & He). left. cbn [ct_pc ct_werr ct_lasterr].
      rewrite Hse, orb_false_r. auto.
  - (* CFinish *)
    destruct (get_thr s t) as [x|] eqn:Hg; [|discriminate].
    destruct ((ct_pc x =? 0) && negb (ct_werr x)) eqn:Hen; [|discriminate].
    apply andb_true_iff in Hen as [Hpc Hw]. injection Hs as <-.
    apply (CInv_app _ _ x _ HI Hg Hpc). intros opc Hopc _. right. left. cbn [ct_pc ct_after ct_werr].
    destruct (ct_werr x); [discriminate|]. auto.
  - (* CCas *)
    destruct (get_thr s t) as [x|] eqn:Hg; [|discriminate].
    destruct (get_obj (cs_mex s) t) as [o|] eqn:Ho; [|discriminate].
    destruct (ct_pc x =? 1) eqn:Hpc; [|discriminate].
    destruct (mstep (cs_mex s) (MShutCas t)) as [m|] eqn:Hm; [|discriminate]. injection Hs as <-.
    destruct (Forall2_nth _ _ _ _ _ HI (zindex_nth _ _ _ Hg)) as (opc & Hn & HT).
    rewrite (get_obj_pcs _ _ _ Ho) in Hn. injection Hn as <-.
    destruct HT as [(H1 & _)|[(_ & Hopc & Haf)|[(H1 & _)|(H1 & _)]]]; try lia.
    pose proof (pcs_cas _ _ _ _ Ho Hm) as Hp. rewrite Hopc in *. cbn [Z.eqb] in *.
    unfold CInv, set_thr, with_mex. cbn [cs_thr cs_mex]. rewrite Hp.
    apply Forall2_upd; [exact HI|]. right. right. left. cbn [ct_pc ct_after ct_werr]. auto.
  - (* CRemove *)
    destruct (get_thr s t) as [x|] eqn:Hg; [|discriminate].
    destruct (ct_pc x =? 2) eqn:Hpc; [|discriminate].
    destruct (mstep (cs_mex s) (MShutRemove t)) as [m|] eqn:Hm; [|discriminate]. injection Hs as <-.
    destruct (pcs_remove _ _ _ Hm) as (o & Ho & Hopc1 & Hp).
    destruct (Forall2_nth _ _ _ _ _ HI (zindex_nth _ _ _ Hg)) as (opc & Hn & HT).
    destruct HT as [(H1 & _)|[(H1 & _)|[(_ & Hopc & Haf)|(H1 & _)]]]; try lia.
    unfold CInv, set_thr, with_mex. cbn [cs_thr cs_mex]. rewrite Hp.
    apply Forall2_upd; [exact HI|].
    destruct Haf as [(Ha & Hw)| Ha]; rewrite Ha.
    + left. cbn [ct_pc ct_werr ct_lasterr]. rewrite Hw. auto.
    + right. right. right. cbn [ct_pc]. auto.
  - (* CGiveUp *)
    destruct (get_thr s t) as [x|] eqn:Hg; [|discriminate].
    destruct ((ct_pc x =? 0) && ct_lasterr x) eqn:Hen; [|discriminate].
    apply andb_true_iff in Hen as [Hpc Hl]. injection Hs as <-.
    apply (CInv_app _ _ x _ HI Hg Hpc). intros opc Hopc Hle. right. right. right. cbn [ct_pc].
    rewrite (Hle Hl) in Hopc. auto.
Qed.

Lemma CInv_run ls s s' : CInv s -> crun s ls = Some s' -> CInv s'.
Proof. exact (run_invariant _ _ CInv (fun _ => eq_refl) (fun _ _ _ => eq_refl) CInv_step ls s s'). Qed.

Lemma mrun_app l1 : forall m l2, mrun m (l1 ++ l2) = match mrun m l1 with Some m1 => mrun m1 l2 | None => None end.
Proof.
  induction l1 as [|l r IH]; intros m l2; cbn [mrun app]; [reflexivity|].
  destruct (mstep m l); [apply IH|reflexivity].
Qed.

Lemma cstep_mrun s l s' : cstep s l = Some s' -> mrun (cs_mex s) (mlabels_of l) = Some (cs_mex s').
Proof.
  intros Hs. destruct l as [id|t o|t|t|t|t|h| |id]; cbn [cstep mlabels_of mrun] in *.
  7-9: unfold lift_mex in Hs; destruct (mstep (cs_mex s) _) as [m|]; [|discriminate]; injection Hs as <-; reflexivity.
  - destruct (mstep (cs_mex s) (MNew id)) as [m|]; [|discriminate].
    destruct (ms_shutdown (cs_mex s) || has_key id (ms_exch (cs_mex s))); injection Hs as <-; reflexivity.
  - destruct (get_thr s t) as [x|]; [|discriminate].
    destruct ((ct_pc x =? 0) && op_enabled o); [|discriminate].
    destruct (x_shut (op_code (ct_werr x) o)); injection Hs as <-; reflexivity.
  - destruct (get_thr s t) as [x|]; [|discriminate].
    destruct ((ct_pc x =? 0) && negb (ct_werr x)); [|discriminate]. injection Hs as <-. reflexivity.
  - destruct (get_thr s t) as [x|]; [|discriminate]. destruct (get_obj (cs_mex s) t) as [o|]; [|discriminate].
    destruct (ct_pc x =? 1); [|discriminate].
    destruct (mstep (cs_mex s) (MShutCas t)) as [m|]; [|discriminate]. injection Hs as <-. reflexivity.
  - destruct (get_thr s t) as [x|]; [|discriminate]. destruct (ct_pc x =? 2); [|discriminate].
    destruct (mstep (cs_mex s) (MShutRemove t)) as [m|]; [|discriminate]. injection Hs as <-. reflexivity.
  - destruct (get_thr s t) as [x|]; [|discriminate].
    destruct ((ct_pc x =? 0) && ct_lasterr x); [|discriminate]. injection Hs as <-. reflexivity.
Qed.

Lemma crun_mrun ls : forall s s', crun s ls = Some s' -> mrun (cs_mex s) (flat_map mlabels_of ls) = Some (cs_mex s').
Proof.
  induction ls as [|l r IH]; intros s s' Hr; cbn [crun flat_map] in *.
  - injection Hr as <-. reflexivity.
  - destruct (cstep s l) as [s1|] eqn:Hs; [|discriminate].
    rewrite mrun_app, (cstep_mrun _ _ _ Hs). apply IH. exact Hr.
Qed.

Lemma all_over_finished thr ps :
  Forall2 TI thr ps -> forallb (fun x => ct_pc x =? 3) thr = true -> forallb (fun p => p =? 2) ps = true.
Proof.
  intros H. induction H as [|x p r1 r2 Hxp _ IH]; cbn [forallb]; [reflexivity|].
  intros Ha. apply andb_true_iff in Ha as [H3 Hr]. rewrite (IH Hr), andb_true_r.
  destruct Hxp as [(H1 & _)|[(H1 & _)|[(H1 & _)|(_ & Hp)]]]; lia.
Qed.

(* Main theorem: for every history of calls (any number, ids reused at will, any interleaving of
   their writer operations, of the two halves of shutdown(), of expiry, stopExchanges and frame
   lookups): once every call is over for its owner -- it reached its normal end, or its owner
   dropped it after an operation returned an error -- every exchange object has finished
   shutting down, and the exchange maps are empty. *)
Theorem calls_drained : forall ls s,
  crun cs_init ls = Some s -> calls_over s = true ->
  mex_finished (cs_mex s) = true /\ ms_exch (cs_mex s) = [] /\ ms_expired (cs_mex s) = [].
Proof.
  intros ls s Hr Hover.
  pose proof (CInv_run ls _ _ CInv_init Hr) as HI.
  assert (Hfin : mex_finished (cs_mex s) = true).
  { unfold mex_finished. pose proof (all_over_finished _ _ HI Hover) as H.
    unfold pcs in H. rewrite forallb_forall in *. intros o Ho.
    apply (H (mo_pc o)). apply in_map. exact Ho. }
  split; [exact Hfin|].
  apply (mex_drained (flat_map mlabels_of ls)); [|exact Hfin].
  exact (crun_mrun ls _ _ Hr).
Qed.

(* The owner is never stuck: an error returned by a writer operation lets it drop the call. *)
Lemma error_lets_owner_go s t o s' x' :
  cstep s (COp t o) = Some s' -> get_thr s' t = Some x' -> ct_lasterr x' = true ->
  ct_pc x' = 1 \/ (exists s'', cstep s' (CGiveUp t) = Some s'').
Proof.
  intros Hs Hg Hl. destruct (ct_pc x' =? 1) eqn:E1; [left; lia|right].
  cbn [cstep] in Hs. destruct (get_thr s t) as [x|] eqn:Hgx; [|discriminate].
  destruct ((ct_pc x =? 0) && op_enabled o); [|discriminate].
  assert (Hlen : (Z.to_nat t < length (cs_thr s))%nat).
  { apply nth_error_Some. rewrite (zindex_nth _ _ _ Hgx). discriminate. }
  assert (Htn : t <? 0 = false) by (unfold get_thr in Hgx; destruct (t <? 0); [discriminate|reflexivity]).
  destruct (x_shut (op_code (ct_werr x) o)); injection Hs as <-;
    unfold get_thr, set_thr in Hg; cbn [cs_thr] in Hg; rewrite Htn, (nth_upd_nth_same _ _ _ Hlen) in Hg;
    injection Hg as <-; cbn [ct_pc] in E1; try discriminate.
  cbn [ct_lasterr] in Hl. cbn [cstep]. unfold get_thr, set_thr. cbn [cs_thr].
  rewrite Htn, (nth_upd_nth_same _ _ _ Hlen). cbn [ct_pc ct_lasterr]. rewrite Hl. cbn. eexists. reflexivity.
Qed.
