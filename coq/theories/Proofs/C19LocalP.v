(* Property C19, strengthening V19: the ONLY-IF direction of the sweep for calls that are not
   relayed, on every kind of connection -- in particular on the connections of a relaying channel
   (k_relay = Some n), which can carry calls the relay channel handles itself (RelayLocalHandlers:
   inbound exchange) and calls it originates (outbound exchange); neither touches Relayer.pending.

   1. the regenerated Connection.hasPendingCalls is the disjunction of its three sources (inbound
      calls, outbound calls, not canClose) -- whatever Relayer.canClose was computed from (nil
      relayer or not, any counter value);
   2. one sweep, any channel state: a connection with a call in its exchange sets is left exactly
      as it is, whatever its k_relay, its stamps, its state;
   3. over histories: the exchange counts of the model are the calls in flight of the history
      (Spec/C19LocalSpec.v), so a connection with a non-relayed call in flight is left exactly as it
      is by every tick;
   4. the same over the combined relay / sweep state of Model/IdleRelay.v: whatever the relay
      bookkeeping says (no live item, no held unit, counter 0). *)
From Coq Require Import ZArith List Bool Lia.
From Verif Require Import Base.Wrap Base.Wire Gen.GenConsts Gen.GenFrame Gen.GenHealthIdle Spec.IdleHealthSpec
  Spec.C19LocalSpec Model.Health Model.Idle Model.IdleHealthSys Model.IdleRelay Proofs.IdleP.
Import ListNotations.
Local Open Scope Z_scope.

(* ---- 1. the generated decision ------------------------------------------------------------- *)
Lemma c19l_gen_sources inb outb cc :
  hasPendingCalls inb outb cc = (inb >? 0) || (outb >? 0) || negb cc.
Proof. unfold hasPendingCalls. destruct (inb >? 0); destruct (outb >? 0); destruct cc; reflexivity. Qed.

Lemma c19l_gen_any_kind isNil pending inb outb :
  0 < inb \/ 0 < outb -> hasPendingCalls inb outb (relayCanClose isNil pending) = true.
Proof. intros H. rewrite c19l_gen_sources. destruct (relayCanClose isNil pending); lia. Qed.

Lemma c19l_gen_only_sources inb outb cc :
  hasPendingCalls inb outb cc = false <-> inb <= 0 /\ outb <= 0 /\ cc = true.
Proof. rewrite c19l_gen_sources. destruct cc; split; intros H; lia. Qed.

(* ---- 2. one sweep ---------------------------------------------------------------------------- *)
Lemma c19l_busy_has_pending c : 0 < k_inb c \/ 0 < k_outb c -> has_pending_calls c = true.
Proof. intros H. unfold has_pending_calls. destruct ((k_inb c >? 0) || (k_outb c >? 0)) eqn:E; [reflexivity|lia]. Qed.

Lemma c19l_busy_kept mi s id c :
  NoDup (map fst (ch_conns s)) -> lookup id (ch_conns s) = Some c ->
  0 < k_inb c \/ 0 < k_outb c ->
  lookup id (ch_conns (sweep mi s)) = Some c.
Proof.
  intros Hnd L Hb. rewrite (sweep_lookup mi s id c Hnd L).
  unfold close_if_ok. rewrite (c19l_busy_has_pending c Hb).
  destruct (k_tracked c && idle_candidate (ch_now s) mi c); destruct (negb (is_active c)); reflexivity.
Qed.

(* the statement's form: whatever the sweep closes had no call in its exchange sets *)
Lemma c19l_closed_only_idle_sets mi s id c c' :
  NoDup (map fst (ch_conns s)) -> lookup id (ch_conns s) = Some c ->
  lookup id (ch_conns (sweep mi s)) = Some c' -> is_active c = true -> is_active c' = false ->
  k_inb c <= 0 /\ k_outb c <= 0.
Proof.
  intros Hnd L L' Ha Hc.
  destruct (Z_lt_le_dec 0 (k_inb c)) as [Hi|Hi]; [|destruct (Z_lt_le_dec 0 (k_outb c)) as [Ho|Ho]; [|lia]].
  - rewrite (c19l_busy_kept mi s id c Hnd L (or_introl Hi)) in L'. injection L' as <-. congruence.
  - rewrite (c19l_busy_kept mi s id c Hnd L (or_intror Ho)) in L'. injection L' as <-. congruence.
Qed.

(* ---- 3. histories ---------------------------------------------------------------------------- *)
(* the exchange count of kind w (0 inbound, 1 outbound) *)
Definition cnt (w : Z) (c : conn) : Z := if w =? 0 then k_inb c else k_outb c.

Lemma cnt_check w c : cnt w (check_exchanges c) = cnt w c.
Proof. unfold check_exchanges, cnt. destruct (_ && _); reflexivity. Qed.

Lemma cnt_closed w : op_closed (fun c c' => cnt w c' = cnt w c).
Proof. apply op_closed_eq; try reflexivity. apply cnt_check. Qed.

Lemma cnt_pings w p c : cnt w (set_counts (k_inb c) (k_outb c) p (k_relay c) c) = cnt w c.
Proof. reflexivity. Qed.

Lemma cnt_pend w w' d c : w = 0 \/ w = 1 ->
  cnt w (pend w' d c) =
  if w' =? w then (if d >? 0 then cnt w c + 1 else if cnt w c <=? 0 then cnt w c else cnt w c - 1) else cnt w c.
Proof.
  intros Hw. unfold pend, cnt.
  destruct Hw as [-> | ->]; cbn [Z.eqb]; destruct (w' =? 0) eqn:E0; destruct (w' =? 1) eqn:E1; try lia;
    repeat match goal with
           | |- context [match k_relay c with _ => _ end] => destruct (k_relay c)
           | |- context [if ?b then _ else _] => destruct b eqn:?
           end;
    try (unfold check_exchanges; match goal with |- context [if ?b then _ else _] => destruct b end);
    cbn [set_counts set_state set_tracked_h k_inb k_outb]; try reflexivity; try lia.
Qed.

Lemma ev_on_cnt cf s id e c w : w = 0 \/ w = 1 ->
  cnt w (ev_on cf s id e c) =
  match e with
  | EPend i w' d => if (i =? id) && (w' =? w)
                    then (if d >? 0 then cnt w c + 1 else if cnt w c <=? 0 then cnt w c else cnt w c - 1) else cnt w c
  | _ => cnt w c
  end.
Proof.
  intros Hw. destruct e as [dt|i rl|i mt|i mt|i w' d|i| |i sent|i o]; cbn [ev_on];
    try destruct (_ =? id); try destruct (sweep_enabled cf && _); cbn [andb]; try reflexivity.
  - unfold update_read. destruct (isMessageTypeCall mt); reflexivity.
  - unfold update_write. destruct (isMessageTypeCall mt); reflexivity.
  - apply cnt_pend, Hw.
  - apply (oc_close _ (cnt_closed w)).
  - apply (oc_close_if_ok _ (cnt_closed w)).
  - apply (oc_ping_start _ (cnt_closed w)).
  - apply (oc_ping_end _ (cnt_closed w)).
Qed.

Lemma c19l_count_gen cf id w : w = 0 \/ w = 1 -> forall h s,
  option_map (cnt w) (lookup id (ch_conns (fold_left (step cf) h s))) =
  calls_in_flight id w (option_map (cnt w) (lookup id (ch_conns s))) h.
Proof.
  intros Hw. induction h as [|e r IH]; intros s; [reflexivity|].
  cbn [fold_left]. rewrite IH, step_lookup.
  destruct (lookup id (ch_conns s)) as [c|]; cbn [option_map].
  - rewrite (ev_on_cnt cf s id e c w Hw). destruct e; cbn [calls_in_flight]; try destruct (_ && _); reflexivity.
  - destruct e as [dt|i rl|i mt|i mt|i w' d|i| |i sent|i o]; cbn [calls_in_flight]; try reflexivity.
    destruct (i =? id); [|reflexivity]. cbn [option_map]. unfold cnt. destruct (w =? 0); reflexivity.
Qed.

Theorem c19l_calls_in_flight cf t0 h id w : w = 0 \/ w = 1 ->
  option_map (cnt w) (lookup id (ch_conns (run cf t0 h))) = calls_in_flight id w None h.
Proof. intros Hw. unfold run. rewrite (c19l_count_gen cf id w Hw h (init_chan t0)). reflexivity. Qed.

(* after every history, on every kind of connection (relaying channel or not): a connection with
   a call it handles itself or a call it originated in flight is left exactly as it is by a tick *)
Theorem c19l_nonrelayed_call_kept cf t0 h id c :
  lookup id (ch_conns (run cf t0 h)) = Some c -> nonrelayed_call_in_flight id h ->
  lookup id (ch_conns (step cf (run cf t0 h) ETick)) = Some c /\
  ~ In id (closed_between (ch_conns (run cf t0 h)) (ch_conns (step cf (run cf t0 h) ETick))).
Proof.
  intros L (w & n & Hw & Hn & Hpos).
  pose proof (c19l_calls_in_flight cf t0 h id w Hw) as Hc. rewrite L, Hn in Hc. cbn [option_map] in Hc.
  injection Hc as Hc.
  assert (Hb : 0 < k_inb c \/ 0 < k_outb c).
  { unfold cnt in Hc. destruct Hw as [-> | ->]; cbn [Z.eqb] in Hc; lia. }
  pose proof (run_wf cf t0 h) as [Hnd _].
  assert (L' : lookup id (ch_conns (step cf (run cf t0 h) ETick)) = Some c).
  { cbn [step]. destruct (sweep_enabled cf); [|exact L]. now apply c19l_busy_kept. }
  split; [exact L'|].
  rewrite closed_between_in by exact Hnd. intros (c1 & c2 & E1 & E2 & H1 & H2).
  rewrite L in E1. rewrite L' in E2. injection E1 as <-. injection E2 as <-. congruence.
Qed.

(* ---- 4. the combined relay / sweep state ------------------------------------------------------ *)
Theorem c19l_relay_busy_kept (rc : rchan) mi id c :
  NoDup (map fst (ch_conns (rc_chan rc))) -> lookup id (ch_conns (rc_chan rc)) = Some c ->
  0 < k_inb c \/ 0 < k_outb c ->
  lookup id (ch_conns (rc_chan (rsweep mi rc))) = Some c /\
  relay_has_pending (rc_relay rc) id c = true.
Proof.
  intros Hnd L Hb. split; [apply c19l_busy_kept; assumption|].
  unfold relay_has_pending. apply c19l_gen_any_kind. exact Hb.
Qed.

(* ---- the statements of Props/C19.v, sixth part ------------------------------------------------ *)
Theorem c19l_gen_pending_sources :
  (forall inb outb cc, hasPendingCalls inb outb cc = (inb >? 0) || (outb >? 0) || negb cc) /\
  (forall isNil pending inb outb, 0 < inb \/ 0 < outb ->
     hasPendingCalls inb outb (relayCanClose isNil pending) = true) /\
  (forall inb outb cc, hasPendingCalls inb outb cc = false <-> inb <= 0 /\ outb <= 0 /\ cc = true).
Proof. exact (conj c19l_gen_sources (conj c19l_gen_any_kind c19l_gen_only_sources)). Qed.

Theorem c19l_sweep_keeps_busy mi s id c :
  NoDup (map fst (ch_conns s)) -> lookup id (ch_conns s) = Some c ->
  (0 < k_inb c \/ 0 < k_outb c -> lookup id (ch_conns (sweep mi s)) = Some c) /\
  (forall c', lookup id (ch_conns (sweep mi s)) = Some c' -> is_active c = true -> is_active c' = false ->
     k_inb c <= 0 /\ k_outb c <= 0).
Proof.
  intros Hnd L. split; [apply c19l_busy_kept; assumption|].
  intros c'. apply c19l_closed_only_idle_sets; assumption.
Qed.

Theorem c19l_calls_in_flight_both cf t0 h id :
  option_map k_inb (lookup id (ch_conns (run cf t0 h))) = calls_in_flight id 0 None h /\
  option_map k_outb (lookup id (ch_conns (run cf t0 h))) = calls_in_flight id 1 None h.
Proof.
  split.
  - exact (c19l_calls_in_flight cf t0 h id 0 (or_introl eq_refl)).
  - exact (c19l_calls_in_flight cf t0 h id 1 (or_intror eq_refl)).
Qed.
