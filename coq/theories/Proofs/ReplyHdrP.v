(* C06, family "the header id / type of a RESPONSE is that of the request it answers".

   (Proofs/ReplySpecP.v: the reply-header model of Model/MsgRun.v equals the pairing of the
   protocol document, Spec/ReplyHdr.v.)
   Here: the model is the code: the id expression at every site where the library builds a message
       in answer to a frame is regenerated from the Go source on every run (Gen/GenReplySites.v:
       one list per function and kind of site, local variables resolved to their definitions;
       Gen/GenReplyIds.v: the ID() / messageType() methods, Frame.write, readMessage, the id test
       of outboundHandshake).  [code_*] below chain the generated pieces the way the Go code
       chains the calls; each chain is proved equal to the model's reply header, i.e. every
       generated piece is the identity on the id.  A literal, another variable, arithmetic on the
       id, a dropped or an added site in one of these functions changes a generated definition
       and the corresponding lemma fails. *)
From Coq Require Import ZArith List Bool Lia String.
From Verif Require Import Base.Wrap Gen.GenConsts Gen.GenReplyIds Gen.GenReplySites Model.MsgRun Spec.ReplyHdr Proofs.ReplySpecP.
Import ListNotations.
Local Open Scope Z_scope.

(* Frame.write (frame.go) for a control message whose struct answers messageType() = t, ID() = i:
   the header (type, id) of the frame; None = the body did not fit (no frame) *)
Definition ctl_hdr (t i : Z) : option (Z * Z) :=
  match frameWriteType false t, frameWriteId false i with
  | Some t', Some i' => Some (t', i')
  | _, _ => None
  end.

(* inboundHandshake: readMessage -> id -> getInitMessage(ctx, id) -> initMessage{id: id} ->
   initRes.ID() / messageType() -> Frame.write *)
Definition code_reply_init (mismatch is_err : bool) (fid : Z) : list (option (Z * Z)) :=
  map (fun i => ctl_hdr initRes_messageType (initMessage_ID i))
      (flat_map getInitMessageIds (inboundInitResIds (readMessageId false mismatch is_err fid))).
(* inboundHandshake's deferred initError(c, inbound, id, err) -> errorMessage{id: id} *)
Definition code_reply_init_refused (mismatch is_err : bool) (fid : Z) : list (option (Z * Z)) :=
  map (fun i => ctl_hdr errorMessage_messageType (errorMessage_ID i))
      (flat_map initErrorIds (inboundInitErrIds (readMessageId false mismatch is_err fid))).
(* handlePingReq: pingRes{id: frame.Header.ID} *)
Definition code_reply_ping (fid : Z) : list (option (Z * Z)) :=
  map (fun i => ctl_hdr pingRes_messageType (pingRes_ID i)) (pingResIds fid).
(* Connection.SendSystemError(id, ..): errorMessage{id: id} *)
Definition code_sys_error (id : Z) : list (option (Z * Z)) :=
  map (fun i => ctl_hdr errorMessage_messageType (errorMessage_ID i)) (sendSystemErrorIds id).
(* Connection.protocolError(id, ..) -> SendSystemError(id, ..) *)
Definition code_proto_error (id : Z) : list (option (Z * Z)) := flat_map code_sys_error (protocolErrorIds id).
(* handleCallReq: the refusals (closing connection, twice), the duplicate-id protocol error,
   the protocol error of a ping on a closed connection *)
Definition code_callreq_refusals (fid : Z) : list (option (Z * Z)) := flat_map code_sys_error (callReqRefusalIds fid).
Definition code_callreq_proto (fid : Z) : list (option (Z * Z)) := flat_map code_proto_error (callReqProtoErrIds fid).
Definition code_ping_proto (fid : Z) : list (option (Z * Z)) := flat_map code_proto_error (pingReqProtoErrIds fid).
(* the exchange of an inbound call: newExchange(.., frame.Header.ID, ..) -> messageExchange{msgID: msgID} *)
Definition code_mex_id (fid : Z) : list Z := flat_map newExchangeIds (callReqExchangeIds fid).
(* a handler's system error: InboundCallResponse.SendSystemError -> conn.SendSystemError(mex.msgID, ..) *)
Definition code_handler_error (fid : Z) : list (option (Z * Z)) :=
  flat_map code_sys_error (flat_map handlerErrIds (code_mex_id fid)).
(* a response fragment: reqResWriter.newFragment sets frame.Header.ID = w.mex.msgID and
   frame.Header.messageType = message.messageType(), message = response.messageForFragment(initial) *)
Definition code_fragment (initial : bool) (fid : Z) : list (Z * Z) :=
  list_prod (fragmentTypes (inboundResMsgType initial)) (flat_map fragmentIds (code_mex_id fid)).
(* cancel: which exchange an inbound cancel frame cancels; the cancel frame sent for an outbound call *)
Definition code_cancel_sent (mex_id : Z) : list (option (Z * Z)) :=
  map (fun i => ctl_hdr cancelMessage_messageType (cancelMessage_ID i)) (flat_map cancelMsgIds (cancelNotifyIds mex_id)).
(* the connecting side: outboundHandshake's init req, its error frame *)
Definition code_out_init_req : list (option (Z * Z)) :=
  map (fun i => ctl_hdr initReq_messageType (initMessage_ID i)) (flat_map getInitMessageIds outboundInitReqIds).
Definition code_out_init_err : list (option (Z * Z)) :=
  map (fun i => ctl_hdr errorMessage_messageType (errorMessage_ID i)) (flat_map initErrorIds outboundInitErrIds).

Lemma read_message_id : forall rf mm ie fid, readMessageId rf mm ie fid = if rf then 0 else fid.
Proof. intros [] [] [] fid; reflexivity. Qed.

Lemma code_reply_init_ok : forall mm ie fid, code_reply_init mm ie fid = map Some (reply_init fid).
Proof. intros [] [] fid; reflexivity. Qed.
Lemma code_reply_init_refused_ok : forall mm ie fid, code_reply_init_refused mm ie fid = map Some (reply_init_refused fid).
Proof. intros [] [] fid; reflexivity. Qed.
Lemma code_reply_ping_ok : forall fid, code_reply_ping fid = map Some (reply_ping fid).
Proof. reflexivity. Qed.
Lemma code_sys_error_ok : forall id, code_sys_error id = map Some (reply_error id).
Proof. reflexivity. Qed.
Lemma code_proto_error_ok : forall id, code_proto_error id = map Some (reply_error id).
Proof. reflexivity. Qed.
Lemma code_callreq_refusals_ok : forall fid, code_callreq_refusals fid = map Some (reply_error fid ++ reply_error fid).
Proof. reflexivity. Qed.
Lemma code_callreq_proto_ok : forall fid, code_callreq_proto fid = map Some (reply_error fid).
Proof. reflexivity. Qed.
Lemma code_ping_proto_ok : forall fid, code_ping_proto fid = map Some (reply_error fid).
Proof. reflexivity. Qed.
Lemma code_mex_id_ok : forall fid, code_mex_id fid = [fid].
Proof. reflexivity. Qed.
Lemma code_callreq_msg_id_ok : forall fid, map callReq_ID (callReqMsgIds fid) = [fid].
Proof. reflexivity. Qed.
Lemma code_handler_error_ok : forall fid, code_handler_error fid = map Some (reply_error fid).
Proof. reflexivity. Qed.
Lemma code_fragment_ok : forall (frag : bool) fid,
  code_fragment true fid ++ (if frag then code_fragment false fid else []) = reply_call frag fid.
Proof. intros [] fid; reflexivity. Qed.
Lemma code_cancel_lookup_ok : forall fid, cancelLookupIds fid = [fid].
Proof. reflexivity. Qed.
Lemma code_cancel_sent_ok : forall mex_id, code_cancel_sent mex_id = [Some (c_messageTypeCancel, mex_id)].
Proof. reflexivity. Qed.
Lemma code_out_init_req_ok : code_out_init_req = [Some (c_messageTypeInitReq, out_init_id)].
Proof. reflexivity. Qed.
Lemma code_out_init_err_ok : code_out_init_err = [Some (c_messageTypeError, out_init_id)].
Proof. reflexivity. Qed.
Lemma code_out_accept_ok : forall id,
  map (outboundInitResAccept id) (flat_map getInitMessageIds outboundInitReqIds) = [out_accepts id].
Proof.
  intros id. cbn. unfold outboundInitResAccept, out_accepts, out_init_id.
  destruct (id =? 1); reflexivity.
Qed.

(* the type codes the message structs answer with are those of the protocol document *)
Lemma message_types_ok :
  [initReq_messageType; initRes_messageType; callReq_messageType; callRes_messageType;
   callReqContinue_messageType; callResContinue_messageType; cancelMessage_messageType;
   pingReq_messageType; pingRes_messageType; errorMessage_messageType]
  = [1; 2; 3; 4; 19; 20; 192; 208; 209; 255].
Proof. reflexivity. Qed.

(* Frame.write never alters the id or the type a message reports *)
Lemma frame_write_hdr : forall failed t i,
  frameWriteType failed t = (if failed then None else Some t) /\ frameWriteId failed i = (if failed then None else Some i).
Proof. intros [] t i; split; reflexivity. Qed.

(* Gen/GenReplySites.v reply_id_table: EVERY write to FrameHeader.ID / .messageType (kind 1), every
   call of Connection.SendSystemError / protocolError (kind 2) and every literal of an id-carrying
   message struct (kind 3) of the root package.  Each row lies in a function of a chain above
   ([rid_chained]), in a function that only DECODES a frame it received or builds a REQUEST the
   library originates with a fresh id ([rid_other]; those ids are C04's), or in relay.go (the
   relay's id mapping is the subject of C08-C10). *)
Definition rid_chained : list string :=
  ["Channel.getInitMessage"; "Channel.initError"; "Connection.handlePingReq"; "Connection.SendSystemError";
   "Connection.protocolError"; "Frame.write"; "Connection.handleCallReq"; "InboundCallResponse.SendSystemError";
   "reqResWriter.newFragment"; "Connection.onCancel"]%string.
Definition rid_other : list string :=
  ["FrameHeader.read"; "messageExchange.recvPeerFrameOfType"; "Connection.handleError"; "readError";
   "Connection.pingWithErrHandler"; "Connection.beginCall"]%string.
Definition rid_row_ok (row : string * string * Z * string) : bool :=
  let '(file, fn, _, _) := row in
  String.eqb file "relay.go" || existsb (String.eqb fn) (rid_chained ++ rid_other).

(* and inside the chained functions the site lists are COMPLETE: the number of rows of a kind in
   a function is the number of entries of the generated lists for that function and kind (a site
   written with another receiver or lvalue text would be in the table but in no list) *)
Definition rid_count (fn : string) (kind : Z) : nat :=
  List.length (filter (fun row : string * string * Z * string =>
                         let '(_, f, k, _) := row in String.eqb f fn && (k =? kind)) reply_id_table).
Definition rid_expected : list (string * Z * nat) :=
  [("Channel.getInitMessage", 3, List.length (getInitMessageIds 0));
   ("Channel.initError", 3, List.length (initErrorIds 0));
   ("Connection.handlePingReq", 2, List.length (pingReqProtoErrIds 0));
   ("Connection.handlePingReq", 3, List.length (pingResIds 0));
   ("Connection.SendSystemError", 3, List.length (sendSystemErrorIds 0));
   ("Connection.protocolError", 2, List.length (protocolErrorIds 0));
   ("Connection.handleCallReq", 2, List.length (callReqRefusalIds 0 ++ callReqProtoErrIds 0));
   ("Connection.handleCallReq", 1, 0%nat); ("Connection.handleCallReq", 3, 0%nat);
   ("InboundCallResponse.SendSystemError", 2, List.length (handlerErrIds 0));
   ("reqResWriter.newFragment", 1, List.length (fragmentIds 0 ++ fragmentTypes 0));
   ("Frame.write", 1, 2%nat);
   ("Connection.onCancel", 3, List.length (cancelMsgIds 0))]%string.

Lemma reply_id_table_covered :
  forallb rid_row_ok reply_id_table = true /\
  forallb (fun e : string * Z * nat => let '(fn, kind, n) := e in Nat.eqb (rid_count fn kind) n) rid_expected = true.
Proof. split; vm_compute; reflexivity. Qed.
