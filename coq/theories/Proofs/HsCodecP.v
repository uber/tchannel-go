(* Soundness (inversion) of the typed-buffer readers used by the handshake: what a
   successful read says about the bytes that were read.  Complements the completeness
   lemmas ([consumes]) of Proofs/CodecP.v. *)
From Coq Require Import ZArith List Bool Lia.
From Verif Require Import Base.Wrap Base.Bytes Gen.GenConsts Gen.GenFrame Model.TypedBuf Model.Messages
  Spec.Protocol Spec.HandshakeSpec Proofs.CodecP Proofs.FrameP.
Import ListNotations.
Local Open Scope Z_scope.

(* whatever happens, an n-byte integer read from bytes is within range *)
Lemma r_uint_range n r0 : bytes_ok (rrem r0) = true -> u_ok n (fst (r_uint n r0)).
Proof.
  intros B. destruct (r_uint n r0) as [v r1] eqn:E. cbn [fst]. destruct (rerr r1) eqn:R.
  - unfold r_uint, bindR in E. destruct (r_bytes n r0) as [b r']. inversion E; subst. rewrite R.
    split; [apply Z.le_refl|]. apply Z.pow_pos_nonneg; [reflexivity|apply Nat2Z.is_nonneg].
  - destruct (r_uint_decodes n _ _ _ E R B) as [_ [_ [bs [_ [_ U]]]]]. exact U.
Qed.

Lemma r_init_decodes :
  decodes r_init (fun m bs => bs = s_init (im_version m) (im_params m) /\
                              0 <= im_version m < 65536 /\ params_ok (im_params m)).
Proof.
  eapply decodes_imp.
  { apply decodes_bind; [apply (r_uint_decodes 2)|sticky_tac|intros v].
    apply decodes_bind; [apply (r_uint_decodes 2)|sticky_tac|intros n].
    apply decodes_bind; [apply r_kv16s_decodes|sticky_tac|intros p]. apply decodes_ret. }
  intros m bs (v & b1 & b2 & -> & [-> Uv] & n & b3 & b4 & -> & [-> Un] & p & b5 & b6 & -> & (-> & L & F) & -> & ->).
  destruct (count16 p n Un L) as [Z Z1]. cbn [im_version im_params]. unfold s_init.
  rewrite Z, app_nil_r. split; [reflexivity|]. split; [exact Uv|exact (conj Z1 F)].
Qed.

(* ---------------- frames with arbitrary reserved bytes ---------------- *)

Lemma frame_bytes_hdr t r1 id res8 p :
  frame_bytes t r1 id res8 p = hdr_bytes (mkFH (16 + zlen p) t r1 id) res8 ++ p.
Proof. unfold frame_bytes, hdr_bytes. rewrite <- !app_assoc. reflexivity. Qed.

Lemma r_fheader_decodes :
  decodes r_fheader (fun h bs => exists res8, bs = hdr_bytes h res8 /\ length res8 = 8%nat /\ hdr_ok h).
Proof.
  eapply decodes_imp.
  { apply decodes_bind; [apply (r_uint_decodes 2)|sticky_tac|intros s].
    apply decodes_bind; [apply (r_uint_decodes 1)|sticky_tac|intros t].
    apply decodes_bind; [apply (r_uint_decodes 1)|sticky_tac|intros x1].
    apply decodes_bind; [apply (r_uint_decodes 4)|sticky_tac|intros i].
    apply decodes_bind; [apply (r_bytes_decodes 8)|sticky_tac|intros r8]. apply decodes_ret. }
  intros h bs (s & ? & ? & -> & [-> Us] & t & ? & ? & -> & [-> Ut] & x1 & ? & ? & -> & [-> Ux] &
               i & ? & ? & -> & [-> Ui] & r8 & ? & ? & -> & (-> & L8 & _) & -> & ->).
  exists r8. rewrite !be1_small by assumption. unfold hdr_bytes. cbn [fh_size fh_type fh_res1 fh_id].
  rewrite app_nil_r. split; [reflexivity|exact (conj L8 (conj Us (conj Ut (conj Ux Ui))))].
Qed.

(* a successful ReadIn: the stream does start with that frame *)
Lemma frame_read_in_inv stream h payload rest :
  frame_read_in stream = (0, h, payload, rest) -> bytes_ok stream = true ->
  exists res8,
    stream = hdr_bytes h res8 ++ payload ++ rest /\ length res8 = 8%nat /\ hdr_ok h /\
    fh_size h = 16 + zlen payload /\ bytes_ok payload = true.
Proof.
  intros E B.
  assert (L : length (firstn 16 stream) = 16%nat).
  { apply firstn_length_le. unfold frame_read_in in E.
    destruct (Z.ltb_spec (zlen stream) c_FrameHeaderSize) as [Z1|Z1]; [discriminate|].
    unfold zlen, c_FrameHeaderSize in Z1. lia. }
  rewrite <- (firstn_skipn 16 stream) in E, B.
  set (hd := firstn 16 stream) in *. set (tail := skipn 16 stream) in *.
  apply bytes_ok_split in B as [Bh Bt].
  rewrite frame_read_in_hdr in E by exact L.
  destruct (r_fheader (rb hd)) as [h' r] eqn:EH. destruct (rerr r) eqn:R.
  { unfold frame_read_body in E. rewrite EH, R in E. discriminate. }
  destruct (r_fheader_decodes _ _ _ EH R Bh) as [_ [_ [bs [Eq [res8 [-> [L8 Hh]]]]]]]. cbn [rrem rb] in Eq.
  assert (Rn : rrem r = []).
  { apply (f_equal (@length Z)) in Eq. rewrite L, app_length, (hdr_bytes_length h' res8 L8) in Eq.
    destruct (rrem r); [reflexivity|cbn [length] in Eq; lia]. }
  rewrite Rn, app_nil_r in Eq. rewrite <- (firstn_skipn 16 stream). fold hd tail. rewrite Eq in *. clear Eq EH.
  rewrite frame_read_body_hdr in E by assumption.
  destruct (Z.ltb_spec (fh_size h') 16) as [S|S]; [discriminate|]. cbv zeta in E.
  destruct (Z.gtb_spec (fh_size h' - 16) 0) as [G|G].
  - destruct (Z.ltb_spec (zlen tail) (fh_size h' - 16)) as [T|T]; [discriminate|].
    injection E as <- <- <-. exists res8. rewrite firstn_skipn.
    rewrite <- (firstn_skipn (Z.to_nat (fh_size h' - 16)) tail) in Bt. apply bytes_ok_split in Bt as [Bp _].
    split; [reflexivity|]. split; [exact L8|]. split; [exact Hh|]. split; [|exact Bp].
    unfold zlen in *. rewrite firstn_length_le; lia.
  - injection E as <- <- <-. exists res8. split; [reflexivity|]. split; [exact L8|]. split; [exact Hh|].
    split; [|reflexivity]. change (zlen (@nil Z)) with 0. lia.
Qed.
