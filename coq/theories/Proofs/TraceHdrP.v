(* Proofs about the tracing keys on the application-header map (Model/TraceHdr.v):
   what RemoveTracingKeys removes (in every iteration order), what InjectOutboundSpan adds,
   extract (inject m) = the application's own entries of m, the call path of Model/HdrSlot.v
   with the tracing layer in it, and the tie to the definitions regenerated from the source
   (Gen/GenTraceHdr.v). *)
From Coq Require Import ZArith List Bool Lia Permutation.
From Verif Require Import Base.Wrap Base.Wire Base.GoStrMap Gen.GenConsts Gen.GenTraceHdr
  Model.TypedBuf Model.Messages Model.Codecs Spec.HdrPath Model.HdrSlot Model.TraceHdr
  Proofs.CodecP Proofs.CodecsP Proofs.StrMapP Proofs.HdrSlotP.
Import ListNotations.
Local Open Scope Z_scope.

Lemma reserved_encode k : reserved (encode_key k) = true.
Proof. apply str_has_prefix_app. Qed.

Lemma decode_encode k : decode_key (encode_key k) = Some k.
Proof. apply str_from_app. Qed.

(* on every key that passes the guard of ForeachKey the slice expression of the decoder is in range *)
Lemma decode_reserved k : reserved k = true -> exists r, k = encode_key r /\ decode_key k = Some r.
Proof.
  intros H. destruct (str_has_prefix_split tprefix k H) as [r ->]. exists r. split; [reflexivity | apply decode_encode].
Qed.

(* ---------------- mapAndCache ---------------- *)
Definition cache_sound (mapper : list Z -> list Z) (cache : kvs) : Prop :=
  forall k v, hm_get cache k = (v, true) -> v = mapper k.

Lemma cache_sound_set mapper cache k : cache_sound mapper cache -> cache_sound mapper (hm_set cache k (mapper k)).
Proof.
  intros H k' v'. unfold hm_set. rewrite hm_get_insert. destruct (bytes_eqb k' k) eqn:E.
  - apply bytes_eqb_eq in E. subst k'. intros Hv. inversion Hv. reflexivity.
  - apply H.
Qed.

Theorem map_and_cache_spec mapper cache cache' key :
  cache_sound mapper cache -> cache_sound mapper cache' ->
  snd (map_and_cache mapper cache cache' key) = mapper key /\
  cache_sound mapper (fst (map_and_cache mapper cache cache' key)).
Proof.
  intros H1 H2. unfold map_and_cache.
  destruct (hm_get cache key) as [v ok] eqn:E1. destruct ok.
  - cbn [fst snd]. split; [apply H1, E1 | exact H1].
  - destruct (hm_get cache' key) as [v' ok'] eqn:E2. destruct ok'.
    + cbn [fst snd]. split; [apply H2, E2 | exact H2].
    + destruct (zlen cache' <? c_tracingKeyMappingSize); cbn [fst snd].
      * split; [reflexivity | apply cache_sound_set, H2].
      * split; [reflexivity | exact H2].
Qed.

(* ---------------- RemoveTracingKeys ---------------- *)
Lemma filter_filter {A} (f g : A -> bool) l : filter f (filter g l) = filter (fun x => g x && f x) l.
Proof.
  induction l as [|x l IH]; cbn [filter]; [reflexivity|].
  destruct (g x); cbn [filter andb]; [destruct (f x); rewrite IH; reflexivity | exact IH].
Qed.

Lemma bytes_eqb_sym a b : bytes_eqb a b = bytes_eqb b a.
Proof.
  destruct (bytes_eqb a b) eqn:E.
  - apply bytes_eqb_eq in E. subst b. symmetry. apply bytes_eqb_refl.
  - destruct (bytes_eqb b a) eqn:E2; [|reflexivity]. apply bytes_eqb_eq in E2. subst b.
    rewrite bytes_eqb_refl in E. discriminate.
Qed.

Lemma strip_in_spec order : forall c,
  strip_in order c = filter (fun kv => negb (reserved (fst kv) && existsb (bytes_eqb (fst kv)) order)) c.
Proof.
  induction order as [|key order IH]; intros c; cbn [strip_in fold_left existsb].
  - symmetry. rewrite <- (filter_ext (fun _ => true)).
    + induction c as [|x c IHc]; cbn [filter]; [reflexivity | f_equal; exact IHc].
    + intros kv. rewrite andb_false_r. reflexivity.
  - fold (strip_in order (strip_step c key)). rewrite IH. unfold strip_step.
    destruct (reserved key) eqn:R.
    + unfold hm_del. rewrite filter_filter. apply filter_ext. intros kv.
      rewrite (bytes_eqb_sym (fst kv) key).
      destruct (bytes_eqb key (fst kv)) eqn:E; cbn [negb andb orb]; [|reflexivity].
      apply bytes_eqb_eq in E. subst key. rewrite R. reflexivity.
    + apply filter_ext. intros kv.
      destruct (bytes_eqb (fst kv) key) eqn:E; cbn [orb]; [|reflexivity].
      apply bytes_eqb_eq in E. subst key. rewrite R. reflexivity.
Qed.

(* in WHATEVER order the range loop visits the keys of the map (any list that
   contains them), what is left are exactly the entries whose key does not have the prefix *)
Theorem strip_any_order order c :
  (forall kv, In kv c -> In (fst kv) order) -> strip_in order c = filter app_key c.
Proof.
  intros H. rewrite strip_in_spec. apply filter_ext_in. intros kv Hin. unfold app_key.
  assert (E : existsb (bytes_eqb (fst kv)) order = true).
  { apply existsb_exists. exists (fst kv). split; [apply H, Hin | apply bytes_eqb_refl]. }
  rewrite E, andb_true_r. reflexivity.
Qed.

Theorem strip_spec c : strip c = filter app_key c.
Proof. apply strip_any_order. intros kv Hin. apply in_map, Hin. Qed.

Lemma extract_spec nonnil h : extract_inbound nonnil h = if nonnil then filter app_key h else h.
Proof. unfold extract_inbound. rewrite strip_spec. reflexivity. Qed.

(* ---------------- InjectOutboundSpan ---------------- *)
Lemma app_key_filter_eq l : filter app_key l = filter (fun kv => negb (reserved (fst kv))) l.
Proof. reflexivity. Qed.

Lemma inject_fold sets : forall acc, ksorted acc -> filter app_key acc = [] ->
  ksorted (fold_left (fun c kv => carrier_set c (fst kv) (snd kv)) sets acc) /\
  filter app_key (fold_left (fun c kv => carrier_set c (fst kv) (snd kv)) sets acc) = [].
Proof.
  induction sets as [|[k v] sets IH]; intros acc Hs Hf; cbn [fold_left fst snd]; [auto|].
  apply IH.
  - apply map_insert_sorted, Hs.
  - unfold carrier_set, hm_set. rewrite app_key_filter_eq.
    rewrite (filter_insert (fun k => negb (reserved k)) _ _ _ Hs). rewrite reserved_encode. exact Hf.
Qed.

Lemma inject_sets_sorted sets : ksorted (inject_sets sets).
Proof. apply inject_fold; [exact I | reflexivity]. Qed.
(* the tracer can only add keys with the prefix *)
Lemma inject_sets_reserved sets : filter app_key (inject_sets sets) = [].
Proof. apply inject_fold; [exact I | reflexivity]. Qed.

Lemma merge_step_sorted nh k v : ksorted nh -> ksorted (merge_step nh k v).
Proof. intros H. unfold merge_step. destruct (hm_mem nh k); [exact H | apply map_insert_sorted, H]. Qed.

Lemma merge_in_sorted order : forall nh, ksorted nh -> ksorted (merge_in order nh).
Proof.
  induction order as [|[k v] order IH]; intros nh H; cbn [merge_in fold_left]; [exact H|].
  apply IH, merge_step_sorted, H.
Qed.

Lemma filter_merge_step nh k v : ksorted nh ->
  filter app_key (merge_step nh k v) =
  if reserved k then filter app_key nh else merge_step (filter app_key nh) k v.
Proof.
  intros Hs. unfold merge_step, hm_mem, hm_set. rewrite app_key_filter_eq, (hm_get_filter (fun k => negb (reserved k))).
  destruct (reserved k) eqn:R; cbn [negb snd]; (destruct (snd (hm_get nh k)); [reflexivity|]);
    rewrite (filter_insert (fun k => negb (reserved k)) _ _ _ Hs), R; reflexivity.
Qed.

Lemma filter_merge_in order : forall nh, ksorted nh ->
  filter app_key (merge_in order nh) = merge_in (filter app_key order) (filter app_key nh).
Proof.
  induction order as [|[k v] order IH]; intros nh Hs; cbn [merge_in fold_left fst snd]; [reflexivity|].
  fold (merge_in order (merge_step nh k v)). rewrite (IH _ (merge_step_sorted nh k v Hs)).
  rewrite (filter_merge_step nh k v Hs). cbn [filter]. change (app_key (k, v)) with (negb (reserved k)).
  destruct (reserved k); cbn [negb]; reflexivity.
Qed.

Lemma hm_get_miss l k : snd (hm_get l k) = false -> hm_get l k = ([], false).
Proof.
  induction l as [|[k2 v2] r IH]; cbn [hm_get]; [reflexivity|].
  destruct (bytes_eqb k k2); [cbn [snd]; discriminate | exact IH].
Qed.

Lemma hm_get_merge_step nh k v k' :
  hm_get (merge_step nh k v) k' =
  if bytes_eqb k' k then (if hm_mem nh k then hm_get nh k else (v, true)) else hm_get nh k'.
Proof.
  unfold merge_step. destruct (hm_mem nh k) eqn:M.
  - destruct (bytes_eqb k' k) eqn:E; [|reflexivity]. apply bytes_eqb_eq in E. subst k'. reflexivity.
  - unfold hm_set. apply hm_get_insert.
Qed.

(* newHeaders after the loop: its own entries, then the FIRST binding of every other key *)
Lemma hm_get_merge_in order : forall nh k',
  hm_get (merge_in order nh) k' = if hm_mem nh k' then hm_get nh k' else hm_get order k'.
Proof.
  induction order as [|[k v] order IH]; intros nh k'; cbn [merge_in fold_left fst snd].
  - unfold hm_mem. destruct (snd (hm_get nh k')) eqn:M; [reflexivity | apply hm_get_miss, M].
  - fold (merge_in order (merge_step nh k v)). rewrite IH. unfold hm_mem. rewrite hm_get_merge_step.
    cbn [hm_get]. destruct (bytes_eqb k' k) eqn:E.
    + apply bytes_eqb_eq in E. subst k'. fold (hm_mem nh k). destruct (hm_mem nh k) eqn:M.
      * unfold hm_mem in M. rewrite M. reflexivity.
      * reflexivity.
    + reflexivity.
Qed.

(* merging a sorted map into the empty one gives it back: both are sorted and look up alike *)
Lemma merge_in_nil l : ksorted l -> merge_in l [] = l.
Proof.
  intros H. apply ksorted_ext; [apply merge_in_sorted; exact I|exact H|]. intros k. apply hm_get_merge_in.
Qed.

Lemma inject_outbound_sorted has_span sets m : ksorted m -> ksorted (inject_outbound has_span sets m).
Proof.
  intros H. unfold inject_outbound, inject_outbound_in. destruct (negb has_span); [exact H|].
  destruct (zlen (inject_sets sets) =? 0); [exact H|]. apply merge_in_sorted, inject_sets_sorted.
Qed.

(* the application's own entries are untouched by the injection, whatever the tracer injects *)
Theorem inject_outbound_app has_span sets m : ksorted m ->
  filter app_key (inject_outbound has_span sets m) = filter app_key m.
Proof.
  intros H. unfold inject_outbound, inject_outbound_in. destruct (negb has_span); [reflexivity|].
  destruct (zlen (inject_sets sets) =? 0); [reflexivity|].
  rewrite (filter_merge_in m _ (inject_sets_sorted sets)), inject_sets_reserved.
  apply merge_in_nil, ksorted_filter, H.
Qed.

(* Go ranges over `headers` in an unspecified order: the result is the same for every order *)
Theorem merge_in_any_order order m nh : ksorted m -> ksorted nh -> Permutation order m ->
  merge_in order nh = merge_in m nh.
Proof.
  intros Hm Hn Hp. apply ksorted_ext; [apply merge_in_sorted, Hn | apply merge_in_sorted, Hn|].
  intros k. rewrite !hm_get_merge_in. rewrite (hm_get_perm m order k (ksorted_nodup m Hm) Hp). reflexivity.
Qed.

Theorem inject_outbound_any_order order has_span sets m : ksorted m -> Permutation order m ->
  inject_outbound_in order has_span sets m = inject_outbound has_span sets m.
Proof.
  intros Hm Hp. unfold inject_outbound, inject_outbound_in. destruct (negb has_span); [reflexivity|].
  destruct (zlen (inject_sets sets) =? 0); [reflexivity|].
  apply merge_in_any_order; [exact Hm | apply inject_sets_sorted | exact Hp].
Qed.

(* THE statement about the request path: whatever the caller's tracer injects (has_span, sets) and
   whatever happens in the callee's tracer (it does not occur), the map the handler's context is
   built from is the caller's map without the entries whose key has the transport prefix.
   nonnil: is the decoded map non-nil (it can only be nil when it is empty). *)
Theorem extract_inject has_span sets nonnil m : ksorted m ->
  (nonnil = false -> inject_outbound has_span sets m = []) ->
  extract_inbound nonnil (inject_outbound has_span sets m) = filter app_key m.
Proof.
  intros Hs Hn. rewrite extract_spec. destruct nonnil.
  - apply inject_outbound_app, Hs.
  - rewrite <- (inject_outbound_app has_span sets m Hs). rewrite (Hn eq_refl). reflexivity.
Qed.

Definition no_reserved (m : kvs) : Prop := forallb app_key m = true.

Lemma filter_all {A} (f : A -> bool) l : forallb f l = true -> filter f l = l.
Proof.
  induction l as [|x l IH]; cbn [forallb filter]; [reflexivity|].
  intros H. apply andb_true_iff in H. destruct H as [H1 H2]. rewrite H1, (IH H2). reflexivity.
Qed.

(* application headers without the prefix reach the handler EXACTLY *)
Theorem extract_inject_exact has_span sets nonnil m : ksorted m -> no_reserved m ->
  (nonnil = false -> inject_outbound has_span sets m = []) ->
  extract_inbound nonnil (inject_outbound has_span sets m) = m.
Proof. intros Hs Hr Hn. rewrite (extract_inject _ _ _ _ Hs Hn). apply filter_all, Hr. Qed.

(* the exception (known finding c18:reserved-tracing-prefix): an APPLICATION header whose key
   starts with the prefix never reaches the handler -- even when no tracer is configured on
   either side *)
Theorem extract_inject_reserved_refuted :
  exists m, ksorted m /\ kvs16_ok m /\
    extract_inbound true (inject_outbound true [] m) <> m.
Proof.
  exists [(c_tracingKeyPrefix ++ [120], [49])]. split; [cbn; auto|]. split.
  - split; [cbn; lia | repeat constructor; vm_compute; discriminate].
  - vm_compute. discriminate.
Qed.

(* ---------------- the call path of Model/HdrSlot.v with the tracing layer ---------------- *)
Lemma hmap_ok_sorted h : hmap_ok h -> ksorted h.
Proof. intros [_ H]. apply canon_fix_sorted, H. Qed.

Lemma extract_nil nn : extract_inbound nn [] = [].
Proof. destruct nn; reflexivity. Qed.

(* thrift: within the size limits (they include the injected entries) the handler sees the
   application's own entries *)
Theorem seen_thrift_spec t h : ksorted h ->
  kvs16_ok (inject_outbound (t_span t) (t_sets t) h) ->
  seen_thrift t h = Some (filter app_key h).
Proof.
  intros Hs Hk. unfold seen_thrift.
  assert (Hok : hmap_ok (inject_outbound (t_span t) (t_sets t) h)).
  { split; [exact Hk | apply canon_map_fix, inject_outbound_sorted, Hs]. }
  rewrite (thrift_wire_ok _ Hok). f_equal. apply extract_inject; [exact Hs|].
  intros E. apply negb_false_iff in E. destruct (inject_outbound (t_span t) (t_sets t) h); [reflexivity | discriminate].
Qed.

Theorem seen_json_spec t nonnil h : ksorted h ->
  (nonnil = false -> inject_outbound (t_span t) (t_sets t) h = []) ->
  seen_json t nonnil h = filter app_key h.
Proof. intros Hs Hn. unfold seen_json. apply extract_inject; assumption. Qed.

(* tracing is transparent for the header path: with ANY tracer configuration a call does to the
   context and shows to the handler what Model/HdrSlot.v (proved to observe Spec/HdrPath.v) says *)
Theorem do_call_tr_transparent t nonnil c kind outcome resp :
  hmap_ok (s_req c) -> no_reserved (s_req c) ->
  kvs16_ok (inject_outbound (t_span t) (t_sets t) (s_req c)) ->
  (nonnil = false -> inject_outbound (t_span t) (t_sets t) (s_req c) = []) ->
  do_call_tr t nonnil c kind outcome resp = do_call c kind outcome resp.
Proof.
  intros Hok Hr Hk Hn. pose proof (hmap_ok_sorted _ Hok) as Hs.
  unfold do_call_tr, do_call. destruct (kind =? 0).
  - unfold call_thrift_tr, call_thrift, ctx_headers.
    rewrite (seen_thrift_spec t (s_req c) Hs Hk), (filter_all _ _ Hr), (thrift_wire_ok _ Hok). reflexivity.
  - unfold call_json_tr, call_json, ctx_headers.
    rewrite (seen_json_spec t nonnil (s_req c) Hs Hn), (filter_all _ _ Hr). reflexivity.
Qed.

(* ---------------- the harness entry point is the specification ---------------- *)
Theorem run_tracehdr_spec c kind hs sets m r1 r2 r3 r4 :
  take1 c = (kind, r1) -> take1 r1 = (hs, r2) ->
  take_list take_kv r2 = (sets, r3) -> take_list take_kv r3 = (m, r4) ->
  ksorted m -> kvs16_ok (inject_outbound (bz hs) sets m) ->
  run_tracehdr c = put_list put_kv (filter app_key m).
Proof.
  intros E1 E2 E3 E4 Hs Hk. unfold run_tracehdr. rewrite E1, E2, E3, E4.
  destruct (kind =? 0).
  - rewrite (seen_thrift_spec (mkT (bz hs) sets false false) m Hs Hk). reflexivity.
  - rewrite seen_json_spec; [reflexivity | exact Hs |].
    cbn [t_span t_sets]. intros E. apply negb_false_iff in E.
    destruct (inject_outbound (bz hs) sets m); [reflexivity | discriminate].
Qed.

(* ---------------- the regenerated pieces ---------------- *)
Lemma merge_step_gen nh k v : injectMergeStep nh k v = merge_step nh k v.
Proof. unfold injectMergeStep, merge_step. destruct (hm_mem nh k); reflexivity. Qed.

Lemma merge_fold_gen order : forall nh,
  fold_left (fun nh kv => injectMergeStep nh (fst kv) (snd kv)) order nh = merge_in order nh.
Proof.
  induction order as [|kv order IH]; intros nh; cbn [fold_left merge_in]; [reflexivity|].
  rewrite merge_step_gen. apply IH.
Qed.

Lemma mapAndCache_gen mapper cache cache' key :
  match mapAndCacheFast cache key with
  | Some v => (cache, v)
  | None => mapAndCacheSlow mapper cache' key
  end = map_and_cache mapper cache cache' key.
Proof.
  unfold mapAndCacheFast, mapAndCacheSlow, map_and_cache.
  destruct (hm_get cache key) as [v ok]. destruct ok; [reflexivity|].
  destruct (hm_get cache' key) as [v' ok']. destruct ok'; [reflexivity|].
  destruct (zlen cache' <? c_tracingKeyMappingSize); reflexivity.
Qed.

Lemma foreachKeyVisits_gen k : foreachKeyVisits k = foreach_visits k.
Proof. unfold foreachKeyVisits, foreach_visits, reserved, tprefix, c_tracingKeyPrefix. destruct (str_has_prefix k _); reflexivity. Qed.

Lemma injectOutbound_gen order has_span sets headers :
  match injectHead has_span sets headers with
  | inl r => r
  | inr nh => injectTail headers (fold_left (fun nh kv => injectMergeStep nh (fst kv) (snd kv)) order nh)
  end = inject_outbound_in order has_span sets headers.
Proof.
  unfold injectHead, inject_outbound_in, injectTail. destruct has_span; cbn [negb]; [|reflexivity].
  change (fold_left (fun c kv => carrierSet c (fst kv) (snd kv)) sets []) with (inject_sets sets).
  destruct (zlen (inject_sets sets) =? 0); [reflexivity | apply merge_fold_gen].
Qed.

(* the WHOLE of ExtractInboundSpan, for any function in the place of RemoveTracingKeys *)
Lemma extractInbound_gen (strip' : kvs -> kvs) has_span nonnil extract_ok h :
  extractInboundHeaders strip' has_span nonnil extract_ok h = if nonnil then strip' h else h.
Proof. destruct has_span, nonnil, extract_ok; reflexivity. Qed.
