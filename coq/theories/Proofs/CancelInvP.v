(* Reachability invariants of Model/Cancel.v and the "every listed event ends the handler's
   context" direction of property C14, clause d. *)
From Coq Require Import ZArith List Bool Lia.
From Verif Require Import Base.Wrap Base.Wire Gen.GenConsts Gen.GenTTL Model.Cancel Proofs.CancelP.
Import ListNotations.
Local Open Scope Z_scope.

Ltac bool_split :=
  repeat match goal with
  | H : _ && _ = false |- _ => apply andb_false_iff in H; destruct H
  | H : _ || _ = true |- _ => apply orb_true_iff in H; destruct H
  end.

(* the branch conditions of a step, used as equations *)
Ltac use_tests s := repeat match goal with E : ?p s = _ |- _ => rewrite E in * end.

(* four invariants of the reachable states, each inductive on its own *)
(* the caller is notified of a cancellation only by the operation that also ends its wait *)
Definition notified_ok (s : st) : Prop := cancel_notified s = true -> cres s <> None.

(* the handler starts with the first request fragment of a call that has begun *)
Definition started_ok (s : st) : Prop :=
  (hstarted s = true -> begun s = true /\ 0 < req_sent s) /\ 0 <= req_sent s.

(* the handler's context is live and its exchange registered from its start until one of the
   events that end the context; nothing of it exists before *)
Definition handler_ok (s : st) : Prop :=
  (hstarted s = false -> hctx s = 0 /\ mex_reg s = false /\ resp_done s = false /\ resp_failed s = false) /\
  (hstarted s = true -> hctx s = 0 -> mex_reg s = true /\ resp_done s = false /\ resp_failed s = false).

(* the relay item is dropped only by events that also end the caller's wait or a context *)
Definition relay_ok (s : st) : Prop :=
  (hstarted s = true -> hctx s = 0 -> cres s = None -> relay_alive s = true) /\
  (relay_alive s = false -> hstarted s = false -> cctx s <> 0).

Lemma notified_step c s l : notified_ok s -> notified_ok (step c s l).
Proof. unfold notified_ok. intros P. step_branches c s l Hx; use_tests s; auto; discriminate. Qed.

Lemma started_step c s l : started_ok s -> started_ok (step c s l).
Proof.
  unfold started_ok. intros (P & N). step_branches c s l Hx; use_tests s; auto.
  all: split; [intros A|lia].
  all: try (destruct (P A) as (B & D)); try discriminate; auto with zarith.
Qed.

Lemma handler_step c s l : handler_ok s -> handler_ok (step c s l).
Proof.
  unfold handler_ok. intros (P & N). step_branches c s l Hx; use_tests s; auto.
  all: try (destruct Hx as [[-> ->]|(_ & _ & M & Z0 & -> & ->)]); auto.
  all: split; intros; try congruence; auto.
  all: intuition congruence.
Qed.

Lemma relay_step c s l : relay_ok s -> relay_ok (step c s l).
Proof.
  unfold relay_ok. intros (P & N). step_branches c s l Hx; use_tests s; auto.
  all: split; intros; try congruence; auto.
  all: try (destruct (relay_alive s); intuition congruence).
  all: bool_split; bool_norm; congruence.
Qed.

Definition reach_ok (s : st) : Prop := notified_ok s /\ started_ok s /\ handler_ok s /\ relay_ok s.

Lemma reach_run c ls : reach_ok (run c ls).
Proof.
  induction ls as [|l ls (A & B & C & D)] using rev_ind.
  - unfold reach_ok, notified_ok, started_ok, handler_ok, relay_ok, init; cbn.
    repeat split; intros; try discriminate; lia.
  - rewrite run_snoc.
    exact (conj (notified_step c _ l A) (conj (started_step c _ l B) (conj (handler_step c _ l C) (relay_step c _ l D)))).
Qed.

Lemma handler_ctx_ends c s :
  reach_ok s -> hstarted s = true -> hctx s = 0 ->
  hctx (step c s LDeadline) = 1 /\ hctx (step c s LHBlackhole) = 2 /\
  hctx (step c s LHClose) = 2 /\ hctx (step c s LConnFail) = 2.
Proof.
  intros (_ & (Hb & _) & (_ & Hm) & _) A B.
  destruct (Hb A) as (Bg & _). destruct (Hm A B) as (M & Dn & Fl).
  repeat split; unfold step, handler_write; repeat (break_if; fld); bool_norm; bool_split; bool_norm; congruence.
Qed.

(* a caller operation that has to wait: writing a further request fragment, or reading the
   next response fragment once the request is complete *)
Definition caller_waits (s : st) (l : label) : Prop :=
  begun s = true /\ cres s = None /\
  (((l = LWFrag \/ l = LWClose) /\ req_closed s = false) \/ (l = LRead /\ req_closed s = true)).

Lemma wait_ctx_err c s l : caller_waits s l -> cctx s <> 0 -> step c s l = caller_ctx_err c s.
Proof.
  intros (A & B & [[[->| ->] C]|[-> C]]) D; apply Z.eqb_neq in D;
    unfold step, caller_write; rewrite A, B, C, D; reflexivity.
Qed.

Lemma caller_error c s l :
  caller_waits s l ->
  (cctx s = 1 -> cres (step c s l) = Some c_ErrCodeTimeout) /\
  (cctx s = 2 -> cres (step c s l) = Some c_ErrCodeCancelled).
Proof.
  intros W. destruct (ctx_err_shape c s) as (n & k & r & h & a & x & m & Q & _).
  split; intros E; rewrite (wait_ctx_err c s l W), Q, E by (rewrite E; discriminate); reflexivity.
Qed.

(* the cancel message gets through: sent once, carried by every hop, honoured by the server *)
Lemma cancel_arrives c s :
  all_on c = true -> cctx s = 2 -> cancel_notified s = false -> conn_failed s = false ->
  0 < req_sent s -> relay_alive s = true -> mex_reg s = true -> hctx s = 0 ->
  hctx (caller_ctx_err c s) = 2.
Proof.
  intros A B C D E F G H. apply all_on_elim in A as (A1 & A2 & A3).
  unfold caller_ctx_err, notify_cancel, travel_cancel, server_cancel, path_up.
  repeat (break_if; fld); bool_norm; bool_split; bool_norm; try congruence; lia.
Qed.

(* caller cancellation with propagation enabled on every hop reaches the running handler *)
Lemma cancel_reaches_handler c s l :
  reach_ok s -> all_on c = true ->
  hstarted s = true -> hctx s = 0 -> cctx s = 2 -> conn_failed s = false -> caller_waits s l ->
  hctx (step c s l) = 2 /\ cres (step c s l) = Some c_ErrCodeCancelled.
Proof.
  intros (Hn & (Hb & _) & (_ & Hm) & (Hr & _)) A B C D E W.
  split; [|apply (caller_error c s l W), D].
  rewrite (wait_ctx_err c s l W) by (rewrite D; discriminate).
  destruct W as (_ & R & _). destruct (Hm B C) as (M & _).
  apply cancel_arrives; auto; [|apply Hb, B].
  destruct (cancel_notified s) eqn:N; [destruct (Hn N R)|reflexivity].
Qed.

(* BeginCall: the remaining-time test comes first (timeout once the deadline has passed, even
   for a cancelled context), then the context's own error *)
Lemma begin_error c s :
  begun s = false -> cres s = None ->
  (dl_passed s = true -> cres (step c s LBegin) = Some c_ErrCodeTimeout) /\
  (dl_passed s = false -> cctx s = 2 -> cres (step c s LBegin) = Some c_ErrCodeCancelled) /\
  (dl_passed s = false -> cctx s = 0 -> begun (step c s LBegin) = true /\ cres (step c s LBegin) = None).
Proof.
  intros A B. unfold step. rewrite A, B. cbn [orb negb].
  split; [intros ->; reflexivity|split; intros -> ->; fld; auto].
Qed.

Lemma handler_ctx_changes_only_by c s l :
  hctx (step c s l) <> hctx s ->
  l = LDeadline \/ l = LHClose \/ l = LHBlackhole \/ l = LConnFail \/
  (all_on c = true /\ cctx s = 2 /\ (l = LWFrag \/ l = LWClose \/ l = LRead)).
Proof.
  intros H. destruct (hctx_step c s l) as [E|(_ & [(-> & _)|(_ & K)])]; [contradiction|auto|right; exact K].
Qed.

(* cancel messages: at most one per call, honoured only with PropagateCancel *)
Definition count_ok (c : cfg) (s : st) : Prop :=
  (cancel_notified s = false -> cancels_sent s = 0) /\ 0 <= cancels_sent s <= 1 /\
  0 <= requested s <= cancels_sent s /\
  honored s = (if srv_prop c then requested s else 0) /\
  (0 < cancels_sent s -> send_cancel c = true /\ cctx s = 2).

Lemma count_notify c s : count_ok c s -> cctx s = 2 -> count_ok c (notify_cancel c s).
Proof.
  unfold count_ok. intros (P1 & P2 & P3 & P4 & P5) C.
  unfold notify_cancel, travel_cancel, server_cancel.
  repeat (break_if; fld); bool_norm; rewrite ?P1 in * by reflexivity.
  all: repeat split; intros; try assumption; try congruence; try lia; apply P5; assumption.
Qed.

(* the four counters move only in notify_cancel, which only a cancelled caller reaches *)
Lemma counts_step c s l : exists t,
  (t = s \/ cctx s = 2 /\ t = notify_cancel c s) /\
  cancel_notified (step c s l) = cancel_notified t /\ cancels_sent (step c s l) = cancels_sent t /\
  requested (step c s l) = requested t /\ honored (step c s l) = honored t.
Proof.
  destruct l; unfold step, caller_write, handler_write, deliver_request, caller_ctx_err;
    repeat (break_if; fld); bool_norm;
    solve [exists s; auto | exists (notify_cancel c s); auto].
Qed.

Lemma count_step c s l : count_ok c s -> count_ok c (step c s l).
Proof.
  intros H. destruct (counts_step c s l) as (t & T & E1 & E2 & E3 & E4).
  assert (K : count_ok c t /\ (cctx t = 2 -> cctx s = 2)).
  { destruct T as [->|[C ->]]; [auto|]. split; [apply count_notify; assumption|auto]. }
  destruct K as [(P1 & P2 & P3 & P4 & P5) K]. unfold count_ok. rewrite E1, E2, E3, E4.
  refine (conj P1 (conj P2 (conj P3 (conj P4 _)))).
  intros Z0. destruct (P5 Z0) as [S C]. split; [exact S|].
  destruct (ctx_sticky c s l) as [_ St]. rewrite St; apply K in C; [exact C|rewrite C; discriminate].
Qed.

Lemma count_run c ls : count_ok c (run c ls).
Proof.
  induction ls as [|l ls IH] using rev_ind.
  - unfold count_ok, init; cbn. destruct (srv_prop c); repeat split; intros; try reflexivity; lia.
  - rewrite run_snoc. apply count_step, IH.
Qed.

Lemma causes_run c ls :
  let s := run c ls in
  (hctx s = 0 \/ hctx s = 1 \/ hctx s = 2) /\
  (hctx s = 1 -> In LDeadline ls) /\
  (hctx s = 2 -> In LHClose ls \/ In LHBlackhole ls \/ In LConnFail ls \/ (In LCancel ls /\ all_on c = true)) /\
  (cctx s = 0 \/ cctx s = 1 \/ cctx s = 2) /\
  (cctx s = 1 -> In LDeadline ls) /\ (cctx s = 2 -> In LCancel ls) /\
  (cres s = Some c_ErrCodeTimeout -> In LDeadline ls) /\
  (cres s = Some c_ErrCodeCancelled -> In LCancel ls) /\
  (dl_passed s = true -> In LDeadline ls).
Proof.
  cbv zeta. enough (causes_ok c ls (run c ls)) as ((H0 & H1 & H2) & (C0 & C1 & C2) & (R1 & R2) & D).
  { exact (conj H0 (conj H1 (conj H2 (conj C0 (conj C1 (conj C2 (conj R1 (conj R2 D)))))))). }
  induction ls as [|l ls IH] using rev_ind.
  - unfold causes_ok, hctx_caused, cctx_caused, cres_caused, init; cbn.
    repeat split; intros; try discriminate; auto; lia.
  - rewrite run_snoc. apply causes_step, IH.
Qed.

Lemma complete_run c ls :
  let s := run c ls in
  hstarted s = true -> hctx s = 0 ->
  hctx (run c (ls ++ [LDeadline])) = 1 /\ hctx (run c (ls ++ [LHBlackhole])) = 2 /\
  hctx (run c (ls ++ [LHClose])) = 2 /\ hctx (run c (ls ++ [LConnFail])) = 2.
Proof. cbv zeta. intros A B. rewrite !run_snoc. apply handler_ctx_ends; [apply reach_run|exact A|exact B]. Qed.

Lemma propagates_run c ls l :
  let s := run c ls in
  all_on c = true ->
  hstarted s = true -> hctx s = 0 -> cctx s = 2 -> conn_failed s = false -> caller_waits s l ->
  hctx (run c (ls ++ [l])) = 2 /\ cres (run c (ls ++ [l])) = Some c_ErrCodeCancelled.
Proof. cbv zeta. intros. rewrite run_snoc. apply cancel_reaches_handler; auto using reach_run. Qed.

Lemma no_propagation_run c ls :
  all_on c = false ->
  ~ In LDeadline ls -> ~ In LHClose ls -> ~ In LHBlackhole ls -> ~ In LConnFail ls ->
  hctx (run c ls) = 0.
Proof.
  intros A B1 B2 B3 B4. destruct (causes_run c ls) as [H1 [H2 [H3 _]]].
  destruct H1 as [H|[H|H]]; [exact H| |].
  - exfalso. apply B1, H2, H.
  - exfalso. destruct (H3 H) as [K|[K|[K|[_ K]]]]; [apply B2, K|apply B3, K|apply B4, K|congruence].
Qed.

Lemma sticky_run c ls ls' :
  (hctx (run c ls) <> 0 -> hctx (run c (ls ++ ls')) = hctx (run c ls)) /\
  (cctx (run c ls) <> 0 -> cctx (run c (ls ++ ls')) = cctx (run c ls)).
Proof.
  induction ls' as [|l ls' IH] using rev_ind.
  - rewrite app_nil_r. split; reflexivity.
  - rewrite app_assoc, run_snoc. destruct IH as [I1 I2].
    destruct (ctx_sticky c (run c (ls ++ ls')) l) as [S1 S2]. split; intros H.
    + rewrite S1; [apply I1, H|rewrite I1; exact H].
    + rewrite S2; [apply I2, H|rewrite I2; exact H].
Qed.

Lemma messages_run c ls :
  let s := run c ls in
  0 <= requested s <= cancels_sent s /\ cancels_sent s <= 1 /\
  honored s = (if srv_prop c then requested s else 0) /\
  (0 < cancels_sent s -> send_cancel c = true /\ In LCancel ls).
Proof.
  cbv zeta. destruct (count_run c ls) as [_ [P2 [P3 [P4 P5]]]].
  destruct (causes_run c ls) as [_ [_ [_ [_ [_ [Q _]]]]]].
  split; [exact P3|]. split; [lia|]. split; [exact P4|].
  intros H. destruct (P5 H) as [A B]. split; [exact A|apply Q, B].
Qed.

Lemma caller_error_run c ls l :
  let s := run c ls in
  caller_waits s l ->
  (cctx s = 1 -> cres (run c (ls ++ [l])) = Some c_ErrCodeTimeout) /\
  (cctx s = 2 -> cres (run c (ls ++ [l])) = Some c_ErrCodeCancelled).
Proof. cbv zeta. intros H. rewrite run_snoc. apply caller_error, H. Qed.

Lemma begin_error_run c ls :
  let s := run c ls in
  begun s = false -> cres s = None ->
  (dl_passed s = true -> cres (run c (ls ++ [LBegin])) = Some c_ErrCodeTimeout) /\
  (dl_passed s = false -> cctx s = 2 -> cres (run c (ls ++ [LBegin])) = Some c_ErrCodeCancelled) /\
  (dl_passed s = false -> cctx s = 0 ->
     begun (run c (ls ++ [LBegin])) = true /\ cres (run c (ls ++ [LBegin])) = None).
Proof. cbv zeta. intros A B. rewrite run_snoc. apply begin_error; assumption. Qed.
