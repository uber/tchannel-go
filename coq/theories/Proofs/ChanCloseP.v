(* Proofs about the channel close state machine (Model/ChanClose.v). *)
From Coq Require Import ZArith List Bool Lia Arith.
From Verif Require Import Base.Wrap Base.Wire Gen.GenConsts Model.CloseKernel Model.ChanClose Proofs.CloseKernelP.
Import ListNotations.
Local Open Scope Z_scope.

Ltac cconsts := unfold hClient, hListening, hSC, hIC, hCl, kA, kSC, kIC, kCl, c_ChannelClient, c_ChannelListening,
  c_ChannelStartClose, c_ChannelInboundClosed, c_ChannelClosed, c_connectionActive, c_connectionStartClose,
  c_connectionInboundClosed, c_connectionClosed in *.

Ltac cfields := cbn [chst conns cstates g_closed g_owed lis set_chst set_conns set_closed set_cstate set_lis set_owed add_cstate] in *.

(* case analysis of one thread step: one goal per program counter and branch; [conn_close] is
   unfolded with [ctstep], so the new shared state is [s] under explicit setters *)
Ltac ctstep_inv H :=
  match type of H with ctstep _ ?p _ = Some _ => destruct p end;
  cbn [ctstep] in H; unfold conn_close in H;
  repeat (match type of H with
    | context [if ?c then _ else _] => destruct c eqn:?
    | context [match conns ?s with _ => _ end] => destruct (conns s) eqn:?
    | context [match ?snap with [] => _ | _ :: _ => _ end] => destruct snap eqn:?
    end);
  try discriminate; injection H as <- <-; cfields.

Inductive cstep_spec (s : csys) : clabel -> csys -> Prop :=
| cs_listen : chst (csh s) = hClient -> lis (csh s) = false ->
    cstep_spec s LListen (mkCS (set_chst (set_lis (csh s) true) hListening) (cthr s))
| cs_move : forall c v, (c < length (cstates (csh s)))%nat -> cstate (csh s) c < v -> v <= kCl ->
    cstep_spec s (LConnMove c v) (mkCS (set_cstate (csh s) c v) (cthr s))
| cs_newconn : cstep_spec s LNewConn (mkCS (add_cstate (csh s) kA) (cthr s ++ [PAd1 (length (cstates (csh s)))]))
| cs_callback : forall c, (c < length (cstates (csh s)))%nat ->
    cstep_spec s (LCallback c) (mkCS (set_owed (csh s) (remn c (g_owed (csh s)))) (cthr s ++ [PCb1 c]))
| cs_call : forall l p, (l, p) = (LClose, PCl1) \/ (l, p) = (LConnect, PConn) \/ (l, p) = (LServe, PSrv) \/
                        (l, p) = (LListenServe, PLs1) ->
    cstep_spec s l (mkCS (csh s) (cthr s ++ [p]))
| cs_run : forall tid arg p sh' p', nth_error (cthr s) tid = Some p -> ctstep (csh s) p arg = Some (sh', p') ->
    cstep_spec s (LRunC tid arg) (mkCS sh' (upd (cthr s) tid p')).

Lemma cstep_inv : forall s l s', cstep s l = Some s' -> cstep_spec s l s'.
Proof.
  intros s l s' H. destruct l; cbn [cstep] in H.
  - destruct ((chst (csh s) =? hClient) && negb (lis (csh s))) eqn:E; [|discriminate]. injection H as <-. zprop.
    constructor; assumption.
  - injection H as <-. constructor.
  - destruct ((c <? length (cstates (csh s)))%nat && (cstate (csh s) c <? v) && (v <=? kCl)) eqn:E; [|discriminate].
    injection H as <-. zprop. constructor; auto. apply Nat.ltb_lt. assumption.
  - injection H as <-. apply cs_call. auto.
  - destruct (c <? length (cstates (csh s)))%nat eqn:E; [|discriminate]. injection H as <-.
    constructor. apply Nat.ltb_lt. exact E.
  - injection H as <-. apply cs_call. auto.
  - destruct (nth_error (cthr s) tid) as [p|] eqn:Ep; [|discriminate].
    destruct (ctstep (csh s) p arg) as [[sh' p']|] eqn:Et; [|discriminate].
    injection H as <-. econstructor; eassumption.
  - injection H as <-. apply cs_call. auto.
  - injection H as <-. apply cs_call. auto 6.
Qed.

Lemma in_remn : forall m n l, In m (remn n l) <-> In m l /\ m <> n.
Proof. intros m n l. unfold remn. rewrite filter_In, negb_true_iff, Nat.eqb_neq. tauto. Qed.

Lemma cstate_upd_same : forall s c v, (c < length (cstates s))%nat -> cstate (set_cstate s c v) c = v.
Proof.
  intros s c v H. unfold cstate. cfields. apply nth_error_nth. apply nth_error_upd_same. exact H.
Qed.

Lemma cstate_upd_other : forall s c d v, d <> c -> cstate (set_cstate s c v) d = cstate s d.
Proof.
  intros s c d v H. unfold cstate. cfields.
  destruct (nth_error (cstates s) d) as [x|] eqn:E.
  - rewrite (nth_error_nth _ _ _ E). apply nth_error_nth. rewrite nth_error_upd_other; auto.
  - rewrite (nth_overflow _ _ (proj1 (nth_error_None _ _) E)).
    apply nth_overflow. rewrite length_upd. apply nth_error_None. exact E.
Qed.

Lemma cstate_snoc_old : forall l x c, (c < length l)%nat -> nth c (l ++ [x]) kCl = nth c l kCl.
Proof. intros. apply app_nth1. exact H. Qed.

Lemma cstate_lt : forall s c, cstate s c <> kCl -> (c < length (cstates s))%nat.
Proof.
  intros s c H. destruct (lt_dec c (length (cstates s))) as [L|L]; [exact L|].
  destruct H. apply nth_overflow. lia.
Qed.

Lemma minstate_le : forall s c, In c (conns s) -> minstate s <= cstate s c.
Proof.
  intros s c. unfold minstate. induction (conns s) as [|d l IH]; intros H; [destruct H|].
  cbn [fold_right]. destruct H as [->|H]; [lia|]. specialize (IH H). lia.
Qed.

Lemma minstate_top : forall s, minstate s <= kCl.
Proof. intros s. unfold minstate. induction (conns s) as [|d l IH]; cbn [fold_right]; lia. Qed.

Lemma minstate_glb : forall s m, m <= kCl -> (forall c, In c (conns s) -> m <= cstate s c) -> m <= minstate s.
Proof.
  intros s m Hm. unfold minstate. induction (conns s) as [|d l IH]; intros H; cbn [fold_right]; [exact Hm|].
  assert (m <= cstate s d) by (apply H; left; reflexivity).
  assert (m <= fold_right (fun c m0 => Z.min (cstate s c) m0) kCl l) by (apply IH; intros; apply H; right; assumption).
  lia.
Qed.

(* ---------- base invariant ---------- *)
Definition I_ch (s : cshared) : Prop :=
  1 <= chst s <= 5 /\
  (forall c, In c (conns s) -> (c < length (cstates s))%nat) /\
  (forall c, (c < length (cstates s))%nat -> 1 <= cstate s c <= 4) /\
  (hIC <= chst s -> forall c, In c (conns s) -> kIC <= cstate s c) /\
  (chst s = hCl -> forall c, In c (conns s) -> cstate s c = kCl).

Definition A_ch (s : cshared) (p : cpc) : Prop :=
  match p with
  | PCb2 c => kCl <= cstate s c /\ (c < length (cstates s))%nat
  | PCb4 c chState | PCb4b c chState _ => (chState = hSC \/ chState = hIC) /\ chState <= chst s
  | PCb5 c _ u => (u = hIC \/ u = hCl) /\ hSC <= chst s /\
                (forall d, In d (conns s) -> (if u =? hCl then kCl else kIC) <= cstate s d)
  | PCb1 c | PAd1 c => (c < length (cstates s))%nat
  | _ => True
  end.

Definition G_ch (s s' : cshared) : Prop :=
  chst s <= chst s' /\
  (length (cstates s) <= length (cstates s'))%nat /\
  (forall c, (c < length (cstates s))%nat -> cstate s c <= cstate s' c) /\
  (hSC <= chst s -> forall c, In c (conns s') -> In c (conns s)).

Lemma G_ch_refl : forall s, G_ch s s.
Proof. intros s. unfold G_ch. repeat split; intros; auto; lia. Qed.

Lemma A_ch_stable : forall s s' p, G_ch s s' -> I_ch s -> A_ch s p -> A_ch s' p.
Proof.
  intros s s' p (Hc & Hl & Hs & Hsub) (Hr & Hin & Hrng & _) HA.
  destruct p; cbn [A_ch] in *; auto; try lia.
  - destruct HA as [HA Hlt]. split; [|lia]. specialize (Hs c Hlt). lia.
  - destruct HA as (H1 & H2 & H3). split; [exact H1|]. split; [lia|].
    intros d Hd. specialize (Hsub H2 d Hd). specialize (H3 d Hsub). specialize (Hs d (Hin d Hsub)). lia.
Qed.

(* The invariant and the guarantee only look at the channel state, the tracked connections and
   the connection states: a step that leaves the last two alone and raises the first to [v]. *)
Lemma IG_chst : forall s s' v, chst s' = v -> conns s' = conns s -> cstates s' = cstates s ->
  I_ch s -> chst s <= v <= 5 ->
  (hIC <= v -> forall c, In c (conns s) -> kIC <= cstate s c) ->
  (v = hCl -> forall c, In c (conns s) -> cstate s c = kCl) ->
  G_ch s s' /\ I_ch s'.
Proof.
  intros s s' v E1 E2 E3 (Hr & Hin & Hrng & Hd1 & Hd2) Hv H1 H2. unfold G_ch, I_ch, cstate in *. rewrite E1, E2, E3.
  repeat split; intros; auto; try lia; apply Hrng; auto.
Qed.

Lemma IG_frame : forall s s', chst s' = chst s -> conns s' = conns s -> cstates s' = cstates s ->
  I_ch s -> G_ch s s' /\ I_ch s'.
Proof.
  intros s s' E1 E2 E3 HI. apply (IG_chst s s' (chst s)); auto; try apply HI. destruct HI as ((? & ?) & _). lia.
Qed.

Lemma IG_set_conns_sub : forall s l, I_ch s -> (forall c, In c l -> In c (conns s)) ->
  G_ch s (set_conns s l) /\ I_ch (set_conns s l).
Proof.
  intros s l (Hr & Hin & Hrng & Hd1 & Hd2) Hsub. unfold G_ch, I_ch, cstate in *. cfields.
  repeat split; intros; auto; try lia; apply Hrng; auto.
Qed.

Lemma IG_add_conn : forall s c, I_ch s -> chst s < hSC -> (c < length (cstates s))%nat ->
  G_ch s (set_conns s (conns s ++ [c])) /\ I_ch (set_conns s (conns s ++ [c])).
Proof.
  intros s c (Hr & Hin & Hrng & Hd1 & Hd2) Hlt Hc. unfold G_ch, I_ch, cstate in *. cfields. cconsts.
  assert (Hin' : forall d, In d (conns s ++ [c]) -> (d < length (cstates s))%nat).
  { intros d Hd. apply in_app_or in Hd. destruct Hd as [Hd|[<-|[]]]; auto. }
  repeat split; intros; auto; try lia; apply Hrng; auto.
Qed.

Lemma IG_newconn : forall s, I_ch s -> G_ch s (add_cstate s kA) /\ I_ch (add_cstate s kA).
Proof.
  intros s (Hr & Hin & Hrng & Hd1 & Hd2).
  assert (Hold : forall c, (c < length (cstates s))%nat -> cstate (add_cstate s kA) c = cstate s c).
  { intros c Hc. unfold cstate. cfields. apply app_nth1. exact Hc. }
  assert (Hnew : cstate (add_cstate s kA) (length (cstates s)) = kA).
  { unfold cstate. cfields. rewrite app_nth2, Nat.sub_diag by lia. reflexivity. }
  unfold G_ch, I_ch. cfields. rewrite app_length. cbn [length]. split.
  - repeat split; auto; try lia. intros c Hc. rewrite Hold by exact Hc. lia.
  - split; [exact Hr|]. split; [intros c Hc; specialize (Hin c Hc); lia|]. split; [|split].
    + intros c Hc. destruct (Nat.eq_dec c (length (cstates s))) as [->|Hne]; [rewrite Hnew; cconsts; lia|].
      rewrite Hold by lia. apply Hrng. lia.
    + intros Hx c Hc. rewrite Hold by auto. auto.
    + intros Hx c Hc. rewrite Hold by auto. auto.
Qed.

Lemma IG_connmove : forall s c v, I_ch s -> (c < length (cstates s))%nat -> cstate s c < v -> v <= kCl ->
  G_ch s (set_cstate s c v) /\ I_ch (set_cstate s c v).
Proof.
  intros s c v (Hr & Hin & Hrng & Hd1 & Hd2) Hc Hlt Hv.
  assert (Hcs : forall d, cstate (set_cstate s c v) d = if Nat.eqb d c then v else cstate s d).
  { intros d. destruct (Nat.eqb_spec d c) as [->|Ed]; [apply cstate_upd_same; exact Hc|apply cstate_upd_other; exact Ed]. }
  pose proof (Hrng c Hc) as Hrc. unfold G_ch, I_ch. cbn [chst conns cstates set_cstate]. rewrite length_upd.
  fold (set_cstate s c v). split.
  - repeat split; auto; try lia. intros d Hd. rewrite Hcs. destruct (Nat.eqb_spec d c) as [->|_]; lia.
  - split; [exact Hr|]. split; [exact Hin|]. split; [|split].
    + intros d Hd. rewrite Hcs. destruct (Nat.eqb_spec d c) as [->|_]; [cconsts; lia|apply Hrng; exact Hd].
    + intros Hx d Hd. rewrite Hcs. specialize (Hd1 Hx d Hd). destruct (Nat.eqb_spec d c) as [->|_]; [lia|exact Hd1].
    + intros Hx d Hd. rewrite Hcs. specialize (Hd2 Hx d Hd). destruct (Nat.eqb_spec d c) as [->|_]; [cconsts; lia|exact Hd2].
Qed.

Lemma IG_close : forall s c, I_ch s -> (cstate s c =? kA) = true ->
  G_ch s (set_cstate s c kSC) /\ I_ch (set_cstate s c kSC).
Proof.
  intros s c HI E. apply Z.eqb_eq in E. apply IG_connmove; [exact HI| |rewrite E|]; try (cconsts; lia).
  apply cstate_lt. rewrite E. cconsts. lia.
Qed.

Lemma update_to_cases : forall m chState,
  let u := update_to m chState in
  (u = hCl /\ kCl <= m) \/ (u = hIC /\ kIC <= m /\ chState = hSC) \/ u = 0.
Proof.
  intros m chState. unfold update_to. destruct (kCl <=? m) eqn:E1; zprop; [left; auto|].
  destruct ((kIC <=? m) && (chState =? hSC)) eqn:E2; zprop; [right; left; auto|right; right; reflexivity].
Qed.

Lemma ch_tstep : forall s p arg s' p', I_ch s -> A_ch s p -> ctstep s p arg = Some (s', p') ->
  G_ch s s' /\ I_ch s' /\ A_ch s' p'.
Proof.
  intros s p arg s' p' HI HA H. pose proof HI as (Hr & Hin & Hrng & Hd1 & Hd2).
  ctstep_inv H; cbn [A_ch] in *.
  (* a step changes nothing, or has one of five effects: one line for each *)
  all: try (split; [apply G_ch_refl|split; [exact HI|]]; zprop; cconsts; auto; try tauto; try lia).
  all: try match goal with |- ?G /\ ?I /\ True => cut (G /\ I); [tauto|] end.
  all: try (apply IG_frame; [reflexivity|reflexivity|reflexivity|exact HI]).
  all: try (apply IG_close; assumption).
  all: try (apply IG_set_conns_sub; [exact HI|intros d Hd; apply in_remn in Hd; tauto]).
  all: try (apply IG_add_conn; [exact HI|zprop; cconsts; lia|exact HA]).
  all: try (eapply IG_chst; [reflexivity|reflexivity|reflexivity|exact HI|..]; cfields; zprop; cconsts; try lia;
            try (intros _ c Hc; rewrite Heql in Hc; destruct Hc; fail)).
  (* PCb4b -> PCb5: the scanned minimum bounds every tracked connection *)
  1: { destruct (update_to_cases arg chState) as [[Hu Hm]|[[Hu [Hm Hc]]|Hu]]; cbv zeta in Hu; cconsts; rewrite Hu in *;
         [| |discriminate]; (split; [auto|split; [lia|]]);
         intros d Hd; pose proof (minstate_le s d Hd); cbn [Z.eqb Pos.eqb]; lia. }
  (* PCb5: the update is applied *)
  all: destruct HA as (HA1 & HA2 & HA3); intros Hx d Hd; specialize (HA3 d Hd); pose proof (Hrng d (Hin d Hd));
       destruct HA1 as [->| ->]; cbn [Z.eqb Pos.eqb] in HA3; lia.
Qed.

Definition ch_Inv (s : csys) : Prop :=
  I_ch (csh s) /\ forall n p, nth_error (cthr s) n = Some p -> A_ch (csh s) p.

Lemma ch_step : forall s l s', ch_Inv s -> cstep s l = Some s' -> G_ch (csh s) (csh s') /\ ch_Inv s'.
Proof.
  intros s l s' [HI HA] Hs.
  assert (Keep : forall sh' thr', G_ch (csh s) sh' /\ I_ch sh' ->
            (forall n q, nth_error thr' n = Some q -> nth_error (cthr s) n = Some q \/ A_ch sh' q) ->
            G_ch (csh s) sh' /\ ch_Inv (mkCS sh' thr')).
  { intros sh' thr' [HG HI'] Hthr. split; [exact HG|]. split; [exact HI'|]. cbn [csh cthr].
    intros n q Hn. destruct (Hthr n q Hn) as [Ho|Hq]; [|exact Hq]. eapply A_ch_stable; eauto. }
  assert (Snoc : forall sh' p, A_ch sh' p -> forall n q, nth_error (cthr s ++ [p]) n = Some q ->
            nth_error (cthr s) n = Some q \/ A_ch sh' q).
  { intros sh' p Hp n q Hn. apply nth_error_snoc in Hn. destruct Hn as [[_ Hn]|[_ ->]]; auto. }
  destruct (cstep_inv _ _ _ Hs) as [Hc Hl|c v Hc Hlt Hv| |c Hc|l p Hp|tid arg p sh' p' Ep Et]; apply Keep; auto.
  - eapply IG_chst; try reflexivity; auto; cfields; rewrite ?Hc; cconsts; lia.
  - apply IG_connmove; assumption.
  - apply IG_newconn; exact HI.
  - apply Snoc. cbn [A_ch]. cfields. rewrite app_length. cbn [length]. lia.
  - apply IG_frame; auto.
  - apply Snoc. exact Hc.
  - split; [apply G_ch_refl|exact HI].
  - apply Snoc. destruct Hp as [E|[E|[E|E]]]; injection E as _ ->; exact I.
  - destruct (ch_tstep _ _ _ _ _ HI (HA _ _ Ep) Et) as (HG & HI' & _). auto.
  - intros n q Hn. apply nth_error_upd in Hn. destruct Hn as [[_ ->]|[_ Hn]]; [right|left; exact Hn].
    apply (ch_tstep _ _ _ _ _ HI (HA _ _ Ep) Et).
Qed.

Lemma ch_inv : forall s, Reach cstep cinit s -> ch_Inv s.
Proof.
  apply reach_ind.
  - split.
    + unfold I_ch. cbn. cconsts. repeat split; try lia; intros; try lia; try contradiction.
    + intros [|n] p H; discriminate.
  - intros s l s' _ IH Hs. eapply ch_step; eauto.
Qed.

(* MONOTONE.  Along every run the channel state never decreases and stays within Client .. Closed. *)
Theorem chan_monotone : forall ls1 ls2 s1 s2,
  run cstep cinit ls1 = Some s1 -> run cstep s1 ls2 = Some s2 ->
  chst (csh s1) <= chst (csh s2) /\ hClient <= chst (csh s1) /\ chst (csh s2) <= hCl.
Proof.
  intros ls1 ls2 s1 s2 H1 H2.
  pose proof (ch_inv s1 (ex_intro _ ls1 H1)) as Ha.
  assert (R : ch_Inv s1 -> chst (csh s1) <= chst (csh s2) /\ ch_Inv s2).
  { apply (run_rel cstep (fun a b => ch_Inv a -> chst (csh a) <= chst (csh b) /\ ch_Inv b)) with (ls := ls2).
    - intros; split; [lia|assumption].
    - intros a b c Hab Hbc Hoa. destruct (Hab Hoa) as [? Hb]. destruct (Hbc Hb) as [? Hc]. split; [lia|exact Hc].
    - intros a l b Hs Hoa. destruct (ch_step a l b Hoa Hs) as [(Hg & _) Hb]. auto.
    - exact H2. }
  destruct (R Ha) as [Hle [(Hr2 & _) _]]. destruct Ha as [(Hr1 & _) _]. cconsts. lia.
Qed.

(* DRAIN (channel level).  In every reachable state: a channel at or beyond InboundClosed tracks
   only connections at or beyond InboundClosed, and a Closed channel tracks only Closed
   connections -- the channel never reports more progress than its slowest connection. *)
Theorem chan_drain : forall s, Reach cstep cinit s ->
  (hIC <= chst (csh s) -> forall c, In c (conns (csh s)) -> kIC <= cstate (csh s) c) /\
  (chst (csh s) = hCl -> forall c, In c (conns (csh s)) -> cstate (csh s) c = kCl).
Proof. intros s Hr. destruct (ch_inv s Hr) as [(_ & _ & _ & H1 & H2) _]. split; assumption. Qed.

(* ---------- closed is signalled exactly once ---------- *)
Definition cowing (p : cpc) : bool :=
  match p with PCl2 _ true | PCl3 | PCb6 => true | _ => false end.
Definition cowed (s : csys) : Z := Z.of_nat (count_if cowing (cthr s)).

(* close(ch.closed) is owed exactly by the thread that took the channel to Closed *)
Lemma csignal_tstep : forall s p arg s' p', I_ch s -> A_ch s p -> ctstep s p arg = Some (s', p') ->
  g_closed s <= g_closed s' /\
  g_closed s' + b2z (cowing p') + b2z (chst s =? hCl) = g_closed s + b2z (cowing p) + b2z (chst s' =? hCl).
Proof.
  intros s p arg s' p' (Hr & _) HA H.
  ctstep_inv H; cbn [A_ch cowing b2z] in *; (split; [lia|]);
    try (destruct channelClosed); cbn [cowing b2z];
    repeat match goal with |- context [?a =? ?b] => destruct (Z.eqb_spec a b) end; zprop; cconsts; cbn [cowing b2z]; try lia.
  all: destruct HA as ([->| ->] & _); lia.
Qed.

Lemma csignal_inv : forall s, Reach cstep cinit s ->
  0 <= g_closed (csh s) /\ g_closed (csh s) + cowed s = b2z (chst (csh s) =? hCl).
Proof.
  apply reach_ind; [split; [cbn; lia|reflexivity]|].
  intros s l s' Hr [IH0 IH] Hs. destruct (ch_inv s Hr) as [HI HA]. unfold cowed in *.
  destruct (cstep_inv _ _ _ Hs) as [Hc Hl|c v Hc Hlt Hv| |c Hc|l p Hp|tid arg p sh' p' Ep Et]; cbn [csh cthr]; cfields;
    rewrite ?count_if_snoc; cbn [cowing]; rewrite ?Nat.add_0_r; auto.
  - rewrite Hc in IH. auto.
  - replace (cowing p) with false by (destruct Hp as [E|[E|[E|E]]]; injection E as _ ->; reflexivity).
    rewrite Nat.add_0_r. auto.
  - destruct (csignal_tstep _ _ _ _ _ HI (HA _ _ Ep) Et) as [Hm Hd].
    pose proof (count_if_upd cowing (cthr s) tid p p' Ep) as Hc.
    unfold b2z in *. destruct (cowing p), (cowing p'); lia.
Qed.

(* SIGNAL ONCE (channel).  ch.closed is closed at most once; never while the state is not
   Closed; exactly once when the state is Closed and no thread is between its transition to
   Closed and its onClosed(); at most one thread ever owes the close (no double close panic). *)
Theorem chan_signal_once : forall s, Reach cstep cinit s ->
  0 <= g_closed (csh s) <= 1 /\
  (chst (csh s) <> hCl -> g_closed (csh s) = 0 /\ cowed s = 0) /\
  (chst (csh s) = hCl -> g_closed (csh s) + cowed s = 1) /\
  (chst (csh s) = hCl -> (forall n p, nth_error (cthr s) n = Some p -> cowing p = false) -> g_closed (csh s) = 1).
Proof.
  intros s Hr. destruct (csignal_inv s Hr) as [Hc H].
  destruct (once_from_balance _ (cowed s) _ Hc ltac:(unfold cowed; lia) H) as (B1 & B2 & B3 & B4).
  split; [exact B1|]. split; [intros E; apply B2, Z.eqb_neq, E|]. split; [intros E; apply B3, Z.eqb_eq, E|].
  intros E Hall. apply B4; [apply Z.eqb_eq, E|]. unfold cowed. rewrite (count_if_zero _ _ Hall). reflexivity.
Qed.

(* ---------- reaches closed (channel) ---------- *)
(* every tracked connection that is Closed has a pending removal: its callback is owed or running *)
Definition K_inv (s : csys) : Prop :=
  forall c, In c (conns (csh s)) -> kCl <= cstate (csh s) c ->
    In c (g_owed (csh s)) \/ exists n, nth_error (cthr s) n = Some (PCb1 c) \/ nth_error (cthr s) n = Some (PCb2 c).

Lemma ctstep_frame : forall s p arg s' p', I_ch s -> A_ch s p -> ctstep s p arg = Some (s', p') ->
  (forall c, In c (conns s') -> In c (conns s) \/ (p = PAd1 c /\ cstate s' c = kA)) /\
  (forall c, (c < length (cstates s))%nat -> kCl <= cstate s' c -> kCl <= cstate s c) /\
  (forall c, In c (g_owed s) -> In c (g_owed s')) /\
  (forall c, p = PCb2 c -> ~ In c (conns s')).
Proof.
  intros s p arg s' p' HI HA H. pose proof HI as (Hr & Hin & Hrng & _).
  assert (Hcl : forall d c, (cstate s d =? kA) = true -> (c < length (cstates s))%nat ->
            kCl <= cstate (set_cstate s d kSC) c -> kCl <= cstate s c).
  { intros d c E Hc Hk. destruct (Nat.eq_dec c d) as [->|Hn].
    - rewrite cstate_upd_same in Hk by exact Hc. cconsts. lia.
    - rewrite cstate_upd_other in Hk by exact Hn. exact Hk. }
  ctstep_inv H; cbn [A_ch] in *; (split; [|split; [|split]]); auto using in_or_app; try (intros ? ?; discriminate); eauto.
  all: try (intros d Hd; apply in_remn in Hd; tauto).
  all: try (intros d Hd; left; rewrite <- Heql; exact Hd).
  - intros d Hd Hx. injection Hd as <-. apply in_remn in Hx. tauto.
  - intros d Hd. apply in_app_or in Hd. destruct Hd as [Hd|[<-|[]]]; [left; exact Hd|right]. zprop. auto.
Qed.

Lemma K_reach : forall s, Reach cstep cinit s -> K_inv s.
Proof.
  apply reach_ind; [intros c []|].
  intros s l s' Hr IH Hs. destruct (ch_inv s Hr) as [HI HA]. pose proof HI as (Hrg & Hin & Hrng & _).
  (* a step that leaves the tracked connections, their states and the owed callbacks alone *)
  assert (Hold : forall sh' thr', conns sh' = conns (csh s) -> g_owed sh' = g_owed (csh s) ->
            (forall c, In c (conns (csh s)) -> cstate sh' c = cstate (csh s) c) ->
            (forall n q, nth_error (cthr s) n = Some q -> nth_error thr' n = Some q) ->
            K_inv (mkCS sh' thr')).
  { intros sh' thr' E1 E2 E3 E4 c Hc Hk. cbn [csh cthr] in *. rewrite E1 in Hc. rewrite E3 in Hk by exact Hc.
    destruct (IH c Hc Hk) as [Ho|[n Hn]]; [left; rewrite E2; exact Ho|right; exists n].
    destruct Hn as [Hn|Hn]; [left|right]; apply E4; exact Hn. }
  destruct (cstep_inv _ _ _ Hs) as [Hc Hl|c v Hc Hlt Hv| |c Hc|l p Hp|tid arg p sh' p' Ep Et];
    try (apply Hold; auto using nth_error_snoc_old; fail).
  - (* the moved connection owes its callback *)
    intros d Hd Hk. cbn [csh cthr] in *. cfields. destruct (Nat.eq_dec d c) as [->|Hne].
    + left. apply in_or_app. right. left. reflexivity.
    + fold (set_cstate (csh s) c v) in Hk. rewrite cstate_upd_other in Hk by exact Hne.
      destruct (IH d Hd Hk) as [Ho|Hn]; [left; apply in_or_app; left; exact Ho|right; exact Hn].
  - apply Hold; auto using nth_error_snoc_old. intros c Hc. unfold cstate. cfields. apply app_nth1. auto.
  - (* the callback that is no longer owed has started *)
    intros d Hd Hk. cbn [csh cthr] in *. cfields. change (cstate _ d) with (cstate (csh s) d) in Hk.
    destruct (Nat.eq_dec d c) as [->|Hne].
    + right. exists (length (cthr s)). left. rewrite nth_error_app2 by lia. rewrite Nat.sub_diag. reflexivity.
    + destruct (IH d Hd Hk) as [Ho|[n Hn]].
      * left. apply in_remn. auto.
      * right. exists n. destruct Hn as [Hn|Hn]; [left|right]; apply nth_error_snoc_old; exact Hn.
  - destruct (ctstep_frame _ _ _ _ _ HI (HA _ _ Ep) Et) as (F1 & F2 & F3 & F4).
    pose proof (nth_error_lt _ _ _ Ep) as Hlt.
    intros c Hc Hk. cbn [csh cthr] in *.
    destruct (F1 c Hc) as [Hc0|[_ Hka]]; [|cconsts; lia].
    specialize (F2 c (Hin c Hc0) Hk).
    destruct (IH c Hc0 F2) as [Ho|[n Hn]]; [left; apply F3; exact Ho|].
    destruct (Nat.eq_dec n tid) as [->|Hne].
    + (* the stepping thread was the pending removal *)
      rewrite Ep in Hn. destruct Hn as [Hn|Hn]; injection Hn as ->.
      * cbn [ctstep] in Et. pose proof (Hrng c (Hin c Hc0)) as Hr4.
        assert (Ec : (cstate (csh s) c =? kCl) = true) by (apply Z.eqb_eq; cconsts; lia).
        rewrite Ec in Et. injection Et as <- <-. right. exists tid. right. apply nth_error_upd_same. exact Hlt.
      * exfalso. exact (F4 c eq_refl Hc).
    + right. exists n. rewrite !nth_error_upd_other by exact Hne. exact Hn.
Qed.

Definition chopeful (p : cpc) : bool :=
  match p with
  | PCb1 _ | PCb2 _ | PCb3 _ | PCb4 _ _ => true
  | PCb4b _ _ lo => kCl <=? lo
  | PCb5 _ _ u => u =? hCl
  | _ => false
  end.

Definition open_conn (s : cshared) : Prop := exists c, In c (conns s) /\ cstate s c < kCl.

Definition Lc_inv (s : csys) : Prop :=
  (chst (csh s) = hSC \/ chst (csh s) = hIC) ->
  open_conn (csh s) \/ g_owed (csh s) <> [] \/ exists n p, nth_error (cthr s) n = Some p /\ chopeful p = true.

Lemma minstate_witness : forall s, minstate s < kCl -> open_conn s.
Proof.
  intros s. unfold minstate, open_conn. induction (conns s) as [|d l IH]; cbn [fold_right]; [lia|].
  intros H. destruct (Z_lt_ge_dec (cstate s d) kCl) as [L|L].
  - exists d. split; [left; reflexivity|exact L].
  - destruct IH as [c [Hc Hl]]; [lia|]. exists c. split; [right; exact Hc|exact Hl].
Qed.

Lemma open_tstep : forall s p arg s' p', I_ch s -> A_ch s p -> ctstep s p arg = Some (s', p') ->
  open_conn s -> open_conn s'.
Proof.
  intros s p arg s' p' HI HA H [c [Hc Hl]]. pose proof HI as (Hr & Hin & Hrng & _).
  assert (Hcc : forall d, (cstate s d =? kA) = true -> cstate (set_cstate s d kSC) c < kCl).
  { intros d E. zprop. destruct (Nat.eq_dec c d) as [->|Hne].
    - rewrite cstate_upd_same by (apply Hin; exact Hc). cconsts. lia.
    - rewrite cstate_upd_other by exact Hne. exact Hl. }
  ctstep_inv H; cbn [A_ch] in *; try (exists c; split; [cfields; first [exact Hc|rewrite Heql; exact Hc]|auto]; fail).
  - exists c. split; [|exact Hl]. apply in_remn. split; [exact Hc|]. intros ->. lia.
  - exists c. split; [apply in_or_app; left; exact Hc|exact Hl].
Qed.

Lemma hope_tstep : forall s p arg s' p', I_ch s -> A_ch s p -> ctstep s p arg = Some (s', p') ->
  chopeful p = true -> (chst s' = hSC \/ chst s' = hIC) -> chopeful p' = true \/ open_conn s'.
Proof.
  intros s p arg s' p' (Hr & _) HA H Hh Hst.
  ctstep_inv H; cbn [chopeful A_ch] in *; try discriminate; try (left; reflexivity); zprop.
  - exfalso. cconsts. lia.
  - destruct (Z_lt_ge_dec (minstate s) kCl) as [L|L].
    + right. apply minstate_witness. exact L.
    + left. apply Z.leb_le. lia.
  - left. unfold update_to in *. assert (E : (kCl <=? arg) = true) by (apply Z.leb_le; lia). rewrite E. reflexivity.
  - exfalso. unfold update_to in *. assert (E : (kCl <=? arg) = true) by (apply Z.leb_le; lia). rewrite E in *. cconsts. lia.
  - exfalso. cconsts. lia.
  - exfalso. cconsts. lia.
  - exfalso. cconsts. lia.
Qed.

(* the only step that takes the channel into StartClose / InboundClosed from outside is the
   locked region of Close on a channel that tracks some connection *)
Lemma prem_tstep : forall s p arg s' p', I_ch s -> A_ch s p -> ctstep s p arg = Some (s', p') ->
  ~ (chst s = hSC \/ chst s = hIC) -> (chst s' = hSC \/ chst s' = hIC) ->
  p = PCl1 /\ conns s <> [] /\ conns s' = conns s /\ g_owed s' = g_owed s /\ cstates s' = cstates s.
Proof.
  intros s p arg s' p' (Hr & _) HA H Hn Hst.
  ctstep_inv H; cbn [A_ch] in *; zprop; try (exfalso; apply Hn; exact Hst); try (exfalso; cconsts; lia).
  repeat split; auto. discriminate.
Qed.

Lemma Lc_reach : forall s, Reach cstep cinit s -> Lc_inv s.
Proof.
  apply reach_ind.
  - intros [H|H]; cbn in H; cconsts; discriminate.
  - intros s l s' Hr IH Hs Hst. destruct (ch_inv s Hr) as [HI HA]. pose proof (K_reach s Hr) as HK.
    pose proof HI as (Hrg & Hin & Hrng & _).
    (* adding a thread keeps every witness *)
    assert (Hkeep : forall p, (chst (csh s) = hSC \/ chst (csh s) = hIC) ->
              (open_conn (csh s) \/ g_owed (csh s) <> [] \/
               exists n q, nth_error (cthr s ++ [p]) n = Some q /\ chopeful q = true)).
    { intros p Hp. destruct (IH Hp) as [H|[H|[n [q [Hn Hq]]]]]; auto.
      right. right. exists n, q. split; [apply nth_error_snoc_old; exact Hn|exact Hq]. }
    destruct (cstep_inv _ _ _ Hs) as [Hc Hl|c v Hc Hlt Hv| |c Hc|l p Hp|tid arg p sh' p' Ep Et]; cbn [csh cthr] in *; cfields.
    + cconsts. lia.
    + right. left. intros Hx. apply app_eq_nil in Hx. destruct Hx as [_ Hx]. discriminate.
    + destruct (Hkeep (PAd1 (length (cstates (csh s)))) Hst) as [[c [Hc Hl]]|[H|H]]; auto.
      left. exists c. split; [exact Hc|]. unfold cstate in *. cfields. rewrite app_nth1 by (apply Hin; exact Hc). exact Hl.
    + right. right. exists (length (cthr s)), (PCb1 c).
      split; [rewrite nth_error_app2 by lia; rewrite Nat.sub_diag; reflexivity|reflexivity].
    + apply Hkeep. exact Hst.
    + pose proof (nth_error_lt _ _ _ Ep) as Hlt.
      destruct (ctstep_frame _ _ _ _ _ HI (HA _ _ Ep) Et) as (F1 & F2 & F3 & F4).
      assert (Howed : g_owed (csh s) <> [] -> g_owed sh' <> []).
      { intros Hne Hx. destruct (g_owed (csh s)) as [|x l] eqn:E; [congruence|].
        specialize (F3 x (or_introl eq_refl)). rewrite Hx in F3. destruct F3. }
      assert (Hp : (chst (csh s) = hSC \/ chst (csh s) = hIC) \/ ~ (chst (csh s) = hSC \/ chst (csh s) = hIC))
        by (cconsts; lia).
      destruct Hp as [Hp|Hp].
      * destruct (IH Hp) as [Ho|[Ho|[n [q [Hn Hq]]]]].
        -- left. eapply open_tstep; eauto.
        -- right. left. auto.
        -- destruct (Nat.eq_dec n tid) as [->|Hne].
           ++ rewrite Ep in Hn. injection Hn as <-.
              destruct (hope_tstep _ _ _ _ _ HI (HA _ _ Ep) Et Hq Hst) as [Hh|Hh]; [|left; exact Hh].
              right. right. exists tid, p'. split; [apply nth_error_upd_same; exact Hlt|exact Hh].
           ++ right. right. exists n, q. split; [rewrite nth_error_upd_other by exact Hne; exact Hn|exact Hq].
      * (* Close takes effect: a tracked connection is open, or its removal is pending *)
        destruct (prem_tstep _ _ _ _ _ HI (HA _ _ Ep) Et Hp Hst) as (-> & Hne & Ec & Eo & Es).
        destruct (conns (csh s)) as [|c l] eqn:Econ; [congruence|].
        destruct (Z_lt_ge_dec (cstate (csh s) c) kCl) as [L|L].
        -- left. exists c. split; [rewrite Ec; left; reflexivity|]. unfold cstate in *. rewrite Es. exact L.
        -- assert (Hc : In c (conns (csh s))) by (rewrite Econ; left; reflexivity).
           destruct (HK c Hc ltac:(lia)) as [Ho|[n Hn]].
           ++ right. left. rewrite Eo. intros Hx. rewrite Hx in Ho. destruct Ho.
           ++ right. right. assert (Hne' : n <> tid).
              { intros ->. rewrite Ep in Hn. destruct Hn as [Hn|Hn]; discriminate. }
              destruct Hn as [Hn|Hn]; [exists n, (PCb1 c)|exists n, (PCb2 c)];
                (split; [rewrite nth_error_upd_other by exact Hne'; exact Hn|reflexivity]).
Qed.

(* REACHES CLOSED (channel).  In every reachable state where Close has taken effect (the state is
   at or beyond StartClose), every tracked connection is Closed, no connection owes its state
   callback and every thread has run to completion, the channel is Closed and has signalled it
   exactly once. *)
Theorem chan_reaches_closed : forall s, Reach cstep cinit s ->
  hSC <= chst (csh s) ->
  (forall c, In c (conns (csh s)) -> cstate (csh s) c = kCl) ->
  g_owed (csh s) = [] ->
  (forall n p, nth_error (cthr s) n = Some p -> exists o, p = CDone o) ->
  chst (csh s) = hCl /\ g_closed (csh s) = 1.
Proof.
  intros s Hr Hge Hall Howed Hdone.
  destruct (ch_inv s Hr) as [(Hrg & _) _]. pose proof (Lc_reach s Hr) as HL.
  assert (Hcl : chst (csh s) = hCl).
  { cconsts. destruct (Z.eq_dec (chst (csh s)) 5) as [E|E]; [exact E|exfalso].
    assert (Hst : chst (csh s) = 3 \/ chst (csh s) = 4) by lia.
    destruct (HL Hst) as [[c [Hc Hl]]|[Ho|[n [p [Hn Hp]]]]].
    - rewrite (Hall c Hc) in Hl. cconsts. lia.
    - congruence.
    - destruct (Hdone n p Hn) as [o ->]. discriminate. }
  split; [exact Hcl|].
  destruct (chan_signal_once s Hr) as (_ & _ & _ & H1). apply H1; [exact Hcl|].
  intros n p Hn. destruct (Hdone n p Hn) as [o ->]. reflexivity.
Qed.

(* New connections are refused locally once Close has taken effect: Connect's state test and
   addConnection's state test both fail without touching the channel. *)
Theorem chan_connect_local : forall s arg, hSC <= chst s ->
  ctstep s PConn arg = Some (s, CDone oConnErr) /\
  (forall c, ctstep s (PAd1 c) arg = Some (s, PAd2 c)).
Proof.
  intros s arg H. cbn [ctstep].
  assert (E : (chst s =? hClient) || (chst s =? hListening) = false).
  { apply orb_false_iff. split; apply Z.eqb_neq; cconsts; lia. }
  rewrite E. split; [reflexivity|]. intros c. destruct (negb (cstate s c =? kA)); reflexivity.
Qed.
