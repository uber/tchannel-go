(* Proofs about the connection close state machine (Model/ConnClose.v). *)
From Coq Require Import ZArith List Bool Lia Arith.
From Verif Require Import Base.Wrap Base.Wire Gen.GenConsts Model.CloseKernel Model.ConnClose Proofs.CloseKernelP.
Import ListNotations.
Local Open Scope Z_scope.

Ltac consts := unfold sA, sSC, sIC, sCl, eDeclined, eProtocol, c_connectionActive, c_connectionStartClose,
  c_connectionInboundClosed, c_connectionClosed, c_ErrCodeDeclined, c_ErrCodeProtocol in *.

Ltac fields := cbn [st inb inb_exp inb_shut outb outb_shut next_id has_relay pending stopped g_stop_closes
  g_replies g_live g_cbs set_st set_inb set_inb_exp set_inb_shut set_outb set_outb_shut set_next_id set_pending
  set_stopped set_stop_closes set_replies set_cbs] in *.

(* Case analysis of one thread step: one goal per program counter and branch.  The helpers of
   [tstep] are unfolded with it, so that the new shared state is [s] under explicit setters and
   the new program counter is a constructor.  [tstep_branches] is the part after [destruct p]. *)
Ltac tstep_branches H :=
  cbn [tstep] in H; unfold send_err, remove_ex, ce_after2, ce_fin in H;
  repeat (cbv beta iota in H;
    match type of H with
    | context [if ?c then _ else _] => destruct c eqn:?
    | context [match inb ?s with _ => _ end] => destruct (inb s) eqn:?
    | context [match outb ?s with _ => _ end] => destruct (outb s) eqn:?
    | context [match ?k with KDone _ _ => _ | KCloser => _ | KFail => _ | KProto _ => _ end] => destruct k
    end);
  cbv beta iota in H; try discriminate; injection H as <- <-;
  try match goal with |- context [resume ?k] => is_var k; destruct k end;
  cbn [resume]; unfold del_key; fields.

Ltac tstep_cases H :=
  match type of H with tstep _ _ ?p = Some _ => destruct p end; tstep_branches H.

(* after the case analysis: an exchange list whose shape was tested is written in that shape *)
Ltac lists := try match goal with E : inb _ = _ |- _ => rewrite E in * | E : outb _ = _ |- _ => rewrite E in * end.

Inductive step_spec (s : sys) : sys -> Prop :=
| step_spawn : forall k, (forall id r, k = TRelay id r -> has_relay (sh s) = true) ->
    step_spec s (mkSys (sh s) (thr s ++ [start_pc k]))
| step_run : forall tid p sh' p', nth_error (thr s) tid = Some p -> tstep (sh s) tid p = Some (sh', p') ->
    step_spec s (mkSys sh' (upd (thr s) tid p')).

Lemma step_inv : forall s l s', step s l = Some s' -> step_spec s s'.
Proof.
  intros s [k|tid] s' H; cbn [step] in H.
  - assert (Hr : forall id r, k = TRelay id r -> has_relay (sh s) = true).
    { intros id r ->. destruct (has_relay (sh s)); [reflexivity|discriminate]. }
    assert (E : s' = mkSys (sh s) (thr s ++ [start_pc k])).
    { destruct k; try (inversion H; reflexivity). rewrite (Hr _ _ eq_refl) in H. inversion H; reflexivity. }
    subst s'. constructor. exact Hr.
  - destruct (nth_error (thr s) tid) as [p|] eqn:Ep; [|discriminate].
    destruct (tstep (sh s) tid p) as [[sh' p']|] eqn:Et; [|discriminate].
    inversion H. econstructor; eassumption.
Qed.

(* ---------- thread-modular invariants ---------- *)
Section TM.
  Variable relay : bool.
  Variable I : shared -> nat -> Prop.        (* global part; the number is the number of threads *)
  Variable A : shared -> nat -> pc -> Prop.  (* assertion of thread n at program counter p *)
  Hypothesis HI0 : I (sh0 relay) 0%nat.
  Hypothesis Hspawn : forall s n k, I s n ->
    (forall id r, k = TRelay id r -> has_relay s = true) -> I s (S n) /\ A s n (start_pc k).
  Hypothesis Hstep : forall s n len p s' p', I s len -> (n < len)%nat -> A s n p ->
    tstep s n p = Some (s', p') ->
    I s' len /\ A s' n p' /\ (forall m q, m <> n -> (m < len)%nat -> A s m q -> A s' m q).

  Theorem tm_inv : forall s, Reach step (init relay) s ->
    I (sh s) (length (thr s)) /\ forall n p, nth_error (thr s) n = Some p -> A (sh s) n p.
  Proof.
    apply reach_ind.
    - cbn. split; [exact HI0|]. intros [|n] p H; discriminate.
    - intros s l s' _ [HI HA] Hs. destruct (step_inv _ _ _ Hs) as [k Hrel|tid p sh' p' Ep Et]; cbn [sh thr].
      + destruct (Hspawn _ _ k HI Hrel) as [HI' HA']. split.
        * rewrite app_length, Nat.add_1_r. exact HI'.
        * intros n p Hn. apply nth_error_snoc in Hn. destruct Hn as [[_ Hn]|[-> ->]]; auto.
      + pose proof (nth_error_lt _ _ _ Ep) as Hlt.
        destruct (Hstep _ _ _ _ _ _ HI Hlt (HA _ _ Ep) Et) as (HI' & HA' & Hoth). split.
        * rewrite length_upd. exact HI'.
        * intros n q Hn. apply nth_error_upd in Hn. destruct Hn as [[-> ->]|[Hn Hq]]; [exact HA'|].
          apply Hoth; auto. eapply nth_error_lt; exact Hq.
  Qed.
End TM.

(* ---------- monotone state ---------- *)
Definition st_ok (s : shared) : Prop := 1 <= st s <= 4.

Lemma tstep_mono : forall s n p s' p', tstep s n p = Some (s', p') -> st_ok s ->
  st s <= st s' /\ st_ok s'.
Proof. unfold st_ok. intros s n p s' p' H Hok. tstep_cases H; try lia; zprop; consts; lia. Qed.

Lemma step_mono : forall s l s', step s l = Some s' -> st_ok (sh s) ->
  st (sh s) <= st (sh s') /\ st_ok (sh s').
Proof.
  intros s l s' H Hok. destruct (step_inv _ _ _ H) as [k _|tid p sh' p' _ Et]; cbn [sh].
  - split; [lia|exact Hok].
  - eapply tstep_mono; eauto.
Qed.

Lemma st_ok_reach : forall relay s, Reach step (init relay) s -> st_ok (sh s).
Proof.
  intros relay. apply reach_ind; [unfold st_ok; cbn; consts; lia|].
  intros s l s' _ IH Hs. eapply step_mono; eauto.
Qed.

(* along every run -- from any intermediate state to any later state -- the state never
   decreases, and it stays within Active .. Closed *)
Theorem conn_monotone : forall relay ls1 ls2 s1 s2,
  run step (init relay) ls1 = Some s1 -> run step s1 ls2 = Some s2 ->
  st (sh s1) <= st (sh s2) /\ sA <= st (sh s1) /\ st (sh s2) <= sCl.
Proof.
  intros relay ls1 ls2 s1 s2 H1 H2.
  pose proof (st_ok_reach relay s1 (ex_intro _ ls1 H1)) as Ha.
  assert (R : st_ok (sh s1) -> st (sh s1) <= st (sh s2) /\ st_ok (sh s2)).
  { apply (run_rel step (fun a b => st_ok (sh a) -> st (sh a) <= st (sh b) /\ st_ok (sh b))) with (ls := ls2).
    - intros; split; [lia|assumption].
    - intros a b c Hab Hbc Hoa. destruct (Hab Hoa) as [? Hb]. destruct (Hbc Hb) as [? Hc]. split; [lia|exact Hc].
    - apply step_mono.
    - exact H2. }
  destruct (R Ha) as [Hb Hc]. unfold st_ok in *. consts. lia.
Qed.

Definition noflag (l : list (Z * bool)) : Prop := forall id, ~ In (id, true) l.

Lemma noflag_nil : noflag [].
Proof. intros id H; exact H. Qed.

Lemma noflag_filter : forall f l, noflag l -> noflag (filter f l).
Proof. intros f l H id Hi. apply filter_In in Hi. destruct Hi as [Hi _]. exact (H id Hi). Qed.

Lemma noflag_snoc : forall l id, noflag l -> noflag (l ++ [(id, false)]).
Proof.
  intros l id H id' Hi. apply in_app_or in Hi. destruct Hi as [Hi|[Hi|[]]]; [exact (H id' Hi)|discriminate].
Qed.

Lemma noflag_set_flag_absurd : True. Proof. exact I. Qed.

Lemma noflag_set_flag_in : forall id l, In (id, true) (set_flag id l) \/ ~ has_key id l = true.
Proof.
  intros id l. induction l as [|[k f] l IH]; [right; cbn; discriminate|].
  cbn [set_flag map fst has_key existsb]. destruct (k =? id) eqn:E.
  - left. left. apply Z.eqb_eq in E. subst. reflexivity.
  - cbn [orb]. destruct IH as [IH|IH]; [left; right; exact IH|right; exact IH].
Qed.

Lemma in_deln : forall m n l, In m (deln n l) <-> In m l /\ m <> n.
Proof.
  intros m n l. unfold deln. rewrite filter_In. rewrite negb_true_iff, Nat.eqb_neq. tauto.
Qed.

Lemma nodup_snoc : forall (n : nat) l, NoDup l -> ~ In n l -> NoDup (l ++ [n]).
Proof.
  intros n l Hnd Hn. apply NoDup_rev in Hnd. rewrite <- (rev_involutive (l ++ [n])), rev_app_distr.
  apply NoDup_rev. constructor; [rewrite <- in_rev; exact Hn|exact Hnd].
Qed.

Lemma zlen_snoc : forall {A} (l : list A) x, zlen (l ++ [x]) = zlen l + 1.
Proof. intros. unfold zlen. rewrite app_length. cbn [length]. lia. Qed.

Lemma deln_notin : forall n l, ~ In n l -> deln n l = l.
Proof.
  intros n l. induction l as [|x l IH]; intros H; [reflexivity|]. cbn [deln filter].
  destruct (Nat.eqb_spec x n) as [->|_]; [destruct H; left; reflexivity|].
  cbn [negb]. fold (deln n l). rewrite IH; [reflexivity|]. intros Hi. apply H. right. exact Hi.
Qed.

Lemma zlen_deln : forall n l, NoDup l -> In n l -> zlen (deln n l) = zlen l - 1.
Proof.
  intros n l. unfold zlen. induction l as [|x l IH]; intros Hnd Hin; [destruct Hin|].
  inversion Hnd as [|? ? Hx Hnd']; subst. cbn [deln filter length]. fold (deln n l).
  destruct (Nat.eqb_spec x n) as [->|Hne]; cbn [negb].
  - rewrite deln_notin by exact Hx. lia.
  - destruct Hin as [Hin|Hin]; [congruence|]. cbn [length]. specialize (IH Hnd' Hin). lia.
Qed.

Lemma zlen_pos_in : forall (n : nat) l, In n l -> 0 < zlen l.
Proof. intros n [|x l] H; [destruct H|]. unfold zlen. cbn [length]. lia. Qed.

(* ---------- the relay's pending counter counts the admitted, unfinished relayed calls ---------- *)
Definition I_rel (s : shared) (len : nat) : Prop :=
  pending s = zlen (g_live s) /\ NoDup (g_live s) /\ (forall m, In m (g_live s) -> (m < len)%nat) /\
  (has_relay s = false -> g_live s = []).

Definition A_rel (s : shared) (n : nat) (p : pc) : Prop :=
  match p with
  | PRelLive _ => In n (g_live s)
  | PRel1 _ _ => has_relay s = true /\ ~ In n (g_live s)
  | _ => ~ In n (g_live s)
  end.

Lemma A_rel_stable : forall s s' m q, has_relay s' = has_relay s ->
  (In m (g_live s') <-> In m (g_live s)) -> A_rel s m q -> A_rel s' m q.
Proof. intros s s' m q Hr Hl. destruct q; cbn [A_rel]; rewrite ?Hr, Hl; auto. Qed.

Lemma rel_step : forall s n len p s' p', I_rel s len -> (n < len)%nat -> A_rel s n p ->
  tstep s n p = Some (s', p') ->
  I_rel s' len /\ A_rel s' n p' /\ (forall m q, m <> n -> A_rel s m q -> A_rel s' m q).
Proof.
  intros s n len p s' p' HI Hn HA H. unfold I_rel in *.
  tstep_cases H; cbn [A_rel] in *;
    try (split; [exact HI|split; [first [exact HA|apply HA]|intros m q _ Hq; exact Hq]]);
    destruct HI as (Hpen & Hnd & Hlt & Hoff).
  - destruct HA as [Hrel Hfresh]. rewrite zlen_snoc. repeat split; auto using nodup_snoc with zarith.
    + intros m Hm. apply in_app_or in Hm. destruct Hm as [Hm|[<-|[]]]; auto.
    + congruence.
    + fields. apply in_or_app. right. left. reflexivity.
    + intros m q Hm. apply (A_rel_stable s); [reflexivity|]. fields. rewrite in_app_iff. cbn [In]. intuition congruence.
  - rewrite zlen_deln by assumption. repeat split; auto with zarith.
    + apply NoDup_filter. exact Hnd.
    + intros m Hm. apply in_deln in Hm. apply Hlt. tauto.
    + intros E. rewrite (Hoff E). reflexivity.
    + fields. rewrite in_deln. tauto.
    + intros m q Hm. apply (A_rel_stable s); [reflexivity|]. fields. rewrite in_deln. tauto.
Qed.

(* ---------- drain: an admitted, unfinished call keeps the connection from closing ---------- *)
Definition I_dr (s : shared) : Prop :=
  (sIC <= st s -> stopped s = true \/ (noflag (inb s) /\ pending s = 0)) /\
  (st s = sCl -> stopped s = true \/ noflag (outb s)).

(* what checkExchanges knows between two of its steps *)
Definition A_dr (s : shared) (p : pc) : Prop :=
  match p with
  | PCE1 cur _ => cur <= st s
  | PCE2 cur _ => cur <= st s /\ stopped s = true /\ cur <> sCl
  | PCE3 _ => sSC <= st s
  | PCE4 _ => sSC <= st s /\ pending s = 0
  | PCE5 _ => sSC <= st s /\ pending s = 0 /\ noflag (inb s)
  | PCE6 _ _ | PCE7 _ _ => sIC <= st s
  | PCE8 _ _ => sIC <= st s /\ noflag (outb s)
  | _ => True
  end.

(* what every step guarantees to the other threads: once the connection has left Active no call
   is dispatched or begun and the relay admits nothing *)
Definition G_dr (s s' : shared) : Prop :=
  st s <= st s' /\
  (stopped s = true -> stopped s' = true) /\
  (sSC <= st s -> noflag (inb s) -> noflag (inb s')) /\
  (sSC <= st s -> noflag (outb s) -> noflag (outb s')) /\
  (sSC <= st s -> pending s = 0 -> pending s' = 0).

Lemma A_dr_stable : forall s s' q, G_dr s s' -> A_dr s q -> A_dr s' q.
Proof.
  intros s s' q (Hst & Hstop & Hin & Hout & Hpen) Hq.
  destruct q; cbn [A_dr] in *; consts; intuition (try lia); first [apply Hin|apply Hout|apply Hpen]; auto; lia.
Qed.

Lemma drain_G : forall s n p s' p', st_ok s -> (forall id, p = PRelLive id -> pending s <> 0) ->
  tstep s n p = Some (s', p') -> G_dr s s'.
Proof.
  unfold G_dr, st_ok. intros s n p s' p' Hok Hlive H.
  tstep_cases H; try (repeat split; auto; lia); lists; zprop; consts;
    (split; [lia|split; [auto|split; [|split]]]); intros; auto using noflag_nil, noflag_filter, noflag_snoc; try lia.
  exfalso. eapply Hlive; eauto.
Qed.

(* the stepping thread: its next assertion, and the two disjuncts of [I_dr] when it is this step
   that takes the state to InboundClosed or to Closed *)
Lemma drain_own : forall s n p s' p', st_ok s -> (has_relay s = false -> pending s = 0) -> A_dr s p ->
  tstep s n p = Some (s', p') ->
  A_dr s' p' /\
  (st s < sIC <= st s' -> stopped s' = true \/ (noflag (inb s') /\ pending s' = 0)) /\
  (st s < sCl -> st s' = sCl -> stopped s' = true \/ noflag (outb s')).
Proof.
  unfold st_ok. intros s n p s' p' Hok Hoff HA H.
  tstep_cases H; cbn [A_dr] in *; try (split; [exact I|split; intros; lia]); lists; fields; zprop; consts;
    (split; [|split; intros; try lia]); auto using noflag_nil; try tauto; try lia.
  all: try (repeat split; first [lia|apply noflag_nil]).
  (* canClose answered yes: no relay, or nothing pending *)
  split; [exact HA|]. destruct (has_relay s); [cbn [andb] in *; zprop; assumption|auto].
Qed.

Definition I_drain (s : shared) (len : nat) : Prop := st_ok s /\ I_rel s len /\ I_dr s.
Definition A_drain (s : shared) (n : nat) (p : pc) : Prop := A_rel s n p /\ A_dr s p.

Lemma drain_step : forall s n len p s' p', I_drain s len -> (n < len)%nat -> A_drain s n p ->
  tstep s n p = Some (s', p') ->
  I_drain s' len /\ A_drain s' n p' /\ (forall m q, m <> n -> (m < len)%nat -> A_drain s m q -> A_drain s' m q).
Proof.
  intros s n len p s' p' (Hok & HR & HD1 & HD2) Hn [HAr HAd] H.
  destruct (tstep_mono _ _ _ _ _ H Hok) as [_ Hok']. destruct (rel_step _ _ _ _ _ _ HR Hn HAr H) as (HR' & HAr' & Hoth).
  destruct HR as (Hpen & _ & _ & Hoff).
  assert (HG : G_dr s s').
  { apply (drain_G s n p s' p' Hok); [|exact H]. intros id ->. pose proof (zlen_pos_in _ _ HAr). lia. }
  destruct (drain_own s n p s' p' Hok) as (HAd' & Hic & Hcl); auto.
  { intros E. rewrite Hpen, (Hoff E). reflexivity. }
  pose proof HG as (Hst & Hstop & Hin & Hout & Hp0). unfold I_drain, I_dr, st_ok in *. consts.
  split; [|split].
  - split; [exact Hok'|]. split; [exact HR'|]. split.
    + intros Hge. destruct (Z_lt_le_dec (st s) 3) as [L|L]; [apply Hic; lia|].
      destruct (HD1 L) as [Hs|[Hf Hz]]; [left; auto|right; split; [apply Hin|apply Hp0]; auto; lia].
    + intros Hc. destruct (Z.eq_dec (st s) 4) as [E|E]; [|apply Hcl; [lia|exact Hc]].
      destruct (HD2 E) as [Hs|Hf]; [left; auto|right; apply Hout; auto; lia].
  - split; assumption.
  - intros m q Hm _ [Hq1 Hq2]. split; [auto|eapply A_dr_stable; eauto].
Qed.

Lemma drain_inv : forall relay s, Reach step (init relay) s ->
  I_drain (sh s) (length (thr s)) /\ forall n p, nth_error (thr s) n = Some p -> A_drain (sh s) n p.
Proof.
  intros relay. apply (tm_inv relay I_drain A_drain).
  - unfold I_drain, I_rel, I_dr, st_ok. cbn. consts. repeat split; try lia; try constructor; tauto.
  - intros s n k (Hok & (Hpen & Hnd & Hlt & Hoff) & HD) Hrel.
    assert (Hfresh : ~ In n (g_live s)) by (intros Hin; specialize (Hlt n Hin); lia).
    split.
    + split; [exact Hok|]. split; [|exact HD]. repeat split; auto. intros m Hm. specialize (Hlt m Hm). lia.
    + destruct k; cbn [start_pc]; (split; [cbn [A_rel]; eauto|exact I]).
  - apply drain_step.
Qed.

(* DRAIN.  In every reachable state without a connection failure (stoppedExchanges unset):
   an inbound call that was dispatched and whose exchange is still registered keeps the
   connection at or below StartClose; a begun outbound call keeps it at or below InboundClosed;
   the relay's pending counter equals the number of relayed calls admitted and not yet
   finished, and while it is non-zero the connection stays at or below StartClose. *)
Theorem conn_drain : forall relay s, Reach step (init relay) s -> stopped (sh s) = false ->
  ((exists id, In (id, true) (inb (sh s))) -> st (sh s) <= sSC) /\
  ((exists id, In (id, true) (outb (sh s))) -> st (sh s) <= sIC) /\
  pending (sh s) = zlen (g_live (sh s)) /\
  (g_live (sh s) <> [] -> st (sh s) <= sSC).
Proof.
  intros relay s Hr Hns. destruct (drain_inv relay s Hr) as [(Hok & (Hpen & _) & HD1 & HD2) _].
  unfold st_ok in Hok. consts. repeat split.
  - intros [id Hin]. destruct (Z_le_gt_dec (st (sh s)) 2) as [L|L]; [exact L|exfalso].
    destruct (HD1 ltac:(lia)) as [Hs|[Hf _]]; [congruence|exact (Hf id Hin)].
  - intros [id Hin]. destruct (Z_le_gt_dec (st (sh s)) 3) as [L|L]; [exact L|exfalso].
    destruct (HD2 ltac:(lia)) as [Hs|Hf]; [congruence|exact (Hf id Hin)].
  - exact Hpen.
  - intros Hne. destruct (Z_le_gt_dec (st (sh s)) 2) as [L|L]; [exact L|exfalso].
    destruct (HD1 ltac:(lia)) as [Hs|[_ Hz]]; [congruence|].
    rewrite Hpen in Hz. destruct (g_live (sh s)); [congruence|]. unfold zlen in Hz. cbn [length] in Hz. lia.
Qed.

(* ---------- closed is signalled exactly once ---------- *)
Definition is_pce9 (p : pc) : bool := match p with PCE9 _ => true | _ => false end.

(* close(stopCh) is owed exactly by the thread whose moveState took the connection to Closed *)
Lemma signal_tstep : forall s n p s' p', st_ok s -> A_dr s p -> tstep s n p = Some (s', p') ->
  g_stop_closes s <= g_stop_closes s' /\
  g_stop_closes s' + b2z (is_pce9 p') + b2z (st s =? sCl) = g_stop_closes s + b2z (is_pce9 p) + b2z (st s' =? sCl).
Proof.
  unfold st_ok. intros s n p s' p' Hok HA H.
  tstep_cases H; cbn [is_pce9 b2z A_dr] in *; try (split; [lia|reflexivity]); zprop; consts; (split; [lia|]); try lia;
    repeat match goal with |- context [?a =? ?b] => destruct (Z.eqb_spec a b) end; cbn [b2z]; lia.
Qed.

Definition owed (s : sys) : Z := Z.of_nat (count_if is_pce9 (thr s)).

Lemma signal_inv : forall relay s, Reach step (init relay) s ->
  0 <= g_stop_closes (sh s) /\ g_stop_closes (sh s) + owed s = b2z (st (sh s) =? sCl).
Proof.
  intros relay. apply reach_ind; [split; [cbn; lia|reflexivity]|].
  intros s l s' Hr [IH0 IH] Hs. destruct (drain_inv relay s Hr) as [(Hok & _) HA].
  unfold owed in *. destruct (step_inv _ _ _ Hs) as [k _|tid p sh' p' Ep Et]; cbn [sh thr].
  - rewrite count_if_snoc. replace (is_pce9 (start_pc k)) with false by (destruct k; reflexivity).
    rewrite Nat.add_0_r. auto.
  - destruct (signal_tstep _ _ _ _ _ Hok (proj2 (HA _ _ Ep)) Et) as [Hm Hd].
    pose proof (count_if_upd is_pce9 (thr s) tid p p' Ep) as Hc.
    unfold b2z in *. destruct (is_pce9 p), (is_pce9 p'); lia.
Qed.

(* SIGNAL ONCE.  In every reachable state stopCh has been closed at most once; it has been
   closed exactly once when the state is Closed and no thread is between its successful move
   to Closed and its close(stopCh); it has not been closed while the state is not Closed; and at
   most one thread ever owes the close (so close(stopCh) cannot panic). *)
Theorem conn_signal_once : forall relay s, Reach step (init relay) s ->
  0 <= g_stop_closes (sh s) <= 1 /\
  (st (sh s) <> sCl -> g_stop_closes (sh s) = 0 /\ owed s = 0) /\
  (st (sh s) = sCl -> g_stop_closes (sh s) + owed s = 1) /\
  (st (sh s) = sCl -> (forall n p, nth_error (thr s) n = Some p -> is_pce9 p = false) -> g_stop_closes (sh s) = 1).
Proof.
  intros relay s Hr. destruct (signal_inv relay s Hr) as [Hc H].
  destruct (once_from_balance _ (owed s) _ Hc ltac:(unfold owed; lia) H) as (B1 & B2 & B3 & B4).
  split; [exact B1|]. split; [intros E; apply B2, Z.eqb_neq, E|]. split; [intros E; apply B3, Z.eqb_eq, E|].
  intros E Hall. apply B4; [apply Z.eqb_eq, E|]. unfold owed. rewrite (count_if_zero _ _ Hall). reflexivity.
Qed.

(* ---------- refuse: a call req that is not dispatched is answered ---------- *)
Definition replies_of (n : nat) (s : shared) : list (nat * Z * Z) :=
  filter (fun r => Nat.eqb (fst (fst r)) n) (g_replies s).

(* [Some (id, code)]: the thread is past its SendSystemError(id, code) *)
Definition sent_done (o id : Z) : option (Z * Z) :=
  if (o =? oRefused1) || (o =? oRefused2) || (o =? oRelRefused) then Some (id, eDeclined)
  else if o =? oProto then Some (id, eProtocol)
  else if (oErrBase <=? o) && (o <=? oErrBase + 255) then Some (id, o - oErrBase) else None.
Definition sent_k (k : cont) : option (Z * Z) :=
  match k with
  | KDone o id => sent_done o id
  | KCloser | KFail => None
  | KProto id => Some (id, eProtocol)
  end.
Definition sent (p : pc) : option (Z * Z) :=
  match p with
  | PDone o id => sent_done o id
  | PClose k | PCloseCb k | PCE0 k | PCE1 _ k | PCE2 _ k | PCE3 k | PCE4 k | PCE5 k | PCE6 _ k | PCE7 _ k
  | PCE8 _ k | PCE9 k | PCE10 k => sent_k k
  | PProtoCAS id | PProtoStopOut id | PProtoStopIn id => Some (id, eProtocol)
  | PR5 id => Some (id, eDeclined)
  | PErrRm id code => sent_done (oErrBase + code) id
  | _ => None
  end.
(* the program counters whose next step is a SendSystemError *)
Definition is_send (p : pc) : option (Z * Z) :=
  match p with
  | PProtoSend id => Some (id, eProtocol)
  | PRRef id | PR4 id | PRelRef id => Some (id, eDeclined)
  | PErr id code => Some (id, code)
  | _ => None
  end.

Lemma sent_done_err : forall code id, code_ok code = true -> sent_done (oErrBase + code) id = Some (id, code).
Proof.
  intros code id H. unfold code_ok in H. zprop.
  unfold sent_done, oErrBase, oRefused1, oRefused2, oRelRefused, oProto.
  repeat match goal with |- context [?a =? ?b] => destruct (Z.eqb_spec a b); [lia|] end. cbn [orb].
  replace (100 <=? 100 + code) with true by (symmetry; apply Z.leb_le; lia).
  replace (100 + code <=? 100 + 255) with true by (symmetry; apply Z.leb_le; lia).
  cbn [andb]. f_equal. f_equal. lia.
Qed.

Lemma send_err_st : forall s n id c, st (send_err s n id c) = st s.
Proof. intros. unfold send_err. destruct (st s =? sCl); reflexivity. Qed.

Lemma ref_char : forall s n p s' p', tstep s n p = Some (s', p') ->
  match is_send p with
  | Some (id, c) => sent p = None /\ sent p' = Some (id, c) /\ s' = send_err s n id c
  | None => sent p' = sent p /\ g_replies s' = g_replies s
  end.
Proof.
  intros s n p s' p' H.
  tstep_cases H; cbn [is_send sent sent_k]; auto;
    unfold send_err; match goal with E : (st _ =? sCl) = _ |- _ => rewrite E end; auto using sent_done_err.
Qed.

Definition answered (s : shared) (n : nat) (id code : Z) : Prop :=
  replies_of n s = [(n, id, code)] \/ (replies_of n s = [] /\ st s = sCl).

Definition I_ref (s : shared) (len : nat) : Prop :=
  st_ok s /\ forall r, In r (g_replies s) -> (fst (fst r) < len)%nat.
Definition A_ref (s : shared) (n : nat) (p : pc) : Prop :=
  match sent p with Some (id, c) => answered s n id c | None => replies_of n s = [] end.

Lemma replies_of_send_same : forall s n id c,
  replies_of n (send_err s n id c) = if st s =? sCl then replies_of n s else replies_of n s ++ [(n, id, c)].
Proof.
  intros. unfold send_err, replies_of. destruct (st s =? sCl); [reflexivity|].
  fields. rewrite filter_app. cbn [filter fst]. rewrite Nat.eqb_refl. reflexivity.
Qed.

Lemma replies_of_send_other : forall s n m id c, m <> n -> replies_of m (send_err s n id c) = replies_of m s.
Proof.
  intros. unfold send_err, replies_of. destruct (st s =? sCl); [reflexivity|].
  fields. rewrite filter_app. cbn [filter fst]. apply Nat.eqb_neq in H. rewrite Nat.eqb_sym, H. apply app_nil_r.
Qed.

Lemma replies_send_in : forall s n id c r, In r (g_replies (send_err s n id c)) -> In r (g_replies s) \/ fst (fst r) = n.
Proof.
  intros s n id c r. unfold send_err. destruct (st s =? sCl); [auto|]. fields. rewrite in_app_iff.
  intros [H|[H|[]]]; [auto|subst; auto].
Qed.

Lemma ref_step : forall s n len p s' p', I_ref s len -> (n < len)%nat -> A_ref s n p ->
  tstep s n p = Some (s', p') ->
  I_ref s' len /\ A_ref s' n p' /\ (forall m q, m <> n -> (m < len)%nat -> A_ref s m q -> A_ref s' m q).
Proof.
  intros s n len p s' p' [Hok Hlt] Hn Hp H.
  destruct (tstep_mono _ _ _ _ _ H Hok) as [Hle Hok'].
  assert (Hcl : st s = sCl -> st s' = sCl) by (unfold st_ok in *; consts; lia).
  pose proof (ref_char _ _ _ _ _ H) as Hc. unfold A_ref, answered in *.
  destruct (is_send p) as [[id c]|].
  - destruct Hc as (Hs & Hs' & ->). rewrite Hs in Hp. rewrite Hs'. split; [|split].
    + split; [exact Hok'|]. intros r Hr. apply replies_send_in in Hr. destruct Hr as [Hr| ->]; auto.
    + rewrite replies_of_send_same. destruct (st s =? sCl) eqn:E; zprop.
      * right. split; [exact Hp|]. rewrite send_err_st. exact E.
      * left. rewrite Hp. reflexivity.
    + intros m q Hm _ Hq. rewrite (replies_of_send_other s n m) by exact Hm. rewrite send_err_st. exact Hq.
  - destruct Hc as [Hs Hr]. unfold replies_of in *. rewrite Hr, Hs. split; [|split].
    + split; [exact Hok'|]. rewrite Hr. exact Hlt.
    + destruct (sent p) as [[id c]|]; [|exact Hp]. destruct Hp as [Hp|[Hp Hc]]; [left; exact Hp|right; auto].
    + intros m q Hm _ Hq. destruct (sent q) as [[id c]|]; [|exact Hq].
      destruct Hq as [Hq|[Hq Hc]]; [left; exact Hq|right; auto].
Qed.

Lemma ref_inv : forall relay s, Reach step (init relay) s ->
  I_ref (sh s) (length (thr s)) /\ forall n p, nth_error (thr s) n = Some p -> A_ref (sh s) n p.
Proof.
  intros relay. apply (tm_inv relay I_ref A_ref).
  - split; [unfold st_ok; cbn; consts; lia|]. intros r [].
  - intros s n k [Hok Hlt] _. split.
    + split; [exact Hok|]. intros r Hr. specialize (Hlt r Hr). lia.
    + assert (Hfresh : replies_of n s = []).
      { unfold replies_of. induction (g_replies s) as [|r l IH]; [reflexivity|]. cbn [filter].
        destruct (Nat.eqb_spec (fst (fst r)) n) as [E|E].
        - specialize (Hlt r (or_introl eq_refl)). lia.
        - apply IH. intros r' Hr'. apply Hlt. right. exact Hr'. }
      unfold A_ref. destruct k; cbn [start_pc sent sent_k]; exact Hfresh.
  - apply ref_step.
Qed.

(* REFUSE.  For every reachable state and every finished thread that handled a call req
   (or a relayed call req) with message id [id]:
   - if it refused the call -- at the first state check, at the re-check after registering the
     exchange, or in the relay admission -- then it queued exactly one error frame, which is
     (id, Declined), or it queued none and the connection is Closed;
   - if it ended in a protocol error (duplicate id / exchange set shut down) the same holds with
     code Protocol;
   - if it dispatched the call it queued no error frame. *)
Theorem conn_refuse : forall relay s n o id, Reach step (init relay) s ->
  nth_error (thr s) n = Some (PDone o id) ->
  ((o = oRefused1 \/ o = oRefused2 \/ o = oRelRefused) -> answered (sh s) n id eDeclined) /\
  (o = oProto -> answered (sh s) n id eProtocol) /\
  (o = oDispatched -> replies_of n (sh s) = []).
Proof.
  intros relay s n o id Hr Hn. destruct (ref_inv relay s Hr) as [_ HA]. specialize (HA n _ Hn).
  unfold A_ref in HA. cbn [sent] in HA. unfold sent_done in HA.
  repeat split.
  - intros [E|[E|E]]; subst o; exact HA.
  - intros E; subst o; exact HA.
  - intros E; subst o; exact HA.
Qed.

(* a call req whose processing meets a state other than Active is never dispatched:
   both state tests of handleCallReq and the relay admission go to the refusing branch *)
Lemma conn_refuse_steps : forall s n id, st s <> sA ->
  tstep s n (PR1 id) = Some (s, PRRef id) /\
  tstep s n (PR3 id) = Some (s, PR4 id) /\
  tstep s n (PRel1 id false) = Some (s, PRelRef id) /\
  tstep s n (PRRef id) = Some (send_err s n id eDeclined, PDone oRefused1 id) /\
  tstep s n (PR4 id) = Some (send_err s n id eDeclined, PR5 id) /\
  tstep s n (PRelRef id) = Some (send_err s n id eDeclined, PDone oRelRefused id).
Proof.
  intros s n id H. apply Z.eqb_neq in H. cbn [tstep]. rewrite H. repeat split; reflexivity.
Qed.

(* ---------- reaches closed: no stuck intermediate state ---------- *)
Definition hope_k (k : cont) : bool := match k with KFail => true | _ => false end.

(* a thread that is going to examine the close conditions with an up-to-date view *)
Definition hopeful (s : shared) (p : pc) : bool :=
  match p with
  | PClose k => hope_k k
  | PCloseCb _ | PCE0 _ => true
  | PCE1 cur k | PCE2 cur k => (cur =? st s) || hope_k k
  | PCE3 k | PCE4 k | PCE5 k => (st s =? sSC) || hope_k k
  | PCE6 _ k | PCE7 _ k | PCE8 _ k => (st s =? sIC) || hope_k k
  | PCE9 k | PCE10 k => hope_k k
  | PFailCAS | PFailStopOut | PFailStopIn => true
  | _ => false
  end.

Definition nonempty {A} (l : list A) : bool := match l with [] => false | _ => true end.
Definition busyb (s : shared) : bool := nonempty (inb s) || nonempty (outb s) || negb (pending s =? 0).

Lemma hopeful_st : forall s s' q, st s' = st s -> hopeful s' q = hopeful s q.
Proof. intros s s' q H. destruct q; cbn [hopeful]; rewrite ?H; reflexivity. Qed.

Lemma nonempty_snoc : forall {A} (l : list A) x, nonempty (l ++ [x]) = true.
Proof. intros A [|y l] x; reflexivity. Qed.

(* In StartClose or InboundClosed after a step: something is still in flight, or the stepping
   thread will look at the close conditions again, or the step changed nothing that matters
   (and then whoever was going to look still is). *)
Lemma live_own : forall s s' n p p', st_ok s ->
  tstep s n p = Some (s', p') -> (st s' = sSC \/ st s' = sIC) ->
  busyb s' = true \/ hopeful s' p' = true \/ (st s' = st s /\ busyb s = false /\ hopeful s p = false).
Proof.
  intros s s' n p p' Hok H Hst. unfold st_ok, busyb in *.
  tstep_cases H; cbn [hopeful hope_k]; lists; fields; rewrite ?nonempty_snoc, ?Z.eqb_refl, ?orb_true_r;
    auto; zprop; consts.
  all: match goal with |- ?b = true \/ _ => destruct b eqn:Hb; [left; reflexivity|right] end.
  all: repeat match goal with |- context [?a =? ?b] => destruct (Z.eqb_spec a b) end;
       repeat match goal with |- context [hope_k ?k] => destruct (hope_k k) end; cbn [orb]; auto; try lia.
Qed.

Definition L_inv (s : sys) : Prop :=
  (st (sh s) = sSC \/ st (sh s) = sIC) ->
  busyb (sh s) = true \/ exists n p, nth_error (thr s) n = Some p /\ hopeful (sh s) p = true.

Lemma live_inv : forall relay s, Reach step (init relay) s -> L_inv s.
Proof.
  intros relay. apply reach_ind.
  - intros [H|H]; cbn in H; consts; discriminate.
  - intros s l s' Hr IH Hs Hst. pose proof (st_ok_reach relay s Hr) as Hok.
    destruct (step_inv _ _ _ Hs) as [k _|tid p sh' p' Ep Et]; cbn [sh thr] in *.
    + destruct (IH Hst) as [Hb|(n & p & Hn & Hp)]; [left; exact Hb|].
      right. exists n, p. split; [apply nth_error_snoc_old; exact Hn|exact Hp].
    + destruct (live_own _ _ _ _ _ Hok Et Hst) as [Hl|[Hl|(Hsame & Hnb & Hnh)]]; [left; exact Hl| |].
      * right. exists tid, p'. split; [|exact Hl]. apply nth_error_upd_same. eapply nth_error_lt; exact Ep.
      * rewrite Hsame in Hst. destruct (IH Hst) as [Hb|(n & q & Hn & Hq)]; [congruence|].
        right. exists n, q. split.
        -- rewrite nth_error_upd_other; [exact Hn|]. intros ->. congruence.
        -- rewrite (hopeful_st _ _ q Hsame). exact Hq.
Qed.

(* REACHES CLOSED.  In every reachable state in which the connection has left Active, every
   thread has run to completion, no exchange is registered in either direction and the relay
   has nothing pending, the state is Closed (and, by [conn_signal_once], stopCh is closed). *)
Theorem conn_reaches_closed : forall relay s, Reach step (init relay) s ->
  st (sh s) <> sA ->
  (forall n p, nth_error (thr s) n = Some p -> exists o id, p = PDone o id) ->
  inb (sh s) = [] -> outb (sh s) = [] -> pending (sh s) = 0 ->
  st (sh s) = sCl /\ g_stop_closes (sh s) = 1.
Proof.
  intros relay s Hr Hna Hdone Hi Ho Hp.
  pose proof (st_ok_reach relay s Hr) as Hok. pose proof (live_inv relay s Hr) as HL.
  assert (Hcl : st (sh s) = sCl).
  { unfold st_ok in Hok. consts.
    destruct (Z.eq_dec (st (sh s)) 4) as [E|E]; [exact E|exfalso].
    assert (Hst : st (sh s) = 2 \/ st (sh s) = 3) by lia.
    destruct (HL Hst) as [Hb|[n [p [Hn Hh]]]].
    - unfold busyb in Hb. rewrite Hi, Ho, Hp in Hb. discriminate.
    - destruct (Hdone n p Hn) as [o [id ->]]. discriminate. }
  split; [exact Hcl|].
  destruct (conn_signal_once relay s Hr) as (_ & _ & _ & H1). apply H1; [exact Hcl|].
  intros n p Hn. destruct (Hdone n p Hn) as [o [id ->]]. reflexivity.
Qed.

(* ---------- outbound calls fail locally; exchanges of refused calls are not leaked ---------- *)
Definition owns_in (p : pc) (id : Z) : bool :=
  match p with PR3 i | PR4 i | PR5 i => i =? id | _ => false end.
Definition owns_out (p : pc) (id : Z) : bool :=
  match p with PC3 i | PC4 i => i =? id | _ => false end.

Lemma in_set_flag : forall id i l, In (id, false) (set_flag i l) -> In (id, false) l /\ id <> i.
Proof.
  intros id i l H. unfold set_flag in H. apply in_map_iff in H. destruct H as [[k f] [He Hin]].
  cbn [fst] in He. destruct (k =? i) eqn:E; [discriminate|].
  inversion He; subst. apply Z.eqb_neq in E. auto.
Qed.

Lemma in_del_key : forall id i l, In (id, false) (del_key i l) -> In (id, false) l /\ id <> i.
Proof.
  intros id i l H. unfold del_key in H. apply filter_In in H. destruct H as [Hin Hf].
  cbn [fst] in Hf. apply negb_true_iff, Z.eqb_neq in Hf. auto.
Qed.

Lemma has_key_in : forall id f l, In (id, f) l -> has_key id l = true.
Proof.
  intros id f l H. unfold has_key. apply existsb_exists. exists (id, f). split; [exact H|apply Z.eqb_refl].
Qed.

Lemma own_tstep : forall s n p s' p' id, tstep s n p = Some (s', p') ->
  (In (id, false) (inb s') -> owns_in p' id = true \/ (In (id, false) (inb s) /\ owns_in p id = false)) /\
  (In (id, false) (outb s') -> owns_out p' id = true \/ (In (id, false) (outb s) /\ owns_out p id = false)).
Proof.
  intros s n p s' p' id H.
  tstep_cases H; cbn [owns_in owns_out]; lists; (split; intros Hin); auto.
  all: try (apply in_app_or in Hin; destruct Hin as [Hin|[Hin|[]]]; [|inversion Hin; left; apply Z.eqb_refl]).
  all: try (apply in_set_flag in Hin; destruct Hin as [Hin Hne]).
  all: try (apply in_del_key in Hin; destruct Hin as [Hin Hne]).
  all: try (destruct (Z.eqb_spec id0 id) as [->|Hd]; auto).
  all: auto; try congruence.
  (* the exchange to remove was not registered: it is not the one in the list *)
  all: rewrite (has_key_in _ _ _ Hin) in *; discriminate.
Qed.

Definition own_inv (s : sys) : Prop :=
  forall id,
   (In (id, false) (inb (sh s)) -> exists n p, nth_error (thr s) n = Some p /\ owns_in p id = true) /\
   (In (id, false) (outb (sh s)) -> exists n p, nth_error (thr s) n = Some p /\ owns_out p id = true).

Lemma own_reach : forall relay s, Reach step (init relay) s -> own_inv s.
Proof.
  intros relay. apply reach_ind.
  - intros id. split; intros [].
  - intros s l s' _ IH Hs id. destruct (IH id) as [I1 I2].
    destruct (step_inv _ _ _ Hs) as [k _|tid p sh' p' Ep Et]; cbn [sh thr].
    + split; intros Hin; [destruct (I1 Hin) as (n & p & Hn & Hp)|destruct (I2 Hin) as (n & p & Hn & Hp)];
        exists n, p; (split; [apply nth_error_snoc_old; exact Hn|exact Hp]).
    + destruct (own_tstep _ _ _ _ _ id Et) as [O1 O2]. pose proof (nth_error_lt _ _ _ Ep) as Hlt.
      assert (Keep : forall (own : pc -> Z -> bool), own p' id = true \/
                (exists n q, nth_error (thr s) n = Some q /\ own q id = true) /\ own p id = false ->
                exists n q, nth_error (upd (thr s) tid p') n = Some q /\ own q id = true).
      { intros own [Ho|[(n & q & Hn & Hq) Hno]].
        - exists tid, p'. split; [apply nth_error_upd_same; exact Hlt|exact Ho].
        - exists n, q. split; [|exact Hq]. rewrite nth_error_upd_other; [exact Hn|]. intros ->. congruence. }
      split; intros Hin; apply Keep; [destruct (O1 Hin) as [?|[? ?]]|destruct (O2 Hin) as [?|[? ?]]]; auto.
Qed.

(* OUTBOUND LOCAL FAILURE.
   (1) beginCall on a connection that is not Active returns ErrConnectionClosed in one step and
       changes nothing else (no exchange, no message id consumed);
   (2) if the state left Active between the check and the registration, the re-check sends the
       call to the removal of its exchange and the same local error;
   (3) in every reachable state an outbound exchange that is registered but not begun belongs to
       a beginCall that is between its registration and its re-check/removal -- exchanges of
       refused calls never stay behind (the same holds for inbound exchanges and handleCallReq). *)
Theorem conn_outbound_local :
  (forall s n, st s <> sA -> tstep s n PC1 = Some (s, PDone oCClosed1 0)) /\
  (forall s n id, st s <> sA -> tstep s n (PC3 id) = Some (s, PC4 id)) /\
  (forall s n id, exists s', tstep s n (PC4 id) = Some (s', if has_key id (outb s) then PCE0 (KDone oCClosed2 id) else PDone oCClosed2 id)
                   /\ has_key id (outb s') = false /\ st s' = st s /\ inb s' = inb s) /\
  (forall relay s, Reach step (init relay) s -> forall id,
     (In (id, false) (outb (sh s)) -> exists n, nth_error (thr s) n = Some (PC3 id) \/ nth_error (thr s) n = Some (PC4 id)) /\
     (In (id, false) (inb (sh s)) -> exists n, nth_error (thr s) n = Some (PR3 id) \/ nth_error (thr s) n = Some (PR4 id)
                                             \/ nth_error (thr s) n = Some (PR5 id))).
Proof.
  split; [|split; [|split]].
  - intros s n H. apply Z.eqb_neq in H. cbn [tstep]. rewrite H. reflexivity.
  - intros s n id H. apply Z.eqb_neq in H. cbn [tstep]. rewrite H. reflexivity.
  - intros s n id. cbn [tstep]. unfold remove_ex. destruct (has_key id (outb s)) eqn:E.
    + eexists. split; [reflexivity|]. fields. repeat split; try reflexivity.
      unfold has_key, del_key. clear E. induction (outb s) as [|[k f] l IH]; [reflexivity|].
      cbn [filter fst]. destruct (k =? id) eqn:Ek; cbn [negb]; [exact IH|].
      cbn [existsb fst]. rewrite Ek. exact IH.
    + eexists. split; [reflexivity|]. repeat split; try reflexivity. exact E.
  - intros relay s Hr id. destruct (own_reach relay s Hr id) as [I1 I2]. split; intros Hin.
    + destruct (I2 Hin) as [n [p [Hn Hp]]]. exists n.
      destruct p; cbn [owns_out] in Hp; try discriminate; apply Z.eqb_eq in Hp; subst; auto.
    + destruct (I1 Hin) as [n [p [Hn Hp]]]. exists n.
      destruct p; cbn [owns_in] in Hp; try discriminate; apply Z.eqb_eq in Hp; subst; auto.
Qed.

(* a handleCallReq thread stays inside its own program counters and can only finish with one of
   four outcomes: dispatched, refused at the first check, refused at the re-check, protocol error *)
Definition reader_k (id : Z) (k : cont) : bool :=
  match k with
  | KDone o i => (o =? oRefused2) && (i =? id)
  | KProto i => i =? id
  | _ => false
  end.
Definition reader_pc (id : Z) (p : pc) : bool :=
  match p with
  | PR1 i | PRRef i | PR2 i | PR3 i | PR4 i | PR5 i | PProtoSend i | PProtoCAS i | PProtoStopOut i | PProtoStopIn i => i =? id
  | PClose k | PCloseCb k | PCE0 k | PCE1 _ k | PCE2 _ k | PCE3 k | PCE4 k | PCE5 k | PCE6 _ k | PCE7 _ k
  | PCE8 _ k | PCE9 k | PCE10 k => reader_k id k
  | PDone o i => ((o =? oDispatched) || (o =? oRefused1) || (o =? oRefused2) || (o =? oProto)) && (i =? id)
  | _ => false
  end.

Lemma conn_reader_outcomes : forall id,
  reader_pc id (start_pc (TReader id)) = true /\
  (forall s n p s' p', reader_pc id p = true -> tstep s n p = Some (s', p') -> reader_pc id p' = true) /\
  (forall o i, reader_pc id (PDone o i) = true ->
     i = id /\ (o = oDispatched \/ o = oRefused1 \/ o = oRefused2 \/ o = oProto)).
Proof.
  intros id. split; [cbn; apply Z.eqb_refl|]. split.
  - intros s n p s' p' Hp H.
    destruct p; cbn [reader_pc] in Hp; try discriminate; tstep_branches H; cbn [reader_pc reader_k] in *;
      try discriminate; zprop; subst; rewrite ?Z.eqb_refl; auto.
  - intros o i H. cbn [reader_pc] in H. apply andb_true_iff in H. destruct H as [H1 H2].
    apply Z.eqb_eq in H2. split; [exact H2|].
    repeat (apply orb_true_iff in H1; destruct H1 as [H1|H1]); apply Z.eqb_eq in H1; auto.
Qed.
