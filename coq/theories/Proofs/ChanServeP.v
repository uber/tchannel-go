(* C07, third strengthening: Channel.Serve / Channel.ListenAndServe as threads of the channel close
   model (Model/ChanClose.v: PSrv, PLs1; labels LServe, LListenServe).  The theorems of
   Proofs/ChanCloseP.v are over [Reach cstep cinit], so they quantify over these labels already
   (Serve at any point, any number of times, after Close, racing Close); this file adds what the
   statement says about Serve itself. *)
From Coq Require Import ZArith List Bool Lia Arith.
From Verif Require Import Base.Wrap Base.Wire Gen.GenConsts Model.CloseKernel Model.ChanClose
  Proofs.CloseKernelP Proofs.ChanCloseP.
Import ListNotations.
Local Open Scope Z_scope.

(* one Serve: a single Lock region *)
Theorem chan_serve_step : forall s arg,
  exists s' o, ctstep s PSrv arg = Some (s', CDone o) /\
    conns s' = conns s /\ cstates s' = cstates s /\ g_closed s' = g_closed s /\ g_owed s' = g_owed s /\
    ((o = oSrvOk /\ chst s = hClient /\ lis s = false /\ chst s' = hListening /\ lis s' = true) \/
     (o = oSrvInvalid /\ chst s <> hClient /\ lis s = false /\ chst s' = chst s /\ lis s' = true) \/
     (o = oSrvAlready /\ lis s = true /\ s' = s)).
Proof.
  intros s arg. cbn [ctstep]. destruct (lis s) eqn:El.
  - exists s, oSrvAlready. repeat split. right. right. repeat split.
  - destruct (chst s =? hClient) eqn:Ec; cbn [negb].
    + apply Z.eqb_eq in Ec. eexists. exists oSrvOk. split; [reflexivity|]. cfields. repeat split.
      left. repeat split; assumption.
    + apply Z.eqb_neq in Ec. eexists. exists oSrvInvalid. split; [reflexivity|]. cfields. repeat split.
      right. left. repeat split; assumption.
Qed.

(* ListenAndServe: the unlocked test of mutable.l, then Serve *)
Theorem chan_listen_serve_step : forall s arg,
  ctstep s PLs1 arg = Some (s, if lis s then CDone oSrvAlready else PSrv).
Proof. intros s arg. cbn [ctstep]. destruct (lis s); reflexivity. Qed.

(* From any reachable state at or beyond StartClose, along every continuation (further Close calls,
   Serve / ListenAndServe calls, connection events, callbacks): the state stays at or beyond
   StartClose, every connection that completes its handshake is refused (not tracked, closed), and
   every Serve fails (errAlreadyListening / errInvalidStateForOp) without touching the state. *)
Theorem chan_no_service_after_close : forall ls1 ls2 s1 s2,
  run cstep cinit ls1 = Some s1 -> hSC <= chst (csh s1) -> run cstep s1 ls2 = Some s2 ->
  hSC <= chst (csh s2) /\
  (forall c arg, ctstep (csh s2) (PAd1 c) arg = Some (csh s2, PAd2 c)) /\
  (forall arg, ctstep (csh s2) PConn arg = Some (csh s2, CDone oConnErr)) /\
  (forall arg, exists s' o, ctstep (csh s2) PSrv arg = Some (s', CDone o) /\
                            (o = oSrvAlready \/ o = oSrvInvalid) /\ chst s' = chst (csh s2) /\ conns s' = conns (csh s2)).
Proof.
  intros ls1 ls2 s1 s2 H1 Hge H2.
  destruct (chan_monotone ls1 ls2 s1 s2 H1 H2) as (Hle & _ & _).
  assert (Hge2 : hSC <= chst (csh s2)) by lia.
  split; [exact Hge2|].
  destruct (chan_connect_local (csh s2) 0 Hge2) as [_ Hx].
  split; [intros c arg; destruct (chan_connect_local (csh s2) arg Hge2) as [_ Hy]; apply Hy|].
  split; [intros arg; destruct (chan_connect_local (csh s2) arg Hge2) as [Hy _]; exact Hy|].
  intros arg. destruct (chan_serve_step (csh s2) arg) as (s' & o & Hs & Hc & _ & _ & _ & Hcase).
  exists s', o. split; [exact Hs|].
  destruct Hcase as [(-> & Hcl & _)|[(-> & _ & _ & Hst & _)|(-> & _ & ->)]].
  - exfalso. rewrite Hcl in Hge2. cconsts. lia.
  - split; [right; reflexivity|]. split; assumption.
  - split; [left; reflexivity|]. split; reflexivity.
Qed.

Definition srv_ok (p : cpc) : bool := match p with CDone o => o =? oSrvOk | _ => false end.

(* only the Lock region of Serve touches the listener or returns nil, and it returns nil only when it set the listener *)
Lemma srv_tstep : forall s p arg s' p', A_ch s p -> ctstep s p arg = Some (s', p') ->
  (lis s' = lis s /\ srv_ok p' = false /\ (chst s' = hListening -> chst s = hListening)) \/
  (lis s' = true /\ (srv_ok p' = true -> lis s = false)).
Proof.
  intros s p arg s' p' HA H.
  ctstep_inv H; cbn [A_ch] in *; try (right; split; [reflexivity|intros E; first [reflexivity|discriminate E]]; fail);
    left; (split; [first [reflexivity|assumption]|split; [repeat match goal with |- context [if ?b then _ else _] => destruct b end; reflexivity|]]);
    auto; intros E; zprop; try (cconsts; lia).
  all: destruct HA as ([->| ->] & _); discriminate E.
Qed.

Definition srv_count (s : csys) : Z := Z.of_nat (count_if srv_ok (cthr s)).

Lemma serve_inv : forall s, Reach cstep cinit s ->
  srv_count s <= b2z (lis (csh s)) /\ (chst (csh s) = hListening -> lis (csh s) = true).
Proof.
  apply reach_ind; [split; [cbn; lia|cbn; cconsts; discriminate]|].
  intros s l s' Hr [IH1 IH2] Hs. destruct (ch_inv s Hr) as [HI HA]. unfold srv_count in *.
  destruct (cstep_inv _ _ _ Hs) as [Hc Hl|c v Hc Hlt Hv| |c Hc|l p Hp|tid arg p sh' p' Ep Et]; cbn [csh cthr]; cfields;
    rewrite ?count_if_snoc; cbn [srv_ok]; rewrite ?Nat.add_0_r; auto.
  - rewrite Hl in IH1. cbn [b2z] in *. split; [lia|reflexivity].
  - replace (srv_ok p) with false by (destruct Hp as [E|[E|[E|E]]]; injection E as _ ->; reflexivity).
    rewrite Nat.add_0_r. auto.
  - pose proof (count_if_upd srv_ok (cthr s) tid p p' Ep) as Hc. unfold b2z in *.
    destruct (srv_tstep _ _ _ _ _ (HA _ _ Ep) Et) as [(El & Eo & Ech)|[El Eo]]; rewrite El.
    + rewrite Eo in Hc. split; [destruct (srv_ok p); lia|auto].
    + split; [|reflexivity]. destruct (srv_ok p') eqn:Eo'; [rewrite (Eo eq_refl) in IH1|]; destruct (srv_ok p), (lis (csh s)); lia.
Qed.

(* SERVE ONCE.  In every reachable state at most one Serve call has returned nil (one accept loop)
   and a listening channel has its listener set. *)
Theorem chan_serve_once : forall s, Reach cstep cinit s ->
  0 <= srv_count s <= 1 /\
  (srv_count s = 1 -> lis (csh s) = true) /\
  (chst (csh s) = hListening -> lis (csh s) = true).
Proof.
  intros s Hr. destruct (serve_inv s Hr) as [H1 H2].
  assert (H0 : 0 <= srv_count s) by (unfold srv_count; lia).
  unfold b2z in H1. destruct (lis (csh s)); repeat split; try lia; auto.
Qed.

(* a Serve that returns nil found the channel a client and leaves it Listening: with chan_monotone,
   at or beyond Listening for good *)
Lemma serve_ok_listening_step : forall s arg s',
  ctstep s PSrv arg = Some (s', CDone oSrvOk) -> chst s = hClient /\ chst s' = hListening.
Proof.
  intros s arg s' H. destruct (chan_serve_step s arg) as (s2 & o & Hs & _ & _ & _ & _ & Hcase).
  rewrite Hs in H. inversion H; subst.
  destruct Hcase as [(_ & Hc & _ & Hl & _)|[(Ho & _)|(Ho & _)]]; [split; assumption|discriminate Ho|discriminate Ho].
Qed.
