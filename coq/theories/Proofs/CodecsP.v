From Coq Require Import ZArith List Bool Lia.
From Verif Require Import Base.Wrap Base.Bytes Base.Wire Model.TypedBuf Model.Messages Model.Codecs
  Spec.Protocol Proofs.CodecP Proofs.FrameP.
Import ListNotations.
Local Open Scope Z_scope.

(* ---------------- thrift application headers ---------------- *)
Definition s_theaders (h : kvs) : list Z :=
  be 2 (slen h) ++ flat_map (fun kv => s_str2 (fst kv) ++ s_str2 (snd kv)) h.

Lemma w_theaders_writes h : kvs16_ok h -> writes (w_theaders h) (s_theaders h).
Proof. intros [A B]. apply seq_writes; [apply w_uint_writes|apply w_kv16s_writes, B]. Qed.

Lemma theaders_size_spec h : theaders_size h = zlen (s_theaders h).
Proof.
  unfold theaders_size, s_theaders. rewrite zlen_app, zlen_be. f_equal.
  induction h as [|[k v] h IH]; cbn [fold_right flat_map fst snd]; [reflexivity|].
  rewrite IH, !zlen_app. unfold s_str2. rewrite !zlen_app, !zlen_be. lia.
Qed.

Theorem write_theaders_spec h : kvs16_ok h -> write_theaders h = Some (s_theaders h).
Proof.
  intros H. unfold write_theaders. destruct (w_theaders_writes h H) as [W _].
  rewrite W; cbn [werr wroom wb wout app]; [reflexivity|reflexivity|]. rewrite theaders_size_spec. lia.
Qed.

Lemma r_theaders_sticky : rsticky r_theaders.
Proof. apply bind_sticky; [apply r_uint_sticky|]. intros n. destruct (n =? 0); sticky_tac. Qed.

Lemma r_count_kv16s_consumes h : kvs16_ok h ->
  consumes (n <- r_u16 ;; r_kv16s (Z.to_nat n)) (s_theaders h) h.
Proof.
  intros [A B]. eapply consumes_bind; [apply r_uint_consumes, u_ok_len2, A| |sticky_tac].
  unfold slen. rewrite Nat2Z.id. apply r_kv16s_consumes, B.
Qed.

Theorem r_theaders_nonempty h : kvs16_ok h -> h <> [] -> consumes r_theaders (s_theaders h) (Some h).
Proof.
  intros [A B] Hne. eapply consumes_bind; [apply r_uint_consumes, u_ok_len2, A| |].
  - rewrite (proj2 (Z.eqb_neq (slen h) 0)) by (pose proof (zlen_pos h Hne); unfold slen, zlen in *; lia).
    unfold slen. rewrite Nat2Z.id.
    apply (consumes_bind_ret (r_kv16s (length h)) (fun p => Some p)). apply r_kv16s_consumes, B.
  - intros n. destruct (n =? 0); sticky_tac.
Qed.

(* a zero count decodes to the nil map and consumes exactly the two count bytes *)
Theorem r_theaders_empty rest : r_theaders (rb (s_theaders [] ++ rest)) = (None, rb rest).
Proof. reflexivity. Qed.

(* ---------------- key/value iterator ---------------- *)
Definition s_pair (kv : list Z * list Z) : list Z := s_str2 (fst kv) ++ s_str2 (snd kv).

Lemma kv_next_pair left k v rest : 0 < left -> zlen k <= 65535 -> zlen v <= 65535 ->
  kv_next left (s_pair (k, v) ++ rest) = Some (inr (k, v, left - 1, rest)).
Proof.
  intros Hl Hk Hv. unfold kv_next. replace (left <=? 0) with false by lia.
  destruct (r_len16_consumes k Hk) as [Ck _]. destruct (r_len16_consumes v Hv) as [Cv _].
  unfold r_len16, r_string in Ck, Cv. unfold s_pair. cbn [fst snd]. rewrite <- app_assoc.
  rewrite Ck. rewrite Cv. reflexivity.
Qed.

(* completeness: over an encoding of [h] (followed by anything) the iterator yields
   exactly h, in order, and ends with io.EOF *)
Lemma kv_iter_loop_complete : forall h fuel rest,
  Forall (fun kv => str16_ok (fst kv) /\ str16_ok (snd kv)) h -> (length h < fuel)%nat ->
  kv_iter_loop fuel (zlen h) (flat_map s_pair h ++ rest) = (h, true).
Proof.
  induction h as [|[k v] h IH]; intros fuel rest Hok Hf.
  - destruct fuel; [cbn in Hf; lia|]. reflexivity.
  - destruct fuel; [cbn in Hf; lia|]. inversion Hok as [|? ? [[Hk _] [Hv _]] Hok']; subst.
    cbn [kv_iter_loop flat_map]. rewrite <- app_assoc.
    rewrite kv_next_pair; auto.
    2:{ unfold zlen. cbn [length]. lia. }
    replace (zlen ((k, v) :: h) - 1) with (zlen h) by (unfold zlen; cbn [length]; lia).
    rewrite IH; auto. cbn in Hf. lia.
Qed.

Theorem kv_iter_complete h rest : kvs16_ok h ->
  kv_iter (s_theaders h ++ rest) = (h, true).
Proof.
  intros [A B]. unfold s_theaders. cbn [be app kv_iter].
  change [slen h / 256 mod 256; slen h mod 256] with (be 2 (slen h)). rewrite unbe_be by (apply u_ok_len2, A).
  apply kv_iter_loop_complete; [exact B|]. unfold slen. rewrite Nat2Z.id. lia.
Qed.

(* soundness on ARBITRARY buffers: whatever the iterator yields is literally present in
   the buffer, in order, right after the count; it yields at most `count` pairs, exactly
   `count` when it ends with EOF *)
Lemma bytes_ok_firstn n l : bytes_ok l = true -> bytes_ok (firstn n l) = true.
Proof. intros H. rewrite <- (firstn_skipn n l) in H. apply bytes_ok_split in H. tauto. Qed.
Lemma bytes_ok_skipn n l : bytes_ok l = true -> bytes_ok (skipn n l) = true.
Proof. intros H. rewrite <- (firstn_skipn n l) in H. apply bytes_ok_split in H. tauto. Qed.

Lemma kv_next_sound left rem k v left' rem' : bytes_ok rem = true ->
  kv_next left rem = Some (inr (k, v, left', rem')) ->
  rem = s_pair (k, v) ++ rem' /\ left' = left - 1 /\ 0 < left /\ bytes_ok rem' = true.
Proof.
  intros Hb. unfold kv_next. destruct (Z.leb_spec left 0) as [El|El]; [discriminate|].
  change (kl <- r_u16;; r_bytes (Z.to_nat kl)) with r_len16.
  destruct (r_len16 (rb rem)) as [k1 r1] eqn:E1. destruct (r_len16 r1) as [v1 r2] eqn:E2.
  destruct (rerr r2) eqn:R2; [discriminate|]. intros H. injection H as <- <- <- <-.
  pose proof (sticky_ok _ _ _ _ r_len16_sticky E2 R2) as R1.
  destruct (r_len16_decodes _ _ _ E1 R1 Hb) as [_ [B1 [? [Eq1 [-> _]]]]].
  destruct (r_len16_decodes _ _ _ E2 R2 B1) as [_ [B2 [? [Eq2 [-> _]]]]]. cbn [rrem rb] in Eq1.
  split; [|auto]. unfold s_pair. cbn [fst snd]. rewrite Eq1, Eq2, <- app_assoc. reflexivity.
Qed.

Lemma kv_iter_loop_sound : forall fuel left rem ps fin, bytes_ok rem = true ->
  kv_iter_loop fuel left rem = (ps, fin) ->
  exists rest, rem = flat_map s_pair ps ++ rest /\ zlen ps <= Z.max left 0 /\
    (fin = true -> (Z.to_nat left < fuel)%nat -> zlen ps = Z.max left 0).
Proof.
  induction fuel as [|fuel IH]; intros left rem ps fin Hb H; cbn [kv_iter_loop] in H.
  - inversion H; subst. exists rem. change (zlen (@nil (list Z * list Z))) with 0. split; [reflexivity|]. split; lia.
  - destruct (kv_next left rem) as [[u|[[[k v] left'] rem']]|] eqn:E.
    + inversion H; subst. exists rem. change (zlen (@nil (list Z * list Z))) with 0.
      split; [reflexivity|]. split; [lia|discriminate].
    + destruct (kv_iter_loop fuel left' rem') as [ps' fin'] eqn:E2. inversion H; subst ps fin. clear H.
      destruct (kv_next_sound _ _ _ _ _ _ Hb E) as (A & -> & C & Hb').
      destruct (IH _ _ _ _ Hb' E2) as (rest & R1 & R2 & R4). exists rest. rewrite zlen_cons.
      split; [cbn [flat_map]; rewrite <- app_assoc, <- R1; exact A|]. split; [lia|].
      intros F Hf. specialize (R4 F ltac:(lia)). lia.
    + inversion H; subst. exists rem. change (zlen (@nil (list Z * list Z))) with 0.
      split; [reflexivity|]. split; [lia|]. intros _ _.
      unfold kv_next in E. destruct (Z.leb_spec left 0); [lia|].
      destruct ((kl <- r_u16;; r_bytes (Z.to_nat kl)) (rb rem)) as [k1 r1].
      destruct ((vl <- r_u16;; r_bytes (Z.to_nat vl)) r1) as [v1 r2]. destruct (rerr r2); discriminate.
Qed.

Theorem kv_iter_sound buf ps fin : bytes_ok buf = true -> kv_iter buf = (ps, fin) ->
  (ps = [] /\ (length buf < 2)%nat) \/
  exists count rest, 0 <= count <= 65535 /\ buf = be 2 count ++ flat_map s_pair ps ++ rest /\
    zlen ps <= count /\ (fin = true -> zlen ps = count).
Proof.
  intros Hb H. destruct buf as [|a [|b rem]]; cbn [kv_iter] in H.
  - inversion H. left. cbn. split; [reflexivity|lia].
  - inversion H. left. cbn. split; [reflexivity|lia].
  - right. change (a :: b :: rem) with ([a; b] ++ rem) in *. apply bytes_ok_split in Hb as [Hab Hr].
    set (n := unbe [a; b]) in *.
    pose proof (unbe_range [a; b] Hab) as R. change (256 ^ Z.of_nat (length [a; b])) with 65536 in R. fold n in R.
    destruct (kv_iter_loop_sound _ _ _ _ _ Hr H) as (rest & R1 & R2 & R4).
    exists n, rest. split; [lia|]. split; [|split].
    + rewrite <- (be_unbe [a; b] Hab), R1. reflexivity.
    + lia.
    + intros F. rewrite (R4 F ltac:(lia)). lia.
Qed.

(* ---------------- uvarint ---------------- *)
Lemma lor_disjoint acc y s : 0 <= s -> 0 <= acc < 2 ^ s -> 0 <= y -> Z.lor acc (y * 2 ^ s) = acc + y * 2 ^ s.
Proof.
  intros Hs Ha Hy.
  assert (L : Z.land acc (y * 2 ^ s) = 0).
  { apply Z.bits_inj'. intros n Hn. rewrite Z.land_spec, Z.bits_0.
    destruct (Z_lt_le_dec n s) as [A|A].
    - rewrite Z.mul_pow2_bits_low by lia. apply andb_false_r.
    - destruct (Z.eq_dec acc 0) as [->|Hne]; [rewrite Z.bits_0; reflexivity|].
      rewrite (Z.bits_above_log2 acc n); [reflexivity|lia|].
      assert (Z.log2 acc < s) by (apply Z.log2_lt_pow2; lia). lia. }
  rewrite <- Z.lxor_lor by exact L. symmetry. apply Z.add_nocarry_lxor. exact L.
Qed.

(* Reading the encoding of x0 back: when i groups of seven bits have been read, the
   accumulator holds the low 7i bits of x0 and the encoding of the remaining high part is
   what is left in the buffer. *)
Lemma uvarint_loop_ok x0 rest : 0 <= x0 < 2 ^ 64 -> forall n i, Z.of_nat n = 10 - i -> 0 <= i ->
  r_uvarint_loop n i (x0 mod 2 ^ (7 * i)) (7 * i) (rb (put_uvarint n (x0 / 2 ^ (7 * i)) ++ rest)) = (x0, rb rest).
Proof.
  intros Hx. induction n as [|n IH]; intros i Hn Hi.
  - replace i with 10 by lia. cbn [put_uvarint r_uvarint_loop app]. f_equal.
    apply Z.mod_small. split; [apply Hx|]. apply Z.lt_trans with (2 ^ 64); [apply Hx|reflexivity].
  - set (s := 7 * i). set (x := x0 / 2 ^ s).
    assert (P : 0 < 2 ^ s) by (apply Z.pow_pos_nonneg; lia).
    assert (Hx0 : 0 <= x) by (apply Z.div_pos; lia).
    assert (Hle : 2 ^ s * x <= x0) by (apply Z.mul_div_le; lia).
    pose proof (Z.mod_pos_bound x0 (2 ^ s) P) as Hacc. pose proof (Z.div_mod x0 (2 ^ s) ltac:(lia)) as Hdm. fold x in Hdm.
    cbn [put_uvarint r_uvarint_loop]. destruct (Z.ltb_spec x 128) as [Lx|Lx]; cbn [app].
    + rewrite r_u8_byte' by lia. cbn [rerr rb]. rewrite (proj2 (Z.ltb_lt x 128) Lx).
      replace ((i =? 9) && (x >? 1)) with false.
      2:{ destruct (Z.eqb_spec i 9) as [->|]; [|reflexivity]. destruct (Z.gtb_spec x 1) as [G|G]; [|reflexivity].
          exfalso. change (2 ^ s) with (2 ^ 63) in Hle. change (2 ^ 64) with (2 * 2 ^ 63) in Hx. lia. }
      rewrite Z.shiftl_mul_pow2, wrapU_id, lor_disjoint by lia. f_equal. lia.
    + pose proof (Z.mod_pos_bound x 128 ltac:(lia)) as Hm. pose proof (Z.mod_le x 128 Hx0 ltac:(lia)) as Hml.
      rewrite r_u8_byte' by lia. cbn [rerr rb].
      destruct (Z.ltb_spec (x mod 128 + 128) 128); [lia|].
      replace (Z.land (x mod 128 + 128) 127) with (x mod 128).
      2:{ change 127 with (Z.ones 7). rewrite Z.land_ones by lia. change (2 ^ 7) with 128.
          change (x mod 128 + 128) with (x mod 128 + 1 * 128). rewrite Z.mod_add, Z.mod_mod by lia. reflexivity. }
      assert (Hy : 2 ^ s * (x mod 128) <= 2 ^ s * x) by (apply Z.mul_le_mono_nonneg_l; lia).
      rewrite Z.shiftl_mul_pow2, wrapU_id, lor_disjoint by lia.
      assert (E2 : 2 ^ (7 * (i + 1)) = 2 ^ s * 128).
      { replace (7 * (i + 1)) with (s + 7) by lia. rewrite Z.pow_add_r by lia. reflexivity. }
      replace (s + 7) with (7 * (i + 1)) by lia.
      replace (x0 mod 2 ^ s + x mod 128 * 2 ^ s) with (x0 mod 2 ^ (7 * (i + 1))).
      2:{ rewrite E2, Z.rem_mul_r by lia. fold x. lia. }
      replace (x / 128) with (x0 / 2 ^ (7 * (i + 1))) by (rewrite E2, <- Z.div_div by lia; reflexivity).
      apply IH; lia.
Qed.

Theorem uvarint_roundtrip x rest : 0 <= x < 2 ^ 64 ->
  r_uvarint (rb (put_uvarint 10 x ++ rest)) = (x, rb rest).
Proof.
  intros H. pose proof (uvarint_loop_ok x rest H 10 0 eq_refl (Z.le_refl 0)) as L.
  change (2 ^ (7 * 0)) with 1 in L. rewrite Z.mod_1_r, Z.div_1_r in L. exact L.
Qed.

(* ---------------- HTTP byte layer ---------------- *)
(* ReadBytes with a Go int never panics: the guard excludes exactly the slice failures *)
Theorem r_bytes_go_total n r : r_bytes_go n r <> None.
Proof.
  unfold r_bytes_go. destruct (rerr r); [discriminate|].
  destruct ((n <? 0) || (zlen (rrem r) <? n)) eqn:G; [discriminate|].
  unfold slice_to. rewrite G. discriminate.
Qed.

Theorem read_http_request_total b : read_http_request b <> None.
Proof.
  unfold read_http_request. destruct (r_len8 (rb b)) as [m r1]. unfold r_varint_string.
  destruct (r_uvarint r1) as [len r2].
  pose proof (r_bytes_go_total (wrapS 64 len) r2) as T.
  destruct (r_bytes_go (wrapS 64 len) r2) as [[u r3]|]; [|congruence].
  destruct (read_http_headers r3). discriminate.
Qed.

Theorem read_http_response_total b : read_http_response b <> None.
Proof.
  unfold read_http_response. destruct (r_u16 (rb b)) as [m r1]. unfold r_varint_string.
  destruct (r_uvarint r1) as [len r2].
  pose proof (r_bytes_go_total (wrapS 64 len) r2) as T.
  destruct (r_bytes_go (wrapS 64 len) r2) as [[u r3]|]; [|congruence].
  destruct (read_http_headers r3). discriminate.
Qed.

Lemma r_bytes_go_ok s rest : r_bytes_go (zlen s) (rb (s ++ rest)) = Some (s, rb rest).
Proof.
  unfold r_bytes_go, slice_to, rb. cbn [rerr rrem]. pose proof (zlen_nonneg s). pose proof (zlen_nonneg rest).
  replace ((zlen s <? 0) || (zlen (s ++ rest) <? zlen s)) with false by (rewrite zlen_app; lia).
  unfold zlen. rewrite Nat2Z.id, firstn_exact, skipn_exact. reflexivity.
Qed.

Lemma r_varint_string_ok s rest : zlen s < 2 ^ 62 ->
  r_varint_string (rb (put_uvarint 10 (zlen s) ++ s ++ rest)) = Some (s, rb rest).
Proof.
  intros H. unfold r_varint_string. pose proof (zlen_nonneg s).
  rewrite uvarint_roundtrip by (change (2 ^ 64) with (4 * 2 ^ 62); lia).
  rewrite wrapS_id by (change (2 ^ (64 - 1)) with (2 * 2 ^ 62); lia). apply r_bytes_go_ok.
Qed.

Definition s_http_headers (h : hdrs) : list Z :=
  be 2 (zlen (flat_hdrs h)) ++ flat_map (fun kv => s_str2 (fst kv) ++ s_str2 (snd kv)) (flat_hdrs h).

(* the count is patched in after the pairs: the two placeholder bytes are replaced *)
Lemma w_http_headers_ok h w : kvs16_ok (flat_hdrs h) -> werr w = 0 ->
  zlen (s_http_headers h) <= wroom w ->
  w_http_headers h w = mkW (wout w ++ s_http_headers h) (wroom w - zlen (s_http_headers h)) 0.
Proof.
  intros [A B] Hw Hr. unfold w_http_headers, s_http_headers in *.
  set (P := flat_map (fun kv : list Z * list Z => s_str2 (fst kv) ++ s_str2 (snd kv)) (flat_hdrs h)) in *.
  rewrite zlen_app, zlen_be in *. change (Z.of_nat 2) with 2 in *.
  pose proof (zlen_nonneg (flat_hdrs h)). pose proof (zlen_nonneg P).
  rewrite (proj1 (w_bytes_writes [0; 0]) w Hw) by (change (zlen [0; 0]) with 2; lia).
  destruct (w_kv16s_writes _ B) as [W2 _]. fold P in W2. rewrite W2; cbn [werr wroom wout]; [|reflexivity|change (zlen [0; 0]) with 2; lia].
  rewrite Hw. cbn [Z.eqb andb]. rewrite wrapU_id by (change (2 ^ 16) with 65536; lia).
  change (zlen [0; 0]) with 2. f_equal; [|lia].
  rewrite <- !app_assoc, firstn_exact. f_equal. f_equal.
  change (length (wout w) + 2)%nat with (length (wout w) + length [0%Z; 0%Z])%nat.
  rewrite <- app_length, app_assoc, skipn_exact. reflexivity.
Qed.

Lemma read_http_headers_ok h rest : kvs16_ok (flat_hdrs h) ->
  read_http_headers (rb (s_http_headers h ++ rest)) = (flat_hdrs h, rb rest).
Proof. intros H. apply (proj1 (r_count_kv16s_consumes _ H)). Qed.

(* request: method~1 url~varint headers; response: status:2 message~varint headers *)
Definition s_http_request (method url : list Z) (h : hdrs) : list Z :=
  s_str1 method ++ (put_uvarint 10 (zlen url) ++ url) ++ s_http_headers h.
Definition s_http_response (status : Z) (msg : list Z) (h : hdrs) : list Z :=
  be 2 status ++ (put_uvarint 10 (zlen msg) ++ msg) ++ s_http_headers h.

Lemma http_write first a u h :
  writes first a -> kvs16_ok (flat_hdrs h) ->
  zlen (a ++ (put_uvarint 10 (zlen u) ++ u) ++ s_http_headers h) <= http_buf_size ->
  let w := (first >> w_varint_string u >> w_http_headers h) (wb http_buf_size) in
  (wout w, werr w) = (a ++ (put_uvarint 10 (zlen u) ++ u) ++ s_http_headers h, 0).
Proof.
  intros [W1 _] Hh Hs. rewrite !zlen_app in Hs.
  pose proof (zlen_nonneg (s_http_headers h)). pose proof (zlen_nonneg u).
  pose proof (zlen_nonneg (put_uvarint 10 (zlen u))). pose proof (zlen_nonneg a).
  cbv zeta. unfold w_varint_string, seqW. rewrite W1; cbn [werr wroom wb wout app]; [|reflexivity|lia].
  rewrite (proj1 (w_bytes_writes (put_uvarint 10 (zlen u)))); cbn [werr wroom wout]; [|reflexivity|lia].
  rewrite (proj1 (w_bytes_writes u)); cbn [werr wroom wout]; [|reflexivity|lia].
  rewrite w_http_headers_ok; cbn [werr wroom wout]; [|exact Hh|reflexivity|lia].
  rewrite <- !app_assoc. reflexivity.
Qed.

Lemma http_read_tail u h : kvs16_ok (flat_hdrs h) -> zlen u <= http_buf_size ->
  r_varint_string (rb (put_uvarint 10 (zlen u) ++ u ++ s_http_headers h)) = Some (u, rb (s_http_headers h)) /\
  read_http_headers (rb (s_http_headers h)) = (flat_hdrs h, rb []).
Proof.
  intros Hh Hu. split.
  - apply r_varint_string_ok. unfold http_buf_size in Hu. change (2 ^ 62) with 4611686018427387904. lia.
  - rewrite <- (app_nil_r (s_http_headers h)) at 1. apply read_http_headers_ok, Hh.
Qed.

Theorem http_request_roundtrip method url h :
  zlen method <= 255 -> kvs16_ok (flat_hdrs h) -> zlen (s_http_request method url h) <= http_buf_size ->
  write_http_request method url h = (s_http_request method url h, 0) /\
  read_http_request (s_http_request method url h) = Some (method, url, flat_hdrs h, false).
Proof.
  intros Hm Hh Hs. split; [exact (http_write _ _ url h (w_len8_writes method Hm) Hh Hs)|].
  unfold read_http_request, s_http_request in *. rewrite <- !app_assoc, (proj1 (r_len8_consumes method Hm)).
  destruct (http_read_tail url h Hh) as [-> ->]; [|reflexivity].
  rewrite !zlen_app in Hs. pose proof (zlen_nonneg (s_http_headers h)).
  pose proof (zlen_nonneg (put_uvarint 10 (zlen url))). pose proof (zlen_nonneg (s_str1 method)). lia.
Qed.

Theorem http_response_roundtrip status msg h :
  0 <= status < 65536 -> kvs16_ok (flat_hdrs h) -> zlen (s_http_response status msg h) <= http_buf_size ->
  write_http_response status msg h = (s_http_response status msg h, 0) /\
  read_http_response (s_http_response status msg h) = Some (status, msg, flat_hdrs h, false).
Proof.
  intros Hm Hh Hs. split; [exact (http_write _ _ msg h (w_uint_writes 2 status) Hh Hs)|].
  unfold read_http_response, s_http_response, r_u16 in *.
  rewrite <- !app_assoc, (proj1 (r_uint_consumes 2 status (u_ok_2 _ Hm))).
  destruct (http_read_tail msg h Hh) as [-> ->]; [|reflexivity].
  rewrite !zlen_app in Hs. pose proof (zlen_nonneg (s_http_headers h)).
  pose proof (zlen_nonneg (put_uvarint 10 (zlen msg))). pose proof (zlen_nonneg (be 2 status)). lia.
Qed.
