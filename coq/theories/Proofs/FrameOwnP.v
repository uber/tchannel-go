(* Proofs for property C12 over Model/FrameOwn.v.

   Method: the ghost owner of a token is read off the history ([own_of]); the invariant
   [Inv] says that every reference the concrete state keeps (queue membership, fragment
   pointers of readers, the fragment of a writer) agrees with the ghost owner.  Since the
   owner is a function, references are exclusive, and a release or access through a
   reference finds the token live.  Each step of the model is a short composition of
   primitives; each primitive has a preservation lemma.  The trace part of [Inv] also says
   that no hand-over takes a frame from one call to another ([conf]). *)
From Coq Require Import ZArith List Bool Lia.
From Verif Require Import Base.Wrap Base.Wire Gen.GenConsts Spec.FrameOwnSpec Model.FrameOwn.
Import ListNotations.
Local Open Scope Z_scope.

(* ------------------------------------------------------------------ histories *)

Fixpoint own_of (tr : list ev) (t : Z) : place :=
  match tr with
  | [] => PFree
  | EGet _ t' p :: r => if t =? t' then p else own_of r t
  | EMov t' p :: r => if t =? t' then p else own_of r t
  | EAcc _ :: r => own_of r t
  | ERel _ t' :: r => if t =? t' then PReleased else own_of r t
  end.

Definition live (p : place) : Prop := p <> PFree /\ p <> PReleased.

Definition transient (p : place) : Prop :=
  match p with PReader _ | PWriter _ | PLocal _ => True | _ => False end.

Lemma transient_live p : transient p -> live p.
Proof. destruct p; cbn; intros H; try contradiction; split; discriminate. Qed.

Definition ev_wf (e : ev) : Prop :=
  match e with EGet _ _ p | EMov _ p => live p | _ => True end.

(* well-formed history, newest event first *)
Fixpoint tr_ok (tr : list ev) : Prop :=
  match tr with
  | [] => True
  | e :: r => tr_ok r /\
      match e with
      | EGet _ t _ => ~ In t (toks r)
      | _ => In (ev_tok e) (gets r) /\ ~ In (ev_tok e) (rels r)
      end
  end.

Lemma gets_toks tr t : In t (gets tr) -> In t (toks tr).
Proof.
  induction tr as [|e r IH]; cbn; [tauto|]. intros H. apply in_app_or in H as [H|H].
  - destruct e; cbn in H; try contradiction. destruct H as [H|[]]. left. exact H.
  - right. apply IH. exact H.
Qed.

Lemma rels_toks tr t : In t (rels tr) -> In t (toks tr).
Proof.
  induction tr as [|e r IH]; cbn; [tauto|]. intros H. apply in_app_or in H as [H|H].
  - destruct e; cbn in H; try contradiction. destruct H as [H|[]]. left. exact H.
  - right. apply IH. exact H.
Qed.

Lemma own_free tr t : ~ In t (toks tr) -> own_of tr t = PFree.
Proof.
  induction tr as [|e r IH]; cbn; [reflexivity|]. intros H.
  assert (H1 : ev_tok e <> t) by tauto. assert (H2 : ~ In t (toks r)) by tauto.
  destruct e; cbn in H1; try destruct (Z.eqb_spec t t0); try congruence; auto.
Qed.

Lemma toks_gets tr t : tr_ok tr -> In t (toks tr) -> In t (gets tr).
Proof.
  induction tr as [|e r IH]; cbn; [tauto|]. intros [Ok He] H.
  destruct e as [s t' p|t' p|t'|s t']; cbn in *.
  - destruct H as [H|H]; [left; exact H|right; apply IH; assumption].
  - destruct H as [H|H]; [subst; apply He|apply IH; assumption].
  - destruct H as [H|H]; [subst; apply He|apply IH; assumption].
  - destruct H as [H|H]; [subst; apply He|apply IH; assumption].
Qed.

Lemma own_live_in tr t : own_of tr t <> PFree -> In t (toks tr).
Proof.
  intros H. destruct (in_dec Z.eq_dec t (toks tr)) as [i|n]; [exact i|].
  exfalso. apply H. apply own_free. exact n.
Qed.

Lemma own_released tr t : Forall ev_wf tr -> own_of tr t = PReleased -> In t (rels tr).
Proof.
  induction tr as [|e r IH]; cbn; [discriminate|]. intros W H. inversion W as [|? ? We Wr]; subst.
  destruct e as [s t' p|t' p|t'|s t']; cbn in *.
  - destruct (Z.eqb_spec t t'); [exfalso; apply We; exact H|auto].
  - destruct (Z.eqb_spec t t'); [exfalso; apply We; exact H|auto].
  - auto.
  - destruct (Z.eqb_spec t t'); [left; congruence|right; auto].
Qed.

Lemma rels_released tr t : tr_ok tr -> In t (rels tr) -> own_of tr t = PReleased.
Proof.
  induction tr as [|e r IH]; cbn; [tauto|]. intros [Ok He] H.
  destruct e as [s t' p|t' p|t'|s t']; cbn in *.
  - destruct (Z.eqb_spec t t'); [subst; exfalso; apply He; apply rels_toks; exact H|auto].
  - destruct (Z.eqb_spec t t'); [subst; exfalso; apply He; exact H|auto].
  - auto.
  - destruct (Z.eqb_spec t t'); [reflexivity|]. destruct H as [H|H]; [congruence|auto].
Qed.

(* A frame that has ever been in a place of call k (its exchange queue, a local variable of
   its reader / writer, a fragment of its reader or writer) is afterwards only in places of
   the same call, in a send queue, with a writer loop, or released: no frame migrates from
   one call to another. *)
Definition tag (p : place) : option Z :=
  match p with PMex k | PLocal k | PFrag k | PWFrag k => Some k | _ => None end.
Definition cplace (k : Z) (p : place) : bool :=
  match p with
  | PReleased | PSend _ | PWriter _ => true
  | PMex k' | PLocal k' | PFrag k' | PWFrag k' => k' =? k
  | PFree | PReader _ => false
  end.
Definition ctoks (tr : list ev) (k : Z) : list Z :=
  flat_map (fun e => match e with
                     | EGet _ t p | EMov t p => match tag p with Some k' => if k' =? k then [t] else [] | None => [] end
                     | _ => [] end) tr.
Definition conf (tr : list ev) : Prop := forall t k, In t (ctoks tr k) -> cplace k (own_of tr t) = true.

Definition mv_ok (p p' : place) : bool :=
  match p, p' with
  | PReader _, _ => true
  | _, (PSend _ | PWriter _ | PReleased) => true
  | (PMex a | PLocal a | PFrag a | PWFrag a), (PMex b | PLocal b | PFrag b | PWFrag b) => a =? b
  | _, _ => false
  end.

Lemma mv_ok_sound p p' : mv_ok p p' = true -> forall k, cplace k p = true -> cplace k p' = true.
Proof.
  destruct p, p'; cbn; intros H kk C; try discriminate; try reflexivity;
    apply Z.eqb_eq in H; subst; exact C.
Qed.

Lemma tag_cplace p k : tag p = Some k -> cplace k p = true.
Proof. destruct p; cbn; intros H; try discriminate; injection H as ->; apply Z.eqb_refl. Qed.

Lemma ctoks_toks tr k t : In t (ctoks tr k) -> In t (toks tr).
Proof.
  induction tr as [|e r IH]; cbn; [tauto|]. intros H. apply in_app_or in H as [H|H]; [|right; apply IH; exact H].
  left. destruct e as [s0 t' p|t' p|t'|s0 t']; cbn in *; try contradiction;
    (destruct (tag p) as [k'|]; [|contradiction]); (destruct (k' =? k); [|contradiction]);
    destruct H as [H|[]]; exact H.
Qed.

Lemma conf_acc t tr : conf tr -> conf (EAcc t :: tr).
Proof. intros C t' k H. cbn in *. apply C. exact H. Qed.

Lemma conf_rel site t tr : conf tr -> conf (ERel site t :: tr).
Proof.
  intros C t' k H. cbn in *. destruct (t' =? t); [reflexivity|]. apply C. exact H.
Qed.

Lemma conf_get site t p tr : conf tr -> ~ In t (toks tr) -> conf (EGet site t p :: tr).
Proof.
  intros C F t' k H. cbn in *. apply in_app_or in H as [H|H].
  - destruct (tag p) as [k'|] eqn:Tg; [|contradiction]. destruct (Z.eqb_spec k' k); [|contradiction].
    destruct H as [H|[]]. subst. rewrite Z.eqb_refl. apply tag_cplace. exact Tg.
  - destruct (Z.eqb_spec t' t); [subst; exfalso; apply F; eapply ctoks_toks; exact H|]. apply C. exact H.
Qed.

Lemma conf_mov t p tr : conf tr -> mv_ok (own_of tr t) p = true -> conf (EMov t p :: tr).
Proof.
  intros C M t' k H. cbn in *. apply in_app_or in H as [H|H].
  - destruct (tag p) as [k'|] eqn:Tg; [|contradiction]. destruct (Z.eqb_spec k' k); [|contradiction].
    destruct H as [H|[]]. subst. rewrite Z.eqb_refl. apply tag_cplace. exact Tg.
  - destruct (Z.eqb_spec t' t); [subst|apply C; exact H].
    apply (mv_ok_sound _ _ M). apply C. exact H.
Qed.

Lemma mv_ok_out p p' : match p' with PSend _ | PWriter _ => True | _ => False end -> mv_ok p p' = true.
Proof. destruct p, p'; cbn; intros H; try contradiction; reflexivity. Qed.

(* side conditions of an event that is not a Get *)
Definition ev_ok (tr : list ev) (e : ev) : Prop :=
  match e with
  | EGet _ _ _ => False
  | EMov t p => live p /\ mv_ok (own_of tr t) p = true
  | _ => True
  end.

Record TInv (tr : list ev) (next : Z) : Prop := {
  t_next : 0 <= next;
  t_toks : forall t, In t (toks tr) -> 0 <= t < next;
  t_wf : Forall ev_wf tr;
  t_ok : tr_ok tr;
  t_conf : conf tr
}.

Lemma tinv_live_ok tr next t : TInv tr next -> live (own_of tr t) ->
  In t (gets tr) /\ ~ In t (rels tr).
Proof.
  intros T [L1 L2]. split.
  - apply toks_gets; [apply T|]. apply own_live_in. exact L1.
  - intros H. apply L2. apply rels_released; [apply T|exact H].
Qed.

Lemma tinv_get tr next site p : TInv tr next -> live p -> TInv (EGet site next p :: tr) (next + 1).
Proof.
  intros T L. constructor.
  - pose proof (t_next _ _ T). lia.
  - cbn. intros t [H|H]; [pose proof (t_next _ _ T); lia|]. pose proof (t_toks _ _ T t H). lia.
  - constructor; [exact L|apply T].
  - cbn. split; [apply T|]. intros H. pose proof (t_toks _ _ T _ H). lia.
  - apply conf_get; [apply T|]. intros H. pose proof (t_toks _ _ T _ H). lia.
Qed.

Lemma tinv_touch tr next e : TInv tr next -> ev_ok tr e -> live (own_of tr (ev_tok e)) -> TInv (e :: tr) next.
Proof.
  intros T W L. pose proof (tinv_live_ok _ _ _ T L) as [G R]. constructor.
  - apply T.
  - cbn. intros t' [H|H]; [subst; apply (t_toks _ _ T); apply gets_toks; exact G|apply T; exact H].
  - constructor; [destruct e; try exact I; [destruct W|apply W]|apply T].
  - cbn. split; [apply T|]. destruct e; [contradiction| | |]; split; assumption.
  - destruct e; [contradiction|apply conf_mov; [apply T|apply W]|apply conf_acc, T|apply conf_rel, T].
Qed.

Lemma tinv_fresh tr next t : TInv tr next -> next <= t -> own_of tr t = PFree.
Proof.
  intros T H. apply own_free. intros H1. pose proof (t_toks _ _ T _ H1). lia.
Qed.

(* ------------------------------------------------------------------ the invariant *)

Definition O (s : st) (t : Z) : place := own_of (s_trace s) t.

Record SInv (s : st) : Prop := {
  i_q : forall k t, In t (x_q (s_mex s k)) -> O s t = PMex k;
  i_qnd : forall k, NoDup (x_q (s_mex s k));
  i_send : forall c t, In t (s_send s c) -> O s t = PSend c;
  i_sendnd : forall c, NoDup (s_send s c);
  i_init : forall k t, r_init (s_rdr s k) = Some t ->
             O s t = PFrag k /\ s_fdone s t = false /\ r_prev (s_rdr s k) = None /\ r_cur (s_rdr s k) = None;
  i_prev : forall k t, r_prev (s_rdr s k) = Some t -> s_fdone s t = true \/ O s t = PFrag k;
  i_cur : forall k t, r_cur (s_rdr s k) = Some t -> s_fdone s t = true \/ O s t = PFrag k;
  i_done : forall t, s_fdone s t = true -> O s t = PReleased;
  i_w : forall k t, w_cur (s_wr s k) = Some t -> w_sent (s_wr s k) = false -> O s t = PWFrag k;
  i_live : forall k t, r_err (s_rdr s k) = false -> r_complete (s_rdr s k) = false -> r_quit (s_rdr s k) = false ->
             r_cur (s_rdr s k) = Some t -> s_fdone s t = false
}.

Definition Inv (s : st) : Prop := TInv (s_trace s) (s_next s) /\ SInv s.

(* no reference of the state claims t *)
Record unref (s : st) (t : Z) : Prop := {
  u_q : forall k, ~ In t (x_q (s_mex s k));
  u_send : forall c, ~ In t (s_send s c);
  u_init : forall k, r_init (s_rdr s k) <> Some t;
  u_prev : forall k, r_prev (s_rdr s k) = Some t -> s_fdone s t = true;
  u_cur : forall k, r_cur (s_rdr s k) = Some t -> s_fdone s t = true;
  u_w : forall k, w_cur (s_wr s k) = Some t -> w_sent (s_wr s k) = true
}.

(* t is referenced at most where its owner says *)
Lemma unref_by_owner s t : SInv s ->
  (forall k, O s t = PMex k -> ~ In t (x_q (s_mex s k))) ->
  (forall c, O s t = PSend c -> ~ In t (s_send s c)) ->
  (forall k, O s t = PFrag k ->
     r_init (s_rdr s k) <> Some t /\ (r_prev (s_rdr s k) = Some t \/ r_cur (s_rdr s k) = Some t -> s_fdone s t = true)) ->
  (forall k, O s t = PWFrag k -> w_cur (s_wr s k) = Some t -> w_sent (s_wr s k) = true) ->
  unref s t.
Proof.
  intros S Hq Hs Hf Hw. constructor.
  - intros k H. exact (Hq k (i_q _ S _ _ H) H).
  - intros c H. exact (Hs c (i_send _ S _ _ H) H).
  - intros k H. destruct (i_init _ S _ _ H) as [E _]. exact (proj1 (Hf k E) H).
  - intros k H. destruct (i_prev _ S _ _ H) as [E|E]; [exact E|]. apply (Hf k E). left. exact H.
  - intros k H. destruct (i_cur _ S _ _ H) as [E|E]; [exact E|]. apply (Hf k E). right. exact H.
  - intros k H. destruct (w_sent (s_wr s k)) eqn:E; [reflexivity|]. rewrite <- E. exact (Hw k (i_w _ S _ _ H E) H).
Qed.

Lemma transient_unref s t : SInv s -> transient (O s t) -> unref s t.
Proof. intros S T. apply unref_by_owner; [exact S|..]; intros k E; rewrite E in T; contradiction. Qed.

Lemma cur_no_init s k t : SInv s -> r_cur (s_rdr s k) = Some t -> r_init (s_rdr s k) = None.
Proof.
  intros S C. destruct (r_init (s_rdr s k)) as [ti|] eqn:E; [|reflexivity].
  destruct (i_init _ S k ti E) as (_ & _ & _ & X). congruence.
Qed.

Lemma live_not_done s t : SInv s -> live (O s t) -> s_fdone s t = false.
Proof.
  intros S [_ L]. destruct (s_fdone s t) eqn:E; [|reflexivity]. exfalso. apply L. apply S. exact E.
Qed.

Lemma init_inv cap : Inv (init cap).
Proof.
  split.
  - constructor; cbn; try tauto; try lia; [constructor|intros t k []].
  - constructor; cbn; intros; try contradiction; try discriminate; try constructor.
Qed.

Lemma fupd_eq {A} (f : Z -> A) k v : fupd f k v k = v.
Proof. unfold fupd. rewrite Z.eqb_refl. reflexivity. Qed.
Lemma fupd_neq {A} (f : Z -> A) k v j : j <> k -> fupd f k v j = f j.
Proof. intros N. unfold fupd. destruct (Z.eqb_spec j k); [contradiction|reflexivity]. Qed.
Lemma fupd_same {A} (f : Z -> A) k j : fupd f k (f k) j = f j.
Proof. unfold fupd. destruct (Z.eqb_spec j k) as [->|_]; reflexivity. Qed.

Ltac sinv S := first
  [ eapply (i_q _ S); eassumption | apply (i_qnd _ S) | eapply (i_send _ S); eassumption | apply (i_sendnd _ S)
  | eapply (i_init _ S); eassumption | eapply (i_prev _ S); eassumption | eapply (i_cur _ S); eassumption
  | eapply (i_done _ S); eassumption | eapply (i_w _ S); eassumption | eapply (i_live _ S); eassumption ].

Lemma own_of_other e tr t : t <> ev_tok e -> own_of (e :: tr) t = own_of tr t.
Proof.
  intros N. destruct e as [s0 t' p|t' p|t'|s0 t']; cbn in *; try reflexivity;
    (destruct (Z.eqb_spec t t'); [contradiction|reflexivity]).
Qed.

(* [s'] has the references of [s]; owner and done mark change for token t only, and the
   references to t agree with its new owner *)
Lemma sinv_token s s' t : SInv s ->
  s_mex s' = s_mex s -> s_send s' = s_send s -> s_rdr s' = s_rdr s -> s_wr s' = s_wr s ->
  (forall x, x <> t -> O s' x = O s x /\ s_fdone s' x = s_fdone s x) ->
  (forall k, In t (x_q (s_mex s k)) -> O s' t = PMex k) ->
  (forall c, In t (s_send s c) -> O s' t = PSend c) ->
  (forall k, r_init (s_rdr s k) = Some t -> O s' t = PFrag k /\ s_fdone s' t = false) ->
  (forall k, r_prev (s_rdr s k) = Some t \/ r_cur (s_rdr s k) = Some t -> s_fdone s' t = true \/ O s' t = PFrag k) ->
  (s_fdone s' t = true -> O s' t = PReleased) ->
  (forall k, w_cur (s_wr s k) = Some t -> w_sent (s_wr s k) = false -> O s' t = PWFrag k) ->
  (forall k, r_err (s_rdr s k) = false -> r_complete (s_rdr s k) = false -> r_quit (s_rdr s k) = false ->
     r_cur (s_rdr s k) = Some t -> s_fdone s' t = false) ->
  SInv s'.
Proof.
  intros S Em Es Er Ew Hoff Hq Hs Hi Hpc Hd Hw Hl.
  constructor; rewrite ?Em, ?Es, ?Er, ?Ew; try apply S.
  - intros k x H. destruct (Z.eq_dec x t) as [->|N]; [apply Hq; exact H|].
    rewrite (proj1 (Hoff x N)). apply S. exact H.
  - intros c x H. destruct (Z.eq_dec x t) as [->|N]; [apply Hs; exact H|].
    rewrite (proj1 (Hoff x N)). apply S. exact H.
  - intros k x H. destruct (i_init _ S _ _ H) as (A & B & R).
    destruct (Z.eq_dec x t) as [->|N]; [destruct (Hi k H); auto|]. destruct (Hoff x N) as [-> ->]. auto.
  - intros k x H. destruct (Z.eq_dec x t) as [->|N]; [apply (Hpc k); left; exact H|].
    destruct (Hoff x N) as [-> ->]. apply (i_prev _ S k). exact H.
  - intros k x H. destruct (Z.eq_dec x t) as [->|N]; [apply (Hpc k); right; exact H|].
    destruct (Hoff x N) as [-> ->]. apply (i_cur _ S k). exact H.
  - intros x H. destruct (Z.eq_dec x t) as [->|N]; [apply Hd; exact H|].
    destruct (Hoff x N) as [Eo Ed]. rewrite Eo. rewrite Ed in H. apply S. exact H.
  - intros k x H E. destruct (Z.eq_dec x t) as [->|N]; [apply Hw; assumption|].
    rewrite (proj1 (Hoff x N)). apply S; assumption.
  - intros k x E1 E2 E3 H. destruct (Z.eq_dec x t) as [->|N]; [eapply Hl; eassumption|].
    rewrite (proj2 (Hoff x N)). eapply (i_live _ S); eassumption.
Qed.

Lemma sinv_emit_unref e s : SInv s -> unref s (ev_tok e) ->
  (s_fdone s (ev_tok e) = true -> own_of (e :: s_trace s) (ev_tok e) = PReleased) -> SInv (emit e s).
Proof.
  intros S U Hd. apply (sinv_token s _ (ev_tok e) S); try reflexivity.
  - intros x N. split; [apply own_of_other; exact N|reflexivity].
  - intros k H. destruct (u_q _ _ U k H).
  - intros c H. destruct (u_send _ _ U c H).
  - intros k H. destruct (u_init _ _ U k H).
  - intros k [H|H]; left; [apply (u_prev _ _ U k H)|apply (u_cur _ _ U k H)].
  - exact Hd.
  - intros k H E. rewrite (u_w _ _ U k H) in E. discriminate.
  - intros k E1 E2 E3 H. eapply (i_live _ S); eassumption.
Qed.

Lemma inv_mov t p s : Inv s -> live (O s t) -> unref s t -> live p -> mv_ok (O s t) p = true ->
  Inv (emit (EMov t p) s).
Proof.
  intros [T S] L U Lp M. split.
  - apply tinv_touch; [exact T|split; assumption|exact L].
  - apply sinv_emit_unref; [exact S|exact U|]. cbn. intros D. rewrite (live_not_done _ _ S L) in D. discriminate.
Qed.

Lemma inv_rel site t s : Inv s -> live (O s t) -> unref s t -> Inv (p_rel site t s).
Proof.
  intros [T S] L U. split.
  - apply tinv_touch; [exact T|exact I|exact L].
  - apply sinv_emit_unref; [exact S|exact U|]. cbn. rewrite Z.eqb_refl. reflexivity.
Qed.

Lemma O_acc t s t' : O (p_acc t s) t' = O s t'.
Proof. reflexivity. Qed.

Lemma inv_acc t s : Inv s -> live (O s t) -> Inv (p_acc t s).
Proof.
  intros [T S] L. split.
  - apply tinv_touch; [exact T|exact I|exact L].
  - destruct S. constructor; unfold O in *; cbn; assumption.
Qed.

Lemma O_rel_other site t s t' : t' <> t -> O (p_rel site t s) t' = O s t'.
Proof. intros H. apply (own_of_other (ERel site t)). exact H. Qed.

Lemma inv_get site p s : transient p -> Inv s ->
  Inv (p_get site p s) /\ O (p_get site p s) (s_next s) = p.
Proof.
  intros Tp [T S]. pose proof (tinv_fresh _ _ (s_next s) T (Z.le_refl _)) as Fr.
  split; [split|].
  - cbn. apply tinv_get; [exact T|apply transient_live; exact Tp].
  - assert (S1 : SInv (bump s)) by (destruct S; constructor; assumption).
    apply (sinv_emit_unref (EGet site (s_next s) p) (bump s) S1).
    + apply unref_by_owner; [exact S1|..]; intros k E; unfold O in E; cbn in E; congruence.
    + cbn. intros D. apply (i_done _ S) in D. unfold O in D. congruence.
  - unfold O. cbn. rewrite Z.eqb_refl. reflexivity.
Qed.

Lemma inv_set_mex_q s k m : Inv s -> (forall t, In t (x_q m) -> O s t = PMex k) -> NoDup (x_q m) -> Inv (set_mex s k m).
Proof.
  intros [T S] Hq Nd. split; [exact T|].
  constructor; unfold O; cbn; unfold fupd; intros; try (sinv S).
  - destruct (Z.eqb_spec k0 k); subst; [apply Hq; assumption|apply S; assumption].
  - destruct (Z.eqb_spec k0 k); subst; [exact Nd|apply S].
Qed.

Lemma inv_set_mex s k m : Inv s -> x_q m = x_q (s_mex s k) -> Inv (set_mex s k m).
Proof. intros Iv E. apply inv_set_mex_q; [exact Iv|rewrite E; apply (i_q _ (proj2 Iv))|rewrite E; apply (i_qnd _ (proj2 Iv))]. Qed.

Lemma inv_set_mex_nil s k m : Inv s -> x_q m = [] -> Inv (set_mex s k m).
Proof. intros Iv E. apply inv_set_mex_q; [exact Iv|rewrite E; intros t []|rewrite E; constructor]. Qed.

Lemma inv_shutdown s k : Inv s -> Inv (mex_shutdown k s).
Proof. intros Iv. apply inv_set_mex; [exact Iv|reflexivity]. Qed.

Lemma inv_set_send s c q : Inv s -> (forall t, In t q -> O s t = PSend c) -> NoDup q -> Inv (set_send s c q).
Proof.
  intros [T S] Hq Nd. split; [exact T|].
  constructor; unfold O; cbn; unfold fupd; intros; try (sinv S).
  - destruct (Z.eqb_spec c0 c); subst; [apply Hq; assumption|apply S; assumption].
  - destruct (Z.eqb_spec c0 c); subst; [exact Nd|apply S].
Qed.

Lemma inv_set_rdr s k r : Inv s ->
  (forall t, r_init r = Some t -> O s t = PFrag k /\ s_fdone s t = false /\ r_prev r = None /\ r_cur r = None) ->
  (forall t, r_prev r = Some t -> s_fdone s t = true \/ O s t = PFrag k) ->
  (forall t, r_cur r = Some t -> s_fdone s t = true \/ O s t = PFrag k) ->
  (forall t, r_err r = false -> r_complete r = false -> r_quit r = false -> r_cur r = Some t -> s_fdone s t = false) ->
  Inv (set_rdr s k r).
Proof.
  intros [T S] Hi Hp Hc Hl. split; [exact T|].
  constructor; unfold O; cbn; unfold fupd; intros; try (sinv S).
  - destruct (Z.eqb_spec k0 k); subst; [apply Hi; assumption|apply S; assumption].
  - destruct (Z.eqb_spec k0 k); subst; [apply Hp; assumption|apply (i_prev _ S); assumption].
  - destruct (Z.eqb_spec k0 k); subst; [apply Hc; assumption|apply (i_cur _ S); assumption].
  - destruct (Z.eqb_spec k0 k); subst; [apply Hl; assumption|eapply (i_live _ S); eassumption].
Qed.

Lemma inv_set_wr s k w : Inv s ->
  (forall t, w_cur w = Some t -> w_sent w = false -> O s t = PWFrag k) -> Inv (set_wr s k w).
Proof.
  intros [T S] Hw. split; [exact T|].
  constructor; unfold O; cbn; unfold fupd; intros; try (sinv S).
  destruct (Z.eqb_spec k0 k); subst; [apply Hw; assumption|apply S; assumption].
Qed.

Lemma inv_misc s : Inv s ->
  (forall t ty, Inv (set_ty s t ty)) /\ (forall c, Inv (set_stop s c)) /\ (forall c, Inv (set_wexit s c)).
Proof.
  intros [T S]. split; [|split]; intros; (split; [exact T|]); destruct S; constructor; unfold O in *; cbn; assumption.
Qed.

Lemma NoDup_snoc (l : list Z) x : NoDup l -> ~ In x l -> NoDup (l ++ [x]).
Proof.
  induction l as [|y l IH]; cbn; intros N H; [repeat constructor; simpl; tauto|].
  inversion N; subst. constructor; [|apply IH; tauto].
  intros H1. apply in_app_or in H1 as [H1|[H1|[]]]; [contradiction|subst; tauto].
Qed.

Lemma O_mov t p s x : O (emit (EMov t p) s) x = if x =? t then p else O s x.
Proof. reflexivity. Qed.

Lemma snoc_owned s t p (q : list Z) : (forall x, In x q -> O s x = p) ->
  forall x, In x (q ++ [t]) -> O (emit (EMov t p) s) x = p.
Proof.
  intros Hq x H. rewrite O_mov. destruct (Z.eqb_spec x t); [reflexivity|].
  apply in_app_or in H as [H|[H|[]]]; [apply Hq; exact H|congruence].
Qed.

(* ch <- frame: the ghost hand-over, then the reference *)
Lemma inv_push_mex k t s : Inv s -> live (O s t) -> unref s t -> mv_ok (O s t) (PMex k) = true -> Inv (push_mex k t s).
Proof.
  intros Iv L U M. pose proof (inv_mov t (PMex k) s Iv L U ltac:(split; discriminate) M) as I1.
  apply (inv_set_mex_q (emit (EMov t (PMex k)) s) k (mx_q (s_mex s k) (x_q (s_mex s k) ++ [t])) I1).
  - apply snoc_owned, (i_q _ (proj2 Iv)).
  - apply NoDup_snoc; [apply (proj2 Iv)|apply U].
Qed.

Lemma inv_push_send c t s : Inv s -> live (O s t) -> unref s t -> Inv (push_send c t s).
Proof.
  intros Iv L U. pose proof (inv_mov t (PSend c) s Iv L U ltac:(split; discriminate) (mv_ok_out _ (PSend c) I)) as I1.
  apply (inv_set_send (emit (EMov t (PSend c)) s) c (s_send s c ++ [t]) I1).
  - apply snoc_owned, (i_send _ (proj2 Iv)).
  - apply NoDup_snoc; [apply (proj2 Iv)|apply U].
Qed.

(* frame := <-ch: the reference leaves the queue, then moves into a local variable *)
Lemma inv_pop_mex k t q p s : Inv s -> x_q (s_mex s k) = t :: q -> transient p -> mv_ok (PMex k) p = true ->
  Inv (pop_mex k t q p s) /\ O (pop_mex k t q p s) t = p.
Proof.
  intros Iv E Tp M. pose proof Iv as [_ S].
  assert (Ot : O s t = PMex k) by (apply S; rewrite E; left; reflexivity).
  pose proof (i_qnd _ S k) as ND. rewrite E in ND. inversion ND as [|? ? Nin ND']; subst.
  split; [|unfold O; cbn; rewrite Z.eqb_refl; reflexivity].
  assert (I0 : Inv (set_mex s k (mx_q (s_mex s k) q))).
  { apply inv_set_mex_q; [exact Iv| |exact ND']. intros x H. apply S. rewrite E. right. exact H. }
  apply (inv_mov t p _ I0); [unfold O in *; cbn; rewrite Ot; split; discriminate| |apply transient_live; exact Tp
                            |unfold O in *; cbn; rewrite Ot; exact M].
  apply unref_by_owner; [apply I0|..]; intros k' E'; unfold O in *; cbn in E'; rewrite Ot in E'; try discriminate.
  injection E' as <-. cbn. rewrite fupd_eq. exact Nin.
Qed.

Lemma inv_pop_send c t q p s : Inv s -> s_send s c = t :: q -> transient p -> mv_ok (PSend c) p = true ->
  Inv (pop_send c t q p s) /\ O (pop_send c t q p s) t = p.
Proof.
  intros Iv E Tp M. pose proof Iv as [_ S].
  assert (Ot : O s t = PSend c) by (apply S; rewrite E; left; reflexivity).
  pose proof (i_sendnd _ S c) as ND. rewrite E in ND. inversion ND as [|? ? Nin ND']; subst.
  split; [|unfold O; cbn; rewrite Z.eqb_refl; reflexivity].
  assert (I0 : Inv (set_send s c q)).
  { apply inv_set_send; [exact Iv| |exact ND']. intros x H. apply S. rewrite E. right. exact H. }
  apply (inv_mov t p _ I0); [unfold O in *; cbn; rewrite Ot; split; discriminate| |apply transient_live; exact Tp
                            |unfold O in *; cbn; rewrite Ot; exact M].
  apply unref_by_owner; [apply I0|..]; intros c' E'; unfold O in *; cbn in E'; rewrite Ot in E'; try discriminate.
  injection E' as <-. cbn. rewrite fupd_eq. exact Nin.
Qed.

(* a reader record whose pointers are old ones or nil and whose flags only grow *)
Lemma inv_rdr_weaken s k r' : Inv s ->
  let r := s_rdr s k in
  (r_init r' = r_init r \/ r_init r' = None) -> (r_prev r' = r_prev r \/ r_prev r' = None) ->
  (r_cur r' = r_cur r \/ r_cur r' = None) ->
  (r_err r = true -> r_err r' = true) -> (r_complete r = true -> r_complete r' = true) ->
  (r_quit r = true -> r_quit r' = true) -> Inv (set_rdr s k r').
Proof.
  intros Iv r Hi Hp Hc He Hcp Hq. pose proof Iv as [T S]. apply inv_set_rdr; [exact Iv| | | |].
  - intros t H. destruct Hi as [Hi|Hi]; [|congruence]. rewrite Hi in H. destruct (i_init _ S _ _ H) as (A & B & C & D).
    split; [exact A|]. split; [exact B|]. fold r in C, D. split; [destruct Hp; congruence|destruct Hc; congruence].
  - intros t H. destruct Hp as [Hp|Hp]; [|congruence]. rewrite Hp in H. apply (i_prev _ S); exact H.
  - intros t H. destruct Hc as [Hc|Hc]; [|congruence]. rewrite Hc in H. apply (i_cur _ S); exact H.
  - intros t E1 E2 E3 H. destruct Hc as [Hc|Hc]; [|congruence]. rewrite Hc in H.
    apply (i_live _ S k); fold r; try exact H.
    + destruct (r_err r); [rewrite He in E1 by reflexivity; discriminate|reflexivity].
    + destruct (r_complete r); [rewrite Hcp in E2 by reflexivity; discriminate|reflexivity].
    + destruct (r_quit r); [rewrite Hq in E3 by reflexivity; discriminate|reflexivity].
Qed.

Lemma inv_fail_reader s k : Inv s -> Inv (fail_reader k s).
Proof.
  intros Iv. unfold fail_reader. apply inv_rdr_weaken; [apply inv_shutdown; exact Iv| | | | | |]; cbn; auto.
Qed.

(* the acting goroutine holds t in local variable p *)
Definition Holds (s : st) (t : Z) (p : place) : Prop := Inv s /\ O s t = p /\ transient p.

Lemma holds_live s t p : Holds s t p -> live (O s t) /\ unref s t.
Proof.
  intros (Iv & E & Tp). rewrite <- E in Tp. split; [apply transient_live; exact Tp|apply transient_unref; [apply Iv|exact Tp]].
Qed.

Lemma holds_get_acc site p s : transient p -> Inv s -> Holds (p_acc (s_next s) (p_get site p s)) (s_next s) p.
Proof.
  intros Tp Iv. destruct (inv_get site p s Tp Iv) as [I1 O1]. split; [|split; [exact O1|exact Tp]].
  apply inv_acc; [exact I1|]. rewrite O1. apply transient_live. exact Tp.
Qed.

Lemma holds_acc t p s : Holds s t p -> Holds (p_acc t s) t p.
Proof. intros H. split; [apply inv_acc; [apply H|apply (holds_live _ _ _ H)]|apply H]. Qed.

Lemma holds_pop_mex k t q p s : Inv s -> x_q (s_mex s k) = t :: q -> transient p -> mv_ok (PMex k) p = true ->
  Holds (pop_mex k t q p s) t p.
Proof. intros Iv E Tp M. destruct (inv_pop_mex k t q p s Iv E Tp M) as [I1 O1]. split; [exact I1|split; assumption]. Qed.

Lemma holds_pop_send c t q p s : Inv s -> s_send s c = t :: q -> transient p -> mv_ok (PSend c) p = true ->
  Holds (pop_send c t q p s) t p.
Proof. intros Iv E Tp M. destruct (inv_pop_send c t q p s Iv E Tp M) as [I1 O1]. split; [exact I1|split; assumption]. Qed.

Lemma inv_rel_tr site t p s : Holds s t p -> Inv (p_rel site t s).
Proof. intros H. apply inv_rel; [apply H|apply (holds_live _ _ _ H)..]. Qed.
Lemma inv_push_mex_tr k t p s : Holds s t p -> mv_ok p (PMex k) = true -> Inv (push_mex k t s).
Proof.
  intros H M. apply inv_push_mex; [apply H|apply (holds_live _ _ _ H)..|]. rewrite (proj1 (proj2 H)). exact M.
Qed.
Lemma inv_push_send_tr c t p s : Holds s t p -> Inv (push_send c t s).
Proof. intros H. apply inv_push_send; [apply H|apply (holds_live _ _ _ H)..]. Qed.

(* the fragment of a freshly parsed frame becomes the reader's current/previous fragment,
   or the initial fragment of a new call *)
Lemma inv_attach k t p s r' : Holds s t p -> mv_ok p (PFrag k) = true ->
  (forall t', r_init r' = Some t' -> t' = t /\ r_prev r' = None /\ r_cur r' = None) ->
  (forall t', r_prev r' = Some t' -> t' = t) -> (forall t', r_cur r' = Some t' -> t' = t) ->
  Inv (emit (EMov t (PFrag k)) (set_rdr s k r')).
Proof.
  intros H M Hi Hp Hc. destruct (holds_live _ _ _ H) as [L U]. destruct H as (Iv & E & _). rewrite <- E in M.
  pose proof (live_not_done _ _ (proj2 Iv) L) as ND.
  pose proof (inv_mov t (PFrag k) s Iv L U ltac:(split; discriminate) M) as I1.
  assert (Ot : O (emit (EMov t (PFrag k)) s) t = PFrag k) by (rewrite O_mov, Z.eqb_refl; reflexivity).
  apply (inv_set_rdr (emit (EMov t (PFrag k)) s) k r' I1).
  - intros t' X. destruct (Hi _ X) as (-> & R). auto.
  - intros t' X. rewrite (Hp _ X). auto.
  - intros t' X. rewrite (Hc _ X). auto.
  - intros t' _ _ _ X. rewrite (Hc _ X). exact ND.
Qed.

Lemma inv_wattach k t p s w' : Holds s t p -> mv_ok p (PWFrag k) = true -> (forall t', w_cur w' = Some t' -> t' = t) ->
  Inv (emit (EMov t (PWFrag k)) (set_wr s k w')).
Proof.
  intros H M Hw. destruct (holds_live _ _ _ H) as [L U]. destruct H as (Iv & E & _). rewrite <- E in M.
  pose proof (inv_mov t (PWFrag k) s Iv L U ltac:(split; discriminate) M) as I1.
  apply (inv_set_wr (emit (EMov t (PWFrag k)) s) k w' I1).
  intros t' X _. rewrite (Hw _ X), O_mov, Z.eqb_refl. reflexivity.
Qed.

(* readableFragment.done() through a pointer of reader k that is stale or owning, when the
   reader does not go on reading it *)
Lemma inv_frag_done t s k : Inv s ->
  (s_fdone s t = true \/ O s t = PFrag k) ->
  r_init (s_rdr s k) <> Some t ->
  (r_cur (s_rdr s k) = Some t ->
     r_err (s_rdr s k) = true \/ r_complete (s_rdr s k) = true \/ r_quit (s_rdr s k) = true) ->
  Inv (frag_done t s).
Proof.
  intros Iv Hd Hi Hc. unfold frag_done. destruct (s_fdone s t) eqn:D; [exact Iv|].
  destruct Hd as [Hd|Ot]; [discriminate|]. destruct Iv as [T S]. split.
  - cbn. apply tinv_touch; [exact T|exact I|]. cbn [ev_tok]. fold (O s t). rewrite Ot. split; discriminate.
  - assert (Rl : O (set_fdone (p_rel S_pif_rel t s) t) t = PReleased) by (unfold O; cbn; rewrite Z.eqb_refl; reflexivity).
    apply (sinv_token s _ t S); try reflexivity; rewrite ?Rl; cbn [s_fdone set_fdone]; rewrite ?fupd_eq; auto.
    + intros x N. split; [apply (own_of_other (ERel S_pif_rel t)); exact N|apply fupd_neq; exact N].
    + intros k' H. pose proof (i_q _ S _ _ H) as E. congruence.
    + intros c H. pose proof (i_send _ S _ _ H) as E. congruence.
    + intros k' H. destruct (i_init _ S _ _ H) as (E & _). rewrite Ot in E. injection E as <-. contradiction.
    + intros k' H E. pose proof (i_w _ S _ _ H E) as X. congruence.
    + intros k' E1 E2 E3 H. destruct (i_cur _ S _ _ H) as [X|X]; [congruence|]. rewrite Ot in X. injection X as <-.
      destruct (Hc H) as [X|[X|X]]; congruence.
Qed.

Lemma inv_release_prev k s : Inv s -> Inv (release_prev k true s).
Proof.
  intros Iv. pose proof Iv as [T S]. unfold release_prev.
  set (r := s_rdr s k).
  assert (I1 : Inv (set_rdr s k (rd_set r (r_init r) None (r_cur r) (r_err r) (r_complete r) true))).
  { apply inv_rdr_weaken; cbn; auto. }
  destruct (r_prev r) as [t|] eqn:P; [|exact I1].
  apply (inv_frag_done t _ k I1).
  - apply (i_prev _ S k). exact P.
  - cbn. rewrite fupd_eq. cbn. intros H. fold r in H.
    destruct (i_init _ S _ _ H) as (_ & _ & E & _). fold r in E. congruence.
  - cbn. rewrite fupd_eq. cbn. auto.
Qed.

Lemma wfrag_unref s k t : SInv s -> O s t = PWFrag k -> w_sent (s_wr s k) = true -> unref s t.
Proof.
  intros S Ot Hs. apply unref_by_owner; [exact S|..]; intros k' E; rewrite Ot in E; try discriminate.
  injection E as <-. intros _. exact Hs.
Qed.

(* ------------------------------------------------------------------ steps preserve the invariant *)

Ltac some H := injection H as <-.

(* case analysis on the guards of [step] until H reads [Some _ = Some s'] *)
Ltac split_step H :=
  repeat match type of H with
  | (if ?b then _ else _) = Some _ => destruct b eqn:?
  | match ?x with Some _ => _ | None => _ end = Some _ => destruct x eqn:?
  | match ?x with [] => _ | _ :: _ => _ end = Some _ => destruct x eqn:?
  | None = Some _ => discriminate H
  end.

Lemma rd_set_same r : rd_set r (r_init r) (r_prev r) (r_cur r) (r_err r) (r_complete r) (r_quit r) = r.
Proof. destruct r; reflexivity. Qed.

Lemma frag_done_fields t s :
  s_mex (frag_done t s) = s_mex s /\ s_rdr (frag_done t s) = s_rdr s /\ s_wr (frag_done t s) = s_wr s /\
  s_send (frag_done t s) = s_send s /\ s_ty (frag_done t s) = s_ty s /\ s_next (frag_done t s) = s_next s.
Proof. unfold frag_done. destruct (s_fdone s t); cbn; repeat split; reflexivity. Qed.

Lemma frag_done_done t s : s_fdone (frag_done t s) t = true.
Proof. unfold frag_done. destruct (s_fdone s t) eqn:D; [exact D|apply fupd_eq]. Qed.

Lemma frag_done_mono t s x : s_fdone s x = true -> s_fdone (frag_done t s) x = true.
Proof.
  intros H. unfold frag_done. destruct (s_fdone s t); [exact H|]. cbn. unfold fupd. destruct (x =? t); [reflexivity|exact H].
Qed.

Lemma frag_done_set_rdr t s k r : frag_done t (set_rdr s k r) = set_rdr (frag_done t s) k r.
Proof. unfold frag_done. cbn. destruct (s_fdone s t); reflexivity. Qed.

Lemma fetch_done_prev_done k s :
  (forall t, r_prev (s_rdr s k) = Some t -> s_fdone s t = false -> r_cur (s_rdr s k) = Some t) ->
  forall t, r_prev (s_rdr (fetch_done k s) k) = Some t -> s_fdone (fetch_done k s) t = true.
Proof.
  intros Ha t. unfold fetch_done. destruct (r_cur (s_rdr s k)) as [t0|] eqn:Cu.
  - rewrite frag_done_set_rdr. cbn. rewrite fupd_eq. cbn. intros P.
    destruct (s_fdone s t) eqn:D; [apply frag_done_mono; exact D|].
    injection (Ha t P D) as <-. apply frag_done_done.
  - intros P. destruct (s_fdone s t) eqn:D; [reflexivity|]. discriminate (Ha t P D).
Qed.

Lemma release_prev_fields k q s : let r := s_rdr s k in
  s_rdr (release_prev k q s) = fupd (s_rdr s) k (rd_set r (r_init r) None (r_cur r) (r_err r) (r_complete r) q) /\
  s_wr (release_prev k q s) = s_wr s /\ s_mex (release_prev k q s) = s_mex s.
Proof.
  unfold release_prev. cbv zeta. destruct (r_prev (s_rdr s k)) as [t|]; [|cbn; auto].
  destruct (frag_done_fields t (set_rdr s k (rd_set (s_rdr s k) (r_init (s_rdr s k)) None (r_cur (s_rdr s k))
              (r_err (s_rdr s k)) (r_complete (s_rdr s k)) q))) as (Em & Er & Ew & _).
  rewrite Em, Er, Ew. cbn. auto.
Qed.

Lemma fetch_done_fields k s : let r := s_rdr s k in
  s_mex (fetch_done k s) = s_mex s /\
  s_rdr (fetch_done k s) k = rd_set r (r_init r) (r_prev r) None (r_err r) (r_complete r) (r_quit r).
Proof.
  unfold fetch_done. destruct (r_cur (s_rdr s k)) as [t0|] eqn:C; cbv zeta.
  - rewrite frag_done_set_rdr. destruct (frag_done_fields t0 s) as (Em & _). cbn. rewrite Em, fupd_eq. auto.
  - rewrite <- C, rd_set_same. auto.
Qed.

Lemma fetch_done_inv k s : Inv s -> Inv (fetch_done k s).
Proof.
  intros Iv. pose proof Iv as [T S]. unfold fetch_done. set (r := s_rdr s k).
  destruct (r_cur r) as [t0|] eqn:C; [|exact Iv].
  set (s0 := set_rdr s k (rd_set r (r_init r) (r_prev r) None (r_err r) (r_complete r) (r_quit r))).
  assert (I0 : Inv s0) by (apply inv_rdr_weaken; cbn; auto).
  apply (inv_frag_done t0 s0 k I0); unfold s0; cbn; rewrite ?fupd_eq; cbn.
  - apply (i_cur _ S k). exact C.
  - unfold r. rewrite (cur_no_init _ _ _ S C). discriminate.
  - discriminate.
Qed.

Lemma parse_chunks_inv k pok t s : Inv s -> O s t = PFrag k -> Inv (parse_chunks k pok t s).
Proof.
  intros Iv Ot. unfold parse_chunks. cbv zeta.
  assert (I1 : Inv (p_acc t s)) by (apply inv_acc; [exact Iv|rewrite Ot; split; discriminate]).
  destruct pok; [exact I1|]. apply inv_rdr_weaken; cbn; auto.
Qed.

Lemma step_inv_fetch s k a b c s' : Inv s -> step false s (LFetch k a b c) = Some s' -> Inv s'.
Proof.
  intros Iv H. unfold step in H. cbv zeta in H.
  destruct (r_err (s_rdr s k) || r_complete (s_rdr s k)); [discriminate|].
  pose proof (fetch_done_inv k s Iv) as I1.
  set (s1 := fetch_done k s) in *. pose proof I1 as [T1 S1].
  destruct (r_init (s_rdr s1 k)) as [t|] eqn:Ini.
  -
    some H. destruct (i_init _ S1 _ _ Ini) as (Ot & ND & _ & _).
    apply parse_chunks_inv; [|exact Ot].
    apply inv_set_rdr; [exact I1|cbn; discriminate| | |]; cbn.
    + intros t' E. injection E as <-. right. exact Ot.
    + intros t' E. injection E as <-. right. exact Ot.
    + intros t' _ _ _ E. injection E as <-. exact ND.
  - destruct (x_ctx (s_mex s1 k)); [some H; apply inv_fail_reader; exact I1|].
    destruct (x_q (s_mex s1 k)) as [|t q] eqn:Q.
    + destruct (x_errn (s_mex s1 k)); [some H; apply inv_fail_reader; exact I1|discriminate].
    + pose proof (holds_pop_mex k t q (PLocal k) s1 I1 Q I (Z.eqb_refl k)) as H2.
      set (s2 := pop_mex k t q (PLocal k) s1) in *. pose proof (holds_acc _ _ _ H2) as H3.
      destruct (s_ty s t =? 0).
      * destruct a; some H; [|apply inv_fail_reader; apply H3].
        apply parse_chunks_inv; [|rewrite O_mov, Z.eqb_refl; reflexivity].
        apply (inv_attach k t (PLocal k)); [exact H3|apply Z.eqb_refl| | |]; cbn; [discriminate| |]; intros t' E; congruence.
      * destruct (s_ty s t =? 1); some H; [|apply inv_fail_reader; apply H2].
        apply inv_rdr_weaken; cbn; auto.
        destruct (r_inbound (s_rdr s k) && c); [|apply inv_shutdown]; apply (inv_rel_tr _ _ _ _ H3).
Qed.

Theorem step_inv s l s' : Inv s -> app_ok s l = true -> step false s l = Some s' -> Inv s'.
Proof.
  intros Iv A H. pose proof Iv as [T S].
  destruct l; try (eapply step_inv_fetch; eassumption); unfold step in H; cbn in A.
  - (* LLocal *) destruct (which =? 0); some H; eapply inv_rel_tr, holds_get_acc; first [exact I|exact Iv].
  - (* LReadFail *) some H. eapply inv_rel_tr, holds_get_acc; [exact I|exact Iv].
  - (* LReadRel *) some H. eapply inv_rel_tr, holds_get_acc; [exact I|exact Iv].
  - (* LReadLeak *) some H. apply (holds_get_acc S_rf_get (PReader c) s I Iv).
  - (* LReadFwd *)
    assert (H1 : Holds (set_ty (p_acc (s_next s) (p_get S_rf_get (PReader c) s)) (s_next s) ty) (s_next s) (PReader c)).
    { destruct (holds_get_acc S_rf_get (PReader c) s I Iv) as [I1 O1]. split; [apply inv_misc; exact I1|exact O1]. }
    set (s1 := set_ty _ _ ty) in *.
    destruct ko as [k|]; [|some H; apply H1].
    destruct (negb (x_live (s_mex s k))); [some H; apply H1|].
    destruct (x_ctx (s_mex s k)); [some H; apply (inv_rel_tr _ _ _ _ H1)|].
    destruct (x_dropped (s_mex s k)); [some H; apply (inv_rel_tr _ _ _ _ H1)|].
    destruct (mex_room (s_mex s k)); [some H; apply (inv_push_mex_tr _ _ _ _ H1); reflexivity|].
    destruct (x_errn (s_mex s k)); [|discriminate]. some H.
    apply (inv_rel_tr _ _ (PReader c)). split; [apply inv_set_mex; [apply H1|reflexivity]|apply H1].
  - (* LReadCallReq *)
    destruct (x_used (s_mex s k)); [discriminate|]. some H.
    destruct (holds_get_acc S_rf_get (PReader c) s I Iv) as [I1 O1].
    apply (inv_attach k _ (PReader c)); cbn; try discriminate; try reflexivity.
    + split; [|exact O1]. apply inv_set_wr; [|cbn; discriminate]. apply inv_set_mex_nil; [exact I1|reflexivity].
    + intros t' E. injection E as <-. auto.
  - (* LRelaySend *)
    destruct (send_room s d); some H; [eapply inv_push_send_tr|eapply inv_rel_tr]; apply holds_get_acc; first [exact I|exact Iv].
  - (* LRfsFrag *)
    pose proof (holds_get_acc S_rfs_get (PLocal c) s I Iv) as H1.
    destruct swallowed; [some H; apply H1|].
    destruct (send_room s d); some H; [eapply inv_push_send_tr|eapply inv_rel_tr]; exact H1.
  - (* LConnSysErr *)
    destruct (wok && negb closed && send_room s c); some H; [eapply inv_push_send_tr|eapply inv_rel_tr];
      apply holds_get_acc; first [exact I|exact Iv].
  - (* LSendMsg *)
    pose proof (holds_get_acc S_sm_get (PLocal c) s I Iv) as H1.
    destruct (negb wok); [some H; apply (inv_rel_tr _ _ _ _ H1)|].
    destruct (send_room s c); some H; [apply (inv_push_send_tr _ _ _ _ H1)|apply H1].
  - (* LNewMex *)
    destruct (x_used (s_mex s k)); [discriminate|]. some H.
    apply inv_set_wr; [|cbn; discriminate].
    apply inv_set_rdr; cbn; try discriminate.
    apply inv_set_mex_nil; [exact Iv|reflexivity].
  - (* LCtx *) some H. apply inv_set_mex; [exact Iv|reflexivity].
  - (* LErrN *) some H. apply inv_set_mex; [exact Iv|reflexivity].
  - (* LExpire *) some H. apply inv_set_mex; [exact Iv|reflexivity].
  - (* LShutdown *) some H. apply inv_shutdown; exact Iv.
  - (* LAcc *)
    destruct (r_err (s_rdr s k) || r_complete (s_rdr s k)) eqn:G; [discriminate|].
    apply orb_false_iff in G as [G1 G2]. apply negb_true_iff in A.
    destruct (r_cur (s_rdr s k)) as [t|] eqn:C; [|discriminate]. some H.
    apply inv_acc; [exact Iv|].
    pose proof (i_live _ S k t G1 G2 A C) as ND.
    destruct (i_cur _ S _ _ C) as [E|E]; [congruence|]. rewrite E. split; discriminate.
  - (* LCloseLast *)
    destruct (r_err (s_rdr s k) || r_complete (s_rdr s k)) eqn:G; [discriminate|].
    destruct (r_cur (s_rdr s k)) as [t|] eqn:C; [|discriminate]. some H.
    destruct (r_inbound (s_rdr s k));
      (apply (inv_frag_done t _ k); [apply inv_rdr_weaken; [try apply inv_shutdown; exact Iv|cbn; auto..]|..];
       cbn; rewrite ?fupd_eq; cbn;
       [exact (i_cur _ S k t C)|rewrite (cur_no_init _ _ _ S C); discriminate|auto]).
  - (* LRespErr *)
    some H. apply inv_set_wr; [exact Iv|]. cbn. intros t H1 H2. apply S; assumption.
  - (* LRespSysErr *)
    destruct (w_err (s_wr s k)); [some H; exact Iv|]. some H.
    apply inv_release_prev. apply inv_shutdown. apply inv_set_wr; [exact Iv|].
    cbn. intros t H1 H2. apply S; assumption.
  - (* LDispatchFail *)
    some H. apply inv_release_prev. exact Iv.
  - (* LRecvMsg *)
    destruct (x_ctx (s_mex s k)); [some H; exact Iv|].
    destruct (x_q (s_mex s k)) as [|t q] eqn:Q.
    + destruct (x_errn (s_mex s k)); [some H; exact Iv|discriminate].
    + pose proof (holds_pop_mex k t q (PLocal k) s Iv Q I (Z.eqb_refl k)) as H1.
      destruct (s_ty s t =? 0); [|destruct (s_ty s t =? 1)]; some H; try apply H1; eapply inv_rel_tr, holds_acc; exact H1.
  - (* LWNew *)
    destruct (negb (x_used (s_mex s k))); [discriminate|].
    destruct (w_err (s_wr s k) || w_complete (s_wr s k)); [discriminate|].
    destruct (match w_cur (s_wr s k) with Some _ => negb (w_sent (s_wr s k)) | None => false end) eqn:G; [discriminate|].
    destruct (x_ctx (s_mex s k) || x_errn (s_mex s k)).
    + some H. apply inv_set_wr; [apply inv_shutdown; exact Iv|]. cbn. intros t H1 H2. apply S; assumption.
    + pose proof (holds_get_acc S_rrw_get (PLocal k) s I Iv) as H1.
      destruct wok; some H.
      * apply (inv_wattach k _ (PLocal k)); [exact H1|apply Z.eqb_refl|]. cbn. intros t' E. congruence.
      * apply inv_shutdown. apply inv_set_wr; [apply H1|]. cbn. discriminate.
  - (* LWAcc *)
    destruct (w_err (s_wr s k) || w_complete (s_wr s k) || w_sent (s_wr s k)) eqn:G; [discriminate|].
    destruct (w_cur (s_wr s k)) as [t|] eqn:C; [|discriminate]. some H.
    apply inv_acc; [exact Iv|]. apply orb_false_iff in G as [_ G].
    rewrite (i_w _ S _ _ C G). split; discriminate.
  - (* LWFlush *)
    destruct (w_err (s_wr s k) || w_complete (s_wr s k) || w_sent (s_wr s k)) eqn:G; [discriminate|].
    destruct (w_cur (s_wr s k)) as [t|] eqn:C; [|discriminate].
    apply orb_false_iff in G as [_ G].
    pose proof (i_w _ S _ _ C G) as Ot.
    assert (I1 : Inv (p_acc t s)) by (apply inv_acc; [exact Iv|rewrite Ot; split; discriminate]).
    destruct (x_ctx (s_mex s k) || x_errn (s_mex s k)).
    + some H. apply inv_shutdown. apply inv_set_wr; [exact I1|]. cbn. intros t' E _. injection E as <-. exact Ot.
    + destruct (send_room s (x_conn (s_mex s k))); [|discriminate]. some H.
      set (s2 := set_wr (p_acc t s) k (wr_set (s_wr s k) (Some t) true false last)).
      assert (I2 : Inv s2) by (apply inv_set_wr; [exact I1|cbn; discriminate]).
      assert (I3 : Inv (push_send (x_conn (s_mex s k)) t s2)).
      { apply inv_push_send; [exact I2|unfold s2, O in *; cbn; rewrite Ot; split; discriminate|].
        apply (wfrag_unref s2 k t); [apply I2|exact Ot|]. unfold s2. cbn. rewrite fupd_eq. reflexivity. }
      destruct (last && w_inbound (s_wr s k)); [apply inv_shutdown|]; exact I3.
  - (* LWrite *)
    destruct (s_wexit s c); [discriminate|].
    destruct (s_send s c) as [|t q] eqn:Q; [discriminate|].
    destruct werr; some H; [apply inv_misc|]; eapply inv_rel_tr, holds_acc, (holds_pop_send c t q (PWriter c)); first [exact Iv|exact Q|exact I|reflexivity].
  - (* LStop *) some H. apply inv_misc; exact Iv.
  - (* LWExit *) destruct (_ && _ && _); [some H; apply inv_misc; exact Iv|discriminate].
  - (* LDrain *)
    destruct (s_stop s c && s_wexit s c); [|discriminate].
    destruct (s_send s c) as [|t q] eqn:Q; [discriminate|]. some H.
    eapply inv_rel_tr, (holds_pop_send c t q (PWriter c)); [exact Iv|exact Q|exact I|reflexivity].
Qed.

(* what every admitted step of the repaired model preserves, every run preserves *)
Lemma run_ind (P : st -> Prop) :
  (forall s l s', P s -> app_ok s l = true -> step false s l = Some s' -> P s') ->
  forall ls s s', P s -> run false s ls = Some s' -> P s'.
Proof.
  intros Hs. induction ls as [|l r IH]; cbn; intros s s' Hp H; [some H; exact Hp|].
  destruct (app_ok s l) eqn:A; [|discriminate].
  destruct (step false s l) as [s1|] eqn:E; [|discriminate].
  eapply IH; [|exact H]. eapply Hs; eassumption.
Qed.

Theorem run_inv ls : forall s s', Inv s -> run false s ls = Some s' -> Inv s'.
Proof. apply (run_ind Inv). apply step_inv. Qed.

(* ------------------------------------------------------------------ from tr_ok to the specification *)

Lemma rels_app a b : rels (a ++ b) = rels a ++ rels b.
Proof. unfold rels. apply flat_map_app. Qed.
Lemma gets_app a b : gets (a ++ b) = gets a ++ gets b.
Proof. unfold gets. apply flat_map_app. Qed.
Lemma toks_app a b : toks (a ++ b) = toks a ++ toks b.
Proof. unfold toks. apply map_app. Qed.

Lemma rels_rev tr : rels (rev tr) = rev (rels tr).
Proof.
  induction tr as [|e r IH]; [reflexivity|]. cbn [rev]. rewrite rels_app, IH. cbn.
  destruct e; cbn; rewrite ?app_nil_r; reflexivity.
Qed.
Lemma gets_rev tr : gets (rev tr) = rev (gets tr).
Proof.
  induction tr as [|e r IH]; [reflexivity|]. cbn [rev]. rewrite gets_app, IH. cbn.
  destruct e; cbn; rewrite ?app_nil_r; reflexivity.
Qed.
Lemma toks_rev tr : toks (rev tr) = rev (toks tr).
Proof. unfold toks. apply map_rev. Qed.

Lemma tr_ok_nodup_rels tr : tr_ok tr -> NoDup (rels tr).
Proof.
  induction tr as [|e r IH]; cbn; [constructor|]. intros [Ok He].
  destruct e; cbn; try (apply IH; exact Ok). constructor; [apply He|apply IH; exact Ok].
Qed.

Lemma tr_ok_app a b : tr_ok (a ++ b) -> tr_ok b.
Proof. induction a as [|e a IH]; cbn; [tauto|]. intros [H _]. apply IH. exact H. Qed.

Theorem ok_at_most_once tr : tr_ok tr -> released_at_most_once (rev tr).
Proof.
  intros H. unfold released_at_most_once. rewrite rels_rev. apply NoDup_rev. apply tr_ok_nodup_rels. exact H.
Qed.

Lemma tr_ok_after_rel a s t b : tr_ok (a ++ ERel s t :: b) -> ~ In t (toks a).
Proof.
  induction a as [|e a IH]; cbn; [tauto|]. intros [Ok He] [H|H]; [|exact (IH Ok H)].
  destruct e as [s' t' p|t' p|t'|s' t']; cbn in H; subst t'; [|destruct He as [_ He]..]; apply He;
    rewrite ?toks_app, ?rels_app; apply in_or_app; right; left; reflexivity.
Qed.

Theorem ok_no_use_after_release tr : tr_ok tr -> no_use_after_release (rev tr).
Proof.
  intros H h1 s t h2 E.
  assert (E' : tr = rev h2 ++ ERel s t :: rev h1).
  { rewrite <- (rev_involutive tr), E, rev_app_distr. cbn. rewrite <- app_assoc. reflexivity. }
  rewrite E' in H. intros Hin. apply (tr_ok_after_rel _ _ _ _ H).
  rewrite toks_rev. rewrite <- in_rev. exact Hin.
Qed.

Theorem ok_only_pool_frames tr : tr_ok tr -> only_pool_frames (rev tr).
Proof.
  intros H h1 e h2 E.
  assert (E' : tr = rev h2 ++ e :: rev h1).
  { rewrite <- (rev_involutive tr), E, rev_app_distr. cbn. rewrite <- app_assoc. reflexivity. }
  rewrite E' in H. apply tr_ok_app in H. cbn in H. destruct H as [_ He].
  destruct e; cbn in *; [|destruct He as [He _]; rewrite gets_rev in He; apply in_rev in He; exact He..].
  rewrite toks_rev in He. intros Hin. apply He. apply in_rev. rewrite rev_involutive. exact Hin.
Qed.

Theorem safety cap ls s : run false (init cap) ls = Some s ->
  released_at_most_once (history s) /\ no_use_after_release (history s) /\ only_pool_frames (history s).
Proof.
  intros H. pose proof (run_inv ls _ _ (init_inv cap) H) as [T _]. pose proof (t_ok _ _ T) as Ok.
  unfold history. split; [apply ok_at_most_once; exact Ok|].
  split; [apply ok_no_use_after_release; exact Ok|apply ok_only_pool_frames; exact Ok].
Qed.

Lemma mem_in t l : mem t l = true <-> In t l.
Proof.
  unfold mem. rewrite existsb_exists. split.
  - intros (x & Hx & E). apply Z.eqb_eq in E. subst. exact Hx.
  - intros H. exists t. split; [exact H|apply Z.eqb_refl].
Qed.

Lemma tr_okb_ok tr : tr_okb tr = true <-> tr_ok tr.
Proof.
  induction tr as [|e r IH]; cbn; [tauto|]. rewrite andb_true_iff, IH.
  destruct e; cbn; rewrite ?andb_true_iff, ?negb_true_iff, <- ?not_true_iff_false, ?mem_in; tauto.
Qed.

(* ------------------------------------------------------------------ no frame is lost *)

(* [ex] = the token the acting goroutine holds in a local variable in the middle of a step *)
Definition accounted (s : st) (ex : option Z) (t : Z) : Prop :=
  match O s t with
  | PFree | PReleased => True
  | PMex k => In t (x_q (s_mex s k))
  | PSend c => In t (s_send s c)
  | PFrag k => rdr_holds s k t
  | PWFrag k => wr_holds s k t
  | PReader _ | PWriter _ | PLocal _ => ex = Some t
  end.

Record CInv (s : st) (ex : option Z) : Prop := {
  c_acc : forall t, accounted s ex t;
  c_alias : forall k t, r_prev (s_rdr s k) = Some t -> s_fdone s t = false -> r_cur (s_rdr s k) = Some t;
  c_unused : forall k, x_used (s_mex s k) = false ->
               x_q (s_mex s k) = [] /\ r_init (s_rdr s k) = None /\ r_prev (s_rdr s k) = None /\ w_cur (s_wr s k) = None;
  c_liveused : forall k, x_live (s_mex s k) = true -> x_used (s_mex s k) = true
}.

Lemma cinv_init cap : CInv (init cap) None.
Proof. constructor; cbn; intros; try discriminate; auto. Qed.

Lemma cinv_ex_unique s t t' : CInv s (Some t) -> transient (O s t') -> t' = t.
Proof.
  intros C Tr. pose proof (c_acc _ _ C t') as A. unfold accounted in A.
  destruct (O s t'); try contradiction; congruence.
Qed.

(* An event about token t, which is the exceptional token if there is one: every other token
   stays accounted.  A reference to t is added before, and dropped after, the event that
   hands t over. *)
Lemma cinv_emit e s ex ex' : CInv s ex -> ex = None \/ ex = Some (ev_tok e) ->
  accounted (emit e s) ex' (ev_tok e) -> CInv (emit e s) ex'.
Proof.
  intros C Hex At. constructor; try apply C. intros t'.
  destruct (Z.eq_dec t' (ev_tok e)) as [->|N]; [exact At|].
  pose proof (c_acc _ _ C t') as A. unfold accounted, O in *. cbn [s_trace emit]. rewrite (own_of_other e _ _ N).
  destruct (own_of (s_trace s) t'); try exact A; destruct Hex as [-> | ->]; congruence.
Qed.

Lemma cinv_get site p s : transient p -> CInv s None -> CInv (p_get site p s) (Some (s_next s)).
Proof.
  intros Tp C. apply (cinv_emit _ (bump s) None); [destruct C; constructor; assumption|left; reflexivity|].
  unfold accounted, O. cbn. rewrite Z.eqb_refl. destruct p; try contradiction; reflexivity.
Qed.

Lemma cinv_acc t s ex : CInv s ex -> CInv (p_acc t s) ex.
Proof. intros C. destruct C. constructor; assumption. Qed.

Lemma cinv_get_acc site p s : transient p -> CInv s None ->
  CInv (p_acc (s_next s) (p_get site p s)) (Some (s_next s)).
Proof. intros Tp C. apply cinv_acc. apply cinv_get; assumption. Qed.

Lemma cinv_rel site t s : CInv s (Some t) -> CInv (p_rel site t s) None.
Proof.
  intros C. eapply cinv_emit; [exact C|right; reflexivity|]. unfold accounted, O. cbn. rewrite Z.eqb_refl. exact I.
Qed.

Lemma cinv_set_mex_q s k m ex : CInv s ex ->
  (forall t, O s t = PMex k -> In t (x_q (s_mex s k)) -> In t (x_q m)) ->
  (x_used m = false -> x_used (s_mex s k) = false /\ x_q m = []) -> (x_live m = true -> x_used m = true) ->
  CInv (set_mex s k m) ex.
Proof.
  intros C Q U L. constructor.
  - intros t. pose proof (c_acc _ _ C t) as A. unfold accounted in *. cbn. unfold fupd.
    fold (O s t). destruct (O s t) eqn:E; try exact A.
    destruct (Z.eqb_spec k0 k); subst; [apply Q; assumption|exact A].
  - apply C.
  - intros k' H. cbn in *. unfold fupd in *. destruct (Z.eqb_spec k' k); subst; [|apply C; exact H].
    destruct (U H) as [U1 U2]. split; [exact U2|apply C; exact U1].
  - intros k' H. cbn in *. unfold fupd in *. destruct (Z.eqb_spec k' k); subst; [apply L; exact H|apply C; exact H].
Qed.

Lemma cinv_set_mex s k m ex : CInv s ex -> x_q m = x_q (s_mex s k) -> x_used m = x_used (s_mex s k) ->
  (x_live m = true -> x_live (s_mex s k) = true) -> CInv (set_mex s k m) ex.
Proof.
  intros C Q U L. apply cinv_set_mex_q; [exact C|rewrite Q; auto|rewrite Q, U|rewrite U; intros H; apply C, L, H].
  intros H. split; [exact H|apply C; exact H].
Qed.

Lemma cinv_shutdown s k ex : CInv s ex -> CInv (mex_shutdown k s) ex.
Proof. intros C. apply cinv_set_mex; [exact C|reflexivity|reflexivity|cbn; discriminate]. Qed.

Lemma cinv_new_mex s k m ex : CInv s ex -> x_used (s_mex s k) = false -> x_q m = [] -> x_used m = true ->
  CInv (set_mex s k m) ex.
Proof.
  intros C U Q Um. apply cinv_set_mex_q; [exact C| |congruence|auto].
  intros t _ H. destruct (c_unused _ _ C k U) as (Q0 & _). rewrite Q0 in H. destruct H.
Qed.

Lemma cinv_set_send s c q ex : CInv s ex -> (forall t, O s t = PSend c -> In t (s_send s c) -> In t q) ->
  CInv (set_send s c q) ex.
Proof.
  intros C Q. constructor; try apply C.
  intros t. pose proof (c_acc _ _ C t) as A. unfold accounted in *. cbn. unfold fupd.
  fold (O s t). destruct (O s t) eqn:E; try exact A.
  destruct (Z.eqb_spec c0 c); subst; [apply Q; assumption|exact A].
Qed.

Lemma cinv_misc s ex :
  CInv s ex -> (forall t ty, CInv (set_ty s t ty) ex) /\ (forall c, CInv (set_stop s c) ex) /\ (forall c, CInv (set_wexit s c) ex).
Proof. intros C. destruct C. split; [|split]; intros; constructor; assumption. Qed.

(* readableFragment.done(): the frame is released, nothing else changes *)
Lemma cinv_frag_done t s ex : CInv s ex -> CInv (frag_done t s) ex.
Proof.
  intros C. unfold frag_done. destruct (s_fdone s t) eqn:D; [exact C|]. constructor.
  - intros t'. pose proof (c_acc _ _ C t') as A. unfold accounted, O, rdr_holds in *. cbn. unfold fupd.
    destruct (Z.eqb_spec t' t); subst; [exact I|].
    destruct (own_of (s_trace s) t') eqn:E; exact A.
  - intros k t' H1 H2. cbn in *. unfold fupd in *. destruct (Z.eqb_spec t' t); subst; [discriminate|].
    apply C; assumption.
  - apply C.
  - apply C.
Qed.

Lemma cinv_set_rdr s k r' ex : CInv s ex ->
  (forall t, rdr_holds s k t -> r_init r' = Some t \/ (r_prev r' = Some t /\ s_fdone s t = false)) ->
  (forall t, r_prev r' = Some t -> s_fdone s t = false -> r_cur r' = Some t) ->
  (x_used (s_mex s k) = false -> r_init r' = None /\ r_prev r' = None) ->
  CInv (set_rdr s k r') ex.
Proof.
  intros C Hh Ha Hu. constructor.
  - intros t. pose proof (c_acc _ _ C t) as A. unfold accounted, O, rdr_holds in *. cbn. unfold fupd.
    destruct (own_of (s_trace s) t) eqn:E; try exact A.
    destruct (Z.eqb_spec k0 k); subst; [apply Hh; exact A|exact A].
  - intros k' t H1 H2. cbn in *. unfold fupd in *. destruct (Z.eqb_spec k' k); subst; [apply Ha; assumption|apply C; assumption].
  - intros k' H. cbn in *. unfold fupd in *. destruct (Z.eqb_spec k' k); subst; [|apply C; exact H].
    destruct (c_unused _ _ C k H) as (Q & _ & _ & W). destruct (Hu H) as [A B]. auto.
  - apply C.
Qed.

Lemma cinv_rdr_weaken s k r' ex : CInv s ex ->
  r_init r' = r_init (s_rdr s k) -> r_prev r' = r_prev (s_rdr s k) ->
  (forall t, r_prev r' = Some t -> s_fdone s t = false -> r_cur r' = Some t) ->
  CInv (set_rdr s k r') ex.
Proof.
  intros C Hi Hp Ha. apply cinv_set_rdr; [exact C| |exact Ha|].
  - unfold rdr_holds. rewrite Hi, Hp. tauto.
  - intros U. destruct (c_unused _ _ C k U) as (_ & A & B & _). rewrite Hi, Hp. auto.
Qed.

Lemma cinv_set_wr s k w' ex : CInv s ex ->
  (forall t, O s t = PWFrag k -> wr_holds s k t -> w_cur w' = Some t /\ w_sent w' = false) ->
  (x_used (s_mex s k) = false -> w_cur w' = None) ->
  CInv (set_wr s k w') ex.
Proof.
  intros C Hh Hu. constructor.
  - intros t. pose proof (c_acc _ _ C t) as A. unfold accounted, wr_holds in *. cbn. unfold fupd.
    fold (O s t). destruct (O s t) eqn:E; try exact A.
    destruct (Z.eqb_spec k0 k); subst; [apply Hh; assumption|exact A].
  - apply C.
  - intros k' H. cbn in *. unfold fupd in *. destruct (Z.eqb_spec k' k); subst; [|apply C; exact H].
    destruct (c_unused _ _ C k H) as (Q & A & B & _). auto.
  - apply C.
Qed.

Lemma cinv_push_mex k t s : CInv s (Some t) -> x_used (s_mex s k) = true -> CInv (push_mex k t s) None.
Proof.
  intros C U. eapply cinv_emit; [|right; reflexivity|].
  - apply cinv_set_mex_q; [exact C| |cbn; congruence|apply C]. intros x _ H. apply in_or_app. left. exact H.
  - unfold accounted. rewrite O_mov, Z.eqb_refl. cbn. rewrite fupd_eq. apply in_or_app. right. left. reflexivity.
Qed.

Lemma cinv_push_send c t s : CInv s (Some t) -> CInv (push_send c t s) None.
Proof.
  intros C. eapply cinv_emit; [|right; reflexivity|].
  - apply cinv_set_send; [exact C|]. intros x _ H. apply in_or_app. left. exact H.
  - unfold accounted. rewrite O_mov, Z.eqb_refl. cbn. rewrite fupd_eq. apply in_or_app. right. left. reflexivity.
Qed.

Lemma cinv_mov_local t p s : CInv s None -> transient p -> CInv (emit (EMov t p) s) (Some t).
Proof.
  intros C Tp. eapply cinv_emit; [exact C|left; reflexivity|].
  unfold accounted. rewrite O_mov, Z.eqb_refl. destruct p; try contradiction; reflexivity.
Qed.

Lemma cinv_pop_mex k t q p s : CInv s None -> x_q (s_mex s k) = t :: q -> transient p ->
  CInv (pop_mex k t q p s) (Some t).
Proof.
  intros C Q Tp. apply (cinv_set_mex_q (emit (EMov t p) s) k (mx_q (s_mex s k) q)); [apply cinv_mov_local; assumption|..]; cbn.
  - intros x E H. rewrite Q in H. destruct H as [<-|H]; [|exact H].
    rewrite Z.eqb_refl in E. subst p. destruct Tp.
  - intros H. destruct (c_unused _ _ C k H) as (Q' & _). congruence.
  - apply C.
Qed.

Lemma cinv_pop_send c t q p s : CInv s None -> s_send s c = t :: q -> transient p ->
  CInv (pop_send c t q p s) (Some t).
Proof.
  intros C Q Tp. apply (cinv_set_send (emit (EMov t p) s) c q); [apply cinv_mov_local; assumption|]; cbn.
  intros x E H. rewrite Q in H. destruct H as [<-|H]; [|exact H].
  rewrite Z.eqb_refl in E. subst p. destruct Tp.
Qed.

Lemma cinv_attach k t s r' : CInv s (Some t) ->
  (forall t', ~ rdr_holds s k t') ->
  (r_init r' = Some t \/ (r_prev r' = Some t /\ s_fdone s t = false)) ->
  (forall t', r_prev r' = Some t' -> s_fdone s t' = false -> r_cur r' = Some t') ->
  x_used (s_mex s k) = true ->
  CInv (emit (EMov t (PFrag k)) (set_rdr s k r')) None.
Proof.
  intros C Hn Hh Ha U. eapply cinv_emit; [|right; reflexivity|].
  - apply cinv_set_rdr; [exact C| |exact Ha|congruence]. intros t' H. destruct (Hn t' H).
  - unfold accounted, rdr_holds. rewrite O_mov, Z.eqb_refl. cbn. rewrite fupd_eq. exact Hh.
Qed.

Lemma cinv_wattach k t s w' : CInv s (Some t) ->
  (forall t', ~ wr_holds s k t') -> w_cur w' = Some t -> w_sent w' = false -> x_used (s_mex s k) = true ->
  CInv (emit (EMov t (PWFrag k)) (set_wr s k w')) None.
Proof.
  intros C Hn Hc Hs U. eapply cinv_emit; [|right; reflexivity|].
  - apply cinv_set_wr; [exact C| |congruence]. intros t' _ H. destruct (Hn t' H).
  - unfold accounted, wr_holds. rewrite O_mov, Z.eqb_refl. cbn. rewrite fupd_eq. auto.
Qed.

(* flushFragment: the writer's fragment goes to the send queue *)
Lemma cinv_flush s k t c w' : CInv s None -> O s t = PWFrag k -> x_used (s_mex s k) = true ->
  CInv (push_send c t (set_wr s k w')) None.
Proof.
  intros C Ot U. pose proof (c_acc _ _ C t) as At. unfold accounted in At. rewrite Ot in At.
  apply (cinv_set_wr (push_send c t s) k w').
  - eapply cinv_emit; [|left; reflexivity|].
    + apply cinv_set_send; [exact C|]. intros x _ H. apply in_or_app. left. exact H.
    + unfold accounted. rewrite O_mov, Z.eqb_refl. cbn. rewrite fupd_eq. apply in_or_app. right. left. reflexivity.
  - intros x E [H _]. destruct At as [At _]. cbn in H. rewrite At in H. injection H as <-.
    unfold push_send in E. rewrite O_mov, Z.eqb_refl in E. discriminate.
  - cbn. congruence.
Qed.

(* the model changes the reader's record first and calls done() then; the accounting goes the other way round *)
Lemma cinv_release_prev k q s ex : CInv s ex -> CInv (release_prev k q s) ex.
Proof.
  intros C. unfold release_prev. cbv zeta. set (r := s_rdr s k).
  assert (Go : forall s2, CInv s2 ex -> s_rdr s2 = s_rdr s -> s_mex s2 = s_mex s ->
            (forall t, r_prev r = Some t -> s_fdone s2 t = true) ->
            CInv (set_rdr s2 k (rd_set r (r_init r) None (r_cur r) (r_err r) (r_complete r) q)) ex).
  { intros s2 C2 Er Em Hp. apply cinv_set_rdr; [exact C2| |cbn; discriminate|].
    - unfold rdr_holds. rewrite Er. fold r. intros t [E|[E D]]; [left; exact E|]. rewrite (Hp t E) in D. discriminate.
    - rewrite Em. intros U. cbn. destruct (c_unused _ _ C k U) as (_ & A & _). auto. }
  destruct (r_prev r) as [t|] eqn:P.
  - rewrite frag_done_set_rdr. destruct (frag_done_fields t s) as (Em & Er & _).
    apply Go; [apply cinv_frag_done; exact C|exact Er|exact Em|]. intros t' E. injection E as <-. apply frag_done_done.
  - apply Go; [exact C|reflexivity|reflexivity|discriminate].
Qed.

Lemma cinv_fetch_done k s ex : CInv s ex -> CInv (fetch_done k s) ex.
Proof.
  intros C. pose proof (fetch_done_prev_done k s (c_alias _ _ C k)) as Hp. revert Hp.
  unfold fetch_done. destruct (r_cur (s_rdr s k)) as [t0|]; [|intros _; exact C].
  rewrite frag_done_set_rdr. destruct (frag_done_fields t0 s) as (_ & Er & _). cbn. rewrite fupd_eq. cbn. intros Hp.
  apply cinv_rdr_weaken; [apply cinv_frag_done; exact C|rewrite Er; reflexivity|rewrite Er; reflexivity|].
  cbn. intros t P D. rewrite (Hp t P) in D. discriminate.
Qed.

Lemma cinv_fail_reader k s ex : CInv s ex ->
  (forall t, r_prev (s_rdr s k) = Some t -> s_fdone s t = true) -> CInv (fail_reader k s) ex.
Proof.
  intros C Hp. unfold fail_reader. apply cinv_rdr_weaken; [apply cinv_shutdown; exact C|reflexivity|reflexivity|].
  cbn. intros t P D. rewrite (Hp t P) in D. discriminate.
Qed.

Lemma cinv_parse_chunks k pok t s ex : CInv s ex -> CInv (parse_chunks k pok t s) ex.
Proof.
  intros C. unfold parse_chunks. cbv zeta. destruct pok; [apply cinv_acc; exact C|].
  apply cinv_rdr_weaken; [apply cinv_acc; exact C|reflexivity|reflexivity|]. cbn. apply C.
Qed.

Lemma step_cinv_fetch s k a b c s' : Inv s -> CInv s None -> loses s (LFetch k a b c) = false ->
  step false s (LFetch k a b c) = Some s' -> CInv s' None.
Proof.
  intros Iv C NL H. unfold step in H. cbv zeta in H. cbn in NL.
  destruct (r_err (s_rdr s k) || r_complete (s_rdr s k)); [discriminate|].
  pose proof (fetch_done_inv k s Iv) as I1. destruct (fetch_done_fields k s) as (M1 & R1). cbv zeta in R1.
  pose proof (cinv_fetch_done k s None C) as C1. pose proof (fetch_done_prev_done k s (c_alias _ _ C k)) as P1.
  set (s1 := fetch_done k s) in *. pose proof I1 as [T1 S1].
  assert (Ini : r_init (s_rdr s1 k) = r_init (s_rdr s k)) by (rewrite R1; reflexivity).
  destruct (r_init (s_rdr s1 k)) as [t|] eqn:Ini1.
  -
    some H. destruct (i_init _ S1 _ _ Ini1) as (Ot & ND & Pv & Cv).
    apply cinv_parse_chunks. apply cinv_set_rdr; [exact C1| |cbn; auto|].
    + cbn. intros t' [E|[E _]]; [right; split; congruence|congruence].
    + intros U. destruct (c_unused _ _ C1 k U) as (_ & X & _). congruence.
  - rewrite <- Ini in NL. rewrite <- M1 in NL.
    destruct (x_ctx (s_mex s1 k)) eqn:Cx; [some H; apply cinv_fail_reader; assumption|].
    destruct (x_q (s_mex s1 k)) as [|t q] eqn:Q.
    + destruct (x_errn (s_mex s1 k)); [some H; apply cinv_fail_reader; assumption|discriminate].
    + destruct (inv_pop_mex k t q (PLocal k) s1 I1 Q I (Z.eqb_refl k)) as [I2 O2].
      pose proof (cinv_pop_mex k t q (PLocal k) s1 C1 Q I) as C2.
      assert (Uk : x_used (s_mex s1 k) = true).
      { destruct (x_used (s_mex s1 k)) eqn:U; [reflexivity|]. destruct (c_unused _ _ C1 k U) as (X & _). congruence. }
      set (s2 := pop_mex k t q (PLocal k) s1) in *. cbn in NL.
      destruct (s_ty s t =? 0).
      * apply negb_false_iff in NL. subst a. some H.
        apply cinv_parse_chunks. apply cinv_attach; [apply cinv_acc; exact C2| | |cbn; auto|].
        -- intros t' [E|[E D]]; cbn in E; [congruence|]. cbn in D. rewrite (P1 t' E) in D. discriminate.
        -- right. split; [reflexivity|]. cbn. apply (live_not_done s2); [apply I2|rewrite O2; split; discriminate].
        -- cbn. unfold fupd. rewrite Z.eqb_refl. cbn. exact Uk.
      * apply negb_false_iff in NL. rewrite NL in H. some H.
        assert (C4 : CInv (p_rel S_rpf_rel t (p_acc t s2)) None) by (apply cinv_rel, cinv_acc; exact C2).
        destruct (r_inbound (s_rdr s k) && c); (apply cinv_rdr_weaken; [|reflexivity|reflexivity|]);
          try (apply cinv_shutdown); try exact C4; cbn; intros t' P D; rewrite (P1 t' P) in D; discriminate.
Qed.

Theorem step_cinv s l s' : Inv s -> CInv s None -> app_ok s l = true -> loses s l = false ->
  step false s l = Some s' -> CInv s' None.
Proof.
  intros Iv C _ NL H. pose proof Iv as [T S].
  destruct l; try (eapply step_cinv_fetch; eassumption); unfold step in H; cbn in NL.
  - (* LLocal *)
    destruct (which =? 0); some H; apply cinv_rel, cinv_get_acc; first [exact I|exact C].
  - (* LReadFail *) some H. apply cinv_rel, cinv_get_acc; [exact I|exact C].
  - (* LReadRel *) some H. apply cinv_rel, cinv_get_acc; [exact I|exact C].
  - (* LReadLeak *) discriminate.
  - (* LReadFwd *)
    destruct ko as [k|]; [|discriminate]. apply negb_false_iff in NL. rewrite NL in H. cbn in H.
    set (s1 := set_ty (p_acc (s_next s) (p_get S_rf_get (PReader c) s)) (s_next s) ty) in *.
    assert (C2 : CInv s1 (Some (s_next s))) by (apply cinv_misc, cinv_get_acc; [exact I|exact C]).
    destruct (x_ctx (s_mex s k)); [some H; apply cinv_rel; exact C2|].
    destruct (x_dropped (s_mex s k)); [some H; apply cinv_rel; exact C2|].
    destruct (mex_room (s_mex s k)).
    + some H. apply cinv_push_mex; [exact C2|]. unfold s1. cbn. apply C. exact NL.
    + destruct (x_errn (s_mex s k)); [|discriminate]. some H. apply cinv_rel.
      apply cinv_set_mex; [exact C2|reflexivity|reflexivity|]. cbn. intros _. exact NL.
  - (* LReadCallReq *)
    destruct (x_used (s_mex s k)) eqn:U; [discriminate|]. some H.
    destruct (c_unused _ _ C k U) as (Q & Ri & Rp & Wc).
    apply cinv_attach.
    + apply cinv_set_wr; [|intros t _ [E _]; cbn in E; congruence|cbn; unfold fupd; rewrite Z.eqb_refl; cbn; discriminate].
      apply cinv_new_mex; [apply cinv_get_acc; [exact I|exact C]|exact U|reflexivity|reflexivity].
    + intros t' [E|[E _]]; cbn in E; congruence.
    + left. reflexivity.
    + cbn. discriminate.
    + cbn. unfold fupd. rewrite Z.eqb_refl. reflexivity.
  - (* LRelaySend *)
    destruct (send_room s d); some H; [apply cinv_push_send|apply cinv_rel]; apply cinv_get_acc; first [exact I|exact C].
  - (* LRfsFrag *)
    subst swallowed.
    destruct (send_room s d); some H; [apply cinv_push_send|apply cinv_rel]; apply cinv_get_acc; first [exact I|exact C].
  - (* LConnSysErr *)
    destruct (wok && negb closed && send_room s c); some H; [apply cinv_push_send|apply cinv_rel];
      apply cinv_get_acc; first [exact I|exact C].
  - (* LSendMsg *)
    destruct wok; cbn in H, NL.
    + apply negb_false_iff in NL. rewrite NL in H. some H. apply cinv_push_send, cinv_get_acc; [exact I|exact C].
    + some H. apply cinv_rel, cinv_get_acc; [exact I|exact C].
  - (* LNewMex *)
    destruct (x_used (s_mex s k)) eqn:U; [discriminate|]. some H.
    destruct (c_unused _ _ C k U) as (Q & Ri & Rp & Wc).
    apply cinv_set_wr; [|intros t _ [E _]; cbn in E; congruence|auto].
    apply cinv_set_rdr; [|intros t [E|[E _]]; cbn in E; congruence|cbn; discriminate|auto].
    apply cinv_new_mex; [exact C|exact U|reflexivity|reflexivity].
  - (* LCtx *) some H. apply cinv_set_mex; [exact C|reflexivity|reflexivity|auto].
  - (* LErrN *) some H. apply cinv_set_mex; [exact C|reflexivity|reflexivity|auto].
  - (* LExpire *) some H. apply cinv_set_mex; [exact C|reflexivity|reflexivity|cbn; discriminate].
  - (* LShutdown *) some H. apply cinv_shutdown; exact C.
  - (* LAcc *)
    destruct (r_err (s_rdr s k) || r_complete (s_rdr s k)); [discriminate|].
    destruct (r_cur (s_rdr s k)); [|discriminate]. some H. apply cinv_acc. exact C.
  - (* LCloseLast *)
    destruct (r_err (s_rdr s k) || r_complete (s_rdr s k)); [discriminate|].
    destruct (r_cur (s_rdr s k)) as [t|] eqn:Cu; [|discriminate]. some H.
    apply cinv_frag_done.
    destruct (r_inbound (s_rdr s k)); (apply cinv_rdr_weaken; [|reflexivity|reflexivity|cbn; apply C]);
      [|apply cinv_shutdown]; exact C.
  - (* LRespErr *)
    some H. apply cinv_set_wr; [exact C|intros t _ [A B]; auto|]. intros U. cbn. apply C. exact U.
  - (* LRespSysErr *)
    destruct (w_err (s_wr s k)); [some H; exact C|]. some H.
    apply cinv_release_prev. apply cinv_shutdown.
    apply cinv_set_wr; [exact C|intros t _ [A B]; auto|]. intros U. cbn. apply C. exact U.
  - (* LDispatchFail *)
    some H. apply cinv_release_prev. exact C.
  - (* LRecvMsg *)
    destruct (x_ctx (s_mex s k)); [some H; exact C|].
    destruct (x_q (s_mex s k)) as [|t q] eqn:Q.
    + destruct (x_errn (s_mex s k)); [some H; exact C|discriminate].
    + pose proof (cinv_pop_mex k t q (PLocal k) s C Q I) as C1. cbn in NL.
      destruct (s_ty s t =? 0); [|destruct (s_ty s t =? 1); [|discriminate]]; some H; apply cinv_rel, cinv_acc; exact C1.
  - (* LWNew *)
    destruct (negb (x_used (s_mex s k))) eqn:U; [discriminate|]. apply negb_false_iff in U.
    destruct (w_err (s_wr s k) || w_complete (s_wr s k)); [discriminate|].
    destruct (match w_cur (s_wr s k) with Some _ => negb (w_sent (s_wr s k)) | None => false end) eqn:G; [discriminate|].
    destruct (x_ctx (s_mex s k) || x_errn (s_mex s k)).
    + some H. apply cinv_set_wr; [apply cinv_shutdown; exact C|intros t _ [A B]; auto|cbn; rewrite fupd_eq; cbn; congruence].
    + cbn in NL. rewrite andb_true_r in NL. apply negb_false_iff in NL. subst wok. some H.
      apply cinv_wattach; [apply cinv_get_acc; [exact I|exact C]| |reflexivity|reflexivity|exact U].
      intros t' [A B]. cbn in A, B. rewrite A, B in G. discriminate.
  - (* LWAcc *)
    destruct (w_err (s_wr s k) || w_complete (s_wr s k) || w_sent (s_wr s k)); [discriminate|].
    destruct (w_cur (s_wr s k)); [|discriminate]. some H. apply cinv_acc. exact C.
  - (* LWFlush *)
    destruct (w_err (s_wr s k) || w_complete (s_wr s k) || w_sent (s_wr s k)) eqn:G; [discriminate|].
    destruct (w_cur (s_wr s k)) as [t|] eqn:Cu; [|discriminate].
    apply orb_false_iff in G as [_ G].
    pose proof (i_w _ S _ _ Cu G) as Ot.
    assert (U : x_used (s_mex s k) = true).
    { destruct (x_used (s_mex s k)) eqn:U; [reflexivity|]. destruct (c_unused _ _ C k U) as (_ & _ & _ & W). congruence. }
    destruct (x_ctx (s_mex s k) || x_errn (s_mex s k)).
    + some H. apply cinv_shutdown. apply cinv_set_wr; [apply cinv_acc; exact C| |cbn; congruence].
      intros t' _ [A B]. cbn in A. cbn. split; [congruence|reflexivity].
    + destruct (send_room s (x_conn (s_mex s k))); [|discriminate]. some H.
      destruct (last && w_inbound (s_wr s k)); [apply cinv_shutdown|];
        (apply cinv_flush; [apply cinv_acc; exact C|exact Ot|exact U]).
  - (* LWrite *)
    destruct (s_wexit s c); [discriminate|].
    destruct (s_send s c) as [|t q] eqn:Q; [discriminate|].
    destruct werr; some H; [apply cinv_misc|]; apply cinv_rel, cinv_acc, cinv_pop_send; first [exact C|exact Q|exact I].
  - (* LStop *) some H. apply cinv_misc; exact C.
  - (* LWExit *) destruct (_ && _ && _); [some H; apply cinv_misc; exact C|discriminate].
  - (* LDrain *)
    destruct (s_stop s c && s_wexit s c); [|discriminate].
    destruct (s_send s c) as [|t q] eqn:Q; [discriminate|]. some H.
    apply cinv_rel, cinv_pop_send; [exact C|exact Q|exact I].
Qed.

Theorem run_noloss_inv ls : forall s s', Inv s -> CInv s None -> run_noloss s ls = Some s' -> Inv s' /\ CInv s' None.
Proof.
  induction ls as [|l r IH]; cbn; intros s s' I C H; [some H; split; assumption|].
  destruct (app_ok s l) eqn:A; [|discriminate]. destruct (loses s l) eqn:NL; [discriminate|]. cbn in H.
  destruct (step false s l) as [s1|] eqn:E; [|discriminate].
  eapply IH; [| |exact H]; [eapply step_inv|eapply step_cinv]; eassumption.
Qed.

Lemma own_not_free tr t : tr_ok tr -> Forall ev_wf tr -> In t (toks tr) -> own_of tr t <> PFree.
Proof.
  induction tr as [|e r IH]; cbn; [tauto|]. intros [Ok He] W X. inversion W as [|? ? We Wr]; subst.
  destruct e as [s0 t' p|t' p|t'|s0 t']; cbn in *.
  - destruct (Z.eqb_spec t t'); [apply We|]. destruct X; [congruence|auto].
  - destruct (Z.eqb_spec t t'); [apply We|]. destruct X; [congruence|auto].
  - destruct X as [X|X]; [subst|auto]. apply IH; [exact Ok|exact Wr|]. apply gets_toks. apply He.
  - destruct (Z.eqb_spec t t'); [discriminate|]. destruct X; [congruence|auto].
Qed.

(* every frame obtained is released or still referenced by a queue, a reader or a writer *)
Theorem no_loss cap ls s : run_noloss (init cap) ls = Some s ->
  forall t, In t (gets (history s)) -> In t (rels (history s)) \/ held s t.
Proof.
  intros H t G. destruct (run_noloss_inv ls _ _ (init_inv cap) (cinv_init cap) H) as [[T S] C].
  unfold history in *. rewrite gets_rev in G. apply in_rev in G. rewrite rels_rev.
  pose proof (c_acc _ _ C t) as A. unfold accounted in A.
  assert (NF : O s t <> PFree).
  { apply own_not_free; [apply T|apply T|apply gets_toks; exact G]. }
  destruct (O s t) eqn:E; try congruence.
  - left. rewrite <- in_rev. apply own_released; [apply T|exact E].
  - right. left. exists k. auto.
  - right. left. exists k. auto.
  - right. right. exists c. exact A.
  - right. left. exists k. auto.
Qed.

Theorem noloss_quiescent cap ls s : run_noloss (init cap) ls = Some s -> quiescent s -> all_released (history s).
Proof.
  intros H Q t G. destruct (no_loss cap ls s H t G) as [R|Hd]; [exact R|]. exfalso. exact (Q t Hd).
Qed.

Lemma run_noloss_run ls : forall s s', run_noloss s ls = Some s' -> run false s ls = Some s'.
Proof.
  induction ls as [|l r IH]; cbn; intros s s' H; [exact H|].
  destruct (app_ok s l); [|discriminate]. destruct (loses s l); [discriminate|]. cbn in H.
  destruct (step false s l); [|discriminate]. apply IH. exact H.
Qed.

(* ------------------------------------------------------------------ the site table *)

From Verif Require Import Gen.GenSites.

(* the model's site table is exactly the list of FramePool Get/Release call sites that go2v
   extracts from the source on this run: a new, removed or moved call site breaks this proof *)
Lemma site_table_is_generated : map snd site_table = pool_sites.
Proof. vm_compute. reflexivity. Qed.

Lemma site_numbers : map fst site_table = map Z.of_nat (seq 1 (length pool_sites)).
Proof. vm_compute. reflexivity. Qed.

Definition site_known (e : ev) : Prop :=
  match e with EGet x _ _ | ERel x _ => In x (map fst site_table) | _ => True end.

(* [ext P base tr]: tr extends base by events that satisfy P *)
Inductive ext (P : ev -> Prop) (base : list ev) : list ev -> Prop :=
| ext_base : ext P base base
| ext_cons e tr : P e -> ext P base tr -> ext P base (e :: tr).

Lemma ext_Forall P base tr : ext P base tr -> Forall P base -> Forall P tr.
Proof. induction 1; intros F; [exact F|constructor; auto]. Qed.

Lemma frag_done_ext (P : ev -> Prop) base t s : P (ERel S_pif_rel t) -> ext P base (s_trace s) -> ext P base (s_trace (frag_done t s)).
Proof. intros Hp K. unfold frag_done. destruct (s_fdone s t); [exact K|]. cbn. constructor; assumption. Qed.
Lemma fetch_done_ext (P : ev -> Prop) base k s : (forall t, P (ERel S_pif_rel t)) -> ext P base (s_trace s) -> ext P base (s_trace (fetch_done k s)).
Proof. intros Hp K. unfold fetch_done. destruct (r_cur (s_rdr s k)); [apply frag_done_ext; [apply Hp|]|]; exact K. Qed.
Lemma parse_chunks_ext (P : ev -> Prop) base k pok t s : P (EAcc t) -> ext P base (s_trace s) -> ext P base (s_trace (parse_chunks k pok t s)).
Proof. intros Hp K. unfold parse_chunks. cbv zeta. destruct pok; cbn; constructor; assumption. Qed.
Lemma release_prev_ext (P : ev -> Prop) base k q s : (forall t, P (ERel S_pif_rel t)) -> ext P base (s_trace s) -> ext P base (s_trace (release_prev k q s)).
Proof. intros Hp K. unfold release_prev. cbv zeta. destruct (r_prev (s_rdr s k)); [apply frag_done_ext; [apply Hp|]|]; exact K. Qed.

(* follows the events a step adds to the trace; [solveP] proves P of each *)
Ltac ext_tac solveP :=
  repeat first
    [ apply ext_base
    | apply frag_done_ext; [solveP|]
    | apply fetch_done_ext; [intro; solveP|]
    | apply parse_chunks_ext; [solveP|]
    | apply release_prev_ext; [intro; solveP|]
    | match goal with
      | |- ext _ _ (s_trace (if ?b then _ else _)) => destruct b
      | |- ext _ _ (s_trace (match ?x with Some _ => _ | None => _ end)) => destruct x
      | |- ext _ _ (ERel (if ?b then _ else _) _ :: _) => destruct b
      | |- ext _ _ (_ :: _) => apply ext_cons; [solveP|]
      end
    | progress cbn [s_trace emit p_get p_acc p_rel push_mex push_send pop_mex pop_send set_mex set_rdr set_wr
                    set_send set_stop set_wexit set_fdone set_ty bump mex_shutdown fail_reader] ].

(* every Get/Release event of the repaired model names a site of the table *)
Lemma step_sites s l s' : step false s l = Some s' -> Forall site_known (s_trace s) -> Forall site_known (s_trace s').
Proof.
  intros H. apply ext_Forall. destruct l; unfold step in H; cbv zeta in H; split_step H; some H;
    ext_tac ltac:(vm_compute; tauto).
Qed.

Theorem run_sites ls : forall s s', run false s ls = Some s' -> Forall site_known (s_trace s) -> Forall site_known (s_trace s').
Proof.
  intros s s' H K. apply (run_ind (fun s => Forall site_known (s_trace s))) with (ls := ls) (s := s); [|exact K|exact H].
  intros s0 l s1 K0 _ E. exact (step_sites _ _ _ E K0).
Qed.

(* ------------------------------------------------------------------ what the pinned tree did, and why the application contract is needed *)

Definition pinned_witness : list label :=
  [LReadCallReq 1 7; LFetch 7 true true true; LReadFwd 1 (Some 7) 0; LFetch 7 true false true; LDispatchFail 7].

(* dispatchInbound as on the pinned tree: arg1 continues in a second fragment whose checksum
   does not match; the initial frame, already released by the reader, is released again *)
Theorem pinned_double_release :
  exists s, run true (init 8) pinned_witness = Some s /\ ~ released_at_most_once (history s).
Proof.
  eexists. split; [vm_compute; reflexivity|]. intros N. vm_compute in N.
  inversion N as [|? ? Hn _]. apply Hn. left. reflexivity.
Qed.

(* the same schedule on the repaired code *)
Lemma repaired_witness_ok :
  exists s, run false (init 8) pinned_witness = Some s /\ rels (history s) = [0; 1] /\ gets (history s) = [0; 1].
Proof. eexists. split; [vm_compute; reflexivity|]. split; reflexivity. Qed.

(* a handler that goes on reading the request after InboundCallResponse.SendSystemError makes
   fragmentingReader.Read copy out of a released frame: app_ok is needed *)
Theorem contract_needed :
  exists s, run_any false (init 8) [LReadCallReq 1 7; LFetch 7 true true true; LRespSysErr 7; LAcc 7] = Some s /\
            ~ no_use_after_release (history s).
Proof.
  eexists. split; [vm_compute; reflexivity|]. intros N. vm_compute in N.
  refine (N [EGet 3 0 (PReader 1); EAcc 0; EMov 0 (PFrag 7); EAcc 0] 19 0 [EAcc 0] eq_refl _).
  left. reflexivity.
Qed.
