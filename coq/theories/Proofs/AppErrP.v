(* Property C20, application errors in full: glue between the response representation of
   Model/ErrorPath.v (first call res fragment = flags, callRes{code,..}, [rest]) and the
   fragment lists of Model/Frag.v / Model/FragWire.v (property C01), and the end-to-end
   theorem [apperr_full]: a response written by the fragmenting writer with (or without)
   SetApplicationError, of any number of fragments, forwarded through live relays, reaches the
   caller with ApplicationError() = the handler's flag and exactly the handler's three
   arguments.  The definitions below only connect those models; they add no behaviour. *)
From Coq Require Import ZArith List Bool Lia.
From Verif Require Import Base.Wrap Base.Bytes Gen.GenConsts Gen.GenFrame Model.TypedBuf Model.Messages
  Model.ErrorPath Spec.Protocol Spec.ErrorSpec Proofs.CodecP Proofs.FrameP Proofs.ErrorPathP.
From Verif Require Import Model.Crc Model.Frag Model.FragWire Spec.FragSpec Spec.FragOk
  Proofs.FragWP Proofs.FragWireP Proofs.FragRP Proofs.FragRoundtrip.
Import ListNotations.
Local Open Scope Z_scope.

(* ---- glue: a fragment of Model/Frag.v as ErrorPath's (flags, rest) ---- *)

(* the flags byte and the bytes behind the message header (checksum type, checksum, chunks)
   as finish + flushFragment lay them out (FragWire.enc_frag_payload) *)
Definition frag_flags (f : frag) : Z := if f_more f then c_hasMoreFragmentsFlag else 0.
Definition frag_rest (f : frag) : list Z := [f_ctype f] ++ f_ck f ++ enc_chunks (f_chunks f).

Lemma enc_frag_split msghdr f : enc_frag_payload msghdr f = [frag_flags f] ++ msghdr ++ frag_rest f.
Proof. reflexivity. Qed.

(* a call res continue fragment: flags, empty message body, rest (cf. ErrorPath.w_callres_fragment
   / callres_frame for the first fragment) *)
Definition w_cont_fragment (flags : Z) (rest : list Z) : wbuf -> wbuf := w_u8 flags >> w_nop >> w_bytes rest.
Definition callres_cont_frame (id flags : Z) (rest : list Z) : option (fheader * list Z) :=
  frame_write c_MaxFramePayloadSize (w_cont_fragment flags rest) c_messageTypeCallResContinue id.

(* the wire frames of a response whose fragments are [fs]: the first through ErrorPath's
   callres_frame (response code of [rs]), the others as continuation frames; None = some
   frame could not be built *)
Fixpoint resp_frames (first : bool) (sid : Z) (rs : resp) (hdrs : kvs) (fs : list frag) : option (list (list Z)) :=
  match fs with
  | [] => Some []
  | f :: r =>
      match (if first then callres_frame sid (frag_flags f) rs hdrs (frag_rest f)
             else callres_cont_frame sid (frag_flags f) (frag_rest f)) with
      | None => None
      | Some (h, p) =>
          match resp_frames false sid rs hdrs r with
          | None => None
          | Some ws => Some (frame_out h p :: ws)
          end
      end
  end.

(* every frame through the same chain of relays; None = some frame was not forwarded *)
Fixpoint relay_all (hops : list hop) (ws : list (list Z)) : option (list (list Z)) :=
  match ws with
  | [] => Some []
  | w :: r =>
      match relay_chain hops w with
      | None => None
      | Some w' => match relay_all hops r with None => None | Some r' => Some (w' :: r') end
      end
  end.

(* the caller's connection reads one frame (ReadIn, dispatch), the exchange [id] hands it to
   the response reader, which demands message type [mt] (mex.recvPeerFrameOfType) and parses it
   (parseInboundFragment: FragWire.parse_frag_payload) *)
Definition recv_fragment (id mt : Z) (wire : list Z) : option frag :=
  let '(code, h, payload, _) := frame_read_in wire in
  if negb (code =? 0) then None else
  match handle_frame false h payload with
  | AForward fid =>
      if fid =? id then
        match recv_peer_frame_of_type id mt (mkMex ENil [(h, payload)] ENil) with
        | RFrame _ p => let '(c, f) := parse_frag_payload mt p in if c =? 0 then Some f else None
        | _ => None
        end
      else None
  | _ => None
  end.

Fixpoint recv_fragments (first : bool) (id : Z) (ws : list (list Z)) : option (list frag) :=
  match ws with
  | [] => Some []
  | w :: r =>
      match recv_fragment id (if first then c_messageTypeCallRes else c_messageTypeCallResContinue) w with
      | None => None
      | Some f => match recv_fragments false id r with None => None | Some fs => Some (f :: fs) end
      end
  end.

(* ---- the frames in specification form ---- *)
Definition res_hdr (code : Z) (hdrs : kvs) : list Z := s_callres code (s_tracing 0 0 0 0) hdrs.

Fixpoint wire_frames (first : bool) (id code : Z) (hdrs : kvs) (fs : list frag) : list (list Z) :=
  match fs with
  | [] => []
  | f :: r => s_frame (if first then 4 else 20) id (enc_frag_payload (if first then res_hdr code hdrs else []) f)
              :: wire_frames false id code hdrs r
  end.

(* what the writer guarantees about each fragment, relative to the frame capacities *)
Section Wire.
  Variable kind : Z.
  Variable code : Z.
  Variable hdrs : kvs.
  Hypothesis Hkind : kind_ok kind.
  Hypothesis Hcode : u_ok 1 code.
  Hypothesis Hhdrs : kvs8_ok hdrs.

  Definition frag_wire_ok (first : bool) (f : frag) : Prop :=
    chunks_size (f_chunks f) <= frag_capacity (if first then res_hdr code hdrs else []) (ck_fresh kind) /\
    f_ctype f = kind /\ zlen (f_ck f) = ck_size (ck_fresh kind).

  Fixpoint frags_wire_ok (first : bool) (fs : list frag) : Prop :=
    match fs with [] => True | f :: r => frag_wire_ok first f /\ frags_wire_ok false r end.

  Lemma callres_hdr_ok : callres_ok (mkCallRes code zero_span hdrs).
  Proof. unfold callres_ok. cbn [cs_code cs_span cs_headers]. split; [exact Hcode|]. split; [apply zero_span_ok|exact Hhdrs]. Qed.

  Lemma frag_flags_ok f : u_ok 1 (frag_flags f).
  Proof. apply u_ok_1. unfold frag_flags, c_hasMoreFragmentsFlag. destruct (f_more f); lia. Qed.

  Lemma frag_flags_more f : hasMoreFragments (frag_flags f) = f_more f.
  Proof. apply more_flag_roundtrip. Qed.

  Lemma payload_fits first f : frag_wire_ok first f ->
    zlen (enc_frag_payload (if first then res_hdr code hdrs else []) f) <= 65519.
  Proof.
    intros [Hs [_ Hk]].
    pose proof (frame_bytes_bound _ (ck_fresh kind) f Hs Hk) as B.
    unfold c_FrameHeaderSize, c_MaxFrameSize in B. lia.
  Qed.

  (* ---- sending: the frames are the specified ones ---- *)
  Lemma frag_frame_out w mt sid body : writes w body -> u_ok 1 mt -> zlen body <= 65519 ->
    exists h p, frame_write c_MaxFramePayloadSize w mt sid = Some (h, p) /\ frame_out h p = s_frame mt sid body.
  Proof.
    intros W Ht Hl. exists (mkFH (16 + zlen body) mt 0 sid), body. split.
    - apply frame_write_ok; [exact W|exact Hl|unfold c_MaxFramePayloadSize; lia].
    - apply frame_out_spec; [exact Ht|exact Hl].
  Qed.

  Lemma first_frame_out sid rs f :
    u_ok 4 sid -> response_code_of rs = code -> frag_wire_ok true f ->
    exists h p, callres_frame sid (frag_flags f) rs hdrs (frag_rest f) = Some (h, p) /\
                frame_out h p = s_frame 4 sid (enc_frag_payload (res_hdr code hdrs) f).
  Proof.
    intros Hid Hrc Hok. apply frag_frame_out; [|apply u_ok_1; lia|exact (payload_fits true f Hok)].
    pose proof (w_callres_fragment_writes (frag_flags f) rs hdrs (frag_rest f) (frag_flags_ok f) Hhdrs) as W.
    rewrite Hrc in W. exact W.
  Qed.

  Lemma cont_frame_out sid f :
    u_ok 4 sid -> frag_wire_ok false f ->
    exists h p, callres_cont_frame sid (frag_flags f) (frag_rest f) = Some (h, p) /\
                frame_out h p = s_frame 20 sid (enc_frag_payload [] f).
  Proof.
    intros Hid Hok. apply frag_frame_out; [|apply u_ok_1; lia|exact (payload_fits false f Hok)].
    rewrite enc_frag_split. unfold w_cont_fragment.
    apply seq_writes; [apply w_u8_writes, frag_flags_ok|].
    exact (seq_writes w_nop (w_bytes (frag_rest f)) [] (frag_rest f) w_nop_writes (w_bytes_writes _)).
  Qed.

  Lemma resp_frames_ok sid rs : u_ok 4 sid -> response_code_of rs = code ->
    forall fs first, frags_wire_ok first fs ->
    resp_frames first sid rs hdrs fs = Some (wire_frames first sid code hdrs fs).
  Proof.
    intros Hid Hrc. induction fs as [|f fs IH]; intros first Hok; [reflexivity|].
    cbn [frags_wire_ok] in Hok. destruct Hok as [Hf Hr]. cbn [resp_frames wire_frames].
    rewrite (IH false Hr). destruct first.
    - destruct (first_frame_out sid rs f Hid Hrc Hf) as (h & p & E & O). rewrite E, O. reflexivity.
    - destruct (cont_frame_out sid f Hid Hf) as (h & p & E & O). rewrite E, O. reflexivity.
  Qed.

  (* ---- relays: live hops forward every frame, only the id changes ---- *)
  Lemma item_live_weaken b it : item_live true it -> item_live b it.
  Proof. destruct it as [| |s r]; cbn [item_live]; [tauto|tauto|]. intros [A B]. split; [intros _; apply A; reflexivity|exact B]. Qed.

  Lemma hop_live_weaken b hp : hop_live true hp -> hop_live b hp.
  Proof. intros [A [B C]]. split; [|split]; [apply item_live_weaken, A|apply item_live_weaken, B|exact C]. Qed.

  Lemma relay_all_ok hops sid : u_ok 4 sid -> Forall (hop_live true) hops ->
    forall fs first, frags_wire_ok first fs ->
    relay_all hops (wire_frames first sid code hdrs fs) = Some (wire_frames first (final_id sid hops) code hdrs fs).
  Proof.
    intros Hid Hl. induction fs as [|f fs IH]; intros first Hok; [reflexivity|].
    cbn [frags_wire_ok] in Hok. destruct Hok as [Hf Hr]. cbn [relay_all wire_frames].
    pose proof (payload_fits first f Hf) as Hp.
    assert (Ht : u_ok 1 (if first then 4 else 20)) by (destruct first; apply u_ok_1; lia).
    destruct (relay_chain_forward hops _ sid _ Ht Hid Hp) as [E _].
    { eapply Forall_impl; [|exact Hl]. intros hp. apply hop_live_weaken. }
    rewrite E, (IH false Hr). reflexivity.
  Qed.

  (* ---- receiving: the fragment parser recovers each fragment ---- *)
  Lemma ck_size_checksum : ck_size (ck_fresh kind) = ChecksumSize kind.
  Proof. destruct Hkind as [-> | [-> | ->]]; reflexivity. Qed.

  Lemma parse_tail_ok first f : frag_wire_ok first f ->
    parse_frag_tail (frag_flags f) (rb (frag_rest f)) = (0, f).
  Proof.
    intros Hok. pose proof (payload_fits first f Hok) as Hp. destruct Hok as [Hs [Ht Hk]].
    unfold frag_rest. rewrite parse_frag_tail_enc, frag_flags_more; [destruct f; reflexivity| | |].
    - rewrite Ht. destruct Hkind as [-> | [-> | ->]]; unfold c_checksumCount; lia.
    - rewrite Ht, <- ck_size_checksum. exact Hk.
    - rewrite enc_frag_split, !zlen_app in Hp. unfold frag_rest in Hp. rewrite !zlen_app in Hp.
      pose proof (zlen_nonneg (if first then res_hdr code hdrs else [])). pose proof (zlen_nonneg (f_ck f)).
      change (zlen [frag_flags f]) with 1 in Hp. change (zlen [f_ctype f]) with 1 in Hp. lia.
  Qed.

  Lemma parse_frag_ok first f : frag_wire_ok first f ->
    parse_frag_payload (if first then c_messageTypeCallRes else c_messageTypeCallResContinue)
      (enc_frag_payload (if first then res_hdr code hdrs else []) f) = (0, f).
  Proof.
    intros Hok. unfold parse_frag_payload. rewrite enc_frag_split. cbn [app].
    pose proof (frag_flags_ok f) as Hfl. unfold u_ok in Hfl. change (256 ^ Z.of_nat 1) with 256 in Hfl.
    rewrite r_u8_byte' by exact Hfl. destruct first.
    - change (c_messageTypeCallRes =? c_messageTypeCallReq) with false. rewrite Z.eqb_refl.
      destruct (r_callres_consumes _ callres_hdr_ok) as [C _].
      unfold spec_callres in C. cbn [cs_code cs_span cs_headers] in C.
      change (spec_span zero_span) with (s_tracing 0 0 0 0) in C. unfold res_hdr. rewrite C. cbn [snd rerr rb].
      exact (parse_tail_ok true f Hok).
    - change (c_messageTypeCallResContinue =? c_messageTypeCallReq) with false.
      change (c_messageTypeCallResContinue =? c_messageTypeCallRes) with false. cbn [app rerr rb].
      exact (parse_tail_ok false f Hok).
  Qed.

  Lemma res_frame_delivered (first : bool) id sz p :
    let h := mkFH sz (if first then 4 else 20) 0 id in
    handle_frame false h p = AForward id /\
    recv_peer_frame_of_type id (if first then c_messageTypeCallRes else c_messageTypeCallResContinue)
      (mkMex ENil [(h, p)] ENil) = RFrame h p.
  Proof.
    destruct first; unfold handle_frame, recv_peer_frame_of_type, recv_peer_frame;
      cbn [fh_type fh_id mx_ctx mx_queue is_nil negb andb]; rewrite !Z.eqb_refl; split; reflexivity.
  Qed.

  Lemma recv_fragment_ok first id f : u_ok 4 id -> frag_wire_ok first f ->
    recv_fragment id (if first then c_messageTypeCallRes else c_messageTypeCallResContinue)
      (s_frame (if first then 4 else 20) id (enc_frag_payload (if first then res_hdr code hdrs else []) f)) = Some f.
  Proof.
    intros Hid Hok. pose proof (payload_fits first f Hok) as Hp. pose proof (parse_frag_ok first f Hok) as P.
    set (p := enc_frag_payload _ f) in *. unfold recv_fragment. rewrite <- (app_nil_r (s_frame _ _ _)).
    rewrite frame_read_in_spec; [|destruct first; apply u_ok_1; lia|exact Hid|exact Hp].
    cbn [Z.eqb negb]. destruct (res_frame_delivered first id (16 + zlen p) p) as [A B].
    cbv zeta in A, B. rewrite A, Z.eqb_refl, B, P. reflexivity.
  Qed.

  Lemma recv_fragments_ok id : u_ok 4 id ->
    forall fs first, frags_wire_ok first fs ->
    recv_fragments first id (wire_frames first id code hdrs fs) = Some fs.
  Proof.
    intros Hid. induction fs as [|f fs IH]; intros first Hok; [reflexivity|].
    cbn [frags_wire_ok] in Hok. destruct Hok as [Hf Hr]. cbn [recv_fragments wire_frames].
    rewrite (recv_fragment_ok first id f Hid Hf), (IH false Hr). reflexivity.
  Qed.

  (* ---- what the writer emits satisfies frags_wire_ok ---- *)
  Lemma ck_size_typecode c : ck_typecode c = kind -> ck_size c = ck_size (ck_fresh kind).
  Proof. unfold ck_typecode, ck_size, ck_fresh. cbn [ck_kind]. intros ->. reflexivity. Qed.

  Lemma zlen_ck_sum c : zlen (ck_sum c) = ck_size c.
  Proof. unfold ck_sum, ck_size. destruct (ck_kind c =? 0); [reflexivity|]. rewrite zlen_be. reflexivity. Qed.

  Lemma writer_frags_wire_ok capf :
    capf true <= frag_capacity (res_hdr code hdrs) (ck_fresh kind) ->
    capf false <= frag_capacity [] (ck_fresh kind) ->
    forall fs first c, frames_ok_from capf first fs -> ck_chain c fs -> ck_typecode c = kind ->
    frags_wire_ok first fs.
  Proof.
    intros C1 C2. induction fs as [|f fs IH]; intros first c Hf Hc Ht; [exact I|].
    cbn [frames_ok_from] in Hf. destruct Hf as (_ & Hs & _ & Hr).
    cbn [ck_chain] in Hc. destruct Hc as (K1 & K2 & K3).
    cbn [frags_wire_ok]. split.
    - unfold frag_wire_ok. split; [destruct first; lia|]. split; [rewrite K2; exact Ht|].
      rewrite K1, zlen_ck_sum. apply ck_size_typecode. rewrite ck_fold_typecode. exact Ht.
    - apply (IH false _ Hr K3). rewrite ck_fold_typecode. exact Ht.
  Qed.

  (* ---- relays in any state: a frame that comes out has only its id changed ---- *)
  Lemma relay_hop_remap hp t id p w :
    u_ok 1 t -> zlen p <= 65519 -> hop_ids_ok hp ->
    relay_hop hp (mkFH (16 + zlen p) t 0 id) p = HForward w ->
    w = s_frame t (hop_remap hp id) p /\ u_ok 4 (hop_remap hp id).
  Proof.
    intros Ht Hp Hok. unfold relay_hop, hop_remap. cbn [fh_type fh_size fh_res1]. unfold hop_ids_ok in Hok.
    destruct (hp_in hp) as [| |s1 r1]; try discriminate.
    destruct (finishesCall t (frame_flags p) && negb s1); [discriminate|].
    destruct (hp_out hp) as [| |s2 r2]; try discriminate.
    destruct (finishesCall t (frame_flags p) && negb s2); [discriminate|].
    destruct (hp_room hp <=? 0); [discriminate|].
    intros H. inversion H. split; [apply frame_out_spec; assumption|exact Hok].
  Qed.

  Lemma relay_chain_remap hops : forall t sid p w,
    u_ok 1 t -> u_ok 4 sid -> zlen p <= 65519 -> Forall hop_ids_ok hops ->
    relay_chain hops (s_frame t sid p) = Some w ->
    w = s_frame t (final_id sid hops) p /\ u_ok 4 (final_id sid hops).
  Proof.
    induction hops as [|hp hops IH]; intros t sid p w Ht Hs Hp Hok H.
    - cbn in H. inversion H. cbn. auto.
    - inversion Hok as [|? ? O1 O2]; subst. cbn [relay_chain] in H.
      rewrite <- (app_nil_r (s_frame t sid p)) in H. rewrite frame_read_in_spec in H by assumption.
      cbn [Z.eqb negb] in H.
      destruct (relay_hop hp (mkFH (16 + zlen p) t 0 sid) p) as [w1| |] eqn:R; try discriminate.
      destruct (relay_hop_remap hp t sid p w1 Ht Hp O1 R) as [-> U].
      exact (IH t (hop_remap hp sid) p w Ht U Hp O2 H).
  Qed.

  Lemma relay_all_remap hops sid : u_ok 4 sid -> Forall hop_ids_ok hops ->
    forall fs first ws', frags_wire_ok first fs ->
    relay_all hops (wire_frames first sid code hdrs fs) = Some ws' ->
    ws' = wire_frames first (final_id sid hops) code hdrs fs /\ (fs <> [] -> u_ok 4 (final_id sid hops)).
  Proof.
    intros Hid Hl. induction fs as [|f fs IH]; intros first ws' Hok H.
    - cbn in H. inversion H. split; [reflexivity|congruence].
    - cbn [frags_wire_ok] in Hok. destruct Hok as [Hf Hr]. cbn [relay_all wire_frames] in H.
      pose proof (payload_fits first f Hf) as Hp.
      assert (Ht : u_ok 1 (if first then 4 else 20)) by (destruct first; apply u_ok_1; lia).
      destruct (relay_chain hops (s_frame _ sid _)) as [w'|] eqn:E; [|discriminate].
      destruct (relay_chain_remap hops _ sid _ w' Ht Hid Hp Hl E) as [-> U].
      destruct (relay_all hops (wire_frames false sid code hdrs fs)) as [r'|] eqn:E2; [|discriminate].
      destruct (IH false r' Hr E2) as [-> _]. inversion H. split; [reflexivity|intros _; exact U].
  Qed.

  (* ---- the caller's side of a response that arrives as the specified frames ---- *)
  Lemma caller_ok cid f1 fs1 : u_ok 4 cid -> frags_wire_ok true (f1 :: fs1) ->
    caller_receive false cid waiting (hd [] (wire_frames true cid code hdrs (f1 :: fs1))) = (CRes code (frag_rest f1), false) /\
    recv_fragments true cid (wire_frames true cid code hdrs (f1 :: fs1)) = Some (f1 :: fs1).
  Proof.
    intros U W. split; [|apply recv_fragments_ok; assumption].
    cbn [wire_frames hd]. destruct W as [Wf _].
    pose proof (payload_fits true f1 Wf) as Hp. cbv iota in Hp.
    rewrite <- (app_nil_r (s_frame 4 cid _)).
    change (enc_frag_payload (res_hdr code hdrs) f1) with (s_callres_fragment (frag_flags f1) code hdrs (frag_rest f1)) in *.
    apply caller_receive_callres; [exact U|apply frag_flags_ok|apply callres_hdr_ok|exact Hp].
  Qed.
End Wire.

(* ---- end to end ---- *)

(* the caller's response reader on the fragments [fs] returns exactly b1, b2, b3: with ANY
   positive read sizes continued to end-of-stream (Begin / reads / Close all return nil), and
   through ArgReadHelper.Read with any buffer size; it ends Complete with every fragment released *)
Definition reads_back (fs : list frag) (b1 b2 b3 : list Z) : Prop :=
  (forall ns1 ns2 ns3,
     Forall (fun n => 0 < n) ns1 -> Forall (fun n => 0 < n) ns2 -> Forall (fun n => 0 < n) ns3 ->
     zsum ns1 > zlen b1 -> zsum ns2 > zlen b2 -> zsum ns3 > zlen b3 ->
     exists l1 st1 l2 st2 l3 st3,
       arg_read false ns1 (Frag.r_init fs) = Some (0, l1, 0, st1) /\
       arg_read false ns2 st1 = Some (0, l2, 0, st2) /\
       arg_read true ns3 st2 = Some (0, l3, 0, st3) /\
       data_of l1 = b1 /\ data_of l2 = b2 /\ data_of l3 = b3 /\
       r_final (Z.of_nat (length fs)) st3) /\
  (forall n1 n2 n3, 0 < n1 -> 0 < n2 -> 0 < n3 ->
     exists st1 st2 st3,
       arg_helper false n1 (Frag.r_init fs) = Some (0, b1, 0, st1) /\
       arg_helper false n2 st1 = Some (0, b2, 0, st2) /\
       arg_helper true n3 st2 = Some (0, b3, 0, st3) /\
       r_final (Z.of_nat (length fs)) st3).

Lemma app_code_ok (app : bool) :
  let code := if app then 1 else 0 in u_ok 1 code /\ application_error code = app /\ spec_app_error code = app.
Proof. destruct app; (split; [apply u_ok_1; lia|split; reflexivity]). Qed.

(* the handler's side: [app] = whether SetApplicationError was called (before the arguments);
   the response is written by the fragmenting writer with any write/flush pattern a1 a2 a3,
   checksum [kind], fragment capacities [capf] between (3,5) and what a frame can hold *)
Lemma apperr_writer sid (app : bool) hdrs capf kind a1 a2 a3 :
  u_ok 4 sid -> kvs8_ok hdrs -> kind_ok kind ->
  let code := if app then 1 else 0 in
  3 <= capf true <= frag_capacity (s_callres code (s_tracing 0 0 0 0) hdrs) (ck_fresh kind) ->
  5 <= capf false <= frag_capacity [] (ck_fresh kind) ->
  forall rs, (if app then set_application_error (mkResp 0 false) else Some (mkResp 0 false)) = Some rs ->
  exists codes st f1 fs1,
    w_run capf (script3 a1 a2 a3) (Frag.w_init (ck_fresh kind)) [] = Some (codes, st) /\
    Forall (fun c => c = 0) codes /\ ws_out st = f1 :: fs1 /\
    frags_wire_ok kind code hdrs true (ws_out st) /\
    resp_frames true sid rs hdrs (ws_out st) = Some (wire_frames true sid code hdrs (ws_out st)) /\
    reads_back (ws_out st) (arg_bytes a1) (arg_bytes a2) (arg_bytes a3).
Proof.
  intros Hid Hh Hk code [C1 C1'] [C2 C2'] rs Hrs. destruct (app_code_ok app) as (Hcode & _). fold code in Hcode.
  assert (Hrc : response_code_of rs = code).
  { unfold code. destruct app; cbn in Hrs; inversion Hrs; reflexivity. }
  destruct (writer_correct capf (ck_fresh kind) a1 a2 a3 C1 C2) as (codes & st & R & A0 & _ & _ & D & F & K).
  destruct (roundtrip_eof capf kind a1 a2 a3 C1 C2 Hk) as (codes1 & st1 & R1 & RE).
  rewrite R in R1. inversion R1; subst codes1 st1. clear R1.
  destruct (roundtrip_helper capf kind a1 a2 a3 C1 C2 Hk) as (codes2 & st2 & R2 & RH).
  rewrite R in R2. inversion R2; subst codes2 st2. clear R2.
  destruct F as [Fne Ff].
  assert (W : frags_wire_ok kind code hdrs true (ws_out st)).
  { apply (writer_frags_wire_ok kind code hdrs capf C1' C2' (ws_out st) true (ck_fresh kind) Ff K). reflexivity. }
  destruct (ws_out st) as [|f1 fs1] eqn:Eout; [congruence|].
  exists codes, st, f1, fs1. rewrite Eout.
  split; [exact R|]. split; [exact A0|]. split; [reflexivity|]. split; [exact W|].
  split; [eapply resp_frames_ok; eassumption|]. split; [exact RE|exact RH].
Qed.

(* LIVE relays: every frame is forwarded, and the caller gets flag and arguments *)
Theorem apperr_full : forall sid (app : bool) hdrs hops capf kind a1 a2 a3,
  u_ok 4 sid -> kvs8_ok hdrs -> kind_ok kind -> Forall (hop_live true) hops ->
  let code := if app then 1 else 0 in
  3 <= capf true <= frag_capacity (s_callres code (s_tracing 0 0 0 0) hdrs) (ck_fresh kind) ->
  5 <= capf false <= frag_capacity [] (ck_fresh kind) ->
  forall rs, (if app then set_application_error (mkResp 0 false) else Some (mkResp 0 false)) = Some rs ->
  let cid := final_id sid hops in
  exists codes st wires wires' f1 fs1,
    (* the handler's writer: no panic, every operation returns nil, at least one fragment *)
    w_run capf (script3 a1 a2 a3) (Frag.w_init (ck_fresh kind)) [] = Some (codes, st) /\
    Forall (fun c => c = 0) codes /\ ws_out st = f1 :: fs1 /\
    (* its fragments as frames (specified layout), through the relays *)
    resp_frames true sid rs hdrs (ws_out st) = Some wires /\
    wires = wire_frames true sid code hdrs (ws_out st) /\
    relay_all hops wires = Some wires' /\
    (* the caller: response code and flag from the first frame ... *)
    caller_receive false cid waiting (hd [] wires') = (CRes code (frag_rest f1), false) /\
    application_error code = app /\ spec_app_error code = app /\
    (* ... the same fragments, and exactly the handler's three arguments *)
    recv_fragments true cid wires' = Some (ws_out st) /\
    reads_back (ws_out st) (arg_bytes a1) (arg_bytes a2) (arg_bytes a3).
Proof.
  intros sid app hdrs hops capf kind a1 a2 a3 Hid Hh Hk Hl code C1 C2 rs Hrs cid.
  destruct (app_code_ok app) as (Hcode & Ea & Es). fold code in Hcode, Ea, Es.
  destruct (apperr_writer sid app hdrs capf kind a1 a2 a3 Hid Hh Hk C1 C2 rs Hrs)
    as (codes & st & f1 & fs1 & R & A0 & Eout & W & S & RB).
  fold code in W, S.
  assert (U : u_ok 4 cid).
  { destruct (relay_chain_forward hops 4 sid [] ltac:(apply u_ok_1; lia) Hid ltac:(cbn; lia)) as [_ U]; [|exact U].
    eapply Forall_impl; [|exact Hl]. intros hp. apply hop_live_weaken. }
  exists codes, st, (wire_frames true sid code hdrs (ws_out st)), (wire_frames true cid code hdrs (ws_out st)), f1, fs1.
  split; [exact R|]. split; [exact A0|]. split; [exact Eout|]. split; [exact S|]. split; [reflexivity|].
  split; [eapply relay_all_ok; eassumption|].
  rewrite Eout in W |- *.
  destruct (caller_ok kind code hdrs Hk Hcode Hh cid f1 fs1 U W) as [CR RF].
  split; [exact CR|]. split; [exact Ea|]. split; [exact Es|]. split; [exact RF|].
  rewrite <- Eout. exact RB.
Qed.

(* relays in ANY state (items, tombs, timers, queues): the frames that the chain lets through
   have only their id changed, so whenever all frames of the response come out, the caller
   gets flag and arguments *)
Theorem apperr_forwarded : forall sid (app : bool) hdrs hops capf kind a1 a2 a3,
  u_ok 4 sid -> kvs8_ok hdrs -> kind_ok kind -> Forall hop_ids_ok hops ->
  let code := if app then 1 else 0 in
  3 <= capf true <= frag_capacity (s_callres code (s_tracing 0 0 0 0) hdrs) (ck_fresh kind) ->
  5 <= capf false <= frag_capacity [] (ck_fresh kind) ->
  forall rs, (if app then set_application_error (mkResp 0 false) else Some (mkResp 0 false)) = Some rs ->
  let cid := final_id sid hops in
  exists codes st wires f1 fs1,
    w_run capf (script3 a1 a2 a3) (Frag.w_init (ck_fresh kind)) [] = Some (codes, st) /\
    Forall (fun c => c = 0) codes /\ ws_out st = f1 :: fs1 /\
    resp_frames true sid rs hdrs (ws_out st) = Some wires /\
    reads_back (ws_out st) (arg_bytes a1) (arg_bytes a2) (arg_bytes a3) /\
    forall wires', relay_all hops wires = Some wires' ->
      caller_receive false cid waiting (hd [] wires') = (CRes code (frag_rest f1), false) /\
      application_error code = app /\ spec_app_error code = app /\
      recv_fragments true cid wires' = Some (ws_out st).
Proof.
  intros sid app hdrs hops capf kind a1 a2 a3 Hid Hh Hk Hl code C1 C2 rs Hrs cid.
  destruct (app_code_ok app) as (Hcode & Ea & Es). fold code in Hcode, Ea, Es.
  destruct (apperr_writer sid app hdrs capf kind a1 a2 a3 Hid Hh Hk C1 C2 rs Hrs)
    as (codes & st & f1 & fs1 & R & A0 & Eout & W & S & RB).
  fold code in W, S.
  exists codes, st, (wire_frames true sid code hdrs (ws_out st)), f1, fs1.
  split; [exact R|]. split; [exact A0|]. split; [exact Eout|]. split; [exact S|]. split; [exact RB|].
  intros wires' H.
  destruct (relay_all_remap kind code hdrs hops sid Hid Hl (ws_out st) true wires' W H) as [-> U].
  rewrite Eout in W, U |- *. specialize (U ltac:(discriminate)).
  destruct (caller_ok kind code hdrs Hk Hcode Hh cid f1 fs1 U W) as [CR RF].
  split; [exact CR|]. split; [exact Ea|]. split; [exact Es|exact RF].
Qed.

Print Assumptions apperr_full.
Print Assumptions apperr_forwarded.

(* non-vacuity: an application-error response with 6-byte fragments (six frames), crc32c,
   through two relays: number of frames, what the caller's connection model returns for the
   first frame (code 1), and the observations of reading the three arguments from the received
   fragments (per operation: code, then for a read the length-prefixed data) *)
Example apperr_full_instance :
  let capf := fun first : bool => if first then 6 else 6 in
  let hops := [mkHop (ILive true 6) (ILive true 0) 1; mkHop (ILive true 7) (ILive true 0) 1] in
  let a2 := [IWrite [1; 2; 3]; IFlush; IWrite [4; 5]] in
  let a3 := [IWrite [6; 7; 8; 9; 10; 11; 12]] in
  match w_run capf (script3 [] a2 a3) (Frag.w_init (ck_fresh 3)) [] with
  | Some (_, st) =>
      match resp_frames true 5 (mkResp 0 true) [] (ws_out st) with
      | Some wires =>
          match relay_all hops wires with
          | Some wires' =>
              (length wires', fst (caller_receive false 7 waiting (hd [] wires')) ,
               match recv_fragments true 7 wires' with
               | Some fs => option_map fst
                              (FragWire.r_run [RBegin false; RHelper 4; RBegin false; RHelper 4; RBegin true; RHelper 4] (Frag.r_init fs) [])
               | None => None
               end)
          | None => (0%nat, CWait, None)
          end
      | None => (0%nat, CWait, None)
      end
  | None => (0%nat, CWait, None)
  end = (6%nat, CRes 1 [3; 3;248;159;82; 0;0; 0;2;1;2],
         Some [0; 0;0;  0; 0;5;1;2;3;4;5;  0; 0;7;6;7;8;9;10;11;12]).
Proof. vm_compute. reflexivity. Qed.
