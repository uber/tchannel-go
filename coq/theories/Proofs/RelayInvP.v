(* Invariants of the relay's id tables (Model/RelayFwd.v): ids handed out by NextMessageID are
   fresh, the two tables of a relayed call point at each other, no two relayed calls share a
   remapped id on the same destination connection. *)
From Coq Require Import ZArith List Bool Lia.
From Verif Require Import Base.Wrap Base.Bytes Gen.GenConsts Gen.GenFrame Model.TypedBuf Model.Messages Model.Crc
  Model.RelayLazy Model.RelayAppend Model.RelayFwd.
Import ListNotations.
Local Open Scope Z_scope.

Definition bounded (st : rstate) : Prop := forall c, st_count st c < 2 ^ 32.

Record Inv (st : rstate) : Prop := {
  inv_cnt : forall c, 0 <= st_count st c;
  inv_in_fresh : forall d k it, st_in st d k = Some it -> 0 < k <= st_count st d;
  inv_out_fresh : forall c id it, st_out st c id = Some it -> 0 < it_remap it <= st_count st (it_dest it);
  inv_own_fresh : forall d k, st_own st d k = true -> 0 < k <= st_count st d;
  inv_own_disj : forall d k, st_own st d k = true -> st_in st d k = None;
  inv_inj : forall c1 id1 it1 c2 id2 it2, st_out st c1 id1 = Some it1 -> st_out st c2 id2 = Some it2 ->
     it_dest it1 = it_dest it2 -> it_remap it1 = it_remap it2 -> c1 = c2 /\ id1 = id2;
  inv_fwd : forall c id it, st_out st c id = Some it ->
     match st_in st (it_dest it) (it_remap it) with None => True | Some it' => it_remap it' = id /\ it_dest it' = c end
}.

Lemma key_eqb_false (c' c : nat) (i' i : Z) : Nat.eqb c' c && (i' =? i) = false <-> (c' <> c \/ i' <> i).
Proof. rewrite andb_false_iff, Nat.eqb_neq, Z.eqb_neq. tauto. Qed.

Lemma key_eqb_true (c' c : nat) (i' i : Z) : Nat.eqb c' c && (i' =? i) = true <-> c' = c /\ i' = i.
Proof. rewrite andb_true_iff, Nat.eqb_eq, Z.eqb_eq. tauto. Qed.

Lemma im_set_eq m c id v : im_set m c id v c id = v.
Proof. unfold im_set. rewrite Nat.eqb_refl, Z.eqb_refl. reflexivity. Qed.

Lemma im_set_neq m c id v c' id' : (c' <> c \/ id' <> id) -> im_set m c id v c' id' = m c' id'.
Proof. intros H. unfold im_set. apply key_eqb_false in H. rewrite H. reflexivity. Qed.

Lemma im_set_cases m c id v c' id' :
  (c' = c /\ id' = id /\ im_set m c id v c' id' = v) \/
  ((c' <> c \/ id' <> id) /\ im_set m c id v c' id' = m c' id').
Proof.
  destruct (Nat.eqb c' c && (id' =? id)) eqn:E.
  - apply key_eqb_true in E as [-> ->].
    left. repeat split. apply im_set_eq.
  - apply key_eqb_false in E. right. split; [exact E|]. apply im_set_neq, E.
Qed.

(* case split on one lookup [im_set m c id v c' id'] occurring in the goal or a hypothesis *)
Ltac ims_at m c id v c' id' :=
  let E := fresh "E" in let N := fresh "N" in let E1 := fresh "Ec" in let E2 := fresh "Ei" in
  destruct (im_set_cases m c id v c' id') as [(E1 & E2 & E)|(N & E)]; rewrite E in *; clear E;
  [try subst c'; try subst id'|].
Ltac ims :=
  match goal with
  | H : context[im_set ?m ?c ?id ?v ?c' ?id'] |- _ => ims_at m c id v c' id'
  | |- context[im_set ?m ?c ?id ?v ?c' ?id'] => ims_at m c id v c' id'
  end.

(* [shrinks st st']: st' is st with items deleted, tombed or (source side) re-checksummed *)
Record shrinks (st st' : rstate) : Prop := {
  sh_cnt : forall c, st_count st' c = st_count st c;
  sh_own : forall c k, st_own st' c k = st_own st c k;
  sh_out : forall c id it', st_out st' c id = Some it' ->
     exists it, st_out st c id = Some it /\ it_remap it = it_remap it' /\ it_dest it = it_dest it';
  sh_in : forall d k it', st_in st' d k = Some it' ->
     exists it, st_in st d k = Some it /\ it_remap it = it_remap it' /\ it_dest it = it_dest it'
}.

Lemma shrinks_refl st : shrinks st st.
Proof. constructor; intros; try reflexivity; eexists; repeat split; eassumption. Qed.

Lemma shrinks_trans a b c : shrinks a b -> shrinks b c -> shrinks a c.
Proof.
  intros [C1 O1 Out1 In1] [C2 O2 Out2 In2]. constructor.
  - intros x. rewrite C2. apply C1.
  - intros x k. rewrite O2. apply O1.
  - intros x id it' H. destruct (Out2 _ _ _ H) as (y & Hy & Y1 & Y2).
    destruct (Out1 _ _ _ Hy) as (z & Hz & Z1 & Z2). exists z. repeat split; congruence.
  - intros x id it' H. destruct (In2 _ _ _ H) as (y & Hy & Y1 & Y2).
    destruct (In1 _ _ _ Hy) as (z & Hz & Z1 & Z2). exists z. repeat split; congruence.
Qed.

Lemma shrinks_del st outb c id : shrinks st (set_item st outb c id None).
Proof.
  destruct outb; constructor; cbn [set_item st_count st_out st_in st_own]; intros; try reflexivity;
    try (eexists; repeat split; eassumption); ims; try discriminate; eexists; repeat split; eassumption.
Qed.

Lemma shrinks_upd_out st c id it it' : st_out st c id = Some it ->
  it_remap it' = it_remap it -> it_dest it' = it_dest it ->
  shrinks st (set_item st true c id (Some it')).
Proof.
  intros H R D. constructor; cbn [set_item st_count st_out st_in st_own]; intros; try reflexivity;
    try (eexists; repeat split; eassumption).
  ims.
  - match goal with H : Some _ = Some _ |- _ => injection H as <- end. exists it. repeat split; congruence.
  - eexists; repeat split; eassumption.
Qed.

Lemma shrinks_tomb st outb c id it : get_items st outb c id = Some it ->
  shrinks st (set_item st outb c id (Some (tombed it))).
Proof.
  intros H. destruct outb; cbn [get_items] in H; constructor; cbn [set_item st_count st_out st_in st_own];
    intros; try reflexivity; try (eexists; repeat split; eassumption); (ims;
    [ match goal with H : Some _ = Some _ |- _ => injection H as <- end; exists it; repeat split; assumption
    | eexists; repeat split; eassumption ]).
Qed.

Lemma Inv_shrinks st st' : Inv st -> shrinks st st' -> Inv st'.
Proof.
  intros I [Sc So Sout Sin]. constructor.
  - intros c. rewrite Sc. apply (inv_cnt _ I).
  - intros d k it H. rewrite Sc. destruct (Sin _ _ _ H) as (a & Ha & _). eapply (inv_in_fresh _ I); eassumption.
  - intros c id it H. destruct (Sout _ _ _ H) as (a & Ha & A1 & A2). rewrite Sc, <- A1, <- A2.
    eapply (inv_out_fresh _ I); eassumption.
  - intros d k H. rewrite So in H. rewrite Sc. apply (inv_own_fresh _ I), H.
  - intros d k H. rewrite So in H. pose proof (inv_own_disj _ I _ _ H) as Hn.
    destruct (st_in st' d k) eqn:E; [|reflexivity]. destruct (Sin _ _ _ E) as (a & Ha & _). congruence.
  - intros c1 id1 it1 c2 id2 it2 H1 H2 Ed Er.
    destruct (Sout _ _ _ H1) as (a & Ha & A1 & A2). destruct (Sout _ _ _ H2) as (b & Hb & B1 & B2).
    eapply (inv_inj _ I); [exact Ha|exact Hb|congruence|congruence].
  - intros c id it H. destruct (Sout _ _ _ H) as (a & Ha & A1 & A2).
    destruct (st_in st' (it_dest it) (it_remap it)) as [x|] eqn:E; [|exact Logic.I].
    destruct (Sin _ _ _ E) as (b & Hb & B1 & B2).
    pose proof (inv_fwd _ I _ _ _ Ha) as F. rewrite A1, A2, Hb in F. rewrite <- B1, <- B2. exact F.
Qed.

Lemma receive_shrinks st d h p ft s o st' : receive st d h p ft = (s, o, st') -> shrinks st st'.
Proof.
  unfold receive. destruct (get_items st _ d (fh_id h)) as [it|]; [destruct (it_tomb it); [|destruct (finishesCall _ _)]|];
    intros H; inversion H; subst; try apply shrinks_refl. apply shrinks_del.
Qed.

Lemma fail_item_shrinks st c outb id r o st' : fail_item st c outb id r = (o, st') -> shrinks st st'.
Proof.
  unfold fail_item. destruct (get_items st outb c id) as [it|] eqn:E; [destruct (it_tomb it)|];
    intros H; inversion H; subst; try apply shrinks_refl. apply shrinks_tomb, E.
Qed.

Lemma expire_shrinks st c outb id o st' : expire st c outb id = (o, st') -> shrinks st st'.
Proof.
  unfold expire. destruct (get_items st outb c id) as [it|] eqn:E; [destruct (it_tomb it)|];
    intros H; inversion H; subst; try apply shrinks_refl. apply shrinks_tomb, E.
Qed.

Lemma ft_cases t ft : frameTypeFor t = Some ft ->
  ft = c_requestFrame \/ (ft = c_responseFrame /\ (t =? c_messageTypeCallReqContinue) = false).
Proof.
  unfold frameTypeFor. destruct (t =? c_messageTypeCallReqContinue) eqn:E.
  - apply Z.eqb_eq in E. subst t. cbn. intros H; inversion H. left; reflexivity.
  - destruct (_ || _).
    + intros H; inversion H. right. split; reflexivity.
    + destruct (_ || _); intros H; inversion H. left; reflexivity.
Qed.

Lemma fin_cont t f : (t =? c_messageTypeCallReqContinue) = true -> finishesCall t f = false.
Proof. intros E. apply Z.eqb_eq in E. subst t. reflexivity. Qed.

Lemma receive_inv st d h p ft s o st' : receive st d h p ft = (s, o, st') ->
  (get_items st (negb (ft =? c_requestFrame)) d (fh_id h) = None /\ s = false /\ st' = st) \/
  (exists it, get_items st (negb (ft =? c_requestFrame)) d (fh_id h) = Some it /\ s = true /\
     ((it_tomb it = true /\ st' = st) \/
      (it_tomb it = false /\
       st' = if finishesCall (fh_type h) (flags_of p) then set_item st (negb (ft =? c_requestFrame)) d (fh_id h) None else st))).
Proof.
  unfold receive. destruct (get_items st _ d (fh_id h)) as [it|]; intros H.
  - right. exists it. split; [reflexivity|]. destruct (it_tomb it).
    + inversion H; subst. split; [reflexivity|]. left. split; reflexivity.
    + inversion H; subst. split; [reflexivity|]. right. split; reflexivity.
  - inversion H; subst. left. repeat split.
Qed.

Lemma handle_other_inv st c h p o st' : handle_other st c h p = Some (o, st') ->
  st' = st \/
  exists ft it st1 p1 sent outs st2,
    frameTypeFor (fh_type h) = Some ft /\
    get_items st (ft =? c_requestFrame) c (fh_id h) = Some it /\ it_tomb it = false /\
    ((st1 = st /\ p1 = p) \/
     ((fh_type h =? c_messageTypeCallReqContinue) = true /\
      exists ck, st1 = set_item st (ft =? c_requestFrame) c (fh_id h) (Some (with_mut it ck)))) /\
    receive st1 (it_dest it) (set_id h (it_remap it)) p1 ft = (sent, outs, st2) /\
    ((sent = false /\ exists r, fail_item st2 c (ft =? c_requestFrame) (fh_id h) r = (o, st')) \/
     (sent = true /\
      st' = if finishesCall (fh_type h) (flags_of p) then set_item st2 (ft =? c_requestFrame) c (fh_id h) None else st2)).
Proof.
  unfold handle_other. destruct (frameTypeFor (fh_type h)) as [ft|] eqn:Eft; [|discriminate].
  destruct (get_items st (ft =? c_requestFrame) c (fh_id h)) as [it|] eqn:Eit;
    [|intros H; inversion H; left; reflexivity].
  destruct (it_tomb it) eqn:Et; [intros H; inversion H; left; reflexivity|].
  match goal with |- context[match ?X with pair _ _ => _ end] => destruct X as [p1 st1] eqn:E1 end.
  destruct (receive st1 (it_dest it) (set_id h (it_remap it)) p1 ft) as [[sent outs] st2] eqn:Er.
  intros H. right. exists ft, it, st1, p1, sent, outs, st2.
  split; [reflexivity|]. split; [exact Eit|]. split; [exact Et|]. split.
  { destruct (fh_type h =? c_messageTypeCallReqContinue).
    - destruct (it_mut it) as [ck|].
      + destruct (update_cont_ck p ck) as [p' ck']. inversion E1; subst. right. split; [reflexivity|].
        exists ck'. reflexivity.
      + inversion E1; subst. left. split; reflexivity.
    - inversion E1; subst. left. split; reflexivity. }
  split; [exact Er|]. destruct sent; cbn [negb] in H; inversion H; subst.
  - right. split; reflexivity.
  - left. split; [reflexivity|]. eexists. reflexivity.
Qed.

Lemma handle_other_shrinks st c h p o st' : handle_other st c h p = Some (o, st') -> shrinks st st'.
Proof.
  intros H. destruct (handle_other_inv _ _ _ _ _ _ H) as [->|(ft & it & st1 & p1 & sent & outs & st2 & Eft & Eit & Et & H1 & Er & H3)];
    [apply shrinks_refl|].
  assert (S1 : shrinks st st1).
  { destruct H1 as [[-> _]|(E19 & ck & ->)]; [apply shrinks_refl|].
    destruct (ft_cases _ _ Eft) as [->|[_ E]]; [|congruence].
    change (c_requestFrame =? c_requestFrame) with true in *. cbn [get_items] in Eit.
    apply shrinks_upd_out with it; [exact Eit|reflexivity..]. }
  pose proof (receive_shrinks _ _ _ _ _ _ _ _ Er) as S2.
  apply (shrinks_trans _ _ _ S1). apply (shrinks_trans _ _ _ S2).
  destruct H3 as [(_ & r & Hf)|(_ & ->)].
  - eapply fail_item_shrinks, Hf.
  - destruct (finishesCall _ _); [apply shrinks_del|apply shrinks_refl].
Qed.

(* adding the two items of a relayed call; taking an id for own use *)
Definition add_pair (st : rstate) (d c : nat) (id : Z) (sp : span) (m : option ckst) : rstate :=
  mkSt (fun c' => if Nat.eqb c' d then st_count st d + 1 else st_count st c')
       (im_set (st_out st) c id (Some (mkItem (wrapU 32 (st_count st d + 1)) d false true sp m)))
       (im_set (st_in st) d (wrapU 32 (st_count st d + 1)) (Some (mkItem id c false false sp None)))
       (st_own st).

(* the same state as handle_callreq builds it: counter, destination-side item, source-side item *)
Lemma add_pair_items st d c id sp m :
  add_pair st d c id sp m =
  set_item (set_item (mkSt (fun c' => if Nat.eqb c' d then st_count st d + 1 else st_count st c')
      (st_out st) (st_in st) (st_own st)) false d (wrapU 32 (st_count st d + 1))
      (Some (mkItem id c false false sp None))) true c id
    (Some (mkItem (wrapU 32 (st_count st d + 1)) d false true sp m)).
Proof. reflexivity. Qed.

Definition own_step (st : rstate) (c : nat) : rstate :=
  mkSt (fun c' => if Nat.eqb c' c then st_count st c + 1 else st_count st c') (st_out st) (st_in st)
       (fun c' id' => if Nat.eqb c' c && (id' =? wrapU 32 (st_count st c + 1)) then true else st_own st c' id').

(* closure of a relation under what the call req path does after the two items are in *)
Section Closed.
  Variable R : rstate -> rstate -> Prop.
  Hypothesis R_refl : forall st, R st st.
  Hypothesis R_trans : forall a b c, R a b -> R b c -> R a c.
  Hypothesis R_del_in : forall st d k, R st (set_item st false d k None).
  Hypothesis R_upd_out : forall st c id it it', st_out st c id = Some it ->
    it_remap it' = it_remap it -> it_dest it' = it_dest it ->
    R st (set_item st true c id (Some it')).

  Lemma receive_req_R st d h p s o st' : receive st d h p c_requestFrame = (s, o, st') -> R st st'.
  Proof.
    unfold receive. change (negb (c_requestFrame =? c_requestFrame)) with false. cbn [get_items].
    destruct (st_in st d (fh_id h)) as [it|]; [destruct (it_tomb it); [|destruct (finishesCall _ _)]|];
      intros H; inversion H; subst; try apply R_refl. apply R_del_in.
  Qed.

  Lemma fail_item_out_R st c id r o st' : fail_item st c true id r = (o, st') -> R st st'.
  Proof.
    unfold fail_item. cbn [get_items]. destruct (st_out st c id) as [it|] eqn:E; [destruct (it_tomb it)|];
      intros H; inversion H; subst; try apply R_refl.
    apply R_upd_out with it; [exact E|reflexivity..].
  Qed.

  Lemma send_frags_R d id fs : forall st o st', send_frags st d id fs = (o, st') -> R st st'.
  Proof.
    induction fs as [|[initial pl] r IH]; intros st o st'; cbn [send_frags].
    - intros H; inversion H; subst. apply R_refl.
    - destruct (receive st d _ pl c_requestFrame) as [[s o1] st1] eqn:E1.
      destruct (send_frags st1 d id r) as [o2 st2] eqn:E2. intros H; inversion H; subst.
      eapply R_trans; [eapply receive_req_R, E1|eapply IH, E2].
  Qed.

  Lemma handle_callreq_R maxT st c h p hd o st' : handle_callreq maxT st c h p hd = Some (o, st') ->
    R st st' \/ exists d sp m, st_out st c (fh_id h) = None /\ R (add_pair st d c (fh_id h) sp m) st'.
  Proof.
    unfold handle_callreq. destruct (lazy_callreq p) as [code lz].
    destruct (negb (code =? 0)); [intros H; inversion H; subst; left; apply R_refl|].
    destruct hd as [d appends|sys ecode msg| |].
    - destruct (st_out st c (fh_id h)) eqn:Eo; [intros H; inversion H; subst; left; apply R_refl|].
      destruct (alloc_id st d) as [k st1] eqn:Ea. unfold alloc_id in Ea. injection Ea as Ek Est. subst k st1.
      destruct appends as [|a appends].
      + match goal with |- context[receive ?s ?d ?h ?p ?f] => destruct (receive s d h p f) as [[sent outs] st4] eqn:Er end.
        intros H. right. exists d, (span_of p), None. split; [reflexivity|].
        rewrite add_pair_items.
        pose proof (receive_req_R _ _ _ _ _ _ _ Er) as R1.
        destruct sent; inversion H; subst; [exact R1|].
        eapply R_trans; [exact R1|]. eapply fail_item_out_R. eassumption.
      + destruct (ck_new (lz_ctype lz)) as [ck|]; [|discriminate].
        destruct (append_send _ lz (a :: appends) ck) as [[acode frames] ck'].
        destruct (acode =? 5); [discriminate|].
        intros H. right. exists d, (span_of p), (Some ck). split; [reflexivity|].
        rewrite add_pair_items.
        destruct (acode =? 0); inversion H; subst.
        * eapply R_trans; [|eapply send_frags_R; eassumption].
          match goal with |- R ?a _ =>
            apply (R_upd_out a c (fh_id h) (mkItem (wrapU 32 (st_count st d + 1)) d false true (span_of p) (Some ck)))
          end; [cbn [set_item st_out]; apply im_set_eq|reflexivity..].
        * eapply fail_item_out_R. eassumption.
    - destruct (_ =? c_ErrCodeProtocol); [discriminate|]. intros H; inversion H; subst; left; apply R_refl.
    - intros H; inversion H; subst; left; apply R_refl.
    - destruct (st_out st c (fh_id h)); intros H; inversion H; subst; left; apply R_refl.
  Qed.
End Closed.

Lemma handle_callreq_shrinks maxT st c h p hd o st' : handle_callreq maxT st c h p hd = Some (o, st') ->
  shrinks st st' \/ exists d sp m, st_out st c (fh_id h) = None /\ shrinks (add_pair st d c (fh_id h) sp m) st'.
Proof.
  apply (handle_callreq_R shrinks shrinks_refl shrinks_trans (fun st d k => shrinks_del st false d k) shrinks_upd_out).
Qed.

Lemma step_cases maxT pc st l o st' : step maxT pc st l = Some (o, st') ->
  shrinks st st' \/
  (exists d c id sp m, st_out st c id = None /\ shrinks (add_pair st d c id sp m) st') \/
  (exists c, st' = own_step st c).
Proof.
  destruct l as [c h p hd|c|c outb id|c outb id]; cbn [step].
  - destruct (relayRoute (fh_type h) pc =? 0); [intros H; inversion H; subst; left; apply shrinks_refl|].
    destruct (_ && (zlen p =? 0)); [discriminate|].
    destruct (relayRoute (fh_type h) pc =? 1); [|discriminate].
    destruct (fh_type h =? c_messageTypeCallReq); intros H.
    + destruct (handle_callreq_shrinks _ _ _ _ _ _ _ _ H) as [S|(d & sp & m & Hn & S)]; [left; exact S|].
      right; left. exists d, c, (fh_id h), sp, m. split; assumption.
    + left. eapply handle_other_shrinks, H.
  - intros H; inversion H; subst. right; right. exists c. reflexivity.
  - intros H; inversion H. left. eapply expire_shrinks. eassumption.
  - destruct (get_items st outb c id) as [it|]; [destruct (it_tomb it)|]; intros H; inversion H; subst; left;
      try apply shrinks_refl. apply shrinks_del.
Qed.

Lemma add_pair_count st d c id sp m c' :
  st_count (add_pair st d c id sp m) c' = if Nat.eqb c' d then st_count st d + 1 else st_count st c'.
Proof. reflexivity. Qed.

Lemma own_step_count st c c' :
  st_count (own_step st c) c' = if Nat.eqb c' c then st_count st c + 1 else st_count st c'.
Proof. reflexivity. Qed.

Lemma bump_le (cnt : nat -> Z) d c' : cnt c' <= (if Nat.eqb c' d then cnt d + 1 else cnt c').
Proof. destruct (Nat.eqb c' d) eqn:E; [apply Nat.eqb_eq in E; subst; lia|lia]. Qed.

Lemma fresh_bump (cnt : nat -> Z) d c' k : 0 < k <= cnt c' -> 0 < k <= (if Nat.eqb c' d then cnt d + 1 else cnt c').
Proof. pose proof (bump_le cnt d c'). lia. Qed.

Lemma step_count_mono maxT pc st l o st' : step maxT pc st l = Some (o, st') -> forall c, st_count st c <= st_count st' c.
Proof.
  intros H c'. destruct (step_cases _ _ _ _ _ _ H) as [S|[(d & c & id & sp & m & _ & S)|(c & ->)]].
  - rewrite (sh_cnt _ _ S). lia.
  - rewrite (sh_cnt _ _ S), add_pair_count. apply bump_le.
  - rewrite own_step_count. apply bump_le.
Qed.

Theorem run_count_mono : forall maxT pc ls st outs st', run maxT pc ls st = Some (outs, st') -> forall c, st_count st c <= st_count st' c.
Proof.
  intros maxT pc ls. induction ls as [|l r IH]; intros st outs st'; cbn [run].
  - intros H c; inversion H; subst. lia.
  - destruct (step maxT pc st l) as [[o st1]|] eqn:Es; [|discriminate].
    destruct (run maxT pc r st1) as [[os st2]|] eqn:Er; [|discriminate].
    intros H c; inversion H; subst. pose proof (step_count_mono _ _ _ _ _ _ Es c). pose proof (IH _ _ _ Er c). lia.
Qed.

Lemma Inv_init cnt0 : (forall c, 0 <= cnt0 c) -> Inv (init_state cnt0).
Proof. intros H. constructor; cbn; intros; try discriminate; auto. Qed.

Lemma Inv_add_pair st d c id sp m : Inv st -> st_out st c id = None -> st_count st d + 1 < 2 ^ 32 ->
  Inv (add_pair st d c id sp m).
Proof.
  intros I Hn B. pose proof (inv_cnt _ I d) as C0.
  unfold add_pair. rewrite (wrapU_id 32 (st_count st d + 1)) by lia.
  constructor; cbn [st_count st_out st_in st_own].
  - intros c'. pose proof (inv_cnt _ I c'). pose proof (bump_le (st_count st) d c'). lia.
  - intros d' k' x H. ims.
    + rewrite Nat.eqb_refl. lia.
    + apply fresh_bump, (inv_in_fresh _ I _ _ _ H).
  - intros c' id' x H. ims.
    + injection H as <-. cbn [it_remap it_dest]. rewrite Nat.eqb_refl. lia.
    + apply fresh_bump, (inv_out_fresh _ I _ _ _ H).
  - intros d' k' H. apply fresh_bump, (inv_own_fresh _ I _ _ H).
  - intros d' k' H. ims.
    + pose proof (inv_own_fresh _ I _ _ H). lia.
    + apply (inv_own_disj _ I), H.
  - intros c1 id1 it1 c2 id2 it2 H1 H2 Ed Er. ims; ims.
    + split; reflexivity.
    + injection H2 as <-. cbn [it_remap it_dest] in *. pose proof (inv_out_fresh _ I _ _ _ H1) as F.
      rewrite Ed, Er in F. lia.
    + injection H1 as <-. cbn [it_remap it_dest] in *. pose proof (inv_out_fresh _ I _ _ _ H2) as F.
      rewrite <- Ed, <- Er in F. lia.
    + eapply (inv_inj _ I); eassumption.
  - intros c' id' x H. ims.
    + injection H as <-. cbn [it_remap it_dest]. rewrite im_set_eq. cbn [it_remap it_dest]. split; reflexivity.
    + pose proof (inv_out_fresh _ I _ _ _ H) as F. pose proof (inv_fwd _ I _ _ _ H) as G.
      rewrite im_set_neq; [exact G|]. destruct (Nat.eq_dec (it_dest x) d) as [E|E]; [right; rewrite E in F; lia|left; exact E].
Qed.

Lemma Inv_own_step st c : Inv st -> st_count st c + 1 < 2 ^ 32 -> Inv (own_step st c).
Proof.
  intros I B. pose proof (inv_cnt _ I c) as C0.
  unfold own_step. rewrite (wrapU_id 32 (st_count st c + 1)) by lia.
  constructor; cbn [st_count st_out st_in st_own].
  - intros c'. pose proof (inv_cnt _ I c'). pose proof (bump_le (st_count st) c c'). lia.
  - intros d' k' x H. apply fresh_bump, (inv_in_fresh _ I _ _ _ H).
  - intros c' id' x H. apply fresh_bump, (inv_out_fresh _ I _ _ _ H).
  - intros d' k'. destruct (Nat.eqb d' c && (k' =? st_count st c + 1)) eqn:E; intros H.
    + apply andb_true_iff in E as [E1 E2]. rewrite E1. lia.
    + apply fresh_bump, (inv_own_fresh _ I _ _ H).
  - intros d' k'. destruct (Nat.eqb d' c && (k' =? st_count st c + 1)) eqn:E; intros H.
    + apply key_eqb_true in E as [-> ->].
      destruct (st_in st c (st_count st c + 1)) eqn:E; [|reflexivity].
      pose proof (inv_in_fresh _ I _ _ _ E). lia.
    + apply (inv_own_disj _ I), H.
  - apply (inv_inj _ I).
  - apply (inv_fwd _ I).
Qed.

Lemma Inv_step maxT pc st l o st' : step maxT pc st l = Some (o, st') -> Inv st -> bounded st' -> Inv st'.
Proof.
  intros H I B. destruct (step_cases _ _ _ _ _ _ H) as [S|[(d & c & id & sp & m & Hn & S)|(c & ->)]].
  - eapply Inv_shrinks; eassumption.
  - eapply Inv_shrinks; [|exact S]. apply Inv_add_pair; [exact I|exact Hn|].
    specialize (B d). rewrite (sh_cnt _ _ S), add_pair_count, Nat.eqb_refl in B. exact B.
  - apply Inv_own_step; [exact I|]. specialize (B c). rewrite own_step_count, Nat.eqb_refl in B. exact B.
Qed.

Lemma run_Inv maxT pc ls : forall st outs st', Inv st -> run maxT pc ls st = Some (outs, st') -> bounded st' -> Inv st'.
Proof.
  induction ls as [|l r IH]; intros st outs st' I; cbn [run].
  - intros H _; inversion H; subst. exact I.
  - destruct (step maxT pc st l) as [[o st1]|] eqn:Es; [|discriminate].
    destruct (run maxT pc r st1) as [[os st2]|] eqn:Er; [|discriminate].
    intros H B; inversion H; subst. eapply IH; [|exact Er|exact B].
    eapply Inv_step; [exact Es|exact I|]. intros c. pose proof (run_count_mono _ _ _ _ _ _ Er c). specialize (B c). lia.
Qed.

(* MAIN: every state reachable by any history whose counters stayed below 2^32 satisfies Inv *)
Theorem run_inv : forall maxT pc cnt0 ls outs st, (forall c, 0 <= cnt0 c) ->
  run maxT pc ls (init_state cnt0) = Some (outs, st) -> bounded st -> Inv st.
Proof. intros maxT pc cnt0 ls outs st H0 Hr B. eapply run_Inv; [apply Inv_init, H0|exact Hr|exact B]. Qed.

(* the fresh id never overwrites anything *)
Theorem alloc_fresh : forall st d, Inv st -> st_count st d + 1 < 2 ^ 32 ->
  let k := fst (alloc_id st d) in
  k = st_count st d + 1 /\ st_in st d k = None /\ st_own st d k = false /\
  (forall c id it, st_out st c id = Some it -> it_dest it = d -> it_remap it <> k).
Proof.
  intros st d I B. pose proof (inv_cnt _ I d) as C0. unfold alloc_id. cbn [fst].
  rewrite (wrapU_id 32 (st_count st d + 1)) by lia. split; [reflexivity|]. split; [|split].
  - destruct (st_in st d (st_count st d + 1)) eqn:E; [|reflexivity]. pose proof (inv_in_fresh _ I _ _ _ E). lia.
  - destruct (st_own st d (st_count st d + 1)) eqn:E; [|reflexivity]. pose proof (inv_own_fresh _ I _ _ E). lia.
  - intros c id it H Ed. pose proof (inv_out_fresh _ I _ _ _ H) as F. rewrite Ed in F. lia.
Qed.

(* ---------------- the converse pointer, for histories without timer events ---------------- *)
Definition Jm (o i : imap) : Prop := forall d k it, i d k = Some it ->
  exists it', o (it_dest it) (it_remap it) = Some it' /\ it_remap it' = k /\ it_dest it' = d.
Definition Km (i : imap) : Prop := forall d k it, i d k = Some it -> it_tomb it = false.
Definition JK (st : rstate) : Prop := Jm (st_out st) (st_in st) /\ Km (st_in st).

Lemma Km_del i d k : Km i -> Km (im_set i d k None).
Proof. intros K d' k' x H. ims; [discriminate|]. eapply K, H. Qed.

Lemma Jm_del_in o i d k : Jm o i -> Jm o (im_set i d k None).
Proof. intros J d' k' x H. ims; [discriminate|]. eapply J, H. Qed.

Lemma Jm_del_pair o i d k it : Jm o i -> i d k = Some it ->
  Jm (im_set o (it_dest it) (it_remap it) None) (im_set i d k None).
Proof.
  intros J Hit d' k' x H. ims; [discriminate|].
  destruct (J _ _ _ H) as (y & Hy & Y1 & Y2). exists y. split; [|split; assumption].
  ims; [|exact Hy]. exfalso.
  destruct (J _ _ _ Hit) as (z & Hz & Z1 & Z2). rewrite Ec, Ei, Hz in Hy. injection Hy as ->.
  destruct N as [N|N]; apply N; congruence.
Qed.

Lemma JK_del_in st d k : JK st -> JK (set_item st false d k None).
Proof. intros [J K]. split; cbn [set_item st_out st_in]; [apply Jm_del_in, J|apply Km_del, K]. Qed.

Lemma JK_upd_out st c id it it' : st_out st c id = Some it ->
  it_remap it' = it_remap it -> it_dest it' = it_dest it ->
  JK st -> JK (set_item st true c id (Some it')).
Proof.
  intros Hit R D [J K]. split; cbn [set_item st_out st_in]; [|exact K].
  intros d k x H. destruct (J _ _ _ H) as (y & Hy & Y1 & Y2). ims.
  - exists it'. split; [reflexivity|]. rewrite Ec, Ei, Hit in Hy. injection Hy as <-. split; congruence.
  - exists y. repeat split; assumption.
Qed.

Lemma JK_add_pair st d c id sp m : JK st -> st_out st c id = None -> JK (add_pair st d c id sp m).
Proof.
  intros [J K] Hn. unfold add_pair. split; cbn [st_out st_in].
  - intros d' k' x H. ims.
    + injection H as <-. cbn [it_remap it_dest]. rewrite im_set_eq. eexists. split; [reflexivity|]. split; reflexivity.
    + destruct (J _ _ _ H) as (y & Hy & Y1 & Y2). exists y. split; [|split; assumption].
      ims; [|exact Hy]. rewrite Ec, Ei, Hn in Hy. discriminate.
  - intros d' k' x H. ims; [injection H as <-; reflexivity|]. eapply K, H.
Qed.

Definition RJ (st st' : rstate) : Prop := JK st -> JK st'.

Lemma handle_callreq_JK maxT st c h p hd o st' : handle_callreq maxT st c h p hd = Some (o, st') -> JK st -> JK st'.
Proof.
  intros H HJ.
  destruct (handle_callreq_R RJ (fun st x => x) (fun a b c f g x => g (f x)) (fun st d k => JK_del_in st d k) JK_upd_out
              _ _ _ _ _ _ _ _ H) as [S|(d & sp & m & Hn & S)].
  - apply S, HJ.
  - apply S, JK_add_pair; assumption.
Qed.

Lemma handle_other_JK st c h p o st' : handle_other st c h p = Some (o, st') -> Inv st -> JK st -> JK st'.
Proof.
  intros H I HJ.
  destruct (handle_other_inv _ _ _ _ _ _ H) as [->|(ft & it & st1 & p1 & sent & outs & st2 & Eft & Eit & Et & H1 & Er & H3)];
    [exact HJ|].
  destruct (ft_cases _ _ Eft) as [->|[-> E19]].
  - (* request frame: the item is on the source side *)
    change (c_requestFrame =? c_requestFrame) with true in *. cbn [get_items] in Eit.
    destruct (finishesCall (fh_type h) (flags_of p)) eqn:Efin.
    + (* finishing (cancel): not a continuation, so st1 = st *)
      destruct H1 as [[-> ->]|(E & _)]; [|rewrite (fin_cont _ _ E) in Efin; discriminate].
      destruct (receive_inv _ _ _ _ _ _ _ _ Er) as [(Hg & -> & ->)|(it2 & Hg & -> & Hc)].
      * destruct H3 as [(_ & r & Hf)|(F & _)]; [|discriminate].
        eapply (fail_item_out_R RJ (fun st x => x) JK_upd_out); eassumption.
      * destruct H3 as [(F & _)|(_ & ->)]; [discriminate|].
        change (negb (c_requestFrame =? c_requestFrame)) with false in *. cbn [get_items set_id fh_id fh_type] in *.
        destruct HJ as [J K].
        destruct Hc as [[T _]|[_ ->]]; [rewrite (K _ _ _ Hg) in T; discriminate|].
        rewrite Efin. pose proof (inv_fwd _ I _ _ _ Eit) as F. rewrite Hg in F. destruct F as [F1 F2].
        split; cbn [set_item st_out st_in]; [|apply Km_del, K].
        rewrite <- F1, <- F2. apply Jm_del_pair; assumption.
    + (* not finishing: only the checksum may change, then Receive on the destination side *)
      assert (J1 : JK st1).
      { destruct H1 as [[-> _]|(_ & ck & ->)]; [exact HJ|]. eapply JK_upd_out; [exact Eit|reflexivity..|exact HJ]. }
      pose proof (receive_req_R RJ (fun st x => x) (fun st d k => JK_del_in st d k) _ _ _ _ _ _ _ Er J1) as J2.
      destruct H3 as [(_ & r & Hf)|(_ & ->)]; [|exact J2].
      eapply (fail_item_out_R RJ (fun st x => x) JK_upd_out); eassumption.
  - (* response frame: the item is on the destination side *)
    change (c_responseFrame =? c_requestFrame) with false in *. cbn [get_items] in Eit.
    destruct H1 as [[-> ->]|(E & _)]; [|congruence].
    destruct HJ as [J K]. destruct (J _ _ _ Eit) as (y & Hy & Y1 & Y2).
    change (negb false) with true in *.
    destruct (receive_inv _ _ _ _ _ _ _ _ Er) as [(Hg & _)|(it2 & Hg & -> & Hc)];
      change (negb (c_responseFrame =? c_requestFrame)) with true in *; cbn [get_items set_id fh_id fh_type] in *;
      [congruence|].
    destruct H3 as [(F & _)|(_ & ->)]; [discriminate|].
    destruct (finishesCall (fh_type h) (flags_of p)).
    + destruct Hc as [[_ ->]|[_ ->]].
      * apply JK_del_in. split; assumption.
      * split; cbn [set_item st_out st_in]; [|apply Km_del, K]. apply Jm_del_pair; assumption.
    + destruct Hc as [[_ ->]|[_ ->]]; split; assumption.
Qed.

Definition notimer (l : label) : Prop := match l with LExpire _ _ _ | LGC _ _ _ => False | _ => True end.

Lemma JK_step maxT pc st l o st' : step maxT pc st l = Some (o, st') -> notimer l -> Inv st -> JK st -> JK st'.
Proof.
  destruct l as [c h p hd|c|c outb id|c outb id]; cbn [step notimer]; intros H T I HJ; try contradiction.
  - destruct (relayRoute (fh_type h) pc =? 0); [inversion H; subst; exact HJ|].
    destruct (_ && (zlen p =? 0)); [discriminate|].
    destruct (relayRoute (fh_type h) pc =? 1); [|discriminate].
    destruct (fh_type h =? c_messageTypeCallReq).
    + eapply handle_callreq_JK; eassumption.
    + eapply handle_other_JK; eassumption.
  - inversion H; subst. exact HJ.
Qed.

Lemma run_JK maxT pc ls : forall st outs st', Forall notimer ls -> Inv st -> JK st ->
  run maxT pc ls st = Some (outs, st') -> bounded st' -> JK st'.
Proof.
  induction ls as [|l r IH]; intros st outs st' T I HJ; cbn [run].
  - intros H _; inversion H; subst. exact HJ.
  - destruct (step maxT pc st l) as [[o st1]|] eqn:Es; [|discriminate].
    destruct (run maxT pc r st1) as [[os st2]|] eqn:Er; [|discriminate].
    intros H B; inversion H; subst. inversion T as [|? ? Tl Tr]; subst.
    eapply IH; [exact Tr| | |exact Er|exact B].
    + eapply Inv_step; [exact Es|exact I|]. intros c. pose proof (run_count_mono _ _ _ _ _ _ Er c). specialize (B c). lia.
    + eapply JK_step; eassumption.
Qed.

(* converse direction of inv_fwd, for histories without timer events *)
Theorem run_inverse : forall maxT pc cnt0 ls outs st, (forall c, 0 <= cnt0 c) -> Forall notimer ls ->
  run maxT pc ls (init_state cnt0) = Some (outs, st) -> bounded st ->
  forall d k it, st_in st d k = Some it ->
    exists it', st_out st (it_dest it) (it_remap it) = Some it' /\ it_remap it' = k /\ it_dest it' = d.
Proof.
  intros maxT pc cnt0 ls outs st H0 T Hr B.
  assert (HJ : JK (init_state cnt0)) by (split; intros d k it H; discriminate).
  destruct (run_JK _ _ _ _ _ _ T (Inv_init _ H0) HJ Hr B) as [J _]. exact J.
Qed.

Print Assumptions run_inv.
Print Assumptions alloc_fresh.
Print Assumptions run_inverse.
