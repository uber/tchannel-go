(* Writer followed by reader: the end-to-end statement of C01. *)
From Coq Require Import ZArith List Bool Lia.
From Verif Require Import Base.Wrap Base.Bytes Gen.GenConsts Model.Crc Model.Frag Spec.FragSpec Spec.FragOk
  Proofs.FragWP Proofs.FragRP.
Import ListNotations.
Local Open Scope Z_scope.

(* the checksum objects the library can hand out: none, crc32, crc32c *)
Definition ck_fresh (kind : Z) : ckst := mkCk kind 0.
Definition kind_ok (kind : Z) : Prop := kind = 0 \/ kind = 1 \/ kind = 3.

Lemma ck_new_kind kind : kind_ok kind -> ck_new kind = Some (ck_fresh kind).
Proof. intros [-> | [-> | ->]]; reflexivity. Qed.

Lemma first_ctype_chain c fs : fs <> [] -> ck_chain c fs -> first_ctype fs = ck_typecode c.
Proof. destruct fs as [|f fs]; [congruence|]. cbn [ck_chain first_ctype]. tauto. Qed.

(* premises of the reader theorems hold for everything the writer emits *)
Lemma writer_output_ok capf kind a1 a2 a3 :
  3 <= capf true -> 5 <= capf false -> kind_ok kind ->
  exists codes st,
    w_run capf (script3 a1 a2 a3) (w_init (ck_fresh kind)) [] = Some (codes, st) /\
    wf (ws_out st) /\ ck_new (first_ctype (ws_out st)) = Some (ck_fresh kind) /\
    ck_chain (ck_fresh kind) (ws_out st) /\
    denote (chunks_of (ws_out st)) = [arg_bytes a1; arg_bytes a2; arg_bytes a3].
Proof.
  intros H1 H2 Hk.
  destruct (writer_correct capf (ck_fresh kind) a1 a2 a3 H1 H2) as [codes [st [R [_ [_ [_ [D [F C]]]]]]]].
  exists codes, st. split; [exact R|]. split; [exists capf; exact F|]. split; [|split; [exact C|exact D]].
  destruct F as [Fne _]. rewrite (first_ctype_chain _ _ Fne C). unfold ck_typecode, ck_fresh. cbn [ck_kind].
  apply ck_new_kind, Hk.
Qed.

(* ROUND TRIP: any three arguments written with any write sizes and flushes, for any fragment
   capacities and every checksum type, are read back exactly, however the reader sizes its
   reads (any positive sizes, continued until end-of-stream), and every fragment is released *)
Theorem roundtrip_eof : forall capf kind a1 a2 a3,
  3 <= capf true -> 5 <= capf false -> kind_ok kind ->
  exists codes st, w_run capf (script3 a1 a2 a3) (w_init (ck_fresh kind)) [] = Some (codes, st) /\
  forall ns1 ns2 ns3,
  Forall (fun n => 0 < n) ns1 -> Forall (fun n => 0 < n) ns2 -> Forall (fun n => 0 < n) ns3 ->
  zsum ns1 > zlen (arg_bytes a1) -> zsum ns2 > zlen (arg_bytes a2) -> zsum ns3 > zlen (arg_bytes a3) ->
  exists l1 st1 l2 st2 l3 st3,
    arg_read false ns1 (r_init (ws_out st)) = Some (0, l1, 0, st1) /\
    arg_read false ns2 st1 = Some (0, l2, 0, st2) /\
    arg_read true ns3 st2 = Some (0, l3, 0, st3) /\
    data_of l1 = arg_bytes a1 /\ data_of l2 = arg_bytes a2 /\ data_of l3 = arg_bytes a3 /\
    r_final (Z.of_nat (length (ws_out st))) st3.
Proof.
  intros capf kind a1 a2 a3 H1 H2 Hk.
  destruct (writer_output_ok capf kind a1 a2 a3 H1 H2 Hk) as [codes [st [R [W [N [C D]]]]]].
  exists codes, st. split; [exact R|]. intros ns1 ns2 ns3 P1 P2 P3 S1 S2 S3.
  destruct (reader_eof _ _ _ _ _ W N C D ns1 ns2 ns3 P1 P2 P3 S1 S2 S3)
    as [l1 [st1 [l2 [st2 [l3 [st3 [A1 [A2 [A3 [_ [_ [_ [D1 [D2 [D3 [F1 [F2 [F3 F4]]]]]]]]]]]]]]]]]].
  exists l1, st1, l2, st2, l3, st3. unfold r_final. repeat split; assumption.
Qed.

Theorem roundtrip_helper : forall capf kind a1 a2 a3,
  3 <= capf true -> 5 <= capf false -> kind_ok kind ->
  exists codes st, w_run capf (script3 a1 a2 a3) (w_init (ck_fresh kind)) [] = Some (codes, st) /\
  forall n1 n2 n3, 0 < n1 -> 0 < n2 -> 0 < n3 ->
  exists st1 st2 st3,
    arg_helper false n1 (r_init (ws_out st)) = Some (0, arg_bytes a1, 0, st1) /\
    arg_helper false n2 st1 = Some (0, arg_bytes a2, 0, st2) /\
    arg_helper true n3 st2 = Some (0, arg_bytes a3, 0, st3) /\
    r_final (Z.of_nat (length (ws_out st))) st3.
Proof.
  intros capf kind a1 a2 a3 H1 H2 Hk.
  destruct (writer_output_ok capf kind a1 a2 a3 H1 H2 Hk) as [codes [st [R [W [N [C D]]]]]].
  exists codes, st. split; [exact R|]. intros n1 n2 n3 P1 P2 P3.
  destruct (reader_helper _ _ _ _ _ W N C D n1 n2 n3 P1 P2 P3) as [st1 [st2 [st3 [A1 [A2 [A3 [F1 [F2 [F3 F4]]]]]]]]].
  exists st1, st2, st3. unfold r_final. repeat split; assumption.
Qed.

(* ANY read pattern (exact-length reads, reads of size 0, early Close ...): never a panic;
   an argument whose Begin, reads and Close all succeed was read exactly; what was read is
   always a prefix of the right argument; errors are sticky *)
Theorem roundtrip_safe : forall capf kind a1 a2 a3,
  3 <= capf true -> 5 <= capf false -> kind_ok kind ->
  exists codes st, w_run capf (script3 a1 a2 a3) (w_init (ck_fresh kind)) [] = Some (codes, st) /\
  forall ns1 ns2 ns3,
  Forall (fun n => 0 <= n) ns1 -> Forall (fun n => 0 <= n) ns2 -> Forall (fun n => 0 <= n) ns3 ->
  exists cb1 l1 cc1 st1 cb2 l2 cc2 st2 cb3 l3 cc3 st3,
    arg_read false ns1 (r_init (ws_out st)) = Some (cb1, l1, cc1, st1) /\
    arg_read false ns2 st1 = Some (cb2, l2, cc2, st2) /\
    arg_read true ns3 st2 = Some (cb3, l3, cc3, st3) /\
    (arg_ok cb1 l1 cc1 -> data_of l1 = arg_bytes a1) /\
    (arg_ok cb2 l2 cc2 -> data_of l2 = arg_bytes a2) /\
    (arg_ok cb3 l3 cc3 -> data_of l3 = arg_bytes a3) /\
    (exists r1, arg_bytes a1 = data_of l1 ++ r1) /\ (exists r2, arg_bytes a2 = data_of l2 ++ r2) /\
    (exists r3, arg_bytes a3 = data_of l3 ++ r3) /\
    sticky (ops_of cb1 l1 cc1 ++ ops_of cb2 l2 cc2 ++ ops_of cb3 l3 cc3).
Proof.
  intros capf kind a1 a2 a3 H1 H2 Hk.
  destruct (writer_output_ok capf kind a1 a2 a3 H1 H2 Hk) as [codes [st [R [W [N [C D]]]]]].
  exists codes, st. split; [exact R|]. intros ns1 ns2 ns3 P1 P2 P3.
  destruct (reader_safe _ _ _ _ _ W N C D ns1 ns2 ns3 P1 P2 P3)
    as [cb1 [l1 [cc1 [st1 [cb2 [l2 [cc2 [st2 [cb3 [l3 [cc3 [st3 [A1 [A2 [A3 [B1 [B2 [B3 [E1 [E2 [E3 [S _]]]]]]]]]]]]]]]]]]]]]].
  exists cb1, l1, cc1, st1, cb2, l2, cc2, st2, cb3, l3, cc3, st3. repeat (split; [assumption|]). exact S.
Qed.
