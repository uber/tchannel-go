(* C07: the admission and close decisions of the hand models (Model/ConnClose.v, Model/ChanClose.v)
   are the ones go2v regenerates from the Go source on every run (Gen/GenClose.v):
     Relayer.canClose, Relayer.canHandleNewCall (state test and pending.Inc()),
     the state switch and the re-check of handleCallReq and of beginCall,
     getMinConnectionState (initial value and loop body), and in connectionCloseStateChange /
     Channel.Close the computation of updateTo and the two guarded state assignments. *)
From Coq Require Import ZArith List Bool Lia Permutation.
From Verif Require Import Base.Wrap Gen.GenConsts Gen.GenClose Model.CloseKernel Model.ConnClose Model.ChanClose.
Import ListNotations.
Local Open Scope Z_scope.

(* checkExchanges: "if c.relay.canClose() == false { return }" at both places *)
Lemma gen_can_close : forall s n k moved,
  tstep s n (PCE3 k) = Some (s, if relayCanClose (has_relay s) (pending s) then PCE4 k else resume k) /\
  tstep s n (PCE6 moved k) = Some (s, if relayCanClose (has_relay s) (pending s) then PCE7 moved k else resume k).
Proof.
  intros s n k moved. cbn [tstep]. unfold relayCanClose.
  destruct (has_relay s); cbn [negb andb]; destruct (pending s =? 0); cbn [negb]; split; reflexivity.
Qed.

(* canHandleNewCall: canHandle = curState == connectionActive; if canHandle { pending.Inc() } *)
Lemma gen_relay_admit : forall s n id remote,
  tstep s n (PRel1 id remote) =
    if relayCanHandle (st s)
    then Some (set_pending s (relayPendingAfter true (pending s)) (g_live s ++ [n]), PRelLive id)
    else Some (set_pending s (relayPendingAfter false (pending s)) (g_live s),
               if remote then PDone oRelRemote id else PRelRef id).
Proof.
  intros s n id remote. cbn [tstep]. unfold relayCanHandle, relayPendingAfter, sA.
  destruct (st s =? c_connectionActive); [reflexivity|]. destruct s; reflexivity.
Qed.

(* handleCallReq: the switch on the state (1 = falls out of the switch, 0 = the branch that sends
   ErrChannelClosed and returns; the default branch panics: not reachable, the state is in range) *)
Lemma gen_callreq_switch : forall s n id, sA <= st s <= sCl ->
  exists d, callReqStateSwitch (st s) = Some d /\
            tstep s n (PR1 id) = Some (s, if d =? 1 then PR2 id else PRRef id).
Proof.
  intros s n id H. cbn [tstep]. unfold callReqStateSwitch, sA, sCl in *.
  destruct (st s =? c_connectionActive) eqn:E1; [exists 1; split; reflexivity|].
  assert (E : (st s =? c_connectionStartClose) || (st s =? c_connectionInboundClosed) || (st s =? c_connectionClosed) = true).
  { apply Z.eqb_neq in E1. unfold c_connectionActive, c_connectionStartClose, c_connectionInboundClosed, c_connectionClosed in *.
    destruct (st s =? 2) eqn:E2; [reflexivity|]. destruct (st s =? 3) eqn:E3; [reflexivity|].
    destruct (st s =? 4) eqn:E4; [reflexivity|]. apply Z.eqb_neq in E2, E3, E4. lia. }
  rewrite E. exists 0. split; reflexivity.
Qed.

Lemma gen_callreq_switch_panics : forall c, ~ (sA <= c <= sCl) -> callReqStateSwitch c = None.
Proof.
  intros c H. unfold callReqStateSwitch, sA, sCl, c_connectionActive, c_connectionStartClose,
    c_connectionInboundClosed, c_connectionClosed in *.
  destruct (c =? 1) eqn:E1; [apply Z.eqb_eq in E1; lia|].
  destruct (c =? 2) eqn:E2; [apply Z.eqb_eq in E2; lia|].
  destruct (c =? 3) eqn:E3; [apply Z.eqb_eq in E3; lia|].
  destruct (c =? 4) eqn:E4; [apply Z.eqb_eq in E4; lia|]. reflexivity.
Qed.

(* handleCallReq: the re-check after newExchange (0 = SendSystemError(ErrChannelClosed), then
   mex.shutdown(), then return -- the generated definition compiles only with both statements
   present in that order) *)
Lemma gen_callreq_recheck : forall s n id,
  tstep s n (PR3 id) = if callReqRecheck (st s) =? 1
                       then Some (set_inb s (set_flag id (inb s)), PDone oDispatched id)
                       else Some (s, PR4 id).
Proof.
  intros s n id. cbn [tstep]. unfold callReqRecheck, sA. destruct (st s =? c_connectionActive); reflexivity.
Qed.

(* beginCall: the switch (0 = return ErrConnectionClosed, 2 = unknown state) and the re-check *)
Lemma gen_begincall : forall s n id,
  tstep s n PC1 = Some (s, if beginCallStateSwitch (st s) =? 1 then PC2 else PDone oCClosed1 0) /\
  (sA <= st s <= sCl -> beginCallStateSwitch (st s) <> 2) /\
  tstep s n (PC3 id) = if beginCallRecheck (st s) =? 1
                       then Some (set_outb s (set_flag id (outb s)), PDone oBegun id)
                       else Some (s, PC4 id).
Proof.
  intros s n id. cbn [tstep]. unfold beginCallStateSwitch, beginCallRecheck, sA, sCl.
  split; [|split].
  - destruct (st s =? c_connectionActive); [reflexivity|].
    destruct ((st s =? c_connectionStartClose) || (st s =? c_connectionInboundClosed) || (st s =? c_connectionClosed)); reflexivity.
  - intros H. unfold c_connectionActive, c_connectionStartClose, c_connectionInboundClosed, c_connectionClosed in *.
    destruct (st s =? 1) eqn:E1; [discriminate|].
    destruct (st s =? 2) eqn:E2; [discriminate|]. destruct (st s =? 3) eqn:E3; [discriminate|].
    destruct (st s =? 4) eqn:E4; [discriminate|]. apply Z.eqb_neq in E1, E2, E3, E4. lia.
  - destruct (st s =? c_connectionActive); reflexivity.
Qed.

Lemma minStateStep_min : forall m x, minStateStep m x = Z.min x m.
Proof. intros m x. unfold minStateStep. destruct (x <? m) eqn:E; [apply Z.ltb_lt in E|apply Z.ltb_ge in E]; lia. Qed.

(* getMinConnectionState: minState := connectionClosed; for each connection { if s := c.readState(); s < minState { minState = s } } *)
Lemma gen_minstate : forall s,
  minstate s = fold_right (fun c m => minStateStep m (cstate s c)) minStateInit (conns s).
Proof.
  intros s. unfold minstate, minStateInit, kCl. induction (conns s) as [|c l IH]; cbn [fold_right]; [reflexivity|].
  rewrite minStateStep_min, IH. reflexivity.
Qed.

Lemma fold_min_le : forall (f : nat -> Z) r b, fold_right (fun c m => Z.min (f c) m) b r <= b.
Proof. intros f r b. induction r as [|d r' IHr]; cbn [fold_right]; lia. Qed.

Lemma fold_min_init : forall (f : nat -> Z) r x a,
  fold_right (fun c m => Z.min (f c) m) (Z.min x a) r = Z.min x (fold_right (fun c m => Z.min (f c) m) a r).
Proof. intros f r x a. induction r as [|d r' IHr]; cbn [fold_right]; [reflexivity|]. rewrite IHr. lia. Qed.

Lemma fold_min_left : forall (f : nat -> Z) l a,
  fold_left (fun m c => minStateStep m (f c)) l a = Z.min a (fold_right (fun c m => Z.min (f c) m) a l).
Proof.
  intros f l. induction l as [|c r IH]; intros a; cbn [fold_left fold_right]; [lia|].
  rewrite IH, minStateStep_min, fold_min_init. pose proof (fold_min_le f r a). lia.
Qed.

Lemma fold_min_perm : forall (f : nat -> Z) a l l', Permutation l l' ->
  fold_right (fun c m => Z.min (f c) m) a l = fold_right (fun c m => Z.min (f c) m) a l'.
Proof.
  intros f a l l' P. induction P; cbn [fold_right]; [reflexivity|rewrite IHP; reflexivity|lia|congruence].
Qed.

(* the Go loop ranges over a map: whatever the iteration order, the result is [minstate] *)
Lemma gen_minstate_any_order : forall s l, Permutation l (conns s) ->
  fold_left (fun m c => minStateStep m (cstate s c)) l minStateInit = minstate s.
Proof.
  intros s l P. rewrite fold_min_left. unfold minstate, minStateInit, kCl.
  rewrite (fold_min_perm (cstate s) c_connectionClosed l (conns s) P).
  pose proof (fold_min_le (cstate s) (conns s) c_connectionClosed). lia.
Qed.

(* connectionCloseStateChange: updateTo *)
Lemma gen_update_to : forall m c, update_to m c = chanUpdateTo m c.
Proof.
  intros m c. unfold update_to, chanUpdateTo, kCl, kIC, hCl, hIC, hSC.
  rewrite !Z.geb_leb. destruct (c_connectionClosed <=? m); [reflexivity|].
  destruct ((c_connectionInboundClosed <=? m) && (c =? c_ChannelStartClose)); reflexivity.
Qed.

(* connectionCloseStateChange: "if ch.mutable.state < updateTo { ch.mutable.state = updateTo }" *)
Lemma gen_apply_update : forall s c cs u arg,
  ctstep s (PCb5 c cs u) arg =
    Some (set_chst s (chanApplyUpdate (chst s) u),
          if chst s <? u then (if u =? hCl then PCb6 else CDone oCbDone) else CDone oCbDone).
Proof.
  intros s c cs u arg. cbn [ctstep]. unfold chanApplyUpdate. destruct (chst s <? u); [reflexivity|].
  destruct s; reflexivity.
Qed.

(* Channel.Close: "if ch.mutable.state < ChannelStartClose { ch.mutable.state = ChannelStartClose }" *)
Lemma gen_close_state : forall s arg, chst s <> hCl ->
  ctstep s PCl1 arg =
    match conns s with
    | [] => Some (set_chst (set_chst s (chanCloseState (chst s))) hCl, PCl2 [] true)
    | _ => Some (set_chst s (chanCloseState (chst s)), PCl2 (conns s) false)
    end.
Proof.
  intros s arg H. cbn [ctstep]. apply Z.eqb_neq in H. rewrite H. unfold chanCloseState, hSC.
  destruct (chst s <? c_ChannelStartClose); [reflexivity|]. destruct s as [a b c d e]. cbn. destruct b; reflexivity.
Qed.
