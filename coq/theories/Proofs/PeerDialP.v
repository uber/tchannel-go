(* Connection attempts over the bookkeeping model (Model/PeerDial.v):
   - every run with dial goroutines projects to a run of Model/PeerBook.v (an attempt touches the
     bookkeeping state only through GetOrAdd and, when its handshake completes, through LNew), so
     every theorem about quiescent states of PeerBook.v holds with attempts in flight, overlapping
     removals, and failing afterwards;
   - newConnLock: held iff exactly one dial goroutine is between lockNewConn and its unlock; all
     locks are free when no dial goroutine is left;
   - the VARIANT whose canRemove also requires a free newConnLock leaks a peer (witness run). *)
From Coq Require Import ZArith List Bool Lia.
From Verif Require Import Base.Wrap Gen.GenConsts Model.PeerBook Spec.PeerBookSpec
  Proofs.PeerBookL Proofs.PeerBookP Proofs.PeerBookW Model.PeerDial.
Import ListNotations.
Local Open Scope Z_scope.

(* "no goroutine inside a bookkeeping function and no connection attempt in flight" *)
Definition dquiescent (ds : dst) : Prop := quiescent (d_s ds) /\ forall d, d_thr ds d = None.

Lemma begin_on_s ds pid : d_s (begin_on ds pid) = d_s ds.
Proof. unfold begin_on. destruct (has_active (d_s ds) pid); reflexivity. Qed.

(* What one step of the dial model does to the bookkeeping state: nothing, one step of PeerBook.v,
   or -- in the variant only -- the collector's "no" because the peer's newConnLock is held. *)
Inductive s_effect (gate : bool) (s s' : st) : Prop :=
| eff_none : s' = s -> s_effect gate s s'
| eff_step l0 : step s l0 = Some s' -> s_effect gate s s'
| eff_gate t c hp q todo :
    gate = true -> s_thr s t = Some (PCol2 c hp q todo) -> s' = set_thr s t (Some (PCbGet c todo)) ->
    s_effect gate s s'.

Lemma dbase_effect gate ds l0 ds' :
  dstep_gen gate ds (DBase l0) = Some ds' -> exists s', ds' = with_s ds s' /\ s_effect gate (d_s ds) s'.
Proof.
  assert (Hb : option_map (with_s ds) (step (d_s ds) l0) = Some ds' ->
               exists s', ds' = with_s ds s' /\ s_effect gate (d_s ds) s').
  { destruct (step (d_s ds) l0) as [s'|] eqn:E; cbn [option_map]; intros [= <-].
    exists s'. split; [reflexivity|]. exact (eff_step _ _ _ l0 E). }
  cbn [dstep_gen]. destruct gate; [|exact Hb]. unfold gated_base. destruct l0; try exact Hb.
  destruct (s_thr (d_s ds) t) as [[]|] eqn:Et; try exact Hb.
  destruct (d_lock ds q); [|exact Hb]. intros [= <-]. eexists. split; [reflexivity|].
  exact (eff_gate _ _ _ _ _ _ _ _ eq_refl Et eq_refl).
Qed.

Lemma dstep_s gate ds l ds' : dstep_gen gate ds l = Some ds' -> s_effect gate (d_s ds) (d_s ds').
Proof.
  unfold dstep_gen. destruct l as [l0|hp|pid|d|d|d rhp].
  - intros H. destruct (dbase_effect gate ds l0 ds' H) as (s' & -> & He). exact He.
  - destruct (hp =? 0) eqn:Eh; [discriminate|].
    destruct (root_get_or_add (d_s ds) hp) as [s1 pid] eqn:Eg. intros [= <-].
    apply (eff_step _ _ _ (LGetOrAdd hp)). rewrite begin_on_s. unfold step, step_gen. rewrite Eh, Eg. reflexivity.
  - destruct (p_hp (s_peer (d_s ds) pid) =? 0); [discriminate|]. intros [= <-].
    apply eff_none, begin_on_s.
  - destruct (d_thr ds d) as [[q|q|q|q t]|]; try discriminate.
    + destruct (d_lock ds q); [discriminate|]. intros [= <-]. apply eff_none. reflexivity.
    + destruct (has_active (d_s ds) q); intros [= <-]; apply eff_none; reflexivity.
    + destruct (s_thr (d_s ds) t); [discriminate|]. intros [= <-]. apply eff_none. reflexivity.
  - destruct (d_thr ds d) as [[q|q|q|q t]|]; try discriminate; intros [= <-]; apply eff_none; reflexivity.
  - destruct (d_thr ds d) as [[q|q|q|q t]|]; try discriminate.
    destruct (step (d_s ds) (LNew c_outbound rhp (p_hp (s_peer (d_s ds) q)))) as [s'|] eqn:E; [|discriminate].
    intros [= <-]. exact (eff_step _ _ _ _ E).
Qed.

Lemma drun_invariant gate (P : dst -> Prop) :
  (forall ds l ds', P ds -> dstep_gen gate ds l = Some ds' -> P ds') ->
  forall ls ds ds', P ds -> drun_gen gate ds ls = Some ds' -> P ds'.
Proof.
  intros Hstep. induction ls as [|l r IH]; intros ds ds' Hi H; cbn [drun_gen] in H.
  - inversion H; subst; exact Hi.
  - destruct (dstep_gen gate ds l) as [ds1|] eqn:E; [|discriminate].
    apply (IH ds1); [|exact H]. exact (Hstep _ _ _ Hi E).
Qed.

Lemma run_gen_app s l1 l2 s1 s2 :
  run_gen true s l1 = Some s1 -> run_gen true s1 l2 = Some s2 -> run_gen true s (l1 ++ l2) = Some s2.
Proof.
  revert s. induction l1 as [|l r IH]; intros s H1 H2; cbn [run_gen app] in *.
  - inversion H1; subst. exact H2.
  - destruct (step_gen true s l) as [s'|]; [|discriminate]. eapply IH; eauto.
Qed.

(* ---- projection: a run of the dial model is a run of PeerBook.v, the attempts' own steps left out ---- *)
Lemma drun_sim ls ds ds' : drun ds ls = Some ds' -> exists ls', run (d_s ds) ls' = Some (d_s ds').
Proof.
  apply (drun_invariant false (fun x => exists ls', run (d_s ds) ls' = Some (d_s x))); [|exists []; reflexivity].
  intros x l x' [ls' Hr] H. destruct (dstep_s _ _ _ _ H) as [->|l0 E|? ? ? ? ? [=]].
  - exists ls'. exact Hr.
  - exists (ls' ++ [l0]). apply (run_gen_app _ _ _ _ _ Hr).
    cbn [run_gen]. unfold step in E. rewrite E. reflexivity.
Qed.

Theorem dial_projects ls ds :
  drun dinit ls = Some ds -> exists ls', run init ls' = Some (d_s ds).
Proof. apply drun_sim. Qed.

Theorem peer_gc_dial ls ds :
  drun dinit ls = Some ds -> quiescent (d_s ds) -> peer_gc (d_s ds).
Proof. intros H Hq. destruct (dial_projects _ _ H) as [ls' Hr]. eapply peer_gc_all; eauto. Qed.

Theorem channel_tracks_dial ls ds :
  drun dinit ls = Some ds -> quiescent (d_s ds) -> channel_tracks (d_s ds).
Proof. intros H Hq. destruct (dial_projects _ _ H) as [ls' Hr]. eapply channel_tracks_all; eauto. Qed.

Theorem callbacks_dial ls ds :
  drun dinit ls = Some ds -> callbacks_exact (d_s ds).
Proof. intros H. destruct (dial_projects _ _ H) as [ls' Hr]. eapply callbacks_exact_all; eauto. Qed.

(* the collection clause in the words of the property: after any history -- attempts to hp or to
   anything else started, hanging, failed, completed, in any overlap with the removals -- once
   nothing is in flight, a Peer object whose last change was losing a connection, with no
   connection and no reference left, is not what the root list holds for any host:port *)
Theorem collected_when_quiet ls ds :
  drun dinit ls = Some ds -> dquiescent ds ->
  forall hp pid, let P := s_peer (d_s ds) pid in
    p_in P = [] -> p_out P = [] -> refs (d_s ds) pid = 0 -> p_last P = 2 ->
    s_root (d_s ds) hp <> Some pid.
Proof.
  intros H [Hq _] hp pid P Hi Ho Hr Hl Hroot.
  destruct (peer_gc_dial _ _ H Hq) as [Hg _]. exact (Hg hp pid Hroot Hi Ho Hr Hl).
Qed.

(* ---- newConnLock ---- *)
Definition holds (p : option dpc) (pid : Z) : Prop :=
  match p with
  | Some (DCheck q) | Some (DConn q) | Some (DWait q _) => q = pid
  | _ => False
  end.

Definition lock_inv (ds : dst) : Prop :=
  0 <= d_next ds /\
  (forall d, d_thr ds d <> None -> 0 <= d < d_next ds) /\
  (forall pid, d_lock ds pid = true -> exists d, holds (d_thr ds d) pid) /\
  (forall d pid, holds (d_thr ds d) pid -> d_lock ds pid = true) /\
  (forall d1 d2 pid, holds (d_thr ds d1) pid -> holds (d_thr ds d2) pid -> d1 = d2).

Lemma lock_inv_init : lock_inv dinit.
Proof.
  unfold lock_inv, dinit; cbn [d_next d_thr d_lock d_s]. split; [lia|]. split; [|split; [|split]].
  - intros d H. now contradiction H.
  - intros pid H. discriminate H.
  - intros d pid H. contradiction.
  - intros d1 d2 pid H. contradiction.
Qed.

Lemma lock_inv_with_s ds s : lock_inv ds -> lock_inv (with_s ds s).
Proof. intros H. exact H. Qed.

Lemma holds_fun p q1 q2 : holds p q1 -> holds p q2 -> q1 = q2.
Proof. destruct p as [[a|a|a|a b]|]; cbn [holds]; try contradiction; congruence. Qed.

Lemma holds_upd thr d p' x q :
  holds (upd thr d p' x) q <-> (x = d /\ holds p' q) \/ (x <> d /\ holds (thr x) q).
Proof.
  destruct (upd_cases thr d p' x) as [[-> ->]|[Hne ->]]; split.
  - intros H. left. split; [reflexivity|exact H].
  - intros [[_ H]|[Hne _]]; [exact H|contradiction].
  - intros H. right. split; assumption.
  - intros [[E _]|[_ H]]; [contradiction|exact H].
Qed.

(* Goroutine d goes on to pc p' (None: it ends), the locks become lock'.  Lock by lock, either
   nothing changes, or d takes a lock that was free, or d gives back the lock it held. *)
Lemma lock_inv_set ds d p' lock' n' :
  lock_inv ds -> d_next ds <= n' -> (d_thr ds d = None -> p' <> None -> 0 <= d < n') ->
  (forall q, (lock' q = d_lock ds q /\ (holds p' q <-> holds (d_thr ds d) q)) \/
             (lock' q = true /\ d_lock ds q = false /\ holds p' q) \/
             (lock' q = false /\ holds (d_thr ds d) q /\ ~ holds p' q)) ->
  lock_inv (mkD (d_s ds) lock' (upd (d_thr ds) d p') n').
Proof.
  intros (Hn & Hf & Hl & Hh & Hu) Hn' Hd Hq. unfold lock_inv; cbn [d_next d_thr d_lock].
  split; [lia|]. split; [|split; [|split]].
  - intros x Hx. destruct (upd_cases (d_thr ds) d p' x) as [[-> E]|[_ E]]; rewrite E in Hx.
    + destruct (d_thr ds d) eqn:E0; [|exact (Hd eq_refl Hx)].
      assert (0 <= d < d_next ds) by (apply Hf; congruence). lia.
    + apply Hf in Hx. lia.
  - intros q Hlq. destruct (Hq q) as [[E Hp]|[(_ & _ & Hp)|(E & _)]].
    + rewrite E in Hlq. destruct (Hl q Hlq) as [x Hx]. exists x. apply holds_upd.
      destruct (Z.eq_dec x d) as [->|Hne].
      * left. split; [reflexivity|apply Hp, Hx].
      * right. split; assumption.
    + exists d. apply holds_upd. left. split; [reflexivity|exact Hp].
    + congruence.
  - intros x q Hx. apply holds_upd in Hx. destruct (Hq q) as [[-> Hp]|[(E & _)|(_ & H0 & Hp)]].
    + destruct Hx as [[_ Hx]|[_ Hx]]; [apply Hp in Hx|]; exact (Hh _ _ Hx).
    + exact E.
    + destruct Hx as [[_ Hx]|[Hne Hx]]; [contradiction|]. contradiction Hne. exact (Hu _ _ _ Hx H0).
  - intros x1 x2 q H1 H2. apply holds_upd in H1, H2.
    destruct (Hq q) as [[_ Hp]|[(_ & Hfree & _)|(_ & _ & Hp)]].
    + apply (Hu x1 x2 q).
      * destruct H1 as [[-> H1]|[_ H1]]; [apply Hp, H1|exact H1].
      * destruct H2 as [[-> H2]|[_ H2]]; [apply Hp, H2|exact H2].
    + destruct H1 as [[-> _]|[_ H1]]; [|apply Hh in H1; congruence].
      destruct H2 as [[-> _]|[_ H2]]; [reflexivity|apply Hh in H2; congruence].
    + destruct H1 as [[_ H1]|[_ H1]]; [contradiction|].
      destruct H2 as [[_ H2]|[_ H2]]; [contradiction|]. exact (Hu _ _ _ H1 H2).
Qed.

Lemma lock_inv_move ds d p p' :
  lock_inv ds -> d_thr ds d = Some p -> (forall q, holds p' q <-> holds (Some p) q) ->
  lock_inv (dset_thr ds d p').
Proof.
  intros Hi E Hp. apply (lock_inv_set ds d p'); [exact Hi|apply Z.le_refl|congruence|].
  intros q. left. rewrite E. split; [reflexivity|apply Hp].
Qed.

Lemma lock_inv_begin ds pid : lock_inv ds -> lock_inv (begin_on ds pid).
Proof.
  intros Hi. unfold begin_on. destruct (has_active (d_s ds) pid); [exact Hi|].
  pose proof Hi as (Hn & Hf & _).
  assert (Hfree : d_thr ds (d_next ds) = None).
  { destruct (d_thr ds (d_next ds)) eqn:E; [|reflexivity].
    assert (0 <= d_next ds < d_next ds) by (apply Hf; congruence). lia. }
  apply (lock_inv_set ds (d_next ds) (Some (DLock pid))); [exact Hi|lia|lia|].
  intros q. left. rewrite Hfree. split; reflexivity.
Qed.

Lemma lock_inv_take ds d pid :
  lock_inv ds -> d_thr ds d = Some (DLock pid) -> d_lock ds pid = false ->
  lock_inv (dset_thr (dset_lock ds pid true) d (Some (DCheck pid))).
Proof.
  intros Hi H0 Hfree.
  apply (lock_inv_set ds d (Some (DCheck pid))); [exact Hi|apply Z.le_refl|congruence|].
  intros q. rewrite H0. cbn [holds dset_lock d_lock].
  destruct (upd_cases (d_lock ds) pid true q) as [[-> ->]|[Hne ->]].
  - right. left. auto.
  - left. split; [reflexivity|]. split; [congruence|contradiction].
Qed.

Lemma lock_inv_unlock ds d p pid :
  lock_inv ds -> d_thr ds d = Some p -> holds (Some p) pid ->
  lock_inv (dset_thr (dset_lock ds pid false) d None).
Proof.
  intros Hi E H0. rewrite <- E in H0.
  apply (lock_inv_set ds d None); [exact Hi|apply Z.le_refl|congruence|].
  intros q. cbn [holds dset_lock d_lock].
  destruct (upd_cases (d_lock ds) pid false q) as [[-> ->]|[Hne ->]].
  - right. right. auto.
  - left. split; [reflexivity|]. split; [contradiction|]. intros Hq. exact (Hne (holds_fun _ _ _ Hq H0)).
Qed.

Lemma dstep_lock gate ds l ds' : lock_inv ds -> dstep_gen gate ds l = Some ds' -> lock_inv ds'.
Proof.
  intros Hi. unfold dstep_gen. destruct l as [l0|hp|pid|d|d|d rhp].
  - intros H. destruct (dbase_effect gate ds l0 ds' H) as (s' & -> & _). exact Hi.
  - destruct (hp =? 0); [discriminate|]. destruct (root_get_or_add (d_s ds) hp) as [s1 pid].
    intros [= <-]. apply lock_inv_begin. exact Hi.
  - destruct (p_hp (s_peer (d_s ds) pid) =? 0); [discriminate|]. intros [= <-].
    apply lock_inv_begin. exact Hi.
  - destruct (d_thr ds d) as [[q|q|q|q t]|] eqn:E; try discriminate.
    + destruct (d_lock ds q) eqn:El; [discriminate|]. intros [= <-]. now apply lock_inv_take.
    + destruct (has_active (d_s ds) q); intros [= <-].
      * exact (lock_inv_unlock ds d _ q Hi E eq_refl).
      * apply (lock_inv_move ds d _ _ Hi E). reflexivity.
    + destruct (s_thr (d_s ds) t); [discriminate|]. intros [= <-].
      exact (lock_inv_unlock ds d _ q Hi E eq_refl).
  - destruct (d_thr ds d) as [[q|q|q|q t]|] eqn:E; try discriminate; intros [= <-].
    + apply (lock_inv_move ds d _ _ Hi E). reflexivity.
    + exact (lock_inv_unlock ds d _ q Hi E eq_refl).
  - destruct (d_thr ds d) as [[q|q|q|q t]|] eqn:E; try discriminate.
    destruct (step (d_s ds) (LNew c_outbound rhp (p_hp (s_peer (d_s ds) q)))) as [s'|]; [|discriminate].
    intros [= <-]. apply (lock_inv_move (with_s ds s') d _ _ Hi E). reflexivity.
Qed.

Lemma lock_inv_reach gate ls ds : drun_gen gate dinit ls = Some ds -> lock_inv ds.
Proof. apply (drun_invariant gate lock_inv (dstep_lock gate)), lock_inv_init. Qed.

(* newConnLock of a Peer object is held iff a dial goroutine is between lockNewConn and its
   unlock for that object, and there is at most one such goroutine per object *)
Theorem newconn_lock_exclusive ls ds :
  drun dinit ls = Some ds ->
  (forall pid, d_lock ds pid = true <-> exists d, holds (d_thr ds d) pid) /\
  (forall d1 d2 pid, holds (d_thr ds d1) pid -> holds (d_thr ds d2) pid -> d1 = d2).
Proof.
  intros H. destruct (lock_inv_reach _ _ _ H) as (_ & _ & Hl & Hh & Hu).
  split; [|exact Hu]. intros pid. split; [apply Hl|]. intros [d Hd]. eauto.
Qed.

(* every attempt gave its lock back *)
Theorem newconn_lock_released ls ds :
  drun dinit ls = Some ds -> (forall d, d_thr ds d = None) -> forall pid, d_lock ds pid = false.
Proof.
  intros H Hq pid. destruct (lock_inv_reach _ _ _ H) as (_ & _ & Hl & _ & _).
  destruct (d_lock ds pid) eqn:E; [|reflexivity]. destruct (Hl pid E) as [d Hd]. rewrite Hq in Hd. contradiction.
Qed.

Lemma set_thr_fresh s t p p' :
  inv_fresh s -> s_thr s t = Some p -> pc_pid p' = None -> inv_fresh (set_thr s t (Some p')).
Proof.
  intros (Hpos & Hthr & Hnew & Hroot & Hpc & Hls) Ht Hp. unfold inv_fresh; simp_st.
  split; [exact Hpos|]. split; [|split; [|split; [|split]]]; auto.
  - intros x Hx. destruct (Z.eq_dec x t) as [->|Hne]; [apply Hthr; congruence|].
    rewrite upd_other in Hx by assumption. now apply Hthr.
  - intros x p0 q Hx Hq. destruct (Z.eq_dec x t) as [->|Hne].
    + rewrite upd_same in Hx. inversion Hx; subst. congruence.
    + rewrite upd_other in Hx by assumption. eauto.
Qed.

Lemma fresh_reach gate ls ds : drun_gen gate dinit ls = Some ds -> inv_fresh (d_s ds).
Proof.
  apply (drun_invariant gate (fun x => inv_fresh (d_s x))); [|exact (i_fresh _ inv0_init)].
  clear. intros ds l ds' Hi H.
  destruct (dstep_s _ _ _ _ H) as [->|l0 E|t c hp q todo _ Et ->].
  - exact Hi.
  - exact (step_fresh _ _ _ Hi E).
  - apply (set_thr_fresh _ _ _ _ Hi Et). reflexivity.
Qed.

(* ---- witness runs ---- *)
Definition dfinal (gate : bool) (ls : list dlabel) : dst :=
  match drun_gen gate dinit ls with Some ds => ds | None => dinit end.
Definition dran (gate : bool) (ls : list dlabel) : bool :=
  match drun_gen gate dinit ls with Some _ => true | None => false end.
Lemma dfinal_run gate ls : dran gate ls = true -> drun_gen gate dinit ls = Some (dfinal gate ls).
Proof. unfold dran, dfinal. destruct (drun_gen gate dinit ls); [reflexivity|discriminate]. Qed.

Fixpoint any_dial (thr : Z -> option dpc) (n : nat) : bool :=
  match n with
  | O => false
  | S n' => (match thr (Z.of_nat n') with Some _ => true | None => false end) || any_dial thr n'
  end.

Lemma any_dial_false thr n : any_dial thr n = false -> forall d, 0 <= d < Z.of_nat n -> thr d = None.
Proof.
  induction n as [|n IH]; intros H d Hd; [lia|]. cbn [any_dial] in H. apply orb_false_iff in H as [H1 H2].
  destruct (Z.eq_dec d (Z.of_nat n)) as [->|Hne].
  - destruct (thr (Z.of_nat n)); [discriminate|reflexivity].
  - apply IH; [exact H2|lia].
Qed.

Lemma dquiescent_check gate ls ds :
  drun_gen gate dinit ls = Some ds ->
  any_thread is_some (s_thr (d_s ds)) (Z.to_nat (s_next (d_s ds))) = false ->
  any_dial (d_thr ds) (Z.to_nat (d_next ds)) = false -> dquiescent ds.
Proof.
  intros Hrun H1 H2.
  pose proof (fresh_reach _ _ _ Hrun) as Hf.
  destruct (lock_inv_reach _ _ _ Hrun) as (Hn & Hd & _).
  split; [exact (quiescent_check _ Hf H1)|].
  intros d. destruct (d_thr ds d) eqn:E; [|reflexivity].
  assert (0 <= d < d_next ds) by (apply Hd; congruence).
  rewrite (any_dial_false _ _ H2 d) in E by lia. discriminate.
Qed.

Definition dsteps (t : Z) (n : nat) : list dlabel := repeat (DBase (LStep t)) n.

(* The remote host:port 7 restarts while a caller keeps calling it:
   a Ping(7) creates peer 1, takes its newConnLock and hangs in the dial (dial goroutine 0);
   meanwhile 7 connects to us (inbound connection 2, listed under peer 1) and closes it again;
   then the dial fails. *)
Definition wd_of (n : nat) : list dlabel :=
  [DBegin 7; DStep 0; DStep 0] ++
  [DBase (LNew c_inbound 7 0)] ++ dsteps 3 5 ++
  [DBase (LChange 2 c_connectionClosed)] ++ dsteps 4 n ++
  [DFail 0].
(* the close callback: removeClosedConn, Get, removal, collector (Get, canRemove, [delete]), end *)
Definition wd : list dlabel := wd_of 7.       (* the code as it is: with the delete *)
Definition wd_gate : list dlabel := wd_of 6.  (* the variant: canRemove says no *)

(* the code as it is: peer 1 has left the root list *)
Theorem wd_collected :
  exists ds, drun dinit wd = Some ds /\ dquiescent ds /\ s_root (d_s ds) 7 = None /\
             s_log (d_s ds) = [7; 7] /\ s_inch (d_s ds) 2 = false.
Proof.
  exists (dfinal false wd).
  assert (Hrun : drun_gen false dinit wd = Some (dfinal false wd)) by (apply dfinal_run; vm_compute; reflexivity).
  split; [exact Hrun|]. split.
  - apply (dquiescent_check _ _ _ Hrun); vm_compute; reflexivity.
  - clear Hrun. vm_compute. repeat split; reflexivity.
Qed.

(* the variant (canRemove also wants a free newConnLock): at the end nothing is in flight, peer 1
   has no connection, no reference, its last change was the loss of its connection -- and it is
   still in the root list, for good *)
Theorem wd_gate_refutes :
  exists ls ds, drun_gen true dinit ls = Some ds /\ dquiescent ds /\ ~ peer_gc (d_s ds).
Proof.
  exists wd_gate, (dfinal true wd_gate).
  assert (Hrun : drun_gen true dinit wd_gate = Some (dfinal true wd_gate)) by (apply dfinal_run; vm_compute; reflexivity).
  split; [exact Hrun|]. split.
  - apply (dquiescent_check _ _ _ Hrun); vm_compute; reflexivity.
  - clear Hrun. intros [H _]. apply (H 7 1); vm_compute; reflexivity.
Qed.
