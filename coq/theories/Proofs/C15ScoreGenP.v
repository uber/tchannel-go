(* Property C15: the steps of Model/C15Score.v are the statement structure / lock regions that
   go2v regenerates from channel.go, subchannel.go and peer.go on every run (Gen/GenC15Score.v). *)
From Coq Require Import ZArith List Bool Arith String.
From Verif Require Import Base.Wrap Base.GoMap Spec.C15ScoreSpec Gen.GenC15Score Gen.GenC15ScoreFn Model.PeerList Model.C15Score.
Import ListNotations.
Local Open Scope Z_scope.

(* Channel.connectionCloseStateChange, from `ch.removeClosedConn(c)` to `chState := ch.State()`:
   the peer of the announced host:port and -- for an alias connection -- the peer of the dialled
   one each lose the connection and are then passed to updatePeer *)
Lemma close_tie c ann dial :
  compiled c15prog_addToPeer (env_of c false ann dial [] true) c15prog_close = Some (prog_close c ann dial).
Proof. unfold env_of, prog_close. destruct (alias_of ann dial), (is_nil ann); reflexivity. Qed.

(* Channel.connectionActive (+ addConnectionToPeer inlined) for an admitted connection *)
Lemma active_tie c inb ann dial :
  compiled c15prog_addToPeer (env_of c inb ann dial [] true) c15prog_active = Some (add_to_peer c ann inb).
Proof. unfold env_of. destruct (alias_of ann dial), (is_nil ann), (bytes_eqb [] ann); reflexivity. Qed.

(* ... and for one the channel refused (it is closed, no peer hears of it) *)
Lemma active_refused_tie c inb ann dial :
  compiled c15prog_addToPeer (env_of c inb ann dial [] false) c15prog_active = Some [].
Proof. unfold env_of. destruct (alias_of ann dial), (is_nil ann), (bytes_eqb [] ann); reflexivity. Qed.

(* the tail of Channel.Connect(hostPort): the connection is also added to the peer of the dialled
   host:port when the remote announced another one *)
Lemma connect_tail_tie c ann dial :
  compiled c15prog_addToPeer (env_of c false ann dial dial true) c15prog_connectTail =
    Some (if negb (bytes_eqb dial ann) then add_to_peer c dial false else []).
Proof. unfold env_of. destruct (alias_of ann dial), (is_nil ann), (bytes_eqb dial ann); reflexivity. Qed.

Lemma connect_tie c ann dial :
  exists p1 p2,
    compiled c15prog_addToPeer (env_of c false ann dial [] true) c15prog_active = Some p1 /\
    compiled c15prog_addToPeer (env_of c false ann dial dial true) c15prog_connectTail = Some p2 /\
    prog_connect c ann dial = p1 ++ p2.
Proof.
  eexists; eexists. split; [apply active_tie|]. split; [apply connect_tail_tie|]. reflexivity.
Qed.

(* Channel.exchangeUpdated *)
Lemma exch_tie c ann dial :
  compiled c15prog_addToPeer (env_of c false ann dial [] true) c15prog_exch = Some (exch_updated ann dial).
Proof. unfold env_of, exch_updated. destruct (alias_of ann dial), (is_nil ann), (bytes_eqb [] ann); reflexivity. Qed.

(* Channel.updatePeer visits the channel's own list, then subChannelMap.updatePeer every isolated
   sub-channel's list: BUpd 0, 1, ..., n of the model *)
Lemma update_peer_tie :
  c15prog_updatePeer = [CCall 7 4; CCall 8 4] /\ c15prog_subUpdate = [CLoop [CIf 7 0 [CCall 9 4] []]].
Proof. split; reflexivity. Qed.

Lemma regions_tie :
  c15reg_listAdd = reg_add /\ c15reg_listExists = reg_exists /\
  c15reg_onPeerChange = reg_on_peer_change /\ c15reg_getPeerScore = reg_get_peer_score /\
  c15reg_setStrategy = reg_set_strategy /\ c15reg_listUpdatePeer = reg_list_update_peer /\
  c15reg_listRemove = reg_remove.
Proof. repeat split; reflexivity. Qed.

(* every GetScore, every use of its result, every store of a score or of the calculator happens
   with the list's write lock held (PeerList.updatePeer and getPeerScore run under their callers' lock) *)
Lemma regions_safe :
  forallb region_safe [c15reg_listAdd; c15reg_listExists; c15reg_onPeerChange; c15reg_setStrategy; c15reg_listRemove] = true.
Proof. reflexivity. Qed.

(* the DATA PATH of a score inside those regions (Gen/GenC15ScoreFn.v; host:ports and peers as names):
   PeerList.updatePeer leaves the entry with the new score whatever the old one was; the locked
   region of Add stores, under the host:port, the score GetScore gives the peer the ROOT list
   returned, computed in that region; the locked region of onPeerChange stores GetScore of the
   entry's own peer iff the entry (still) exists -- what AAddLocked / AResUpd hand to pl_add / pl_update *)
Lemma update_score_tie score new : c15listUpdateScore score new = new.
Proof. unfold c15listUpdateScore. destruct (score =? new) eqn:E; [apply Z.eqb_eq in E; congruence|reflexivity]. Qed.

Lemma add_scores_tie scores get_score hp p :
  c15listAddScores scores get_score hp p = (gmap_set scores hp (get_score p), p).
Proof. reflexivity. Qed.

Lemma rescore_tie scores get_score hp :
  c15listRescore scores get_score hp =
    if snd (gmap_get scores hp) then gmap_set scores hp (get_score hp) else scores.
Proof. unfold c15listRescore. rewrite update_score_tie. reflexivity. Qed.

Local Open Scope string_scope.

(* the functions of the package that change a peer's connection lists, compute / store a score or
   call Channel.updatePeer / PeerList.onPeerChange: all of them are modelled above
   (Peer.addConnection = AConnAdd, Peer.connectionCloseStateChange = AConnDrop; Channel.Connect and
   Channel.serve install the callbacks OnActive / OnCloseStateChange / OnExchangeUpdated) *)
Definition census_expected : list censusrow :=
  [("Channel.Connect", 47); ("Channel.addConnectionToPeer", 40); ("Channel.addConnectionToPeer", 42);
   ("Channel.connectionCloseStateChange", 40); ("Channel.connectionCloseStateChange", 43);
   ("Channel.exchangeUpdated", 40); ("Channel.serve", 47); ("Channel.updatePeer", 41); ("Channel.updatePeer", 46);
   ("Peer.addConnection", 48); ("Peer.connectionCloseStateChange", 44); ("Peer.connectionCloseStateChange", 45);
   ("Peer.connectionsFor", 45); ("PeerList.Add", 20); ("PeerList.SetStrategy", 20); ("PeerList.SetStrategy", 24);
   ("PeerList.onPeerChange", 20); ("PeerList.onPeerChange", 24); ("PeerList.updatePeer", 32); ("PeerList.updatePeer", 33);
   ("subChannelMap.updatePeer", 41)].

Lemma census_tie : c15_census = census_expected.
Proof. reflexivity. Qed.
