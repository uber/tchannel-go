(* Property C05 (a) under every scheduling of the error notification against pending frames:
   C04's no-gap theorem over Model/Mex.v (every interleaving of arrivals, refusals and takes)
   composed with C05's reader theorems (cut_call_outcome, hostile_success_denote). *)
From Coq Require Import ZArith List Bool Lia.
From Verif Require Import Base.Wrap Base.Bytes Base.Wire Gen.GenConsts Gen.GenMex Gen.GenMexProg
  Model.Crc Model.Frag Model.FragWire Model.Cut Spec.FragSpec Spec.FragOk Spec.Demux Spec.ChanProg
  Proofs.FragRP Proofs.CutP Proofs.HostileP Model.Mex Proofs.MexP Model.MexProg Proofs.MexProgP Model.ErrQ.
Import ListNotations.
Local Open Scope Z_scope.

(* one step / a schedule of the system whose connection reader and receiver are the programs
   regenerated from mex.go *)
Definition prog_step (s : st) (l : label) : option st :=
  option_map fst (prog_step_obs mexForwardPeerFrame mexRecvPeerFrame s l).
Definition prog_run (ls : list label) : option st := run_from prog_step init ls.

Lemma prog_step_is_step s l : prog_step s l = step s l.
Proof. unfold prog_step, step. now rewrite prog_step_generated. Qed.

Lemma prog_run_from_is_run ls : forall s, run_from prog_step s ls = run_from step s ls.
Proof.
  induction ls as [|l r IH]; intros s; cbn [run_from]; [reflexivity|].
  rewrite prog_step_is_step. destruct (step s l); [apply IH|reflexivity].
Qed.

Theorem prog_run_is_run ls : prog_run ls = run ls.
Proof. apply prog_run_from_is_run. Qed.

(* the fragments carried by a sequence of frames (frame tag k |-> its fragment) *)
Definition frs_of (payload : Z -> frag) (l : list frame) : list frag := map payload (map f_tag l).

Lemma prefix_firstn {A} (a b : list A) : prefix a b -> a = firstn (length a) b.
Proof. intros [r ->]. rewrite firstn_app, Nat.sub_diag, firstn_all. cbn [firstn]. now rewrite app_nil_r. Qed.

Lemma prefix_len {A} (a b : list A) : prefix a b -> (length a <= length b)%nat.
Proof. intros [r ->]. rewrite app_length. lia. Qed.

Lemma firstn_prefix {A} k (l : list A) : prefix (firstn k l) l.
Proof. exists (skipn k l). symmetry. apply firstn_skipn. Qed.

Lemma frs_prefix payload a b : prefix a b -> prefix (frs_of payload a) (frs_of payload b).
Proof. intros [r ->]. exists (frs_of payload r). unfold frs_of. now rewrite !map_app. Qed.

(* what the receiver has consumed after any number of its takes is an in-order, gap-free
   initial part of the frames that arrived for its call *)
Lemma consumed_prefix ls s r e k :
  run ls = Some s -> nth_error (s_mexes s) r = Some e ->
  prefix (firstn k (g_received (m_g e))) (window e (s_wire s)).
Proof.
  intros Hrun He. destruct (no_gap _ _ _ _ Hrun He) as [Hp _].
  exact (prefix_trans _ _ _ (firstn_prefix k _) Hp).
Qed.

Theorem errq_success_is_sent : forall ls s r e (payload : Z -> frag) fs ck0 a1 a2 a3,
  prog_run ls = Some s -> nth_error (s_mexes s) r = Some e ->
  prefix (frs_of payload (window e (s_wire s))) fs ->
  wf fs -> ck_new (first_ctype fs) = Some ck0 -> ck_chain ck0 fs ->
  denote (chunks_of fs) = [a1; a2; a3] ->
  forall n1 n2 n3, 0 < n1 -> 0 < n2 -> 0 < n3 ->
  forall k, let got := frs_of payload (firstn k (g_received (m_g e))) in
    prefix got fs /\
    (call_outcome n1 n2 n3 got = OErr \/ call_outcome n1 n2 n3 got = OOk [a1; a2; a3]) /\
    (call_outcome n1 n2 n3 got <> OErr -> got = fs).
Proof.
  intros ls s r e payload fs ck0 a1 a2 a3 Hrun He Hsent Hwf Hck Hchain Hden n1 n2 n3 H1 H2 H3 k got.
  rewrite prog_run_is_run in Hrun.
  assert (Hp : prefix got fs).
  { exact (prefix_trans _ _ _ (frs_prefix payload _ _ (consumed_prefix ls s r e k Hrun He)) Hsent). }
  split; [exact Hp|].
  pose proof (prefix_len _ _ Hp) as Hl. pose proof (prefix_firstn _ _ Hp) as Hg.
  pose proof (cut_call_outcome fs ck0 a1 a2 a3 Hwf Hck Hchain Hden n1 n2 n3 H1 H2 H3 (length got) Hl) as Hout.
  rewrite <- Hg in Hout. destruct (length got <? length fs)%nat eqn:E.
  - split; [left; exact Hout|]. intros Hn. contradiction.
  - split; [right; exact Hout|]. intros _. apply Nat.ltb_ge in E.
    rewrite Hg. apply firstn_all2. exact E.
Qed.

Theorem errq_success_is_denotation : forall ls s r e (payload : Z -> frag) n1 n2 n3 k args,
  0 < n1 -> 0 < n2 -> 0 < n3 ->
  prog_run ls = Some s -> nth_error (s_mexes s) r = Some e ->
  (forall t, frag_parsed (payload t)) ->
  call_outcome n1 n2 n3 (frs_of payload (firstn k (g_received (m_g e)))) = OOk args ->
  exists pre post c0, frs_of payload (window e (s_wire s)) = pre ++ post /\ wf pre /\
    ck_new (first_ctype pre) = Some c0 /\ ck_chain c0 pre /\ f_more (last pre dfrag) = false /\
    args = denote (chunks_of pre).
Proof.
  intros ls s r e payload n1 n2 n3 k args H1 H2 H3 Hrun He Hpar Hout.
  rewrite prog_run_is_run in Hrun.
  assert (Hp : Forall frag_parsed (frs_of payload (firstn k (g_received (m_g e))))).
  { unfold frs_of. apply Forall_forall. intros x Hx. apply in_map_iff in Hx. destruct Hx as (t & <- & _). apply Hpar. }
  destruct (hostile_success_denote n1 n2 n3 _ args H1 H2 H3 Hp Hout) as (pre & post & c0 & Hs & Hwf & Hn & Hc & Hl & Ha).
  destruct (frs_prefix payload _ _ (consumed_prefix ls s r e k Hrun He)) as [rest Hr].
  exists pre, (post ++ rest), c0. split; [|auto]. rewrite Hr, Hs. now rewrite app_assoc.
Qed.

(* the code without frameDropped *)
Definition gap_fs : list frag :=
  [mkFrag true 0 [] [[]; [3; 4]; [5]]; mkFrag true 0 [] [[6]]; mkFrag true 0 [] [[7]]; mkFrag false 0 [] [[8]]].
Definition gap_payload (t : Z) : frag := nth (Z.to_nat (t - 1)) gap_fs dfrag.

Lemma gap_fs_premises :
  wf gap_fs /\ ck_new (first_ctype gap_fs) = Some (mkCk 0 0) /\ ck_chain (mkCk 0 0) gap_fs /\
  denote (chunks_of gap_fs) = [[]; [3; 4]; [5; 6; 7; 8]].
Proof.
  split; [|split; [reflexivity|split; [|reflexivity]]].
  - exists (fun _ => 100). unfold frames_ok, gap_fs. cbn [frames_ok_from f_chunks f_more]. ok_tac.
  - unfold gap_fs. cbn [ck_chain f_ck f_ctype f_chunks]. repeat split.
Qed.

Theorem errq_pinned_refuted : exists ls s e args,
  run_pinned ls = Some s /\ nth_error (s_mexes s) 0 = Some e /\
  frs_of gap_payload (window e (s_wire s)) = gap_fs /\
  call_outcome 512 512 512 (frs_of gap_payload (g_received (m_g e))) = OOk args /\
  args <> denote (chunks_of gap_fs).
Proof.
  eexists gap_trace, _, _, _. split; [vm_compute; reflexivity|]. split; [reflexivity|].
  split; [vm_compute; reflexivity|]. split; [vm_compute; reflexivity|]. vm_compute. discriminate.
Qed.

(* the same schedule on the system regenerated from the source: frame 4 is refused *)
Example errq_gap_trace_generated : exists s e,
  prog_run (firstn 16 gap_trace) = Some s /\ nth_error (s_mexes s) 0 = Some e /\
  prog_step s LFwdSend = None /\ map f_tag (g_delivered (m_g e)) = [1; 2] /\ m_dropped e = true.
Proof. vm_compute. eexists. eexists. repeat split. Qed.

(* every state the scenario semantics of Model/ErrQ.v passes through is reached by a schedule of
   atomic steps of Model/Mex.v: the theorems above apply to what the engine compares the
   implementation with *)
Definition reach (s : st) : Prop := exists ls, run ls = Some s.

Lemma reach_step s l s' o : reach s -> step_obs true s l = Some (s', o) -> reach s'.
Proof.
  intros [ls Hr] Hs. exists (ls ++ [l]). unfold run.
  apply (run_from_app step ls [l] init s s' Hr). cbn [run_from]. unfold step. now rewrite Hs.
Qed.

Lemma try_labels_some s : forall ls s' o, try_labels true s ls = Some (s', o) ->
  exists l, step_obs true s l = Some (s', o).
Proof.
  unfold try_labels. intros ls.
  assert (G : forall acc s' o,
    fold_left (fun acc l => match acc with Some _ => acc | None => step_obs true s l end) ls acc = Some (s', o) ->
    acc = Some (s', o) \/ exists l, step_obs true s l = Some (s', o)).
  { induction ls as [|l r IH]; intros acc s' o H; cbn [fold_left] in H; [left; exact H|].
    destruct (IH _ _ _ H) as [E|E]; [|right; exact E].
    destruct acc as [a|]; [left; exact E|right; exists l; exact E]. }
  intros s' o H. destruct (G None s' o H) as [E|E]; [discriminate|exact E].
Qed.

Lemma reach_try s ls s' o : reach s -> try_labels true s ls = Some (s', o) -> reach s'.
Proof. intros Hr H. destruct (try_labels_some s ls s' o H) as [l Hl]. exact (reach_step _ _ _ _ Hr Hl). Qed.

Lemma reach_fwd s : reach s -> reach (fst (fwd_advance true s)).
Proof.
  intros Hr. unfold fwd_advance. destruct (s_reader s) as [|f [m|]|f m]; cbn [fst]; [exact Hr| | |].
  - destruct (step_obs true s LFwdCheck) as [[s1 [|c o]]|] eqn:E1; cbn [fst]; [| |exact Hr].
    + pose proof (reach_step _ _ _ _ Hr E1) as Hr1.
      destruct (try_labels true s1 [LFwdSend; LFwdCtxDone; LFwdErr]) as [[s2 o2]|] eqn:E2; cbn [fst]; [|exact Hr1].
      exact (reach_try _ _ _ _ Hr1 E2).
    + exact (reach_step _ _ _ _ Hr E1).
  - destruct (step_obs true s LFwdNil) as [[s1 o]|] eqn:E1; cbn [fst]; [|exact Hr]. exact (reach_step _ _ _ _ Hr E1).
  - destruct (try_labels true s [LFwdSend; LFwdCtxDone; LFwdErr]) as [[s2 o2]|] eqn:E2; cbn [fst]; [|exact Hr].
    exact (reach_try _ _ _ _ Hr E2).
Qed.

Lemma reach_cons s r : reach s -> reach (fst (cons_advance true s r)).
Proof.
  intros Hr. unfold cons_advance.
  assert (Hsel : forall s0, reach s0 ->
    reach (fst (match try_labels true s0 [LRecvFrame r; LRecvCtxDone r; LRecvErr r] with
                | Some (s', o) => (s', Some o) | None => (s0, None) end))).
  { intros s0 H0. destruct (try_labels true s0 _) as [[s' o]|] eqn:E; cbn [fst]; [|exact H0]. exact (reach_try _ _ _ _ H0 E). }
  destruct (nth_error (s_mexes s) r) as [e|]; [|exact Hr].
  destruct (m_cpc e); [exact (Hsel s Hr)|].
  destruct (step_obs true s (LRecvCheck r)) as [[s1 [|c o]]|] eqn:E1; cbn [fst]; [| |exact Hr].
  - exact (Hsel s1 (reach_step _ _ _ _ Hr E1)).
  - exact (reach_step _ _ _ _ Hr E1).
Qed.

Lemma reach_stop_all c s : reach s -> reach (stop_all c s).
Proof.
  intros Hr. unfold stop_all. destruct (step_obs true s (LStopCopy c)) as [[s1 o]|] eqn:E; [|exact Hr].
  pose proof (reach_step _ _ _ _ Hr E) as Hr1. clear E. generalize (s_stop s1). intros l. revert s1 Hr1.
  induction l as [|x l IH]; intros s1 Hr1; cbn [fold_left]; [exact Hr1|].
  apply IH. destruct (step_obs true s1 (LStopNotify 0)) as [[s2 o2]|] eqn:E2; [|exact Hr1].
  exact (reach_step _ _ _ _ Hr1 E2).
Qed.

Lemma reach_rd x : reach (x_st x) -> reach (x_st (fst (rd_advance x))).
Proof.
  intros Hr. unfold rd_advance. destruct (s_reader (x_st x)) eqn:Er.
  - destruct (x_wire x) as [|[f|c] w]; cbn [fst x_st]; [exact Hr| |].
    + destruct (step_obs true (x_st x) (LLookup f)) as [[s' o]|] eqn:E; cbn [fst x_st]; [|exact Hr].
      exact (reach_step _ _ _ _ Hr E).
    + exact (reach_stop_all c _ Hr).
  - pose proof (reach_fwd _ Hr) as H. destruct (fwd_advance true (x_st x)) as [s' o]. exact H.
  - pose proof (reach_fwd _ Hr) as H. destruct (fwd_advance true (x_st x)) as [s' o]. exact H.
Qed.

Lemma reach_cs x : reach (x_st x) -> reach (x_st (fst (cs_advance x))).
Proof.
  intros Hr. unfold cs_advance. destruct (negb (x_rerr x =? 0)).
  - destruct (x_want x); exact Hr.
  - pose proof (reach_cons _ 0%nat Hr) as H.
    destruct (in_recv (x_st x)), (x_want x); cbn [fst]; try exact Hr;
      destruct (cons_advance true (x_st x) 0) as [s' [[|[|p|p] o]|]]; exact H.
Qed.

Lemma reach_settle fuel : forall x, reach (x_st x) -> reach (x_st (x_settle fuel x)).
Proof.
  induction fuel as [|fuel IH]; intros x Hr; cbn [x_settle]; [exact Hr|].
  pose proof (reach_rd x Hr) as H1. destruct (rd_advance x) as [x1 p1]. cbn [fst] in H1.
  pose proof (reach_cs x1 H1) as H2. destruct (cs_advance x1) as [x2 p2]. cbn [fst] in H2.
  destruct (p1 || p2); [exact (IH x2 H2)|exact H2].
Qed.

Lemma reach_event id kind code n acc ev :
  reach (x_st (fst acc)) -> reach (x_st (fst (x_event id kind code n acc ev))).
Proof.
  destruct acc as [x next]. cbn [fst]. intros Hr. unfold x_event.
  destruct (ev =? 0).
  { destruct (next <=? n)%nat; cbn [fst]; [|exact Hr]. apply reach_settle. exact Hr. }
  destruct (ev =? 1); [cbn [fst]; apply reach_settle; exact Hr|].
  destruct (ev =? 2); [|exact Hr].
  destruct (kind =? 3); cbn [fst]; apply reach_settle; [exact Hr|].
  unfold x_set_st. cbn [x_st]. exact (reach_stop_all code _ Hr).
Qed.

Lemma reach_finish fuel n : forall x, reach (x_st x) -> reach (x_st (x_finish fuel n x)).
Proof.
  induction fuel as [|fuel IH]; intros x Hr; cbn [x_finish]; [exact Hr|].
  destruct (negb (x_rerr x =? 0)); [exact Hr|]. destruct (n <=? length (x_recvd x))%nat; [exact Hr|].
  destruct (negb (Nat.eqb (x_want x) 0) || in_recv (x_st x)); [exact Hr|].
  apply IH. apply reach_settle. exact Hr.
Qed.

Theorem errq_scenario_reachable : forall id cap kind code n evs,
  exists ls, prog_run ls = Some (x_st (x_run id cap kind code n evs)).
Proof.
  intros id cap kind code n evs.
  assert (H : reach (x_st (x_run id cap kind code n evs))).
  { unfold x_run.
    assert (H0 : reach (x_st (fst (x_init id cap, 1%nat)))).
    { cbn [fst]. unfold x_init. destruct (step_obs true init (LNew id cap)) as [[s o]|] eqn:E; cbn [x_st].
      - exact (reach_step init _ _ _ (ex_intro _ [] eq_refl) E).
      - exists []. reflexivity. }
    assert (H1 : forall evs acc, reach (x_st (fst acc)) -> reach (x_st (fst (fold_left (x_event id kind code n) evs acc)))).
    { induction evs0 as [|ev r IH]; intros acc Ha; cbn [fold_left]; [exact Ha|]. apply IH. apply reach_event. exact Ha. }
    specialize (H1 evs _ H0). destruct (fold_left (x_event id kind code n) evs (x_init id cap, 1%nat)) as [x next].
    cbn [fst] in H1. apply reach_finish. apply reach_settle. exact H1. }
  destruct H as [ls Hls]. exists ls. rewrite prog_run_is_run. exact Hls.
Qed.

(* ... so a success of the scenario model is the denotation of a checksum-verified well-formed
   message that is an initial part, in arrival order, of the frames that reached the exchange *)
Theorem errq_scenario_success : forall id cap kind code n evs (payload : Z -> frag) args,
  (forall t, frag_parsed (payload t)) ->
  let x := x_run id cap kind code n evs in
  call_outcome 512 512 512 (frs_of payload (x_recvd x)) = OOk args ->
  exists e pre post c0, nth_error (s_mexes (x_st x)) 0 = Some e /\
    frs_of payload (window e (s_wire (x_st x))) = pre ++ post /\ wf pre /\
    ck_new (first_ctype pre) = Some c0 /\ ck_chain c0 pre /\ f_more (last pre dfrag) = false /\
    args = denote (chunks_of pre).
Proof.
  intros id cap kind code n evs payload args Hpar x Hout.
  destruct (errq_scenario_reachable id cap kind code n evs) as [ls Hls]. fold x in Hls.
  unfold x_recvd in Hout. destruct (nth_error (s_mexes (x_st x)) 0) as [e|] eqn:He.
  - rewrite <- (firstn_all (g_received (m_g e))) in Hout.
    destruct (errq_success_is_denotation ls _ 0%nat e payload 512 512 512 _ args ltac:(lia) ltac:(lia) ltac:(lia) Hls He Hpar Hout)
      as (pre & post & c0 & H).
    exists e, pre, post, c0. split; [reflexivity|exact H].
  - exfalso. cbn in Hout. vm_compute in Hout. discriminate.
Qed.
