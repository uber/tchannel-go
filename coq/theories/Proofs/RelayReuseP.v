(* C03: id re-use schedules of the relay model are bookkeeping-equivalent to fresh-id schedules. *)
From Coq Require Import ZArith List Bool Lia.
From Verif Require Import Base.Wrap Gen.GenConsts Gen.GenFrame Model.RelayItems
  Proofs.RelayAssocP Proofs.RelayCoreP Proofs.RelayInv9P Proofs.RelayTimerP Proofs.RelaySilentP Proofs.RelayAdmitP.
Import ListNotations.
Local Open Scope Z_scope.

(* the fields the relay's decisions read: everything but the thread table and the ghost logs *)
Definition coreq (a b : state) : Prop :=
  conns a = conns b /\ items a = items b /\ timers a = timers b /\ next_tm a = next_tm b /\
  next_call a = next_call b /\ gcs a = gcs b /\ panicked a = panicked b.

Lemma coreq_refl : forall a, coreq a a.
Proof. intro a. repeat split. Qed.

Lemma coreq_sym : forall a b, coreq a b -> coreq b a.
Proof. intros a b (H1&H2&H3&H4&H5&H6&H7). repeat split; symmetry; assumption. Qed.

Local Opaque wrapU frameTypeFor finishesCall dcsSucceeded dcsFailMsg reason_of_msg hasMoreFragments Z.add Z.sub Z.ltb Z.eqb Z.leb.

Ltac dmi :=
  match goal with
  | |- context [match ?x with _ => _ end] =>
      lazymatch x with
      | context [match _ with _ => _ end] => fail
      | _ => destruct x eqn:?
      end
  end.

Ltac unf := unfold get_conn, put_conn, log_cb, items_get, items_delete_tomb, items_delete_call, items_delete, items_entomb, timer_stop, timer_release,
  timer_new, tomb_count, set_conns, set_items, set_timers, set_next_tm, set_next_call, set_gcs, set_cblog, set_sent, set_panic in *; cbn in *.

(* [f] reads the decision fields only: on states that agree on them it decides alike *)
Definition core_fun {X : Type} (f : state -> state * X) : Prop :=
  forall a b, coreq a b -> coreq (fst (f a)) (fst (f b)) /\ snd (f a) = snd (f b).

(* two states with the same decision fields are one record with two sets of ghost fields *)
Lemma core_fun_records : forall (X : Type) (f : state -> state * X),
  (forall c it tm nt nc g p t l s sn t' l' s' sn',
     coreq (fst (f (Build_state c it tm nt nc g t l s sn p))) (fst (f (Build_state c it tm nt nc g t' l' s' sn' p))) /\
     snd (f (Build_state c it tm nt nc g t l s sn p)) = snd (f (Build_state c it tm nt nc g t' l' s' sn' p))) ->
  core_fun f.
Proof.
  intros X f Hf a b H. destruct a, b. unfold coreq in H. cbn in H. decompose [and] H. subst. apply Hf.
Qed.

(* ... and every test the function makes is then the same test on both sides *)
Ltac by_cases :=
  apply core_fun_records; intros; unfold coreq; cbn; unf; repeat (dmi; unf); cbn; repeat split; reflexivity.

Lemma items_get_core : forall t stop, core_fun (fun st => items_get st t stop).
Proof. intros t stop. by_cases. Qed.
Lemma items_entomb_core : forall cf t, core_fun (fun st => items_entomb cf st t).
Proof. intros cf t. by_cases. Qed.
Lemma items_delete_call_core : forall t lk, core_fun (fun st => items_delete_call st t lk).
Proof. intros t lk. by_cases. Qed.

Lemma core_fun_ret : forall code : list instr, core_fun (fun st => (st, code)).
Proof. intros code a b H. split; [exact H|reflexivity]. Qed.

Lemma core_fun_bind : forall (X Y : Type) (op : state -> state * X) (K : state -> X -> state * Y),
  core_fun op -> (forall x, core_fun (fun st => K st x)) -> core_fun (fun st => let '(st', x) := op st in K st' x).
Proof.
  intros X Y op K Hop HK a b H. destruct (Hop a b H) as [Hc Hx]. destruct (op a) as [a' x], (op b) as [b' x'].
  cbn [fst snd] in Hc, Hx. subst x'. exact (HK x a' b' Hc).
Qed.

(* INcGet, IRcvGet, IFailGet, IEntomb, IDelete are a table operation followed by a choice of code *)
Lemma exec_sim : forall cf i room, core_fun (fun st => exec cf st i room).
Proof.
  intros cf i room. destruct i; cbn [exec]; cbv zeta.
  12: destruct (frameTypeFor (f_mt f)).
  all: try (apply core_fun_bind;
            [first [apply items_get_core|apply items_entomb_core|apply items_delete_call_core]|intros [[it []]|]; apply core_fun_ret]).
  all: by_cases.
Qed.

Lemma exec_frame : forall cf a i room,
  threads (fst (exec cf a i room)) = threads a /\ seen (fst (exec cf a i room)) = seen a.
Proof.
  intros cf a i room. destruct i; cbn [exec]; cbv zeta.
  12: destruct (frameTypeFor (f_mt f)).
  (* the table operations have their frame lemmas *)
  all: try (match goal with |- context [let '(_, _) := ?u in _] => destruct u as [st' g] eqn:E end;
            first [apply items_get_spec in E; destruct E as [(_&_&_&Ht&_&_&Hs&_) _]
                  |apply items_entomb_spec in E; destruct E as (_&Ht&_&_&Hs&_)
                  |apply items_delete_call_spec in E; destruct E as (_&_&Ht&_&_&Hs&_)];
            destruct g as [[it []]|]; cbn [fst]; split; assumption).
  all: destruct a; cbn; unf; repeat (dmi; unf); cbn; split; reflexivity.
Qed.

(* the labels that start no thread: tombstone collection, close, loss, drained *)
Definition plain_label (l : label) : bool :=
  match l with LGc _ | LClose _ | LLost _ | LDrained _ => true | _ => false end.

Lemma step_plain_sim : forall cf a b l a', coreq a b -> plain_label l = true -> step cf a l = Some a' ->
  exists b', step cf b l = Some b' /\ coreq a' b' /\
    threads a' = threads a /\ threads b' = threads b /\ seen a' = seen a /\ seen b' = seen b /\
    cblog a' = cblog a /\ cblog b' = cblog b.
Proof.
  intros cf a b l a' H Hp Hs. destruct a, b. unfold coreq in H. cbn in H.
  destruct H as (H1&H2&H3&H4&H5&H6&H7). subst.
  destruct l; try discriminate; unfold coreq; unfold step in *; cbn in *; unf.
  all: repeat (match type of Hs with context [match ?x with _ => _ end] =>
         lazymatch x with context [match _ with _ => _ end] => fail | _ => destruct x eqn:? end end; unf);
       try discriminate; inversion Hs; subst; eexists; (split; [reflexivity|]); cbn; repeat split; reflexivity.
Qed.

Local Transparent Z.add Z.sub Z.ltb Z.eqb Z.leb.

(* ---------------------------------------------------------------- re-use schedules *)

(* the id was read at least twice on the connection: the call req being handled re-uses it *)
Definition id_count (sn : list (Z * Z)) (k id : Z) : nat :=
  length (filter (fun p => (fst p =? k) && (snd p =? id)) sn).
Definition reusedb (sn : list (Z * Z)) (k id : Z) : bool := (2 <=? id_count sn k id)%nat.

(* A schedule step is admissible when the getDestination step of a call req that RE-USES an id
   finds an item for it (live or tombstone): the id is re-used while the relay still tracks the
   earlier call -- in flight, timed out, failed -- i.e. within the tombstone period. *)
Definition reuse_guard (st : state) (l : label) : bool :=
  match l with
  | LStep t _ =>
      match lookup tid_eqb t (threads st) with
      | Some (IGetDest k f _ _ :: _) => negb (reusedb (seen st) k (f_id f)) || out_found st k (f_id f)
      | _ => true
      end
  | _ => true
  end.

Fixpoint run_reuse (cf : config) (st : state) (ls : list label) : option state :=
  match ls with
  | [] => Some st
  | l :: r => if reuse_guard st l
              then match step cf st l with Some st' => run_reuse cf st' r | None => None end
              else None
  end.

Lemma id_count_cons : forall p sn k id,
  id_count (p :: sn) k id = Nat.add (if (fst p =? k) && (snd p =? id) then 1%nat else 0%nat) (id_count sn k id).
Proof. intros p sn k id. unfold id_count. cbn [filter]. destruct ((fst p =? k) && (snd p =? id)); reflexivity. Qed.

Lemma id_count_pos : forall sn k id, (1 <= id_count sn k id)%nat <-> In (k, id) sn.
Proof.
  induction sn as [|[a b] r IH]; intros k id; [cbn; lia|]. rewrite id_count_cons. cbn [fst snd In]. rewrite <- IH.
  destruct ((a =? k) && (b =? id)) eqn:E.
  - apply andb_true_iff in E. destruct E as [E1 E2]. apply Z.eqb_eq in E1, E2. subst. split; [left; reflexivity|lia].
  - split; [intro H; right; cbn in H; exact H|]. intros [H|H]; [|exact H].
    inversion H. subst. rewrite !Z.eqb_refl in E. discriminate.
Qed.

Lemma reusedb_cons : forall p sn k id, reusedb sn k id = true -> reusedb (p :: sn) k id = true.
Proof. intros p sn k id H. unfold reusedb in *. apply Nat.leb_le in H. apply Nat.leb_le. rewrite id_count_cons. lia. Qed.

Lemma reusedb_new : forall sn k id, In (k, id) sn -> reusedb ((k, id) :: sn) k id = true.
Proof.
  intros sn k id H. unfold reusedb. apply Nat.leb_le. apply id_count_pos in H.
  rewrite id_count_cons. cbn [fst snd]. rewrite !Z.eqb_refl. cbn. lia.
Qed.

Lemma nodup_count : forall sn k id, NoDup sn -> (id_count sn k id <= 1)%nat.
Proof.
  induction sn as [|[a b] r IH]; intros k id H; [cbn; lia|]. inversion H as [|x l Hn Hr]. subst.
  rewrite id_count_cons. cbn [fst snd]. specialize (IH k id Hr). destruct ((a =? k) && (b =? id)) eqn:E; [|exact IH].
  apply andb_true_iff in E. destruct E as [E1 E2]. apply Z.eqb_eq in E1, E2. subst.
  destruct (id_count r k id) eqn:Ec; [lia|]. exfalso. apply Hn. apply id_count_pos. lia.
Qed.

(* the shadow of a re-using call req: a never-used id and a RelayHost that offers no destination *)
Definition bad_env (e : env) : env := {| e_start := e_start e; e_code := e_code e; e_dest := -1; e_mode := e_mode e |}.

Inductive irel (sn : list (Z * Z)) : instr -> instr -> Prop :=
| ir_eq : forall i, irel sn i i
| ir_err : forall k id id' c, irel sn (ISendErr k id' c) (ISendErr k id c)
| ir_start : forall k f e N, reusedb sn k (f_id f) = true ->
    irel sn (IStart k (with_id f N) (bad_env e)) (IStart k f e)
| ir_can : forall k f e c N, reusedb sn k (f_id f) = true ->
    irel sn (ICanHandle k (with_id f N) (bad_env e) c) (ICanHandle k f e c)
| ir_get : forall k f e c N, reusedb sn k (f_id f) = true ->
    irel sn (IGetDest k (with_id f N) (bad_env e) c) (IGetDest k f e c).

Inductive code_rel (sn : list (Z * Z)) : list instr -> list instr -> Prop :=
| cr_all : forall c0 c, Forall2 (irel sn) c0 c -> code_rel sn c0 c
| cr_drop : forall c k N rest0 rest, Forall2 (irel sn) rest0 rest ->
    code_rel sn (ICb c (CbFailed reason_bad_host) :: ISendErr k N c_ErrCodeDeclined :: IDec k :: ICb c CbEnd :: rest0)
                (ICb c (CbFailed reason_duplicate) :: IDec k :: ICb c CbEnd :: rest).

Lemma F2_impl : forall (A B : Type) (P Q : A -> B -> Prop) l0 l,
  (forall a b, P a b -> Q a b) -> Forall2 P l0 l -> Forall2 Q l0 l.
Proof. intros A B P Q l0 l HPQ H. induction H; constructor; [apply HPQ; assumption|assumption]. Qed.

Lemma irel_cons : forall p sn i0 i, irel sn i0 i -> irel (p :: sn) i0 i.
Proof. intros p sn i0 i H. destruct H; constructor; apply reusedb_cons; assumption. Qed.

Lemma code_rel_cons : forall p sn c0 c, code_rel sn c0 c -> code_rel (p :: sn) c0 c.
Proof.
  intros p sn c0 c H. destruct H as [c0 c H|c k N r0 r H]; [apply cr_all|apply cr_drop];
    (eapply F2_impl; [|exact H]); intros; apply irel_cons; assumption.
Qed.

Lemma Forall2_irel_refl : forall sn c, Forall2 (irel sn) c c.
Proof. intros sn c. induction c; constructor; [constructor|assumption]. Qed.

Lemma code_rel_nil : forall sn c0 c, code_rel sn c0 c -> (c0 = [] <-> c = []).
Proof. intros sn c0 c H. destruct H as [c0 c H|]; [destruct H|]; split; intro E; try reflexivity; discriminate. Qed.

Definition trel (sn : list (Z * Z)) (l0 l : list (tid * list instr)) : Prop :=
  Forall2 (fun p0 p => fst p0 = fst p /\ code_rel sn (snd p0) (snd p)) l0 l.

Lemma trel_cons_sn : forall p sn l0 l, trel sn l0 l -> trel (p :: sn) l0 l.
Proof.
  intros p sn l0 l H. unfold trel in *. eapply F2_impl; [|exact H].
  intros a b [H1 H2]. split; [exact H1|apply code_rel_cons; exact H2].
Qed.

Lemma trel_lookup : forall sn t l0 l, trel sn l0 l ->
  match lookup tid_eqb t l with
  | None => lookup tid_eqb t l0 = None
  | Some c => exists c0, lookup tid_eqb t l0 = Some c0 /\ code_rel sn c0 c
  end.
Proof.
  intros sn t l0 l H. induction H as [|[t0 c0] [t1 c1] l0 l [Hk Hc] H IH]; [reflexivity|].
  cbn in Hk, Hc. subst t1. cbn [lookup]. destruct (tid_eqb t t0); [|exact IH]. exists c0. split; [reflexivity|exact Hc].
Qed.

Lemma trel_remove : forall sn t l0 l, trel sn l0 l -> trel sn (remove tid_eqb t l0) (remove tid_eqb t l).
Proof.
  intros sn t l0 l H. induction H as [|[t0 c0] [t1 c1] l0 l [Hk Hc] H IH]; [constructor|].
  cbn in Hk. subst t1. cbn [remove]. destruct (tid_eqb t t0); [exact IH|].
  constructor; [split; [reflexivity|exact Hc]|exact IH].
Qed.

Lemma trel_set_thread : forall sn a b t c0 c, trel sn (threads a) (threads b) -> code_rel sn c0 c ->
  trel sn (threads (set_thread a t c0)) (threads (set_thread b t c)).
Proof.
  intros sn a b t c0 c H Hc. rewrite !set_thread_threads.
  pose proof (code_rel_nil _ _ _ Hc) as Hn.
  destruct c0 as [|i0 r0], c as [|i r].
  - apply trel_remove. exact H.
  - destruct Hn as [Hn _]. specialize (Hn eq_refl). discriminate.
  - destruct Hn as [_ Hn]. specialize (Hn eq_refl). discriminate.
  - unfold insert. constructor; [split; [reflexivity|exact Hc]|apply trel_remove; exact H].
Qed.

Lemma coreq_set_thread : forall a b t c0 c, coreq a b -> coreq (set_thread a t c0) (set_thread b t c).
Proof. intros a b t c0 c H. unfold coreq, set_thread in *. cbn. exact H. Qed.

Definition label_lt (M : Z) (l : label) : bool :=
  match l with LArrive _ f _ => f_id f <? M | _ => true end.

Fixpoint nid (M : Z) (sn : list (Z * Z)) : Z :=
  match sn with [] => M | p :: r => Z.max (snd p + 1) (nid M r) end.

Lemma nid_ge : forall M sn, M <= nid M sn.
Proof. induction sn; cbn [nid]; lia. Qed.
Lemma nid_gt : forall M sn k id, In (k, id) sn -> id < nid M sn.
Proof.
  induction sn as [|p r IH]; intros k id H; [contradiction|]. cbn [nid]. destruct H as [->|H].
  - cbn [snd]. lia.
  - specialize (IH k id H). lia.
Qed.

(* the callback logs: the same calls and callbacks in the same order; only the reason of the
   refusal of a re-using call req differs (duplicate id here, no destination in the shadow) *)
Definition cb_rel (p0 p : Z * cb) : Prop :=
  fst p0 = fst p /\ (snd p0 = snd p \/ (snd p0 = CbFailed reason_bad_host /\ snd p = CbFailed reason_duplicate)).
Definition cbrel (l0 l : list (Z * cb)) : Prop := Forall2 cb_rel l0 l.

Lemma cbrel_refl : forall l, cbrel l l.
Proof. induction l; constructor; [split; [reflexivity|left; reflexivity]|assumption]. Qed.

Lemma exec_cblog_eq : forall cf st i room,
  cblog (fst (exec cf st i room)) = match i with ICb c x => (c, x) :: cblog st | _ => cblog st end.
Proof. intros cf st i room. destruct (exec cf st i room) as [st1 pushed] eqn:E. apply (exec_cblog _ _ _ _ _ _ E). Qed.

Lemma exec_cbrel : forall sn cf a b i0 i room, irel sn i0 i -> cbrel (cblog a) (cblog b) ->
  cbrel (cblog (fst (exec cf a i0 room))) (cblog (fst (exec cf b i room))).
Proof.
  intros sn cf a b i0 i room Hi H. rewrite !exec_cblog_eq. destruct Hi as [i| | | |]; try exact H.
  destruct i; try exact H. constructor; [split; [reflexivity|left; reflexivity]|exact H].
Qed.

Definition sim (M : Z) (st0 st : state) : Prop :=
  coreq st0 st /\ trel (seen st) (threads st0) (threads st) /\
  (forall k id, In (k, id) (seen st0) -> In (k, id) (seen st) \/ M <= id) /\
  cbrel (cblog st0) (cblog st).

Lemma existsb_seen : forall sn k id, existsb (fun p => (fst p =? k) && (snd p =? id)) sn = true <-> In (k, id) sn.
Proof.
  intros sn k id. rewrite existsb_exists. split.
  - intros [[a b] [Hin Hp]]. cbn in Hp. apply andb_true_iff in Hp. destruct Hp as [H1 H2]. apply Z.eqb_eq in H1, H2. subst. exact Hin.
  - intro H. exists (k, id). split; [exact H|]. cbn. rewrite !Z.eqb_refl. reflexivity.
Qed.

Lemma existsb_seen_false : forall sn k id, ~ In (k, id) sn -> existsb (fun p => (fst p =? k) && (snd p =? id)) sn = false.
Proof. intros sn k id H. apply not_true_is_false. rewrite existsb_seen. exact H. Qed.

(* ---------------------------------------------------------------- one step of the simulation *)

Lemma run_fresh_app : forall cf a b st, run_fresh cf st (a ++ b) =
  match run_fresh cf st a with Some s => run_fresh cf s b | None => None end.
Proof.
  intros cf a. induction a as [|l r IH]; intros b st; cbn; [reflexivity|].
  destruct (fresh_label st l); [|reflexivity]. destruct (step cf st l); [apply IH|reflexivity].
Qed.

Lemma shadow_lstep : forall cf st0 t room i0 rest0, panicked st0 = 0 ->
  lookup tid_eqb t (threads st0) = Some (i0 :: rest0) ->
  run_fresh cf st0 [LStep t room] =
  Some (set_thread (fst (exec cf st0 i0 room)) t (snd (exec cf st0 i0 room) ++ rest0)).
Proof.
  intros cf st0 t room i0 rest0 Hp El. cbn [run_fresh fresh_label]. unfold step. rewrite Hp, El. cbn [Z.eqb negb].
  destruct (exec cf st0 i0 room). reflexivity.
Qed.

Lemma sim_after : forall M st0 st s0 s t c0 c, sim M st0 st -> coreq s0 s ->
  threads s0 = threads st0 -> threads s = threads st -> seen s0 = seen st0 -> seen s = seen st ->
  cbrel (cblog s0) (cblog s) ->
  code_rel (seen st) c0 c -> sim M (set_thread s0 t c0) (set_thread s t c).
Proof.
  intros M st0 st s0 s t c0 c (Hc&Ht&Hs&_) Hcs Ht0 Ht1 Hs0 Hs1 Hcb Hcr. split; [|split; [|split]]; [| | |exact Hcb].
  - apply coreq_set_thread. exact Hcs.
  - replace (seen (set_thread s t c)) with (seen st) by (symmetry; exact Hs1).
    apply trel_set_thread; [rewrite Ht0, Ht1; exact Ht|exact Hcr].
  - replace (seen (set_thread s0 t c0)) with (seen st0) by (symmetry; exact Hs0).
    replace (seen (set_thread s t c)) with (seen st) by (symmetry; exact Hs1). exact Hs.
Qed.

(* related instructions on states with the same decision fields: the same decisions and related
   code -- except at the getDestination of a re-using call req, where the guard has to speak *)
Lemma exec_irel : forall sn cf a b i0 i room, coreq a b -> irel sn i0 i ->
  (exists k f e c N, reusedb sn k (f_id f) = true /\ i0 = IGetDest k (with_id f N) (bad_env e) c /\ i = IGetDest k f e c) \/
  (coreq (fst (exec cf a i0 room)) (fst (exec cf b i room)) /\
   Forall2 (irel sn) (snd (exec cf a i0 room)) (snd (exec cf b i room))).
Proof.
  intros sn cf a b i0 i room H Hi.
  assert (G : forall j0 j, fst (exec cf a j0 room) = fst (exec cf a j room) /\
              Forall2 (irel sn) (snd (exec cf a j0 room)) (snd (exec cf a j room)) ->
              coreq (fst (exec cf a j0 room)) (fst (exec cf b j room)) /\
              Forall2 (irel sn) (snd (exec cf a j0 room)) (snd (exec cf b j room))).
  { intros j0 j [Hf Hp]. destruct (exec_sim cf j room a b H) as [Hce Hsn]. rewrite Hf, <- Hsn. split; assumption. }
  destruct Hi as [i|k id id' c|k f e N Hr|k f e c N Hr|k f e c N Hr].
  - right. apply G. split; [reflexivity|apply Forall2_irel_refl].
  - (* the frames sent are no decision field *)
    right. cbn [exec]. unfold get_conn. destruct H as (H1&H2&H3&H4&H5&H6&H7). rewrite H1.
    destruct ((c_state match lookup Z.eqb k (conns b) with Some c0 => c0 | None => conn0 end =? c_connectionClosed) || negb room);
      cbn [fst snd]; (split; [|constructor]); unfold coreq; cbn; repeat split; assumption.
  - (* the shadow of a re-using call req, on the SAME state: same state, related code *)
    right. apply G. cbn [exec bad_env e_start e_code with_id f_id].
    destruct (e_start e =? 0); cbn [fst snd]; (split; [reflexivity|]); [constructor; [apply ir_can; exact Hr|constructor]|].
    destruct ((e_start e =? 1) || (e_start e =? 3)), ((e_start e =? 1) || (e_start e =? 2)), (e_code e =? c_ErrCodeProtocol);
      cbn [app]; repeat (constructor; try apply ir_eq; try apply ir_err).
  - right. apply G. cbn [exec with_id f_id].
    destruct (c_state (get_conn a k) =? c_connectionActive); cbn [fst snd]; (split; [reflexivity|]).
    + constructor; [apply ir_get; exact Hr|constructor].
    + repeat (constructor; try apply ir_eq; try apply ir_err).
  - left. exists k, f, e, c, N. repeat split. exact Hr.
Qed.

Lemma remove_idem : forall t (l : list (tid * list instr)), remove tid_eqb t (remove tid_eqb t l) = remove tid_eqb t l.
Proof.
  intros t l. induction l as [|[t' c] r IH]; [reflexivity|]. cbn [remove].
  destruct (tid_eqb t t') eqn:E; [exact IH|]. cbn [remove]. rewrite E, IH. reflexivity.
Qed.

Lemma set_thread_twice : forall s t c1 c2, c1 <> [] -> c2 <> [] ->
  set_thread (set_thread s t c1) t c2 = set_thread s t c2.
Proof.
  intros s t c1 c2 H1 H2. destruct c1 as [|a1 r1]; [contradiction|]. destruct c2 as [|a2 r2]; [contradiction|].
  unfold set_thread, set_threads. cbn. f_equal. unfold insert. cbn [remove].
  rewrite (eqb_refl tid_eqb tid_eqb_ok). rewrite remove_idem. reflexivity.
Qed.

Lemma lstep_sim : forall cf M st0 st t room st', sim M st0 st -> Inv st0 -> TInv st0 ->
  reuse_guard st (LStep t room) = true -> step cf st (LStep t room) = Some st' ->
  exists ls1 st0', run_fresh cf st0 ls1 = Some st0' /\ sim M st0' st'.
Proof.
  intros cf M st0 st t room st' Hsim HI HT Hg Hstep.
  pose proof Hsim as (Hc&Ht&Hs&Hlog).
  assert (Hp0 : panicked st0 = 0) by apply (t_nopanic _ HT).
  unfold step in Hstep. destruct (negb (panicked st =? 0)); [discriminate|].
  destruct (lookup tid_eqb t (threads st)) as [[|i rest]|] eqn:El; try discriminate.
  pose proof (trel_lookup _ t _ _ Ht) as Hl0. rewrite El in Hl0. destruct Hl0 as (code0&El0&Hcr).
  assert (Hst' : st' = set_thread (fst (exec cf st i room)) t (snd (exec cf st i room) ++ rest)).
  { destruct (exec cf st i room). inversion Hstep. reflexivity. }
  subst st'. clear Hstep.
  inversion Hcr as [c0 c1 HF E0 E1|c k N rest0 rest1 HF E0 E1].
  - (* instruction-wise related code *)
    subst c0 c1. inversion HF as [|i0 i1 rest0 rest1 Hi Hrest E0 E1]. subst.
    destruct (exec_irel (seen st) cf st0 st i0 i room Hc Hi) as [(k&f&e&c&N&Hr&->&->)|[Hce Hp]].
    + (* IGetDest: the re-used id finds an item (guard); the shadow's fresh id finds none *)
      cbn [reuse_guard] in Hg. rewrite El, Hr in Hg. cbn [negb orb] in Hg.
      unfold out_found in Hg. destruct (lookup key_eqb (k, 0, f_id f) (items st)) as [it|] eqn:Eit; [|discriminate].
      rewrite (reuse_dropped cf st k f e c room it Eit).
      assert (Hnone : lookup key_eqb (k, 0, N) (items st0) = None).
      { pose proof (inv_code _ HI t _ (lookup_in tid_eqb tid_eqb_ok _ _ _ El0)) as [Hfa _].
        inversion Hfa as [|x l Hio _]. subst. unfold iok in Hio. cbn [adm_kf with_id f_id] in Hio.
        destruct Hio as [_ (_&Hn&_)]. exact Hn. }
      assert (Hex : exec cf st0 (IGetDest k (with_id f N) (bad_env e) c) room =
                    (st0, [ICb c (CbFailed reason_bad_host); ISendErr k N c_ErrCodeDeclined; IDec k; ICb c CbEnd])).
      { cbn [exec with_id f_id bad_env e_dest]. rewrite Hnone. reflexivity. }
      exists [LStep t room]. eexists. split; [apply shadow_lstep; eassumption|]. rewrite Hex. cbn [fst snd app].
      apply (sim_after M st0 st); try assumption; try reflexivity. apply cr_drop. exact Hrest.
    + exists [LStep t room]. eexists. split; [apply shadow_lstep; eassumption|].
      destruct (exec_frame cf st0 i0 room) as [F1 F2]. destruct (exec_frame cf st i room) as [F3 F4].
      apply (sim_after M st0 st); try assumption; [apply (exec_cbrel (seen st)); assumption|].
      apply cr_all. apply Forall2_app; assumption.
  - (* the refusal is being reported: one callback here, callback + (unsent) error frame in the shadow *)
    subst. cbn [exec fst snd app].
    set (s1 := set_thread (log_cb st0 c (CbFailed reason_bad_host)) t (ISendErr k N c_ErrCodeDeclined :: IDec k :: ICb c CbEnd :: rest0)).
    assert (R1 : run_fresh cf st0 [LStep t room] = Some s1).
    { rewrite (shadow_lstep cf st0 t room _ _ Hp0 El0). reflexivity. }
    assert (L1 : lookup tid_eqb t (threads s1) = Some (ISendErr k N c_ErrCodeDeclined :: IDec k :: ICb c CbEnd :: rest0)).
    { unfold s1. rewrite set_thread_threads. apply (lookup_insert_eq tid_eqb tid_eqb_ok). }
    assert (P1 : panicked s1 = 0) by exact Hp0.
    pose proof (shadow_lstep cf s1 t false _ _ P1 L1) as R2.
    cbn [exec negb] in R2. rewrite orb_true_r in R2. cbn [fst snd app] in R2.
    unfold s1 in R2 at 2. rewrite set_thread_twice in R2 by discriminate.
    exists ([LStep t room] ++ [LStep t false]). eexists. split.
    + rewrite run_fresh_app, R1. exact R2.
    + apply (sim_after M st0 st); try assumption; try reflexivity.
      * cbn [log_cb set_cblog cblog]. constructor; [split; [reflexivity|right; split; reflexivity]|exact Hlog].
      * apply cr_all. constructor; [apply ir_eq|]. constructor; [apply ir_eq|]. exact HF.
Qed.

(* a call req arrives; the shadow reads f' (the same frame, or the frame under a never-used id) *)
Lemma arrive_callreq : forall cf M st0 st k f e f' e', sim M st0 st -> panicked st0 = 0 ->
  lookup tid_eqb (TR k) (threads st0) = None ->
  relayRoute (f_mt f) (cf_cancel cf) =? 1 = true -> f_mt f =? c_messageTypeCallReq = true ->
  f_mt f' = f_mt f -> ~ In (k, f_id f') (seen st0) -> (f_id f' = f_id f \/ M <= f_id f') ->
  irel ((k, f_id f) :: seen st) (IStart k f' e') (IStart k f e) ->
  exists ls1 st0', run_fresh cf st0 ls1 = Some st0' /\
    sim M st0' (set_thread (set_seen st ((k, f_id f) :: seen st)) (TR k) [IStart k f e]).
Proof.
  intros cf M st0 st k f e f' e' (Hc&Ht&Hs&Hlog) Hp0 El0 Er Emt Hmt HN Hid Hi.
  exists [LArrive k f' e'], (set_thread (set_seen st0 ((k, f_id f') :: seen st0)) (TR k) [IStart k f' e']). split.
  - cbn [run_fresh fresh_label]. rewrite Hmt, Emt, (existsb_seen_false _ _ _ HN). cbn [andb negb].
    unfold step. rewrite Hp0, El0, Hmt, Er, Emt. reflexivity.
  - split; [|split; [|split]]; [| | |exact Hlog].
    + apply coreq_set_thread. exact Hc.
    + change (trel ((k, f_id f) :: seen st) (threads (set_thread (set_seen st0 ((k, f_id f') :: seen st0)) (TR k) [IStart k f' e']))
                (threads (set_thread (set_seen st ((k, f_id f) :: seen st)) (TR k) [IStart k f e]))).
      apply trel_set_thread; [apply trel_cons_sn; exact Ht|]. apply cr_all. constructor; [exact Hi|constructor].
    + change (forall k' id', In (k', id') ((k, f_id f') :: seen st0) -> In (k', id') ((k, f_id f) :: seen st) \/ M <= id').
      intros k' id' [Heq|Hin].
      * inversion Heq. subst. destruct Hid as [->|Hid]; [left; left; reflexivity|right; exact Hid].
      * destruct (Hs _ _ Hin) as [H|H]; [left; right; exact H|right; exact H].
Qed.

Lemma larrive_sim : forall cf M st0 st k f e st', sim M st0 st -> Inv st0 -> TInv st0 -> f_id f < M ->
  step cf st (LArrive k f e) = Some st' ->
  exists ls1 st0', run_fresh cf st0 ls1 = Some st0' /\ sim M st0' st'.
Proof.
  intros cf M st0 st k f e st' Hsim HI HT Hlt Hstep.
  pose proof Hsim as (Hc&Ht&Hs&Hlog).
  assert (Hp0 : panicked st0 = 0) by apply (t_nopanic _ HT).
  unfold step in Hstep. destruct (negb (panicked st =? 0)); [discriminate|].
  destruct (lookup tid_eqb (TR k) (threads st)) eqn:El; [discriminate|].
  pose proof (trel_lookup _ (TR k) _ _ Ht) as El0. rewrite El in El0.
  destruct (relayRoute (f_mt f) (cf_cancel cf) =? 1) eqn:Er.
  2: { inversion Hstep. subst. exists [], st0. split; [reflexivity|exact Hsim]. }
  destruct (f_mt f =? c_messageTypeCallReq) eqn:Emt; inversion Hstep; subst st'; clear Hstep.
  - destruct (existsb (fun p => (fst p =? k) && (snd p =? f_id f)) (seen st)) eqn:Ex.
    + (* the id is re-used: the shadow reads a never-used id, its RelayHost has no destination *)
      apply existsb_seen in Ex.
      apply (arrive_callreq cf M st0 st k f e (with_id f (nid M (seen st0))) (bad_env e)); try assumption; try reflexivity.
      * intro Hin. pose proof (nid_gt M _ _ _ Hin) as Hgt. cbn [with_id f_id] in Hgt. lia.
      * right. apply nid_ge.
      * apply ir_start. apply reusedb_new. exact Ex.
    + (* a fresh id: the same label *)
      apply (arrive_callreq cf M st0 st k f e f e); try assumption; try reflexivity.
      * intro Hin. destruct (Hs _ _ Hin) as [H|H]; [|lia]. apply existsb_seen in H. congruence.
      * left. reflexivity.
      * apply ir_eq.
  - (* any other relayed frame *)
    exists [LArrive k f e]. exists (set_thread st0 (TR k) [INcGet k f]). split.
    + cbn [run_fresh fresh_label]. rewrite Emt. cbn [andb negb].
      unfold step. rewrite Hp0, El0. cbn [Z.eqb negb]. rewrite Er, Emt. reflexivity.
    + apply (sim_after M st0 st); try assumption; try reflexivity. apply cr_all. apply Forall2_irel_refl.
Qed.

Lemma lfire_sim : forall cf M st0 st tm st', sim M st0 st -> TInv st0 ->
  step cf st (LFire tm) = Some st' ->
  exists ls1 st0', run_fresh cf st0 ls1 = Some st0' /\ sim M st0' st'.
Proof.
  intros cf M st0 st tm st' Hsim HT Hstep.
  pose proof Hsim as (Hc&Ht&Hs&Hlog).
  assert (Hp0 : panicked st0 = 0) by apply (t_nopanic _ HT).
  pose proof Hc as (C1&C2&C3&C4&C5&C6&C7).
  unfold step in Hstep. destruct (negb (panicked st =? 0)); [discriminate|].
  destruct (lookup Z.eqb tm (timers st)) as [x|] eqn:Ex; [|discriminate].
  destruct (tm_armed x) eqn:Ea; [|discriminate].
  destruct (lookup tid_eqb (TT tm) (threads st)) eqn:El; [discriminate|]. cbn [andb] in Hstep.
  inversion Hstep. subst st'. clear Hstep.
  pose proof (trel_lookup _ (TT tm) _ _ Ht) as El0. rewrite El in El0.
  exists [LFire tm]. eexists. split.
  - cbn [run_fresh fresh_label]. unfold step. rewrite Hp0, C3, Ex, Ea, El0. cbn [Z.eqb negb andb]. reflexivity.
  - apply (sim_after M st0 st); try assumption; try reflexivity.
    + unfold coreq, set_timers. cbn. repeat split; assumption.
    + apply cr_all. apply Forall2_irel_refl.
Qed.

Lemma lplain_sim : forall cf M st0 st l st', sim M st0 st -> plain_label l = true ->
  step cf st l = Some st' ->
  exists ls1 st0', run_fresh cf st0 ls1 = Some st0' /\ sim M st0' st'.
Proof.
  intros cf M st0 st l st' (Hc&Ht&Hs&Hlog) Hp Hstep.
  destruct (step_plain_sim cf st st0 l st' (coreq_sym _ _ Hc) Hp Hstep) as (st0'&Hs0&Hce&T1&T2&S1&S2&L1&L2).
  exists [l], st0'. split.
  - cbn [run_fresh]. replace (fresh_label st0 l) with true by (destruct l; try discriminate; reflexivity).
    rewrite Hs0. reflexivity.
  - split; [exact (coreq_sym _ _ Hce)|]. rewrite S1, S2, T1, T2, L1, L2. split; [exact Ht|split; [exact Hs|exact Hlog]].
Qed.

Lemma step_sim : forall cf M st0 st l st', sim M st0 st -> Inv st0 -> TInv st0 ->
  label_lt M l = true -> reuse_guard st l = true -> step cf st l = Some st' ->
  exists ls1 st0', run_fresh cf st0 ls1 = Some st0' /\ sim M st0' st'.
Proof.
  intros cf M st0 st l st' Hsim HI HT Hlt Hg Hstep. destruct l.
  - eapply larrive_sim; try eassumption. cbn in Hlt. apply Z.ltb_lt. exact Hlt.
  - eapply lstep_sim; eassumption.
  - eapply lfire_sim; eassumption.
  - eapply lplain_sim; try eassumption. reflexivity.
  - eapply lplain_sim; try eassumption. reflexivity.
  - eapply lplain_sim; try eassumption. reflexivity.
  - eapply lplain_sim; try eassumption. reflexivity.
Qed.

Lemma run_sim : forall cf M ls st0 st st', sim M st0 st -> Inv st0 -> TInv st0 -> LInv st0 ->
  forallb (label_lt M) ls = true -> run_reuse cf st ls = Some st' ->
  exists ls1 st0', run_fresh cf st0 ls1 = Some st0' /\ sim M st0' st'.
Proof.
  intros cf M ls. induction ls as [|l r IH]; intros st0 st st' Hsim HI HT HL Hlt H; cbn in H.
  - inversion H. subst. exists [], st0. split; [reflexivity|exact Hsim].
  - cbn in Hlt. apply andb_true_iff in Hlt. destruct Hlt as [Hl Hr].
    destruct (reuse_guard st l) eqn:Eg; [|discriminate].
    destruct (step cf st l) as [st1|] eqn:Es; [|discriminate].
    destruct (step_sim cf M st0 st l st1 Hsim HI HT Hl Eg Es) as (ls1&st01&R1&Hsim1).
    destruct (run_fresh_three cf ls1 st0 st01 HI HT HL R1) as (HI1&HT1&HL1).
    destruct (IH st01 st1 st' Hsim1 HI1 HT1 HL1 Hr H) as (ls2&st02&R2&Hsim2).
    exists (ls1 ++ ls2), st02. split; [rewrite run_fresh_app, R1; exact R2|exact Hsim2].
Qed.

Fixpoint sup_ids (ls : list label) : Z :=
  match ls with
  | [] => 0
  | LArrive _ f _ :: r => Z.max (f_id f + 1) (sup_ids r)
  | _ :: r => sup_ids r
  end.

Lemma sup_ids_ok : forall ls M, sup_ids ls <= M -> forallb (label_lt M) ls = true.
Proof.
  induction ls as [|l r IH]; intros M H; [reflexivity|]. cbn [forallb]. apply andb_true_iff.
  destruct l; cbn [sup_ids label_lt] in *; (split; [|apply IH; lia]); try reflexivity. apply Z.ltb_lt. lia.
Qed.

Lemma sim_init : forall M, sim M init init.
Proof. intro M. split; [apply coreq_refl|split; [|split]]; [constructor|intros k id []|constructor]. Qed.

(* MAIN: every schedule in which re-used ids meet an item -- any number of connections, calls,
   re-uses, timeouts, failures, closes, in any interleaving -- is shadowed by a fresh-id schedule
   with the same decision fields, the same goroutines with pointwise related code and the same
   callbacks for the same calls in the same order (the refusal of a re-using call req is
   Failed(duplicate) here, Failed(bad host) there) *)
Theorem reuse_simulated_full : forall cf ls st, run_reuse cf init ls = Some st ->
  exists ls0 st0, run_fresh cf init ls0 = Some st0 /\ coreq st0 st /\
    trel (seen st) (threads st0) (threads st) /\ cbrel (cblog st0) (cblog st).
Proof.
  intros cf ls st H.
  destruct (run_sim cf (sup_ids ls) ls init init st (sim_init _) Inv_init TInv_init LInv_init (sup_ids_ok ls _ (Z.le_refl _)) H)
    as (ls0&st0&R&(Hc&Ht&_&Hl)).
  exists ls0, st0. split; [exact R|split; [exact Hc|split; [exact Ht|exact Hl]]].
Qed.

(* ... in particular it has the tables, timers, pending collections and panic flag of a fresh-id
   schedule; hence it reaches no Go panic *)
Theorem reuse_simulated : forall cf ls st, run_reuse cf init ls = Some st ->
  exists ls0 st0, run_fresh cf init ls0 = Some st0 /\
    conns st = conns st0 /\ items st = items st0 /\ timers st = timers st0 /\ gcs st = gcs st0 /\
    panicked st = panicked st0.
Proof.
  intros cf ls st H. destruct (reuse_simulated_full cf ls st H) as (ls0&st0&R&Hc&_).
  exists ls0, st0. split; [exact R|]. destruct (coreq_sym _ _ Hc) as (C1&C2&C3&C4&C5&C6&C7). repeat split; assumption.
Qed.

Theorem reuse_no_panic : forall cf ls st, run_reuse cf init ls = Some st -> panicked st = 0.
Proof.
  intros cf ls st H. destruct (reuse_simulated cf ls st H) as (ls0&st0&R&_&_&_&_&Hp).
  rewrite Hp. apply (t_nopanic _ (proj2 (reach_both cf ls0 st0 R))).
Qed.

(* fresh-id schedules are re-use schedules: the guard only speaks about re-used ids *)
Lemma step_seen : forall cf st l st', step cf st l = Some st' ->
  seen st' = seen st \/ exists k f e, l = LArrive k f e /\ f_mt f = c_messageTypeCallReq /\ seen st' = (k, f_id f) :: seen st.
Proof.
  intros cf st l st' H. destruct l as [k f e|t room|tm|t|k|k|k].
  4-7: left; match type of H with step _ _ ?l = _ => destruct (step_plain_sim cf st st l st' (coreq_refl st) eq_refl H) as (b&_&_&_&_&S&_) end; exact S.
  - unfold step in H. destruct (negb (panicked st =? 0)); [discriminate|].
    destruct (lookup tid_eqb (TR k) (threads st)); [discriminate|].
    destruct (relayRoute (f_mt f) (cf_cancel cf) =? 1); [|inversion H; left; reflexivity].
    destruct (f_mt f =? c_messageTypeCallReq) eqn:E; inversion H; [right|left; reflexivity].
    exists k, f, e. apply Z.eqb_eq in E. repeat split; assumption.
  - left. unfold step in H. destruct (negb (panicked st =? 0)); [discriminate|].
    destruct (lookup tid_eqb t (threads st)) as [[|i rest]|]; try discriminate.
    destruct (exec_frame cf st i room) as [_ F]. destruct (exec cf st i room). inversion H. exact F.
  - left. unfold step in H. destruct (negb (panicked st =? 0)); [discriminate|].
    destruct (lookup Z.eqb tm (timers st)); [|discriminate].
    match type of H with (if ?b then _ else _) = _ => destruct b end; [|discriminate]. inversion H. reflexivity.
Qed.

Lemma run_fresh_is_reuse : forall cf ls st st', NoDup (seen st) -> run_fresh cf st ls = Some st' -> run_reuse cf st ls = Some st'.
Proof.
  intros cf ls. induction ls as [|l r IH]; intros st st' Hnd H; cbn in *; [exact H|].
  destruct (fresh_label st l) eqn:Ef; [|discriminate]. destruct (step cf st l) as [st1|] eqn:Es; [|discriminate].
  assert (Hg : reuse_guard st l = true).
  { destruct l; try reflexivity. cbn [reuse_guard]. destruct (lookup tid_eqb t (threads st)) as [[|i rest]|]; try reflexivity.
    destruct i; try reflexivity. unfold reusedb. pose proof (nodup_count _ k (f_id f) Hnd) as Hc.
    destruct (2 <=? id_count (seen st) k (f_id f))%nat eqn:E; [apply Nat.leb_le in E; lia|reflexivity]. }
  rewrite Hg. apply IH; [|exact H].
  destruct (step_seen cf st l st1 Es) as [->|(k&f&e&->&Hmt&->)]; [exact Hnd|].
  constructor; [|exact Hnd]. cbn [fresh_label] in Ef. rewrite Hmt, Z.eqb_refl in Ef. cbn [andb] in Ef.
  apply negb_true_iff in Ef. intro Hin. apply existsb_seen in Hin. congruence.
Qed.

(* in re-use schedules (hence in fresh-id schedules) a pending tombstone collection only ever
   meets a tombstone or nothing: there the collection that deletes whatever has the id
   (relayItems.Delete, the code before the fix) and the one that deletes tombstones only
   (relayItems.deleteTomb) do the same *)
Theorem reuse_gc_tombs : forall cf ls st t it, run_reuse cf init ls = Some st ->
  In t (gcs st) -> lookup key_eqb t (items st) = Some it -> it_tomb it = true.
Proof.
  intros cf ls st t it H Hin Hl. destruct (reuse_simulated cf ls st H) as (ls0&st0&R&_&Hi&_&Hg&_).
  rewrite Hi in Hl. rewrite Hg in Hin. exact (inv_gcs _ (reach_inv cf ls0 st0 R) t it Hin Hl).
Qed.
