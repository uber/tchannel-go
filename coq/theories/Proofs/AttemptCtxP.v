(* Proofs about Model/AttemptCtx.v (property C14: the deadline of ONE ATTEMPT of a retried call
   reaches the call primitive) and the tie to the source: Gen/GenCtxFlow.ctxflow_sites. *)
From Coq Require Import ZArith List Bool Lia.
From Verif Require Import Base.Wrap Base.Wire Gen.GenConsts Gen.GenTTL Gen.GenCtxFlow Spec.CtxFlowSpec
  Model.Messages Model.TTL Model.AttemptCtx Proofs.TTLP.
Import ListNotations.
Local Open Scope Z_scope.

(* Channel.RunWithRetry hands the attempt function the caller's context when TimeoutPerAttempt
   is 0 and context.WithTimeout(runCtx, opts.TimeoutPerAttempt) otherwise: the rows of the core
   package are exactly the rows [attempt_ctx] was written against. *)
Lemma core_rows_generated : rows_of_fn pkg_root fn_run_with_retry ctxflow_sites = core_ctx_rows.
Proof.
  first [ vm_compute; reflexivity
        | fail 1 "Channel.RunWithRetry no longer hands its attempt function runCtx (TimeoutPerAttempt == 0) / context.WithTimeout(runCtx, opts.TimeoutPerAttempt) (otherwise): the context rows regenerated from retry.go (Gen/GenCtxFlow.ctxflow_sites, package .) differ from Spec/CtxFlowSpec.core_ctx_rows" ].
Qed.

(* every hand-over of a context below RunWithRetry -- in the attempt functions of every package
   of the module and in the functions they call -- passes on the function's own context
   parameter or a context derived from it *)
Lemma ctx_discipline_generated : forallb row_forwards ctxflow_sites = true.
Proof.
  first [ vm_compute; reflexivity
        | fail 1 "a function below Channel.RunWithRetry hands a call primitive a context that is NOT its own context parameter (origin 2 = the enclosing function's context captured by the attempt function, 3 = some other context): see the rows of Gen/GenCtxFlow.ctxflow_sites with origin 2 or 3 -- the per-attempt deadline (RetryOptions.TimeoutPerAttempt) is dropped on this hop" ].
Qed.

(* inside the core package the context given to BeginCall is handed down, step by step, to the
   message exchange of the call (Channel / SubChannel.BeginCall -> Peer.BeginCall ->
   Connection.beginCall -> outbound.newExchange) *)
Lemma core_path_generated : forallb (path_step_present ctxflow_sites) core_call_path = true.
Proof.
  first [ vm_compute; reflexivity
        | fail 1 "the path of an outbound call inside the core package no longer hands its context parameter down: one of Channel.BeginCall -> p.BeginCall, SubChannel.BeginCall -> peer.BeginCall, Peer.BeginCall -> conn.beginCall, Connection.beginCall -> c.outbound.newExchange is missing from Gen/GenCtxFlow.ctxflow_sites or has origin 2 / 3" ].
Qed.

(* every attempt function handed to RunWithRetry does hand a context on, its package reaches a
   BeginCall, and the clients the model knows are among them *)
Lemma ctx_coverage_generated :
  forallb (attempt_fn_covered ctxflow_sites) retry_attempt_fns = true /\
  forallb (fun pf => reaches_begin (fst pf) ctxflow_sites) retry_attempt_fns = true /\
  forallb (fun k => existsb (fun pf => lz_eqb (fst pf) (fst k) && lz_eqb (snd pf) (snd k)) retry_attempt_fns) known_attempt_fns = true /\
  forallb (fun p => existsb (fun pf => lz_eqb (fst pf) p) retry_attempt_fns) (client_pkgs ctxflow_sites) = true.
Proof.
  first [ vm_compute; repeat split; reflexivity
        | fail 1 "the attempt functions handed to Channel.RunWithRetry (Gen/GenCtxFlow.retry_attempt_fns) and the context rows below them do not cover each other: an attempt function hands no context on, never reaches a BeginCall, or the thrift / json client no longer calls RunWithRetry with a function literal" ].
Qed.

(* the source of the context BeginCall receives in package [pkg], read off the generated rows *)
Definition gen_client_src (pkg : list Z) : ctx_src := path_src (map cr_origin (rows_of pkg ctxflow_sites)).

Lemma path_src_attempt os : forallb (fun o => (o =? 0) || (o =? 1)) os = true -> path_src os = SrcAttempt.
Proof.
  induction os as [|o r IH]; intros H; [reflexivity|].
  cbn [forallb] in H. apply andb_prop in H. destruct H as [H1 H2].
  cbn [path_src fold_right]. unfold src_of_origin. rewrite H1. cbn [src_join]. apply IH, H2.
Qed.

Lemma path_src_rows (rows : list ctx_row) pkg :
  forallb row_forwards rows = true -> path_src (map cr_origin (rows_of pkg rows)) = SrcAttempt.
Proof.
  intros D. apply path_src_attempt.
  rewrite forallb_forall. intros o Ho. apply in_map_iff in Ho. destruct Ho as [r [E Hr]]. subst o.
  unfold rows_of in Hr. apply filter_In in Hr. destruct Hr as [Hr _].
  rewrite forallb_forall in D. exact (D r Hr).
Qed.

Lemma gen_client_src_attempt pkg : gen_client_src pkg = SrcAttempt.
Proof. unfold gen_client_src. apply path_src_rows. exact ctx_discipline_generated. Qed.

Lemma attempt_ctx_spec odl start tpa :
  attempt_ctx (Some odl) start tpa = Some (if tpa =? 0 then odl else Z.min odl (start + tpa)).
Proof.
  unfold attempt_ctx. destruct (tpa =? 0); [reflexivity|].
  rewrite with_timeout_spec. reflexivity.
Qed.

Lemma attempt_remaining_spec odl start tpa now :
  (if tpa =? 0 then odl else Z.min odl (start + tpa)) - now = attempt_remaining odl start tpa now.
Proof. unfold attempt_remaining. destruct (tpa =? 0); lia. Qed.

(* The source read off the generated rows is rewritten to SrcAttempt before anything is unfolded:
   no conversion ever has to unfold the generated table. *)

(* clause (a) for an attempt: the field never exceeds the time the ATTEMPT has left *)
Lemma attempt_wire_ttl pkg : forall odl start tpa now cerr ttl,
  client_begin (gen_client_src pkg) (Some odl) start tpa now cerr = BcOk ttl ->
  is_u32 (wire_ttl_ms ttl) /\
  wire_ttl_ms ttl * ms_ns <= attempt_remaining odl start tpa now /\
  wire_ttl_ms ttl * ms_ns <= odl - now /\
  (tpa <> 0 -> wire_ttl_ms ttl * ms_ns <= start + tpa - now) /\
  (attempt_remaining odl start tpa now < 2 ^ 32 * ms_ns ->
     1 <= wire_ttl_ms ttl /\ wire_ttl_ms ttl = attempt_remaining odl start tpa now / ms_ns).
Proof.
  intros odl start tpa now cerr ttl. rewrite (gen_client_src_attempt pkg).
  unfold client_begin, client_ctx. rewrite attempt_ctx_spec.
  intros H. apply wire_ttl_sound in H. rewrite attempt_remaining_spec in H.
  destruct H as [U [L X]]. split; [exact U|]. split; [exact L|].
  unfold attempt_remaining in *. destruct (tpa =? 0) eqn:T.
  - split; [lia|]. split; [intros N; lia|exact X].
  - split; [lia|]. split; [intros _; lia|exact X].
Qed.

(* an attempt with under a millisecond left fails locally with a timeout *)
Lemma attempt_sub_ms pkg : forall odl start tpa now cerr,
  attempt_remaining odl start tpa now < ms_ns ->
  client_begin (gen_client_src pkg) (Some odl) start tpa now cerr = BcErr c_ErrCodeTimeout.
Proof.
  intros odl start tpa now cerr. rewrite (gen_client_src_attempt pkg).
  unfold client_begin, client_ctx. rewrite attempt_ctx_spec.
  intros H. apply begin_call_sub_ms. rewrite attempt_remaining_spec. exact H.
Qed.

(* the context of the message exchange -- every wait of the caller ends with it -- is the
   attempt's: it expires at the overall deadline or TimeoutPerAttempt after the attempt's start,
   whichever is earlier *)
Lemma attempt_wait_deadline pkg : forall odl start tpa,
  client_ctx (gen_client_src pkg) (Some odl) start tpa = Some (if tpa =? 0 then odl else Z.min odl (start + tpa)).
Proof. intros odl start tpa. rewrite (gen_client_src_attempt pkg). cbn [client_ctx]. apply attempt_ctx_spec. Qed.

(* caller -> relays -> handler for an attempt: the field that arrives and the handler's deadline
   are bounded by the attempt's remaining time and by every relay maximum *)
Lemma attempt_end_to_end pkg : forall odl start tpa now maxes base arrival f,
  Forall is_duration maxes ->
  attempt_field (gen_client_src pkg) odl start tpa now maxes = Some f ->
  is_u32 f /\ f * ms_ns <= attempt_remaining odl start tpa now /\
  Forall (fun cfg => f * ms_ns <= relay_max cfg) maxes /\
  exists d, incoming_ctx base arrival (recv_ttl_ns f) = Some d /\
            d <= arrival + f * ms_ns /\ d <= arrival + attempt_remaining odl start tpa now.
Proof.
  intros odl start tpa now maxes base arrival f D. unfold attempt_field.
  destruct (client_begin (gen_client_src pkg) (Some odl) start tpa now 0) as [e|ttl] eqn:B; [discriminate|].
  intros H. inversion H; subst f; clear H.
  destruct (attempt_wire_ttl pkg _ _ _ _ _ _ B) as [U [L _]].
  destruct (hops_ttl_spec maxes (wire_ttl_ms ttl) D U) as [A [Le F]].
  destruct (handler_deadline base arrival (hops_ttl maxes (wire_ttl_ms ttl)) A) as [d [Ed [Ld _]]].
  split; [exact A|].
  assert (Q : hops_ttl maxes (wire_ttl_ms ttl) * ms_ns <= attempt_remaining odl start tpa now).
  { unfold is_u32 in *. rewrite ms_pos in *. nia. }
  split; [exact Q|]. split; [exact F|].
  exists d. split; [exact Ed|]. split; [exact Ld|]. lia.
Qed.

(* why the tie matters: an attempt function that hands on the ENCLOSING function's context sends
   the whole remaining time of the call -- 3 s instead of the 200 ms of the attempt *)
Lemma overall_ctx_exceeds_attempt :
  exists odl start tpa now ttl,
    client_begin SrcOverall (Some odl) start tpa now 0 = BcOk ttl /\
    attempt_remaining odl start tpa now < wire_ttl_ms ttl * ms_ns.
Proof. exists 3000000000, 0, 200000000, 0, 3000000000. vm_compute. split; reflexivity. Qed.

(* what run_ttl_attempt prints is a bound every correct attempt respects: an attempt of package
   [pkg] that starts at or after [start_lb] and begins its call at [now] delivers a field that is
   at most attempt_bound .. start_lb *)
Lemma time_sub_mono a b now : a <= b -> time_sub a now <= time_sub b now.
Proof. intros H. rewrite !time_sub_spec. lia. Qed.

Lemma wire_ttl_mono a b : 0 <= a <= b -> b < 2 ^ 32 * ms_ns -> wire_ttl_ms a <= wire_ttl_ms b.
Proof.
  unfold wire_ttl_ms, wrapU. rewrite ms_pos, p32. intros H B.
  Z.to_euclidean_division_equations. lia.
Qed.

Lemma relay_ttl_mono m f g :
  valid_max m -> is_u32 f -> is_u32 g -> f <= g -> snd (relay_ttl m f) <= snd (relay_ttl m g).
Proof.
  intros V Uf Ug Le.
  destruct (relay_ttl_spec m f V Uf) as [_ [Ef [_ [_ [Lf _]]]]].
  destruct (relay_ttl_spec m g V Ug) as [_ [Eg [_ [_ [Lg _]]]]].
  cbv zeta in *. rewrite Ef, Eg. rewrite ms_pos in *. unfold valid_max in V.
  destruct (f * 1000000 >? m) eqn:A; destruct (g * 1000000 >? m) eqn:B;
    Z.to_euclidean_division_equations; lia.
Qed.

Lemma hops_ttl_mono maxes : forall f g,
  Forall is_duration maxes -> is_u32 f -> is_u32 g -> f <= g -> hops_ttl maxes f <= hops_ttl maxes g.
Proof.
  induction maxes as [|cfg r IH]; intros f g D Uf Ug Le; cbn [hops_ttl]; [exact Le|].
  inversion D as [|? ? Dc Dr]; subst.
  pose proof (relay_max_valid cfg Dc) as V.
  destruct (relay_ttl_spec (relay_max cfg) f V Uf) as [_ [_ [Uf' _]]].
  destruct (relay_ttl_spec (relay_max cfg) g V Ug) as [_ [_ [Ug' _]]].
  apply IH; try assumption. apply relay_ttl_mono; assumption.
Qed.

Lemma attempt_bound_sound pkg : forall odl tpa maxes start_lb start now f,
  Forall is_duration maxes ->
  0 <= tpa -> start_lb <= start <= now ->
  odl - start_lb < 2 ^ 32 * ms_ns -> tpa < 2 ^ 32 * ms_ns ->
  attempt_field (gen_client_src pkg) odl start tpa now maxes = Some f ->
  1 <= f \/ f = 0 -> f <= attempt_bound odl tpa maxes start_lb.
Proof.
  intros odl tpa maxes start_lb start now f D T S B1 B2 H _.
  rewrite (gen_client_src_attempt pkg) in H. rewrite p32 in B1, B2.
  unfold attempt_field in H.
  unfold client_begin, client_ctx in H. rewrite attempt_ctx_spec in H.
  set (dl := if tpa =? 0 then odl else Z.min odl (start + tpa)) in H.
  destruct (begin_call c_connectionActive true dl now 0) as [e|ttl] eqn:B; [discriminate|].
  inversion H; subst f; clear H.
  apply begin_call_ok in B. destruct B as [_ [_ [_ [Et G]]]].
  unfold attempt_bound, attempt_field, client_begin, client_ctx. rewrite attempt_ctx_spec.
  set (dl0 := if tpa =? 0 then odl else Z.min odl (start_lb + tpa)).
  assert (R : ttl <= dl0 - start_lb).
  { subst ttl dl dl0. rewrite time_sub_spec in *. rewrite min_dur_val, max_dur_val, ms_pos in *.
    destruct (tpa =? 0); lia. }
  assert (R2 : dl0 - start_lb < 2 ^ 32 * ms_ns).
  { subst dl0. rewrite p32. destruct (tpa =? 0); lia. }
  destruct (begin_call_accepts dl0 start_lb ltac:(lia)) as [Acc [A1 A2]]. rewrite Acc.
  assert (Ets : time_sub dl0 start_lb = dl0 - start_lb).
  { rewrite time_sub_spec. rewrite min_dur_val, max_dur_val, p32, ms_pos in *. lia. }
  assert (W : wire_ttl_ms ttl <= wire_ttl_ms (time_sub dl0 start_lb)).
  { apply wire_ttl_mono; rewrite ?Ets; rewrite ?ms_pos in *; lia. }
  apply hops_ttl_mono; try assumption.
  - apply wire_ttl_bounds. rewrite ms_pos in *. lia.
  - apply wire_ttl_bounds. lia.
Qed.
