(* What the drain models (Model/MexDrain.v, CallDrain.v, RelayDrain.v, RelayHold.v, ConnBook.v,
   Goroutines.v) share: runs of a step function, the list operations upd_nth / has / del /
   remove1 they are written with. *)
From Coq Require Import ZArith List Bool Lia.
From Verif Require Import Model.MexDrain Model.RelayDrain.
Import ListNotations.
Local Open Scope Z_scope.

(* [injection] on [Some x = Some y] takes the record x apart, at a cost that grows with the record *)
Lemma Some_inj {A} (x y : A) : Some x = Some y -> x = y.
Proof. intros [= ->]. reflexivity. Qed.

(* every model folds a partial step function over a list of labels *)
Lemma run_invariant {S L} (step : S -> L -> option S) (run : S -> list L -> option S) (P : S -> Prop) :
  (forall s, run s [] = Some s) ->
  (forall s l r, run s (l :: r) = match step s l with Some s' => run s' r | None => None end) ->
  (forall s l s', P s -> step s l = Some s' -> P s') ->
  forall ls s s', P s -> run s ls = Some s' -> P s'.
Proof.
  intros Hnil Hcons Hstep. induction ls as [|l r IH]; intros s s' HP Hr.
  - rewrite Hnil in Hr. injection Hr as <-. exact HP.
  - rewrite Hcons in Hr. destruct (step s l) as [s1|] eqn:Hs; [|discriminate].
    exact (IH s1 s' (Hstep s l s1 HP Hs) Hr).
Qed.

Lemma forallb_impl2 {A} (f g h : A -> bool) l :
  (forall x, f x = true -> g x = true -> h x = true) ->
  forallb f l = true -> forallb g l = true -> forallb h l = true.
Proof.
  intros H. induction l as [|x r IH]; cbn [forallb]; [reflexivity|].
  intros Hf Hg. apply andb_true_iff in Hf as [Hf Hfr], Hg as [Hg Hgr]. rewrite (H x Hf Hg). exact (IH Hfr Hgr).
Qed.

Lemma forallb_impl {A} (f g : A -> bool) l :
  (forall x, f x = true -> g x = true) -> forallb f l = true -> forallb g l = true.
Proof. intros H Hf. exact (forallb_impl2 f f g l (fun x Hx _ => H x Hx) Hf Hf). Qed.

(* the models index their lists by a Z: get_obj, get_thr, get_ht, nth_z all unfold to this *)
Lemma zindex_nth {A} (l : list A) i x :
  (if i <? 0 then None else nth_error l (Z.to_nat i)) = Some x -> nth_error l (Z.to_nat i) = Some x.
Proof. destruct (i <? 0); [discriminate|auto]. Qed.

Lemma Forall_upd_nth {A} (P : A -> Prop) n x l : Forall P l -> P x -> Forall P (upd_nth n x l).
Proof.
  intros HF Hx. revert n. induction HF as [|y r Hy Hr IH]; intros [|n]; cbn [upd_nth]; constructor; auto.
Qed.

Lemma map_upd_nth {A B} (f : A -> B) n x l : map f (upd_nth n x l) = upd_nth n (f x) (map f l).
Proof.
  revert n. induction l as [|y r IH]; intros n; destruct n; cbn [upd_nth map]; try reflexivity.
  rewrite IH. reflexivity.
Qed.

Lemma upd_nth_same {A} n (x : A) l : nth_error l n = Some x -> upd_nth n x l = l.
Proof.
  revert n. induction l as [|y r IH]; intros n; destruct n; cbn [upd_nth nth_error]; intros H; try reflexivity.
  - injection H as ->. reflexivity.
  - rewrite (IH _ H). reflexivity.
Qed.

Lemma nth_upd_nth_same {A} n (x : A) l : (n < length l)%nat -> nth_error (upd_nth n x l) n = Some x.
Proof.
  revert n. induction l as [|y r IH]; intros n Hn; cbn [length] in Hn; [lia|].
  destruct n; cbn [upd_nth nth_error]; [reflexivity|]. apply IH. lia.
Qed.

Lemma In_upd_nth {A} n (x x' y : A) l :
  nth_error l n = Some x -> In y l -> In y (upd_nth n x' l) \/ y = x.
Proof.
  revert n. induction l as [|z r IH]; intros n Hn Hin; [destruct Hin|].
  destruct n; cbn [nth_error upd_nth] in *.
  - injection Hn as ->. destruct Hin as [->|Hin]; [right; reflexivity|left; right; exact Hin].
  - destruct Hin as [->|Hin]; [left; left; reflexivity|].
    destruct (IH _ Hn Hin) as [H|H]; [left; right; exact H|right; exact H].
Qed.

Lemma In_upd_nth_new {A} n (x x' : A) l : nth_error l n = Some x -> In x' (upd_nth n x' l).
Proof.
  intros Hn. apply (nth_error_In _ n). apply nth_upd_nth_same. apply nth_error_Some. rewrite Hn. discriminate.
Qed.

(* has / has_key and del / del_key, by the key function [k] *)
Lemma existsb_filter_key {A} (k : A -> Z) id id' l :
  existsb (fun x => k x =? id) (filter (fun x => negb (k x =? id')) l) =
  existsb (fun x => k x =? id) l && negb (id =? id').
Proof.
  induction l as [|x r IH]; cbn [filter existsb]; [reflexivity|].
  destruct (k x =? id') eqn:E; cbn [negb existsb]; rewrite IH; destruct (k x =? id) eqn:E2; cbn [orb]; try reflexivity.
  - apply Z.eqb_eq in E, E2. subst. rewrite Z.eqb_refl. apply andb_false_r.
  - replace (id =? id') with false; [reflexivity|]. symmetry. apply Z.eqb_neq. apply Z.eqb_eq in E2. apply Z.eqb_neq in E. congruence.
Qed.

Lemma no_member_nil {A} (k : A -> Z) l : (forall id, existsb (fun x => k x =? id) l = false) -> l = [].
Proof.
  destruct l as [|x r]; [reflexivity|]. intros H. specialize (H (k x)). cbn [existsb] in H.
  rewrite Z.eqb_refl in H. discriminate.
Qed.

Lemma has_In id l : has id l = true <-> In id l.
Proof.
  unfold has. rewrite existsb_exists. split.
  - intros (x & Hin & Hx). apply Z.eqb_eq in Hx. subst. exact Hin.
  - intros Hin. exists id. split; [exact Hin|apply Z.eqb_refl].
Qed.

Lemma in_remove1_other x id l : x <> id -> In x l -> In x (remove1 id l).
Proof.
  intros Hne. induction l as [|y r IH]; cbn [remove1 In]; [tauto|].
  intros [->|Hin].
  - destruct (x =? id) eqn:E; [apply Z.eqb_eq in E; contradiction|]. left. reflexivity.
  - destruct (y =? id); [exact Hin|]. right. auto.
Qed.

(* Association lists keyed by Z: the models' own lookup / update functions (get_item / set_item,
   zget / zset) are these at their value types, up to conversion. *)
Section Assoc.
  Variable V : Type.
  Fixpoint aget (k : Z) (l : list (Z * V)) : option V :=
    match l with [] => None | (a, b) :: r => if a =? k then Some b else aget k r end.
  Fixpoint aset (k : Z) (v : V) (l : list (Z * V)) : list (Z * V) :=
    match l with [] => [] | (a, b) :: r => if a =? k then (a, v) :: r else (a, b) :: aset k v r end.
End Assoc.
Arguments aget {V}. Arguments aset {V}.

Lemma aget_aset {V} k k' (v : V) l :
  aget k (aset k' v l) = if k =? k' then (match aget k' l with Some _ => Some v | None => None end) else aget k l.
Proof.
  induction l as [|[a b] r IH]; cbn [aset aget].
  - destruct (k =? k'); reflexivity.
  - destruct (a =? k') eqn:E; cbn [aget].
    + destruct (k =? k') eqn:E2.
      * assert (a =? k = true) as -> by lia. reflexivity.
      * assert (a =? k = false) as -> by lia. reflexivity.
    + destruct (a =? k) eqn:E3; [|exact IH]. assert (k =? k' = false) as -> by lia. reflexivity.
Qed.
