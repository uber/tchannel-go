(* C19: one iteration of the health-check loop and of the idle sweep's closing loop, as go2v
   regenerates them from health.go / idle_sweep.go on every run (Gen/GenHealthLoop.v), are the
   ones of the hand models (Model/Health.v health_iter, Model/IdleSweepFine.v fstep).

   healthIterBody has the logging configuration as a PARAMETER (debugEnabled =
   c.log.Enabled(LogLevelDebug)): the tie is proved for both values, so a statement of the
   decision that moves under a logging guard breaks it for the value the guard excludes.
   sweepLoopBody evaluates its three tests at the instants of the schedule points that precede
   them: the tie is with the model's poller taking its actions on the states of those instants,
   in the model's order, so reordering, dropping or moving a test breaks it. *)
From Coq Require Import ZArith List Bool Lia.
From Verif Require Import Base.Wrap Base.Wire Gen.GenConsts Gen.GenRetry Gen.GenHealthIdle Gen.GenHealthLoop
  Spec.IdleHealthSpec Model.Health Model.Idle Model.IdleHealthSys Model.IdleSweepFine Proofs.HealthP.
Import ListNotations.
Local Open Scope Z_scope.

(* what the generated iteration (counter', how it ends, value added to the history) means for the
   loop state of Model/Health.v: how = 0 the loop goes on, 1 return, 2 close + return *)
Definition iter_of_gen (l : hloop) (r : Z * Z * bool) : hloop * bool :=
  let '(cf, how, added) := r in
  ({| hl_fails := cf; hl_hist := hh_add (hl_hist l) added; hl_running := (how =? 0) |}, how =? 2).

Lemma gen_health_iter : forall F err inv dbg l,
  - 2 ^ 63 <= hl_fails l + 1 < 2 ^ 63 ->
  iter_of_gen l (healthIterBody (hl_fails l) err inv F dbg) = health_iter F (classify err inv) l.
Proof.
  intros F err inv dbg l Hr.
  unfold healthIterBody, classify, health_iter, iter_of_gen.
  rewrite (wrapS_id 64 (hl_fails l + 1)) by (try exact Hr; lia).
  destruct (e_nil err).
  - destruct dbg; reflexivity.
  - destruct ((GetSystemErrorCode err =? c_ErrCodeCancelled) || inv).
    + reflexivity.
    + destruct (hl_fails l + 1 >=? F); reflexivity.
Qed.

(* the statement's three clauses read off the generated iteration, for EVERY logging
   configuration: a success resets the count and goes on; a failure adds one; the connection is
   closed iff the outcome is a failure and the new count has reached FailuresToClose *)
Lemma gen_health_decision : forall F err inv dbg cf,
  - 2 ^ 63 <= cf + 1 < 2 ^ 63 ->
  let '(cf', how, added) := healthIterBody cf err inv F dbg in
  added = e_nil err /\
  (classify err inv = POk -> cf' = 0 /\ how = 0) /\
  (classify err inv = PStop -> cf' = cf /\ how = 1) /\
  (classify err inv = PFail -> cf' = cf + 1 /\ how = (if cf + 1 >=? F then 2 else 0)) /\
  (how = 2 <-> classify err inv = PFail /\ cf + 1 >= F).
Proof.
  intros F err inv dbg cf Hr.
  unfold healthIterBody, classify.
  rewrite (wrapS_id 64 (cf + 1)) by (try exact Hr; lia).
  destruct (e_nil err); [destruct dbg|destruct (_ || inv); [|destruct (cf + 1 >=? F) eqn:E]];
    cbv beta iota zeta; repeat split; intros; try discriminate; try lia;
    match goal with H : _ /\ _ |- _ => destruct H; try discriminate; lia end.
Qed.

Lemma gen_health_config_independent : forall F err inv cf d1 d2,
  healthIterBody cf err inv F d1 = healthIterBody cf err inv F d2.
Proof.
  intros F err inv cf d1 d2. unfold healthIterBody.
  destruct (e_nil err); [destruct d1, d2; reflexivity|reflexivity].
Qed.

(* the loop of Model/Health.v with the generated iteration in place of the hand-written one *)
Fixpoint gen_health_loop (F : Z) (dbg : nat -> bool) (errs : list (goerr * bool)) (i : nat) (l : hloop) : hloop * option nat :=
  match errs with
  | [] => (l, None)
  | (err, inv) :: r =>
      if hl_running l then
        let '(l', closed) := iter_of_gen l (healthIterBody (hl_fails l) err inv F (dbg i)) in
        if closed then (l', Some i) else gen_health_loop F dbg r (S i) l'
      else (l, None)
  end.

Lemma health_iter_fails_bound F o l : 0 <= hl_fails l -> 0 <= hl_fails (fst (health_iter F o l)) <= hl_fails l + 1.
Proof. intros H. unfold health_iter. destruct o; cbn [fst hl_fails]; try lia. destruct (hl_fails l + 1 >=? F); cbn [fst hl_fails]; lia. Qed.

Lemma gen_health_loop_eq F dbg : forall errs i l,
  0 <= hl_fails l -> hl_fails l + Z.of_nat (length errs) < 2 ^ 63 ->
  gen_health_loop F dbg errs i l = health_loop F (map (fun ei => classify (fst ei) (snd ei)) errs) i l.
Proof.
  induction errs as [|[err inv] r IH]; intros i l H0 Hb; [reflexivity|].
  cbn [gen_health_loop health_loop map fst snd length] in *.
  destruct (hl_running l); [|reflexivity].
  rewrite gen_health_iter by lia.
  pose proof (health_iter_fails_bound F (classify err inv) l H0) as Hf.
  destruct (health_iter F (classify err inv) l) as [l' closed]. cbn [fst] in Hf.
  destruct closed; [reflexivity|]. apply IH; lia.
Qed.

(* C19_health for the loop that iterates the GENERATED body, under every logging configuration
   (dbg i = what c.log.Enabled(LogLevelDebug) returns in iteration i) *)
Definition outcomes_of (errs : list (goerr * bool)) : list outcome :=
  map (fun ei => classify (fst ei) (snd ei)) errs.

Theorem gen_health_loop_closes_iff : forall F dbg errs i,
  1 <= F -> Z.of_nat (length errs) < 2 ^ 63 ->
  snd (gen_health_loop F dbg errs 0 hl_init) = Some i <-> health_closes_at (Z.to_nat F) (outcomes_of errs) i.
Proof.
  intros F dbg errs i HF Hlen. unfold outcomes_of.
  rewrite gen_health_loop_eq by (cbn [hl_init hl_fails]; lia).
  apply health_loop_closes_iff. exact HF.
Qed.

(* ---- the closing loop of the idle sweep ------------------------------------------------------- *)

(* one action of the poller on channel state s while it is busy with a connection (program
   counters SInb .. SRecheck); any other program counter stays *)
Definition poller_test (cf : config) (s : chan) (p : spc) : spc :=
  match p with
  | SInb _ _ _ | SOutb _ _ _ | SRelay _ _ _ | SRecheck _ _ _ =>
      match fstep true cf {| f_ch := s; f_pc := p |} FStep with Some st => f_pc st | None => p end
  | _ => p
  end.

(* the poller's program counter after the tests of the closing loop on the head candidate:
   IsActive on s1, the three counter reads of hasPendingCalls on s2, the re-check on s3 *)
Definition poller_after_tests (cf : config) (now id : Z) (rest : list Z) (s1 s2 s3 : chan) : spc :=
  let p1 := match fstep true cf {| f_ch := s1; f_pc := SLoop2 now (id :: rest) |} FStep with
            | Some st => f_pc st | None => SIdle end in
  let p4 := poller_test cf s2 (poller_test cf s2 (poller_test cf s2 p1)) in
  poller_test cf s3 p4.

Definition conn_at_instant (c1 c2 c3 : conn) (t : Z) : conn :=
  if t =? 1 then c1 else if t =? 2 then c2 else c3.

Lemma gen_sweep_loop : forall cf now id rest s1 s2 s3 c1 c2 c3,
  lookup id (ch_conns s1) = Some c1 -> lookup id (ch_conns s2) = Some c2 -> lookup id (ch_conns s3) = Some c3 ->
  let at_ := conn_at_instant c1 c2 c3 in
  let body := sweepLoopBody
    (fun t => connIsActive (k_state (at_ t)))
    (fun t => hasPendingCalls (k_inb (at_ t)) (k_outb (at_ t)) (relayCanClose (relay_is_nil (at_ t)) (relay_pending (at_ t))))
    (fun t => fine_idle now (cf_max_idle cf) (at_ t)) in
  let p := poller_after_tests cf now id rest s1 s2 s3 in
  (body = 4 /\ p = SClose now id rest) \/ (body = 0 /\ p = SLoop2 now rest).
Proof.
  intros cf now id rest s1 s2 s3 c1 c2 c3 L1 L2 L3.
  unfold sweepLoopBody, poller_after_tests, conn_at_instant, hasPendingCalls.
  cbn [fstep f_pc f_ch Z.eqb Pos.eqb Z.add Pos.add Pos.succ]. rewrite L1.
  destruct (connIsActive (k_state c1)), (k_inb c2 >? 0) eqn:E1, (k_outb c2 >? 0) eqn:E2,
    (relayCanClose (relay_is_nil c2) (relay_pending c2)) eqn:Er, (fine_idle now (cf_max_idle cf) c3) eqn:Ei;
    repeat (cbn [poller_test fstep f_pc f_ch negb orb andb]; rewrite ?L2, ?L3, ?E1, ?E2, ?Er, ?Ei);
    (left; split; reflexivity) || (right; split; reflexivity).
Qed.

(* closing means: Active at the instant of idle.sweep.check, no pending call at the instant of
   idle.sweep.pending, idle against the sweep's clock value at the instant of idle.sweep.recheck *)
Lemma gen_sweep_loop_closes : forall act pend idle,
  sweepLoopBody act pend idle <> 0 <->
  act 1 = true /\ pend 2 = false /\ idle 3 = true.
Proof.
  intros act pend idle. unfold sweepLoopBody. cbn [Z.add Pos.add Pos.succ].
  destruct (act 1), (pend 2), (idle 3); cbn [negb]; split; intros H; try (exfalso; apply H; reflexivity);
    try (destruct H as (H1 & H2 & H3); discriminate); try discriminate; auto.
Qed.

(* ---- the activity stamps ------------------------------------------------------------------------ *)
From Verif Require Import Gen.GenFrame.

(* updateLastActivityRead / Write as generated are the stamp updates of Model/Idle.v *)
Lemma gen_stamps : forall now mt c,
  k_lr (update_read now mt c) = stampOnRead mt (unix_nano now) (k_lr c) /\
  k_lw (update_read now mt c) = k_lw c /\
  k_lw (update_write now mt c) = stampOnWrite mt (unix_nano now) (k_lw c) /\
  k_lr (update_write now mt c) = k_lr c.
Proof.
  intros now mt c. unfold update_read, update_write, stampOnRead, stampOnWrite.
  destruct (isMessageTypeCall mt); cbn [set_stamps k_lr k_lw]; repeat split; reflexivity.
Qed.

(* ... and they are applied to EVERY frame: a frame taken off the send channel is stamped before
   it is written, whatever the logger answers and whether or not the write succeeds; a frame whose
   body was read is stamped before it is handed to a handler (and nothing is handled otherwise) *)
Lemma gen_stamp_sites : forall dbg ok,
  fst (writeFrameTaken dbg ok) = 1 /\ snd (writeFrameTaken dbg ok) = (if ok then 0 else 1) /\
  readFrameBody true = 1 /\ readFrameBody false = -1.
Proof. intros dbg ok. destruct dbg, ok; repeat split; reflexivity. Qed.
