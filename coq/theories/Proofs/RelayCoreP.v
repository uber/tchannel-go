(* Relay model: effect of the helper operations on the state fields ("core" = everything but
   timers / next_tm / panicked), basic facts about ghost logs, and the graphs of [exec] and [step]
   by which the other relay files take an instruction or a step apart. *)
From Coq Require Import ZArith List Bool Lia.
From Verif Require Import Base.Wrap Gen.GenConsts Gen.GenFrame Model.RelayItems Proofs.RelayAssocP.
Import ListNotations.
Local Open Scope Z_scope.

Definition core_eq (a b : state) : Prop :=
  conns a = conns b /\ items a = items b /\ gcs a = gcs b /\ threads a = threads b /\
  cblog a = cblog b /\ sent a = sent b /\ seen a = seen b /\ next_call a = next_call b.

Lemma core_eq_refl : forall a, core_eq a a.
Proof. intro a. unfold core_eq. repeat split; reflexivity. Qed.

Lemma core_eq_trans : forall a b c, core_eq a b -> core_eq b c -> core_eq a c.
Proof.
  unfold core_eq. intros a b c (H1&H2&H3&H4&H5&H6&H7&H8) (G1&G2&G3&G4&G5&G6&G7&G8).
  repeat split; congruence.
Qed.

Lemma core_set_timers : forall st x, core_eq (set_timers st x) st.
Proof. intros. unfold core_eq. repeat split; reflexivity. Qed.
Lemma core_set_panic : forall st x, core_eq (set_panic st x) st.
Proof. intros. unfold core_eq. repeat split; reflexivity. Qed.
Lemma core_set_next_tm : forall st x, core_eq (set_next_tm st x) st.
Proof. intros. unfold core_eq. repeat split; reflexivity. Qed.

Lemma timer_stop_core : forall st tm st' b, timer_stop st tm = (st', b) -> core_eq st' st.
Proof.
  intros st tm st' b H. unfold timer_stop in H.
  destruct (lookup Z.eqb tm (timers st)) as [t|].
  - destruct (tm_released t); [inversion H; apply core_set_panic|].
    destruct (tm_stopped t); [inversion H; apply core_eq_refl|].
    destruct (tm_armed t); inversion H; [apply core_set_timers|apply core_eq_refl].
  - inversion H. apply core_set_panic.
Qed.

Lemma timer_release_core : forall st tm, core_eq (timer_release st tm) st.
Proof.
  intros st tm. unfold timer_release.
  destruct (lookup Z.eqb tm (timers st)) as [t|]; [|apply core_set_panic].
  destruct (tm_released t); [apply core_set_panic|].
  destruct (tm_active t); [apply core_set_panic|apply core_set_timers].
Qed.

Lemma timer_new_core : forall st t o st' tm, timer_new st t o = (st', tm) -> core_eq st' st.
Proof.
  intros st t o st' tm H. unfold timer_new in H. inversion H.
  eapply core_eq_trans; [apply core_set_next_tm|apply core_set_timers].
Qed.

(* relayItems.Get *)
Lemma items_get_spec : forall st t stop st' g, items_get st t stop = (st', g) ->
  core_eq st' st /\
  match lookup key_eqb t (items st) with
  | None => g = None
  | Some it => exists b, g = Some (it, b)
  end.
Proof.
  intros st t stop st' g H. unfold items_get in H.
  destruct (lookup key_eqb t (items st)) as [it|].
  - destruct stop.
    + destruct (timer_stop st (it_tm it)) as [st2 b] eqn:E. inversion H. subst.
      split; [eapply timer_stop_core; exact E|]. exists b. reflexivity.
    + inversion H. subst. split; [apply core_eq_refl|]. exists false. reflexivity.
  - inversion H. subst. split; [apply core_eq_refl|reflexivity].
Qed.

Lemma items_get_found : forall st t stop st' it b, items_get st t stop = (st', Some (it, b)) -> lookup key_eqb t (items st) = Some it.
Proof.
  intros st t stop st' it b H. apply items_get_spec in H. destruct H as [_ H].
  destruct (lookup key_eqb t (items st)) as [it0|]; [|discriminate]. destruct H as [b0 H]. inversion H. reflexivity.
Qed.

Lemma items_get_items : forall st t stop st' g, items_get st t stop = (st', g) -> items st' = items st.
Proof. intros st t stop st' g H. apply items_get_spec in H. apply H. Qed.

(* relayItems.Delete *)
Lemma items_delete_spec : forall st t st' g, items_delete st t = (st', g) ->
  conns st' = conns st /\ gcs st' = gcs st /\ threads st' = threads st /\ cblog st' = cblog st /\
  sent st' = sent st /\ seen st' = seen st /\ next_call st' = next_call st /\
  match lookup key_eqb t (items st) with
  | None => g = None /\ items st' = items st
  | Some it => g = Some (it, negb (it_tomb it)) /\ items st' = remove key_eqb t (items st)
  end.
Proof.
  intros st t st' g H. unfold items_delete in H.
  destruct (lookup key_eqb t (items st)) as [it|].
  - inversion H. subst.
    destruct (timer_release_core (set_items st (remove key_eqb t (items st))) (it_tm it)) as (H1&H2&H3&H4&H5&H6&H7&H8).
    cbn in *. repeat split; assumption.
  - inversion H. subst. repeat split; reflexivity.
Qed.

(* relayItems.deleteCall (finishRelayItem): Delete when the item found is the looked-up call's,
   nothing otherwise *)
Lemma items_delete_call_cases : forall st t lk,
  items_delete_call st t lk = items_delete st t \/
  (items_delete_call st t lk = (st, None) /\
   exists it, lookup key_eqb t (items st) = Some it /\ (it_dest it =? fst lk) && (it_remap it =? snd lk) = false).
Proof.
  intros st t lk. unfold items_delete_call. destruct (lookup key_eqb t (items st)) as [it|] eqn:E.
  - destruct ((it_dest it =? fst lk) && (it_remap it =? snd lk)) eqn:Em; [left; reflexivity|].
    right. split; [reflexivity|]. exists it. split; [reflexivity|exact Em].
  - left. unfold items_delete. rewrite E. reflexivity.
Qed.

Lemma items_delete_call_match : forall st t lk,
  (forall it, lookup key_eqb t (items st) = Some it -> it_dest it = fst lk /\ it_remap it = snd lk) ->
  items_delete_call st t lk = items_delete st t.
Proof.
  intros st t lk H. unfold items_delete_call. destruct (lookup key_eqb t (items st)) as [it|] eqn:E.
  - destruct (H it eq_refl) as [-> ->]. rewrite !Z.eqb_refl. reflexivity.
  - unfold items_delete. rewrite E. reflexivity.
Qed.

Lemma items_delete_call_spec : forall st t lk st' g, items_delete_call st t lk = (st', g) ->
  conns st' = conns st /\ gcs st' = gcs st /\ threads st' = threads st /\ cblog st' = cblog st /\
  sent st' = sent st /\ seen st' = seen st /\ next_call st' = next_call st /\
  match lookup key_eqb t (items st) with
  | None => g = None /\ items st' = items st
  | Some it => (g = Some (it, negb (it_tomb it)) /\ items st' = remove key_eqb t (items st)) \/
               (g = None /\ st' = st)
  end.
Proof.
  intros st t lk st' g H. destruct (items_delete_call_cases st t lk) as [E|[E (it&El&_)]]; rewrite E in H.
  - apply items_delete_spec in H. destruct H as (H1&H2&H3&H4&H5&H6&H7&H8). repeat split; try assumption.
    destruct (lookup key_eqb t (items st)); [left; exact H8|exact H8].
  - inversion H. subst. repeat split; try reflexivity. rewrite El. right. split; reflexivity.
Qed.

(* relayItems.deleteTomb (the scheduled tombstone collection, label LGc) *)
Lemma items_delete_tomb_spec : forall st t,
  conns (items_delete_tomb st t) = conns st /\ gcs (items_delete_tomb st t) = gcs st /\
  threads (items_delete_tomb st t) = threads st /\ cblog (items_delete_tomb st t) = cblog st /\
  sent (items_delete_tomb st t) = sent st /\ seen (items_delete_tomb st t) = seen st /\
  next_call (items_delete_tomb st t) = next_call st /\
  match lookup key_eqb t (items st) with
  | None => items_delete_tomb st t = st
  | Some it => if it_tomb it then items (items_delete_tomb st t) = remove key_eqb t (items st)
               else items_delete_tomb st t = st
  end.
Proof.
  intros st t. unfold items_delete_tomb.
  destruct (lookup key_eqb t (items st)) as [it|]; [|repeat split; reflexivity].
  destruct (it_tomb it); [|repeat split; reflexivity].
  destruct (timer_release_core (set_items st (remove key_eqb t (items st))) (it_tm it)) as (H1&H2&H3&H4&H5&H6&H7&H8).
  cbn in *. repeat split; assumption.
Qed.

Lemma items_delete_tomb_items : forall st t,
  items (items_delete_tomb st t) = items st \/ items (items_delete_tomb st t) = remove key_eqb t (items st).
Proof.
  intros st t. pose proof (items_delete_tomb_spec st t) as (_&_&_&_&_&_&_&H).
  destruct (lookup key_eqb t (items st)) as [it|]; [|left; rewrite H; reflexivity].
  destruct (it_tomb it); [right; exact H|left; rewrite H; reflexivity].
Qed.

(* relayItems.Entomb *)
Lemma items_entomb_spec : forall cf st t st' g, items_entomb cf st t = (st', g) ->
  conns st' = conns st /\ threads st' = threads st /\ cblog st' = cblog st /\
  sent st' = sent st /\ seen st' = seen st /\ next_call st' = next_call st /\
  match lookup key_eqb t (items st) with
  | None => g = None /\ items st' = items st /\ gcs st' = gcs st
  | Some it =>
      (g = Some (it, negb (it_tomb it)) /\ items st' = remove key_eqb t (items st) /\ gcs st' = gcs st) \/
      (it_tomb it = true /\ g = Some (it, false) /\ items st' = items st /\ gcs st' = gcs st) \/
      (it_tomb it = false /\ g = Some (entomb_item it, true) /\
       items st' = insert key_eqb t (entomb_item it) (items st) /\ gcs st' = t :: gcs st)
  end.
Proof.
  intros cf st t st' g H. unfold items_entomb in H.
  destruct (cf_maxtombs cf <? tomb_count st (key_conn t) (key_dir t)).
  - apply items_delete_spec in H. destruct H as (H1&H2&H3&H4&H5&H6&H7&H8).
    repeat split; try assumption.
    destruct (lookup key_eqb t (items st)) as [it|].
    + destruct H8 as [Hg Hi]. left. repeat split; assumption.
    + destruct H8 as [Hg Hi]. repeat split; assumption.
  - destruct (lookup key_eqb t (items st)) as [it|].
    + destruct (it_tomb it) eqn:Et.
      * inversion H. subst. repeat split; try reflexivity. right. left. repeat split; reflexivity.
      * inversion H. subst. repeat split; try reflexivity. right. right. repeat split; reflexivity.
    + inversion H. subst. repeat split; reflexivity.
Qed.

Lemma items_entomb_done : forall cf st t st' it, items_entomb cf st t = (st', Some (it, true)) ->
  exists it0, lookup key_eqb t (items st) = Some it0 /\ it_tomb it0 = false /\ it_call it = it_call it0 /\ it_orig it = it_orig it0.
Proof.
  intros cf st t st' it H. apply items_entomb_spec in H. destruct H as (_&_&_&_&_&_&H).
  destruct (lookup key_eqb t (items st)) as [it0|]; [|destruct H as [H _]; discriminate]. exists it0. split; [reflexivity|].
  destruct (it_tomb it0); destruct H as [(Hg&_)|[(_&Hg&_)|(Ht&Hg&_)]]; inversion Hg; try discriminate; repeat split.
Qed.

Definition getc (cs : list (Z * conn)) (k : Z) : conn :=
  match lookup Z.eqb k cs with Some c => c | None => conn0 end.

Lemma get_conn_getc : forall st k, get_conn st k = getc (conns st) k.
Proof. reflexivity. Qed.

Lemma getc_insert : forall cs k c k', getc (insert Z.eqb k c cs) k' = if k' =? k then c else getc cs k'.
Proof.
  intros cs k c k'. unfold getc. destruct (k' =? k) eqn:E.
  - apply Z.eqb_eq in E. subst. rewrite (lookup_insert_eq Z.eqb zeqb_ok). reflexivity.
  - apply Z.eqb_neq in E. rewrite (lookup_insert_neq Z.eqb zeqb_ok) by exact E. reflexivity.
Qed.

(* ghost log: number of End callbacks of a call *)
Definition is_end (c : Z) (p : Z * cb) : Z :=
  match snd p with CbEnd => if fst p =? c then 1 else 0 | _ => 0 end.
Fixpoint ends (c : Z) (log : list (Z * cb)) : Z :=
  match log with [] => 0 | p :: r => is_end c p + ends c r end.

Lemma ends_nonneg : forall c log, 0 <= ends c log.
Proof.
  intros c log. induction log as [|p r IH]; cbn; [lia|].
  unfold is_end. destruct (snd p); try lia. destruct (fst p =? c); lia.
Qed.

(* The graph of [exec]: one constructor per control path of one instruction, with the conditions
   under which it is taken, the state it produces and the code it pushes.  Facts about what an
   instruction does are proved by cases on [exec_cases]. *)
Inductive exec_case (cf : config) (st : state) (room : bool) : instr -> state -> list instr -> Prop :=
| xc_start k f e (E0 : (e_start e =? 0) = true) :
    exec_case cf st room (IStart k f e) (set_next_call st (next_call st + 1)) [ICanHandle k f e (next_call st)]
| xc_start_fail_call k f e (E0 : (e_start e =? 0) = false) (Ecall : (e_start e =? 1) || (e_start e =? 3) = true) :
    exec_case cf st room (IStart k f e) (set_next_call st (next_call st + 1))
      ([ICb (next_call st) (CbFailed (if (e_start e =? 1) || (e_start e =? 2) then reason_dropped else reason_relaycode (e_code e)));
        ICb (next_call st) CbEnd] ++
       (if (e_start e =? 1) || (e_start e =? 2) then [] else
          ISendErr k (f_id f) (e_code e) :: (if e_code e =? c_ErrCodeProtocol then [IConnClose k] else [])))
| xc_start_fail k f e (E0 : (e_start e =? 0) = false) (Ecall : (e_start e =? 1) || (e_start e =? 3) = false) :
    exec_case cf st room (IStart k f e) st
      (if (e_start e =? 1) || (e_start e =? 2) then [] else
         ISendErr k (f_id f) (e_code e) :: (if e_code e =? c_ErrCodeProtocol then [IConnClose k] else []))
| xc_canhandle k f e c (Eact : (c_state (get_conn st k) =? c_connectionActive) = true) :
    exec_case cf st room (ICanHandle k f e c)
      (put_conn st k {| c_state := c_state (get_conn st k); c_pending := wrapU 32 (c_pending (get_conn st k) + 1);
                        c_nextid := c_nextid (get_conn st k) |})
      [IGetDest k f e c]
| xc_canhandle_no k f e c (Eact : (c_state (get_conn st k) =? c_connectionActive) = false) :
    exec_case cf st room (ICanHandle k f e c) st
      [ICb c (CbFailed reason_client_inactive); ICb c CbEnd; ISendErr k (f_id f) c_ErrCodeDeclined]
| xc_getdest_dup k f e c it (Edup : lookup key_eqb (k, 0, f_id f) (items st) = Some it) :
    exec_case cf st room (IGetDest k f e c) st [ICb c (CbFailed reason_duplicate); IDec k; ICb c CbEnd]
| xc_getdest_nohost k f e c (Edup : lookup key_eqb (k, 0, f_id f) (items st) = None) (Ed : (e_dest e =? -1) = true) :
    exec_case cf st room (IGetDest k f e c) st
      [ICb c (CbFailed reason_bad_host); ISendErr k (f_id f) c_ErrCodeDeclined; IDec k; ICb c CbEnd]
| xc_getdest_noconn k f e c (Edup : lookup key_eqb (k, 0, f_id f) (items st) = None) (Ed : (e_dest e =? -1) = false)
    (Ed0 : (e_dest e <? 0) = true) :
    exec_case cf st room (IGetDest k f e c) st
      [ICb c (CbFailed reason_conn_failed); ISendErr k (f_id f) c_ErrCodeNetwork; IDec k; ICb c CbEnd]
| xc_getdest k f e c (Edup : lookup key_eqb (k, 0, f_id f) (items st) = None) (Ed : (e_dest e =? -1) = false)
    (Ed0 : (e_dest e <? 0) = false) :
    exec_case cf st room (IGetDest k f e c) st [IRemoteCan k f e c (e_dest e)]
| xc_remote k f e c d (Eact : (c_state (get_conn st d) =? c_connectionActive) = true) :
    exec_case cf st room (IRemoteCan k f e c d)
      (put_conn st d {| c_state := c_state (get_conn st d); c_pending := wrapU 32 (c_pending (get_conn st d) + 1);
                        c_nextid := c_nextid (get_conn st d) |})
      [IAddDest k f e c d]
| xc_remote_no k f e c d (Eact : (c_state (get_conn st d) =? c_connectionActive) = false) :
    exec_case cf st room (IRemoteCan k f e c d) st
      [ICb c (CbFailed reason_remote_inactive); ISendErr k (f_id f) c_ErrCodeDeclined; IDec k; ICb c CbEnd]
| xc_adddest k f e c d :
    exec_case cf st room (IAddDest k f e c d)
      (set_items
         (fst (timer_new (put_conn st d {| c_state := c_state (get_conn st d); c_pending := c_pending (get_conn st d);
                                           c_nextid := c_nextid (get_conn st d) + 1 |})
                 (d, 1, c_nextid (get_conn st d)) false))
         (insert key_eqb (d, 1, c_nextid (get_conn st d))
            {| it_call := c; it_remap := f_id f; it_dest := k; it_orig := false; it_tomb := false; it_tm := next_tm st |} (items st)))
      [IAddOrig k f e c d (c_nextid (get_conn st d))]
| xc_addorig k f e c d did :
    exec_case cf st room (IAddOrig k f e c d did)
      (set_items (fst (timer_new st (k, 0, f_id f) true))
         (insert key_eqb (k, 0, f_id f)
            {| it_call := c; it_remap := did; it_dest := d; it_orig := true; it_tomb := false; it_tm := next_tm st |} (items st)))
      (if e_mode e <? 0 then [IFailGet (k, 0, f_id f) reason_arg2_modify]
       else [ICb c CbSent;
             IRcvGet {| r_d := d;
                        r_f := req_frame did false (hasMoreFragments (f_flags f) || (1 <? (if e_mode e =? 0 then 1 else e_mode e)));
                        r_ft := c_requestFrame; r_own := (k, 0, f_id f); r_call := c;
                        r_more := (if e_mode e =? 0 then 1 else e_mode e) - 1 |}])
| xc_cb c x : exec_case cf st room (ICb c x) (log_cb st c x) []
| xc_dec k :
    exec_case cf st room (IDec k)
      (put_conn st k {| c_state := c_state (get_conn st k); c_pending := wrapU 32 (c_pending (get_conn st k) - 1);
                        c_nextid := c_nextid (get_conn st k) |})
      [ICheck k]
| xc_check_close k
    (Ecl : ((c_state (get_conn st k) =? c_connectionStartClose) || (c_state (get_conn st k) =? c_connectionInboundClosed))
           && (c_pending (get_conn st k) =? 0) = true) :
    exec_case cf st room (ICheck k)
      (put_conn st k {| c_state := c_connectionClosed; c_pending := c_pending (get_conn st k); c_nextid := c_nextid (get_conn st k) |}) []
| xc_check k
    (Ecl : ((c_state (get_conn st k) =? c_connectionStartClose) || (c_state (get_conn st k) =? c_connectionInboundClosed))
           && (c_pending (get_conn st k) =? 0) = false) :
    exec_case cf st room (ICheck k) st []
| xc_senderr_drop k id code (Edrop : (c_state (get_conn st k) =? c_connectionClosed) || negb room = true) :
    exec_case cf st room (ISendErr k id code) st []
| xc_senderr k id code (Edrop : (c_state (get_conn st k) =? c_connectionClosed) || negb room = false) :
    exec_case cf st room (ISendErr k id code)
      (set_sent st ((k, {| f_mt := c_messageTypeError; f_id := id; f_flags := 0; f_code := code; f_wf := true |}) :: sent st)) []
| xc_connclose k (Eact : (c_state (get_conn st k) =? c_connectionActive) = true) :
    exec_case cf st room (IConnClose k)
      (put_conn st k {| c_state := c_connectionStartClose; c_pending := c_pending (get_conn st k); c_nextid := c_nextid (get_conn st k) |}) []
| xc_connclose_no k (Eact : (c_state (get_conn st k) =? c_connectionActive) = false) :
    exec_case cf st room (IConnClose k) st []
| xc_ncget_bad k f (Eft : frameTypeFor (f_mt f) = None) :
    exec_case cf st room (INcGet k f) (set_panic st panic_frame_type) []
| xc_ncget k f ft st' g (Eft : frameTypeFor (f_mt f) = Some ft)
    (Eget : items_get st (k, (if ft =? c_responseFrame then 1 else 0), f_id f) (fin_of f) = (st', g)) :
    exec_case cf st room (INcGet k f) st' [INcChk k f ft (k, (if ft =? c_responseFrame then 1 else 0), f_id f) g]
| xc_ncchk_none k f ft own : exec_case cf st room (INcChk k f ft own None) st []
| xc_ncchk_skip k f ft own it stopped (Echk : it_tomb it || (fin_of f && negb stopped) = true) :
    exec_case cf st room (INcChk k f ft own (Some (it, stopped))) st []
| xc_ncchk k f ft own it stopped (Echk : it_tomb it || (fin_of f && negb stopped) = false) :
    exec_case cf st room (INcChk k f ft own (Some (it, stopped))) st
      ((if (f_mt f =? c_messageTypeCallRes) && f_wf f then [ICb (it_call it) CbResp] else []) ++
       [ICb (it_call it) (if ft =? c_requestFrame then CbSent else CbRecv);
        IRcvGet {| r_d := it_dest it; r_f := with_id f (it_remap it); r_ft := ft; r_own := own;
                   r_call := it_call it; r_more := 0 |}])
| xc_rcvget r st' g
    (Eget : items_get st (r_d r, (if r_ft r =? c_requestFrame then 1 else 0), f_id (r_f r)) (fin_of (r_f r)) = (st', g)) :
    exec_case cf st room (IRcvGet r) st' [IRcvChk r (r_d r, (if r_ft r =? c_requestFrame then 1 else 0), f_id (r_f r)) g]
| xc_rcvchk_none r rk : exec_case cf st room (IRcvChk r rk None) st (after_unsent r reason_not_found)
| xc_rcvchk_skip r rk it stopped (Echk : it_tomb it || (fin_of (r_f r) && negb stopped) = true) :
    exec_case cf st room (IRcvChk r rk (Some (it, stopped))) st (after_sent r)
| xc_rcvchk r rk it stopped (Echk : it_tomb it || (fin_of (r_f r) && negb stopped) = false) :
    exec_case cf st room (IRcvChk r rk (Some (it, stopped))) st
      ((if (r_ft r =? c_responseFrame) || (f_mt (r_f r) =? c_messageTypeCancel) then
          if dcsSucceeded (f_mt (r_f r)) (f_code (r_f r)) [reason_syscode (f_code (r_f r))] then [ICb (it_call it) CbSucc]
          else if 0 <? zlen (dcsFailMsg (f_mt (r_f r)) (f_code (r_f r)) [reason_syscode (f_code (r_f r))])
               then [ICb (it_call it) (CbFailed (reason_of_msg (dcsFailMsg (f_mt (r_f r)) (f_code (r_f r)) [reason_syscode (f_code (r_f r))])))]
               else []
        else []) ++ [IRcvEnq r rk (it_dest it, it_remap it)])
| xc_rcvenq r rk lk (Eroom : room = true) :
    exec_case cf st room (IRcvEnq r rk lk) (set_sent st ((r_d r, r_f r) :: sent st))
      ((if fin_of (r_f r) then [IDelete rk lk] else []) ++ after_sent r)
| xc_rcvenq_full r rk lk (Eroom : room = false) :
    exec_case cf st room (IRcvEnq r rk lk) st
      (IFailGet rk (if r_ft r =? c_responseFrame then reason_source_slow else reason_dest_slow) ::
       after_unsent r (if r_ft r =? c_responseFrame then reason_source_slow else reason_dest_slow))
| xc_failget t reason st' g (Eget : items_get st t true = (st', g)) :
    exec_case cf st room (IFailGet t reason) st'
      (match g with Some (_, true) => [IEntomb t (FromFail reason)] | _ => [] end)
| xc_entomb t s st' g (Eent : items_entomb cf st t = (st', g)) :
    exec_case cf st room (IEntomb t s) st'
      (match g with
       | Some (it, true) =>
           (if match s with FromFail _ => it_orig it | FromTimeout o => o end
            then orig_tail (key_conn t) (key_id t) (it_call it) s else []) ++ [IDec (key_conn t)]
       | _ => []
       end)
| xc_delete t lk st' g (Edel : items_delete_call st t lk = (st', g)) :
    exec_case cf st room (IDelete t lk) st'
      (match g with
       | Some (it, true) => (if it_orig it then [ICb (it_call it) CbEnd] else []) ++ [IDec (key_conn t)]
       | _ => []
       end)
| xc_run_none tm (Etm : lookup Z.eqb tm (timers st) = None) :
    exec_case cf st room (ITimerRun tm) (set_panic st panic_no_timer) []
| xc_run_released tm x (Etm : lookup Z.eqb tm (timers st) = Some x) (Erel : tm_released x = true) :
    exec_case cf st room (ITimerRun tm) (set_panic st panic_released) []
| xc_run tm x (Etm : lookup Z.eqb tm (timers st) = Some x) (Erel : tm_released x = false) :
    exec_case cf st room (ITimerRun tm)
      (set_timers st (insert Z.eqb tm
         {| tm_armed := tm_armed x; tm_active := false; tm_stopped := tm_stopped x; tm_released := false;
            tm_key := tm_key x; tm_orig := tm_orig x |} (timers st)))
      [IEntomb (tm_key x) (FromTimeout (tm_orig x))].

Lemma exec_cases : forall cf st i room st1 pushed, exec cf st i room = (st1, pushed) -> exec_case cf st room i st1 pushed.
Proof.
  intros cf st i room st1 pushed H. destruct i; cbn [exec] in H.
  - destruct (e_start e =? 0) eqn:E0; [inversion H; subst st1 pushed; apply xc_start; exact E0|].
    destruct ((e_start e =? 1) || (e_start e =? 3)) eqn:Ecall; inversion H; subst st1 pushed;
      [apply xc_start_fail_call|apply xc_start_fail]; assumption.
  - destruct (c_state (get_conn st k) =? c_connectionActive) eqn:Eact; inversion H; subst st1 pushed;
      [apply xc_canhandle|apply xc_canhandle_no]; exact Eact.
  - destruct (lookup key_eqb (k, 0, f_id f) (items st)) eqn:Edup; [inversion H; subst st1 pushed; eapply xc_getdest_dup; exact Edup|].
    destruct (e_dest e =? -1) eqn:Ed; [inversion H; subst st1 pushed; apply xc_getdest_nohost; assumption|].
    destruct (e_dest e <? 0) eqn:Ed0; inversion H; subst st1 pushed; [apply xc_getdest_noconn|apply xc_getdest]; assumption.
  - destruct (c_state (get_conn st d) =? c_connectionActive) eqn:Eact; inversion H; subst st1 pushed;
      [apply xc_remote|apply xc_remote_no]; exact Eact.
  - inversion H. subst st1 pushed. apply xc_adddest.
  - inversion H. subst st1 pushed. apply xc_addorig.
  - inversion H. subst st1 pushed. apply xc_cb.
  - inversion H. subst st1 pushed. apply xc_dec.
  - match type of H with (if ?b then _ else _) = _ => destruct b eqn:Ecl end; inversion H; subst st1 pushed;
      [apply xc_check_close|apply xc_check]; exact Ecl.
  - destruct ((c_state (get_conn st k) =? c_connectionClosed) || negb room) eqn:Edrop; inversion H; subst st1 pushed;
      [apply xc_senderr_drop|apply xc_senderr]; exact Edrop.
  - destruct (c_state (get_conn st k) =? c_connectionActive) eqn:Eact; inversion H; subst st1 pushed;
      [apply xc_connclose|apply xc_connclose_no]; exact Eact.
  - destruct (frameTypeFor (f_mt f)) as [ft|] eqn:Eft; [|inversion H; subst st1 pushed; apply xc_ncget_bad; exact Eft].
    match type of H with context [items_get ?a ?b ?c] => destruct (items_get a b c) as [st' g] eqn:Eget end.
    inversion H. subst st1 pushed. eapply xc_ncget; eassumption.
  - destruct g as [[it stopped]|]; [|inversion H; subst st1 pushed; apply xc_ncchk_none].
    destruct (it_tomb it || (fin_of f && negb stopped)) eqn:Echk; inversion H; subst st1 pushed; [apply xc_ncchk_skip|apply xc_ncchk]; exact Echk.
  - match type of H with context [items_get ?a ?b ?c] => destruct (items_get a b c) as [st' g] eqn:Eget end.
    inversion H. subst st1 pushed. apply xc_rcvget. exact Eget.
  - destruct g as [[it stopped]|]; [|inversion H; subst st1 pushed; apply xc_rcvchk_none].
    destruct (it_tomb it || (fin_of (r_f r) && negb stopped)) eqn:Echk; inversion H; subst st1 pushed; [apply xc_rcvchk_skip|apply xc_rcvchk]; exact Echk.
  - destruct room eqn:Eroom; inversion H; subst st1 pushed; [apply xc_rcvenq|apply xc_rcvenq_full]; reflexivity.
  - destruct (items_get st t true) as [st' g] eqn:Eget.
    replace pushed with (match g with Some (_, true) => [IEntomb t (FromFail reason)] | _ => [] end)
      by (destruct g as [[it [|]]|]; inversion H; reflexivity).
    replace st1 with st' by (destruct g as [[it [|]]|]; inversion H; reflexivity). apply xc_failget. exact Eget.
  - destruct (items_entomb cf st t) as [st' g] eqn:Eent.
    assert (Hs : st1 = st') by (destruct g as [[it [|]]|]; inversion H; reflexivity). subst st1.
    eapply eq_ind; [apply (xc_entomb cf st room t s st' g Eent)|]. destruct g as [[it [|]]|]; inversion H; reflexivity.
  - destruct (items_delete_call st t lk) as [st' g] eqn:Edel.
    assert (Hs : st1 = st') by (destruct g as [[it [|]]|]; inversion H; reflexivity). subst st1.
    eapply eq_ind; [apply (xc_delete cf st room t lk st' g Edel)|]. destruct g as [[it [|]]|]; inversion H; reflexivity.
  - destruct (lookup Z.eqb tm (timers st)) as [x|] eqn:Etm; [|inversion H; subst st1 pushed; apply xc_run_none; exact Etm].
    destruct (tm_released x) eqn:Erel; inversion H; subst st1 pushed; [eapply xc_run_released|apply xc_run]; eassumption.
Qed.

Inductive step_case (cf : config) (st : state) : label -> state -> Prop :=
| sc_ignored k f e (Eidle : lookup tid_eqb (TR k) (threads st) = None)
    (Eroute : (relayRoute (f_mt f) (cf_cancel cf) =? 1) = false) :
    step_case cf st (LArrive k f e) st
| sc_callreq k f e (Eidle : lookup tid_eqb (TR k) (threads st) = None)
    (Eroute : (relayRoute (f_mt f) (cf_cancel cf) =? 1) = true) (Emt : (f_mt f =? c_messageTypeCallReq) = true) :
    step_case cf st (LArrive k f e) (set_thread (set_seen st ((k, f_id f) :: seen st)) (TR k) [IStart k f e])
| sc_frame k f e (Eidle : lookup tid_eqb (TR k) (threads st) = None)
    (Eroute : (relayRoute (f_mt f) (cf_cancel cf) =? 1) = true) (Emt : (f_mt f =? c_messageTypeCallReq) = false) :
    step_case cf st (LArrive k f e) (set_thread st (TR k) [INcGet k f])
| sc_step th room i rest st1 pushed (Ehead : lookup tid_eqb th (threads st) = Some (i :: rest))
    (Eexec : exec cf st i room = (st1, pushed)) :
    step_case cf st (LStep th room) (set_thread st1 th (pushed ++ rest))
| sc_fire tm x (Etm : lookup Z.eqb tm (timers st) = Some x) (Earmed : tm_armed x = true)
    (Eidle : lookup tid_eqb (TT tm) (threads st) = None) :
    step_case cf st (LFire tm)
      (set_thread (set_timers st (insert Z.eqb tm
         {| tm_armed := false; tm_active := tm_active x; tm_stopped := tm_stopped x; tm_released := tm_released x;
            tm_key := tm_key x; tm_orig := tm_orig x |} (timers st))) (TT tm) [ITimerRun tm])
| sc_gc t (Emem : mem_key t (gcs st) = true) :
    step_case cf st (LGc t) (items_delete_tomb (set_gcs st (remove_one t (gcs st))) t)
| sc_conn l k s (Elab : l = LClose k \/ l = LLost k \/ l = LDrained k) :
    step_case cf st l (put_conn st k {| c_state := s; c_pending := c_pending (get_conn st k); c_nextid := c_nextid (get_conn st k) |}).

Lemma step_cases : forall cf st l st', step cf st l = Some st' -> panicked st = 0 /\ step_case cf st l st'.
Proof.
  intros cf st l st' H. unfold step in H. destruct (panicked st =? 0) eqn:Ep; [|discriminate].
  apply Z.eqb_eq in Ep. split; [exact Ep|]. cbn [negb] in H. destruct l as [k f e|th room|tm|t|k|k|k].
  - destruct (lookup tid_eqb (TR k) (threads st)) eqn:Eidle; [discriminate|].
    destruct (relayRoute (f_mt f) (cf_cancel cf) =? 1) eqn:Eroute; [|inversion H; subst; apply sc_ignored; assumption].
    destruct (f_mt f =? c_messageTypeCallReq) eqn:Emt; inversion H; [apply sc_callreq|apply sc_frame]; assumption.
  - destruct (lookup tid_eqb th (threads st)) as [[|i rest]|] eqn:Ehead; try discriminate.
    destruct (exec cf st i room) as [st1 pushed] eqn:Eexec. inversion H. eapply sc_step; eassumption.
  - destruct (lookup Z.eqb tm (timers st)) as [x|] eqn:Etm; [|discriminate].
    destruct (tm_armed x) eqn:Earmed; [|discriminate].
    destruct (lookup tid_eqb (TT tm) (threads st)) eqn:Eidle; [discriminate|]. inversion H. apply sc_fire; assumption.
  - destruct (mem_key t (gcs st)) eqn:Emem; [|discriminate]. inversion H. apply sc_gc. exact Emem.
  - destruct (c_state (get_conn st k) =? c_connectionActive); [|discriminate]. inversion H. apply sc_conn. tauto.
  - inversion H. apply sc_conn. tauto.
  - match type of H with (if ?b then _ else _) = _ => destruct b end; [|discriminate]. inversion H. apply sc_conn. tauto.
Qed.
