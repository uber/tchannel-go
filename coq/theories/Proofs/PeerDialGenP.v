(* TIE of the collection decision and of the connection attempts to the source
   (Gen/GenPeerDial.v, regenerated on every run; go2v/dialtargets.go):
     Peer.canRemove                   = can_remove of Model/PeerBook.v: a function of the two connection
                                        lists and scCount, nothing else;
     RootPeerList.onClosedConnRemoved with that canRemove = the collector steps PCol1-3;
     Peer.connectionCloseStateChange  = step PCbRem: the collector runs, and the status callback
                                        fires, exactly when a connection was removed;
     Peer.GetConnection / getConnectionRelay after lockNewConn = step DCheck of Model/PeerDial.v.
   An edit that makes the decision depend on anything else (who holds newConnLock, pending calls,
   time ...), or that skips / conditions the call of the collector, breaks an equality here. *)
From Coq Require Import ZArith List Bool Lia.
From Verif Require Import Base.Wrap Base.GoMap Gen.GenConsts Gen.GenPeerGoc Gen.GenPeerDial
  Model.PeerBook Model.PeerDial Proofs.PeerBookL.
Import ListNotations.
Local Open Scope Z_scope.

(* scCount is a uint32 that does not wrap; the lists are shorter than 2^62 *)
Definition peer_small (P : peer) : Prop :=
  0 <= p_sc P < 4294967296 /\ zlen (p_in P) + zlen (p_out P) < 4611686018427387904.

Lemma gen_can_remove P :
  peer_small P -> peerCanRemove (p_in P) (p_out P) (p_sc P) = can_remove P.
Proof.
  intros [Hs Hl]. unfold peerCanRemove, can_remove.
  assert (Hi : 0 <= zlen (p_in P)) by (unfold zlen; lia).
  assert (Ho : 0 <= zlen (p_out P)) by (unfold zlen; lia).
  assert (E63 : 2 ^ (64 - 1) = 9223372036854775808) by reflexivity.
  rewrite (wrapS_id 64 (p_sc P)) by (rewrite ?E63; lia).
  rewrite (wrapS_id 64 (zlen (p_in P) + zlen (p_out P))) by (rewrite ?E63; lia).
  rewrite wrapS_id by (rewrite ?E63; lia). reflexivity.
Qed.

Lemma gen_can_remove_fields P Q :
  p_in P = p_in Q -> p_out P = p_out Q -> p_sc P = p_sc Q ->
  peerCanRemove (p_in P) (p_out P) (p_sc P) = peerCanRemove (p_in Q) (p_out Q) (p_sc Q).
Proof. intros -> -> ->. reflexivity. Qed.

(* RootPeerList.onClosedConnRemoved with the generated canRemove *)
Lemma gen_collect (s : PeerBook.st) hp :
  (forall q, s_root s hp = Some q -> peer_small (s_peer s q)) ->
  rootCollect (s_root s)
    (fun q => peerCanRemove (p_in (s_peer s q)) (p_out (s_peer s q)) (p_sc (s_peer s q))) hp =
  match s_root s hp with
  | None => s_root s
  | Some q => if can_remove (s_peer s q) then s_root (set_root s hp None) else s_root s
  end.
Proof.
  intros Hs. unfold rootCollect, rootGetVal, rootGetOk, gmap_get.
  destruct (s_root s hp) as [q|] eqn:E; cbn [negb fst snd]; [|reflexivity].
  rewrite (gen_can_remove _ (Hs q eq_refl)). destruct (can_remove (s_peer s q)); reflexivity.
Qed.

Lemma s_thr_set s t p : s_thr (set_thr s t p) t = p.
Proof. apply upd_same. Qed.

(* ... which is what the collector steps of the model do *)
Lemma collector_steps s t c hp todo :
  let s1 := step_thread true s t (PCol1 c hp todo) in
  match s_root s hp with
  | None => s_thr s1 t = Some (PCbGet c todo) /\ s_root s1 = s_root s
  | Some q =>
      s_thr s1 t = Some (PCol2 c hp q todo) /\
      let s2 := step_thread true s1 t (PCol2 c hp q todo) in
      if can_remove (s_peer s q)
      then s_thr s2 t = Some (PCol3 c hp todo) /\
           s_root (step_thread true s2 t (PCol3 c hp todo)) = s_root (set_root s hp None)
      else s_thr s2 t = Some (PCbGet c todo) /\ s_root s2 = s_root s
  end.
Proof.
  cbn [step_thread]. destruct (s_root s hp) as [q|] eqn:E.
  - split; [apply s_thr_set|].
    cbn [step_thread set_thr s_peer]. destruct (can_remove (s_peer s q)).
    + split; [apply s_thr_set|reflexivity].
    + split; [apply s_thr_set|reflexivity].
  - split; [apply s_thr_set|reflexivity].
Qed.

(* Peer.connectionCloseStateChange: (collector called, status callback fired) *)
Lemma gen_close_change a fi fo :
  peerCloseChange false false a fi fo = (negb a && (fi || fo), negb a && (fi || fo)).
Proof. destruct a, fi, fo; reflexivity. Qed.

Definition found (o : option (list Z)) : bool := match o with Some _ => true | None => false end.

Lemma close_change_step s t c pid todo :
  let P := s_peer s pid in
  let r := peerCloseChange false false (is_active (s_conn s c))
             (found (swap_remove c (p_in P))) (found (swap_remove c (p_out P))) in
  let s' := step_thread true s t (PCbRem c pid todo) in
  s_thr s' t = Some (if fst r then PCol1 c (p_hp P) todo else PCbGet c todo) /\
  s_log s' = (if snd r then s_log s ++ [p_hp P] else s_log s).
Proof.
  cbn zeta. rewrite gen_close_change. cbn [step_thread fst snd].
  destruct (is_active (s_conn s c)); cbn [negb andb].
  - split; [apply s_thr_set|reflexivity].
  - destruct (swap_remove c (p_in (s_peer s pid))) as [l|]; cbn [found orb].
    + split; [apply s_thr_set|reflexivity].
    + destruct (swap_remove c (p_out (s_peer s pid))) as [l|]; cbn [found].
      * split; [apply s_thr_set|reflexivity].
      * split; [apply s_thr_set|reflexivity].
Qed.

(* Peer.GetConnection / getConnectionRelay once newConnLock is held: 0 = the connection found by
   the re-check, 2 = p.Connect(ctx); the deferred unlock runs on both paths *)
Lemma gen_get_conn a :
  peerGetConnLocked a = (if a then 0 else 2) /\ peerGetConnRelayLocked a = (if a then 0 else 2).
Proof. destruct a; split; reflexivity. Qed.

Lemma dcheck_step ds d pid :
  d_thr ds d = Some (DCheck pid) ->
  exists ds', dstep ds (DStep d) = Some ds' /\ d_s ds' = d_s ds /\
    if peerGetConnLocked (has_active (d_s ds) pid) =? 0
    then d_thr ds' d = None /\ d_lock ds' pid = false
    else d_thr ds' d = Some (DConn pid) /\ d_lock ds' = d_lock ds.
Proof.
  intros E. unfold dstep, dstep_gen. rewrite E. destruct (gen_get_conn (has_active (d_s ds) pid)) as [-> _].
  destruct (has_active (d_s ds) pid); eexists; (split; [reflexivity|]); split; try reflexivity; cbn [Z.eqb].
  - split; apply upd_same.
  - split; [apply upd_same|reflexivity].
Qed.

Theorem dial_generated :
  (forall P, peer_small P -> peerCanRemove (p_in P) (p_out P) (p_sc P) = can_remove P) /\
  (forall (s : PeerBook.st) hp,
     (forall q, s_root s hp = Some q -> peer_small (s_peer s q)) ->
     rootCollect (s_root s)
       (fun q => peerCanRemove (p_in (s_peer s q)) (p_out (s_peer s q)) (p_sc (s_peer s q))) hp =
     match s_root s hp with
     | None => s_root s
     | Some q => if can_remove (s_peer s q) then s_root (set_root s hp None) else s_root s
     end) /\
  (forall s t c pid todo,
     let P := s_peer s pid in
     let r := peerCloseChange false false (is_active (s_conn s c))
                (found (swap_remove c (p_in P))) (found (swap_remove c (p_out P))) in
     let s' := step_thread true s t (PCbRem c pid todo) in
     s_thr s' t = Some (if fst r then PCol1 c (p_hp P) todo else PCbGet c todo) /\
     s_log s' = (if snd r then s_log s ++ [p_hp P] else s_log s)) /\
  (forall a fi fo, peerCloseChange false false a fi fo = (negb a && (fi || fo), negb a && (fi || fo))) /\
  (forall ds d pid, d_thr ds d = Some (DCheck pid) ->
     exists ds', dstep ds (DStep d) = Some ds' /\ d_s ds' = d_s ds /\
       if peerGetConnLocked (has_active (d_s ds) pid) =? 0
       then d_thr ds' d = None /\ d_lock ds' pid = false
       else d_thr ds' d = Some (DConn pid) /\ d_lock ds' = d_lock ds) /\
  (forall a, peerGetConnRelayLocked a = peerGetConnLocked a).
Proof.
  split; [exact gen_can_remove|]. split; [exact gen_collect|]. split; [exact close_change_step|].
  split; [exact gen_close_change|]. split; [exact dcheck_step|].
  intros a. destruct (gen_get_conn a) as [-> ->]. reflexivity.
Qed.
