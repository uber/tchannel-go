(* C09, close progress of the relay model: every decrement of Relayer.pending is followed, in the
   SAME goroutine and as its very next action, by the close check (conn.checkExchanges, model
   instruction ICheck); the check of a closing connection whose counter is zero closes it; a
   connection that has left the active state never returns to it and its counter never grows.
   Hence: whenever pending drops to 0 on a connection in connectionStartClose (or
   InboundClosed), the goroutine that dropped it completes the close -- from EVERY state, not
   only from quiescent ones. *)
From Coq Require Import ZArith List Bool Lia.
From Verif Require Import Base.Wrap Gen.GenConsts Gen.GenFrame Model.RelayItems
  Proofs.RelayAssocP Proofs.RelayCoreP.
Import ListNotations.
Local Open Scope Z_scope.

Definition closing (s : Z) : bool := (s =? c_connectionStartClose) || (s =? c_connectionInboundClosed).

(* the record of a connection before and after an instruction or a step; D: what else is known
   when it is the decrement *)
Inductive conn_eff (D : Prop) (c c1 : conn) : Prop :=
| ce_keep : c_state c1 = c_state c -> c_pending c1 = c_pending c -> conn_eff D c c1
| ce_inc : c_state c = c_connectionActive -> c_state c1 = c_connectionActive ->
           c_pending c1 = wrapU 32 (c_pending c + 1) -> conn_eff D c c1
| ce_dec : D -> c_state c1 = c_state c -> c_pending c1 = wrapU 32 (c_pending c - 1) -> conn_eff D c c1
| ce_startclose : c_state c = c_connectionActive -> c_state c1 = c_connectionStartClose ->
           c_pending c1 = c_pending c -> conn_eff D c c1
| ce_closed : c_state c1 = c_connectionClosed -> c_pending c1 = c_pending c -> conn_eff D c c1.

Lemma get_conn_put : forall st k cn k', get_conn (put_conn st k cn) k' = if k' =? k then cn else get_conn st k'.
Proof. intros st k cn k'. rewrite !get_conn_getc. cbn [put_conn set_conns conns]. apply getc_insert. Qed.

Lemma put_conn_eff : forall D st d cn k, (k = d -> conn_eff D (get_conn st d) cn) ->
  conn_eff D (get_conn st k) (get_conn (put_conn st d cn) k).
Proof.
  intros D st d cn k H. rewrite get_conn_put. destruct (k =? d) eqn:E; [|apply ce_keep; reflexivity].
  apply Z.eqb_eq in E. subst k. exact (H eq_refl).
Qed.

Lemma exec_conn_eff : forall cf st i room st1 pushed k, exec cf st i room = (st1, pushed) ->
  conn_eff (i = IDec k /\ pushed = [ICheck k] /\ panicked st1 = panicked st) (get_conn st k) (get_conn st1 k).
Proof.
  intros cf st i room st1 pushed k H.
  set (D := i = IDec k /\ pushed = [ICheck k] /\ panicked st1 = panicked st).
  assert (Hsame : forall s p, (s, p) = (st1, pushed) -> conns s = conns st -> conn_eff D (get_conn st k) (get_conn st1 k)).
  { intros s p Hs Hc. inversion Hs. subst. unfold get_conn. rewrite Hc. apply ce_keep; reflexivity. }
  assert (Hcore : forall s p, (s, p) = (st1, pushed) -> core_eq s st -> conn_eff D (get_conn st k) (get_conn st1 k)).
  { intros s p Hs [Hc _]. exact (Hsame s p Hs Hc). }
  destruct i; cbn [exec] in H.
  (* IStart, IGetDest, IAddOrig, ICb, ISendErr, INcChk, IRcvChk, IRcvEnq, ITimerRun write no record *)
  1,3,6,7,10,13,15,16,20:
    unfold timer_new in H; cbn [fst snd] in H;
    repeat match type of H with context [match ?x with _ => _ end] => destruct x end;
    (eapply Hsame; [exact H|reflexivity]).
  - (* ICanHandle *)
    destruct (c_state (get_conn st k0) =? c_connectionActive) eqn:Ea; [|eapply Hsame; [exact H|reflexivity]].
    inversion H. apply Z.eqb_eq in Ea. apply put_conn_eff. intros _. apply ce_inc; [exact Ea|exact Ea|reflexivity].
  - (* IRemoteCan *)
    destruct (c_state (get_conn st d) =? c_connectionActive) eqn:Ea; [|eapply Hsame; [exact H|reflexivity]].
    inversion H. apply Z.eqb_eq in Ea. apply put_conn_eff. intros _. apply ce_inc; [exact Ea|exact Ea|reflexivity].
  - (* IAddDest: the next id of d *)
    unfold timer_new in H. cbn [fst snd] in H. inversion H.
    apply (put_conn_eff D st d {| c_state := c_state (get_conn st d); c_pending := c_pending (get_conn st d);
                                  c_nextid := c_nextid (get_conn st d) + 1 |}).
    intros _. apply ce_keep; reflexivity.
  - (* IDec *)
    inversion H as [[H1 H2]]. apply put_conn_eff. intros ->. apply ce_dec; [|reflexivity|reflexivity].
    unfold D. rewrite <- H1, <- H2. repeat split; reflexivity.
  - (* ICheck *)
    match type of H with (if ?b then _ else _) = _ => destruct b end; [|eapply Hsame; [exact H|reflexivity]].
    inversion H. apply put_conn_eff. intros _. apply ce_closed; reflexivity.
  - (* IConnClose *)
    destruct (c_state (get_conn st k0) =? c_connectionActive) eqn:Ea; [|eapply Hsame; [exact H|reflexivity]].
    inversion H. apply Z.eqb_eq in Ea. apply put_conn_eff. intros _. apply ce_startclose; [exact Ea|reflexivity|reflexivity].
  - (* INcGet *)
    destruct (frameTypeFor (f_mt f)); [|eapply Hsame; [exact H|reflexivity]].
    match type of H with context [items_get ?a ?b ?cc] => destruct (items_get a b cc) as [st' g] eqn:E end.
    apply items_get_spec in E. eapply Hcore; [exact H|apply E].
  - (* IRcvGet *)
    match type of H with context [items_get ?a ?b ?cc] => destruct (items_get a b cc) as [st' g] eqn:E end.
    apply items_get_spec in E. eapply Hcore; [exact H|apply E].
  - (* IFailGet *)
    destruct (items_get st t true) as [st' g] eqn:E. apply items_get_spec in E.
    destruct g as [[it []]|]; (eapply Hcore; [exact H|apply E]).
  - (* IEntomb *)
    destruct (items_entomb cf st t) as [st' g] eqn:E. apply items_entomb_spec in E.
    destruct g as [[it []]|]; (eapply Hsame; [exact H|apply E]).
  - (* IDelete *)
    destruct (items_delete_call st t lk) as [st' g] eqn:E. apply items_delete_call_spec in E.
    destruct g as [[it []]|]; (eapply Hsame; [exact H|apply E]).
Qed.

Lemma get_conn_set_thread : forall st t code k, get_conn (set_thread st t code) k = get_conn st k.
Proof. reflexivity. Qed.

Lemma lookup_set_thread_self : forall st t i rest, lookup tid_eqb t (threads (set_thread st t (i :: rest))) = Some (i :: rest).
Proof. intros. cbn [set_thread set_threads threads]. apply (lookup_insert_eq tid_eqb tid_eqb_ok). Qed.

Lemma active_not_closing : closing c_connectionActive = false.
Proof. vm_compute. reflexivity. Qed.

(* a decrement is made by a goroutine whose next action is the close check, and does not panic *)
Lemma step_conn_eff : forall cf st l st' k, step cf st l = Some st' ->
  conn_eff (exists t room rest, l = LStep t room /\ lookup tid_eqb t (threads st') = Some (ICheck k :: rest) /\ panicked st' = 0)
    (get_conn st k) (get_conn st' k).
Proof.
  intros cf st l st' k H. unfold step in H. destruct (panicked st =? 0) eqn:Ep; [|discriminate]. cbn [negb] in H.
  destruct l as [k0 f e|t room|tm|t0|k0|k0|k0].
  - apply ce_keep; destruct (lookup tid_eqb (TR k0) (threads st)); try discriminate;
      (destruct (relayRoute (f_mt f) (cf_cancel cf) =? 1); [|inversion H; reflexivity]);
      destruct (f_mt f =? c_messageTypeCallReq); inversion H; reflexivity.
  - destruct (lookup tid_eqb t (threads st)) as [[|i rest]|] eqn:El; try discriminate.
    destruct (exec cf st i room) as [st1 pushed] eqn:E. inversion H. subst st'. clear H. rewrite get_conn_set_thread.
    destruct (exec_conn_eff _ _ _ _ _ _ k E) as [Hs Hp|Ha Ha' Hp|(Hi&Hpu&Hpa) Hs Hp|Ha Hs Hp|Hs Hp];
      [apply ce_keep|apply ce_inc|apply ce_dec|apply ce_startclose|apply ce_closed]; try assumption.
    exists t, room, rest. split; [reflexivity|]. subst pushed. split; [apply lookup_set_thread_self|].
    change (panicked st1 = 0). rewrite Hpa. apply Z.eqb_eq. exact Ep.
  - apply ce_keep; destruct (lookup Z.eqb tm (timers st)) as [x|]; try discriminate;
      destruct (tm_armed x && match lookup tid_eqb (TT tm) (threads st) with None => true | Some _ => false end); try discriminate;
      inversion H; reflexivity.
  - destruct (mem_key t0 (gcs st)); [|discriminate]. inversion H.
    destruct (items_delete_tomb_spec (set_gcs st (remove_one t0 (gcs st))) t0) as (A&_).
    unfold get_conn. rewrite A. apply ce_keep; reflexivity.
  - destruct (c_state (get_conn st k0) =? c_connectionActive) eqn:Ea; [|discriminate]. inversion H. apply Z.eqb_eq in Ea.
    apply put_conn_eff. intros _. apply ce_startclose; [exact Ea|reflexivity|reflexivity].
  - inversion H. apply put_conn_eff. intros _. apply ce_closed; reflexivity.
  - match type of H with (if ?b then _ else _) = _ => destruct b end; [|discriminate]. inversion H.
    apply put_conn_eff. intros _. apply ce_closed; reflexivity.
Qed.

(* ONE STEP, any state: the counter of a connection changes only by an increment on an ACTIVE
   connection (which stays active) or by the decrement of decrementPending -- and then the
   decrementing goroutine's next action is the close check of that connection. *)
Theorem pending_step : forall cf st l st' k, step cf st l = Some st' ->
  c_pending (get_conn st' k) = c_pending (get_conn st k) \/
  (c_state (get_conn st k) = c_connectionActive /\ c_state (get_conn st' k) = c_connectionActive /\
   c_pending (get_conn st' k) = wrapU 32 (c_pending (get_conn st k) + 1)) \/
  (c_state (get_conn st' k) = c_state (get_conn st k) /\
   c_pending (get_conn st' k) = wrapU 32 (c_pending (get_conn st k) - 1) /\
   exists t room rest, l = LStep t room /\ lookup tid_eqb t (threads st') = Some (ICheck k :: rest)).
Proof.
  intros cf st l st' k H.
  destruct (step_conn_eff cf st l st' k H) as [Hs Hp|Ha Ha' Hp|(t&room&rest&Hl&Hlk&_) Hs Hp|Ha Hs Hp|Hs Hp]; auto.
  right. right. split; [exact Hs|]. split; [exact Hp|]. exists t, room, rest. split; assumption.
Qed.

Theorem inactive_stays : forall cf st l st' k, step cf st l = Some st' ->
  c_state (get_conn st k) <> c_connectionActive -> c_state (get_conn st' k) <> c_connectionActive.
Proof.
  intros cf st l st' k H Hn.
  destruct (step_conn_eff cf st l st' k H) as [Hs Hp|Ha Ha' Hp|_ Hs Hp|Ha Hs Hp|Hs Hp]; rewrite ?Hs; try assumption; try contradiction.
  vm_compute. discriminate.
Qed.

Theorem check_closes : forall cf st t k rest room,
  panicked st = 0 -> lookup tid_eqb t (threads st) = Some (ICheck k :: rest) ->
  closing (c_state (get_conn st k)) = true -> c_pending (get_conn st k) = 0 ->
  exists st', step cf st (LStep t room) = Some st' /\ c_state (get_conn st' k) = c_connectionClosed /\
              c_pending (get_conn st' k) = 0.
Proof.
  intros cf st t k rest room Hp Hl Hc Hz. unfold step. rewrite Hp, Hl. cbn [Z.eqb negb exec].
  unfold closing in Hc. rewrite Hc, Hz. cbn [Z.eqb andb]. eexists. split; [reflexivity|].
  rewrite get_conn_set_thread, get_conn_put, Z.eqb_refl. split; reflexivity.
Qed.

(* MAIN: from EVERY state -- whatever else the relay is doing -- a step after which the counter
   of a closing connection is 0 while it was not 0 before is the decrement of decrementPending by
   some goroutine t, whose very next action is the close check; that action closes the
   connection. *)
Theorem drop_to_zero_closes : forall cf st l st' k, step cf st l = Some st' ->
  c_pending (get_conn st k) <> 0 -> c_pending (get_conn st' k) = 0 ->
  closing (c_state (get_conn st' k)) = true ->
  exists t room rest, l = LStep t room /\ lookup tid_eqb t (threads st') = Some (ICheck k :: rest) /\
    forall room', exists st'', step cf st' (LStep t room') = Some st'' /\
                               c_state (get_conn st'' k) = c_connectionClosed /\ c_pending (get_conn st'' k) = 0.
Proof.
  intros cf st l st' k H Hnz Hz Hc.
  destruct (step_conn_eff cf st l st' k H) as [Hs Hp|Ha Ha' Hp|(t&room&rest&Hl&Hlk&Hpa) Hs Hp|Ha Hs Hp|Hs Hp]; try congruence.
  - rewrite Ha', active_not_closing in Hc. discriminate.
  - exists t, room, rest. split; [exact Hl|]. split; [exact Hlk|]. intro room'. exact (check_closes cf st' t k rest room' Hpa Hlk Hc Hz).
Qed.

(* while a connection is not active its counter never grows: a closing connection with
   counter 0 stays at 0 unless a goroutine still holds a unit (and that decrement would again
   be followed by the check) *)
Theorem closing_pending_no_growth : forall cf st l st' k, step cf st l = Some st' ->
  c_state (get_conn st k) <> c_connectionActive ->
  c_pending (get_conn st' k) = c_pending (get_conn st k) \/
  (c_pending (get_conn st' k) = wrapU 32 (c_pending (get_conn st k) - 1) /\
   exists t room rest, l = LStep t room /\ lookup tid_eqb t (threads st') = Some (ICheck k :: rest)).
Proof.
  intros cf st l st' k H Hn. destruct (pending_step cf st l st' k H) as [He|[(Ha&_)|(_&Hp&Hex)]].
  - left. exact He.
  - contradiction.
  - right. split; assumption.
Qed.
