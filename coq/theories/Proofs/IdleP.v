(* Proofs about Model/Idle.v and Model/IdleHealthSys.v: what one event does to one connection,
   activity stamps, the sweep decision, run invariants. *)
From Coq Require Import ZArith List Bool Lia.
From Verif Require Import Base.Wrap Base.Wire Gen.GenConsts Gen.GenFrame Gen.GenHealthIdle
  Spec.IdleHealthSpec Model.Health Model.Idle Model.IdleHealthSys.
Import ListNotations.
Local Open Scope Z_scope.

(* generated definitions against the literal specification *)
Lemma is_call_frame_gen mt : isMessageTypeCall mt = is_call_frame mt.
Proof.
  unfold isMessageTypeCall, is_call_frame, c_messageTypeCallReq, c_messageTypeCallReqContinue,
    c_messageTypeCallRes, c_messageTypeCallResContinue, c_messageTypeError.
  destruct (mt =? 3), (mt =? 4), (mt =? 19), (mt =? 20), (mt =? 255); reflexivity.
Qed.

Lemma unix_nano_id t : ts_ok t -> unix_nano t = t.
Proof. intros H. unfold unix_nano. apply wrapS_id; [lia|]. unfold ts_ok in H. simpl. lia. Qed.

(* Time.Sub saturates; against a bound that is itself a Duration above the minimum the
   comparison is exact *)
Lemma time_sub_ge t u m : min_duration < m <= max_duration -> (time_sub t u >=? m) = (t - u >=? m).
Proof.
  intros Hm. unfold time_sub.
  destruct (t - u <? min_duration) eqn:E1; [lia|].
  destruct (max_duration <? t - u) eqn:E2; [lia|reflexivity].
Qed.

Lemma clock_app : forall h1 h2 t, clock t (h1 ++ h2) = clock (clock t h1) h2.
Proof. induction h1 as [|e r IH]; intros h2 t; [reflexivity|]. destruct e; cbn [app clock]; apply IH. Qed.

Lemma clock_ok_app : forall h1 h2 t, clock_ok t (h1 ++ h2) <-> clock_ok t h1 /\ clock_ok (clock t h1) h2.
Proof.
  induction h1 as [|e r IH]; intros h2 t; cbn [app clock clock_ok].
  - split; [intros H; split; [|exact H]|tauto]. destruct h2 as [|e2 r2]; cbn [clock_ok] in *; [tauto|].
    destruct e2; tauto.
  - destruct e; rewrite ?IH; tauto.
Qed.

Lemma lca_app id : forall h1 h2 t cur,
  last_call_activity id t cur (h1 ++ h2) = last_call_activity id (clock t h1) (last_call_activity id t cur h1) h2.
Proof. induction h1 as [|e r IH]; intros h2 t cur; [reflexivity|]. destruct e; cbn [app clock last_call_activity]; apply IH. Qed.

Lemma NoDup_app_one {A} (l : list A) x : NoDup l -> ~ In x l -> NoDup (l ++ [x]).
Proof.
  induction l as [|a r IH]; intros Hnd Hni; cbn [app].
  - constructor; [intros []|constructor].
  - inversion Hnd as [|? ? Ha Hr]; subst. constructor.
    + rewrite in_app_iff. intros [H|[H|[]]]; [exact (Ha H)|]. subst. apply Hni. now left.
    + apply IH; [exact Hr|]. intros H. apply Hni. now right.
Qed.

Lemma update_keys id c l : map fst (update id c l) = map fst l.
Proof.
  induction l as [|[i c0] r IH]; [reflexivity|]. cbn [update].
  destruct (i =? id); cbn [map fst]; [reflexivity| now rewrite IH].
Qed.

Lemma lookup_update id i c l :
  lookup id (update i c l) = if i =? id then option_map (fun _ => c) (lookup id l) else lookup id l.
Proof.
  induction l as [|[j cj] r IH]; cbn [lookup update]; [destruct (i =? id); reflexivity|].
  destruct (Z.eqb_spec j i) as [->|Hj]; cbn [lookup]; [destruct (i =? id); reflexivity|].
  rewrite IH. destruct (Z.eqb_spec i id) as [->|Hi]; [|reflexivity].
  apply Z.eqb_neq in Hj. rewrite Hj. reflexivity.
Qed.

Lemma lookup_app id l l' :
  lookup id (l ++ l') = match lookup id l with Some c => Some c | None => lookup id l' end.
Proof. induction l as [|[i c] r IH]; cbn [lookup app]; [reflexivity|]. destruct (i =? id); [reflexivity|exact IH]. Qed.

Lemma lookup_none_notin id l : lookup id l = None <-> ~ In id (map fst l).
Proof.
  induction l as [|[i c] r IH]; cbn [lookup map fst In]; [tauto|].
  destruct (Z.eqb_spec i id) as [E|E]; [split; [discriminate|tauto]|]. rewrite IH. tauto.
Qed.

Lemma ces_cases c :
  check_exchanges_state c = k_state c \/ check_exchanges_state c = c_connectionInboundClosed
  \/ check_exchanges_state c = c_connectionClosed.
Proof.
  unfold check_exchanges_state.
  repeat match goal with |- context [if ?b then _ else _] => destruct b end; auto.
Qed.

Lemma ces_not_active c : k_state c <> c_connectionActive -> check_exchanges_state c <> c_connectionActive.
Proof. intros H. destruct (ces_cases c) as [E|[E|E]]; rewrite E; [exact H|discriminate|discriminate]. Qed.

Lemma ces_closed_stays c : k_state c = c_connectionClosed -> check_exchanges_state c = c_connectionClosed.
Proof. intros H. unfold check_exchanges_state. rewrite H. reflexivity. Qed.

Lemma active_state c : is_active c = true <-> k_state c = c_connectionActive.
Proof. apply Z.eqb_eq. Qed.

Lemma closed_not_active c : k_state c = c_connectionClosed -> is_active c = false.
Proof. intros H. unfold is_active. rewrite H. reflexivity. Qed.

Lemma check_active c : k_state c = c_connectionActive -> k_stopped c = false ->
  k_state (check_exchanges c) = c_connectionActive.
Proof. intros H1 H2. unfold check_exchanges, check_exchanges_state. rewrite H1, H2. reflexivity. Qed.

Lemma conn_close_not_active c : is_active (conn_close c) = false.
Proof.
  unfold conn_close. destruct (is_active c) eqn:E; unfold is_active in E; rewrite E; [|exact E].
  apply Z.eqb_neq. unfold check_exchanges.
  assert (H : check_exchanges_state (set_state c_connectionStartClose c) <> c_connectionActive)
    by (apply ces_not_active; discriminate).
  destruct (_ && _); exact H.
Qed.

(* a call that starts or finishes only moves the counters, and checkExchanges runs when one finishes *)
Lemma pend_shape w d c : exists a b r,
  pend w d c = c \/ pend w d c = set_counts a b (k_pings c) r c \/
  pend w d c = check_exchanges (set_counts a b (k_pings c) r c).
Proof.
  unfold pend.
  destruct (w =? 0); [|destruct (w =? 1); [|destruct (k_relay c) as [n|]; [|exists 0, 0, None; auto]]];
    (destruct (d >? 0); [|destruct (_ <=? 0); [exists 0, 0, None; auto|]]);
    do 3 eexists; auto.
Qed.

(* second loop of checkIdleConnections on one candidate *)
Definition close_if_ok (c : conn) : conn :=
  if negb (is_active c) then c else if has_pending_calls c then c else conn_close c.

Lemma close_if_ok_idem c : close_if_ok (close_if_ok c) = close_if_ok c.
Proof.
  unfold close_if_ok at 2. destruct (negb (is_active c)) eqn:E1; [unfold close_if_ok; now rewrite E1|].
  destruct (has_pending_calls c) eqn:E2; unfold close_if_ok; [now rewrite E1, E2|].
  now rewrite conn_close_not_active, E1, E2.
Qed.

(* Connection.close, connectionError, the sweep's close and the steps of the health goroutine are
   made of five primitive updates: checkExchanges, Active -> StartClose, stoppedExchanges := true,
   an update of the health fields, an update of the number of ping exchanges.  A preorder on
   connections that the primitives respect is respected by all of them. *)
Record op_closed (R : conn -> conn -> Prop) : Prop := {
  oc_refl : forall c, R c c;
  oc_trans : forall a b c, R a b -> R b c -> R a c;
  oc_check : forall c, R c (check_exchanges c);
  oc_start_close : forall c, k_state c = c_connectionActive -> R c (set_state c_connectionStartClose c);
  oc_stopped : forall c, R c (set_stopped true c);
  oc_health : forall hs l c, R c (set_health hs l c);
  oc_pings : forall p c, R c (set_counts (k_inb c) (k_outb c) p (k_relay c) c)
}.

Section OpClosed.
Variable R : conn -> conn -> Prop.
Hypothesis HR : op_closed R.
Let refl := oc_refl R HR.
Let trans := oc_trans R HR.

Lemma oc_close c : R c (conn_close c).
Proof.
  unfold conn_close. destruct (Z.eqb_spec (k_state c) c_connectionActive) as [E|_]; [|apply refl].
  eapply trans; [apply (oc_start_close R HR), E|apply (oc_check R HR)].
Qed.

Lemma oc_error c : R c (conn_error c).
Proof.
  unfold conn_error. eapply trans; [apply oc_close|].
  eapply trans; [apply (oc_stopped R HR)|apply (oc_check R HR)].
Qed.

Lemma oc_close_if_ok c : R c (close_if_ok c).
Proof.
  unfold close_if_ok. destruct (negb _); [apply refl|].
  destruct (has_pending_calls c); [apply refl|apply oc_close].
Qed.

Lemma oc_after_ping F o c : R c (after_ping F o c).
Proof.
  unfold after_ping. destruct (health_iter F o (k_health c)) as [l closed].
  set (c1 := set_health (if hl_running l then 1 else 3) l c).
  assert (H2 : R c (if closed then conn_close c1 else c1)).
  { eapply trans; [apply (oc_health R HR)|]. fold c1. destruct closed; [apply oc_close|apply refl]. }
  destruct (_ =? _); [|exact H2]. eapply trans; [exact H2|apply (oc_health R HR)].
Qed.

Lemma oc_ping_start F sent c : R c (ping_start F sent c).
Proof.
  unfold ping_start. destruct (negb _); [apply refl|].
  eapply trans; [apply (oc_pings R HR (k_pings c + 1))|].
  destruct sent; [apply (oc_health R HR)|]. cbv zeta.
  eapply trans; [apply oc_error|]. eapply trans; [apply (oc_pings R HR)|].
  eapply trans; [apply (oc_check R HR)|].
  eapply trans; [apply oc_after_ping|apply (oc_health R HR)].
Qed.

Lemma oc_ping_end F o c : R c (ping_end F o c).
Proof.
  unfold ping_end. destruct (negb _); [apply refl|]. cbv zeta.
  eapply trans; [apply (oc_pings R HR)|].
  eapply trans; [apply (oc_check R HR)|apply oc_after_ping].
Qed.
End OpClosed.

Lemma op_closed_eq {A} (f : conn -> A) :
  (forall c, f (check_exchanges c) = f c) -> (forall s c, f (set_state s c) = f c) ->
  (forall b c, f (set_stopped b c) = f c) -> (forall hs l c, f (set_health hs l c) = f c) ->
  (forall p c, f (set_counts (k_inb c) (k_outb c) p (k_relay c) c) = f c) ->
  op_closed (fun c c' => f c' = f c).
Proof. intros H1 H2 H3 H4 H5. split; intros; congruence. Qed.

(* the stamps are touched by updateLastActivity* only *)
Definition stamps (c : conn) : Z * Z := (k_lr c, k_lw c).

Lemma stamps_check c : stamps (check_exchanges c) = stamps c.
Proof. unfold check_exchanges. destruct (_ && _); reflexivity. Qed.

Lemma stamps_closed : op_closed (fun c c' => stamps c' = stamps c).
Proof. apply op_closed_eq; try reflexivity. exact stamps_check. Qed.

Lemma stamps_pend w d c : stamps (pend w d c) = stamps c.
Proof. destruct (pend_shape w d c) as (a & b & r & [-> | [-> | ->]]); rewrite ?stamps_check; reflexivity. Qed.

Definition mem (id : Z) (l : list Z) : bool := existsb (Z.eqb id) l.

Lemma mem_in id l : mem id l = true <-> In id l.
Proof.
  unfold mem. rewrite existsb_exists. split.
  - intros (x & Hx & E). apply Z.eqb_eq in E. now subst.
  - intros H. exists id. split; [exact H|apply Z.eqb_refl].
Qed.

Lemma on_conn_lookup id id' f s :
  lookup id (ch_conns (on_conn id' f s)) =
  if id' =? id then option_map f (lookup id (ch_conns s)) else lookup id (ch_conns s).
Proof.
  unfold on_conn. destruct (lookup id' (ch_conns s)) as [c|] eqn:L; cbn [ch_conns]; rewrite ?lookup_update;
    (destruct (Z.eqb_spec id' id) as [<-|_]; [rewrite L|]; reflexivity).
Qed.

Lemma on_conn_now id f s : ch_now (on_conn id f s) = ch_now s.
Proof. unfold on_conn. destruct (lookup id (ch_conns s)); reflexivity. Qed.

Lemma on_conn_keys id f s : map fst (ch_conns (on_conn id f s)) = map fst (ch_conns s).
Proof. unfold on_conn. destruct (lookup id (ch_conns s)); [apply update_keys|reflexivity]. Qed.

Lemma sweep_one_keys l id : map fst (sweep_close_one l id) = map fst l.
Proof.
  unfold sweep_close_one. destruct (lookup id l); [|reflexivity].
  destruct (negb _); [reflexivity|]. destruct (has_pending_calls _); [reflexivity|apply update_keys].
Qed.

Lemma sweep_fold_keys cands : forall l, map fst (fold_left sweep_close_one cands l) = map fst l.
Proof.
  induction cands as [|i r IH]; intros l; [reflexivity|]. cbn [fold_left]. rewrite IH. apply sweep_one_keys.
Qed.

Lemma sweep_one_lookup l id' id :
  lookup id (sweep_close_one l id') =
  if id' =? id then option_map close_if_ok (lookup id l) else lookup id l.
Proof.
  unfold sweep_close_one. destruct (Z.eqb_spec id' id) as [<-|E].
  - destruct (lookup id' l) as [c|] eqn:L; cbn [option_map]; [|exact L].
    unfold close_if_ok. destruct (negb (is_active c)); [exact L|].
    destruct (has_pending_calls c); [exact L|]. rewrite lookup_update, Z.eqb_refl, L. reflexivity.
  - destruct (lookup id' l) as [c|]; [|reflexivity].
    destruct (negb (is_active c)); [reflexivity|]. destruct (has_pending_calls c); [reflexivity|].
    rewrite lookup_update. apply Z.eqb_neq in E. rewrite E. reflexivity.
Qed.

Lemma sweep_fold_lookup cands : forall l id,
  lookup id (fold_left sweep_close_one cands l) =
  if mem id cands then option_map close_if_ok (lookup id l) else lookup id l.
Proof.
  induction cands as [|i r IH]; intros l id; [reflexivity|].
  cbn [fold_left]. rewrite IH, sweep_one_lookup. unfold mem. cbn [existsb]. fold (mem id r).
  rewrite (Z.eqb_sym id i).
  destruct (i =? id); cbn [orb]; [|reflexivity].
  destruct (mem id r); [|reflexivity].
  destruct (lookup id l); cbn [option_map]; [|reflexivity]. now rewrite close_if_ok_idem.
Qed.

(* what event e of the system makes of connection id once it exists (c: its state before) *)
Definition ev_on (cf : config) (s : chan) (id : Z) (e : ev) (c : conn) : conn :=
  match e with
  | ERead i mt => if i =? id then update_read (ch_now s) mt c else c
  | EWrite i mt => if i =? id then update_write (ch_now s) mt c else c
  | EPend i w d => if i =? id then pend w d c else c
  | EClose i => if i =? id then conn_close c else c
  | ETick => if sweep_enabled cf && mem id (sweep_candidates (cf_max_idle cf) s) then close_if_ok c else c
  | EPingStart i sent => if i =? id then ping_start (ho_failures (cf_health cf)) sent c else c
  | EPingEnd i o => if i =? id then ping_end (ho_failures (cf_health cf)) o c else c
  | EAdvance _ | ENewConn _ _ => c
  end.

Lemma step_lookup cf s e id :
  lookup id (ch_conns (step cf s e)) =
  match lookup id (ch_conns s), e with
  | Some c, _ => Some (ev_on cf s id e c)
  | None, ENewConn i rl => if i =? id then Some (new_conn (ch_now s) rl (ho_enabled (cf_health cf))) else None
  | None, _ => None
  end.
Proof.
  destruct e as [dt|i rl|i mt|i mt|i w d|i| |i sent|i o]; cbn [step ev_on]; rewrite ?on_conn_lookup.
  2:{ destruct (lookup i (ch_conns s)) eqn:Li; cbn [ch_conns].
      - destruct (lookup id (ch_conns s)) eqn:L; [reflexivity|].
        destruct (Z.eqb_spec i id) as [->|_]; [congruence|reflexivity].
      - rewrite lookup_app. cbn [lookup]. destruct (lookup id (ch_conns s)); [reflexivity|].
        destruct (i =? id); reflexivity. }
  6:{ destruct (sweep_enabled cf); cbn [andb sweep ch_conns]; rewrite ?sweep_fold_lookup;
        [destruct (mem id _)|]; destruct (lookup id (ch_conns s)); reflexivity. }
  all: cbn [ch_conns]; try destruct (i =? id); destruct (lookup id (ch_conns s)); reflexivity.
Qed.

Lemma step_now cf s e : ch_now (step cf s e) = clock (ch_now s) [e].
Proof.
  destruct e; cbn [step clock]; rewrite ?on_conn_now; try reflexivity.
  - destruct (lookup id (ch_conns s)); reflexivity.
  - destruct (sweep_enabled cf); reflexivity.
Qed.

Lemma step_keys cf s e : NoDup (map fst (ch_conns s)) -> NoDup (map fst (ch_conns (step cf s e))).
Proof.
  intros H. destruct e as [dt|i rl|i mt|i mt|i w d|i| |i sent|i o]; cbn [step]; rewrite ?on_conn_keys; try exact H.
  - destruct (lookup i (ch_conns s)) eqn:L; [exact H|]. cbn [ch_conns]. rewrite map_app.
    apply NoDup_app_one; [exact H|]. now apply lookup_none_notin.
  - destruct (sweep_enabled cf); [|exact H]. unfold sweep. cbn [ch_conns]. rewrite sweep_fold_keys. exact H.
Qed.

Lemma ev_on_stamps cf s id e c :
  stamps (ev_on cf s id e c) =
  match e with
  | ERead i mt => if (i =? id) && is_call_frame mt then (unix_nano (ch_now s), k_lw c) else stamps c
  | EWrite i mt => if (i =? id) && is_call_frame mt then (k_lr c, unix_nano (ch_now s)) else stamps c
  | _ => stamps c
  end.
Proof.
  destruct e as [dt|i rl|i mt|i mt|i w d|i| |i sent|i o]; cbn [ev_on];
    try (unfold update_read, update_write; rewrite is_call_frame_gen;
         destruct (i =? id), (is_call_frame mt); reflexivity);
    try destruct (_ =? id); try destruct (_ && _); try reflexivity.
  - apply stamps_pend.
  - apply (oc_close _ stamps_closed).
  - apply (oc_close_if_ok _ stamps_closed).
  - apply (oc_ping_start _ stamps_closed).
  - apply (oc_ping_end _ stamps_closed).
Qed.

(* C19_stamp: max(lastActivityRead, lastActivityWrite) is the last call activity *)
Definition stamp_rel (id : Z) (s : chan) (cur : option Z) : Prop :=
  match lookup id (ch_conns s), cur with
  | Some c, Some la => la = Z.max (k_lr c) (k_lw c) /\ k_lr c <= ch_now s /\ k_lw c <= ch_now s
  | None, None => True
  | _, _ => False
  end.

Lemma stamp_rel_ext id s s' cur :
  ch_now s' = ch_now s ->
  option_map stamps (lookup id (ch_conns s')) = option_map stamps (lookup id (ch_conns s)) ->
  stamp_rel id s cur -> stamp_rel id s' cur.
Proof.
  unfold stamp_rel. intros Hn Hl.
  destruct (lookup id (ch_conns s)) as [c|]; destruct (lookup id (ch_conns s')) as [c'|]; cbn [option_map] in Hl;
    try discriminate; [|tauto].
  unfold stamps in Hl. injection Hl as H1 H2. rewrite Hn, H1, H2. tauto.
Qed.

Lemma stamp_step cf id s e cur : clock_ok (ch_now s) [e] -> stamp_rel id s cur ->
  stamp_rel id (step cf s e) (last_call_activity id (ch_now s) cur [e]).
Proof.
  unfold stamp_rel. rewrite step_lookup, step_now. intros Hc.
  destruct (lookup id (ch_conns s)) as [c|], cur as [la|]; try contradiction.
  - pose proof (ev_on_stamps cf s id e c) as Hst. unfold stamps in Hst.
    set (c' := ev_on cf s id e c) in *. clearbody c'.
    destruct e as [dt|i rl|i mt|i mt|i w d|i| |i sent|i o]; cbn [clock_ok clock last_call_activity] in *;
      try destruct ((i =? id) && is_call_frame mt); injection Hst as -> ->;
      rewrite ?unix_nano_id by tauto; lia.
  - intros _. destruct e as [dt|i rl|i mt|i mt|i w d|i| |i sent|i o]; cbn [clock last_call_activity]; try exact I.
    destruct (i =? id); [|exact I]. cbn [new_conn k_lr k_lw]. cbn [clock_ok] in Hc.
    rewrite unix_nano_id by tauto. lia.
Qed.

Lemma stamp_gen cf id : forall h s cur,
  clock_ok (ch_now s) h -> stamp_rel id s cur ->
  stamp_rel id (fold_left (step cf) h s) (last_call_activity id (ch_now s) cur h).
Proof.
  induction h as [|e r IH]; intros s cur Hc Hr; [exact Hr|].
  change (e :: r) with ([e] ++ r) in *. apply clock_ok_app in Hc as [Hc1 Hc2].
  rewrite lca_app, fold_left_app, <- (step_now cf). rewrite <- (step_now cf) in Hc2.
  apply IH; [exact Hc2|apply stamp_step; assumption].
Qed.

Theorem stamp_is_last_call_activity cf t0 h id :
  clock_ok t0 h ->
  match lookup id (ch_conns (run cf t0 h)) with
  | Some c => last_call_activity id t0 None h = Some (Z.max (k_lr c) (k_lw c))
  | None => last_call_activity id t0 None h = None
  end.
Proof.
  intros Hc. pose proof (stamp_gen cf id h (init_chan t0) None Hc I) as H.
  unfold stamp_rel, run in *. cbn [ch_now init_chan] in H.
  destruct (lookup id (ch_conns (fold_left (step cf) h (init_chan t0))));
    destruct (last_call_activity id t0 None h); try tauto.
  destruct H as [-> _]. reflexivity.
Qed.

(* the sweep decision *)
Lemma filter_keys_mem (p : Z * conn -> bool) id : forall l, NoDup (map fst l) ->
  mem id (map fst (filter p l)) = match lookup id l with Some c => p (id, c) | None => false end.
Proof.
  induction l as [|[i c0] r IH]; intros Hnd; [reflexivity|].
  cbn [map fst] in Hnd. inversion Hnd as [|? ? Hni Hnd']; subst. specialize (IH Hnd').
  cbn [lookup filter]. destruct (Z.eqb_spec i id) as [->|E].
  - apply lookup_none_notin in Hni. rewrite Hni in IH. destruct (p (id, c0)); [|exact IH].
    unfold mem. cbn [map fst existsb]. now rewrite Z.eqb_refl.
  - rewrite <- IH. destruct (p (i, c0)); [|reflexivity].
    unfold mem. cbn [map fst existsb]. apply Z.eqb_neq in E. now rewrite (Z.eqb_sym id i), E.
Qed.

Lemma sweep_candidates_mem mi s id c : NoDup (map fst (ch_conns s)) -> lookup id (ch_conns s) = Some c ->
  mem id (sweep_candidates mi s) = k_tracked c && idle_candidate (ch_now s) mi c.
Proof. intros Hnd L. unfold sweep_candidates. rewrite (filter_keys_mem _ id _ Hnd), L. reflexivity. Qed.

Theorem sweep_lookup mi s id c :
  NoDup (map fst (ch_conns s)) -> lookup id (ch_conns s) = Some c ->
  lookup id (ch_conns (sweep mi s)) =
  Some (if k_tracked c && idle_candidate (ch_now s) mi c then close_if_ok c else c).
Proof.
  intros Hnd L. unfold sweep. cbn [ch_conns].
  rewrite sweep_fold_lookup, (sweep_candidates_mem mi s id c Hnd L), L. destruct (_ && _); reflexivity.
Qed.

(* what the statement of C19 asks of a connection at a sweep *)
Definition relay_idle (c : conn) : Prop := match k_relay c with None => True | Some n => n = 0 end.
Definition should_close (now mi : Z) (c : conn) : Prop :=
  k_tracked c = true /\ k_state c = c_connectionActive /\ k_inb c = 0 /\ k_outb c = 0 /\ relay_idle c /\
  now - Z.max (k_lr c) (k_lw c) >= mi.

Definition counts_ok (c : conn) : Prop :=
  0 <= k_inb c /\ 0 <= k_outb c /\ match k_relay c with None => True | Some n => 0 <= n end.

Lemma idle_candidate_ge now mi c : min_duration < mi <= max_duration ->
  idle_candidate now mi c = (now - Z.max (k_lr c) (k_lw c) >=? mi).
Proof.
  intros Hmi. unfold idle_candidate. rewrite time_sub_ge by exact Hmi. unfold last_activity.
  destruct (k_lr c <? k_lw c) eqn:E; lia.
Qed.

Lemma should_close_dec now mi c :
  min_duration < mi <= max_duration -> counts_ok c ->
  (k_tracked c && idle_candidate now mi c && is_active c && negb (has_pending_calls c) = true)
  <-> should_close now mi c.
Proof.
  intros Hmi (Hi & Ho & Hr). unfold should_close, is_active, has_pending_calls, relay_can_close, relay_idle.
  rewrite idle_candidate_ge by exact Hmi.
  destruct (k_relay c) as [n|]; destruct (k_tracked c);
    destruct (k_inb c >? 0) eqn:Ea; destruct (k_outb c >? 0) eqn:Eb; cbn [orb negb andb];
    try (destruct (n =? 0) eqn:En; cbn [negb andb]);
    (split; [intros H; try discriminate; repeat split; lia | intros (H1 & H2 & H3 & H4 & H5 & H6); try discriminate; lia]).
Qed.

Theorem sweep_iff mi s id c :
  NoDup (map fst (ch_conns s)) -> min_duration < mi <= max_duration ->
  lookup id (ch_conns s) = Some c -> counts_ok c ->
  exists c', lookup id (ch_conns (sweep mi s)) = Some c' /\
    ((is_active c = true /\ is_active c' = false) <-> should_close (ch_now s) mi c) /\
    (should_close (ch_now s) mi c -> c' = conn_close c) /\
    (~ should_close (ch_now s) mi c -> c' = c).
Proof.
  intros Hnd Hmi L Hok. rewrite (sweep_lookup mi s id c Hnd L). eexists. split; [reflexivity|].
  pose proof (should_close_dec (ch_now s) mi c Hmi Hok) as Hd. unfold close_if_ok.
  destruct (k_tracked c && idle_candidate (ch_now s) mi c); cbn [andb] in Hd;
    [destruct (is_active c) eqn:Ha; cbn [andb negb] in *; [destruct (has_pending_calls c); cbn [negb] in Hd|]|].
  2:{ (* the sweep closes it *)
      pose proof (proj1 Hd eq_refl) as Hsc. split; [|tauto].
      split; [tauto|]. intros _. split; [reflexivity|apply conn_close_not_active]. }
  all: assert (Hn : ~ should_close (ch_now s) mi c) by (intros H; apply Hd in H; discriminate);
    split; [|tauto]; split; [intros [H1 H2]; congruence|tauto].
Qed.

Definition conn_wf (c : conn) : Prop :=
  counts_ok c /\ k_tracked c = negb (k_state c =? c_connectionClosed).

Lemma wf_check c : conn_wf c -> conn_wf (check_exchanges c).
Proof.
  intros [Hc Ht]. unfold check_exchanges. split; [destruct (_ && _); exact Hc|].
  destruct (Z.eqb_spec (k_state c) c_connectionClosed) as [E1|E1].
  - rewrite andb_false_r. cbn [set_state k_tracked k_state]. rewrite Ht, ces_closed_stays by exact E1. reflexivity.
  - rewrite andb_true_r. destruct (_ =? _) eqn:E; cbn [set_tracked_h set_state k_tracked k_state];
      rewrite ?E, ?Ht; reflexivity.
Qed.

Lemma wf_set_counts a b p r c :
  conn_wf c -> 0 <= a -> 0 <= b -> match r with None => True | Some n => 0 <= n end ->
  conn_wf (set_counts a b p r c).
Proof. intros [Hc Ht] Ha Hb Hr. split; [|exact Ht]. unfold counts_ok. cbn. auto. Qed.

Lemma wf_closed : op_closed (fun c c' => conn_wf c -> conn_wf c').
Proof.
  split; try (intros; assumption).
  - auto.
  - exact wf_check.
  - intros c E [Hc Ht]. split; [exact Hc|]. cbn [set_state k_tracked k_state]. rewrite Ht, E. reflexivity.
Qed.

Lemma wf_pend w d c : conn_wf c -> conn_wf (pend w d c).
Proof.
  intros H. pose proof H as [(Hi & Ho & Hr) Ht]. unfold pend.
  destruct (w =? 0); [|destruct (w =? 1); [|destruct (k_relay c) as [n|] eqn:R; [|exact H]]];
    (destruct (d >? 0); [|destruct (_ <=? 0) eqn:E; [exact H|apply wf_check]]);
    apply wf_set_counts; auto; lia.
Qed.

Lemma wf_new now relay h : conn_wf (new_conn now relay h).
Proof. split; [|reflexivity]. unfold counts_ok. cbn. destruct relay; lia. Qed.

Lemma ev_on_wf cf s id e c : conn_wf c -> conn_wf (ev_on cf s id e c).
Proof.
  intros H. destruct e; cbn [ev_on]; try destruct (_ =? id); try destruct (_ && _); try exact H.
  - unfold update_read. destruct (isMessageTypeCall mt); exact H.
  - unfold update_write. destruct (isMessageTypeCall mt); exact H.
  - apply wf_pend, H.
  - apply (oc_close _ wf_closed), H.
  - apply (oc_close_if_ok _ wf_closed), H.
  - apply (oc_ping_start _ wf_closed), H.
  - apply (oc_ping_end _ wf_closed), H.
Qed.

Definition chan_wf (s : chan) : Prop :=
  NoDup (map fst (ch_conns s)) /\ forall id c, lookup id (ch_conns s) = Some c -> conn_wf c.

Lemma wf_step cf s e : chan_wf s -> chan_wf (step cf s e).
Proof.
  intros [Hnd Hall]. split; [apply step_keys, Hnd|]. intros id c. rewrite step_lookup.
  destruct (lookup id (ch_conns s)) as [c0|] eqn:L.
  - intros [= <-]. apply ev_on_wf, (Hall id c0 L).
  - destruct e; try discriminate. destruct (_ =? id); [intros [= <-]; apply wf_new|discriminate].
Qed.

Lemma wf_fold cf h : forall s, chan_wf s -> chan_wf (fold_left (step cf) h s).
Proof. induction h as [|e r IH]; intros s H; [exact H|]. cbn [fold_left]. apply IH, wf_step, H. Qed.

Lemma run_wf cf t0 h : chan_wf (run cf t0 h).
Proof. apply wf_fold. split; [constructor|]. intros id c L. discriminate. Qed.

Lemma now_fold cf h : forall s, ch_now (fold_left (step cf) h s) = clock (ch_now s) h.
Proof.
  induction h as [|e r IH]; intros s; [reflexivity|]. cbn [fold_left].
  rewrite IH, step_now. symmetry. apply (clock_app [e]).
Qed.

Lemma run_now cf t0 h : ch_now (run cf t0 h) = clock t0 h.
Proof. unfold run. now rewrite now_fold. Qed.

(* the sweep over histories *)
Lemma closed_between_in l l' id : NoDup (map fst l) ->
  In id (closed_between l l') <->
  exists c c', lookup id l = Some c /\ lookup id l' = Some c' /\ is_active c = true /\ is_active c' = false.
Proof.
  intros Hnd. unfold closed_between. rewrite <- mem_in, (filter_keys_mem _ id l Hnd).
  destruct (lookup id l) as [c|]; [|split; [discriminate|intros (c1 & c2 & E & _); discriminate]].
  cbn [fst snd]. destruct (lookup id l') as [c'|].
  - rewrite andb_true_iff, negb_true_iff. split; [intros [H1 H2]; eauto 6|].
    intros (c1 & c2 & [= <-] & [= <-] & H). exact H.
  - rewrite andb_false_r. split; [discriminate|intros (c1 & c2 & _ & E & _); discriminate].
Qed.

Lemma enabled_max_idle cf :
  sweep_enabled cf = true -> idleCheckOk (cf_idle_interval cf) (cf_max_idle cf) = true -> 0 < cf_max_idle cf.
Proof.
  unfold sweep_enabled, idleCheckOk. intros H1 H2.
  destruct (cf_idle_interval cf <=? 0) eqn:E; [discriminate|].
  destruct ((cf_idle_interval cf >? 0) && (cf_max_idle cf <=? 0)) eqn:E2; [discriminate|]. lia.
Qed.

Theorem sweep_history cf t0 h id :
  clock_ok t0 h -> sweep_enabled cf = true ->
  idleCheckOk (cf_idle_interval cf) (cf_max_idle cf) = true -> cf_max_idle cf <= max_duration ->
  let s := run cf t0 h in
  let s' := step cf s ETick in
  (In id (closed_between (ch_conns s) (ch_conns s')) <->
   exists c la, lookup id (ch_conns s) = Some c /\ k_state c = c_connectionActive /\
     k_inb c = 0 /\ k_outb c = 0 /\ relay_idle c /\
     last_call_activity id t0 None h = Some la /\ clock t0 h - la >= cf_max_idle cf) /\
  (forall c, lookup id (ch_conns s) = Some c -> ~ In id (closed_between (ch_conns s) (ch_conns s')) ->
     lookup id (ch_conns s') = Some c).
Proof.
  intros Hc Hen Hok Hmax s s'.
  pose proof (run_wf cf t0 h) as [Hnd Hall]. fold s in Hnd, Hall.
  pose proof (enabled_max_idle cf Hen Hok) as Hpos.
  assert (Hmi : min_duration < cf_max_idle cf <= max_duration).
  { split; [|exact Hmax]. unfold min_duration. lia. }
  assert (Es' : s' = sweep (cf_max_idle cf) s). { unfold s'. cbn [step]. now rewrite Hen. }
  pose proof (stamp_is_last_call_activity cf t0 h id Hc) as Hst. fold s in Hst.
  rewrite closed_between_in by exact Hnd.
  destruct (lookup id (ch_conns s)) as [c|] eqn:L.
  2:{ split; [|intros c Lc; discriminate].
      split; [intros (c & c' & E & _); discriminate|intros (c & la & E & _); discriminate]. }
  destruct (Hall id c L) as [Hcnt Htr].
  destruct (sweep_iff (cf_max_idle cf) s id c Hnd Hmi L Hcnt) as (c' & L' & Hiff & Hyes & Hno).
  rewrite <- Es' in L'.
  assert (Hnow : ch_now s = clock t0 h) by apply run_now.
  assert (Hsc : should_close (ch_now s) (cf_max_idle cf) c <->
                (k_state c = c_connectionActive /\ k_inb c = 0 /\ k_outb c = 0 /\ relay_idle c /\
                 clock t0 h - Z.max (k_lr c) (k_lw c) >= cf_max_idle cf)).
  { unfold should_close. rewrite Hnow, Htr. split.
    - intros (_ & H2 & H3 & H4 & H5 & H6). tauto.
    - intros (H2 & H3 & H4 & H5 & H6). rewrite H2. repeat split; auto. }
  split.
  - split.
    + intros (c1 & c2 & E1 & E2 & H1 & H2). injection E1 as <-. rewrite L' in E2. injection E2 as <-.
      assert (Hs : should_close (ch_now s) (cf_max_idle cf) c) by (apply Hiff; auto).
      apply Hsc in Hs. exists c, (Z.max (k_lr c) (k_lw c)). tauto.
    + intros (c1 & la & E1 & H2 & H3 & H4 & H5 & Hla & H6). injection E1 as <-.
      rewrite Hst in Hla. injection Hla as <-.
      assert (Hs : should_close (ch_now s) (cf_max_idle cf) c) by (apply Hsc; tauto).
      exists c, c'. apply Hiff in Hs. tauto.
  - intros c0 E0 Hnot. injection E0 as <-. rewrite L'. f_equal. apply Hno. intros Hs.
    apply Hnot. apply closed_between_in; [exact Hnd|]. exists c, c'. apply Hiff in Hs. tauto.
Qed.

Theorem sweep_disabled cf s : sweep_enabled cf = false -> step cf s ETick = s.
Proof. intros H. cbn [step]. now rewrite H. Qed.

(* a connection closed by the sweep goes all the way to Closed (and is untracked) unless a
   ping is in flight, in which case it waits in InboundClosed for that ping *)
Lemma swept_state c :
  k_state c = c_connectionActive -> k_inb c = 0 -> k_outb c = 0 -> relay_idle c -> k_stopped c = false ->
  k_state (conn_close c) = (if k_pings c =? 0 then c_connectionClosed else c_connectionInboundClosed).
Proof.
  intros Hs Hi Ho Hr Hst. unfold conn_close. rewrite Hs, Z.eqb_refl. unfold check_exchanges.
  assert (E : check_exchanges_state (set_state c_connectionStartClose c) =
              if k_pings c =? 0 then c_connectionClosed else c_connectionInboundClosed).
  { unfold check_exchanges_state, relay_can_close, inb_count, outb_count, relay_idle in *.
    cbn [set_state k_state k_stopped k_relay k_inb k_outb k_pings]. rewrite Hst, Hi, Ho.
    unfold c_connectionStartClose, c_connectionClosed, c_connectionInboundClosed.
    destruct (k_relay c) as [n|]; [subst n|]; cbn; destruct (k_pings c =? 0) eqn:Ep;
      repeat match goal with |- context [?a + ?b =? 0] => replace (a + b =? 0) with (b =? 0) by lia end;
      rewrite ?Ep; reflexivity. }
  rewrite E. destruct (_ && _); cbn [set_tracked_h set_state k_state]; reflexivity.
Qed.
