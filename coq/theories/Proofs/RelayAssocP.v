(* Association-list lemmas for the relay model (lookup / remove / insert of Model/RelayItems.v)
   and sums over them. *)
From Coq Require Import ZArith List Bool Lia.
From Verif Require Import Model.RelayItems.
Import ListNotations.
Local Open Scope Z_scope.

Section Assoc.
  Context {K V : Type} (eqb : K -> K -> bool).
  Hypothesis eqb_ok : forall a b, eqb a b = true <-> a = b.

  Lemma eqb_refl : forall a, eqb a a = true.
  Proof. intro a. apply eqb_ok. reflexivity. Qed.

  Lemma eqb_neq : forall a b, a <> b -> eqb a b = false.
  Proof.
    intros a b Hn. destruct (eqb a b) eqn:E; [|reflexivity].
    apply eqb_ok in E. contradiction.
  Qed.

  Lemma eqb_false : forall a b, eqb a b = false -> a <> b.
  Proof. intros a b E Heq. subst. rewrite eqb_refl in E. discriminate. Qed.

  Lemma eqb_dec : forall a b : K, {a = b} + {a <> b}.
  Proof.
    intros a b. destruct (eqb a b) eqn:E.
    - left. apply eqb_ok. exact E.
    - right. apply eqb_false. exact E.
  Qed.

  Lemma lookup_in : forall k (l : list (K * V)) v, lookup eqb k l = Some v -> In (k, v) l.
  Proof.
    intros k l. induction l as [|[k' v'] r IH]; intros v H; cbn in H; [discriminate|].
    destruct (eqb k k') eqn:E.
    - apply eqb_ok in E. subst. inversion H. subst. left. reflexivity.
    - right. apply IH. exact H.
  Qed.

  Lemma lookup_none_notin : forall k (l : list (K * V)), lookup eqb k l = None -> ~ In k (map fst l).
  Proof.
    intros k l. induction l as [|[k' v'] r IH]; intros H Hin; cbn in *; [exact Hin|].
    destruct (eqb k k') eqn:E; [discriminate|].
    destruct Hin as [Hin|Hin].
    - subst. rewrite eqb_refl in E. discriminate.
    - exact (IH H Hin).
  Qed.

  Lemma notin_lookup_none : forall k (l : list (K * V)), ~ In k (map fst l) -> lookup eqb k l = None.
  Proof.
    intros k l. induction l as [|[k' v'] r IH]; intros H; cbn in *; [reflexivity|].
    destruct (eqb k k') eqn:E.
    - apply eqb_ok in E. subst. exfalso. apply H. left. reflexivity.
    - apply IH. intro Hin. apply H. right. exact Hin.
  Qed.

  Lemma in_lookup : forall k v (l : list (K * V)), NoDup (map fst l) -> In (k, v) l -> lookup eqb k l = Some v.
  Proof.
    intros k v l. induction l as [|[k' v'] r IH]; intros Hnd Hin; cbn in *; [contradiction|].
    inversion Hnd as [|? ? Hnot Hnd']. subst.
    destruct Hin as [Hin|Hin].
    - inversion Hin. subst. rewrite eqb_refl. reflexivity.
    - destruct (eqb k k') eqn:E.
      + apply eqb_ok in E. subst. exfalso. apply Hnot. apply (in_map fst) in Hin. exact Hin.
      + apply IH; assumption.
  Qed.

  Lemma in_remove : forall k k' v (l : list (K * V)), In (k', v) (remove eqb k l) <-> In (k', v) l /\ k' <> k.
  Proof.
    intros k k' v l. induction l as [|[k2 v2] r IH]; cbn.
    - split; [contradiction|]. intros [H _]. exact H.
    - destruct (eqb k k2) eqn:E.
      + apply eqb_ok in E. subst k2. rewrite IH. split.
        * intros [H Hn]. split; [right; exact H|exact Hn].
        * intros [[H|H] Hn]; [inversion H; subst; contradiction|]. split; assumption.
      + cbn. rewrite IH. split.
        * intros [H|[H Hn]].
          -- inversion H. subst. split; [left; reflexivity|]. intro Heq. subst. rewrite eqb_refl in E. discriminate.
          -- split; [right; exact H|exact Hn].
        * intros [[H|H] Hn]; [left; exact H|right; split; assumption].
  Qed.

  Lemma in_keys_remove : forall k k' (l : list (K * V)), In k' (map fst (remove eqb k l)) <-> In k' (map fst l) /\ k' <> k.
  Proof.
    intros k k' l. split.
    - intro H. apply in_map_iff in H. destruct H as [[k2 v2] [Hf Hin]]. cbn in Hf. subst k2.
      apply in_remove in Hin. destruct Hin as [Hin Hn]. split; [|exact Hn].
      apply (in_map fst) in Hin. exact Hin.
    - intros [H Hn]. apply in_map_iff in H. destruct H as [[k2 v2] [Hf Hin]]. cbn in Hf. subst k2.
      apply in_map_iff. exists (k', v2). split; [reflexivity|]. apply in_remove. split; assumption.
  Qed.

  Lemma nodup_remove : forall k (l : list (K * V)), NoDup (map fst l) -> NoDup (map fst (remove eqb k l)).
  Proof.
    intros k l. induction l as [|[k2 v2] r IH]; intro Hnd; cbn in *; [constructor|].
    inversion Hnd as [|? ? Hnot Hnd']. subst.
    destruct (eqb k k2) eqn:E; [apply IH; exact Hnd'|].
    cbn. constructor; [|apply IH; exact Hnd'].
    intro Hin. apply in_keys_remove in Hin. destruct Hin as [Hin _]. contradiction.
  Qed.

  Lemma nodup_insert : forall k v (l : list (K * V)), NoDup (map fst l) -> NoDup (map fst (insert eqb k v l)).
  Proof.
    intros k v l Hnd. unfold insert. cbn. constructor.
    - intro Hin. apply in_keys_remove in Hin. destruct Hin as [_ Hn]. apply Hn. reflexivity.
    - apply nodup_remove. exact Hnd.
  Qed.

  Lemma lookup_remove_eq : forall k (l : list (K * V)), lookup eqb k (remove eqb k l) = None.
  Proof.
    intros k l. apply notin_lookup_none. intro Hin. apply in_keys_remove in Hin.
    destruct Hin as [_ Hn]. apply Hn. reflexivity.
  Qed.

  Lemma lookup_remove_neq : forall k k' (l : list (K * V)), k' <> k -> lookup eqb k' (remove eqb k l) = lookup eqb k' l.
  Proof.
    intros k k' l Hn. induction l as [|[k2 v2] r IH]; cbn; [reflexivity|].
    destruct (eqb k k2) eqn:E.
    - apply eqb_ok in E. subst k2. rewrite (eqb_neq _ _ Hn). exact IH.
    - cbn. destruct (eqb k' k2); [reflexivity|exact IH].
  Qed.

  Lemma lookup_insert_eq : forall k v (l : list (K * V)), lookup eqb k (insert eqb k v l) = Some v.
  Proof. intros k v l. unfold insert. cbn. rewrite eqb_refl. reflexivity. Qed.

  Lemma lookup_insert_neq : forall k k' v (l : list (K * V)), k' <> k -> lookup eqb k' (insert eqb k v l) = lookup eqb k' l.
  Proof.
    intros k k' v l Hn. unfold insert. cbn. rewrite (eqb_neq _ _ Hn). apply lookup_remove_neq. exact Hn.
  Qed.

  Lemma in_insert : forall k v k' v' (l : list (K * V)),
    In (k', v') (insert eqb k v l) <-> (k' = k /\ v' = v) \/ (In (k', v') l /\ k' <> k).
  Proof.
    intros k v k' v' l. unfold insert. cbn. rewrite in_remove. split.
    - intros [H|H]; [inversion H; left; split; reflexivity|right; exact H].
    - intros [[H1 H2]|H]; [subst; left; reflexivity|right; exact H].
  Qed.

  Lemma in_keys_insert : forall k v k' (l : list (K * V)),
    In k' (map fst (insert eqb k v l)) <-> k' = k \/ In k' (map fst l).
  Proof.
    intros k v k' l. unfold insert. cbn. rewrite in_keys_remove. split.
    - intros [H|[H _]]; [left; symmetry; exact H|right; exact H].
    - intros [H|H]; [left; symmetry; exact H|].
      destruct (eqb_dec k' k) as [Heq|Hn]; [left; symmetry; exact Heq|right; split; assumption].
  Qed.

  Fixpoint asum (g : K -> V -> Z) (l : list (K * V)) : Z :=
    match l with
    | [] => 0
    | (k, v) :: r => g k v + asum g r
    end.

  Lemma asum_remove_none : forall g k (l : list (K * V)), lookup eqb k l = None -> asum g (remove eqb k l) = asum g l.
  Proof.
    intros g k l. induction l as [|[k2 v2] r IH]; intro H; cbn in *; [reflexivity|].
    destruct (eqb k k2) eqn:E; [discriminate|]. cbn. rewrite IH; [reflexivity|exact H].
  Qed.

  Lemma asum_remove_some : forall g k v (l : list (K * V)), NoDup (map fst l) -> lookup eqb k l = Some v ->
    asum g (remove eqb k l) = asum g l - g k v.
  Proof.
    intros g k v l. induction l as [|[k2 v2] r IH]; intros Hnd H; cbn in *; [discriminate|].
    inversion Hnd as [|? ? Hnot Hnd']. subst.
    destruct (eqb k k2) eqn:E.
    - apply eqb_ok in E. subst k2. inversion H. subst v2.
      rewrite asum_remove_none; [lia|]. apply notin_lookup_none. exact Hnot.
    - cbn. rewrite IH by assumption. lia.
  Qed.

  Lemma asum_insert_none : forall g k v (l : list (K * V)), lookup eqb k l = None ->
    asum g (insert eqb k v l) = asum g l + g k v.
  Proof. intros g k v l H. unfold insert. cbn. rewrite asum_remove_none by exact H. lia. Qed.

  Lemma asum_insert_some : forall g k v v0 (l : list (K * V)), NoDup (map fst l) -> lookup eqb k l = Some v0 ->
    asum g (insert eqb k v l) = asum g l - g k v0 + g k v.
  Proof. intros g k v v0 l Hnd H. unfold insert. cbn. rewrite (asum_remove_some g k v0) by assumption. lia. Qed.

  Lemma asum_nonneg : forall g (l : list (K * V)), (forall k v, 0 <= g k v) -> 0 <= asum g l.
  Proof.
    intros g l Hg. induction l as [|[k v] r IH]; cbn; [lia|]. specialize (Hg k v). lia.
  Qed.

  Lemma asum_ge : forall g k v (l : list (K * V)), (forall k v, 0 <= g k v) -> In (k, v) l -> g k v <= asum g l.
  Proof.
    intros g k v l Hg. induction l as [|[k2 v2] r IH]; intro Hin; cbn in *; [contradiction|].
    pose proof (asum_nonneg g r Hg). pose proof (Hg k2 v2).
    destruct Hin as [Hin|Hin]; [inversion Hin; subst; lia|specialize (IH Hin); lia].
  Qed.

  Lemma asum_zero_all : forall g (l : list (K * V)), (forall k v, 0 <= g k v) -> asum g l = 0 ->
    forall k v, In (k, v) l -> g k v = 0.
  Proof. intros g l Hg Hs k v Hin. pose proof (asum_ge g k v l Hg Hin). pose proof (Hg k v). lia. Qed.

  Lemma asum_ext : forall g g' (l : list (K * V)), (forall k v, In (k, v) l -> g k v = g' k v) -> asum g l = asum g' l.
  Proof.
    intros g g' l. induction l as [|[k v] r IH]; intro H; cbn; [reflexivity|].
    rewrite (H k v) by (left; reflexivity). rewrite IH; [reflexivity|].
    intros k' v' Hin. apply H. right. exact Hin.
  Qed.
End Assoc.

Lemma key_eqb_ok : forall a b, key_eqb a b = true <-> a = b.
Proof.
  intros [[a1 a2] a3] [[b1 b2] b3]. unfold key_eqb. rewrite !andb_true_iff, !Z.eqb_eq. split.
  - intros [[H1 H2] H3]. subst. reflexivity.
  - intro H. inversion H. subst. repeat split; reflexivity.
Qed.

Lemma tid_eqb_ok : forall a b, tid_eqb a b = true <-> a = b.
Proof.
  intros [x|x] [y|y]; cbn; try rewrite Z.eqb_eq; split; intro H; try discriminate; try (inversion H; subst; reflexivity);
    subst; reflexivity.
Qed.

Lemma zeqb_ok : forall a b, Z.eqb a b = true <-> a = b.
Proof. exact Z.eqb_eq. Qed.

Fixpoint csum (f : instr -> Z) (code : list instr) : Z :=
  match code with [] => 0 | i :: r => f i + csum f r end.

Lemma csum_app : forall f a b, csum f (a ++ b) = csum f a + csum f b.
Proof. intros f a b. induction a as [|i r IH]; cbn; [reflexivity|]. rewrite IH. lia. Qed.

Lemma csum_nonneg : forall f code, (forall i, 0 <= f i) -> 0 <= csum f code.
Proof. intros f code Hf. induction code as [|i r IH]; cbn; [lia|]. specialize (Hf i). lia. Qed.

Lemma asum_zero : forall (K V : Type) (g : K -> V -> Z) (l : list (K * V)), (forall k v, In (k, v) l -> g k v = 0) -> asum g l = 0.
Proof.
  intros K V g l. induction l as [|[k v] r IH]; intro H; cbn; [reflexivity|].
  rewrite (H k v (or_introl eq_refl)), IH; [reflexivity|]. intros k' v' Hin. apply H. right. exact Hin.
Qed.

Lemma csum_zero : forall f l, (forall j, In j l -> f j = 0) -> csum f l = 0.
Proof.
  intros f l. induction l as [|a l IH]; intro H; cbn; [reflexivity|].
  rewrite (H a (or_introl eq_refl)), IH; [reflexivity|]. intros j Hj. apply H. right. exact Hj.
Qed.

Lemma csum_ge : forall f j code, (forall i, 0 <= f i) -> In j code -> f j <= csum f code.
Proof.
  intros f j code Hf. induction code as [|i r IH]; intro Hin; cbn in *; [contradiction|].
  pose proof (csum_nonneg f r Hf). pose proof (Hf i). destruct Hin as [->|Hin]; [lia|specialize (IH Hin); lia].
Qed.

Definition tsum (f : instr -> Z) (ths : list (tid * list instr)) : Z := asum (fun _ code => csum f code) ths.

(* relayItems.deleteTomb (the scheduled collection, model step LGc) and relayItems.Delete do the
   same whenever the collection meets a tombstone or nothing *)
Lemma items_delete_tomb_eq : forall st t,
  (forall it, lookup key_eqb t (items st) = Some it -> it_tomb it = true) ->
  items_delete_tomb st t = fst (items_delete st t).
Proof.
  intros st t H. unfold items_delete_tomb, items_delete.
  destruct (lookup key_eqb t (items st)) as [it|]; [|reflexivity].
  rewrite (H it eq_refl). reflexivity.
Qed.

(* ... and it leaves a live item (and everything else) alone *)
Lemma items_delete_tomb_live : forall st t it,
  lookup key_eqb t (items st) = Some it -> it_tomb it = false -> items_delete_tomb st t = st.
Proof. intros st t it H Ht. unfold items_delete_tomb. rewrite H, Ht. reflexivity. Qed.
