(* The read half of the typed-buffer model (Model/TypedBuf.v), as used both by the agreement proofs
   of the regenerated code and by the proofs about the relay's lazy parsers: a read that succeeded
   is firstn / skipn, reads leave bytes bytes, a k-byte integer is below 256^k. *)
From Coq Require Import ZArith List Bool Lia.
From Verif Require Import Base.Wrap Base.Bytes Model.TypedBuf Proofs.CodecsP.
Import ListNotations.
Local Open Scope Z_scope.

Lemma r_bytes_ok n r : rerr (snd (r_bytes n r)) = false ->
  rerr r = false /\ (n <= length (rrem r))%nat /\ rrem (snd (r_bytes n r)) = skipn n (rrem r) /\
  fst (r_bytes n r) = firstn n (rrem r).
Proof.
  unfold r_bytes. destruct (rerr r) eqn:E; cbn [snd]; [intros H; congruence|].
  destruct (length (rrem r) <? n)%nat eqn:L; cbn [fst snd rerr rrem]; [discriminate|].
  intros _. apply Nat.ltb_ge in L. auto.
Qed.

Lemma r_uint_snd n r : snd (r_uint n r) = snd (r_bytes n r).
Proof. unfold r_uint, bindR. destruct (r_bytes n r) as [b r']. reflexivity. Qed.

Lemma bok_r_bytes n r : bytes_ok (rrem r) = true -> bytes_ok (rrem (snd (r_bytes n r))) = true.
Proof.
  intros H. unfold r_bytes. destruct (rerr r); [exact H|]. destruct (length (rrem r) <? n)%nat; [exact H|].
  apply bytes_ok_skipn, H.
Qed.

Lemma bok_r_uint n r : bytes_ok (rrem r) = true -> bytes_ok (rrem (snd (r_uint n r))) = true.
Proof. rewrite r_uint_snd. apply bok_r_bytes. Qed.

(* a k-byte length followed by that many bytes: r_len8 (k = 1), r_len16 (k = 2) *)
Lemma bok_r_len k r : bytes_ok (rrem r) = true ->
  bytes_ok (rrem (snd ((n <- r_uint k ;; r_string n) r))) = true.
Proof.
  intros H. unfold bindR. pose proof (bok_r_uint k r H) as H1.
  destruct (r_uint k r) as [n r1]. apply bok_r_bytes, H1.
Qed.

Lemma unbe_firstn_range k l : bytes_ok l = true -> 0 <= unbe (firstn k l) < 256 ^ Z.of_nat k.
Proof.
  intros H. pose proof (unbe_range _ (bytes_ok_firstn k l H)) as U. pose proof (firstn_le_length k l) as L.
  assert (256 ^ Z.of_nat (length (firstn k l)) <= 256 ^ Z.of_nat k) by (apply Z.pow_le_mono_r; lia). lia.
Qed.

Lemma r_uint_range k r : bytes_ok (rrem r) = true -> 0 <= fst (r_uint k r) < 256 ^ Z.of_nat k.
Proof.
  intros H. unfold r_uint, bindR, r_bytes.
  assert (P : 0 < 256 ^ Z.of_nat k) by (apply Z.pow_pos_nonneg; lia).
  destruct (rerr r) eqn:E; [cbn [fst]; rewrite E; cbn [fst]; lia|].
  destruct (length (rrem r) <? k)%nat; cbn [fst rerr]; [lia|apply unbe_firstn_range, H].
Qed.
