(* Property C05 (b): the connect / handshake budget definitions against the generated code. *)
From Coq Require Import ZArith List Bool Lia.
From Verif Require Import Base.Wrap Gen.GenConsts Gen.GenBudget Model.CallPath Model.Budget.
Import ListNotations.
Local Open Scope Z_scope.

(* the hand-written handshake deadline IS the function go2v regenerates from setInitDeadline *)
Theorem init_deadline_generated : forall now od,
  init_deadline now od =
  setInitDeadline now (match od with Some _ => true | None => false end) (match od with Some d => d | None => 0 end).
Proof. intros now [d|]; reflexivity. Qed.

Theorem init_deadline_generated_none : forall now z, setInitDeadline now false z = init_deadline now None.
Proof. intros. reflexivity. Qed.

(* the hand-written connect budget is the context transformation of Channel.Connect on a context with a deadline *)
Theorem connect_ctx_deadline : forall now d ct, connect_ctx now (Some d) ct = Some (connect_deadline now d ct).
Proof. intros. unfold connect_ctx, connect_deadline. destruct (ct >? 0); reflexivity. Qed.

(* whatever the caller's context and connect timeout: the dialer's context ends no later than
   the caller's, and the handshake deadline is the dialer context's deadline; a context
   without deadline and without connect timeout gives the handshake 5 s *)
Theorem budget_bounds : forall now now' od ct,
  (forall d, od = Some d -> exists d', connect_ctx now od ct = Some d' /\ d' <= d /\ handshake_deadline now now' od ct = d') /\
  (0 < ct -> exists d', connect_ctx now od ct = Some d' /\ d' <= now + ct /\ handshake_deadline now now' od ct = d') /\
  (od = None -> ct <= 0 -> connect_ctx now od ct = None /\ handshake_deadline now now' od ct = now' + 5000000000).
Proof.
  intros now now' od ct. unfold handshake_deadline, connect_ctx. split; [|split].
  - intros d ->. destruct (ct >? 0); eexists; (split; [reflexivity|]); cbn [init_deadline]; split; try reflexivity; lia.
  - intros Hc. replace (ct >? 0) with true by lia. destruct od as [d|]; eexists; (split; [reflexivity|]); cbn [init_deadline]; split; try reflexivity; lia.
  - intros -> Hc. replace (ct >? 0) with false by lia. split; reflexivity.
Qed.

(* both budgets are monotone in the clock reading (the harness brackets the unobservable readings) *)
Theorem budget_monotone : forall a b od ct, a <= b ->
  (forall x y, connect_ctx a od ct = Some x -> connect_ctx b od ct = Some y -> x <= y) /\
  init_deadline a od <= init_deadline b od.
Proof.
  intros a b od ct Hab. split.
  - unfold connect_ctx. destruct (ct >? 0); destruct od as [d|]; intros x y H1 H2; inversion H1; inversion H2; lia.
  - destruct od; cbn [init_deadline]; lia.
Qed.
