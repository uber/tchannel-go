(* Invariants of the get-or-create model Model/PeerGoc.v, for every interleaving (label list):
   no private objects, every caller gets the stored object, list entries and reference counts
   refer to the stored object, list keys are unique (write-lock exclusion). *)
From Coq Require Import ZArith List Bool Lia.
From Verif Require Import Base.Wrap Base.GoMap Model.PeerBook Model.PeerGoc Proofs.PeerBookL.
Import ListNotations.
Local Open Scope Z_scope.

(* the (list, host:port) a goroutine holds the list write lock for *)
Definition g_holds (p : option gpc) : option (Z * Z) :=
  match p with
  | Some (GLAdd3 lid hp) | Some (GLAdd4 lid hp) | Some (GLAdd5 lid hp _) => Some (lid, hp)
  | _ => None
  end.

Definition gkey (e : Z * Z * Z) : Z * Z := fst e.
Definition gkeys_nodup (l : list (Z * Z * Z)) : Prop := NoDup (map gkey l).
Definition gents (q : Z) (l : list (Z * Z * Z)) : Z := Z.of_nat (length (filter (ent_pid q) l)).

Record ginv (s : gst) : Prop := mkGinv {
  gi_next : 0 < g_next s;
  gi_root : forall hp q, g_root s hp = Some q -> 0 < q < g_next s /\ g_hp s q = hp;
  gi_alloc : forall q, 0 < q < g_next s -> g_root s (g_hp s q) = Some q;
  gi_lists : forall lid hp q, In (lid, hp, q) (g_lists s) -> g_root s hp = Some q;
  gi_hold5 : forall t lid hp q, g_thr s t = Some (GLAdd5 lid hp q) -> g_root s hp = Some q;
  gi_ret : forall t hp c q, In (t, hp, c, q) (g_ret s) -> q <> 0 -> g_root s hp = Some q;
  gi_sc : forall q, g_sc s q = gents q (g_lists s);
  gi_lock : forall t lid hp, g_holds (g_thr s t) = Some (lid, hp) ->
            g_lk s lid = true /\ list_find (g_lists s) lid hp = None;
  gi_excl : forall t1 t2 lid hp1 hp2, g_holds (g_thr s t1) = Some (lid, hp1) ->
            g_holds (g_thr s t2) = Some (lid, hp2) -> t1 = t2;
  gi_nodup : gkeys_nodup (g_lists s)
}.

Lemma sc_entry_add sc l a b q :
  (forall x, sc x = gents x l) -> forall x, sc_add sc q 1 x = gents x ((a, b, q) :: l).
Proof.
  intros Hsc x. unfold sc_add, gents. cbn [filter]. change (ent_pid x (a, b, q)) with (q =? x).
  rewrite (Z.eqb_sym q x), Hsc. unfold gents. destruct (x =? q); cbn [length]; lia.
Qed.

Lemma sc_entry_del sc l lid hp q :
  (forall x, sc x = gents x l) -> list_find l lid hp = Some q ->
  forall x, sc_add sc q (-1) x = gents x (list_del l lid hp).
Proof.
  intros Hsc F x. unfold sc_add. rewrite Hsc. unfold gents.
  rewrite (list_del_count l lid hp q x F). destruct (x =? q); lia.
Qed.

(* the invariant field by field; a field the state change does not reach is the one of I *)
Ltac ginv_fields I :=
  constructor;
  cbn [g_done gset_thr gset_lk gset_lists gset_sc g_root g_lists g_lk g_sc g_hp g_next g_thr g_ret];
  try apply I.

(* ---- region 2 of RootPeerList.Add: keeps the invariant, returns the stored object, moves no
   goroutine, and leaves every older entry of the root map alone (no deletion in this model) ---- *)
Lemma gmap_set_mono (m : gmap) k v h x : m k = None -> m h = Some x -> gmap_set m k v h = Some x.
Proof.
  intros Hk Hh. unfold gmap_set. destruct (Z.eqb_spec h k) as [->|_]; [congruence|exact Hh].
Qed.

Lemma g_root_insert_spec s hp s1 q :
  ginv s -> g_root_insert s hp = (s1, q) ->
  ginv s1 /\ g_root s1 hp = Some q /\ g_thr s1 = g_thr s /\
  (forall h x, g_root s h = Some x -> g_root s1 h = Some x).
Proof.
  intros I. unfold g_root_insert. destruct (g_root s hp) as [q0|] eqn:E; intros [= <- <-]; [auto|].
  assert (Hm : forall h x, g_root s h = Some x -> gmap_set (g_root s) hp (g_next s) h = Some x)
    by (intros h x; apply gmap_set_mono, E).
  split; [|split; [exact (upd_same (g_root s) hp _)|split; [reflexivity|exact Hm]]].
  pose proof (gi_next s I) as Hn. ginv_fields I.
  - lia.
  - intros h x Hx. unfold gmap_set in Hx. destruct (Z.eqb_spec h hp) as [->|_].
    + injection Hx as <-. rewrite upd_same. lia.
    + apply (gi_root s I) in Hx as [Hr Hh]. rewrite upd_other by lia. lia.
  - (* the fresh object is stored under hp; the older ones stay where they were *)
    intros x Hx. destruct (Z.eq_dec x (g_next s)) as [->|Hne].
    + rewrite upd_same. exact (upd_same (g_root s) hp _).
    + rewrite upd_other by exact Hne. apply Hm, (gi_alloc s I). lia.
  - intros lid h x Hin. exact (Hm _ _ (gi_lists s I _ _ _ Hin)).
  - intros t lid h x Ht. exact (Hm _ _ (gi_hold5 s I _ _ _ _ Ht)).
  - intros t h c x Hin Hnz. exact (Hm _ _ (gi_ret s I _ _ _ _ Hin Hnz)).
Qed.

(* ---- goroutine t moves to p' (None: its call is over) ---- *)
Lemma g_holds_upd thr t p t' lid hp :
  g_holds (upd thr t p t') = Some (lid, hp) ->
  (t' = t /\ g_holds p = Some (lid, hp)) \/ (t' <> t /\ g_holds (thr t') = Some (lid, hp)).
Proof.
  destruct (upd_cases thr t p t') as [[-> E]|[Hne E]]; rewrite E; intros H; [left|right]; auto.
Qed.

(* a lock that p' claims must be justified: the lock bit is set, the key is absent from the list, and
   no other goroutine claims the same list; an object p' is about to store must be the root list's *)
Lemma ginv_thr s t p' :
  ginv s ->
  (forall lid hp q, p' = Some (GLAdd5 lid hp q) -> g_root s hp = Some q) ->
  (forall lid hp, g_holds p' = Some (lid, hp) ->
     g_lk s lid = true /\ list_find (g_lists s) lid hp = None /\
     forall t' hp', g_holds (g_thr s t') = Some (lid, hp') -> t' = t) ->
  ginv (gset_thr s t p').
Proof.
  intros I H5 Hp. ginv_fields I.
  - intros t' lid hp q H. destruct (upd_cases (g_thr s) t p' t') as [[_ E]|[_ E]]; rewrite E in H.
    + exact (H5 _ _ _ H).
    + exact (gi_hold5 s I _ _ _ _ H).
  - intros t' lid hp H. apply g_holds_upd in H as [[_ H]|[_ H]].
    + destruct (Hp _ _ H) as (L & F & _). exact (conj L F).
    + exact (gi_lock s I _ _ _ H).
  - intros t1 t2 lid hp1 hp2 H1 H2.
    apply g_holds_upd in H1 as [[-> H1]|[_ H1]]; apply g_holds_upd in H2 as [[-> H2]|[_ H2]].
    + reflexivity.
    + symmetry. destruct (Hp _ _ H1) as (_ & _ & Ho). exact (Ho _ _ H2).
    + destruct (Hp _ _ H2) as (_ & _ & Ho). exact (Ho _ _ H1).
    + exact (gi_excl s I _ _ _ _ _ H1 H2).
Qed.

Lemma ginv_move s t p' : ginv s -> g_holds p' = None -> ginv (gset_thr s t p').
Proof.
  intros I Hp. apply ginv_thr; [exact I| |].
  - intros lid hp q ->. discriminate Hp.
  - intros lid hp H. congruence.
Qed.

Lemma ginv_keep s t p :
  ginv s -> g_holds (Some p) = g_holds (g_thr s t) ->
  match p with GLAdd5 _ hp q => g_root s hp = Some q | _ => True end ->
  ginv (gset_thr s t (Some p)).
Proof.
  intros I Hk H5. apply ginv_thr; [exact I|intros lid hp q [= ->]; exact H5|].
  intros lid hp H. rewrite Hk in H. destruct (gi_lock s I _ _ _ H) as [L F].
  split; [exact L|]. split; [exact F|]. intros t' hp' H'. exact (gi_excl s I _ _ _ _ _ H' H).
Qed.

Lemma ginv_ret s t hp c q :
  ginv (gset_thr s t None) -> (q <> 0 -> g_root s hp = Some q) -> ginv (g_done s t hp c q).
Proof.
  intros I Hq. ginv_fields I.
  intros t' hp' c' q' Hin Hnz. apply in_app_or in Hin as [Hin|[[= <- <- <- <-]|[]]].
  - exact (gi_ret _ I _ _ _ _ Hin Hnz).
  - exact (Hq Hnz).
Qed.

Lemma ginv_done s t hp c q :
  ginv s -> (q <> 0 -> g_root s hp = Some q) -> ginv (g_done s t hp c q).
Proof. intros I Hq. apply ginv_ret; [now apply ginv_move|exact Hq]. Qed.

(* ---- the lock bit and the entries of list lid change while no goroutine claims its lock ---- *)
Definition g_free (s : gst) (lid : Z) : Prop := forall t hp, g_holds (g_thr s t) <> Some (lid, hp).

Lemma g_free_unlocked s lid : ginv s -> g_lk s lid = false -> g_free s lid.
Proof. intros I Lk t hp H. destruct (gi_lock s I _ _ _ H) as [L _]. congruence. Qed.

Lemma g_free_released s t lid hp :
  ginv s -> g_holds (g_thr s t) = Some (lid, hp) -> g_free (gset_thr s t None) lid.
Proof.
  intros I Hh t' hp' H. apply g_holds_upd in H as [[_ H]|[Hne H]]; [discriminate|].
  exact (Hne (gi_excl s I _ _ _ _ _ H Hh)).
Qed.

Lemma ginv_lk s lid b :
  ginv s -> (forall t hp, g_holds (g_thr s t) = Some (lid, hp) -> b = true) -> ginv (gset_lk s lid b).
Proof.
  intros I Hb. ginv_fields I.
  intros t lid' hp H. destruct (gi_lock s I _ _ _ H) as [L F]. split; [|exact F].
  destruct (upd_cases (g_lk s) lid b lid') as [[-> E]|[_ E]]; rewrite E; [exact (Hb _ _ H)|exact L].
Qed.

(* the tail of PeerList.Add: the reference is counted and the entry stored *)
Lemma ginv_entry_add s lid hp q :
  ginv s -> g_root s hp = Some q -> list_find (g_lists s) lid hp = None -> g_free s lid ->
  ginv (gset_lists (gset_sc s (sc_add (g_sc s) q 1)) ((lid, hp, q) :: g_lists s)).
Proof.
  intros I Hr Fn Hf. ginv_fields I.
  - intros lid' hp' q' [[= <- <- <-]|Hin]; [exact Hr|exact (gi_lists s I _ _ _ Hin)].
  - apply sc_entry_add, I.
  - (* the other lock holders hold other lists *)
    intros t lid' hp' H. destruct (gi_lock s I _ _ _ H) as [L F]. split; [exact L|].
    cbn [list_find]. destruct (Z.eqb_spec lid lid') as [<-|_]; [destruct (Hf _ _ H)|exact F].
  - unfold gkeys_nodup. cbn [map]. constructor; [exact (list_find_none_key _ _ _ Fn)|apply I].
Qed.

(* PeerList.Remove: the reference is dropped and the entry deleted *)
Lemma ginv_entry_del s lid hp q :
  ginv s -> list_find (g_lists s) lid hp = Some q -> g_free s lid ->
  ginv (gset_lists (gset_sc s (sc_add (g_sc s) q (-1))) (list_del (g_lists s) lid hp)).
Proof.
  intros I F Hf. ginv_fields I.
  - intros lid' hp' q' Hin. exact (gi_lists s I _ _ _ (list_del_in _ _ _ _ Hin)).
  - apply sc_entry_del; [apply I|exact F].
  - intros t lid' hp' H. destruct (gi_lock s I _ _ _ H) as [L F']. split; [exact L|].
    rewrite list_del_find_other; [exact F'|]. left. intros ->. exact (Hf _ _ H).
  - apply list_del_nodup, I.
Qed.

Lemma g_find_root s lid hp q : ginv s -> list_find (g_lists s) lid hp = Some q -> g_root s hp = Some q.
Proof. intros I F. exact (gi_lists s I _ _ _ (list_find_in _ _ _ _ F)). Qed.

Lemma ginv_init : ginv ginit.
Proof.
  constructor; cbn; try lia; try discriminate; try contradiction; auto.
  constructor.
Qed.

Lemma ginv_step_thread s t p s' :
  ginv s -> g_thr s t = Some p -> g_step_thread s t p = Some s' ->
  ginv s' /\ (forall h x, g_root s h = Some x -> g_root s' h = Some x).
Proof.
  intros I Ht H.
  assert (Hh : g_holds (Some p) = g_holds (g_thr s t)) by now rewrite Ht.
  destruct p as [hp|hp|hp|hp|lid hp|lid hp|lid hp|lid hp|lid hp q|lid hp]; cbn [g_step_thread] in H.
  - (* GRGet *)
    injection H as <-. destruct (g_root s hp) as [q|] eqn:E; (split; [now apply ginv_done|trivial]).
  - (* GRGoa *)
    injection H as <-. destruct (g_root s hp) as [q|] eqn:E; (split; [|trivial]).
    + now apply ginv_done.
    + now apply ginv_move.
  - (* GRAdd1 *)
    injection H as <-. destruct (g_root s hp) as [q|] eqn:E; (split; [|trivial]).
    + now apply ginv_done.
    + now apply ginv_move.
  - (* GRAdd2 *)
    destruct (g_root_insert s hp) as [s1 q] eqn:E. injection H as <-.
    destruct (g_root_insert_spec _ _ _ _ I E) as (I1 & Hq & _ & Hm).
    split; [now apply ginv_done|exact Hm].
  - (* GLAdd1 *)
    destruct (g_lk s lid) eqn:Lk; [discriminate|]. injection H as <-.
    destruct (list_find (g_lists s) lid hp) as [q|] eqn:E; (split; [|trivial]).
    + pose proof (g_find_root _ _ _ _ I E). now apply ginv_done.
    + now apply ginv_move.
  - (* GLAdd2 *)
    destruct (g_lk s lid) eqn:Lk; [discriminate|]. injection H as <-.
    destruct (list_find (g_lists s) lid hp) as [q|] eqn:E; (split; [|trivial]).
    + pose proof (g_find_root _ _ _ _ I E). now apply ginv_done.
    + (* takes the lock, which was free *)
      apply ginv_thr; [now apply ginv_lk|discriminate|].
      intros lid' hp' [= <- <-]. split; [apply upd_same|]. split; [exact E|].
      intros t' hp' H. destruct (g_free_unlocked s lid I Lk _ _ H).
  - (* GLAdd3 *)
    injection H as <-. destruct (g_root s hp) as [q|] eqn:E; (split; [now apply ginv_keep|trivial]).
  - (* GLAdd4 *)
    destruct (g_root_insert s hp) as [s1 q] eqn:E. injection H as <-.
    destruct (g_root_insert_spec _ _ _ _ I E) as (I1 & Hq & Et & Hm).
    split; [|exact Hm]. apply ginv_keep; [exact I1|now rewrite Et|exact Hq].
  - (* GLAdd5: the goroutine lets go of the list, whose lock is then free *)
    injection H as <-. split; [|trivial]. cbn [g_holds] in Hh. symmetry in Hh.
    pose proof (gi_hold5 s I _ _ _ _ Ht) as Hr.
    destruct (gi_lock s I _ _ _ Hh) as [_ Fn].
    pose proof (g_free_released s t lid hp I Hh) as Hf.
    apply ginv_ret; [|intros _; exact Hr].
    change (ginv (gset_lk (gset_lists (gset_sc (gset_thr s t None) (sc_add (g_sc s) q 1))
                                      ((lid, hp, q) :: g_lists s)) lid false)).
    apply ginv_lk; [|intros t' hp' H; destruct (Hf _ _ H)].
    apply (ginv_entry_add (gset_thr s t None)); [now apply ginv_move|exact Hr|exact Fn|exact Hf].
  - (* GLRem *)
    destruct (g_lk s lid) eqn:Lk; [discriminate|]. injection H as <-.
    destruct (list_find (g_lists s) lid hp) as [q|] eqn:E; (split; [|trivial]).
    + pose proof (g_find_root _ _ _ _ I E). apply ginv_done; [|trivial].
      apply ginv_entry_del; [exact I|exact E|exact (g_free_unlocked s lid I Lk)].
    + now apply ginv_done.
Qed.

Lemma ginv_step s l s' :
  ginv s -> gstep s l = Some s' ->
  ginv s' /\ (forall h x, g_root s h = Some x -> g_root s' h = Some x).
Proof.
  intros I H. destruct l as [t p|t]; cbn [gstep] in H.
  - destruct (g_entry p) as [hp|] eqn:E; [|discriminate].
    destruct (g_thr s t); [discriminate|]. destruct (hp =? 0); [discriminate|]. injection H as <-.
    split; [|trivial]. apply ginv_move; [exact I|]. destruct p; try discriminate E; reflexivity.
  - destruct (g_thr s t) as [p|] eqn:Et; [|discriminate].
    exact (ginv_step_thread _ _ _ _ I Et H).
Qed.

Lemma ginv_run ls : forall s s',
  ginv s -> grun s ls = Some s' ->
  ginv s' /\ (forall h x, g_root s h = Some x -> g_root s' h = Some x).
Proof.
  induction ls as [|l r IH]; cbn [grun]; intros s s' I H.
  - injection H as <-. auto.
  - destruct (gstep s l) as [s1|] eqn:E; [|discriminate].
    destruct (ginv_step _ _ _ I E) as [I1 M1]. destruct (IH _ _ I1 H) as [I2 M2]. auto.
Qed.

Theorem ginv_all ls s : grun ginit ls = Some s -> ginv s.
Proof. apply ginv_run, ginv_init. Qed.

(* every caller that asked for hp and got an object got THE SAME object, the one stored in the root map *)
Theorem goc_same_object ls s :
  grun ginit ls = Some s ->
  forall t1 t2 hp c1 c2 q1 q2,
    In (t1, hp, c1, q1) (g_ret s) -> In (t2, hp, c2, q2) (g_ret s) -> q1 <> 0 -> q2 <> 0 ->
    q1 = q2 /\ g_root s hp = Some q1.
Proof.
  intros H t1 t2 hp c1 c2 q1 q2 H1 H2 N1 N2. pose proof (ginv_all ls s H) as I.
  pose proof (gi_ret s I _ _ _ _ H1 N1) as R1. pose proof (gi_ret s I _ _ _ _ H2 N2) as R2.
  split; [congruence|exact R1].
Qed.

(* no private objects: every Peer object ever created is the one registered under its host:port *)
Theorem goc_no_private_object ls s :
  grun ginit ls = Some s ->
  forall q, 0 < q < g_next s -> g_root s (g_hp s q) = Some q.
Proof. intros H. apply (gi_alloc s (ginv_all ls s H)). Qed.

(* and the root map is injective: one object per host:port, one host:port per object *)
Theorem goc_root_injective ls s :
  grun ginit ls = Some s ->
  forall hp1 hp2 q, g_root s hp1 = Some q -> g_root s hp2 = Some q -> hp1 = hp2.
Proof.
  intros H hp1 hp2 q H1 H2. pose proof (ginv_all ls s H) as I.
  apply (gi_root s I) in H1, H2. destruct H1 as [_ H1], H2 as [_ H2]. congruence.
Qed.

(* every peer-list entry, and every object a PeerList.Add is about to count a reference on, is the
   root list's object for that host:port *)
Theorem goc_lists_share_root ls s :
  grun ginit ls = Some s ->
  (forall lid hp q, list_find (g_lists s) lid hp = Some q -> g_root s hp = Some q) /\
  (forall t lid hp q, g_thr s t = Some (GLAdd5 lid hp q) -> g_root s hp = Some q).
Proof.
  intros H. pose proof (ginv_all ls s H) as I. split.
  - intros lid hp q. apply g_find_root, I.
  - apply (gi_hold5 s I).
Qed.

(* reference counts: scCount of every object = the number of peer-list entries holding it, and the
   entries have distinct (list, host:port) keys *)
Theorem goc_refcount ls s :
  grun ginit ls = Some s ->
  (forall q, g_sc s q = gents q (g_lists s)) /\ gkeys_nodup (g_lists s).
Proof. intros H. pose proof (ginv_all ls s H) as I. split; apply I. Qed.

(* once stored, an entry of the root map never changes (no deletion in this model) *)
Theorem goc_root_stable ls : forall s s', ginv s -> grun s ls = Some s' ->
  forall hp q, g_root s hp = Some q -> g_root s' hp = Some q.
Proof. intros s s' I H. apply (ginv_run ls s s' I H). Qed.

(* ---- non-vacuity: three goroutines race a first-time Add of host:port 7 (channel list 0,
   isolated list 1, RootPeers().Add), all three miss under the read lock before any takes the
   write lock; the last one to take it wins nothing: all get object 1 ---- *)
Definition goc_ex_race : list glabel :=
  [GCall 1 (GLAdd1 0 7); GCall 2 (GLAdd1 1 7); GCall 3 (GRAdd1 7);
   GStep 1; GStep 1; GStep 1;      (* list 0: exists miss, lock + re-check miss, root lookup miss *)
   GStep 2; GStep 2; GStep 2;      (* list 1: the same *)
   GStep 3;                        (* root Add: lookup miss *)
   GStep 2;                        (* list 1's goroutine takes the root write lock first: creates object 1 *)
   GStep 3;                        (* re-check hits *)
   GStep 1;                        (* re-check hits *)
   GStep 1; GStep 2].              (* both lists count their reference and store the entry *)

Lemma goc_example_race :
  exists s, grun ginit goc_ex_race = Some s /\
    g_ret s = [(3, 7, 1, 1); (1, 7, 1, 1); (2, 7, 1, 1)] /\
    g_root s 7 = Some 1 /\ g_sc s 1 = 2 /\ g_next s = 2 /\
    g_lists s = [(1, 7, 1); (0, 7, 1)].
Proof. eexists. split; [vm_compute; reflexivity|]. vm_compute. repeat split. Qed.

(* ---- what the double check buys: the variant whose region 2 returns its own new object whether
   or not it stored it (insert-if-absent, return the fresh one) breaks the statement ---- *)
Definition g_root_insert_private (s : gst) (hp : Z) : gst * Z :=
  let q := g_next s in
  match g_root s hp with
  | Some _ => (mkG (g_root s) (g_lists s) (g_lk s) (g_sc s) (upd (g_hp s) q hp) (q + 1) (g_thr s) (g_ret s), q)
  | None => (mkG (gmap_set (g_root s) hp q) (g_lists s) (g_lk s) (g_sc s) (upd (g_hp s) q hp) (q + 1)
                 (g_thr s) (g_ret s), q)
  end.

Lemma goc_private_variant_refuted :
  exists s0 s1 s2 q1 q2,
    (* two RootPeerList.Add(7), both past the read-locked miss *)
    s0 = gset_thr (gset_thr ginit 1 (Some (GRAdd2 7))) 2 (Some (GRAdd2 7)) /\
    g_root_insert_private s0 7 = (s1, q1) /\ g_root_insert_private s1 7 = (s2, q2) /\
    q1 <> q2 /\ g_root s2 7 = Some q1 /\ g_root s2 (g_hp s2 q2) <> Some q2.
Proof.
  do 5 eexists. split; [reflexivity|]. split; [vm_compute; reflexivity|]. split; [vm_compute; reflexivity|].
  vm_compute. repeat split; congruence.
Qed.
