(* POOL DISCIPLINE => EXCLUSIVE OWNERSHIP (property C04), and the correctness of the trace
   checker Model/PoolTrace.v against Spec/PoolTraceSpec.v.

     pool_discipline_exclusive   a disciplined trace (the pool hands out what it contains or a new
                                 object; every Put is matched by an open Get of that object by
                                 that holder) is exclusive after every prefix: no object is held
                                 twice, none is in the pool twice, none of the pool is held
     pool_discipline_no_sharing  ... so two holdings of one object are one holding
     double_put_shares           necessity of the users' half: after one unmatched Put the pool
                                 may, within its rights, hand the object to two holders
     pt_ok_iff_disciplined       the checker accepts exactly the disciplined traces
     pt_run_spec                 ... and otherwise its (index, offence) names the first event that
                                 breaks the discipline, and says how
     run_pooltrace_accepts       an accepted harness trace is disciplined and exclusive after
                                 every prefix *)
From Coq Require Import ZArith List Bool Lia Permutation.
From Verif Require Import Base.Wrap Base.Wire Spec.PoolTraceSpec Model.PoolTrace.
Import ListNotations.
Local Open Scope Z_scope.

Lemma pw_pair_eqb_eq : forall a b, pw_pair_eqb a b = true <-> a = b.
Proof.
  intros [a1 a2] [b1 b2]. unfold pw_pair_eqb. cbn [fst snd]. rewrite andb_true_iff, !Z.eqb_eq.
  split; [intros [-> ->]; reflexivity | intros H; inversion H; auto].
Qed.

Lemma pt_memz_in : forall x l, pt_memz x l = true <-> In x l.
Proof.
  intros x l. induction l as [|y r IH]; cbn [pt_memz In].
  - split; [discriminate | tauto].
  - rewrite orb_true_iff, Z.eqb_eq, IH. tauto.
Qed.

Lemma pt_memp_in : forall x l, pt_memp x l = true <-> In x l.
Proof.
  intros x l. induction l as [|y r IH]; cbn [pt_memp In].
  - split; [discriminate | tauto].
  - rewrite orb_true_iff, pw_pair_eqb_eq, IH. tauto.
Qed.

Lemma pw_rm1_perm : forall x l, In x l -> Permutation l (x :: pw_rm1 x l).
Proof.
  intros x l. induction l as [|y r IH]; cbn [pw_rm1 In]; [tauto|].
  intros Hin. destruct (Z.eqb_spec y x) as [->|Hne].
  - apply Permutation_refl.
  - destruct Hin as [Hyx|Hin]; [congruence|].
    eapply Permutation_trans; [apply perm_skip, (IH Hin)|apply perm_swap].
Qed.

Lemma pw_rm1_notin : forall x l, ~ In x l -> pw_rm1 x l = l.
Proof.
  intros x l. induction l as [|y r IH]; cbn [pw_rm1 In]; [reflexivity|].
  intros Hn. destruct (Z.eqb_spec y x) as [->|Hne]; [tauto|]. rewrite IH; tauto.
Qed.

Lemma pw_rm1p_perm : forall x l, In x l -> Permutation l (x :: pw_rm1p x l).
Proof.
  intros x l. induction l as [|y r IH]; cbn [pw_rm1p In]; [tauto|].
  intros Hin. destruct (pw_pair_eqb y x) eqn:E.
  - apply pw_pair_eqb_eq in E. subst y. apply Permutation_refl.
  - destruct Hin as [Hyx|Hin].
    + subst y. assert (pw_pair_eqb x x = true) by (apply pw_pair_eqb_eq; reflexivity). congruence.
    + eapply Permutation_trans; [apply perm_skip, (IH Hin)|apply perm_swap].
Qed.

Lemma nodup_fst_unique : forall (l : list (Z * Z)) o h1 h2,
  NoDup (map fst l) -> In (o, h1) l -> In (o, h2) l -> h1 = h2.
Proof.
  intros l o h1 h2. induction l as [|[a b] r IH]; cbn [map fst In]; [tauto|].
  intros Hnd H1 H2. inversion Hnd as [|? ? Hnot Hnd']; subst.
  destruct H1 as [H1|H1]; destruct H2 as [H2|H2].
  - congruence.
  - inversion H1; subst. exfalso. apply Hnot. apply (in_map fst) in H2. exact H2.
  - inversion H2; subst. exfalso. apply Hnot. apply (in_map fst) in H1. exact H1.
  - apply IH; assumption.
Qed.

Lemma nodup_app_r : forall (l1 l2 : list Z), NoDup (l1 ++ l2) -> NoDup l2.
Proof.
  induction l1 as [|x r IH]; intros l2 H; cbn [app] in H; [exact H|].
  inversion H; subst. apply IH. assumption.
Qed.

Lemma nodup_app_l : forall (l1 l2 : list Z), NoDup (l1 ++ l2) -> NoDup l1.
Proof.
  induction l1 as [|x r IH]; intros l2 H; cbn [app] in H; [constructor|].
  inversion H as [|? ? Hnot Hnd]; subst. constructor.
  - intros Hc. apply Hnot, in_or_app. left. exact Hc.
  - apply (IH l2 Hnd).
Qed.

Lemma nodup_app_disj : forall (l1 l2 : list Z) x, NoDup (l1 ++ l2) -> In x l1 -> In x l2 -> False.
Proof.
  induction l1 as [|y r IH]; intros l2 x H H1 H2; [destruct H1|].
  cbn [app] in H. inversion H as [|? ? Hnot Hnd]; subst. destruct H1 as [->|H1].
  - apply Hnot, in_or_app. right. exact H2.
  - apply (IH l2 x Hnd H1 H2).
Qed.

Definition pobjs (w : pworld) : list Z := pw_bag w ++ map fst (pw_held w).

Definition pinv (w : pworld) : Prop :=
  NoDup (pobjs w) /\ (forall o, In o (pobjs w) -> In o (pw_seen w)).

Lemma pinv_init : pinv pw_init.
Proof. split; [constructor | intros o []]. Qed.

Lemma pinv_step : forall w e, pinv w -> ev_ok w e -> pinv (pw_step w e).
Proof.
  intros w e [Hnd Hseen] Hok. destruct e as [o h|o h]; cbn [ev_ok] in Hok; unfold pinv, pobjs in *;
    cbn [pw_step pw_bag pw_held pw_seen map fst].
  - (* Get *)
    destruct Hok as [Hin|Hnew].
    + (* from the bag: the objects are permuted *)
      assert (HP : Permutation (pw_bag w ++ map fst (pw_held w))
                               (pw_rm1 o (pw_bag w) ++ o :: map fst (pw_held w))).
      { eapply Permutation_trans; [apply Permutation_app_tail, (pw_rm1_perm o _ Hin)|].
        cbn [app]. apply Permutation_middle. }
      split.
      * eapply Permutation_NoDup; [exact HP|exact Hnd].
      * intros x Hx. apply (Permutation_in _ (Permutation_sym HP)) in Hx.
        right. apply Hseen. exact Hx.
    + (* a new object *)
      assert (Hnotin : ~ In o (pw_bag w ++ map fst (pw_held w))) by (intro Hc; apply Hnew, Hseen, Hc).
      rewrite pw_rm1_notin by (intro Hc; apply Hnotin, in_or_app; left; exact Hc).
      split.
      * apply NoDup_Add with (a := o) (l := pw_bag w ++ map fst (pw_held w)).
        -- apply Add_app.
        -- split; assumption.
      * intros x Hx. apply in_app_or in Hx. destruct Hx as [Hx|[Hx|Hx]].
        -- right. apply Hseen, in_or_app. left. exact Hx.
        -- left. exact Hx.
        -- right. apply Hseen, in_or_app. right. exact Hx.
  - (* Put *)
    unfold put_matched in Hok.
    assert (HP : Permutation (pw_bag w ++ map fst (pw_held w))
                             ((o :: pw_bag w) ++ map fst (pw_rm1p (o, h) (pw_held w)))).
    { cbn [app]. eapply Permutation_trans.
      - apply Permutation_app_head. apply Permutation_map. apply (pw_rm1p_perm (o, h) _ Hok).
      - cbn [map fst]. apply Permutation_sym, Permutation_middle. }
    split.
    + eapply Permutation_NoDup; [exact HP|exact Hnd].
    + intros x Hx. apply (Permutation_in _ (Permutation_sym HP)) in Hx. apply Hseen. exact Hx.
Qed.

Fixpoint disc_from (w : pworld) (es : list pev) : Prop :=
  match es with
  | [] => True
  | e :: r => ev_ok w e /\ disc_from (pw_step w e) r
  end.

Lemma disc_from_iff : forall es w,
  disc_from w es <-> (forall pre e post, es = pre ++ e :: post -> ev_ok (pw_run w pre) e).
Proof.
  induction es as [|e r IH]; intros w; cbn [disc_from].
  - split; [intros _ pre e post H; destruct pre; discriminate | tauto].
  - rewrite IH. split.
    + intros [Hok Hr] pre e' post Heq. destruct pre as [|p pre]; cbn [app] in Heq.
      * inversion Heq; subst. exact Hok.
      * inversion Heq; subst. cbn [pw_run fold_left]. apply (Hr pre e' post). reflexivity.
    + intros H. split.
      * apply (H [] e r). reflexivity.
      * intros pre e' post Heq. apply (H (e :: pre) e' post). cbn [app]. rewrite Heq. reflexivity.
Qed.

Lemma disciplined_iff : forall es, disciplined es <-> disc_from pw_init es.
Proof. intros es. unfold disciplined. symmetry. apply disc_from_iff. Qed.

Lemma disc_from_app : forall pre post w, disc_from w (pre ++ post) -> disc_from w pre /\ disc_from (pw_run w pre) post.
Proof.
  induction pre as [|e r IH]; intros post w; cbn [app disc_from pw_run fold_left].
  - tauto.
  - intros [Hok Hr]. destruct (IH post _ Hr) as [H1 H2]. tauto.
Qed.

Lemma disciplined_prefix : forall pre post, disciplined (pre ++ post) -> disciplined pre.
Proof. intros pre post. rewrite !disciplined_iff. intros H. apply (disc_from_app pre post _ H). Qed.

Lemma pinv_run : forall es w, pinv w -> disc_from w es -> pinv (pw_run w es).
Proof.
  induction es as [|e r IH]; intros w Hinv; cbn [disc_from pw_run fold_left]; [tauto|].
  intros [Hok Hr]. apply IH; [apply pinv_step; assumption|exact Hr].
Qed.

Theorem pool_discipline_exclusive : forall es, disciplined es ->
  forall pre post, es = pre ++ post -> exclusive (pw_run pw_init pre).
Proof.
  intros es Hd pre post ->. apply disciplined_prefix in Hd. apply disciplined_iff in Hd.
  apply (pinv_run pre pw_init pinv_init Hd).
Qed.

Lemma exclusive_no_sharing : forall w, exclusive w -> no_sharing w.
Proof.
  intros w Hex o h1 h2 H1 H2. unfold exclusive in Hex. apply nodup_app_r in Hex.
  eapply nodup_fst_unique; eassumption.
Qed.

Theorem pool_discipline_no_sharing : forall es, disciplined es ->
  forall pre post, es = pre ++ post -> no_sharing (pw_run pw_init pre).
Proof. intros es Hd pre post Heq. apply exclusive_no_sharing. eapply pool_discipline_exclusive; eassumption. Qed.

(* every object the pool could hand out next is in the pool exactly once and held by nobody *)
Theorem pool_discipline_bag : forall es, disciplined es ->
  forall pre post, es = pre ++ post ->
  NoDup (pw_bag (pw_run pw_init pre)) /\
  forall o h, In o (pw_bag (pw_run pw_init pre)) -> ~ In (o, h) (pw_held (pw_run pw_init pre)).
Proof.
  intros es Hd pre post Heq. pose proof (pool_discipline_exclusive es Hd pre post Heq) as Hex.
  unfold exclusive in Hex. split.
  - apply nodup_app_l in Hex. exact Hex.
  - intros o h Hb Hh. apply (in_map fst) in Hh. cbn [fst] in Hh.
    apply (nodup_app_disj _ _ o Hex Hb Hh).
Qed.

(* NECESSITY of the users' half.  One Get, its Put, and the same Put once more: the pool now
   contains the object twice, and handing it to two different holders is within the pool's
   rights -- every Get of the trace is legal -- yet the two holders share the object. *)
Fixpoint legal_from (w : pworld) (es : list pev) : Prop :=
  match es with
  | [] => True
  | e :: r => match e with PGet o _ => get_legal w o | PPut _ _ => True end /\ legal_from (pw_step w e) r
  end.

Lemma legal_from_pool_legal : forall es w, legal_from w es ->
  forall pre o h post, es = pre ++ PGet o h :: post -> get_legal (pw_run w pre) o.
Proof.
  induction es as [|e r IH]; intros w Hl pre o h post Heq.
  - destruct pre; discriminate.
  - cbn [legal_from] in Hl. destruct Hl as [He Hr]. destruct pre as [|p pre]; cbn [app] in Heq.
    + inversion Heq; subst. exact He.
    + inversion Heq; subst. cbn [pw_run fold_left]. apply (IH _ Hr pre o h post). reflexivity.
Qed.

Lemma double_put_world : forall o h h1 h2,
  pw_run pw_init [PGet o h; PPut o h; PPut o h; PGet o h1; PGet o h2] =
  mkPw [] [(o, h2); (o, h1)] [o; o; o].
Proof.
  intros o h h1 h2.
  assert (Hpp : pw_pair_eqb (o, h) (o, h) = true) by (apply pw_pair_eqb_eq; reflexivity).
  cbn [pw_run fold_left pw_step pw_init pw_bag pw_held pw_seen pw_rm1 pw_rm1p].
  rewrite Hpp. cbn [pw_rm1p pw_rm1]. rewrite Z.eqb_refl. cbn [pw_rm1]. rewrite Z.eqb_refl. reflexivity.
Qed.

Theorem double_put_shares : forall o h h1 h2, h1 <> h2 ->
  let es := [PGet o h; PPut o h; PPut o h; PGet o h1; PGet o h2] in
  pool_legal es /\
  ~ disciplined es /\
  In (o, h1) (pw_held (pw_run pw_init es)) /\ In (o, h2) (pw_held (pw_run pw_init es)) /\
  ~ no_sharing (pw_run pw_init es).
Proof.
  intros o h h1 h2 Hne es. subst es.
  assert (Hpp : pw_pair_eqb (o, h) (o, h) = true) by (apply pw_pair_eqb_eq; reflexivity).
  rewrite double_put_world. cbn [pw_held].
  split; [|split; [|split; [|split]]].
  - unfold pool_legal. apply legal_from_pool_legal.
    cbn [legal_from pw_step pw_init pw_bag pw_held pw_seen pw_rm1 pw_rm1p]. rewrite Hpp.
    cbn [pw_rm1p pw_rm1]. rewrite Z.eqb_refl. unfold get_legal. cbn [pw_bag pw_seen In]. tauto.
  - intros Hd. specialize (Hd [PGet o h; PPut o h] (PPut o h) [PGet o h1; PGet o h2] eq_refl).
    cbn [pw_run fold_left pw_step pw_init pw_bag pw_held pw_seen pw_rm1p ev_ok put_matched] in Hd.
    rewrite Hpp in Hd. destruct Hd.
  - cbn [In]. auto.
  - cbn [In]. auto.
  - intros Hns. apply Hne. apply (Hns o h1 h2); cbn [pw_held In]; auto.
Qed.

(* ------------------------------------------------------------------ the checker *)

Definition offence_means (w : pworld) (e : pev) (c : Z) : Prop :=
  match e with
  | PGet o h =>
      (c = 3 /\ exists h', In (o, h') (pw_held w)) \/
      (c = 4 /\ ~ In o (pw_bag w) /\ In o (pw_seen w) /\ forall h', ~ In (o, h') (pw_held w))
  | PPut o h =>
      (c = 1 /\ forall h', ~ In (o, h') (pw_held w)) \/
      (c = 2 /\ ~ In (o, h) (pw_held w) /\ exists h', In (o, h') (pw_held w))
  end.

Lemma in_map_fst_iff : forall (l : list (Z * Z)) o, In o (map fst l) <-> exists h, In (o, h) l.
Proof.
  intros l o. rewrite in_map_iff. split.
  - intros [[a b] [Hf Hin]]. cbn [fst] in Hf. subst a. exists b. exact Hin.
  - intros [h Hin]. exists (o, h). split; [reflexivity|exact Hin].
Qed.

Lemma pt_step_spec : forall w e, pinv w ->
  match pt_step w e with
  | inl w' => ev_ok w e /\ w' = pw_step w e
  | inr c => offence_means w e c /\ ~ ev_ok w e
  end.
Proof.
  intros w e [Hnd Hseen]. destruct e as [o h|o h]; cbn [pt_step offence_means ev_ok]; unfold get_legal.
  - destruct (pt_memz o (map fst (pw_held w))) eqn:Eh.
    { apply pt_memz_in in Eh. split; [left; split; [reflexivity|apply in_map_fst_iff, Eh]|].
      intros [Hb|Hn]; [exact (nodup_app_disj _ _ o Hnd Hb Eh)|].
      apply Hn, Hseen, in_or_app. right. exact Eh. }
    assert (Hnh : forall h', ~ In (o, h') (pw_held w)).
    { intros h' Hc. assert (Hm : In o (map fst (pw_held w))) by (apply in_map_fst_iff; eauto).
      apply pt_memz_in in Hm. congruence. }
    destruct (pt_memz o (pw_bag w)) eqn:Eb; [split; [left; apply pt_memz_in, Eb|reflexivity]|].
    assert (Hnb : ~ In o (pw_bag w)) by (intro Hc; apply pt_memz_in in Hc; congruence).
    destruct (pt_memz o (pw_seen w)) eqn:Es.
    + apply pt_memz_in in Es. split; [right; auto|tauto].
    + split; [right; intros Hc; apply pt_memz_in in Hc; congruence|reflexivity].
  - unfold put_matched. destruct (pt_memp (o, h) (pw_held w)) eqn:Ep; [split; [apply pt_memp_in, Ep|reflexivity]|].
    assert (Hnp : ~ In (o, h) (pw_held w)) by (intro Hc; apply pt_memp_in in Hc; congruence).
    destruct (pt_memz o (map fst (pw_held w))) eqn:Eh; (split; [|exact Hnp]).
    + apply pt_memz_in, in_map_fst_iff in Eh. right; auto.
    + left. split; [reflexivity|]. intros h' Hc. assert (Hm : In o (map fst (pw_held w))) by (apply in_map_fst_iff; eauto).
      apply pt_memz_in in Hm. congruence.
Qed.

Lemma pt_run_spec : forall es w i, pinv w ->
  match pt_run w i es with
  | inl w' => disc_from w es /\ w' = pw_run w es
  | inr (j, c) => exists pre e post, es = pre ++ e :: post /\ j = i + zlen pre /\ disc_from w pre /\
      offence_means (pw_run w pre) e c /\ ~ ev_ok (pw_run w pre) e
  end.
Proof.
  induction es as [|e r IH]; intros w i Hinv; cbn [pt_run disc_from pw_run fold_left]; [auto|].
  pose proof (pt_step_spec w e Hinv) as Hs. destruct (pt_step w e) as [w1|c1].
  - destruct Hs as [Hok ->]. specialize (IH (pw_step w e) (i + 1) (pinv_step w e Hinv Hok)).
    destruct (pt_run (pw_step w e) (i + 1) r) as [w'|[j c]]; [tauto|].
    destruct IH as (pre & e' & post & -> & -> & Hd & Hm).
    exists (e :: pre), e', post. split; [reflexivity|]. split; [unfold zlen; cbn [length]; lia|].
    split; [cbn [disc_from]; tauto|exact Hm].
  - exists [], e, r. split; [reflexivity|]. split; [unfold zlen; cbn [length]; lia|]. split; [exact I|exact Hs].
Qed.

Theorem pt_ok_iff_disciplined : forall es, pt_ok es = true <-> disciplined es.
Proof.
  intros es. rewrite disciplined_iff. unfold pt_ok.
  pose proof (pt_run_spec es pw_init 0 pinv_init) as H. destruct (pt_run pw_init 0 es) as [w|[j c]]; [tauto|].
  split; [discriminate|]. intros Hd. destruct H as (pre & e & post & -> & _ & _ & _ & Hn).
  elim Hn. exact (proj1 (disc_from_iff _ _) Hd pre e post eq_refl).
Qed.

Theorem run_pooltrace_accepts : forall n r out, run_pooltrace (n :: r) = 1 :: out ->
  exists es, pt_decode (Z.to_nat n) r = Some es /\ disciplined es /\
    forall pre post, es = pre ++ post ->
      exclusive (pw_run pw_init pre) /\ no_sharing (pw_run pw_init pre).
Proof.
  intros n r out. unfold run_pooltrace. destruct (n <? 0); [discriminate|].
  destruct (pt_decode (Z.to_nat n) r) as [es|]; [|discriminate].
  destruct (pt_run pw_init 0 es) as [w|[i c]] eqn:E; [|discriminate]. intros _.
  exists es. split; [reflexivity|].
  assert (Hd : disciplined es).
  { apply pt_ok_iff_disciplined. unfold pt_ok. rewrite E. reflexivity. }
  split; [exact Hd|]. intros pre post Heq. split.
  - eapply pool_discipline_exclusive; eassumption.
  - eapply pool_discipline_no_sharing; eassumption.
Qed.

Theorem run_pooltrace_rejects : forall n r i c, run_pooltrace (n :: r) = [0; i; c] ->
  exists es pre e post, pt_decode (Z.to_nat n) r = Some es /\ es = pre ++ e :: post /\ i = zlen pre /\
    disciplined pre /\ offence_means (pw_run pw_init pre) e c /\ ~ disciplined es.
Proof.
  intros n r i c. unfold run_pooltrace. destruct (n <? 0); [discriminate|].
  destruct (pt_decode (Z.to_nat n) r) as [es|]; [|discriminate].
  destruct (pt_run pw_init 0 es) as [w|[j c']] eqn:E; [discriminate|]. intros H. inversion H; subst j c'.
  pose proof (pt_run_spec es pw_init 0 pinv_init) as Hs. rewrite E in Hs.
  destruct Hs as (pre & e & post & Heq & Hi & Hd & Hm & Hn).
  exists es, pre, e, post. split; [reflexivity|]. split; [exact Heq|]. split; [lia|].
  split; [apply disciplined_iff; exact Hd|]. split; [exact Hm|].
  intros Hdisc. apply Hn. apply (Hdisc pre e post Heq).
Qed.

(* non-vacuity: a trace with overlapping holders that the checker accepts, and the double Put *)
Example pooltrace_example_ok :
  run_pooltrace [6; 0; 7; 1;  0; 8; 2;  1; 7; 1;  0; 7; 3;  1; 8; 2;  1; 7; 3] = [1; 6; 0; 2].
Proof. vm_compute. reflexivity. Qed.

Example pooltrace_example_double_put :
  run_pooltrace [5; 0; 7; 1;  1; 7; 1;  1; 7; 1;  0; 7; 2;  0; 7; 3] = [0; 2; 1].
Proof. vm_compute. reflexivity. Qed.
