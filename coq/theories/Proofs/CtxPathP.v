(* Property C20, wait sites: proofs about Model/CtxPath.v over the tables and functions that go2v
   regenerates from the Go source (Gen/GenCtxSites.v, Gen/GenCtxErr.v, Gen/GenWaitSites.v).
   The finite tables are checked by boolean checkers run with vm_compute; each checker is proved
   sound once, for any table. *)
From Coq Require Import ZArith List Bool Lia String.
From Verif Require Import Base.Wrap Base.Wire Base.Bytes Gen.GenConsts Gen.GenErrors Gen.GenCtxErr Gen.GenCtxSites
  Gen.GenWaitSites Spec.CtxSiteSpec Spec.WaitSpec Spec.ErrorSpec Spec.RelayErrors Model.ErrorPath Model.CtxPath.
Import ListNotations.
Local Open Scope Z_scope.

Lemma bytes_eqb_eq : forall a b, bytes_eqb a b = true -> a = b.
Proof.
  induction a as [|x a IH]; destruct b as [|y b]; cbn; intros H; try discriminate; [reflexivity|].
  apply andb_true_iff in H. destruct H as [H1 H2]. apply Z.eqb_eq in H1. subst. f_equal. apply IH, H2.
Qed.
Lemma bytes_eqb_refl : forall a, bytes_eqb a a = true.
Proof. induction a as [|x a IH]; cbn; [reflexivity|]. rewrite Z.eqb_refl, IH. reflexivity. Qed.

Definition all_ends : list ctx_end := [EndDeadline; EndCanceled].
Lemma all_ends_in : forall e, In e all_ends.
Proof. destruct e; cbn; auto. Qed.

Definition ret_okb (r : cexpr) (e : ctx_end) : bool :=
  match cx_eval r (ctx_err e) with
  | Some (ESys c _) => c =? spec_ctx_code e
  | _ => false
  end.

Definition site_okb (s : csite) : bool :=
  forallb (fun r => forallb (fun e => negb (when_applies (cs_when s) e) || ret_okb r e) all_ends) (cs_rets s)
  && forallb (fun fb => snd fb) (cs_calls s)
  && (negb (cs_falls s) || match cs_rets s with [] => true | _ => false end).

Definition site_ok (s : csite) : Prop :=
  (forall r e, In r (cs_rets s) -> when_applies (cs_when s) e = true ->
     exists msg, cx_eval r (ctx_err e) = Some (ESys (spec_ctx_code e) msg)) /\
  (forall f b, In (f, b) (cs_calls s) -> b = true) /\
  (cs_falls s = true -> cs_rets s = []).

Lemma ret_okb_sound : forall r e, ret_okb r e = true ->
  exists msg, cx_eval r (ctx_err e) = Some (ESys (spec_ctx_code e) msg).
Proof.
  intros r e H. unfold ret_okb in H.
  destruct (cx_eval r (ctx_err e)) as [[|c m| | | |m n]|]; try discriminate.
  apply Z.eqb_eq in H. subst c. exists m. reflexivity.
Qed.

Lemma site_okb_sound : forall s, site_okb s = true -> site_ok s.
Proof.
  intros s H. unfold site_okb in H.
  apply andb_true_iff in H. destruct H as [H Hf].
  apply andb_true_iff in H. destruct H as [Hr Hc].
  split; [|split].
  - intros r e Hin Hw.
    rewrite forallb_forall in Hr. specialize (Hr r Hin).
    rewrite forallb_forall in Hr. specialize (Hr e (all_ends_in e)).
    rewrite Hw in Hr. cbn [negb orb] in Hr. apply ret_okb_sound, Hr.
  - intros f b Hin. rewrite forallb_forall in Hc. apply (Hc (f, b) Hin).
  - intros Hfl. rewrite Hfl in Hf. cbn [negb orb] in Hf.
    destruct (cs_rets s); [reflexivity|discriminate].
Qed.

Lemma ctx_sites_checked : forallb site_okb ctx_sites = true.
Proof. vm_compute. reflexivity. Qed.

Theorem ctx_sites_converted : forall s, In s ctx_sites -> site_ok s.
Proof. intros s Hin. exact (site_okb_sound s (proj1 (forallb_forall _ _) ctx_sites_checked s Hin)). Qed.

(* the branches the call path goes through exist and return something *)
Definition required_sites : list (list Z * ckind) :=
  [ (fn_lockNewConn, KDone); (fn_Connect, KErrIf); (fn_beginCall, KErrIf); (fn_checkError, KErrIf);
    (fn_flushFragment, KDone); (fn_recvPeerFrame, KErrIf); (fn_recvPeerFrame, KDone);
    (fn_forwardPeerFrame, KErrIf); (fn_forwardPeerFrame, KDone) ].

Definition has_rowb (fn : list Z) (k : ckind) : bool :=
  existsb (fun s => bytes_eqb (cs_fn s) fn && ckind_eqb (cs_kind s) k &&
                    match cs_rets s with [] => false | _ => true end) ctx_sites.

Definition has_row (fn : list Z) (k : ckind) : Prop :=
  exists s, In s ctx_sites /\ cs_fn s = fn /\ cs_kind s = k /\ cs_rets s <> [].

Lemma ckind_eqb_eq : forall a b, ckind_eqb a b = true -> a = b.
Proof. destruct a, b; cbn; intros H; try discriminate; reflexivity. Qed.

Lemma has_rowb_sound : forall fn k, has_rowb fn k = true -> has_row fn k.
Proof.
  intros fn k H. unfold has_rowb in H. apply existsb_exists in H. destruct H as [s [Hin H]].
  apply andb_true_iff in H. destruct H as [H Hr]. apply andb_true_iff in H. destruct H as [Hf Hk].
  exists s. split; [exact Hin|]. split; [apply bytes_eqb_eq, Hf|]. split; [apply ckind_eqb_eq, Hk|].
  destruct (cs_rets s); [discriminate|]. discriminate.
Qed.

Lemma ctx_sites_required_checked : forallb (fun p => has_rowb (fst p) (snd p)) required_sites = true.
Proof. vm_compute. reflexivity. Qed.

Theorem ctx_sites_required : forall fn k, In (fn, k) required_sites -> has_row fn k.
Proof.
  intros fn k Hin. exact (has_rowb_sound fn k (proj1 (forallb_forall _ _) ctx_sites_required_checked (fn, k) Hin)).
Qed.

(* every select of property C05's wait-site table (the blocking statements of the outbound call
   path) that can be left through the context has its `case <-ctx.Done()` branch in the table *)
Definition wsite_coveredb (w : wsite) : bool :=
  match ws_kind w with
  | WSelect => negb (existsb (wexit_eqb XCtx) (ws_exits w)) || has_rowb (ws_fn w) KDone
  | _ => true
  end.

Lemma wait_sites_checked : forallb wsite_coveredb wait_sites = true.
Proof. vm_compute. reflexivity. Qed.

Theorem wait_sites_covered : forall w, In w wait_sites -> ws_kind w = WSelect -> In XCtx (ws_exits w) ->
  has_row (ws_fn w) KDone.
Proof.
  intros w Hin Hk Hx.
  pose proof (proj1 (forallb_forall _ _) wait_sites_checked w Hin) as H. unfold wsite_coveredb in H. rewrite Hk in H.
  assert (E : existsb (wexit_eqb XCtx) (ws_exits w) = true).
  { apply existsb_exists. exists XCtx. split; [exact Hx|reflexivity]. }
  rewrite E in H. cbn [negb orb] in H. apply has_rowb_sound, H.
Qed.

(* what a dialer may report once the context has ended: by deadline, an error that says "timeout"
   (net.Dialer's i/o timeout, or the context's own error: context.DeadlineExceeded is a net.Error
   with Timeout() = true); by cancellation, any error that is no timeout *)
Definition dial_reports (e : ctx_end) (de : gerr) : Prop :=
  match e with
  | EndDeadline => is_net_timeout de = true
  | EndCanceled => is_nil de = false /\ is_net_timeout de = false
  end.

Lemma is_net_timeout_net : forall de, is_net_timeout de = true -> is_net de = true /\ is_nil de = false.
Proof.
  destruct de as [|c m| | | |m n]; cbn; intros H; try discriminate; split; try reflexivity.
  apply Z.eqb_eq in H. subst n. reflexivity.
Qed.

Lemma connect_dial_deadline : forall de, is_net_timeout de = true ->
  connectDialErr is_nil is_net is_net_timeout false v_ErrTimeout v_ErrRequestCancelled get_context_error de = v_ErrTimeout.
Proof.
  intros de H. destruct (is_net_timeout_net de H) as [Hn Hz].
  unfold connectDialErr. rewrite Hz, Hn, H. reflexivity.
Qed.

Lemma connect_dial_cancel : forall de, is_nil de = false -> is_net_timeout de = false ->
  connectDialErr is_nil is_net is_net_timeout true v_ErrTimeout v_ErrRequestCancelled get_context_error de = v_ErrRequestCancelled.
Proof.
  intros de Hz Ht. unfold connectDialErr. rewrite Hz, Ht. cbn [negb]. rewrite andb_false_r. reflexivity.
Qed.

Lemma handshake_cancel_eq : forall de,
  call_error GHandshake EndCanceled de =
    Some (if handshake_sees_cancel then v_ErrRequestCancelled else v_ErrTimeout).
Proof.
  intros de. unfold call_error, get_connection_error, connect_error.
  destruct handshake_sees_cancel; vm_compute; reflexivity.
Qed.

Lemma call_dial_deadline : forall de, dial_reports EndDeadline de ->
  exists msg, call_error GDial EndDeadline de = Some (ESys (spec_ctx_code EndDeadline) msg).
Proof.
  intros de Hd. cbn in Hd. unfold call_error, get_connection_error, connect_error.
  change (is_canceled (ctx_err EndDeadline)) with false. rewrite (connect_dial_deadline de Hd).
  eexists. vm_compute. reflexivity.
Qed.

Lemma call_dial_cancel : forall de, dial_reports EndCanceled de ->
  exists msg, call_error GDial EndCanceled de = Some (ESys (spec_ctx_code EndCanceled) msg).
Proof.
  intros de Hd. cbn in Hd. destruct Hd as [Hz Ht]. unfold call_error, get_connection_error, connect_error.
  change (is_canceled (ctx_err EndCanceled)) with true. rewrite (connect_dial_cancel de Hz Ht).
  eexists. vm_compute. reflexivity.
Qed.

Lemma call_handshake_cancel : forall de, handshake_sees_cancel = true ->
  exists msg, call_error GHandshake EndCanceled de = Some (ESys (spec_ctx_code EndCanceled) msg).
Proof. intros de Hx. rewrite handshake_cancel_eq, Hx. eexists. vm_compute. reflexivity. Qed.

(* MAIN: wherever on the call path the context ends, the caller gets the documented code *)
Theorem ctx_call_sites : forall st e de,
  dial_reports e de ->
  ((st, e) <> (GHandshake, EndCanceled) \/ handshake_sees_cancel = true) ->
  exists msg, call_error st e de = Some (ESys (spec_ctx_code e) msg).
Proof.
  intros st e de Hd Hx.
  destruct st, e;
    first
      [ exact (call_dial_deadline de Hd)
      | exact (call_dial_cancel de Hd)
      | (destruct Hx as [Hx|Hx]; [exfalso; apply Hx; reflexivity|]; exact (call_handshake_cancel de Hx))
      | (eexists; vm_compute; reflexivity) ].
Qed.

(* the clause the pinned tree refutes: a caller that cancels while the handshake is pending
   gets timeout (finding c20:handshake-ignores-cancel) *)
Theorem ctx_handshake_cancel_refuted : handshake_sees_cancel = false ->
  forall de, call_error GHandshake EndCanceled de = Some v_ErrTimeout /\
             sys_code v_ErrTimeout <> spec_ctx_code EndCanceled.
Proof.
  intros H de. rewrite handshake_cancel_eq, H. split; [reflexivity|]. vm_compute. discriminate.
Qed.

Definition conn_stages : list cstage := [GQueued; GPreDial; GDial; GHandshake].

(* a call whose time-to-live (or the relay's maximum connection timeout) ends while the relay is
   obtaining the destination connection is answered with timeout, on the open connection *)
Theorem ctx_relay_sites : forall st de, In st conn_stages -> is_net_timeout de = true ->
  exists msg, relay_connect_result st de = Some (RRError (ESys 1 msg) false) /\
              spec_relay_code RSTimeout = Some 1 /\ spec_relay_code (RSConnectSystem 1) = Some 1.
Proof.
  intros st de Hin Hd. cbn in Hin.
  destruct Hin as [<- | [<- | [<- | [<- | []]]]];
    try (eexists; split; [vm_compute; reflexivity|split; reflexivity]).
  (* dial *)
  unfold relay_connect_result, get_connection_error, connect_error.
  change (is_canceled (ctx_err EndDeadline)) with false. rewrite (connect_dial_deadline de Hd).
  eexists. split; [vm_compute; reflexivity|split; reflexivity].
Qed.

(* the observable the statement of C20 prescribes for the harness cases, literal numbers only *)
Definition spec_ctxsite (en topo : Z) : list Z :=
  if topo =? 2 then [1; 1; 7; 116; 105; 109; 101; 111; 117; 116]                         (* frame: timeout (0x01) "timeout" *)
  else if en =? 1 then [1; 1; 7; 116; 105; 109; 101; 111; 117; 116]                      (* SystemError timeout *)
  else [1; 2; 17; 114; 101; 113; 117; 101; 115; 116; 32; 99; 97; 110; 99; 101; 108; 108; 101; 100]. (* cancelled "request cancelled" *)

Definition ctxsite_input_ok (s en topo variant : Z) : Prop :=
  0 <= s <= 8 /\ (en = 1 \/ en = 2) /\ (topo = 0 \/ topo = 1 \/ (topo = 2 /\ en = 1 /\ s <= 3)) /\ 0 <= variant <= 3.

Fixpoint zall (n : nat) (lo : Z) (p : Z -> bool) : bool :=
  match n with O => true | S k => p lo && zall k (lo + 1) p end.

Lemma zall_spec n : forall lo p, zall n lo p = true -> forall z, lo <= z < lo + Z.of_nat n -> p z = true.
Proof.
  induction n as [|n IH]; intros lo p H z Hz; cbn [zall] in H; [lia|]. apply andb_true_iff in H as [H0 H1].
  destruct (Z.eq_dec z lo) as [->|Hne]; [exact H0|]. apply (IH (lo + 1) p H1). lia.
Qed.

Definition ctxsite_okb (s en topo variant : Z) : bool :=
  negb ((topo <? 2) || ((en =? 1) && (s <=? 3)))
  || ((s =? 3) && (en =? 2) && negb handshake_sees_cancel)
  || bytes_eqb (run_c20_ctxsite [s; en; topo; variant]) (spec_ctxsite en topo).

Lemma ctxsite_checked :
  zall 9 0 (fun s => zall 2 1 (fun en => zall 3 0 (fun topo => zall 4 0 (ctxsite_okb s en topo)))) = true.
Proof. vm_compute. reflexivity. Qed.

Theorem run_ctxsite_spec : forall s en topo variant,
  ctxsite_input_ok s en topo variant ->
  ((s, en) <> (3, 2) \/ handshake_sees_cancel = true) ->
  run_c20_ctxsite [s; en; topo; variant] = spec_ctxsite en topo.
Proof.
  intros s en topo variant [Hs [He [Ht Hv]]] Hx.
  pose proof (zall_spec _ _ _ (zall_spec _ _ _ (zall_spec _ _ _ (zall_spec _ _ _ ctxsite_checked
                s ltac:(lia)) en ltac:(lia)) topo ltac:(lia)) variant ltac:(lia)) as H.
  unfold ctxsite_okb in H. apply orb_true_iff in H as [H|H]; [apply orb_true_iff in H as [H|H]|].
  - exfalso. destruct (Z.ltb_spec topo 2), (Z.eqb_spec en 1), (Z.leb_spec s 3); try discriminate H; lia.
  - exfalso. apply andb_true_iff in H as [H Hh]. apply andb_true_iff in H as [H3 H2].
    apply Z.eqb_eq in H3, H2. apply negb_true_iff in Hh. destruct Hx as [Hx|Hx]; congruence.
  - apply bytes_eqb_eq, H.
Qed.
