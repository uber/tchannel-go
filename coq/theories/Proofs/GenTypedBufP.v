(* Agreement of the REGENERATED typed-buffer code (Gen/GenTypedBuf.v, translated from
   typed/buffer.go on every run) with the hand-written model Model/TypedBuf.v that the C06 /
   C18 / C01 ... theorems are about.

   The generated code works on the Go state itself (ReadBuffer = remaining []byte + err;
   WriteBuffer = backing array + `remaining` as offset/length into it + err) and returns
   None where the Go code would panic.  The model state is a view of it:
     absR g = (bytes of g.remaining, g.err != nil)
     absW g = (bytes written = buffer[0 : len(buffer)-len(remaining)], len(remaining), error code)
   Each lemma says: the generated function does not panic and its result, seen through the
   view, is exactly the model function applied to the view of the initial state. *)
From Coq Require Import ZArith List Bool Lia.
From Verif Require Import Base.Wrap Base.Bytes Base.GoSem Gen.GenConsts Gen.GenTypedBuf Model.TypedBuf Proofs.C18RbufP.
Import ListNotations.
Local Open Scope Z_scope.

Definition absR (g : ReadBuffer) : rbuf :=
  mkR (bs_list (ReadBuffer_remaining g)) (negb (ReadBuffer_err g =? 0)).

Definition viewR {A B} (f : A -> B) (o : option (A * ReadBuffer)) : option (B * rbuf) :=
  match o with Some (a, g) => Some (f a, absR g) | None => None end.

(* error codes of the write buffer: model 1 = ErrBufferFull, 2 = errStringTooLong *)
Definition abs_werr (e : Z) : Z :=
  if e =? e_typed_ErrBufferFull then 1 else if e =? e_typed_errStringTooLong then 2 else e.

Definition w_off (g : WriteBuffer) : Z :=
  match WriteBuffer_remaining g with Some s => sr_off s | None => 0 end.

Definition absW (g : WriteBuffer) : wbuf :=
  mkW (firstn (Z.to_nat (w_off g)) (bs_list (WriteBuffer_buffer g)))
      (rs_len (WriteBuffer_remaining g)) (abs_werr (WriteBuffer_err g)).

(* well-formed write buffer: `remaining` is a suffix of `buffer` (established by
   NewWriteBuffer / Wrap / Reset and kept by every method, see the lemmas), the error is nil
   or one of the two errors the package sets *)
Definition wfW (g : WriteBuffer) : Prop :=
  match WriteBuffer_buffer g, WriteBuffer_remaining g with
  | None, None => True
  | Some l, Some s => 0 <= sr_off s /\ 0 <= sr_len s /\ sr_off s + sr_len s = zlen l
  | _, _ => False
  end /\
  (WriteBuffer_err g = 0 \/ WriteBuffer_err g = e_typed_ErrBufferFull \/ WriteBuffer_err g = e_typed_errStringTooLong).

Definition stepW (gen : option WriteBuffer) (g : WriteBuffer) (m : wbuf -> wbuf) : Prop :=
  exists g', gen = Some g' /\ wfW g' /\ absW g' = m (absW g).

Lemma zlen_firstn {A} (l : list A) n : 0 <= n <= zlen l -> zlen (firstn (Z.to_nat n) l) = n.
Proof. intros H. unfold zlen in *. rewrite firstn_length. lia. Qed.

Lemma zlen_skipn {A} (l : list A) n : 0 <= n <= zlen l -> zlen (skipn (Z.to_nat n) l) = zlen l - n.
Proof. intros H. unfold zlen in *. rewrite skipn_length. lia. Qed.

Lemma zlen_firstn_nat {A} (l : list A) k : (k <= length l)%nat -> zlen (firstn k l) = Z.of_nat k.
Proof. intros H. unfold zlen. rewrite firstn_length. lia. Qed.

Lemma firstn_all_z {A} (l : list A) n : zlen l <= n -> firstn (Z.to_nat n) l = l.
Proof. intros H. apply firstn_all2. unfold zlen in H. lia. Qed.

(* ================= ReadBuffer ================= *)
Definition rd_take (s : bslice) (n : Z) : bslice :=
  match s with None => None | Some l => Some (firstn (Z.to_nat n) l) end.
Definition rd_drop (s : bslice) (n : Z) : bslice :=
  match s with None => None | Some l => Some (skipn (Z.to_nat n) l) end.

Lemma bs_slice_take s n : 0 <= n <= bs_len s -> bs_slice s 0 n = Some (rd_take s n).
Proof.
  intros H. unfold bs_slice.
  destruct (0 <? 0) eqn:A; [lia|]. destruct (n <? 0) eqn:B; [lia|]. destruct (bs_len s <? n) eqn:C; [lia|].
  cbn. destruct s as [l|]; cbn; [|reflexivity]. rewrite Z.sub_0_r. reflexivity.
Qed.

Lemma bs_slice_drop s n : 0 <= n <= bs_len s -> bs_slice s n (bs_len s) = Some (rd_drop s n).
Proof.
  intros H. unfold bs_slice.
  destruct (n <? 0) eqn:A; [lia|]. destruct (bs_len s <? n) eqn:B; [lia|]. destruct (bs_len s <? bs_len s) eqn:C; [lia|].
  cbn. destruct s as [l|]; cbn; [|reflexivity]. f_equal. f_equal.
  apply firstn_all_z. unfold bs_len in *. cbn in *. rewrite zlen_skipn by lia. lia.
Qed.

Lemma ReadBytes_cases g n :
  ReadBuffer_ReadBytes g n =
    if negb (ReadBuffer_err g =? 0) then Some (None, g)
    else if (n <? 0) || (bs_len (ReadBuffer_remaining g) <? n) then Some (None, set_ReadBuffer_err e_typed_ErrEOF g)
    else Some (rd_take (ReadBuffer_remaining g) n, set_ReadBuffer_remaining (rd_drop (ReadBuffer_remaining g) n) g).
Proof.
  unfold ReadBuffer_ReadBytes.
  destruct (negb (ReadBuffer_err g =? 0)); [reflexivity|].
  destruct ((n <? 0) || (bs_len (ReadBuffer_remaining g) <? n)) eqn:E; [reflexivity|].
  apply orb_false_iff in E as [E1 E2]. apply Z.ltb_ge in E1. apply Z.ltb_ge in E2.
  rewrite bs_slice_take by lia. rewrite bs_slice_drop by lia. reflexivity.
Qed.

(* seen through the view, for EVERY Go int n: never a panic; a negative length is an
   error (ErrEOF), not a read *)
Lemma ReadBytes_view g n :
  viewR bs_list (ReadBuffer_ReadBytes g n) =
    Some (if rerr (absR g) then ([], absR g)
          else if (n <? 0) || (zlen (rrem (absR g)) <? n) then ([], mkR (rrem (absR g)) true)
          else (firstn (Z.to_nat n) (rrem (absR g)), mkR (skipn (Z.to_nat n) (rrem (absR g))) false)).
Proof.
  rewrite ReadBytes_cases. unfold absR at 1 2. cbn [rerr rrem].
  destruct (negb (ReadBuffer_err g =? 0)) eqn:E; [cbn; unfold absR; rewrite E; reflexivity|].
  change (zlen (rrem (absR g))) with (bs_len (ReadBuffer_remaining g)).
  destruct ((n <? 0) || (bs_len (ReadBuffer_remaining g) <? n)); [reflexivity|].
  cbn. unfold absR. cbn. rewrite E. destruct (ReadBuffer_remaining g); cbn; rewrite ?firstn_nil, ?skipn_nil; reflexivity.
Qed.

Lemma ReadBytes_total g n : ReadBuffer_ReadBytes g n <> None.
Proof. intros H. pose proof (ReadBytes_view g n) as V. rewrite H in V. discriminate V. Qed.

Lemma ltb_nat_z (a : list Z) n : 0 <= n -> (length a <? Z.to_nat n)%nat = (zlen a <? n).
Proof.
  intros H. unfold zlen. destruct (Nat.ltb_spec (length a) (Z.to_nat n)); destruct (Z.ltb_spec (Z.of_nat (length a)) n); try reflexivity; lia.
Qed.

Lemma ReadBytes_agrees g n : 0 <= n ->
  viewR bs_list (ReadBuffer_ReadBytes g n) = Some (r_bytes (Z.to_nat n) (absR g)).
Proof.
  intros Hn. rewrite ReadBytes_view. unfold r_bytes. rewrite ltb_nat_z, (proj2 (Z.ltb_ge n 0) Hn) by exact Hn. reflexivity.
Qed.

Lemma ReadBytes_negative g n : n < 0 -> ReadBuffer_err g = 0 ->
  viewR bs_list (ReadBuffer_ReadBytes g n) = Some ([], mkR (rrem (absR g)) true).
Proof.
  intros Hn He. rewrite ReadBytes_view, (proj2 (Z.ltb_lt n 0) Hn). unfold absR at 1. cbn [rerr]. rewrite He. reflexivity.
Qed.

(* nil result <=> the buffer is in error afterwards; the exception is the empty read from a nil slice *)
Lemma ReadBytes_nil g n b g' : 0 <= n -> ReadBuffer_ReadBytes g n = Some (b, g') ->
  bs_isnil b = rerr (absR g') \/ (n = 0 /\ ReadBuffer_remaining g = None /\ bs_list b = []).
Proof.
  intros Hn. rewrite ReadBytes_cases.
  destruct (negb (ReadBuffer_err g =? 0)) eqn:E.
  - intros H; inversion H; subst. left. cbn. rewrite E. reflexivity.
  - destruct (n <? 0) eqn:N; [lia|]. cbn [orb]. destruct (bs_len (ReadBuffer_remaining g) <? n) eqn:L.
    + intros H; inversion H; subst. left. reflexivity.
    + intros H; inversion H; subst. cbn. rewrite E. destruct (ReadBuffer_remaining g) eqn:R; cbn; [left; reflexivity|].
      right. unfold bs_len in L. cbn in L. apply Z.ltb_ge in L. unfold zlen in L. cbn in L. split; [lia|]. split; reflexivity.
Qed.

Lemma ReadString_as_ReadBytes g n :
  ReadBuffer_ReadString g n = match ReadBuffer_ReadBytes g n with Some (b, g') => Some (bs_list b, g') | None => None end.
Proof.
  unfold ReadBuffer_ReadString. destruct (ReadBuffer_ReadBytes g n) as [[b g']|]; [|reflexivity].
  destruct b; reflexivity.
Qed.

Lemma ReadString_agrees g n : 0 <= n ->
  viewR (fun s => s) (ReadBuffer_ReadString g n) = Some (r_string n (absR g)).
Proof.
  intros Hn. rewrite ReadString_as_ReadBytes. unfold r_string. rewrite <- (ReadBytes_agrees g n Hn).
  destruct (ReadBuffer_ReadBytes g n) as [[b g']|]; reflexivity.
Qed.

Lemma viewR_some {A B} (f : A -> B) o m : viewR f o = Some m ->
  exists a g', o = Some (a, g') /\ f a = fst m /\ absR g' = snd m.
Proof.
  destruct o as [[a g']|]; cbn; [|discriminate]. intros H. inversion H. exists a, g'. auto.
Qed.

(* SkipBytes is ReadBytes without the slice it returns *)
Lemma SkipBytes_agrees g n : 0 <= n ->
  option_map absR (ReadBuffer_SkipBytes g n) = Some (snd (r_bytes (Z.to_nat n) (absR g))).
Proof.
  intros Hn. transitivity (option_map snd (viewR bs_list (ReadBuffer_ReadBytes g n))); [|rewrite (ReadBytes_agrees g n Hn); reflexivity].
  rewrite ReadBytes_cases. unfold ReadBuffer_SkipBytes.
  destruct (negb (ReadBuffer_err g =? 0)); [reflexivity|].
  destruct ((n <? 0) || (bs_len (ReadBuffer_remaining g) <? n)) eqn:E; [reflexivity|].
  apply orb_false_iff in E as [E1%Z.ltb_ge E2%Z.ltb_ge]. rewrite bs_slice_drop by lia. reflexivity.
Qed.

Definition rd_uint_body (k : nat) (g : ReadBuffer) : option (Z * ReadBuffer) :=
  match ReadBuffer_ReadBytes g (Z.of_nat k) with
  | None => None
  | Some (x1, x2) =>
      if negb (bs_isnil x1) then match be_get k x1 with None => None | Some x3 => Some (x3, x2) end
      else Some (0, x2)
  end.

Lemma rd_uint_body_agrees k g : (0 < k)%nat ->
  viewR (fun v => v) (rd_uint_body k g) = Some (r_uint k (absR g)).
Proof.
  intros Hk. unfold rd_uint_body, r_uint, bindR.
  pose proof (ReadBytes_agrees g (Z.of_nat k) ltac:(lia)) as H. rewrite Nat2Z.id in H.
  apply viewR_some in H as (b & g' & H & H1 & H2). rewrite H.
  destruct (r_bytes k (absR g)) as [l r1] eqn:RB. cbn in H1, H2. subst l r1.
  rewrite ReadBytes_cases in H.
  destruct (negb (ReadBuffer_err g =? 0)) eqn:E.
  { inversion H; subst. cbn. rewrite E. reflexivity. }
  destruct ((Z.of_nat k <? 0) || (bs_len (ReadBuffer_remaining g) <? Z.of_nat k)) eqn:L.
  { inversion H; subst. cbn. reflexivity. }
  apply orb_false_iff in L as [_ L]. apply Z.ltb_ge in L.
  inversion H; subst. clear H.
  destruct (ReadBuffer_remaining g) as [l|] eqn:R.
  - cbn. unfold be_get. cbn. unfold bs_len in *. cbn in L. cbn [bs_list].
    rewrite !Nat2Z.id. rewrite zlen_firstn_nat by (unfold zlen in *; lia).
    rewrite Z.ltb_irrefl. cbn. rewrite E. rewrite firstn_firstn, Nat.min_id. reflexivity.
  - unfold bs_len in L. cbn in L. unfold zlen in L. cbn in L. lia.
Qed.

Lemma ReadUint16_agrees g : viewR (fun v => v) (ReadBuffer_ReadUint16 g) = Some (r_u16 (absR g)).
Proof. exact (rd_uint_body_agrees 2 g ltac:(lia)). Qed.
Lemma ReadUint32_agrees g : viewR (fun v => v) (ReadBuffer_ReadUint32 g) = Some (r_u32 (absR g)).
Proof. exact (rd_uint_body_agrees 4 g ltac:(lia)). Qed.
Lemma ReadUint64_agrees g : viewR (fun v => v) (ReadBuffer_ReadUint64 g) = Some (r_u64 (absR g)).
Proof. exact (rd_uint_body_agrees 8 g ltac:(lia)). Qed.

Lemma ReadByte_cases g :
  ReadBuffer_ReadByte g =
    if negb (ReadBuffer_err g =? 0) then Some (0, ReadBuffer_err g, g)
    else match bs_list (ReadBuffer_remaining g) with
         | [] => Some (0, e_typed_ErrEOF, set_ReadBuffer_err e_typed_ErrEOF g)
         | x :: l' => Some (x, 0, set_ReadBuffer_remaining (Some l') g)
         end.
Proof.
  unfold ReadBuffer_ReadByte. destruct (negb (ReadBuffer_err g =? 0)); [reflexivity|].
  destruct (ReadBuffer_remaining g) as [[|x l']|] eqn:R; [reflexivity| |reflexivity].
  unfold bs_index, bs_len. cbn [bs_list].
  assert (Z1 : (zlen (x :: l') <? 1) = false) by (apply Z.ltb_ge; unfold zlen; cbn [length]; lia).
  assert (Z2 : (zlen (x :: l') <=? 0) = false) by (apply Z.leb_gt; unfold zlen; cbn [length]; lia).
  rewrite Z1, Z2. change (0 <? 0) with false. cbn [orb nth Z.to_nat].
  pose proof (bs_slice_drop (Some (x :: l')) 1) as D. unfold bs_len in D. cbn [bs_list] in D.
  rewrite D by (unfold zlen; cbn [length]; lia). reflexivity.
Qed.

Lemma ReadSingleByte_agrees g : viewR (fun v => v) (ReadBuffer_ReadSingleByte g) = Some (r_u8 (absR g)).
Proof.
  unfold ReadBuffer_ReadSingleByte. rewrite ReadByte_cases.
  unfold r_u8, r_uint, bindR, r_bytes, absR. cbn [rerr rrem].
  destruct (negb (ReadBuffer_err g =? 0)) eqn:E; [cbn; unfold absR; rewrite ?E; reflexivity|].
  destruct (ReadBuffer_remaining g) as [[|x l']|] eqn:R; cbn; unfold absR; cbn; rewrite ?E, ?R; try reflexivity.
Qed.

Lemma ReadByte_err g v e g' : ReadBuffer_ReadByte g = Some (v, e, g') -> e = ReadBuffer_err g' \/ (e = 0 /\ ReadBuffer_err g' = 0).
Proof.
  rewrite ReadByte_cases. destruct (negb (ReadBuffer_err g =? 0)) eqn:E.
  - intros H; inversion H; subst. left; reflexivity.
  - destruct (bs_list (ReadBuffer_remaining g)); intros H; inversion H; subst; cbn.
    + left; reflexivity.
    + right. split; [reflexivity|]. apply negb_false_iff, Z.eqb_eq in E. exact E.
Qed.

(* the conversion int(n) of an unsigned integer of at most seven bytes *)
Lemma wrapS64_uint k v : (k <=? 7)%nat = true -> 0 <= v < 256 ^ Z.of_nat k -> wrapS 64 v = v.
Proof.
  intros Hk%Nat.leb_le H. assert (256 ^ Z.of_nat k <= 256 ^ 7) by (apply Z.pow_le_mono_r; lia).
  apply wrapS_id; cbn in *; lia.
Qed.

(* the common shape of ReadLen8String / ReadLen16String: a k-byte length, then that many bytes *)
Lemma rd_len_agrees k (rd : ReadBuffer -> option (Z * ReadBuffer)) g : (k <=? 7)%nat = true ->
  (forall g, viewR (fun v => v) (rd g) = Some (r_uint k (absR g))) ->
  bytes_ok (bs_list (ReadBuffer_remaining g)) = true ->
  viewR (fun s => s) (match rd g with None => None | Some (n, g1) =>
                      match ReadBuffer_ReadString g1 (wrapS 64 n) with None => None | Some (s, g2) => Some (s, g2) end end)
    = Some ((n <- r_uint k ;; r_string n) (absR g)).
Proof.
  intros Hk Hrd B. unfold bindR.
  pose proof (Hrd g) as H. apply viewR_some in H as (n & g1 & H & H1 & H2). rewrite H.
  pose proof (r_uint_range k (absR g) B) as Rg.
  destruct (r_uint k (absR g)) as [n' r1]. cbn [fst snd] in H1, H2, Rg. subst n' r1.
  rewrite (wrapS64_uint k n Hk Rg).
  pose proof (ReadString_agrees g1 n (proj1 Rg)) as S.
  destruct (ReadBuffer_ReadString g1 n) as [[s g2]|]; cbn in S |- *; [exact S|discriminate].
Qed.

Lemma ReadLen8String_agrees g : bytes_ok (bs_list (ReadBuffer_remaining g)) = true ->
  viewR (fun s => s) (ReadBuffer_ReadLen8String g) = Some (r_len8 (absR g)).
Proof. exact (rd_len_agrees 1 _ g eq_refl ReadSingleByte_agrees). Qed.

Lemma ReadLen16String_agrees g : bytes_ok (bs_list (ReadBuffer_remaining g)) = true ->
  viewR (fun s => s) (ReadBuffer_ReadLen16String g) = Some (r_len16 (absR g)).
Proof. exact (rd_len_agrees 2 _ g eq_refl ReadUint16_agrees). Qed.

Lemma Remaining_agrees g : option_map bs_list (ReadBuffer_Remaining g) = Some (rrem (absR g)).
Proof. reflexivity. Qed.
Lemma BytesRemaining_agrees g : ReadBuffer_BytesRemaining g = Some (zlen (rrem (absR g))).
Proof. reflexivity. Qed.
Lemma Err_agrees g : option_map (fun e => negb (e =? 0)) (ReadBuffer_Err g) = Some (rerr (absR g)).
Proof. reflexivity. Qed.

(* ================= WriteBuffer ================= *)
Lemma splice_length l off bs : 0 <= off -> off + zlen bs <= zlen l -> zlen (splice l off bs) = zlen l.
Proof.
  intros H1 H2. unfold splice, zlen in *. rewrite !app_length, firstn_length, skipn_length. lia.
Qed.

Lemma firstn_splice l off bs : 0 <= off -> off + zlen bs <= zlen l ->
  firstn (Z.to_nat (off + zlen bs)) (splice l off bs) = firstn (Z.to_nat off) l ++ bs.
Proof.
  intros H1 H2. unfold splice. rewrite app_assoc. unfold zlen in *.
  rewrite firstn_app.
  assert (L : length (firstn (Z.to_nat off) l ++ bs) = Z.to_nat (off + Z.of_nat (length bs))).
  { rewrite app_length, firstn_length. lia. }
  rewrite L, Nat.sub_diag. cbn [firstn]. rewrite app_nil_r. apply firstn_all2. lia.
Qed.

Lemma abs_werr_0 : abs_werr 0 = 0.
Proof. reflexivity. Qed.

Lemma werr_absW g : wfW g -> (werr (absW g) =? 0) = (WriteBuffer_err g =? 0).
Proof. intros [_ [H|[H|H]]]; unfold absW; cbn [werr]; rewrite H; reflexivity. Qed.

Lemma wfW_room_nonneg g : wfW g -> 0 <= rs_len (WriteBuffer_remaining g).
Proof.
  intros [W _]. destruct (WriteBuffer_buffer g), (WriteBuffer_remaining g); cbn in *; try lia; tauto.
Qed.

Definition w_ref (g : WriteBuffer) (n : Z) : rslice :=
  match WriteBuffer_remaining g with Some s => Some (mkSref (sr_off s) n) | None => None end.
Definition w_adv (g : WriteBuffer) (n : Z) : WriteBuffer :=
  set_WriteBuffer_remaining
    (match WriteBuffer_remaining g with Some s => Some (mkSref (sr_off s + n) (sr_len s - n)) | None => None end) g.

(* ---- the three outcomes of the model's w_bytes (sticky error, no room, room) on the Go state ---- *)
Lemma sticky_agrees g bs : wfW g -> WriteBuffer_err g <> 0 -> absW g = w_bytes bs (absW g).
Proof. intros W E. unfold w_bytes. rewrite (werr_absW g W), (proj2 (Z.eqb_neq _ _) E). reflexivity. Qed.

Lemma full_agrees g bs : wfW g -> WriteBuffer_err g = 0 -> rs_len (WriteBuffer_remaining g) < zlen bs ->
  let g' := set_WriteBuffer_err e_typed_ErrBufferFull g in wfW g' /\ absW g' = w_bytes bs (absW g).
Proof.
  intros [W1 W2] E L. split.
  - split; [exact W1|]. right; left; reflexivity.
  - unfold w_bytes, w_seterr, absW. cbn [werr wroom wout WriteBuffer_err WriteBuffer_buffer WriteBuffer_remaining set_WriteBuffer_err].
    rewrite E, (proj2 (Z.ltb_lt _ _) L). reflexivity.
Qed.

Lemma absW_put g bs l s :
  wfW g -> WriteBuffer_err g = 0 -> WriteBuffer_buffer g = Some l -> WriteBuffer_remaining g = Some s ->
  zlen bs <= sr_len s ->
  let g' := mk_WriteBuffer (Some (splice l (sr_off s) bs)) (Some (mkSref (sr_off s + zlen bs) (sr_len s - zlen bs)))
                           (WriteBuffer_err g) in
  wfW g' /\ absW g' = w_bytes bs (absW g).
Proof.
  intros [W1 W2] E B R L. rewrite B, R in W1. destruct W1 as (O1 & O2 & O3).
  pose proof (zlen_nonneg bs) as NB. cbn zeta. split.
  - split; [|rewrite E; left; reflexivity]. cbn. rewrite splice_length by lia. lia.
  - unfold w_bytes, absW, w_off. rewrite R, B, E. cbn.
    rewrite (proj2 (Z.ltb_ge _ _) L), firstn_splice by lia. reflexivity.
Qed.

Lemma setErr_cases g e :
  WriteBuffer_setErr g e = Some (if negb (WriteBuffer_err g =? 0) then g else set_WriteBuffer_err e g).
Proof. unfold WriteBuffer_setErr. destruct (negb _); reflexivity. Qed.

Lemma stepW_bind o g m1 k m2 : stepW o g m1 -> (forall w, wfW w -> stepW (k w) w m2) ->
  stepW (match o with None => None | Some w => k w end) g (m1 >> m2).
Proof.
  intros (w1 & -> & W1 & A1) Hk. destruct (Hk w1 W1) as (w2 & E2 & W2 & A2).
  exists w2. unfold seqW. rewrite <- A1. auto.
Qed.

Lemma stepW_ret g : wfW g -> stepW (Some g) g (fun w => w).
Proof. intros W. exists g. auto. Qed.

(* ---- reserve(n): the reference is the reserved region; what the buffer is once |bs| = n bytes
        bs have been stored through it.  The only panic is a negative n that passes the room test. ---- *)
Lemma reserve_cases g n :
  WriteBuffer_reserve g n =
    if negb (WriteBuffer_err g =? 0) then Some (None, g)
    else if rs_len (WriteBuffer_remaining g) <? n then Some (None, set_WriteBuffer_err e_typed_ErrBufferFull g)
    else if n <? 0 then None
    else Some (w_ref g n, w_adv g n).
Proof.
  unfold WriteBuffer_reserve. rewrite setErr_cases.
  destruct (negb (WriteBuffer_err g =? 0)) eqn:E; [reflexivity|].
  destruct (rs_len (WriteBuffer_remaining g) <? n) eqn:L; [reflexivity|].
  apply Z.ltb_ge in L. unfold rs_slice, w_ref, w_adv.
  destruct (n <? 0) eqn:N.
  - change (0 <? 0) with false. cbn [orb]. reflexivity.
  - apply Z.ltb_ge in N. change (0 <? 0) with false. cbn [orb].
    destruct (rs_len (WriteBuffer_remaining g) <? n) eqn:L2; [lia|].
    destruct (rs_len (WriteBuffer_remaining g) <? rs_len (WriteBuffer_remaining g)) eqn:L3; [lia|].
    cbn [orb]. destruct (WriteBuffer_remaining g) as [s|]; [|reflexivity].
    rewrite Z.add_0_r, Z.sub_0_r. reflexivity.
Qed.

Definition deferred_ref (g : WriteBuffer) (n : Z) : rslice :=
  if (WriteBuffer_err g =? 0) && (n <=? rs_len (WriteBuffer_remaining g)) then w_ref g n else None.

Lemma reserve_agrees g bs : wfW g ->
  exists w, WriteBuffer_reserve g (zlen bs) = Some (deferred_ref g (zlen bs), w) /\
    match deferred_ref g (zlen bs) with
    | None => wfW w /\ absW w = w_bytes bs (absW g)
    | Some s => exists l, WriteBuffer_buffer w = Some l /\ sr_len s = zlen bs /\ 0 <= sr_off s /\
                  sr_off s + zlen bs <= zlen l /\
                  let w' := set_WriteBuffer_buffer (Some (splice l (sr_off s) bs)) w in
                  wfW w' /\ absW w' = w_bytes bs (absW g)
    end.
Proof.
  intros W. pose proof W as [W1 W2]. pose proof (zlen_nonneg bs) as NB.
  rewrite reserve_cases. unfold deferred_ref.
  destruct (Z.eqb_spec (WriteBuffer_err g) 0) as [E|E]; cbn [negb andb].
  2:{ exists g. split; [reflexivity|]. split; [exact W|apply sticky_agrees; assumption]. }
  destruct (Z.ltb_spec (rs_len (WriteBuffer_remaining g)) (zlen bs)) as [L|L].
  { rewrite (proj2 (Z.leb_gt _ _) L). eexists. split; [reflexivity|]. apply full_agrees; assumption. }
  rewrite (proj2 (Z.leb_le _ _) L), (proj2 (Z.ltb_ge _ _) NB).
  exists (w_adv g (zlen bs)). split; [reflexivity|]. unfold w_ref, w_adv.
  destruct (WriteBuffer_buffer g) as [l|] eqn:B, (WriteBuffer_remaining g) as [s|] eqn:R; cbn in W1; try tauto.
  - exists l. cbn in L. split; [exact B|]. split; [reflexivity|]. split; [tauto|]. split; [cbn [sr_off]; lia|].
    exact (absW_put g bs l s W E B R L).
  - (* nil buffer: only the empty write fits *)
    cbn in L. assert (Ebs : bs = []) by (destruct bs; [reflexivity|unfold zlen in L; cbn in L; lia]). subst bs.
    split; [split; [cbn; rewrite B; exact I|exact W2]|].
    unfold w_bytes, absW, w_off. cbn. rewrite R, E. reflexivity.
Qed.

(* the common shape of WriteBytes / WriteString / WriteUint16/32/64:
   reserve(n), then write into the reserved slice when it is not nil *)
Definition wr_body (g : WriteBuffer) (n : Z) (wr : bslice -> rslice -> option bslice) : option WriteBuffer :=
  match WriteBuffer_reserve g n with
  | None => None
  | Some (b, w) =>
      if negb (rs_isnil b)
      then match wr (WriteBuffer_buffer w) b with None => None | Some x => Some (set_WriteBuffer_buffer x w) end
      else Some w
  end.

Lemma wr_body_agrees g bs wr :
  wfW g ->
  (forall l off, 0 <= off -> off + zlen bs <= zlen l ->
     wr (Some l) (Some (mkSref off (zlen bs))) = Some (Some (splice l off bs))) ->
  stepW (wr_body g (zlen bs) wr) g (w_bytes bs).
Proof.
  intros W Hwr. unfold wr_body. destruct (reserve_agrees g bs W) as (w & -> & H).
  destruct (deferred_ref g (zlen bs)) as [[off len]|]; cbn [rs_isnil negb].
  - destruct H as (l & -> & Hl & O1 & O2 & H). cbn [sr_len sr_off] in Hl, O1, O2. subst len.
    rewrite Hwr by assumption. eexists. split; [reflexivity|exact H].
  - exists w. split; [reflexivity|exact H].
Qed.

Lemma WriteBytes_agrees g b : wfW g -> stepW (WriteBuffer_WriteBytes g b) g (w_bytes (bs_list b)).
Proof.
  intros W. change (WriteBuffer_WriteBytes g b) with (wr_body g (zlen (bs_list b)) (fun m r => Some (mem_copy m r (bs_list b)))).
  apply wr_body_agrees; [exact W|]. intros l off H1 H2. cbn. rewrite Z.min_id. rewrite firstn_all_z by lia. reflexivity.
Qed.

Lemma WriteString_agrees g s : wfW g -> stepW (WriteBuffer_WriteString g s) g (w_bytes s).
Proof. exact (WriteBytes_agrees g (Some s)). Qed.

Lemma wr_uint_agrees k v g : wfW g -> stepW (wr_body g (Z.of_nat k) (fun m r => mem_put m r k v)) g (w_uint k v).
Proof.
  intros W. rewrite <- (zlen_be k v). apply wr_body_agrees; [exact W|].
  intros l off H1 H2. unfold mem_put. cbn [rs_len sr_len]. rewrite zlen_be, Z.ltb_irrefl. reflexivity.
Qed.

Lemma WriteUint16_agrees g v : wfW g -> stepW (WriteBuffer_WriteUint16 g v) g (w_u16 v).
Proof. exact (wr_uint_agrees 2 v g). Qed.
Lemma WriteUint32_agrees g v : wfW g -> stepW (WriteBuffer_WriteUint32 g v) g (w_u32 v).
Proof. exact (wr_uint_agrees 4 v g). Qed.
Lemma WriteUint64_agrees g v : wfW g -> stepW (WriteBuffer_WriteUint64 g v) g (w_u64 v).
Proof. exact (wr_uint_agrees 8 v g). Qed.

(* ---- single byte (no reserve: direct index + reslice): WriteSingleByte, DeferByte ---- *)
Lemma byte_room g v : wfW g -> WriteBuffer_err g = 0 -> rs_len (WriteBuffer_remaining g) <> 0 ->
  exists m r, mem_set (WriteBuffer_buffer g) (WriteBuffer_remaining g) 0 v = Some m /\
    rs_slice (WriteBuffer_remaining g) 1 (rs_len (WriteBuffer_remaining g)) = Some r /\
    rs_slice (WriteBuffer_remaining g) 0 (rs_len (WriteBuffer_remaining g)) = Some (WriteBuffer_remaining g) /\
    let g' := set_WriteBuffer_remaining r (set_WriteBuffer_buffer m g) in wfW g' /\ absW g' = w_bytes [v] (absW g).
Proof.
  intros W E L. pose proof W as [W1 _]. pose proof (wfW_room_nonneg g W) as RN.
  destruct (WriteBuffer_buffer g) as [l|] eqn:B, (WriteBuffer_remaining g) as [s|] eqn:R; cbn in W1, L, RN; try tauto.
  assert (L1 : zlen [v] <= sr_len s) by (change (zlen [v]) with 1; lia).
  unfold mem_set, rs_slice. cbn [rs_len].
  rewrite (proj2 (Z.leb_gt _ _) (ltac:(lia) : 0 < sr_len s)), (proj2 (Z.ltb_ge _ _) (ltac:(lia) : 1 <= sr_len s)),
    (proj2 (Z.ltb_ge _ _) RN), !Z.ltb_irrefl.
  change (1 <? 0) with false. cbn [orb].
  eexists _, _. split; [reflexivity|]. split; [reflexivity|]. split; [destruct s; cbn; rewrite Z.add_0_r, Z.sub_0_r; reflexivity|].
  rewrite Z.add_0_r. exact (absW_put g [v] l s W E B R L1).
Qed.

Lemma WriteSingleByte_agrees g v : wfW g -> 0 <= v < 256 -> stepW (WriteBuffer_WriteSingleByte g v) g (w_u8 v).
Proof.
  intros W Hv. unfold WriteBuffer_WriteSingleByte, w_u8. rewrite Z.mod_small by lia.
  destruct (Z.eqb_spec (WriteBuffer_err g) 0) as [E|E]; cbn [negb].
  2:{ exists g. split; [reflexivity|]. split; [exact W|apply sticky_agrees; assumption]. }
  rewrite setErr_cases, E. cbn [Z.eqb negb].
  destruct (Z.eqb_spec (rs_len (WriteBuffer_remaining g)) 0) as [L|L].
  - eexists. split; [reflexivity|]. apply full_agrees; [assumption..|]. rewrite L. reflexivity.
  - destruct (byte_room g v W E L) as (m & r & -> & Er & _ & H).
    cbn [WriteBuffer_remaining set_WriteBuffer_buffer]. rewrite Er. eexists. split; [reflexivity|exact H].
Qed.

Lemma wrapU8_range v : 0 <= wrapU 8 v < 256.
Proof. exact (wrapU_range 8 v ltac:(lia)). Qed.

Lemma w_u8_wrap v : w_u8 (wrapU 8 v) = w_u8 v.
Proof. unfold w_u8, wrapU. change (2 ^ 8) with 256. rewrite Z.mod_mod by lia. reflexivity. Qed.

Lemma WriteByte_agrees g v : wfW g -> stepW (WriteBuffer_WriteSingleByte g (wrapU 8 v)) g (w_u8 v).
Proof. intros W. rewrite <- w_u8_wrap. apply WriteSingleByte_agrees; [exact W|apply wrapU8_range]. Qed.

Lemma be_wrapU k v : be k (wrapU (8 * Z.of_nat k) v) = be k v.
Proof.
  unfold wrapU. replace (2 ^ (8 * Z.of_nat k)) with (256 ^ Z.of_nat k) by (rewrite Z.pow_mul_r by lia; reflexivity).
  revert v. induction k as [|k IH]; intros v; [reflexivity|].
  cbn [be]. rewrite Nat2Z.inj_succ, Z.pow_succ_r by lia.
  assert (P : 0 < 256 ^ Z.of_nat k) by (apply Z.pow_pos_nonneg; lia).
  pose proof (Z.mod_pos_bound v 256 ltac:(lia)) as R.
  rewrite Z.rem_mul_r, Z.add_comm, (Z.mul_comm 256) by lia.
  rewrite Z.div_add_l, (Z.div_small (v mod 256)), Z.add_0_r, IH by lia.
  rewrite Z.add_comm, Z.mod_add, Z.mod_mod by lia. reflexivity.
Qed.

Lemma w_u16_wrap v : w_u16 (wrapU 16 v) = w_u16 v.
Proof. unfold w_u16, w_uint. rewrite (be_wrapU 2). reflexivity. Qed.

Lemma setErr_agrees g e : wfW g -> e = e_typed_ErrBufferFull \/ e = e_typed_errStringTooLong ->
  stepW (WriteBuffer_setErr g e) g (w_seterr (abs_werr e)).
Proof.
  intros W He. pose proof W as [W1 W2]. rewrite setErr_cases. eexists. split; [reflexivity|]. unfold w_seterr.
  rewrite (werr_absW g W). destruct (WriteBuffer_err g =? 0) eqn:E; cbn [negb].
  - split; [split; [exact W1|cbn; right; exact He]|reflexivity].
  - split; [exact W|reflexivity].
Qed.

(* the common shape of WriteLen8String / WriteLen16String: the length must survive the conversion to
   [bits] bits (else errStringTooLong, and the writes behind it see the sticky error), then the
   length through [wr], then the bytes *)
Lemma wr_len_agrees bits (wr : WriteBuffer -> Z -> option WriteBuffer) (mlen : Z -> wbuf -> wbuf) g s :
  0 <= bits < 63 -> (forall w v, wfW w -> stepW (wr w (wrapU bits v)) w (mlen v)) -> wfW g ->
  let rest w := match wr w (wrapU bits (zlen s)) with None => None | Some w1 =>
                match WriteBuffer_WriteString w1 s with None => None | Some w2 => Some w2 end end in
  stepW (if negb (wrapS 64 (wrapU bits (zlen s)) =? zlen s)
         then match WriteBuffer_setErr g e_typed_errStringTooLong with None => None | Some w => rest w end
         else rest g) g
        (w_check_len bits s >> mlen (zlen s) >> w_bytes s).
Proof.
  intros Hb Hwr W rest.
  assert (R : forall w, wfW w -> stepW (rest w) w (mlen (zlen s) >> w_bytes s)).
  { intros w Ww. apply stepW_bind; [apply Hwr, Ww|]. intros w1 W1.
    destruct (WriteString_agrees w1 s W1) as (w2 & -> & H). exists w2. auto. }
  pose proof (wrapU_range bits (zlen s) ltac:(lia)) as U.
  assert (2 ^ bits <= 2 ^ 62) by (apply Z.pow_le_mono_r; lia).
  rewrite wrapS_id by (cbn; lia). unfold w_check_len.
  destruct (wrapU bits (zlen s) =? zlen s); cbn [negb].
  - exact (stepW_bind _ g _ _ _ (stepW_ret g W) R).
  - exact (stepW_bind _ g _ _ _ (setErr_agrees g _ W (or_intror eq_refl)) R).
Qed.

Lemma WriteLen8String_agrees g s : wfW g -> stepW (WriteBuffer_WriteLen8String g s) g (w_len8 s).
Proof. exact (wr_len_agrees 8 WriteBuffer_WriteSingleByte w_u8 g s ltac:(lia) WriteByte_agrees). Qed.

Lemma WriteLen16String_agrees g s : wfW g -> stepW (WriteBuffer_WriteLen16String g s) g (w_len16 s).
Proof.
  refine (wr_len_agrees 16 WriteBuffer_WriteUint16 w_u16 g s ltac:(lia) _).
  intros w v W. rewrite <- w_u16_wrap. apply WriteUint16_agrees, W.
Qed.

(* ---- deferred references: reserve + zero fill = writing zeros; the reference is the
        reserved region (offset = bytes written so far) ---- *)
Lemma set_buffer_same g : set_WriteBuffer_buffer (WriteBuffer_buffer g) g = g.
Proof. destruct g; reflexivity. Qed.

Lemma zlen_repeat {A} (x : A) n : 0 <= n -> zlen (repeat x (Z.to_nat n)) = n.
Proof. intros H. unfold zlen. rewrite repeat_length. lia. Qed.

Lemma deferred_agrees g n : wfW g -> 0 <= n ->
  exists g', WriteBuffer_deferred g n = Some (deferred_ref g n, g') /\ wfW g' /\
             absW g' = w_bytes (repeat 0 (Z.to_nat n)) (absW g).
Proof.
  intros W Hn. unfold WriteBuffer_deferred.
  destruct (reserve_agrees g (repeat 0 (Z.to_nat n)) W) as (w & E & H). rewrite zlen_repeat in E, H by exact Hn.
  rewrite E. destruct (deferred_ref g n) as [[off len]|].
  - destruct H as (l & B & Hl & _ & _ & H). cbn [sr_len] in Hl. subst len. rewrite B. eexists. split; [reflexivity|exact H].
  - cbn [mem_fill]. rewrite set_buffer_same. exists w. split; [reflexivity|exact H].
Qed.

(* DeferUint16/32/64 are DeferBytes(2/4/8), which only renames the results of deferred *)
Lemma option_pair_eta {A B} (o : option (A * B)) : match o with None => None | Some (a, b) => Some (a, b) end = o.
Proof. destruct o as [[a b]|]; reflexivity. Qed.

Lemma DeferUint_is g : WriteBuffer_DeferUint16 g = WriteBuffer_DeferBytes g 2 /\
  WriteBuffer_DeferUint32 g = WriteBuffer_DeferBytes g 4 /\ WriteBuffer_DeferUint64 g = WriteBuffer_DeferBytes g 8.
Proof. repeat split. Qed.
Lemma DeferBytes_is g n : WriteBuffer_DeferBytes g n = WriteBuffer_deferred g n.
Proof. apply option_pair_eta. Qed.

Lemma DeferBytes_agrees g n : wfW g -> 0 <= n ->
  exists g', WriteBuffer_DeferBytes g n = Some (deferred_ref g n, g') /\ wfW g' /\
             absW g' = w_bytes (repeat 0 (Z.to_nat n)) (absW g).
Proof. rewrite DeferBytes_is. apply deferred_agrees. Qed.

(* DeferBytes(n) with a negative n that passes the room test panics (slice bounds) *)
Lemma DeferBytes_negative_panics g n : n < 0 -> WriteBuffer_err g = 0 -> 0 <= rs_len (WriteBuffer_remaining g) ->
  WriteBuffer_DeferBytes g n = None.
Proof.
  intros Hn E R. rewrite DeferBytes_is. unfold WriteBuffer_deferred. rewrite reserve_cases. rewrite E. cbn [Z.eqb negb].
  destruct (rs_len (WriteBuffer_remaining g) <? n) eqn:L; [lia|]. destruct (n <? 0) eqn:N; [reflexivity|lia].
Qed.

(* DeferByte: one zero byte; the reference is the whole remaining slice (w.remaining[0:]).
   Unlike every other write it does NOT look at the sticky error (hypothesis err = nil). *)
Lemma DeferByte_agrees g : wfW g -> WriteBuffer_err g = 0 ->
  exists r g', WriteBuffer_DeferByte g = Some (r, g') /\ wfW g' /\ absW g' = w_bytes [0] (absW g) /\
               r = (if rs_len (WriteBuffer_remaining g) =? 0 then None else WriteBuffer_remaining g).
Proof.
  intros W E. unfold WriteBuffer_DeferByte. rewrite setErr_cases, E. cbn [Z.eqb negb].
  destruct (Z.eqb_spec (rs_len (WriteBuffer_remaining g)) 0) as [L|L].
  - destruct (full_agrees g [0] W E) as [H1 H2]; [rewrite L; reflexivity|]. eexists _, _. auto.
  - destruct (byte_room g 0 W E L) as (m & r & -> & Er & Er0 & H1 & H2).
    cbn [WriteBuffer_remaining set_WriteBuffer_buffer]. rewrite Er0, Er. eexists _, _. auto.
Qed.

(* the witness that DeferByte is not sticky: an errored buffer with one byte of room still
   advances (the model's w_bytes [0] would leave it alone) *)
Lemma DeferByte_ignores_error :
  let g := mk_WriteBuffer (Some [7]) (Some (mkSref 0 1)) e_typed_errStringTooLong in
  wfW g /\ option_map (fun p => absW (snd p)) (WriteBuffer_DeferByte g) = Some (mkW [0] 0 2) /\
  w_bytes [0] (absW g) = mkW [] 1 2.
Proof. cbv zeta. split; [|split; reflexivity]. split; cbn; [lia|]. right; right; reflexivity. Qed.

Lemma W_BytesRemaining_agrees g : WriteBuffer_BytesRemaining g = Some (wroom (absW g)).
Proof. reflexivity. Qed.

Lemma BytesWritten_agrees g : wfW g -> bs_len (WriteBuffer_buffer g) < 2 ^ 63 ->
  WriteBuffer_BytesWritten g = Some (zlen (wout (absW g))).
Proof.
  intros [W1 _] Hb. unfold WriteBuffer_BytesWritten, absW, w_off. cbn [wout].
  destruct (WriteBuffer_buffer g) as [l|] eqn:B, (WriteBuffer_remaining g) as [s|] eqn:R; cbn in W1; try tauto.
  destruct W1 as (O1 & O2 & O3). unfold bs_len in *. cbn [bs_list rs_len] in *.
  rewrite zlen_firstn by lia. rewrite wrapS_id by (cbn; lia). f_equal. lia.
Qed.

Lemma W_Err_agrees g : option_map abs_werr (WriteBuffer_Err g) = Some (werr (absW g)).
Proof. reflexivity. Qed.

Lemma rs_whole_wf m e : (e = 0 \/ e = e_typed_ErrBufferFull \/ e = e_typed_errStringTooLong) ->
  wfW (mk_WriteBuffer m (rs_whole m) e) /\ absW (mk_WriteBuffer m (rs_whole m) e) = mkW [] (bs_len m) (abs_werr e).
Proof.
  intros He. destruct m as [l|]; cbn.
  - split; [split; [|exact He]|reflexivity]. pose proof (zlen_nonneg l). cbn. lia.
  - split; [split; [exact I|exact He]|reflexivity].
Qed.

Lemma Reset_agrees g : exists g', WriteBuffer_Reset g = Some g' /\ wfW g' /\ absW g' = wb (bs_len (WriteBuffer_buffer g)).
Proof.
  eexists. split; [reflexivity|]. cbn. apply (rs_whole_wf (WriteBuffer_buffer g) 0). left; reflexivity.
Qed.

(* Wrap keeps the error field: on a fresh (zero) WriteBuffer it gives the empty buffer over b *)
Lemma Wrap_agrees g b : (WriteBuffer_err g = 0 \/ WriteBuffer_err g = e_typed_ErrBufferFull \/ WriteBuffer_err g = e_typed_errStringTooLong) ->
  exists g', WriteBuffer_Wrap g b = Some g' /\ wfW g' /\ absW g' = mkW [] (bs_len b) (abs_werr (WriteBuffer_err g)).
Proof.
  intros He. eexists. split; [reflexivity|]. cbn. apply (rs_whole_wf b (WriteBuffer_err g) He).
Qed.

(* ---- Update through a reference: the patch formulas the models use ---- *)
Lemma Uint16Ref_Update_patch l pos n : 0 <= pos -> pos + 2 <= zlen l ->
  Uint16Ref_Update (Some l) (Some (mkSref pos 2)) n
    = Some (Some (firstn (Z.to_nat pos) l ++ be 2 n ++ skipn (Z.to_nat pos + 2) l)).
Proof. intros H1 H2. reflexivity. Qed.
Lemma Uint32Ref_Update_patch l pos n : 0 <= pos -> pos + 4 <= zlen l ->
  Uint32Ref_Update (Some l) (Some (mkSref pos 4)) n
    = Some (Some (firstn (Z.to_nat pos) l ++ be 4 n ++ skipn (Z.to_nat pos + 4) l)).
Proof. intros H1 H2. reflexivity. Qed.
Lemma Uint64Ref_Update_patch l pos n : 0 <= pos -> pos + 8 <= zlen l ->
  Uint64Ref_Update (Some l) (Some (mkSref pos 8)) n
    = Some (Some (firstn (Z.to_nat pos) l ++ be 8 n ++ skipn (Z.to_nat pos + 8) l)).
Proof. intros H1 H2. reflexivity. Qed.
Lemma ByteRef_Update_patch l pos len b : 0 < len ->
  ByteRef_Update (Some l) (Some (mkSref pos len)) b
    = Some (Some (firstn (Z.to_nat pos) l ++ [b] ++ skipn (Z.to_nat pos + 1) l)).
Proof.
  intros H. unfold ByteRef_Update, mem_set. cbn [rs_isnil negb rs_len sr_len].
  change (0 <? 0) with false. destruct (len <=? 0) eqn:L; [lia|]. cbn [orb sr_off]. rewrite Z.add_0_r. reflexivity.
Qed.
Lemma BytesRef_Update_patch l pos len b : zlen (bs_list b) = len ->
  BytesRef_Update (Some l) (Some (mkSref pos len)) b
    = Some (Some (firstn (Z.to_nat pos) l ++ bs_list b ++ skipn (Z.to_nat pos + length (bs_list b)) l)).
Proof.
  intros H. unfold BytesRef_Update, mem_copy. cbn [rs_isnil negb sr_len sr_off]. rewrite H, Z.min_id.
  rewrite firstn_all_z by lia. reflexivity.
Qed.
Lemma Update_nil m v : ByteRef_Update m None v = Some m /\ Uint16Ref_Update m None v = Some m /\
  Uint32Ref_Update m None v = Some m /\ Uint64Ref_Update m None v = Some m.
Proof. repeat split. Qed.

