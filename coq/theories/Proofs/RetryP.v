From Coq Require Import ZArith List Bool Lia.
From Verif Require Import Base.Wrap Base.Wire Gen.GenConsts Gen.GenRetry Spec.RetryTable Model.Retry.
Import ListNotations.
Local Open Scope Z_scope.

Lemma err_code_class e : e_nil e = false -> class_of_code (getErrCode e) = classify e.
Proof.
  intros Hn. unfold getErrCode, GetSystemErrorCode, classify. rewrite Hn.
  destruct (e_net e), (e_sys e); reflexivity.
Qed.

(* CanRetry against the whole table: six policies (and the numbers that are none) by six classes
   of code, one evaluation each *)
Lemma can_retry_class r e : e_nil e = false ->
  CanRetry r e = match policy_of r with
                 | Some p => retryable p (classify e)
                 | None => match classify e with Busy | Declined => true | _ => false end
                 end.
Proof.
  intros Hn. rewrite <- (err_code_class e Hn). unfold CanRetry. generalize (getErrCode e). intros c.
  unfold policy_of, class_of_code, c_RetryNever, c_RetryDefault, c_RetryConnectionError, c_RetryUnexpected,
    c_RetryIdempotent, c_ErrCodeBusy, c_ErrCodeDeclined, c_ErrCodeBadRequest, c_ErrCodeNetwork, c_ErrCodeUnexpected.
  destruct (Z.eqb_spec c 3) as [->|]; [|destruct (Z.eqb_spec c 4) as [->|]; [|destruct (Z.eqb_spec c 6) as [->|];
    [|destruct (Z.eqb_spec c 7) as [->|]; [|destruct (Z.eqb_spec c 5) as [->|]]]]];
  (destruct (Z.eqb_spec r 0) as [->|]; [reflexivity|]); (destruct (Z.eqb_spec r 1) as [->|]; [reflexivity|]);
  (destruct (Z.eqb_spec r 2) as [->|]; [reflexivity|]); (destruct (Z.eqb_spec r 3) as [->|]; [reflexivity|]);
  (destruct (Z.eqb_spec r 4) as [->|]; [reflexivity|]); (destruct (Z.eqb_spec r 5) as [->|]; reflexivity).
Qed.

Lemma can_retry_matches_table :
  forall r p e, policy_of r = Some p -> e_nil e = false ->
    CanRetry r e = retryable p (classify e).
Proof. intros r p e Hp Hn. now rewrite (can_retry_class r e Hn), Hp. Qed.

Lemma can_retry_unknown_policy :
  forall r e, policy_of r = None -> e_nil e = false ->
    CanRetry r e = match classify e with Busy | Declined => true | _ => false end.
Proof. intros r e Hp Hn. now rewrite (can_retry_class r e Hn), Hp. Qed.

Definition outcome_of (f : attempt_fn) (sels : Z -> list (list Z)) (k : Z) := fst (f k (sels k)).

(* The selected-peer set seen by an attempt is exactly what the earlier attempts added:
   the first attempt sees the initial set; each later attempt sees its predecessor's set
   plus what the predecessor marked (host:port and host). *)
Fixpoint chain_ok (f : attempt_fn) (prev : attempt_obs) (l : list attempt_obs) : Prop :=
  match l with
  | [] => True
  | o :: r => ao_seen o = fold_left add_selected (snd (f (ao_attempt prev) (ao_seen prev))) (ao_seen prev)
              /\ chain_ok f o r
  end.

Section Loop.
  Variable ron : Z.
  Variable f : attempt_fn.

  Lemma attempts_ext n : forall attempt sel last log,
    exists ext, snd (attempts n attempt ron f sel last log) = log ++ ext /\
      (length ext <= n)%nat /\
      (n <> O -> ext <> []) /\
      map ao_attempt ext = map (fun i => attempt + 1 + Z.of_nat i) (seq 0 (length ext)) /\
      match ext with [] => True | o :: r => ao_seen o = sel /\ chain_ok f o r end.
  Proof.
    induction n as [|n IH]; intros attempt sel last log; cbn [attempts].
    - exists []. rewrite app_nil_r. repeat split; auto; congruence.
    - destruct (f (attempt + 1) sel) as [err added] eqn:Hf.
      set (o := {| ao_attempt := attempt + 1; ao_seen := sel |}).
      assert (Hone : map ao_attempt [o] = map (fun i => attempt + 1 + Z.of_nat i) (seq 0 1)).
      { cbn. f_equal. lia. }
      destruct (e_nil err).
      { exists [o]. cbn [snd length chain_ok]. repeat split; auto; try lia; congruence. }
      destruct (negb (CanRetry ron err)).
      { exists [o]. cbn [snd length chain_ok]. repeat split; auto; try lia; congruence. }
      destruct (IH (attempt + 1) (fold_left add_selected added sel) err (log ++ [o]))
        as (ext & H1 & H2 & _ & H4 & H5).
      exists (o :: ext). rewrite H1, <- app_assoc. repeat split; auto.
      + cbn. lia.
      + congruence.
      + cbn [map length seq]. f_equal; [cbn; lia|].
        rewrite H4. rewrite <- seq_shift, map_map. apply map_ext. intros; lia.
      + destruct ext as [|o' r]; cbn [chain_ok]; auto. destruct H5 as [A C]. split; [|exact C].
        rewrite A. unfold o. cbn [ao_attempt ao_seen]. now rewrite Hf.
  Qed.

  Lemma attempts_log_prefix n : forall attempt sel last log,
    exists ext, snd (attempts n attempt ron f sel last log) = log ++ ext.
  Proof. intros attempt sel last log. destruct (attempts_ext n attempt sel last log) as (ext & H & _). eauto. Qed.
End Loop.

(* Reference semantics: the trace of the first [n] attempts, as a relation-free function
   of the per-attempt results (independent of how the loop is coded). *)
Fixpoint ref_run (n : nat) (ron : Z) (outs : list goerr) (last : goerr) : goerr * nat :=
  match n, outs with
  | O, _ => (last, O)
  | _, [] => (last, O)
  | S n', e :: rest =>
      if e_nil e then (nil_err, 1%nat)
      else if CanRetry ron e then let '(r, k) := ref_run n' ron rest e in (r, S k)
      else (e, 1%nat)
  end.

Lemma attempts_ref ron : forall n outs attempt sel last log (f : attempt_fn),
  (n <= length outs)%nat ->
  (forall a s, attempt < a -> fst (f a s) = nth (Z.to_nat (a - attempt - 1)) outs nil_err) ->
  fst (attempts n attempt ron f sel last log) = fst (ref_run n ron outs last) /\
  length (snd (attempts n attempt ron f sel last log)) = (length log + snd (ref_run n ron outs last))%nat.
Proof.
  induction n as [|n IH]; intros outs attempt sel last log f Hn Hf; cbn [attempts ref_run].
  - cbn. split; auto.
  - destruct outs as [|e rest]; [cbn in Hn; lia|].
    pose proof (Hf (attempt + 1) sel ltac:(lia)) as H1.
    replace (attempt + 1 - attempt - 1) with 0 in H1 by lia. cbn [Z.to_nat nth] in H1.
    destruct (f (attempt + 1) sel) as [err added]. cbn [fst] in H1. subst err.
    destruct (e_nil e). { cbn. rewrite app_length. cbn. split; auto. }
    destruct (CanRetry ron e); cbn [negb].
    2:{ cbn. rewrite app_length. cbn. split; auto. }
    destruct (IH rest (attempt + 1) (fold_left add_selected added sel) e
                 (log ++ [{| ao_attempt := attempt + 1; ao_seen := sel |}]) f
                 ltac:(cbn in Hn; lia)) as [A B].
    { intros a s Ha. rewrite Hf by lia.
      replace (Z.to_nat (a - attempt - 1)) with (S (Z.to_nat (a - (attempt + 1) - 1))) by lia.
      reflexivity. }
    destruct (ref_run n ron rest e) as [r k] eqn:E. cbn [fst snd] in *.
    rewrite A, B. rewrite app_length. cbn. split; auto. lia.
Qed.

(* Budget: default 5 when MaxAttempts is 0 or no options are given. *)
Lemma budget_default o :
  max_attempts (get_retry_options o) =
  match o with None => 5 | Some o => if max_attempts o =? 0 then 5 else max_attempts o end.
Proof. destruct o as [o|]; cbn; [destruct (max_attempts o =? 0)|]; reflexivity. Qed.

Theorem run_calls_bounded o f :
  let r := run_with_retry o f in
  let m := max_attempts (get_retry_options o) in
  1 <= m ->
  (1 <= length (snd r))%nat /\ Z.of_nat (length (snd r)) <= m /\
  map ao_attempt (snd r) = map (fun i => 1 + Z.of_nat i) (seq 0 (length (snd r))).
Proof.
  cbn zeta. intros Hm. unfold run_with_retry.
  destruct (attempts_ext (retry_on (get_retry_options o)) f
              (Z.to_nat (max_attempts (get_retry_options o))) 0 [] nil_err [])
    as (ext & H1 & H2 & H3 & H4 & _).
  rewrite H1. cbn [app].
  assert (ext <> []) by (apply H3; lia).
  repeat split.
  - destruct ext; [congruence|cbn; lia].
  - lia.
  - exact H4.
Qed.

Theorem run_seen o f :
  match snd (run_with_retry o f) with
  | [] => True
  | o1 :: r => ao_seen o1 = [] /\ ao_attempt o1 = 1 /\ chain_ok f o1 r
  end.
Proof.
  unfold run_with_retry.
  destruct (attempts_ext (retry_on (get_retry_options o)) f
             (Z.to_nat (max_attempts (get_retry_options o))) 0 [] nil_err []) as (ext & H1 & _ & _ & H4 & H5).
  rewrite H1. cbn [app]. destruct ext as [|o1 r]; [exact I|].
  destruct H5 as [A C]. injection H4 as H4 _. auto.
Qed.

Theorem run_ref o (outs : list goerr) (f : attempt_fn) :
  let opts := get_retry_options o in
  let n := Z.to_nat (max_attempts opts) in
  (n <= length outs)%nat ->
  (forall a s, 0 < a -> fst (f a s) = nth (Z.to_nat (a - 1)) outs nil_err) ->
  fst (run_with_retry o f) = fst (ref_run n (retry_on opts) outs nil_err) /\
  length (snd (run_with_retry o f)) = snd (ref_run n (retry_on opts) outs nil_err).
Proof.
  cbn zeta. intros Hn Hf. unfold run_with_retry.
  apply (attempts_ref (retry_on (get_retry_options o)) 
               (Z.to_nat (max_attempts (get_retry_options o))) outs 0 [] nil_err [] f Hn).
  intros a s Ha. rewrite Hf by lia. f_equal. lia.
Qed.

(* ref_run, read as the statement: it stops at the first success (returning nil), at the
   first non-retryable error (returning it), or after n attempts (returning the last). *)
Lemma ref_run_spec ron : forall n outs last r k, ref_run n ron outs last = (r, k) ->
  (n <= length outs)%nat ->
  (k <= n)%nat /\
  (forall i, (i + 1 < k)%nat -> e_nil (nth i outs nil_err) = false /\ CanRetry ron (nth i outs nil_err) = true) /\
  (k = O -> r = last /\ n = O) /\
  (k <> O -> let e := nth (k - 1) outs nil_err in
     (e_nil e = true /\ r = nil_err) \/
     (e_nil e = false /\ r = e /\ (CanRetry ron e = false \/ k = n))).
Proof.
  induction n as [|n IH]; intros outs last r k H Hn; cbn [ref_run] in H.
  - inversion H; subst. split; [lia|]. split; [intros; lia|]. split; [auto|congruence].
  - destruct outs as [|e rest]; [cbn in Hn; lia|].
    destruct (e_nil e) eqn:En.
    { inversion H; subst. split; [lia|]. split; [intros; lia|]. split; [congruence|].
      intros _. cbn. left. auto. }
    destruct (CanRetry ron e) eqn:Ec.
    2:{ inversion H; subst. split; [lia|]. split; [intros; lia|]. split; [congruence|].
        intros _. cbn. right. auto. }
    destruct (ref_run n ron rest e) as [r' k'] eqn:E. inversion H; subst r k. clear H.
    destruct (IH rest e r' k' E ltac:(cbn in Hn; lia)) as [A [B [C D]]].
    split; [lia|]. split; [|split; [congruence|]].
    + intros i Hi. destruct i; cbn [nth]; auto. apply B. lia.
    + intros _. destruct k' as [|k'].
      * destruct (C eq_refl) as [-> ->]. cbn. right. auto.
      * specialize (D ltac:(lia)). cbn zeta in D. cbn [Nat.sub nth] in *.
        replace (k' - 0)%nat with k' in * by lia.
        destruct D as [[D1 D2]|[D1 [D2 D3]]]; [left; auto|].
        right. split; [auto|]. split; [auto|]. destruct D3; [left; auto|right; lia].
Qed.

Theorem run_stop : forall o outs f,
  let opts := get_retry_options o in
  let n := Z.to_nat (max_attempts opts) in
  (n <= length outs)%nat ->
  (forall a s, 0 < a -> fst (f a s) = nth (Z.to_nat (a - 1)) outs nil_err) ->
  let r := fst (run_with_retry o f) in
  let k := length (snd (run_with_retry o f)) in
  (k <= n)%nat /\
  (forall i, (i + 1 < k)%nat -> e_nil (nth i outs nil_err) = false /\ CanRetry (retry_on opts) (nth i outs nil_err) = true) /\
  (k <> O -> let e := nth (k - 1) outs nil_err in
     (e_nil e = true /\ r = nil_err) \/
     (e_nil e = false /\ r = e /\ (CanRetry (retry_on opts) e = false \/ k = n))).
Proof.
  intros o outs f opts n Hn Hf. cbn zeta.
  destruct (run_ref o outs f Hn Hf) as [A B]. fold opts in A, B. fold n in A, B.
  destruct (ref_run n (retry_on opts) outs nil_err) as [r k] eqn:E. cbn [fst snd] in A, B.
  destruct (ref_run_spec _ _ _ _ _ _ E Hn) as [H1 [H2 [H3 H4]]].
  rewrite A, B. split; [exact H1|]. split; [exact H2|exact H4].
Qed.
