(* Proofs about Model/RespWire.v (property C10, server side): for every run, for every id
   that is requested at most once and whose handler does not misuse SendSystemError, the
   frames enqueued for the id form a prefix of an accepted word of Spec/WireOk.v.

   The proofs of the invariant do not unfold [step]: [step_cases] sorts a step into a handler API call
   ([hstep_shape]: what it does to the record of its call and to the ghost lists), a step that
   touches exchange and connection state only ([qstep]), or one of the three steps of
   handleCallReq, given by their result. *)
From Coq Require Import ZArith List Bool Lia.
From Verif Require Import Base.Wire Spec.WireOk Proofs.WireOkP Model.ArgHelper Model.RespWire.
Import ListNotations.
Local Open Scope Z_scope.

Lemma get_put_same id c l : get id (put id c l) = Some c.
Proof.
  induction l as [|[k c0] r IH]; cbn [put get].
  - rewrite Z.eqb_refl. reflexivity.
  - destruct (k =? id) eqn:E; cbn [get]; rewrite E; [reflexivity | exact IH].
Qed.

Lemma get_put_other id id' c l : id <> id' -> get id (put id' c l) = get id l.
Proof.
  intros N. induction l as [|[k c0] r IH]; cbn [put get].
  - destruct (id' =? id) eqn:E; [apply Z.eqb_eq in E; congruence | reflexivity].
  - destruct (k =? id') eqn:E; cbn [get].
    + apply Z.eqb_eq in E. subst k. destruct (id' =? id) eqn:E2; [apply Z.eqb_eq in E2; congruence | reflexivity].
    + destruct (k =? id); [reflexivity | exact IH].
Qed.

Lemma put_get id c l : get id l = Some c -> put id c l = l.
Proof.
  induction l as [|[k c0] r IH]; cbn [put get]; [discriminate|].
  destruct (k =? id); intros H; [inversion H; reflexivity | rewrite (IH H); reflexivity].
Qed.

Lemma get_map_notify id l :
  get id (map notify_in_ex l) = option_map notify (get id l).
Proof.
  induction l as [|[k c0] r IH]; cbn [map get notify_in_ex fst snd option_map].
  - reflexivity.
  - destruct (k =? id); [reflexivity | exact IH].
Qed.

Lemma proj_app id l1 l2 : proj id (l1 ++ l2) = proj id l1 ++ proj id l2.
Proof.
  induction l1 as [|[i k] r IH]; cbn [proj app]; [reflexivity|].
  destruct (i =? id); cbn [app]; rewrite IH; reflexivity.
Qed.

Lemma proj_same id fr : proj id (map (pair id) fr) = fr.
Proof. induction fr as [|k r IH]; cbn [map proj]; [|rewrite Z.eqb_refl, IH]; reflexivity. Qed.

Lemma proj_other id id' fr : id <> id' -> proj id (map (pair id') fr) = [].
Proof.
  intros N. induction fr as [|k r IH]; cbn [map proj]; [reflexivity|].
  destruct (id' =? id) eqn:E; [apply Z.eqb_eq in E; congruence | exact IH].
Qed.

Lemma proj_snoc_same id l k : proj id (l ++ [(id, k)]) = proj id l ++ [k].
Proof. rewrite proj_app. cbn [proj]. rewrite Z.eqb_refl. reflexivity. Qed.

Lemma proj_snoc_other id id' l k : id <> id' -> proj id (l ++ [(id', k)]) = proj id l.
Proof. intros N. rewrite proj_app. exact (eq_trans (f_equal _ (proj_other id id' [k] N)) (app_nil_r _)). Qed.

Lemma count_req_app id l1 l2 : count_req id (l1 ++ l2) = (count_req id l1 + count_req id l2)%nat.
Proof.
  induction l1 as [|x r IH]; cbn [count_req app]; [reflexivity|].
  destruct (x =? id); rewrite IH; reflexivity.
Qed.

Lemma count_req_snoc_same id l : count_req id (l ++ [id]) = S (count_req id l).
Proof. rewrite count_req_app. cbn [count_req]. rewrite Z.eqb_refl. lia. Qed.

Lemma count_req_snoc_other id id' l : id <> id' -> count_req id (l ++ [id']) = count_req id l.
Proof.
  intros N. rewrite count_req_app. cbn [count_req].
  destruct (id' =? id) eqn:E; [apply Z.eqb_eq in E; congruence | lia].
Qed.

Lemma Some_inj {A} (a b : A) : Some a = Some b -> a = b.
Proof. intros H; inversion H; reflexivity. Qed.

Ltac fields :=
  cbn [f_cur f_state f_err f_first g_dones h_pc m_ctx m_loc m_errch m_shut w_err w_state rd_err e_pc g_rets
       ret upd_f upd_pc upd_w upd_mex upd_epc upd_dones set_ferr] in *.

Definition notlive (c : call) : Prop := m_ctx c <> CtxLive.

(* [c'] is [c] with other exchange fields (and expiry pc): mex.shutdown, the context's cancel func,
   stopExchanges, the expiry goroutine.  The context does not come back to life and the
   exchange does not come back into the map. *)
Definition mexvar (c c' : call) : Prop :=
  exists loc cx ech sh ep,
    c' = upd_epc (upd_mex c loc cx ech sh) ep /\ (notlive c -> notlive c') /\ (in_ex c' = true -> in_ex c = true).

Lemma mexvar_refl c : mexvar c c.
Proof.
  exists (m_loc c), (m_ctx c), (m_errch c), (m_shut c), (e_pc c).
  split; [destruct c; reflexivity | split; exact (fun H => H)].
Qed.

Lemma mexvar_trans a b c : mexvar a b -> mexvar b c -> mexvar a c.
Proof.
  intros (l1 & x1 & e1 & s1 & p1 & -> & X1 & L1) (l2 & x2 & e2 & s2 & p2 & -> & X2 & L2).
  exists l2, x2, e2, s2, p2. split; [reflexivity | split].
  - intros N. apply X2, X1, N.
  - intros E. apply L1, L2, E.
Qed.

Lemma mexvar_shut c c1 chk : shut_call c = (c1, chk) -> mexvar c c1.
Proof.
  unfold shut_call. destruct (m_shut c); intros H; inversion H; subst; [apply mexvar_refl|].
  exists Gone, (m_ctx c), true, true, (e_pc c).
  split; [reflexivity | split; [exact (fun N => N) | discriminate]].
Qed.

Lemma mexvar_cancel c : mexvar c (cancel_call c) /\ notlive (cancel_call c).
Proof.
  assert (N : notlive (cancel_call c)) by (unfold notlive, cancel_call; cbn; destruct (m_ctx c); discriminate).
  split; [|exact N].
  exists (m_loc c), (match m_ctx c with CtxLive => CtxCanceled | x => x end), (m_errch c), (m_shut c), (e_pc c).
  split; [reflexivity | split; [intros _; exact N | exact (fun H => H)]].
Qed.

Lemma mexvar_expire c : mexvar c (expire_call c).
Proof.
  exists (match m_loc c with Gone => Gone | _ => InExpired end), (m_ctx c), (m_errch c), (m_shut c), (e_pc c).
  split; [reflexivity | split; [exact (fun N => N) | unfold in_ex; cbn; destruct (m_loc c); discriminate]].
Qed.

Lemma mexvar_notify c : mexvar c (notify c).
Proof.
  unfold notify. destruct (in_ex c); [|apply mexvar_refl].
  exists (m_loc c), (m_ctx c), true, (m_shut c), (e_pc c).
  split; [reflexivity | split; exact (fun N => N)].
Qed.

Lemma mexvar_epc c p : mexvar c (upd_epc c p).
Proof.
  exists (m_loc c), (m_ctx c), (m_errch c), (m_shut c), p.
  split; [destruct c; reflexivity | split; exact (fun N => N)].
Qed.

(* reqres.go failed: mex.shutdown (unless the response had failed before), response.err set *)
Lemma failed_call_eq c c1 chk :
  failed_call c = (c1, chk) -> exists c2, mexvar c c2 /\ c1 = upd_w c2 true (w_state c2) (rd_err c2).
Proof.
  unfold failed_call. destruct (w_err c) eqn:W.
  - intros H; inversion H; subst. exists c1.
    split; [apply mexvar_refl | destruct c1; cbn in W; subst; reflexivity].
  - destruct (shut_call c) as [c2 chk2] eqn:E. intros H; inversion H; subst.
    exists c2. split; [eapply mexvar_shut; exact E | reflexivity].
Qed.

(* doneSending: the context is cancelled, the exchange shut down unless the response had failed *)
Lemma done_sending_eq c c2 chk :
  done_sending c = (c2, chk) -> exists c1, mexvar c c1 /\ notlive c1 /\ c2 = upd_dones c1.
Proof.
  unfold done_sending. destruct (mexvar_cancel c) as [M N]. destruct (w_err (cancel_call c)).
  - intros H; inversion H; subst. exists (cancel_call c). auto.
  - destruct (shut_call (cancel_call c)) as [c3 chk3] eqn:E. apply mexvar_shut in E.
    intros H; inversion H; subst. exists c3.
    split; [eapply mexvar_trans; eassumption | split; [destruct E as (? & ? & ? & ? & ? & -> & X & _); exact (X N) | reflexivity]].
Qed.

Lemma check_error_false c : check_error c = false -> m_ctx c = CtxLive.
Proof. unfold check_error. destruct (m_ctx c); [reflexivity | discriminate | discriminate]. Qed.

(* ArgWriteHelper.write closes its writer exactly when f() succeeded (computed from Model/ArgHelper.v) *)
Lemma helper_closes_eq ok : helper_closes ok = ok.
Proof. destruct ok; reflexivity. Qed.

Lemma get_commit_same st id c chk : get id (calls (commit st id c chk)) = Some c.
Proof. unfold commit. destruct chk; cbn; apply get_put_same. Qed.

Lemma get_commit_other st id c chk x : x <> id -> get x (calls (commit st id c chk)) = get x (calls st).
Proof. intros N. unfold commit. destruct chk; cbn; apply get_put_other; exact N. Qed.

Lemma sent_commit st id c chk : sent (commit st id c chk) = sent st.
Proof. unfold commit. destruct chk; reflexivity. Qed.

Lemma rd_commit st id c chk : rd_pc (commit st id c chk) = rd_pc st.
Proof. unfold commit. destruct chk; reflexivity. Qed.

Lemma req_commit st id c chk : requested (commit st id c chk) = requested st.
Proof. unfold commit. destruct chk; reflexivity. Qed.

Lemma mis_commit st id c chk : misused (commit st id c chk) = misused st.
Proof. unfold commit. destruct chk; reflexivity. Qed.

(* connection.go SendSystemError queues the frame or refuses it, and does nothing else *)
Lemma send_syserr_cases st id full :
  fst (conn_send_syserr st id full) = st \/ fst (conn_send_syserr st id full) = enqueue st id Err.
Proof. unfold conn_send_syserr. destruct (cst st), full; cbn; auto. Qed.

Lemma close_fields st :
  calls (conn_close st) = calls st /\ sent (conn_close st) = sent st /\
  requested (conn_close st) = requested st /\ rd_pc (conn_close st) = rd_pc st /\
  misused (conn_close st) = misused st.
Proof. unfold conn_close. destruct (cst st); cbn; auto. Qed.

Lemma stop_fields st :
  sent (conn_stop st) = sent st /\ requested (conn_stop st) = requested st /\
  rd_pc (conn_stop st) = rd_pc st /\ misused (conn_stop st) = misused st.
Proof. unfold conn_stop. destruct (stopped st), (mexset_shut st); cbn; auto. Qed.

Definition log (st : state) (m : list Z) (t : list (Z * kind)) : state :=
  {| cst := cst st; stopped := stopped st; mexset_shut := mexset_shut st; n_out := n_out st;
     propagate := propagate st; rd_pc := rd_pc st; calls := calls st; requested := requested st;
     misused := misused st ++ m; sent := sent st ++ t |}.

Lemma log_nil st : log st [] [] = st.
Proof. destruct st. unfold log. cbn. rewrite !app_nil_r. reflexivity. Qed.

Lemma log_log st m t m' t' : log (log st m t) m' t' = log st (m ++ m') (t ++ t').
Proof. unfold log. cbn. rewrite !app_assoc. reflexivity. Qed.

Lemma enqueue_log st id k : enqueue st id k = log st [] [(id, k)].
Proof. destruct st. unfold enqueue, log. cbn. rewrite app_nil_r. reflexivity. Qed.

Lemma add_misused_log st id : add_misused st id = log st [id] [].
Proof. destruct st. unfold add_misused, log. cbn. rewrite app_nil_r. reflexivity. Qed.

(* ---- the steps, sorted ---------------------------------------------------------------------- *)

Definition neutral (r : rpc) : Prop :=
  match r with RChecked _ | RAdded _ => False | _ => True end.

(* steps that touch neither the frame log nor a writer: deadline timers, expiry goroutines, cancel
   frames, protocolError's close and stopExchanges, connection close / failure, outbound calls *)
Inductive qstep : state -> state -> Prop :=
| q_refl st : qstep st st
| q_mex st id c c' chk : get id (calls st) = Some c -> mexvar c c' -> qstep st (commit st id c' chk)
| q_close st : qstep st (conn_close st)
| q_stop st : qstep st (conn_stop st)
| q_nout st n : qstep st (set_nout st n)
| q_check st st' : qstep st st' -> qstep st (check_exchanges st')
| q_rd st st' r : qstep st st' -> neutral r -> qstep st (set_rd st' r).

(* the call whose handler makes the API call [l] *)
Definition lid (l : label) : option Z :=
  match l with
  | HStart id _ | HResp id | HReadFail id _ | HArgWriter id _ | HFlush id _ | HFlushSel id _
  | HNewFrag id | HClose id _ | HDone id | HSysErr id _ | HSetAppErr id | HBlackhole id
  | HHelperWrite id _ _ => Some id
  | _ => None
  end.

Fixpoint req_count (id : Z) (ls : list label) : nat :=
  match ls with
  | [] => O
  | RdCallReq1 i _ :: r => if i =? id then S (req_count id r) else req_count id r
  | _ :: r => req_count id r
  end.

(* the three steps of handleCallReq on the call req of id [rid] *)
Inductive rstep (st : state) (rid : Z) : label -> state -> Prop :=
  (* first state check: passed, or the call req is refused with an error frame *)
| rs_req1 full : rd_pc st = RIdle -> cst st = CActive ->
    rstep st rid (RdCallReq1 rid full) (set_rd (add_requested st rid) (RChecked rid))
| rs_req1_refuse full : rd_pc st = RIdle ->
    rstep st rid (RdCallReq1 rid full) (fst (conn_send_syserr (add_requested st rid) rid full))
  (* parse + newExchange: protocolError's frame, or the exchange is registered *)
| rs_req2_proto full : rd_pc st = RChecked rid ->
    rstep st rid (RdCallReq2 true full) (set_rd (fst (conn_send_syserr st rid full)) RProto1)
| rs_req2_new full : rd_pc st = RChecked rid ->
    rstep st rid (RdCallReq2 true full) (set_rd (set_calls st (put rid new_call (calls st))) (RAdded rid))
  (* state re-check: dispatch, or decline *)
| rs_req3 c full : rd_pc st = RAdded rid -> get rid (calls st) = Some c -> cst st = CActive ->
    rstep st rid (RdCallReq3 full) (set_rd (commit st rid (upd_pc c PNotStarted) false) RIdle)
| rs_req3_decline c c1 chk full : rd_pc st = RAdded rid -> get rid (calls st) = Some c ->
    shut_call c = (c1, chk) ->
    rstep st rid (RdCallReq3 full)
          (set_rd (commit (fst (conn_send_syserr st rid full)) rid (upd_pc c1 PDead) chk) RIdle).

Inductive stepk (st : state) : label -> state -> Prop :=
| sk_handler l id c st' :
    lid l = Some id -> get id (calls st) = Some c -> hstep st id c l = Some st' -> stepk st l st'
| sk_quiet l st' : lid l = None -> (forall id, req_count id [l] = O) -> qstep st st' -> stepk st l st'
| sk_reader l rid st' : rstep st rid l st' -> stepk st l st'.

Lemma step_cases st l st' : step st l = Some st' -> stepk st l st'.
Proof.
  intros H.
  assert (Q : forall s, qstep st s -> lid l = None -> (forall id, req_count id [l] = O) -> Some s = Some st' -> stepk st l st')
    by (intros s Hq L Rq E; apply Some_inj in E; subst s; apply sk_quiet; assumption).
  assert (W : forall id (f : call -> option state), with_call st id f = Some st' ->
                exists c, get id (calls st) = Some c /\ f c = Some st')
    by (unfold with_call; intros id f E; destruct (get id (calls st)) as [c|]; [eauto | discriminate]).
  destruct l; cbn [step] in H;
    try (apply W in H as (c & G & H); eapply sk_handler; [reflexivity | exact G | exact H]).
  - destruct (rd_pc st) eqn:Hrd; try discriminate.
    change (cst (add_requested st id)) with (cst st) in H.
    destruct (cst st) eqn:Ec; apply Some_inj in H; subst st'; eapply sk_reader; first [apply rs_req1; assumption | apply rs_req1_refuse; assumption].
  - destruct (rd_pc st) eqn:Hrd; try discriminate. destruct ok; cbn [negb] in H.
    + destruct (mexset_shut st || _); apply Some_inj in H; subst st'; eapply sk_reader; [apply rs_req2_proto | apply rs_req2_new]; assumption.
    + apply (Q _ (q_rd _ _ RIdle (q_refl st) I)); [reflexivity | reflexivity | exact H].
  - destruct (rd_pc st) eqn:Hrd; try discriminate. apply W in H as (c & G & H).
    destruct (cst st) eqn:Ec; [apply Some_inj in H; subst st'; eapply sk_reader, rs_req3; eassumption|..];
      (destruct (shut_call c) as [c1 chk] eqn:E; apply Some_inj in H; subst st'; eapply sk_reader, rs_req3_decline; eassumption).
  - destruct (rd_pc st); try discriminate.
    apply (Q _ (q_rd _ _ RProto2 (q_close st) I)); [reflexivity | reflexivity | exact H].
  - destruct (rd_pc st); try discriminate.
    apply (Q _ (q_rd _ _ RIdle (q_stop st) I)); [reflexivity | reflexivity | exact H].
  - destruct (rd_pc st); try discriminate.
    destruct (propagate st); [|apply (Q _ (q_refl st)); [reflexivity | reflexivity | exact H]].
    destruct (get id (calls st)) as [c|] eqn:G; [|apply (Q _ (q_refl st)); [reflexivity | reflexivity | exact H]].
    destruct (in_ex c); [|apply (Q _ (q_refl st)); [reflexivity | reflexivity | exact H]].
    apply (Q _ (q_mex st id c _ false G (proj1 (mexvar_cancel c)))); [reflexivity | reflexivity | exact H].
  - apply W in H as (c & G & H). destruct (m_ctx c) eqn:Ex; try discriminate.
    refine (Q _ (q_mex st id c _ false G _) eq_refl (fun _ => eq_refl) H).
    exists (m_loc c), CtxDeadline, (m_errch c), (m_shut c), (e_pc c).
    split; [reflexivity | split; [intros _; discriminate | exact (fun E => E)]].
  - apply W in H as (c & G & H). destruct (e_pc c); try discriminate.
    assert (M : mexvar c (upd_epc (expire_call c) EDone))
      by (eapply mexvar_trans; [apply mexvar_expire | apply mexvar_epc]).
    destruct (m_ctx c); try discriminate; exact (Q _ (q_mex st id c _ true G M) eq_refl (fun _ => eq_refl) H).
  - apply W in H as (c & G & H). destruct (e_pc c); try discriminate. destruct (m_errch c); try discriminate.
    refine (Q _ (q_mex st id c _ true G _) eq_refl (fun _ => eq_refl) H).
    eapply mexvar_trans; [apply mexvar_cancel|]. eapply mexvar_trans; [apply mexvar_expire | apply mexvar_epc].
  - exact (Q _ (q_close st) eq_refl (fun _ => eq_refl) H).
  - exact (Q _ (q_stop st) eq_refl (fun _ => eq_refl) H).
  - exact (Q _ (q_check _ _ (q_refl st)) eq_refl (fun _ => eq_refl) H).
  - exact (Q _ (q_nout st _) eq_refl (fun _ => eq_refl) H).
  - destruct (0 <? n_out st); [|discriminate].
    exact (Q _ (q_check _ _ (q_nout st _)) eq_refl (fun _ => eq_refl) H).
Qed.

(* ---- what a handler API call does ---------------------------------------------------------------

   [hstep st id c l] replaces the record [c] of call [id] by some [c'] (then checkExchanges, if
   the exchange was removed), appends [m] to [misused] and the frames [fr] of the id to the log.
   [hrel]: what no handler step undoes (location, context, response.err), and where the pc, the
   frames and a misuse can come from. *)
Record hrel (l : label) (c c' : call) (m : list Z) (fr : list kind) : Prop := {
  hr_pc : h_pc c <> PAdmit /\ h_pc c <> PDead;
  hr_loc : in_ex c' = true -> in_ex c = true;
  hr_live : notlive c -> notlive c';
  hr_werr : w_err c = true -> w_err c' = true;
  hr_dones : g_dones c' = g_dones c \/
             g_dones c' = true /\ notlive c' /\ ((exists i, l = HDone i) \/ exists i f, l = HSysErr i f);
  (* the select of flushFragment is reached past checkError only *)
  hr_sel : forall f, h_pc c' = PFlushSel f -> m_ctx c = CtxLive;
  (* doneSending is reached after the final fragment was enqueued, or with response.err set *)
  hr_done : h_pc c' = PDone -> (exists i, l = HFlushSel i true) \/ w_err c' = true;
  hr_fr : fr = [] \/ (exists f, h_pc c = PFlushSel f) /\ length fr = 1%nat \/ fr = [Err];
  hr_mis : m = [] \/ g_dones c = true /\ w_err c = false /\ h_pc c = PIdle /\ exists i f, l = HSysErr i f
}.

Inductive hshape (st : state) (id : Z) (l : label) (c : call) : state -> Prop :=
| hshape_intro c' chk m fr :
    hrel l c c' m fr -> (m = [] \/ m = [id]) ->
    hshape st id l c (commit (log st m (map (pair id) fr)) id c' chk).

Lemma hs_commit st id l c c' chk : hrel l c c' [] [] -> hshape st id l c (commit st id c' chk).
Proof.
  intros H. replace (commit st id c' chk) with (commit (log st [] (map (pair id) [])) id c' chk)
    by (cbn [map]; rewrite log_nil; reflexivity).
  apply hshape_intro; auto.
Qed.

Lemma hshape_upd_f st id l c fs fe cur first s :
  hshape st id l (upd_f c fs fe cur first) s -> hshape st id l c s.
Proof. intros [c' chk m fr [] M]. apply hshape_intro; [split; assumption | exact M]. Qed.

Ltac failed E :=
  apply failed_call_eq in E as (? & (? & ? & ? & ? & ? & -> & ? & ?) & ->).

Ltac hr :=
  split; unfold notlive, in_ex in *; fields;
  solve [auto | intros; discriminate | intuition congruence | eauto 6].

Lemma hs_flush1 st id l c final : h_pc c = PIdle -> hshape st id l c (flush1 st id c final).
Proof.
  intros Hpc. unfold flush1. destruct (w_err c) eqn:We.
  - apply hs_commit. destruct final; hr.
  - destruct (check_error c) eqn:Ce.
    + destruct (failed_call c) as [c1 chk] eqn:Fc. failed Fc. apply hs_commit. destruct final; hr.
    + apply check_error_false in Ce. apply hs_commit. hr.
Qed.

Lemma hs_arg_writer st id l c k : h_pc c = PIdle -> hshape st id l c (arg_writer st id c k).
Proof.
  intros Hpc. unfold arg_writer.
  repeat match goal with
         | |- hshape _ _ _ _ (commit _ _ _ _) => apply hs_commit; hr
         | |- hshape _ _ _ _ (let '(_, _) := failed_call ?x in _) =>
             let E := fresh "E" in destruct (failed_call x) eqn:E; failed E
         | |- hshape _ _ _ _ (if ?b then _ else _) => destruct b
         | |- hshape _ _ _ _ (match ?x with _ => _ end) => destruct x
         end.
Qed.

Lemma hs_hclose st id l c ff st' :
  h_pc c = PIdle -> hclose st id c ff = Some st' -> hshape st id l c st'.
Proof.
  intros Hpc H. unfold hclose in H.
  destruct (f_err c). { apply Some_inj in H; subst st'. apply hs_commit; hr. }
  destruct (f_state c).
  - apply Some_inj in H; subst st'. apply hs_commit; hr.
  - destruct (negb ff).
    + apply Some_inj in H; subst st'. apply hs_commit; hr.
    + destruct (negb _); [discriminate|]. apply Some_inj in H; subst st'.
      eapply hshape_upd_f, hs_flush1; exact Hpc.
  - destruct (negb _); [discriminate|]. apply Some_inj in H; subst st'.
    eapply hshape_upd_f, hs_flush1; exact Hpc.
  - apply Some_inj in H; subst st'. apply hs_commit; hr.
  - apply Some_inj in H; subst st'. apply hs_commit; hr.
Qed.

Lemma commit_log st id c' chk m t :
  commit (log st m t) id c' chk = log (commit st id c' chk) m t.
Proof. destruct chk; reflexivity. Qed.

Lemma hstep_shape st id c l st' :
  get id (calls st) = Some c -> hstep st id c l = Some st' -> hshape st id l c st'.
Proof.
  intros Hg H. unfold hstep in H.
  destruct l; destruct (h_pc c) eqn:Hpc; try discriminate.
  - (* HStart *)
    destruct ok.
    + apply Some_inj in H; subst st'. apply hs_commit; hr.
    + destruct (shut_call c) as [c1 chk] eqn:E. apply mexvar_shut in E as (? & ? & ? & ? & ? & -> & ? & ?).
      apply Some_inj in H; subst st'. apply hs_commit; hr.
  - (* HResp *)
    apply Some_inj in H; subst st'. apply hs_commit. destruct (rd_err c); hr.
  - (* HReadFail *)
    destruct (rd_err c).
    + apply Some_inj in H; subst st'.
      replace st with (commit st id c false) at 2
        by (unfold commit, set_calls; rewrite (put_get _ _ _ Hg); destruct st; reflexivity).
      apply hs_commit; hr.
    + destruct shut.
      * destruct (shut_call c) as [c1 chk] eqn:E. apply mexvar_shut in E as (? & ? & ? & ? & ? & -> & ? & ?).
        apply Some_inj in H; subst st'. apply hs_commit; hr.
      * apply Some_inj in H; subst st'. apply hs_commit; hr.
  - (* HArgWriter *)
    apply Some_inj in H; subst st'. apply hs_arg_writer; exact Hpc.
  - (* HFlush *)
    destruct (viaWrite && f_err c). { apply Some_inj in H; subst st'. apply hs_commit; hr. }
    destruct (viaWrite && negb (writing (f_state c))). { apply Some_inj in H; subst st'. apply hs_commit; hr. }
    destruct (negb (f_cur c)); [discriminate|].
    apply Some_inj in H; subst st'. apply hs_flush1; exact Hpc.
  - (* HFlushSel *)
    destruct enq.
    + apply Some_inj in H; subst st'.
      rewrite enqueue_log, <- commit_log.
      apply (hshape_intro st id _ c _ false [] [_]); [destruct final; hr | auto].
    + destruct (check_error c); [|discriminate].
      destruct (failed_call c) as [c1 chk] eqn:Fc. failed Fc.
      apply Some_inj in H; subst st'. apply hs_commit. destruct final; hr.
  - (* HNewFrag *)
    destruct (check_error c).
    + destruct (failed_call c) as [c1 chk] eqn:Fc. failed Fc.
      apply Some_inj in H; subst st'. apply hs_commit; hr.
    + apply Some_inj in H; subst st'. apply hs_commit; hr.
  - (* HClose *)
    eapply hs_hclose; eassumption.
  - (* HDone *)
    destruct (done_sending c) as [c1 chk] eqn:Ds.
    apply done_sending_eq in Ds as (? & (? & ? & ? & ? & ? & -> & ? & ?) & ? & ->).
    apply Some_inj in H; subst st'. apply hs_commit. destruct (f_err _); hr.
  - (* HSysErr: the misuse is recorded, the frame queued or refused, then doneSending *)
    destruct (w_err c) eqn:We. { apply Some_inj in H; subst st'. apply hs_commit; hr. }
    set (st0 := if g_dones c then add_misused st id else st) in *.
    pose proof (send_syserr_cases st0 id full) as Cs.
    destruct (conn_send_syserr st0 id full) as [st1 ok]. cbn [fst] in Cs.
    destruct (done_sending _) as [c1 chk] eqn:Ds.
    apply done_sending_eq in Ds as (? & (loc & cx & ech & sh & ep & -> & ? & ?) & ? & ->).
    apply Some_inj in H; subst st'.
    assert (HR : forall m fr, m = [] \/ g_dones c = true -> fr = [] \/ fr = [Err] ->
              hrel (HSysErr id0 full) c
                   (ret (upd_dones (upd_epc (upd_mex (upd_w c false WComplete (rd_err c)) loc cx ech sh) ep))
                        (if ok then 0 else 1)) m fr).
    { intros m fr Hm Hf. split; unfold notlive, in_ex in *; fields.
      - split; congruence.
      - assumption.
      - auto.
      - congruence.
      - right. split; [reflexivity|]. split; [assumption|]. right. eauto.
      - intros; discriminate.
      - intros; discriminate.
      - destruct Hf as [-> | ->]; auto.
      - destruct Hm as [-> | Gd]; [auto | right; eauto 6]. }
    unfold st0 in Cs. destruct (g_dones c) eqn:Gd; destruct Cs as [-> | ->];
      rewrite ?enqueue_log, ?add_misused_log, ?log_log; cbn [app].
    + apply (hshape_intro st id _ c _ chk [id] []); auto.
    + apply (hshape_intro st id _ c _ chk [id] [Err]); auto.
    + apply hs_commit; auto.
    + apply (hshape_intro st id _ c _ chk [] [Err]); auto.
  - (* HSetAppErr *)
    destruct (w_state c);
      try (apply Some_inj in H; subst st'; apply hs_commit; hr);
      destruct (failed_call c) as [c1 chk] eqn:Fc; failed Fc;
      apply Some_inj in H; subst st'; apply hs_commit; hr.
  - (* HBlackhole *)
    destruct (mexvar_cancel c) as [(? & ? & ? & ? & ? & E & ? & ?) _].
    apply Some_inj in H; subst st'. rewrite E in *. apply hs_commit; hr.
  - (* HHelperWrite *)
    rewrite helper_closes_eq in H. destruct ok.
    + eapply hs_hclose; eassumption.
    + apply Some_inj in H; subst st'. apply hs_commit; hr.
Qed.

Lemma qstep_ghost st st' :
  qstep st st' -> sent st' = sent st /\ requested st' = requested st /\ misused st' = misused st.
Proof.
  induction 1 as [| | st | st | | |]; cbn [sent requested misused set_nout check_exchanges set_cst set_rd];
    rewrite ?sent_commit, ?req_commit, ?mis_commit; auto.
  - destruct (close_fields st) as (_ & A & B & _ & C). auto.
  - destruct (stop_fields st) as (A & B & _ & C). auto.
Qed.

Lemma step_ghost st l st' id : step st l = Some st' ->
  count_req id (requested st') = (count_req id (requested st) + req_count id [l])%nat /\
  (exists t, sent st' = sent st ++ t) /\
  (misused st' = misused st \/ exists i, lid l = Some i /\ misused st' = misused st ++ [i]).
Proof.
  intros H. destruct (step_cases _ _ _ H) as [l i c st' L G Hs | l st' L Rq Q | l rid st' Rs].
  - destruct (hstep_shape _ _ _ _ _ G Hs) as [c' chk m fr _ M].
    rewrite req_commit, sent_commit, mis_commit. cbn [requested sent misused log].
    split; [destruct l; try discriminate L; cbn; lia|]. split; [eauto|].
    destruct M as [-> | ->]; [left; apply app_nil_r | right; eauto].
  - destruct (qstep_ghost _ _ Q) as (-> & -> & ->). rewrite Rq. split; [lia|].
    split; [exists []; symmetry; apply app_nil_r | auto].
  - assert (N : forall s : state, exists t, sent s = sent s ++ t) by (exists []; symmetry; apply app_nil_r).
    destruct Rs; try destruct (send_syserr_cases (add_requested st rid) rid full) as [-> | ->];
      try destruct (send_syserr_cases st rid full) as [-> | ->];
      cbn [requested sent misused set_rd set_calls add_requested enqueue];
      rewrite ?req_commit, ?sent_commit, ?mis_commit; cbn [requested sent misused enqueue req_count];
      rewrite ?count_req_app; cbn [count_req]; (split; [destruct (rid =? id); lia | eauto]).
Qed.

(* ---- frame: what concerns call [lid] leaves every other id alone --------------------------- *)

Definition frame_eq (lid : Z) (st st' : state) : Prop :=
  rd_pc st' = rd_pc st /\ requested st' = requested st /\
  (forall x, In x (misused st) -> In x (misused st')) /\
  (forall id, id <> lid ->
     get id (calls st') = get id (calls st) /\ proj id (sent st') = proj id (sent st)).

Lemma frame_check lid st : frame_eq lid st (check_exchanges st).
Proof. repeat split; auto. Qed.

Lemma frame_send_syserr_fst lid st full : frame_eq lid st (fst (conn_send_syserr st lid full)).
Proof.
  destruct (send_syserr_cases st lid full) as [-> | ->]; repeat split; auto.
  cbn. apply proj_snoc_other. assumption.
Qed.

(* ---- the invariant ------------------------------------------------------------------------ *)

(* what the writer of a call looks like when the automaton of Spec/WireOk.v is in state q *)
Definition R (q : wstate) (c : call) : Prop :=
  (f_cur c = true -> f_state c <> FStart) /\
  (f_cur c = false -> f_state c = FStart \/ f_err c = true) /\
  (g_dones c = true -> notlive c) /\
  match h_pc c with
  | PFlushSel _ => g_dones c = false /\ f_cur c = true
  | PNewFrag => f_cur c = true
  | _ => True
  end /\
  match q with
  | W0 => h_pc c <> PNewFrag /\ (f_cur c = true -> f_first c = true)
  | WMid => f_state c <> FStart /\ (h_pc c = PNewFrag \/ (f_cur c = true -> f_first c = false))
  | WEnd => g_dones c = true \/ h_pc c = PDone \/ h_pc c = PDead
  end.

Definition good (st : state) (id : Z) : Prop :=
  match get id (calls st) with
  | None =>
      (rd_pc st = RChecked id -> proj id (sent st) = []) /\
      (proj id (sent st) = [] \/ proj id (sent st) = [Err]) /\
      rd_pc st <> RAdded id /\
      (count_req id (requested st) = O -> proj id (sent st) = [] /\ rd_pc st <> RChecked id)
  | Some c =>
      rd_pc st <> RChecked id /\
      (rd_pc st = RAdded id -> h_pc c = PAdmit /\ proj id (sent st) = []) /\
      (1 <= count_req id (requested st))%nat /\
      exists q, wire_run W0 (proj id (sent st)) = Some q /\ R q c
  end.

Definition Inv (st : state) : Prop :=
  forall id, (count_req id (requested st) <= 1)%nat -> ~ In id (misused st) -> good st id.

(* the fields R looks at are kept (an error of the fragmenting writer may appear, the context may die) *)
Definition wsame (c c' : call) : Prop :=
  f_cur c' = f_cur c /\ f_state c' = f_state c /\ (f_err c = true -> f_err c' = true) /\
  f_first c' = f_first c /\ h_pc c' = h_pc c /\ g_dones c' = g_dones c /\ (notlive c -> notlive c').

Lemma R_wsame q c c' : wsame c c' -> R q c -> R q c'.
Proof.
  unfold wsame, R. intros (E1 & E2 & E3 & E4 & E5 & E6 & E7). rewrite E1, E2, E4, E5, E6.
  intros (A & B & C & D & E). repeat split; auto.
  intros F. destruct (B F); auto.
Qed.

Lemma mexvar_wsame c c' : mexvar c c' -> wsame c c'.
Proof. intros (loc & cx & ech & sh & ep & -> & X & _). unfold wsame. fields. auto 8. Qed.

(* the argument state moves among the states of a begun message *)
Lemma R_fstate q c fs :
  R q c -> f_state c <> FStart -> fs <> FStart -> R q (upd_f c fs (f_err c) (f_cur c) (f_first c)).
Proof.
  unfold R. fields. intros (A & B & C & D & E) N N'. split; [auto|]. split.
  - intros F. destruct (B F) as [S | Er]; [contradiction | auto].
  - split; [exact C|]. split; [exact D|]. destruct q; [exact E | split; [exact N' | apply E] | exact E].
Qed.

(* where the pc of a handler may go without touching the log: to the end of the API call, to
   doneSending, into the select of flushFragment (checkError passed, a fragment is there) *)
Definition pc_to (c : call) (p : hpc) : Prop :=
  match p with
  | PDone | PDead => True
  | PIdle => h_pc c <> PDone /\ h_pc c <> PDead
  | PNotStarted => h_pc c = PAdmit
  | PFlushSel _ => h_pc c = PIdle /\ m_ctx c = CtxLive /\ f_cur c = true
  | _ => False
  end.

Lemma R_pc q c p : R q c -> h_pc c <> PNewFrag -> pc_to c p -> R q (upd_pc c p).
Proof.
  unfold R, pc_to. fields. intros (A & B & C & D & E) N P.
  split; [exact A|]. split; [exact B|]. split; [exact C|].
  destruct p; try contradiction.
  - rewrite P in E. destruct q; intuition discriminate.
  - destruct q; intuition discriminate.
  - destruct q; intuition discriminate.
  - assert (Gd : g_dones c = false) by (destruct (g_dones c); [exfalso; apply C; tauto | reflexivity]).
    destruct P as (P1 & P2 & P3). rewrite P1 in E.
    destruct q; intuition congruence.
  - destruct q; intuition discriminate.
Qed.

(* BeginArgument makes the first fragment *)
Lemma R_open q c c' :
  R q c -> h_pc c = PIdle -> f_cur c = false -> f_err c = false ->
  h_pc c' = PIdle -> f_cur c' = true -> f_state c' <> FStart -> (f_state c = FStart -> f_first c' = true) ->
  g_dones c' = g_dones c -> (notlive c -> notlive c') -> R q c'.
Proof.
  unfold R. intros (A & B & C & D & E) Hpc Hcur Herr -> -> N F -> L.
  destruct (B Hcur) as [S | X]; [|congruence]. rewrite Hpc in E.
  repeat split; auto; try discriminate.
  destruct q; [split; [discriminate | auto] | destruct E; contradiction | intuition discriminate].
Qed.

(* the select of flushFragment enqueues the fragment: a call res for the first one, marked as last by the final Close *)
Lemma R_enq q c final :
  R q c -> h_pc c = PFlushSel final ->
  exists q', wire_step q (if f_first c then Res (negb final) else Cont (negb final)) = Some q' /\
             R q' (upd_pc c (if final then PDone else PNewFrag)).
Proof.
  unfold R. intros (A & B & C & D & E) Hpc. rewrite Hpc in D, E. destruct D as [Gd Hcur].
  assert (K : forall q', (q' = WEnd /\ final = true \/ q' = WMid /\ final = false) -> R q' (upd_pc c (if final then PDone else PNewFrag))).
  { unfold R. intros q' [[-> ->] | [-> ->]]; fields; repeat split; auto. }
  destruct q.
  - destruct E as [_ F]. rewrite (F Hcur). destruct final; eexists; (split; [reflexivity | apply K; auto]).
  - destruct E as [_ [F | F]]; [discriminate|]. rewrite (F Hcur).
    destruct final; eexists; (split; [reflexivity | apply K; auto]).
  - exfalso. destruct E as [F | [F | F]]; congruence.
Qed.

(* newFragment after a flushed fragment: a continuation fragment, or the writer fails *)
Lemma R_newfrag q c c' :
  R q c -> h_pc c = PNewFrag -> h_pc c' = PIdle -> f_state c' = f_state c -> g_dones c' = g_dones c ->
  (notlive c -> notlive c') ->
  f_cur c' = true /\ f_first c' = false \/ f_cur c' = false /\ f_err c' = true ->
  R q c'.
Proof.
  unfold R. intros (A & B & C & D & E) Hpc -> -> -> L F. rewrite Hpc in D, E.
  pose proof (A D) as S.
  repeat split; auto.
  - intros X. destruct F as [[F _] | [_ F]]; [congruence | auto].
  - destruct q; [destruct E; congruence | split; [exact S | right; intros X; destruct F as [[_ F] | [F _]]; congruence] |
                 destruct E as [X | [X | X]]; [auto | discriminate | discriminate]].
Qed.

(* doneSending has run (HDone, SendSystemError): the log is where it was, or closed by the error frame *)
Lemma R_done q q' c c' :
  R q c -> h_pc c <> PNewFrag -> q' = q \/ q' = WEnd ->
  f_cur c' = f_cur c -> f_state c' = f_state c -> f_err c' = f_err c -> f_first c' = f_first c ->
  h_pc c' = PIdle -> g_dones c' = true -> notlive c' -> R q' c'.
Proof.
  unfold R. intros (A & B & C & D & E) N Q -> -> -> -> -> -> L.
  repeat split; auto.
  destruct Q as [-> | ->]; [|auto]. destruct q; [split; [discriminate | apply E] | split; [apply E | right; tauto] | auto].
Qed.

(* ---- a handler step of call [id] keeps the relation between log and writer ----------------- *)

Definition hpost (id : Z) (st' : state) : Prop :=
  exists c' q', get id (calls st') = Some c' /\ wire_run W0 (proj id (sent st')) = Some q' /\ R q' c'.

Lemma hpost_commit st id c' chk q :
  wire_run W0 (proj id (sent st)) = Some q -> R q c' -> hpost id (commit st id c' chk).
Proof.
  intros Hq HR. exists c', q. split; [apply get_commit_same|]. rewrite sent_commit. auto.
Qed.

Lemma hpost_enq st id c' chk q k q' :
  wire_run W0 (proj id (sent st)) = Some q -> wire_step q k = Some q' -> R q' c' ->
  hpost id (commit (enqueue st id k) id c' chk).
Proof.
  intros Hq Hs HR. exists c', q'. split; [apply get_commit_same | split; [|exact HR]].
  rewrite sent_commit. cbn [sent enqueue]. rewrite proj_snoc_same, wire_run_snoc, Hq. exact Hs.
Qed.

(* goals [wsame c c'], [c'] written with the record updates *)
Ltac ws :=
  unfold wsame, notlive in *; fields; repeat match goal with H : _ /\ _ |- _ => destruct H end;
  repeat split; first [assumption | congruence | auto].

(* the step keeps what R looks at *)
Ltac same Hq HR := eapply hpost_commit; [exact Hq | eapply R_wsame; [|exact HR]; ws].

Lemma flush1_post st id c final q :
  wire_run W0 (proj id (sent st)) = Some q -> R q c -> h_pc c = PIdle -> f_cur c = true ->
  hpost id (flush1 st id c final).
Proof.
  intros Hq HR Hpc Hcur. unfold flush1. cbv beta zeta.
  assert (Hfail : forall c1 chk, wsame c c1 ->
            hpost id (commit st id (if final then upd_pc (set_ferr c1) PDone else ret (set_ferr c1) 1) chk)).
  { intros c1 chk W. eapply hpost_commit; [exact Hq|]. destruct final.
    - apply (R_wsame q (upd_pc c PDone)); [ws | apply R_pc; [exact HR | congruence | exact I]].
    - apply (R_wsame q c); [ws | exact HR]. }
  destruct (w_err c); [apply Hfail; ws|].
  destruct (check_error c) eqn:Ce.
  - destruct (failed_call c) as [c1 chk] eqn:Fc. failed Fc. apply Hfail. ws.
  - apply check_error_false in Ce. eapply hpost_commit; [exact Hq|].
    apply R_pc; [exact HR | congruence | unfold pc_to; auto].
Qed.

Lemma arg_writer_post st id c k q :
  wire_run W0 (proj id (sent st)) = Some q -> R q c -> h_pc c = PIdle ->
  hpost id (arg_writer st id c k).
Proof.
  intros Hq HR Hpc. unfold arg_writer. cbv beta zeta. fields.
  assert (Hfail : forall c0, wsame c c0 ->
            hpost id (let '(c1, chk) := failed_call c0 in commit st id (ret c1 1) chk)).
  { intros c0 W. destruct (failed_call c0) as [c1 chk] eqn:Fc. failed Fc. same Hq HR. }
  assert (Hk : (if k =? 3 then FInLast else FInArg) <> FStart) by (destruct (k =? 3); discriminate).
  (* BeginArgument in state FStart or FWaiting *)
  assert (Hbegin : forall fs, f_state c = fs -> f_err c = false ->
    hpost id (if f_cur c then commit st id (ret (upd_w (upd_f c (if k =? 3 then FInLast else FInArg) (f_err c) (f_cur c) (f_first c))
                                                   (w_err c) (out_state k) (rd_err c)) 0) false
              else if check_error c then let '(c1, chk) := failed_call (set_ferr c) in commit st id (ret c1 1) chk
              else commit st id (ret (upd_w (upd_f (upd_f c fs false true (match fs with FStart => true | _ => false end))
                                               (if k =? 3 then FInLast else FInArg) false true
                                               (match fs with FStart => true | _ => false end))
                                          (w_err c) (out_state k) (rd_err c)) 0) false)).
  { intros fs Fs Fe. destruct (f_cur c) eqn:Hcur.
    - eapply hpost_commit; [exact Hq|].
      apply (R_wsame q (upd_f c (if k =? 3 then FInLast else FInArg) (f_err c) (f_cur c) (f_first c))); [ws|].
      apply R_fstate; [exact HR | destruct HR as (A & _); exact (A Hcur) | exact Hk].
    - destruct (check_error c); [apply Hfail; ws|].
      eapply hpost_commit; [exact Hq|].
      eapply R_open; [exact HR | exact Hpc | exact Hcur | exact Fe | ..]; fields; auto.
      intros E. rewrite E in Fs. subst fs. reflexivity. }
  destruct (w_err c); [same Hq HR|].
  destruct (negb _); [apply Hfail; ws|].
  destruct (f_err c) eqn:Fe; [apply Hfail; ws|].
  destruct (f_state c) eqn:Fs; try (apply Hfail; ws); exact (Hbegin _ eq_refl eq_refl).
Qed.

(* fragmenting_writer.go Close, shared by HClose and the successful path of HHelperWrite *)
Lemma hclose_post st id c fullfrag st' q :
  wire_run W0 (proj id (sent st)) = Some q -> R q c -> h_pc c = PIdle ->
  hclose st id c fullfrag = Some st' -> hpost id st'.
Proof.
  intros Hq HR Hpc H. unfold hclose in H.
  destruct (f_err c) eqn:Fe. { apply Some_inj in H; subst st'. same Hq HR. }
  assert (Hst : forall fs, f_state c <> FStart -> fs <> FStart -> R q (upd_f c fs (f_err c) (f_cur c) (f_first c)))
    by (intros; apply R_fstate; assumption).
  rewrite Fe in Hst.
  destruct (f_state c) eqn:Fs.
  - apply Some_inj in H; subst st'. same Hq HR.
  - destruct fullfrag; cbn [negb] in H.
    + destruct (f_cur c) eqn:Hcur; cbn [negb f_cur upd_f] in H; [|discriminate].
      apply Some_inj in H; subst st'.
      apply flush1_post with (q := q); [exact Hq | apply Hst; discriminate | exact Hpc | reflexivity].
    + apply Some_inj in H; subst st'. eapply hpost_commit; [exact Hq|].
      eapply R_wsame; [|apply (Hst FWaiting); discriminate]. ws.
  - destruct (f_cur c) eqn:Hcur; cbn [negb] in H; [|discriminate].
    apply Some_inj in H; subst st'.
    apply flush1_post with (q := q); [exact Hq | apply Hst; discriminate | exact Hpc | reflexivity].
  - apply Some_inj in H; subst st'. same Hq HR.
  - apply Some_inj in H; subst st'. same Hq HR.
Qed.

Lemma hstep_same st id c l st' q :
  get id (calls st) = Some c ->
  wire_run W0 (proj id (sent st)) = Some q -> R q c ->
  hstep st id c l = Some st' -> ~ In id (misused st') ->
  h_pc c <> PAdmit /\ hpost id st'.
Proof.
  intros Hget Hq HR H Hmis. unfold hstep in H.
  destruct l; destruct (h_pc c) eqn:Hpc; try discriminate; (split; [discriminate|]).
  - (* HStart *)
    destruct ok.
    + apply Some_inj in H; subst st'. eapply hpost_commit; [exact Hq|].
      apply (R_wsame q (upd_pc c PIdle)); [ws | apply R_pc; [exact HR | congruence | split; congruence]].
    + destruct (shut_call c) as [c1 chk] eqn:E. apply mexvar_shut, mexvar_wsame in E.
      apply Some_inj in H; subst st'. eapply hpost_commit; [exact Hq|].
      apply (R_wsame q (upd_pc c PDead)); [ws | apply R_pc; [exact HR | congruence | exact I]].
  - (* HResp *)
    apply Some_inj in H; subst st'. destruct (rd_err c); same Hq HR.
  - (* HReadFail *)
    destruct (rd_err c).
    + apply Some_inj in H; subst st'. exists c, q. auto.
    + destruct shut.
      * destruct (shut_call c) as [c1 chk] eqn:E. apply mexvar_shut, mexvar_wsame in E.
        apply Some_inj in H; subst st'. same Hq HR.
      * apply Some_inj in H; subst st'. same Hq HR.
  - (* HArgWriter *)
    apply Some_inj in H; subst st'. eapply arg_writer_post; eassumption.
  - (* HFlush *)
    destruct (viaWrite && f_err c). { apply Some_inj in H; subst st'. same Hq HR. }
    destruct (viaWrite && negb (writing (f_state c))). { apply Some_inj in H; subst st'. same Hq HR. }
    destruct (f_cur c) eqn:Hcur; cbn [negb] in H; [|discriminate].
    apply Some_inj in H; subst st'. eapply flush1_post; eassumption.
  - (* HFlushSel *)
    destruct enq.
    + apply Some_inj in H; subst st'. destruct (R_enq q c final HR Hpc) as (q' & Hs & HR').
      rewrite enqueue_log, <- commit_log, <- enqueue_log. eapply hpost_enq; eassumption.
    + destruct (check_error c); [|discriminate].
      destruct (failed_call c) as [c1 chk] eqn:Fc. failed Fc.
      apply Some_inj in H; subst st'. eapply hpost_commit; [exact Hq|]. destruct final.
      * apply (R_wsame q (upd_pc c PDone)); [ws | apply R_pc; [exact HR | congruence | exact I]].
      * apply (R_wsame q (upd_pc c PIdle)); [ws | apply R_pc; [exact HR | congruence | split; congruence]].
  - (* HNewFrag *)
    destruct (check_error c).
    + destruct (failed_call c) as [c1 chk] eqn:Fc. failed Fc.
      apply Some_inj in H; subst st'. eapply hpost_commit; [exact Hq|].
      eapply R_newfrag; [exact HR | exact Hpc | ..]; unfold notlive in *; fields; auto.
    + apply Some_inj in H; subst st'. eapply hpost_commit; [exact Hq|].
      eapply R_newfrag; [exact HR | exact Hpc | ..]; fields; auto.
  - (* HClose *)
    eapply hclose_post; eassumption.
  - (* HDone *)
    destruct (done_sending c) as [c1 chk] eqn:Ds.
    apply done_sending_eq in Ds as (? & (? & ? & ? & ? & ? & -> & ? & ?) & ? & ->).
    apply Some_inj in H; subst st'. eapply hpost_commit; [exact Hq|].
    eapply (R_done q q c); [exact HR | congruence | auto | ..]; unfold notlive in *; fields; auto.
  - (* HSysErr *)
    destruct (w_err c) eqn:We. { apply Some_inj in H; subst st'. same Hq HR. }
    pose proof (send_syserr_cases (if g_dones c then add_misused st id else st) id full) as Cs.
    destruct (conn_send_syserr _ id full) as [st1 ok]. cbn [fst] in Cs.
    destruct (done_sending _) as [c1 chk] eqn:Ds.
    apply done_sending_eq in Ds as (? & (loc & cx & ech & sh & ep & -> & ? & ?) & ? & ->).
    apply Some_inj in H; subst st'. rewrite mis_commit in Hmis.
    destruct (g_dones c) eqn:Hd.
    { exfalso. apply Hmis. destruct Cs as [-> | ->]; cbn; apply in_or_app; right; left; reflexivity. }
    assert (HR' : forall q', q' = q \/ q' = WEnd ->
              R q' (ret (upd_dones (upd_epc (upd_mex (upd_w c false WComplete (rd_err c)) loc cx ech sh) ep)) (if ok then 0 else 1)))
      by (intros q' Q; eapply (R_done q q' c); [exact HR | congruence | exact Q | ..]; unfold notlive in *; fields; auto).
    destruct Cs as [-> | ->].
    + eapply hpost_commit; [exact Hq | auto].
    + eapply hpost_enq; [exact Hq | | auto].
      destruct q; try reflexivity. exfalso. destruct HR as (_ & _ & _ & _ & [X | [X | X]]); congruence.
  - (* HSetAppErr *)
    destruct (w_state c);
      try (apply Some_inj in H; subst st'; same Hq HR);
      destruct (failed_call c) as [c1 chk] eqn:Fc; failed Fc; apply Some_inj in H; subst st'; same Hq HR.
  - (* HBlackhole *)
    apply Some_inj in H; subst st'. eapply hpost_commit; [exact Hq|].
    eapply R_wsame; [apply mexvar_wsame, mexvar_cancel | exact HR].
  - (* HHelperWrite *)
    rewrite helper_closes_eq in H. destruct ok.
    + eapply hclose_post; eassumption.
    + apply Some_inj in H; subst st'. same Hq HR.
Qed.

Definition ovar (o o' : option call) : Prop :=
  match o, o' with
  | None, None => True
  | Some c, Some c' => mexvar c c'
  | _, _ => False
  end.

Lemma ovar_eq o o' : o' = o -> ovar o o'.
Proof. intros ->. destruct o; cbn; [apply mexvar_refl | exact I]. Qed.

Lemma qstep_calls st st' id : qstep st st' -> ovar (get id (calls st)) (get id (calls st')).
Proof.
  induction 1 as [| st lid c c' chk G M | st | st | | |]; try (apply ovar_eq; reflexivity); try exact IHqstep.
  - destruct (Z.eq_dec id lid) as [->|N].
    + rewrite get_commit_same, G. exact M.
    + apply ovar_eq, get_commit_other, N.
  - apply ovar_eq. destruct (close_fields st) as (-> & _). reflexivity.
  - unfold conn_stop. destruct (stopped st); [apply ovar_eq; reflexivity|].
    destruct (mexset_shut st); cbn [calls set_calls]; [apply ovar_eq; reflexivity|].
    rewrite get_map_notify. destruct (get id (calls st)); cbn; [apply mexvar_notify | exact I].
Qed.

Lemma qstep_rd st st' : qstep st st' -> rd_pc st' = rd_pc st \/ neutral (rd_pc st').
Proof.
  induction 1 as [| | st | st | | |]; auto.
  - left. apply rd_commit.
  - left. apply close_fields.
  - left. apply stop_fields.
Qed.

Definition rd_about (r : rpc) (id : Z) : Prop := r = RChecked id \/ r = RAdded id.

Lemma neutral_about r id : neutral r -> ~ rd_about r id.
Proof. intros N [-> | ->]; exact N. Qed.

(* [good] for an id that the step does not concern *)
Lemma good_transport st st' id :
  ovar (get id (calls st)) (get id (calls st')) ->
  proj id (sent st') = proj id (sent st) ->
  count_req id (requested st') = count_req id (requested st) ->
  rd_pc st' = rd_pc st \/ ~ rd_about (rd_pc st') id ->
  good st id -> good st' id.
Proof.
  unfold good, ovar, rd_about. intros Hc -> -> Hrd.
  destruct (get id (calls st)) as [c|], (get id (calls st')) as [c'|]; try contradiction.
  - apply mexvar_wsame in Hc. pose proof Hc as (_ & _ & _ & _ & Hpc & _).
    intros (A & B & C & q & Hq & HR). rewrite Hpc.
    assert (HR' : exists q, wire_run W0 (proj id (sent st)) = Some q /\ R q c')
      by (exists q; split; [exact Hq | eapply R_wsame; eassumption]).
    destruct Hrd as [-> | N]; [auto|].
    split; [intros E; elim N; auto|]. split; [intros E; elim N; auto | auto].
  - intros (A & B & C & D). destruct Hrd as [-> | N]; [auto|].
    split; [intros E; elim N; auto|]. split; [exact B|]. split; [intros E; elim N; auto|].
    intros Z0. split; [apply D, Z0 | intros E; elim N; auto].
Qed.

Lemma frame_hstep lid st c l st' :
  get lid (calls st) = Some c -> hstep st lid c l = Some st' -> frame_eq lid st st'.
Proof.
  intros G H. destruct (hstep_shape _ _ _ _ _ G H) as [c' chk m fr _ _]. unfold frame_eq.
  rewrite rd_commit, req_commit, mis_commit. cbn [log rd_pc requested misused].
  split; [reflexivity|]. split; [reflexivity|]. split; [intros x X; apply in_or_app; auto|].
  intros id N. rewrite (get_commit_other _ _ _ _ _ N), sent_commit. cbn [log calls sent].
  split; [reflexivity|]. rewrite proj_app, (proj_other _ _ _ N). apply app_nil_r.
Qed.

Lemma rstep_frame st rid l st' id : rstep st rid l st' -> id <> rid ->
  get id (calls st') = get id (calls st) /\ proj id (sent st') = proj id (sent st) /\
  count_req id (requested st') = count_req id (requested st) /\ ~ rd_about (rd_pc st') id.
Proof.
  intros Rs N.
  assert (A : forall r, r = RIdle \/ r = RProto1 \/ r = RChecked rid \/ r = RAdded rid -> ~ rd_about r id)
    by (intros r [-> | [-> | [-> | ->]]] [X | X]; congruence).
  destruct Rs as [full Hrd _ | full Hrd | full Hrd | full Hrd | c full Hrd _ _ | c c1 chk full Hrd _ _];
    try destruct (send_syserr_cases (add_requested st rid) rid full) as [-> | ->];
    try destruct (send_syserr_cases st rid full) as [-> | ->];
    cbn [calls sent requested rd_pc set_rd set_calls add_requested enqueue];
    rewrite ?(get_commit_other _ _ _ _ _ N), ?req_commit, ?sent_commit; cbn [calls sent requested enqueue];
    rewrite ?(get_put_other _ _ _ _ N), ?(proj_snoc_other _ _ _ _ N), ?(count_req_snoc_other _ _ _ N);
    repeat split; auto 6; rewrite Hrd; auto 6.
Qed.

Lemma R_new : R W0 new_call.
Proof. unfold R, notlive, new_call; cbn. intuition discriminate. Qed.

Lemma good_rstep st rid l st' :
  rstep st rid l st' -> (count_req rid (requested st') <= 1)%nat -> good st rid -> good st' rid.
Proof.
  intros Rs Hc G. unfold good in *.
  destruct Rs as [full Hrd Hact | full Hrd | full Hrd | full Hrd | c full Hrd Hg _ | c c1 chk full Hrd Hg E];
    rewrite Hrd in G.
  - (* first check passed: nothing sent yet *)
    cbn [calls requested rd_pc sent add_requested set_rd] in *. rewrite count_req_snoc_same in *.
    destruct (get rid (calls st)); [destruct G as (_ & _ & G3 & _); lia|].
    destruct G as (_ & _ & _ & G4). destruct G4 as [P0 _]; [lia|].
    split; [intros _; exact P0|]. split; [left; exact P0|]. split; discriminate.
  - (* refused: at most the one error frame *)
    assert (Z0 : count_req rid (requested st) = O).
    { destruct (send_syserr_cases (add_requested st rid) rid full) as [E | E]; rewrite E in Hc;
        cbn [requested add_requested enqueue] in Hc; rewrite count_req_snoc_same in Hc; lia. }
    destruct (get rid (calls st)) eqn:Hg; [destruct G as (_ & _ & G3 & _); lia|].
    destruct G as (_ & _ & _ & G4). destruct (G4 Z0) as [P0 _].
    destruct (send_syserr_cases (add_requested st rid) rid full) as [-> | ->];
      cbn [calls requested rd_pc sent add_requested enqueue]; rewrite Hg, Hrd, count_req_snoc_same;
      rewrite ?proj_snoc_same, P0; repeat split; auto; discriminate.
  - (* protocolError's frame: nothing was sent before *)
    destruct (get rid (calls st)) eqn:Hg; [destruct G as (G1 & _); congruence|].
    destruct G as (G1 & _ & _ & G4). specialize (G1 eq_refl).
    assert (NZ : count_req rid (requested st) <> O) by (intros Z0; destruct (G4 Z0) as [_ X]; congruence).
    destruct (send_syserr_cases st rid full) as [-> | ->];
      cbn [calls requested rd_pc sent set_rd enqueue]; rewrite Hg; rewrite ?proj_snoc_same, G1;
      repeat split; auto; try discriminate; contradiction.
  - (* admitted: a fresh record, nothing sent *)
    cbn [calls requested rd_pc sent set_rd set_calls]. rewrite get_put_same.
    destruct (get rid (calls st)); [destruct G as (G1 & _); congruence|].
    destruct G as (G1 & _ & _ & G4). specialize (G1 eq_refl). rewrite G1.
    split; [discriminate|]. split; [auto|]. split.
    + destruct (count_req rid (requested st)) eqn:Z0; [|lia]. destruct (G4 eq_refl) as [_ X]. congruence.
    + exists W0. split; [reflexivity | apply R_new].
  - (* dispatched *)
    cbn [calls requested rd_pc sent set_rd]. rewrite get_commit_same, sent_commit, req_commit.
    rewrite Hg in G. destruct G as (_ & G2 & G3 & q & Hq & HR). destruct (G2 eq_refl) as [Hpc _].
    split; [discriminate|]. split; [discriminate|]. split; [exact G3|]. exists q. split; [exact Hq|].
    apply R_pc; [exact HR | congruence | exact Hpc].
  - (* declined: the error frame unless the buffer is full, then the exchange is shut down *)
    apply mexvar_shut, mexvar_wsame in E.
    cbn [calls requested rd_pc sent set_rd]. rewrite get_commit_same, sent_commit, req_commit.
    rewrite Hg in G. destruct G as (_ & G2 & G3 & q & Hq & HR). destruct (G2 eq_refl) as [Hpc Hnil].
    rewrite Hnil in Hq. apply Some_inj in Hq. subst q.
    assert (HR' : R W0 (upd_pc c1 PDead) /\ R WEnd (upd_pc c1 PDead)).
    { split; (apply (R_wsame _ (upd_pc c PDead)); [ws|]).
      - apply R_pc; [exact HR | congruence | exact I].
      - destruct HR as (A & B & C & _). unfold R. fields. auto 7. }
    split; [discriminate|]. split; [discriminate|].
    destruct (send_syserr_cases st rid full) as [-> | ->]; cbn [requested sent enqueue];
      (split; [exact G3|]); rewrite ?proj_snoc_same, Hnil; [exists W0 | exists WEnd]; split; tauto || reflexivity.
Qed.

Lemma step_inv st l st' : Inv st -> step st l = Some st' -> Inv st'.
Proof.
  intros HI H id Hc Hm.
  destruct (step_ghost _ _ _ id H) as (Rq & _ & M).
  assert (G : good st id).
  { apply HI; [lia|]. intros X. apply Hm. destruct M as [-> | (i & _ & ->)]; [exact X | apply in_or_app; auto]. }
  destruct (step_cases _ _ _ H) as [l lid c st' L Hg Hs | l st' L _ Q | l rid st' Rs].
  - destruct (frame_hstep _ _ _ _ _ Hg Hs) as (Frd & Freq & _ & Fo).
    destruct (Z.eq_dec id lid) as [->|N].
    + unfold good in G. rewrite Hg in G. destruct G as (A & B & C & q & Hq & HR).
      destruct (hstep_same _ _ _ _ _ _ Hg Hq HR Hs Hm) as (Hpc & c' & q' & Hg' & Hq' & HR').
      unfold good. rewrite Hg', Frd, Freq. split; [exact A|]. split; [intros E; elim Hpc; apply (B E)|].
      split; [exact C|]. exists q'. auto.
    + destruct (Fo id N) as [E1 E2]. revert G.
      apply good_transport; [apply ovar_eq; exact E1 | exact E2 | rewrite Freq; reflexivity | auto].
  - destruct (qstep_ghost _ _ Q) as (Es & Er & _). revert G.
    apply good_transport; [apply qstep_calls; exact Q | rewrite Es; reflexivity | rewrite Er; reflexivity|].
    destruct (qstep_rd _ _ Q) as [E | E]; [auto | right; apply neutral_about; exact E].
  - destruct (Z.eq_dec id rid) as [->|N].
    + eapply good_rstep; eassumption.
    + destruct (rstep_frame _ _ _ _ id Rs N) as (E1 & E2 & E3 & E4). revert G.
      apply good_transport; [apply ovar_eq; exact E1 | exact E2 | exact E3 | auto].
Qed.

Lemma inv_init prop : Inv (init_state prop).
Proof.
  intros id _ _. unfold good. cbn. split; [discriminate|]. split; [left; reflexivity|].
  split; [discriminate|]. intros _. split; [reflexivity | discriminate].
Qed.

Lemma run_from_inv ls : forall st st', Inv st -> run_from st ls = Some st' -> Inv st'.
Proof.
  induction ls as [|l r IH]; intros st st' HI H; cbn [run_from] in H.
  - apply Some_inj in H; subst; exact HI.
  - destruct (step st l) as [st1|] eqn:E; [|discriminate].
    eapply IH; [eapply step_inv; eassumption | exact H].
Qed.

Theorem respwire_inv prop ls st : run prop ls = Some st -> Inv st.
Proof. unfold run. apply run_from_inv, inv_init. Qed.

(* The server-side grammar theorem.  For every run of the model (any number of ids, any
   interleaving of reader, handlers, expiry goroutines, deadline timers, cancel frames,
   connection close / failure, full send buffer), for every id whose call req was read at
   most once and whose handler did not call SendSystemError after doneSending had run:
   the frames enqueued for the id are a prefix of an accepted word; nothing follows a
   terminal frame; there is at most one terminal frame; nothing at all is sent for an id
   that was never requested; an id that was requested but not admitted (connection not
   active, undecodable frame, exchange set already shut down) gets nothing or one error frame. *)
Theorem respwire_grammar prop ls st :
  run prop ls = Some st ->
  forall id, (count_req id (requested st) <= 1)%nat -> ~ In id (misused st) ->
    wire_prefix_ok (proj id (sent st)) = true /\
    (forall l1 k l2, proj id (sent st) = l1 ++ k :: l2 -> terminal k = true -> l2 = []) /\
    (length (filter terminal (proj id (sent st))) <= 1)%nat /\
    (count_req id (requested st) = O -> proj id (sent st) = []) /\
    (get id (calls st) = None -> proj id (sent st) = [] \/ proj id (sent st) = [Err]).
Proof.
  intros Hrun id Hc Hm. pose proof (respwire_inv _ _ _ Hrun id Hc Hm) as G.
  assert (P : wire_prefix_ok (proj id (sent st)) = true).
  { unfold good in G. destruct (get id (calls st)) as [c|].
    - destruct G as (_ & _ & _ & q & Hq & _). apply wire_prefix_ok_run. eauto.
    - destruct G as (_ & [E | E] & _); rewrite E; reflexivity. }
  split; [exact P|]. split.
  { intros l1 k l2 E T. rewrite E in P. eapply prefix_ok_terminal_last; eassumption. }
  split; [apply prefix_ok_one_terminal; exact P|]. split.
  - intros Z0. unfold good in G. destruct (get id (calls st)) as [c|].
    + destruct G as (_ & _ & G3 & _). lia.
    + destruct G as (_ & _ & _ & G4). apply G4. exact Z0.
  - intros N. unfold good in G. rewrite N in G. tauto.
Qed.
(* ---- what the hypotheses exclude (caller / handler misuse), with witnesses -------------------- *)

(* a handler that completes a one-fragment response and THEN calls SendSystemError: the
   error frame follows the final call res frame (response.err is nil after a successful
   response, so SendSystemError's guard does not stop it) *)
Definition misuse_labels : list label :=
  [RdCallReq1 7 false; RdCallReq2 true false; RdCallReq3 false; HStart 7 true; HResp 7;
   HArgWriter 7 1; HClose 7 false; HArgWriter 7 2; HClose 7 false; HArgWriter 7 3;
   HClose 7 false; HFlushSel 7 true; HDone 7; HSysErr 7 false].

Lemma respwire_syserr_after_response_refuted :
  exists st, run false misuse_labels = Some st /\ (count_req 7 (requested st) <= 1)%nat /\
             In 7 (misused st) /\ proj 7 (sent st) = [Res false; Err] /\
             wire_prefix_ok (proj 7 (sent st)) = false.
Proof. eexists. split; [vm_compute; reflexivity|]. vm_compute. intuition. Qed.

(* two SendSystemError calls: two error frames *)
Definition misuse2_labels : list label :=
  [RdCallReq1 7 false; RdCallReq2 true false; RdCallReq3 false; HStart 7 true; HResp 7;
   HSysErr 7 false; HSysErr 7 false].

Lemma respwire_two_syserr_refuted :
  exists st, run false misuse2_labels = Some st /\ In 7 (misused st) /\
             proj 7 (sent st) = [Err; Err] /\ wire_prefix_ok (proj 7 (sent st)) = false.
Proof. eexists. split; [vm_compute; reflexivity|]. vm_compute. intuition. Qed.

(* a caller that re-uses an id which is still in flight: the reader answers with a protocol
   error frame for that id and tears the connection down; the handler of the first call,
   already past checkError, may still enqueue its fragment behind the error frame *)
Definition dup_labels : list label :=
  [RdCallReq1 7 false; RdCallReq2 true false; RdCallReq3 false; HStart 7 true; HResp 7;
   HArgWriter 7 1; HClose 7 false; HArgWriter 7 2; HClose 7 false; HArgWriter 7 3;
   HClose 7 false;                                   (* flushFragment: checkError passed *)
   RdCallReq1 7 false; RdCallReq2 true false; RdProtoClose; RdProtoStop;
   HFlushSel 7 true].

Lemma respwire_duplicate_id_refuted :
  exists st, run false dup_labels = Some st /\ count_req 7 (requested st) = 2%nat /\
             ~ In 7 (misused st) /\ proj 7 (sent st) = [Err; Res false] /\
             wire_prefix_ok (proj 7 (sent st)) = false /\
             cst st = CStartClose /\ stopped st = true.
Proof. eexists. split; [vm_compute; reflexivity|]. vm_compute. intuition. Qed.

Lemma conn_close_not_active s : cst (conn_close s) <> CActive.
Proof.
  unfold conn_close. destruct (cst s) eqn:E; try congruence.
  unfold check_exchanges. cbn [cst set_cst stopped calls n_out].
  destruct (stopped s); [discriminate|].
  destruct (inbound_count (calls s) =? 0); [destruct (n_out s =? 0)|]; discriminate.
Qed.

Lemma conn_stop_cst s : cst (conn_stop s) = cst s /\ stopped (conn_stop s) = true.
Proof. unfold conn_stop. destruct (stopped s) eqn:E; [auto|]. destruct (mexset_shut s); cbn; auto. Qed.

(* What the code does for a duplicate in-flight id (or after the exchange set was shut
   down), precisely: one attempt to enqueue a protocol-error frame for that id (refused on
   a closed connection or a full buffer), then close(), then stopExchanges. *)
Lemma respwire_duplicate_step st id c full st1 :
  rd_pc st = RChecked id -> get id (calls st) = Some c -> in_ex c = true ->
  step st (RdCallReq2 true full) = Some st1 ->
  rd_pc st1 = RProto1 /\ calls st1 = calls st /\
  (sent st1 = sent st \/ (sent st1 = sent st ++ [(id, Err)] /\ cst st <> CClosed /\ full = false)) /\
  forall st2 st3, step st1 RdProtoClose = Some st2 -> step st2 RdProtoStop = Some st3 ->
    cst st3 <> CActive /\ stopped st3 = true /\ rd_pc st3 = RIdle.
Proof.
  intros Hrd Hg Hin H. cbn [step] in H. rewrite Hrd, Hg, Hin in H. cbn [negb] in H.
  rewrite orb_true_r in H. apply Some_inj in H; subst st1.
  split; [reflexivity|]. split; [destruct (send_syserr_cases st id full) as [-> | ->]; reflexivity|]. split.
  { unfold conn_send_syserr. destruct (cst st) eqn:Ec, full; cbn; auto;
      right; (split; [reflexivity|]); (split; [congruence | reflexivity]). }
  intros st2 st3 H2 H3. cbn [step rd_pc set_rd] in H2. apply Some_inj in H2; subst st2.
  cbn [step rd_pc set_rd] in H3. apply Some_inj in H3; subst st3.
  cbn [rd_pc set_rd cst stopped].
  match goal with |- cst (conn_stop ?s) <> _ /\ _ => destruct (conn_stop_cst s) as [A B]; rewrite A, B end.
  cbn [cst set_rd]. split; [apply conn_close_not_active | auto].
Qed.

(* ---- the handler discipline on labels implies "not misused" -------------------------------- *)

Lemma step_own st l st' id : step st l = Some st' -> lid l = Some id ->
  exists c, get id (calls st) = Some c /\ hstep st id c l = Some st'.
Proof.
  intros H L. destruct (step_cases _ _ _ H) as [l i c st' L' G Hs | l st' L' _ _ | l rid st' Rs].
  - rewrite L in L'. apply Some_inj in L'. subst i. eauto.
  - congruence.
  - destruct Rs; discriminate L.
Qed.

(* what a step that is not an API call of the handler of [id] leaves of the record of [id] *)
Definition aside (c x : call) : Prop :=
  g_dones x = g_dones c /\ w_err x = w_err c /\ (h_pc x = PDone -> h_pc c = PDone).

Lemma step_aside st l st' id x :
  step st l = Some st' -> lid l <> Some id -> get id (calls st') = Some x ->
  x = new_call \/ exists c, get id (calls st) = Some c /\ aside c x.
Proof.
  intros H L Hx.
  assert (Same : get id (calls st') = get id (calls st) -> exists c, get id (calls st) = Some c /\ aside c x)
    by (intros E; exists x; rewrite <- E; unfold aside; auto).
  assert (Var : forall c, mexvar c x -> aside c x)
    by (intros c (? & ? & ? & ? & ? & -> & _); unfold aside; fields; auto).
  destruct (step_cases _ _ _ H) as [l i c st' L' G Hs | l st' _ _ Q | l rid st' Rs].
  - right. apply Same. apply (frame_hstep _ _ _ _ _ G Hs). congruence.
  - right. pose proof (qstep_calls _ _ id Q) as V. rewrite Hx in V.
    destruct (get id (calls st)) as [c|]; [eauto | contradiction].
  - destruct (Z.eq_dec id rid) as [->|N]; [|right; apply Same, (rstep_frame _ _ _ _ id Rs N)].
    destruct Rs as [full Hrd Hact | full Hrd | full Hrd | full Hrd | c full Hrd Hg _ | c c1 chk full Hrd Hg E].
    + right. apply Same. reflexivity.
    + right. apply Same. destruct (send_syserr_cases (add_requested st rid) rid full) as [-> | ->]; reflexivity.
    + right. apply Same. cbn [calls set_rd]. destruct (send_syserr_cases st rid full) as [-> | ->]; reflexivity.
    + left. cbn [calls set_rd set_calls] in Hx. rewrite get_put_same in Hx. apply Some_inj in Hx. auto.
    + right. exists c. split; [exact Hg|]. cbn [calls set_rd] in Hx. rewrite get_commit_same in Hx.
      apply Some_inj in Hx. subst x. unfold aside. fields. repeat split; auto; discriminate.
    + right. exists c. split; [exact Hg|]. cbn [calls set_rd] in Hx. rewrite get_commit_same in Hx.
      apply Some_inj in Hx. subst x. apply mexvar_shut in E as (? & ? & ? & ? & ? & -> & _).
      unfold aside. fields. repeat split; auto; discriminate.
Qed.

Lemma lid_dec l id : {lid l = Some id} + {lid l <> Some id}.
Proof.
  destruct (lid l) as [i|]; [|right; discriminate].
  destruct (Z.eq_dec i id) as [->|N]; [left; reflexivity | right; congruence].
Qed.

Lemma handler_ok_other id term l r : lid l <> Some id -> handler_ok id term (l :: r) = handler_ok id term r.
Proof.
  destruct l; cbn [handler_ok lid]; intros N; try reflexivity;
    (destruct (id0 =? id) eqn:E; [apply Z.eqb_eq in E; congruence | reflexivity]).
Qed.

Lemma handler_ok_run ls : forall st st' id term,
  run_from st ls = Some st' -> handler_ok id term ls = true ->
  (forall c, get id (calls st) = Some c -> g_dones c = true -> term = true) ->
  ~ In id (misused st) -> ~ In id (misused st').
Proof.
  induction ls as [|l r IH]; intros st st' id term H Hok Hd Hm; cbn [run_from] in H.
  - apply Some_inj in H; subst; exact Hm.
  - destruct (step st l) as [st1|] eqn:E; [|discriminate].
    destruct (lid_dec l id) as [L | L].
    + (* an API call of the handler of id: SendSystemError only while term = false *)
      destruct (step_own _ _ _ _ E L) as (c & G & Hs).
      destruct (hstep_shape _ _ _ _ _ G Hs) as [c' chk m fr [_ _ _ _ Hdones Hsel _ Hfr Hmis] M].
      assert (Hm' : m = []).
      { destruct Hmis as [X | (Gd & _ & _ & i & f & ->)]; [exact X | exfalso].
        cbn in L. apply Some_inj in L. subst i. cbn [handler_ok] in Hok. rewrite Z.eqb_refl in Hok.
        rewrite (Hd c G Gd) in Hok. discriminate. }
      subst m. refine (IH _ _ id (match l with HSysErr _ _ | HDone _ => true | _ => term end) H _ _ _).
      * destruct l; try discriminate L; cbn in L; apply Some_inj in L; subst;
          cbn [handler_ok] in Hok; rewrite ?Z.eqb_refl in Hok; try exact Hok.
        apply andb_true_iff in Hok. apply Hok.
      * rewrite get_commit_same. intros x X Gd. apply Some_inj in X. subst x.
        destruct Hdones as [D | (_ & _ & [(i & ->) | (i & f & ->)])]; try reflexivity.
        rewrite D in Gd. rewrite (Hd c G Gd). destruct l; reflexivity.
      * rewrite mis_commit. cbn [misused log]. rewrite app_nil_r. exact Hm.
    + rewrite (handler_ok_other _ _ _ _ L) in Hok. refine (IH _ _ id term H Hok _ _).
      * intros x X Gd. destruct (step_aside _ _ _ _ _ E L X) as [-> | (c & G & D & _)]; [discriminate Gd|].
        rewrite D in Gd. exact (Hd c G Gd).
      * destruct (step_ghost _ _ _ id E) as (_ & _ & [-> | (i & Li & ->)]); [exact Hm|].
        intros X. apply in_app_or in X as [X | [X | []]]; [auto | congruence].
Qed.

(* A handler that calls SendSystemError at most once and never after doneSending is not a
   misuser: C10's quantifier over handlers, stated on the labels of the run. *)
Theorem handler_ok_not_misused prop ls st id :
  run prop ls = Some st -> handler_ok id false ls = true -> ~ In id (misused st).
Proof.
  unfold run. intros H Hok. eapply handler_ok_run; [exact H | exact Hok | | intros []].
  intros c G. discriminate G.
Qed.

Lemma requested_count ls : forall st st' id,
  run_from st ls = Some st' ->
  count_req id (requested st') = (count_req id (requested st) + req_count id ls)%nat.
Proof.
  induction ls as [|l r IH]; intros st st' id H; cbn [run_from] in H.
  - apply Some_inj in H; subst. cbn. lia.
  - destruct (step st l) as [st1|] eqn:E; [|discriminate]. rewrite (IH _ _ id H).
    destruct (step_ghost _ _ _ id E) as (-> & _). cbn [req_count]. destruct l; try lia.
    destruct (id0 =? id); lia.
Qed.

(* The grammar theorem with both hypotheses stated on the label list only. *)
Theorem respwire_grammar_labels prop ls st :
  run prop ls = Some st ->
  forall id, (req_count id ls <= 1)%nat -> handler_ok id false ls = true ->
    wire_prefix_ok (proj id (sent st)) = true /\
    (forall l1 k l2, proj id (sent st) = l1 ++ k :: l2 -> terminal k = true -> l2 = []) /\
    (length (filter terminal (proj id (sent st))) <= 1)%nat /\
    (req_count id ls = O -> proj id (sent st) = []) /\
    (get id (calls st) = None -> proj id (sent st) = [] \/ proj id (sent st) = [Err]).
Proof.
  intros Hrun id Hc Hok.
  assert (E : count_req id (requested st) = req_count id ls).
  { unfold run in Hrun. rewrite (requested_count _ _ _ id Hrun). cbn. lia. }
  pose proof (respwire_grammar prop ls st Hrun id) as G. rewrite E in G.
  apply G; [exact Hc | eapply handler_ok_not_misused; eassumption].
Qed.
