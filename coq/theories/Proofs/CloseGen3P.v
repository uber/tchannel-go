(* C07, third strengthening: further steps of the channel close model (Model/ChanClose.v) are the
   definitions go2v regenerates from channel.go on every run (Gen/GenClose3.v):
     Channel.Serve (the whole Lock region), the mutable.l test of ListenAndServe,
     removeClosedConn (test and delete), the part of connectionCloseStateChange between the
     schedule points "enter" and "afterRead" (removal FIRST, then the read of the channel state,
     then the state test), and the len(conns) == 0 decision of Channel.Close. *)
From Coq Require Import ZArith List Bool Lia.
From Verif Require Import Base.Wrap Gen.GenConsts Gen.GenClose Gen.GenClose3 Model.CloseKernel Model.ChanClose.
Import ListNotations.
Local Open Scope Z_scope.

Definition srv_outcome (e : Z) : Z := if e =? 0 then oSrvOk else if e =? 1 then oSrvAlready else oSrvInvalid.

(* Serve: "if mutable.l != nil { return errAlreadyListening }; mutable.l = tnet.Wrap(l);
   if mutable.state != ChannelClient { return errInvalidStateForOp }; mutable.state = ChannelListening" *)
Lemma gen_serve : forall s arg,
  ctstep s PSrv arg =
    let '(e, l, st) := chanServe (lis s) (chst s) in
    Some (set_chst (set_lis s l) st, CDone (srv_outcome e)).
Proof.
  intros s arg. cbn [ctstep]. unfold chanServe, hClient, hListening.
  destruct s as [a b c d e f]. cbn [lis chst set_lis set_chst conns cstates g_closed g_owed].
  destruct f; [reflexivity|]. destruct (a =? c_ChannelClient); reflexivity.
Qed.

(* the generated Serve: only a client channel without a listener starts listening; in every other
   case the state is left as it was (in particular at and beyond StartClose) *)
Lemma gen_serve_spec : forall l st,
  chanServe l st = if l then (1, true, st)
                   else if st =? c_ChannelClient then (0, true, c_ChannelListening) else (2, true, st).
Proof. intros l st. unfold chanServe. destruct l; [reflexivity|]. destruct (st =? c_ChannelClient); reflexivity. Qed.

(* ListenAndServe: "if mutable.l != nil { RUnlock; return errAlreadyListening }" *)
Lemma gen_listen_test : forall s arg,
  ctstep s PLs1 arg = Some (s, if chanListenTest (lis s) =? 1 then CDone oSrvAlready else PSrv).
Proof. intros s arg. cbn [ctstep]. unfold chanListenTest. destruct (lis s); reflexivity. Qed.

(* removeClosedConn: "if c.readState() != connectionClosed { return }; Lock; delete(conns, id); Unlock" *)
Lemma gen_remove : forall s c arg,
  ctstep s (PCb1 c) arg = Some (s, if chanRemoveTest (cstate s c) =? 1 then PCb2 c else PCb3 c) /\
  chanRemoveDeletes = 1 /\
  ctstep s (PCb2 c) arg = Some (set_conns s (remn c (conns s)), PCb3 c).
Proof.
  intros s c arg. cbn [ctstep]. unfold chanRemoveTest, kCl. split; [|split; reflexivity].
  destruct (cstate s c =? c_connectionClosed); reflexivity.
Qed.

(* connectionCloseStateChange between "enter" and "afterRead": go2v accepts the text only with
   ch.removeClosedConn(c) BEFORE chState := ch.State() (the read mentions the marker of the removal);
   what is left is the state test, the model's PCb3 -- which therefore comes after PCb1/PCb2 *)
Lemma gen_callback_read : forall s c arg,
  ctstep s (PCb3 c) arg =
    Some (s, if chanCallbackRead (chst s) =? 0 then CDone oCbDone else PCb4 c (chanCallbackRead (chst s))).
Proof.
  intros s c arg. cbn [ctstep]. unfold chanCallbackRead, hSC, hIC. rewrite Z.add_0_r.
  destruct (chst s =? c_ChannelStartClose) eqn:E1; cbn [negb andb orb].
  - apply Z.eqb_eq in E1. rewrite E1. reflexivity.
  - destruct (chst s =? c_ChannelInboundClosed) eqn:E2; cbn [negb andb orb]; [|reflexivity].
    apply Z.eqb_eq in E2. rewrite E2. reflexivity.
Qed.

Lemma zlen_zero : forall (l : list nat), (zlen l =? 0) = match l with [] => true | _ => false end.
Proof. intros [|x l]; [reflexivity|]. unfold zlen. cbn [length]. apply Z.eqb_neq. lia. Qed.

(* Channel.Close, the locked region after the early return: the guarded raise to StartClose
   (chanCloseState of Gen/GenClose.v, tied by CloseGenP.gen_close_state) followed by "if len(conns) == 0 { state = ChannelClosed; channelClosed = true }" *)
Lemma gen_close_empty : forall s arg, chst s <> hCl ->
  ctstep s PCl1 arg =
    let '(st, cc) := chanCloseEmpty (zlen (conns s)) (chanCloseState (chst s)) in
    Some (set_chst s st, PCl2 (if cc then [] else conns s) cc).
Proof.
  intros s arg H. cbn [ctstep]. apply Z.eqb_neq in H. rewrite H.
  unfold chanCloseEmpty, chanCloseState, hSC, hCl. rewrite zlen_zero.
  destruct s as [a b c d e f]. cbn [chst conns set_chst cstates g_closed g_owed lis].
  destruct b; destruct (a <? c_ChannelStartClose); reflexivity.
Qed.
