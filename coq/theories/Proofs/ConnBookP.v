(* Proofs about Model/ConnBook.v: a fully closed connection whose close-state callbacks have
   run is held neither by the channel's connection map nor by any peer. *)
From Coq Require Import ZArith List Bool Lia.
From Verif Require Import Base.Wire Gen.GenConsts Model.MexDrain Model.RelayDrain Model.ConnBook
  Proofs.DrainBaseP Proofs.MexDrainP Proofs.RelayDrainP.
Import ListNotations.
Local Open Scope Z_scope.

Lemma pair_eqb_true x y : pair_eqb x y = true <-> x = y.
Proof.
  destruct x as [a b], y as [c d]. unfold pair_eqb. cbn [fst snd]. split.
  - intros H. apply andb_true_iff in H as [H1 H2]. f_equal; lia.
  - intros H. injection H as -> ->. rewrite !Z.eqb_refl. reflexivity.
Qed.
Lemma pair_eqb_refl x : pair_eqb x x = true.
Proof. apply pair_eqb_true. reflexivity. Qed.
Lemma pair_eqb_false x y : x <> y -> pair_eqb x y = false.
Proof. intros H. destruct (pair_eqb x y) eqn:E; [|reflexivity]. apply pair_eqb_true in E. contradiction. Qed.

Fixpoint pcount (x : Z * Z) (l : list (Z * Z)) : Z :=
  match l with [] => 0 | y :: r => (if pair_eqb x y then 1 else 0) + pcount x r end.

Lemma pcount_nonneg x l : 0 <= pcount x l.
Proof. induction l as [|y r IH]; cbn [pcount]; [lia|]. destruct (pair_eqb x y); lia. Qed.

Lemma pcount_In x l : In x l <-> 0 < pcount x l.
Proof.
  induction l as [|y r IH]; cbn [pcount In]; [lia|].
  pose proof (pcount_nonneg x r). destruct (pair_eqb x y) eqn:E.
  - apply pair_eqb_true in E. subst. split; [lia|]. intros _. left. reflexivity.
  - split.
    + intros [->|Hin]; [rewrite pair_eqb_refl in E; discriminate|]. apply IH in Hin. lia.
    + intros Hp. right. apply IH. lia.
Qed.

Lemma has_pair_In x l : has_pair x l = true <-> In x l.
Proof.
  unfold has_pair. rewrite existsb_exists. split.
  - intros (y & Hin & Hy). apply pair_eqb_true in Hy. subst. exact Hin.
  - intros Hin. exists x. split; [exact Hin|apply pair_eqb_refl].
Qed.

Lemma pcount_remove1_other x y l : x <> y -> pcount x (remove1_pair y l) = pcount x l.
Proof.
  intros Hne. induction l as [|z r IH]; cbn [remove1_pair pcount]; [reflexivity|].
  destruct (pair_eqb y z) eqn:E.
  - apply pair_eqb_true in E. subst z. rewrite (pair_eqb_false _ _ Hne). lia.
  - cbn [pcount]. rewrite IH. reflexivity.
Qed.

Lemma pcount_remove1_same y l : pcount y (remove1_pair y l) = Z.max 0 (pcount y l - 1).
Proof.
  induction l as [|z r IH]; cbn [remove1_pair pcount]; [reflexivity|].
  pose proof (pcount_nonneg y r). destruct (pair_eqb y z) eqn:E; [lia|].
  cbn [pcount]. rewrite E, IH. lia.
Qed.

Lemma pcount_remove1_le x y l : pcount x (remove1_pair y l) <= pcount x l.
Proof.
  destruct (pair_eqb x y) eqn:E.
  - apply pair_eqb_true in E. subst. rewrite pcount_remove1_same. pose proof (pcount_nonneg y l). lia.
  - rewrite pcount_remove1_other; [lia|]. intros ->. rewrite pair_eqb_refl in E. discriminate.
Qed.

Lemma peers_drop_le ps c x l : pcount x (peers_drop ps c l) <= pcount x l.
Proof.
  revert l. induction ps as [|p r IH]; intros l; cbn [peers_drop]; [lia|].
  specialize (IH (remove1_pair (p, c) l)). pose proof (pcount_remove1_le x (p, c) l). lia.
Qed.

Lemma peers_drop_other ps c p' c' l : c' <> c -> pcount (p', c') (peers_drop ps c l) = pcount (p', c') l.
Proof.
  intros Hne. revert l. induction ps as [|p r IH]; intros l; cbn [peers_drop]; [reflexivity|].
  rewrite IH. apply pcount_remove1_other. intros H. injection H as _ H. contradiction.
Qed.

Lemma peers_drop_zero ps c p l : In p ps -> pcount (p, c) l <= 1 -> pcount (p, c) (peers_drop ps c l) = 0.
Proof.
  revert l. induction ps as [|q r IH]; intros l Hin Hle; cbn [peers_drop]; [destruct Hin|].
  destruct (Z.eq_dec q p) as [->|Hne].
  - pose proof (peers_drop_le r c (p, c) (remove1_pair (p, c) l)) as H1.
    rewrite pcount_remove1_same in H1. pose proof (pcount_nonneg (p, c) (peers_drop r c (remove1_pair (p, c) l))). lia.
  - destruct Hin as [->|Hin]; [contradiction|]. apply IH; [exact Hin|].
    pose proof (pcount_remove1_le (p, c) (q, c) l). lia.
Qed.

Lemma zget_zset k k' v l :
  zget k (zset k' v l) = if k =? k' then (match zget k' l with Some _ => Some v | None => None end) else zget k l.
Proof. exact (aget_aset k k' v l). Qed.

Lemma In_del x c l : In x (del c l) <-> In x l /\ x <> c.
Proof.
  rewrite <- !has_In. rewrite has_del. split.
  - intros H. apply andb_true_iff in H as [H1 H2]. split; [exact H1|lia].
  - intros [H1 H2]. apply andb_true_iff. split; [exact H1|lia].
Qed.

Definition stof (s : cbstate) (c : Z) : option Z := zget c (cb_cstate s).

(* A held connection is not Closed (channel) / is Active (peers), or its callback is still to
   run; what a peer lists or is about to list belongs to that connection's callback, and each
   (peer, connection) pair goes through Peer.addConnection once, so the callback's single
   removal per peer empties the lists. *)
Record BInv (s : cbstate) : Prop := {
  b_conns : forall c, In c (cb_conns s) ->
            (exists v, stof s c = Some v /\ v <> c_connectionClosed) \/ In c (cb_cbs s);
  b_peers : forall p c, In (p, c) (cb_peers s) -> stof s c = Some c_connectionActive \/ In c (cb_cbs s);
  b_member : forall p c, In (p, c) (cb_peers s) \/ In (p, c) (cb_checked s) ->
             stof s c <> None /\ In p (lget c (cb_cpeers s));
  b_once : forall pc, pcount pc (cb_peers s) + pcount pc (cb_checked s) <= zb (has_pair pc (cb_ever s))
}.

Lemma BInv_init : BInv cb_init.
Proof. constructor; cbn; try tauto; try discriminate. Qed.

Lemma lget_cons_other c c' ps l : c <> c' -> lget c ((c', ps) :: l) = lget c l.
Proof. intros H. cbn [lget]. assert (c' =? c = false) as -> by lia. reflexivity. Qed.

Lemma In_remove1_pair_sub x y l : In x (remove1_pair y l) -> In x l.
Proof. intros H. apply pcount_In. apply pcount_In in H. pose proof (pcount_remove1_le x y l). lia. Qed.

Lemma In_peers_drop_sub x ps c l : In x (peers_drop ps c l) -> In x l.
Proof. intros H. apply pcount_In. apply pcount_In in H. pose proof (peers_drop_le ps c x l). lia. Qed.

Lemma never_checked s pc : BInv s -> has_pair pc (cb_ever s) = false ->
  pcount pc (cb_peers s) = 0 /\ pcount pc (cb_checked s) = 0.
Proof.
  intros HI He. pose proof (b_once s HI pc) as H. rewrite He in H. cbn [zb] in H.
  pose proof (pcount_nonneg pc (cb_peers s)). pose proof (pcount_nonneg pc (cb_checked s)). lia.
Qed.

Ltac inv_fields HI := destruct HI as [Hconns Hpeers Hmember Honce].
(* the fields that read nothing the step has written are the hypotheses themselves *)
Ltac fin := constructor; unfold stof in *; cbn [cb_conns cb_peers cb_checked cb_cbs cb_cstate cb_cpeers cb_ever]; try assumption.

Lemma BInv_step s l s' : BInv s -> cstep s l = Some s' -> BInv s'.
Proof.
  intros HI Hs. destruct l as [c p1 p2|c|p c|p c|c st|c|]; cbn [cstep] in Hs.
  - (* CNew: the new connection is Active *)
    destruct (zget c (cb_cstate s)) eqn:Hz; [discriminate|]. injection Hs as <-. inv_fields HI.
    fin; cbn [zget].
    + intros c' Hin. destruct (c =? c'); [left; exists c_connectionActive; split; [reflexivity|discriminate]|auto].
    + intros p c' Hin. destruct (c =? c'); [left; reflexivity|eauto].
    + intros p c' Hin. destruct (Hmember p c' Hin) as [Hk Hm].
      assert (c' <> c) by congruence. rewrite lget_cons_other by assumption.
      assert (c =? c' = false) as -> by lia. auto.
  - (* CChanAdd *)
    destruct (zget c (cb_cstate s)) as [st|] eqn:Hz; [|discriminate].
    destruct (negb (st =? c_connectionActive)) eqn:Ea; [injection Hs as <-; inv_fields HI; constructor; assumption|].
    destruct (negb (cb_open s)); injection Hs as <-; inv_fields HI; [constructor; assumption|]. fin.
    intros c' [<-|Hin].
    + left. exists st. split; [exact Hz|]. unfold c_connectionActive, c_connectionClosed in *. lia.
    + apply In_del in Hin as [Hin _]. auto.
  - (* CPeerCheck *)
    destruct (zget c (cb_cstate s)) as [st|] eqn:Hz; [|discriminate].
    destruct (negb (has p (lget c (cb_cpeers s))) || has_pair (p, c) (cb_ever s)) eqn:Egate; [discriminate|].
    apply orb_false_iff in Egate as [Emem Eever]. apply negb_false_iff in Emem. apply has_In in Emem.
    destruct (never_checked s (p, c) HI Eever) as [Hz1 Hz2].
    assert (Honce' : forall pc, pcount pc (cb_peers s) + ((if pair_eqb pc (p, c) then 1 else 0) + pcount pc (cb_checked s)) <=
                      zb (has_pair pc ((p, c) :: cb_ever s))).
    { intros pc. pose proof (b_once s HI pc) as H. unfold has_pair in *. cbn [existsb].
      destruct (pair_eqb pc (p, c)) eqn:E; cbn [orb zb]; [|exact H]. apply pair_eqb_true in E. subst pc. lia. }
    destruct (negb (st =? c_connectionActive)) eqn:Ea; injection Hs as <-; inv_fields HI; fin.
    + intros pc. specialize (Honce' pc). destruct (pair_eqb pc (p, c)); lia.
    + intros q c' [H|[H|H]]; [apply Hmember; tauto| |apply Hmember; tauto].
      injection H as <- <-. split; [congruence|exact Emem].
  - (* CPeerAppend *)
    destruct (has_pair (p, c) (cb_checked s)) eqn:Hck; [|discriminate]. apply has_pair_In in Hck.
    destruct (zget c (cb_cstate s)) as [st|] eqn:Hz; [|discriminate].
    destruct (negb (st =? c_connectionActive)) eqn:Ea; injection Hs as <-; inv_fields HI; fin.
    + intros q c' [H|H]; apply Hmember; [tauto|]. right. eapply In_remove1_pair_sub; exact H.
    + intros pc. specialize (Honce pc). pose proof (pcount_remove1_le pc (p, c) (cb_checked s)). lia.
    + intros q c' [H|H]; [|apply (Hpeers q); exact H]. injection H as <- <-. left. rewrite Hz. f_equal. lia.
    + intros q c' [[H|H]|H]; apply Hmember; [injection H as <- <-|..]; try tauto.
      right. eapply In_remove1_pair_sub; exact H.
    + intros pc. specialize (Honce pc). cbn [pcount]. destruct (pair_eqb pc (p, c)) eqn:E.
      * apply pair_eqb_true in E. subst pc. rewrite pcount_remove1_same. apply pcount_In in Hck. lia.
      * rewrite pcount_remove1_other; [lia|]. intros ->. rewrite pair_eqb_refl in E. discriminate.
  - (* CSetState: the callback is pending from now on *)
    destruct (zget c (cb_cstate s)) as [cur|] eqn:Hz; [|discriminate].
    destruct ((cur <? st) && (st <=? c_connectionClosed)) eqn:Eg; [|discriminate].
    injection Hs as <-. inv_fields HI. fin.
    + intros c' Hin. rewrite zget_zset. destruct (c' =? c) eqn:E; [right; left; lia|].
      destruct (Hconns c' Hin) as [H|H]; [left; exact H|right; right; exact H].
    + intros p c' Hin. rewrite zget_zset. destruct (c' =? c) eqn:E; [right; left; lia|].
      destruct (Hpeers p c' Hin) as [H|H]; [left; exact H|right; right; exact H].
    + intros p c' Hin. rewrite zget_zset. destruct (c' =? c); [rewrite Hz; split; [discriminate|]|]; apply Hmember, Hin.
  - (* CCallback *)
    destruct (has c (cb_cbs s)) eqn:Hcb; [|discriminate].
    destruct (zget c (cb_cstate s)) as [st|] eqn:Hz; [|discriminate].
    injection Hs as <-. pose proof HI as HI0. inv_fields HI. fin.
    + intros c' Hin. destruct (Z.eq_dec c' c) as [->|Hne].
      * destruct (st =? c_connectionClosed) eqn:Ec; [apply In_del in Hin as [_ H]; contradiction|].
        left. exists st. split; [exact Hz|lia].
      * assert (Hin' : In c' (cb_conns s)) by (destruct (st =? c_connectionClosed); [apply In_del in Hin; tauto|exact Hin]).
        destruct (Hconns c' Hin') as [H|H]; [left; exact H|right; apply in_remove1_other; assumption].
    + intros p c' Hin. destruct (st =? c_connectionActive) eqn:Ea.
      * destruct (Z.eq_dec c' c) as [->|Hne]; [left; rewrite Hz; f_equal; lia|].
        destruct (Hpeers p c' Hin) as [H|H]; [left; exact H|right; apply in_remove1_other; assumption].
      * assert (Hin' : In (p, c') (cb_peers s)) by (eapply In_peers_drop_sub; exact Hin).
        destruct (Z.eq_dec c' c) as [->|Hne].
        -- (* the callback has removed the one entry of each of its peers *)
           exfalso. destruct (Hmember p c (or_introl Hin')) as [_ Hp].
           assert (Hle : pcount (p, c) (cb_peers s) <= 1).
           { specialize (Honce (p, c)). pose proof (pcount_nonneg (p, c) (cb_checked s)).
             destruct (has_pair (p, c) (cb_ever s)); cbn [zb] in Honce; lia. }
           apply pcount_In in Hin. rewrite (peers_drop_zero _ _ _ _ Hp Hle) in Hin. lia.
        -- destruct (Hpeers p c' Hin') as [H|H]; [left; exact H|right; apply in_remove1_other; assumption].
    + intros p c' [Hin|Hin]; apply Hmember; [|tauto]. left.
      destruct (st =? c_connectionActive); [exact Hin|]. eapply In_peers_drop_sub; exact Hin.
    + intros pc. specialize (Honce pc). destruct (st =? c_connectionActive); [exact Honce|].
      pose proof (peers_drop_le (lget c (cb_cpeers s)) c pc (cb_peers s)). lia.
  - (* CChanClose *)
    injection Hs as <-. inv_fields HI. constructor; assumption.
Qed.

Lemma BInv_run ls s s' : BInv s -> crun s ls = Some s' -> BInv s'.
Proof. exact (run_invariant _ _ BInv (fun _ => eq_refl) (fun _ _ _ => eq_refl) BInv_step ls s s'). Qed.

(* Main theorem: after ANY history of connection creations, registrations (including
   Peer.addConnection interrupted between its two steps), state changes and callbacks, a
   connection in state Closed with no close-state callback pending is neither in the
   channel's connection map nor in any peer's list. *)
Theorem closed_conns_dropped : forall ls s c,
  crun cb_init ls = Some s ->
  closed_conn s c = true -> has c (cb_cbs s) = false ->
  holds_conn s c = false.
Proof.
  intros ls s c Hr Hclosed Hnocb.
  destruct (BInv_run ls _ _ BInv_init Hr) as [Hconns Hpeers _ _].
  unfold closed_conn in Hclosed. unfold stof in *. destruct (zget c (cb_cstate s)) as [st|] eqn:Hz; [|discriminate].
  assert (Hncb : ~ In c (cb_cbs s)) by (intros H; apply has_In in H; congruence).
  unfold holds_conn. apply orb_false_iff. split.
  - destruct (has c (cb_conns s)) eqn:Hh; [|reflexivity]. apply has_In in Hh.
    destruct (Hconns c Hh) as [(v & Hv & Hne)|H]; [|contradiction]. rewrite Hz in Hv. injection Hv as <-. lia.
  - destruct (existsb (fun pc => snd pc =? c) (cb_peers s)) eqn:He; [|reflexivity].
    apply existsb_exists in He as ([p c'] & Hin & Hc). cbn [snd] in Hc. assert (c' = c) by lia. subst c'.
    destruct (Hpeers p c Hin) as [H|H]; [|contradiction]. rewrite Hz in H. injection H as ->.
    unfold c_connectionActive, c_connectionClosed in *. lia.
Qed.

(* the same for a connection that merely left the active state: no peer lists it *)
Theorem inactive_conns_left_peers : forall ls s c st p,
  crun cb_init ls = Some s ->
  zget c (cb_cstate s) = Some st -> st <> c_connectionActive -> has c (cb_cbs s) = false ->
  ~ In (p, c) (cb_peers s).
Proof.
  intros ls s c st p Hr Hz Hne Hnocb Hin.
  destruct (BInv_run ls _ _ BInv_init Hr) as [_ Hpeers _ _].
  destruct (Hpeers p c Hin) as [H|H].
  - unfold stof in H. rewrite Hz in H. injection H as ->. contradiction.
  - apply has_In in H. congruence.
Qed.
