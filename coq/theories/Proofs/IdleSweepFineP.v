(* Proofs about Model/IdleSweepFine.v: the idle sweep as a thread of atomic actions interleaved
   with the events of the other goroutines.
     - the generated decision functions are the ones of the hand model (Model/Idle.v);
     - activity stamps = last call activity of the history, along every interleaving;
     - a connection no other goroutine touches during a sweep gets exactly what the atomic
       sweep of C19_sweep_iff gives it (if and only if), whatever happens to the others;
     - the weakest correct "only if" for a connection that IS touched: what held at which
       instant when the sweep closes it; with the re-check of the fix: no call frame between
       now - MaxIdleTime and the re-check instant, and the statement's condition in full at
       that instant when no call started on the connection while the sweep tested it;
     - without the re-check (fx = false) the "only if" fails at every instant of the sweep;
     - in both versions, every candidate of the second loop was found idle by a look of the
       same sweep. *)
From Coq Require Import ZArith List Bool Lia.
From Verif Require Import Base.Wrap Base.Wire Gen.GenConsts Gen.GenFrame Gen.GenHealthIdle
  Spec.IdleHealthSpec Model.Health Model.Idle Model.IdleHealthSys Model.IdleSweepFine
  Proofs.IdleP Proofs.HealthP.
Import ListNotations.
Local Open Scope Z_scope.

(* the generated decisions are those of the hand model *)
Lemma gen_last_activity c : lastActivityTime (k_lr c) (k_lw c) = last_activity c.
Proof. reflexivity. Qed.

Lemma gen_fine_idle now mi c : fine_idle now mi c = idle_candidate now mi c.
Proof. reflexivity. Qed.

Lemma gen_is_active c : connIsActive (k_state c) = is_active c.
Proof. reflexivity. Qed.

Lemma gen_relay_can_close c : relayCanClose (relay_is_nil c) (relay_pending c) = relay_can_close c.
Proof. unfold relayCanClose, relay_is_nil, relay_pending, relay_can_close. destruct (k_relay c); reflexivity. Qed.

Lemma gen_has_pending_calls c :
  hasPendingCalls (k_inb c) (k_outb c) (relayCanClose (relay_is_nil c) (relay_pending c)) = has_pending_calls c.
Proof. rewrite gen_relay_can_close. reflexivity. Qed.

Lemma frun_app fx cf : forall l1 l2 st,
  frun fx cf st (l1 ++ l2) = match frun fx cf st l1 with Some st1 => frun fx cf st1 l2 | None => None end.
Proof.
  induction l1 as [|a r IH]; intros l2 st; [reflexivity|]. cbn [app frun].
  destruct (fstep fx cf st a); [apply IH|reflexivity].
Qed.

Lemma frun_snoc fx cf ls a st st' :
  frun fx cf st (ls ++ [a]) = Some st' <->
  exists st1, frun fx cf st ls = Some st1 /\ fstep fx cf st1 a = Some st'.
Proof.
  rewrite frun_app. destruct (frun fx cf st ls) as [st1|]; cbn [frun].
  - split.
    + intros H. exists st1. split; [reflexivity|]. destruct (fstep fx cf st1 a); [exact H|discriminate].
    + intros (st2 & E & H). injection E as <-. now rewrite H.
  - split; [discriminate|]. intros (st1 & E & _). discriminate.
Qed.

Lemma frun_inv fx cf (I : fstate -> Prop) : forall l st st',
  (forall a s1 s2, In a l -> I s1 -> fstep fx cf s1 a = Some s2 -> I s2) ->
  I st -> frun fx cf st l = Some st' -> I st'.
Proof.
  induction l as [|a r IH]; intros st st' Hs Hi H; cbn [frun] in H; [injection H as <-; exact Hi|].
  destruct (fstep fx cf st a) as [st1|] eqn:E; [|discriminate].
  apply (IH st1 st'); [intros b s1 s2 Hb; apply Hs; now right|apply (Hs a st st1); [now left|exact Hi|exact E]|exact H].
Qed.

Definition is_env (a : flab) : bool := match a with FEv _ => true | _ => false end.
Definition env_only (l : list flab) : Prop := forall a, In a l -> is_env a = true.

(* an event of another goroutine: the channel takes the step of Model/IdleHealthSys.v and the
   poller's program counter stays *)
Lemma fstep_env fx cf st e st' : fstep fx cf st (FEv e) = Some st' ->
  f_ch st' = step cf (f_ch st) e /\ f_pc st' = f_pc st /\ e <> ETick.
Proof.
  intros H. destruct e; cbn [fstep] in H; try discriminate;
    try (injection H as <-; cbn [f_ch f_pc]; repeat split; discriminate).
  destruct (holds_lock (f_pc st)); [discriminate|]. injection H as <-. cbn [f_ch f_pc]. repeat split; discriminate.
Qed.

Lemma frun_env_pc fx cf : forall l st st', env_only l -> frun fx cf st l = Some st' -> f_pc st' = f_pc st.
Proof.
  intros l st st' Hl. apply (frun_inv fx cf (fun s => f_pc s = f_pc st)); [|reflexivity].
  intros a s1 s2 Ha <- E. specialize (Hl a Ha). destruct a; try discriminate. now apply fstep_env in E as (_ & -> & _).
Qed.

(* all the ways a step can be enabled *)
Ltac finv H :=
  cbn [fstep] in H;
  repeat (match type of H with
          | context [match ?x with _ => _ end] => destruct x eqn:?
          end);
  try discriminate H; try (injection H as <-).

Lemma fstep_sweep_ch fx cf st a st' : is_env a = false -> fstep fx cf st a = Some st' ->
  f_ch st' = f_ch st \/
  exists now id rest c, f_pc st = SClose now id rest /\ lookup id (ch_conns (f_ch st)) = Some c /\
    f_ch st' = {| ch_now := ch_now (f_ch st); ch_conns := update id (conn_close c) (ch_conns (f_ch st)) |}.
Proof. intros Ha H. destruct a; try discriminate; finv H; cbn [f_ch]; eauto 8. Qed.

Lemma fstep_wf fx cf st a st' : chan_wf (f_ch st) -> fstep fx cf st a = Some st' -> chan_wf (f_ch st').
Proof.
  intros W H. destruct (is_env a) eqn:Ea.
  - destruct a; try discriminate. apply fstep_env in H as (-> & _ & _). apply wf_step, W.
  - destruct (fstep_sweep_ch fx cf st a st' Ea H) as [->|(now & id & rest & c & _ & L & ->)]; [exact W|].
    destruct W as [Hnd Hall]. split; cbn [ch_conns].
    + rewrite update_keys. exact Hnd.
    + intros i ci. rewrite lookup_update. destruct (Z.eqb_spec id i) as [<-|_]; [|apply Hall].
      rewrite L. intros [= <-]. apply (oc_close _ wf_closed), (Hall id c L).
Qed.

Lemma frun_wf fx cf l st st' : chan_wf (f_ch st) -> frun fx cf st l = Some st' -> chan_wf (f_ch st').
Proof. apply (frun_inv fx cf (fun s => chan_wf (f_ch s))). intros a s1 s2 _. apply fstep_wf. Qed.

Lemma finit_wf t0 : chan_wf (f_ch (finit t0)).
Proof. split; [constructor|]. intros i c L. discriminate. Qed.

(* clock and stamps along every interleaving *)
Lemma fstep_now fx cf st a st' : fstep fx cf st a = Some st' ->
  ch_now (f_ch st') = clock (ch_now (f_ch st)) (evs_of [a]).
Proof.
  intros H. destruct (is_env a) eqn:Ea.
  - destruct a; try discriminate. apply fstep_env in H as (-> & _ & _). cbn [evs_of].
    apply step_now.
  - destruct (fstep_sweep_ch fx cf st a st' Ea H) as [->|(now & id & rest & c & _ & _ & ->)];
      destruct a; try discriminate; reflexivity.
Qed.

Lemma evs_of_app l1 l2 : evs_of (l1 ++ l2) = evs_of l1 ++ evs_of l2.
Proof. induction l1 as [|a r IH]; [reflexivity|]. destruct a; cbn [app evs_of]; rewrite IH; reflexivity. Qed.

Lemma frun_now fx cf : forall l st st', frun fx cf st l = Some st' ->
  ch_now (f_ch st') = clock (ch_now (f_ch st)) (evs_of l).
Proof.
  induction l as [|a r IH]; intros st st' H; cbn [frun] in H; [injection H as <-; reflexivity|].
  destruct (fstep fx cf st a) as [st1|] eqn:E; [|discriminate].
  rewrite (IH st1 st' H), (fstep_now fx cf st a st1 E).
  change (a :: r) with ([a] ++ r). rewrite evs_of_app, clock_app. reflexivity.
Qed.

Lemma fstep_stamp_rel fx cf id st a st' cur :
  clock_ok (ch_now (f_ch st)) (evs_of [a]) -> stamp_rel id (f_ch st) cur -> fstep fx cf st a = Some st' ->
  stamp_rel id (f_ch st') (last_call_activity id (ch_now (f_ch st)) cur (evs_of [a])).
Proof.
  intros Hc Hr H. destruct (is_env a) eqn:Ea.
  - destruct a; try discriminate. apply fstep_env in H as (-> & _ & _). cbn [evs_of] in *.
    exact (stamp_step cf id (f_ch st) e cur Hc Hr).
  - assert (Hev : evs_of [a] = []) by (destruct a; try discriminate; reflexivity). rewrite Hev. cbn [last_call_activity].
    destruct (fstep_sweep_ch fx cf st a st' Ea H) as [->|(now & i & rest & c & _ & L & ->)]; [exact Hr|].
    apply (stamp_rel_ext id (f_ch st)); [reflexivity| |exact Hr]. cbn [ch_conns].
    rewrite lookup_update. destruct (Z.eqb_spec i id) as [->|_]; [|reflexivity].
    rewrite L. cbn [option_map]. now rewrite (oc_close _ stamps_closed).
Qed.

Lemma frun_stamp_rel fx cf id : forall l st st' cur,
  clock_ok (ch_now (f_ch st)) (evs_of l) -> stamp_rel id (f_ch st) cur -> frun fx cf st l = Some st' ->
  stamp_rel id (f_ch st') (last_call_activity id (ch_now (f_ch st)) cur (evs_of l)).
Proof.
  induction l as [|a r IH]; intros st st' cur Hc Hr H; cbn [frun] in H; [injection H as <-; exact Hr|].
  destruct (fstep fx cf st a) as [st1|] eqn:E; [|discriminate].
  change (a :: r) with ([a] ++ r) in *. rewrite evs_of_app in *. apply clock_ok_app in Hc as [Hc1 Hc2].
  rewrite lca_app. rewrite <- (fstep_now fx cf st a st1 E) in *.
  apply (IH st1); [exact Hc2| |exact H]. now apply (fstep_stamp_rel fx cf id st a st1).
Qed.

(* C19_stamp along every interleaving of the sweep's actions with the other events *)
Theorem fine_stamp fx cf t0 ls st id : clock_ok t0 (evs_of ls) ->
  frun fx cf (finit t0) ls = Some st ->
  match lookup id (ch_conns (f_ch st)) with
  | Some c => last_call_activity id t0 None (evs_of ls) = Some (Z.max (k_lr c) (k_lw c))
  | None => last_call_activity id t0 None (evs_of ls) = None
  end.
Proof.
  intros Hc H. pose proof (frun_stamp_rel fx cf id ls (finit t0) st None Hc I H) as R.
  unfold stamp_rel in R. cbn [finit f_ch init_chan ch_now] in R.
  destruct (lookup id (ch_conns (f_ch st))); destruct (last_call_activity id t0 None (evs_of ls)); try tauto.
  destruct R as [-> _]. reflexivity.
Qed.

Lemma mem_id_in id l : mem_id id l = true <-> In id l.
Proof. exact (mem_in id l). Qed.

Lemma mem_id_remove_same id l : mem_id id (remove_id id l) = false.
Proof.
  destruct (mem_id id (remove_id id l)) eqn:E; [|reflexivity]. apply mem_id_in in E.
  unfold remove_id in E. apply filter_In in E as [_ E]. rewrite Z.eqb_refl in E. discriminate.
Qed.

Lemma mem_id_remove_other id i l : i <> id -> mem_id id (remove_id i l) = mem_id id l.
Proof.
  intros Hne. destruct (mem_id id l) eqn:E.
  - apply mem_id_in. apply mem_id_in in E. unfold remove_id. apply filter_In. split; [exact E|]. lia.
  - destruct (mem_id id (remove_id i l)) eqn:E'; [|reflexivity]. apply mem_id_in in E'.
    unfold remove_id in E'. apply filter_In in E' as [E' _]. apply mem_id_in in E'. congruence.
Qed.

Lemma mem_id_snoc id i l : mem_id id (l ++ [i]) = mem_id id l || (id =? i).
Proof. unfold mem_id. rewrite existsb_app. cbn [existsb]. now rewrite orb_false_r. Qed.

Lemma mem_id_cons id i l : mem_id id (i :: l) = (id =? i) || mem_id id l.
Proof. reflexivity. Qed.

Lemma tracked_ids_mem s id c : NoDup (map fst (ch_conns s)) -> lookup id (ch_conns s) = Some c ->
  mem_id id (tracked_ids s) = k_tracked c.
Proof.
  intros Hnd L. pose proof (filter_keys_mem (fun ic => k_tracked (snd ic)) id _ Hnd) as H. rewrite L in H. exact H.
Qed.

Definition sweep_result (now mi : Z) (c : conn) : conn :=
  if k_tracked c && idle_candidate now mi c then close_if_ok c else c.

(* the facts the poller has established about connection id when it is at (i, rest) of the second loop *)
Definition q_at (id : Z) (c : conn) (now0 mi : Z) (cur : option conn) (i : Z) (rest : list Z) (extra : Prop) : Prop :=
  let cand := k_tracked c && idle_candidate now0 mi c in
  if i =? id then cur = Some c /\ cand = true /\ is_active c = true /\ extra
  else if mem_id id rest then cur = Some c /\ cand = true else cur = Some (sweep_result now0 mi c).

(* the five tests of the second loop, uniformly *)
Inductive stage := GAct | GInb | GOutb | GRelay | GRecheck.

(* the program counter before test g on candidate i, and after it when the test lets the poller go on *)
Definition stage_pc (g : stage) (now i : Z) (rest : list Z) : spc :=
  match g with
  | GAct => SLoop2 now (i :: rest) | GInb => SInb now i rest | GOutb => SOutb now i rest
  | GRelay => SRelay now i rest | GRecheck => SRecheck now i rest
  end.
Definition stage_next (g : stage) (now i : Z) (rest : list Z) : spc :=
  match g with
  | GAct => SInb now i rest | GInb => SOutb now i rest | GOutb => SRelay now i rest
  | GRelay => SRecheck now i rest | GRecheck => SClose now i rest
  end.
Definition stage_test (fx : bool) (now mi : Z) (g : stage) (c : conn) : bool :=
  match g with
  | GAct => is_active c | GInb => negb (k_inb c >? 0) | GOutb => negb (k_outb c >? 0)
  | GRelay => relay_can_close c | GRecheck => negb (fx && negb (idle_candidate now mi c))
  end.

Lemma fstep_stage fx cf st g now i rest : f_pc st = stage_pc g now i rest ->
  fstep fx cf st FStep =
  Some {| f_ch := f_ch st;
          f_pc := match lookup i (ch_conns (f_ch st)) with
                  | Some c => if stage_test fx now (cf_max_idle cf) g c then stage_next g now i rest
                              else SLoop2 now rest
                  | None => SLoop2 now rest
                  end |}.
Proof.
  intros P. cbn [fstep]. rewrite P.
  destruct g; cbn [stage_pc stage_next stage_test]; (destruct (lookup i (ch_conns (f_ch st))) as [c|]; [|reflexivity]);
    rewrite ?gen_relay_can_close, ?gen_fine_idle, ?gen_is_active;
    try destruct fx; try destruct (is_active c); try destruct (_ >? 0); try destruct (relay_can_close c);
    try destruct (idle_candidate _ _ _); reflexivity.
Qed.

(* what the poller has found out about the candidate it is busy with *)
Definition known (p : spc) (c : conn) : Prop :=
  match p with
  | SOutb _ _ _ => (k_inb c >? 0) = false
  | SRelay _ _ _ => (k_inb c >? 0) = false /\ (k_outb c >? 0) = false
  | SRecheck _ _ _ | SClose _ _ _ => (k_inb c >? 0) = false /\ (k_outb c >? 0) = false /\ relay_can_close c = true
  | _ => True
  end.

Lemma known_next fx now mi g i rest c : known (stage_pc g now i rest) c ->
  stage_test fx now mi g c = true -> known (stage_next g now i rest) c.
Proof.
  destruct g; cbn [known stage_pc stage_next stage_test]; intros K T; try apply negb_true_iff in T; tauto.
Qed.

(* a candidate that fails a test is one the atomic sweep leaves alone *)
Lemma failed_test_kept fx now mi g i rest c : k_tracked c && idle_candidate now mi c = true ->
  known (stage_pc g now i rest) c -> stage_test fx now mi g c = false -> close_if_ok c = c.
Proof.
  intros Hc K T. unfold close_if_ok, has_pending_calls.
  destruct g; cbn [known stage_pc stage_test] in *; try apply negb_false_iff in T.
  - rewrite T. reflexivity.
  - rewrite T. destruct (negb _); reflexivity.
  - rewrite T, orb_true_r. destruct (negb _); reflexivity.
  - destruct K as [-> ->]. rewrite T. destruct (negb _); reflexivity.
  - apply andb_true_iff in Hc as [_ Hc]. rewrite Hc, andb_false_r in T. discriminate T.
Qed.

(* a connection that no other goroutine touches during a sweep *)
(* the invariant: where the sweep is with connection id, whose state at the begin of the sweep was c *)
Definition qinv_pc (id : Z) (c : conn) (now0 mi : Z) (cur : option conn) (p : spc) : Prop :=
  let cand := k_tracked c && idle_candidate now0 mi c in
  match p with
  | SIdle => cur = Some (sweep_result now0 mi c)
  | SStart now => now = now0 /\ cur = Some c
  | SCollect now todo acc =>
      now = now0 /\ cur = Some c /\ NoDup acc /\ (forall x, In x acc -> ~ In x todo) /\
      (if mem_id id todo then k_tracked c = true else mem_id id acc = cand)
  | SLoop2 now cands =>
      now = now0 /\ NoDup cands /\
      (if mem_id id cands then cur = Some c /\ cand = true else cur = Some (sweep_result now0 mi c))
  | SInb now i rest | SOutb now i rest | SRelay now i rest | SRecheck now i rest | SClose now i rest =>
      now = now0 /\ NoDup (i :: rest) /\ q_at id c now0 mi cur i rest (known p c)
  end.

Definition qinv (id : Z) (c : conn) (now0 mi : Z) (st : fstate) : Prop :=
  chan_wf (f_ch st) /\ qinv_pc id c now0 mi (lookup id (ch_conns (f_ch st))) (f_pc st).

(* leaving (i, rest) for the rest of the second loop *)
Lemma q_next id c now0 mi cur i rest extra :
  NoDup (i :: rest) -> q_at id c now0 mi cur i rest extra ->
  (i = id -> cur = Some (sweep_result now0 mi c)) ->
  qinv_pc id c now0 mi cur (SLoop2 now0 rest).
Proof.
  intros Hnd Hq Hdone. inversion Hnd as [|? ? Hni Hnd']; subst.
  split; [reflexivity|]. split; [exact Hnd'|]. unfold q_at in Hq.
  destruct (Z.eqb_spec i id) as [->|_]; [|exact Hq].
  destruct (mem_id id rest) eqn:M; [apply mem_in in M; contradiction|]. now apply Hdone.
Qed.

Lemma q_other id c now0 mi cur i rest extra extra' :
  i <> id -> q_at id c now0 mi cur i rest extra -> q_at id c now0 mi cur i rest extra'.
Proof. intros Hne. unfold q_at. destruct (i =? id) eqn:E; [lia|auto]. Qed.

Lemma qinv_stage fx id c now0 mi chs g i rest : g <> GAct ->
  let cur := lookup id chs in
  NoDup (i :: rest) -> q_at id c now0 mi cur i rest (known (stage_pc g now0 i rest) c) ->
  qinv_pc id c now0 mi cur
    match lookup i chs with
    | Some ci => if stage_test fx now0 mi g ci then stage_next g now0 i rest else SLoop2 now0 rest
    | None => SLoop2 now0 rest
    end.
Proof.
  intros Hg cur Hnd Hq.
  assert (Hid : i = id -> cur = Some c /\ k_tracked c && idle_candidate now0 mi c = true /\
                         known (stage_pc g now0 i rest) c).
  { intros ->. unfold q_at in Hq. rewrite Z.eqb_refl in Hq. tauto. }
  destruct (lookup i chs) as [ci|] eqn:Li; [destruct (stage_test fx now0 mi g ci) eqn:T|].
  - (* the test lets the poller go on *)
    assert (Hq' : q_at id c now0 mi cur i rest (known (stage_next g now0 i rest) c)).
    { destruct (Z.eq_dec i id) as [E|E]; [|exact (q_other _ _ _ _ _ _ _ _ _ E Hq)].
      destruct (Hid E) as (L & _ & K). subst i. unfold cur in L. rewrite L in Li. injection Li as <-.
      unfold q_at in *. rewrite Z.eqb_refl in *. pose proof (known_next fx now0 mi g id rest c K T). tauto. }
    destruct g; try contradiction; (split; [reflexivity|]); (split; [exact Hnd|exact Hq']).
  - (* the candidate is skipped *)
    apply (q_next id c now0 mi cur i rest _ Hnd Hq). intros E. destruct (Hid E) as (L & Hc & K). subst i.
    unfold cur in L. rewrite L in Li. injection Li as <-.
    unfold sweep_result. rewrite Hc, (failed_test_kept fx now0 mi g id rest c Hc K T). exact L.
  - apply (q_next id c now0 mi cur i rest _ Hnd Hq). intros E. destruct (Hid E) as (L & _). subst i.
    unfold cur in L. congruence.
Qed.

Lemma close_if_ok_close c : is_active c = true -> (k_inb c >? 0) = false -> (k_outb c >? 0) = false ->
  relay_can_close c = true -> close_if_ok c = conn_close c.
Proof. intros H1 H2 H3 H4. unfold close_if_ok, has_pending_calls. now rewrite H1, H2, H3, H4. Qed.

Lemma env_untouched cf s e id : ev_conn e <> Some id -> e <> ETick ->
  lookup id (ch_conns (step cf s e)) = lookup id (ch_conns s).
Proof.
  intros Hc Ht. rewrite step_lookup.
  destruct e; cbn [ev_conn ev_on] in *; try contradiction;
    try (destruct (Z.eqb_spec id0 id) as [->|_]; [contradiction|]);
    destruct (lookup id (ch_conns s)); reflexivity.
Qed.

Lemma qinv_step fx cf id c now0 st a st' :
  let mi := cf_max_idle cf in
  a <> FBegin -> (forall e, a = FEv e -> ev_conn e <> Some id) ->
  qinv id c now0 mi st -> fstep fx cf st a = Some st' ->
  qinv id c now0 mi st'.
Proof.
  intros mi Hnb Hq [W I] H. subst mi. split; [eapply fstep_wf; eassumption|].
  destruct a as [e| | |i|].
  - (* another goroutine, not on id *)
    apply fstep_env in H as (Hch & Hpc & Ht). rewrite Hpc, Hch.
    rewrite (env_untouched cf (f_ch st) e id (Hq e eq_refl) Ht). exact I.
  - contradiction.
  - (* lock *)
    cbn [fstep] in H. destruct (f_pc st) eqn:P; try discriminate. injection H as <-. cbn [f_pc f_ch qinv_pc] in *.
    destruct I as [-> L]. split; [reflexivity|]. split; [exact L|]. split; [constructor|]. split; [intros x []|].
    destruct W as [Hnd _]. rewrite (tracked_ids_mem _ id c Hnd L).
    destruct (k_tracked c); reflexivity.
  - (* look *)
    cbn [fstep] in H. destruct (f_pc st) as [| |now todo acc| | | | | |] eqn:P; try discriminate.
    destruct (mem_id i todo) eqn:Mi; [|discriminate]. cbn [qinv_pc] in I. destruct I as (-> & L & Hnd & Hdis & Hm).
    assert (Hni : ~ In i acc) by (intros Hin; apply (Hdis i Hin); now apply mem_id_in).
    (* the list of candidates grows by i or stays *)
    set (b := match lookup i (ch_conns (f_ch st)) with Some ci => fine_idle now0 (cf_max_idle cf) ci | None => false end).
    assert (Hst' : st' = {| f_ch := f_ch st; f_pc := SCollect now0 (remove_id i todo) (if b then acc ++ [i] else acc) |})
      by (unfold b; destruct (lookup i (ch_conns (f_ch st))); injection H as <-; reflexivity).
    subst st'. cbn [f_pc f_ch qinv_pc]. split; [reflexivity|]. split; [exact L|].
    split; [destruct b; [apply NoDup_app_one; assumption|exact Hnd]|]. split.
    { intros x Hx Hr. unfold remove_id in Hr. apply filter_In in Hr as [Hr1 Hr2].
      assert (Hx' : In x acc \/ x = i) by (destruct b; [apply in_app_iff in Hx as [Hx|[<-|[]]]|]; auto).
      destruct Hx' as [Hx'| ->]; [exact (Hdis x Hx' Hr1)|]. rewrite Z.eqb_refl in Hr2. discriminate. }
    destruct (Z.eq_dec i id) as [->|Hne].
    + rewrite mem_id_remove_same. rewrite Mi in Hm. unfold b. rewrite L, gen_fine_idle, Hm. cbn [andb].
      destruct (idle_candidate now0 (cf_max_idle cf) c); [rewrite mem_id_snoc, Z.eqb_refl; apply orb_true_r|].
      destruct (mem_id id acc) eqn:E; [apply mem_id_in in E; contradiction|reflexivity].
    + rewrite mem_id_remove_other by exact Hne.
      replace (mem_id id (if b then acc ++ [i] else acc)) with (mem_id id acc); [exact Hm|].
      destruct b; [|reflexivity]. rewrite mem_id_snoc. apply Z.eqb_neq in Hne.
      rewrite (Z.eqb_sym id i), Hne. symmetry. apply orb_false_r.
  - (* the next action of the poller *)
    destruct (f_pc st) as [|now|now todo acc|now cands|now i rest|now i rest|now i rest|now i rest|now i rest] eqn:P;
      cbn [qinv_pc] in I.
    + cbn [fstep] in H. rewrite P in H. discriminate.
    + cbn [fstep] in H. rewrite P in H. discriminate.
    + (* the first loop is over *)
      cbn [fstep] in H. rewrite P in H. destruct todo; [|discriminate]. injection H as <-. cbn [f_pc f_ch qinv_pc].
      destruct I as (-> & L & Hnd & _ & Hm). cbn [mem_id existsb] in Hm.
      split; [reflexivity|]. split; [exact Hnd|]. rewrite Hm.
      destruct (k_tracked c && idle_candidate now0 (cf_max_idle cf) c) eqn:Ec; [auto|].
      unfold sweep_result. rewrite Ec. exact L.
    + destruct I as (-> & Hnd & Hm). destruct cands as [|i rest].
      * cbn [fstep] in H. rewrite P in H. injection H as <-. exact Hm.
      * (* IsActive on the next candidate *)
        rewrite (fstep_stage fx cf st GAct now0 i rest P) in H. injection H as <-.
        cbn [f_pc f_ch stage_test stage_next].
        assert (Hnd' : NoDup rest) by (inversion Hnd; assumption).
        rewrite mem_id_cons, (Z.eqb_sym id i) in Hm.
        destruct (Z.eqb_spec i id) as [->|Hne]; cbn [orb] in Hm.
        -- destruct Hm as [L Hc]. rewrite L. inversion Hnd as [|? ? Hni _]; subst.
           destruct (is_active c) eqn:Ea; (split; [reflexivity|]).
           ++ split; [exact Hnd|]. unfold q_at. rewrite Z.eqb_refl. cbn [known]. auto.
           ++ split; [exact Hnd'|]. destruct (mem_id id rest) eqn:M; [apply mem_in in M; contradiction|].
              unfold sweep_result, close_if_ok. rewrite Hc, Ea. reflexivity.
        -- assert (Hskip : qinv_pc id c now0 (cf_max_idle cf) (lookup id (ch_conns (f_ch st))) (SLoop2 now0 rest))
             by (split; [reflexivity|]; split; assumption).
           destruct (lookup i (ch_conns (f_ch st))) as [ci|]; [destruct (is_active ci)|]; try exact Hskip.
           split; [reflexivity|]. split; [exact Hnd|]. unfold q_at. apply Z.eqb_neq in Hne. rewrite Hne. exact Hm.
    + destruct I as (-> & Hnd & Hq'). rewrite (fstep_stage fx cf st GInb now0 i rest P) in H. injection H as <-.
      apply (qinv_stage fx id c now0 _ _ GInb i rest); [discriminate|exact Hnd|exact Hq'].
    + destruct I as (-> & Hnd & Hq'). rewrite (fstep_stage fx cf st GOutb now0 i rest P) in H. injection H as <-.
      apply (qinv_stage fx id c now0 _ _ GOutb i rest); [discriminate|exact Hnd|exact Hq'].
    + destruct I as (-> & Hnd & Hq'). rewrite (fstep_stage fx cf st GRelay now0 i rest P) in H. injection H as <-.
      apply (qinv_stage fx id c now0 _ _ GRelay i rest); [discriminate|exact Hnd|exact Hq'].
    + destruct I as (-> & Hnd & Hq'). rewrite (fstep_stage fx cf st GRecheck now0 i rest P) in H. injection H as <-.
      apply (qinv_stage fx id c now0 _ _ GRecheck i rest); [discriminate|exact Hnd|exact Hq'].
    + (* close *)
      destruct I as (-> & Hnd & Hq'). cbn [fstep] in H. rewrite P in H.
      assert (Hgone : i = id -> lookup i (ch_conns (f_ch st)) = None -> False).
      { intros -> Li. unfold q_at in Hq'. rewrite Z.eqb_refl in Hq'. destruct Hq' as (L & _). congruence. }
      destruct (lookup i (ch_conns (f_ch st))) as [ci|] eqn:Li; injection H as <-; cbn [f_pc f_ch ch_conns];
        [|apply (q_next id c now0 _ _ i rest _ Hnd Hq'); intros E; elim (Hgone E eq_refl)].
      rewrite lookup_update. destruct (Z.eqb_spec i id) as [->|Hne];
        [|apply (q_next id c now0 _ _ i rest _ Hnd Hq'); contradiction].
      unfold q_at in Hq'. rewrite Z.eqb_refl in Hq'. cbn [known] in Hq'. destruct Hq' as (L & Hc & Ha & Hi & Ho & Hr).
      rewrite L in Li |- *. injection Li as <-. inversion Hnd as [|? ? Hni Hnd']; subst.
      split; [reflexivity|]. split; [exact Hnd'|].
      destruct (mem_id id rest) eqn:M; [apply mem_in in M; contradiction|].
      cbn [option_map]. unfold sweep_result. rewrite Hc, close_if_ok_close by assumption. reflexivity.
Qed.

Lemma qinv_run fx cf id c now0 seg st st' :
  ~ In FBegin seg -> (forall e, In (FEv e) seg -> ev_conn e <> Some id) ->
  qinv id c now0 (cf_max_idle cf) st -> frun fx cf st seg = Some st' ->
  qinv id c now0 (cf_max_idle cf) st'.
Proof.
  intros Hnb Hq. apply frun_inv. intros a s1 s2 Ha.
  apply qinv_step; [intros ->; exact (Hnb Ha)|intros e ->; exact (Hq e Ha)].
Qed.

(* One whole sweep, from the tick to the return of checkIdleConnections, interleaved in any way
   with events of other goroutines of which none is on connection id (and with any clock
   advances): connection id ends exactly as the atomic sweep of Model/Idle.v leaves it, so
   C19_sweep_iff holds for it with the clock value the sweep read at its start. *)
Theorem fine_quiescent fx cf st0 seg st id c :
  f_pc st0 = SIdle -> chan_wf (f_ch st0) -> lookup id (ch_conns (f_ch st0)) = Some c ->
  ~ In FBegin seg -> (forall e, In (FEv e) seg -> ev_conn e <> Some id) ->
  frun fx cf st0 (FBegin :: seg) = Some st -> f_pc st = SIdle ->
  lookup id (ch_conns (f_ch st)) = lookup id (ch_conns (sweep (cf_max_idle cf) (f_ch st0))).
Proof.
  intros P0 W L Hnb Hq H P. cbn [frun] in H.
  destruct (fstep fx cf st0 FBegin) as [st1|] eqn:E; [|discriminate].
  cbn [fstep] in E. rewrite P0 in E. destruct (sweep_enabled cf); [|discriminate]. injection E as <-.
  assert (I1 : qinv id c (ch_now (f_ch st0)) (cf_max_idle cf) {| f_ch := f_ch st0; f_pc := SStart (ch_now (f_ch st0)) |}).
  { split; [exact W|]. split; [reflexivity|exact L]. }
  pose proof (qinv_run fx cf id c _ seg _ st Hnb Hq I1 H) as [_ I]. rewrite P in I. cbn [qinv_pc] in I.
  rewrite I. destruct W as [Hnd _]. rewrite (sweep_lookup _ _ id c Hnd L). reflexivity.
Qed.

(* with no event of another goroutine at all, the fine sweep IS the atomic sweep *)
Corollary fine_atomic_refines fx cf st0 seg st :
  f_pc st0 = SIdle -> chan_wf (f_ch st0) -> ~ In FBegin seg -> (forall e, ~ In (FEv e) seg) ->
  frun fx cf st0 (FBegin :: seg) = Some st -> f_pc st = SIdle ->
  forall id, lookup id (ch_conns (f_ch st)) = lookup id (ch_conns (sweep (cf_max_idle cf) (f_ch st0))).
Proof.
  intros P0 W Hnb Hne H P id.
  destruct (lookup id (ch_conns (f_ch st0))) as [c|] eqn:L.
  - apply (fine_quiescent fx cf st0 seg st id c); auto. intros e He. exfalso. exact (Hne e He).
  - (* a connection that does not exist is not created by a sweep *)
    unfold sweep. cbn [ch_conns]. rewrite sweep_fold_lookup, L.
    assert (Hnone : lookup id (ch_conns (f_ch st)) = None).
    { apply (frun_inv fx cf (fun s => lookup id (ch_conns (f_ch s)) = None) (FBegin :: seg) st0 st); [|exact L|exact H].
      intros a s1 s2 Ha L1 E1.
      assert (Hp : is_env a = false)
        by (destruct a as [e| | | |]; try reflexivity; destruct Ha as [Ha|Ha]; [discriminate|elim (Hne e Ha)]).
      destruct (fstep_sweep_ch fx cf s1 a s2 Hp E1) as [->|(now & i & rest & ci & _ & Li & ->)]; [exact L1|].
      cbn [ch_conns]. rewrite lookup_update, L1. destruct (i =? id); reflexivity. }
    rewrite Hnone. destruct (mem id _); reflexivity.
Qed.

(* where the program counter of the poller comes from *)
Lemma env_only_app l1 l2 : env_only l1 -> env_only l2 -> env_only (l1 ++ l2).
Proof. intros H1 H2 a Ha. apply in_app_iff in Ha as [Ha|Ha]; auto. Qed.

Lemma last_sweep_step fx cf st0 : forall ls st, frun fx cf st0 ls = Some st ->
  (env_only ls /\ f_pc st = f_pc st0) \/
  exists pre a envs st1 st2, ls = pre ++ a :: envs /\ is_env a = false /\ env_only envs /\
     frun fx cf st0 pre = Some st1 /\ fstep fx cf st1 a = Some st2 /\ f_pc st = f_pc st2.
Proof.
  induction ls as [|b ls IH] using rev_ind; intros st H.
  - cbn [frun] in H. injection H as <-. left. split; [intros a []|reflexivity].
  - apply frun_snoc in H as (st1 & H1 & Hb). destruct (is_env b) eqn:Eb.
    + assert (Hpc : f_pc st = f_pc st1) by (destruct b; try discriminate; now apply fstep_env in Hb as (_ & Hp & _)).
      assert (Hb1 : env_only [b]) by (intros a [<-|[]]; exact Eb).
      destruct (IH st1 H1) as [[He Hp]|(pre & a & envs & sa & sb & -> & Ha & He & Hpre & Hst & Hp)].
      * left. split; [apply env_only_app; assumption|congruence].
      * right. exists pre, a, (envs ++ [b]), sa, sb. rewrite <- app_assoc.
        repeat split; try assumption; [apply env_only_app; assumption|congruence].
    + right. exists ls, b, [], st1, st. repeat split; try assumption. intros a [].
Qed.

(* the poller is past test g on candidate id only by an FStep from the position before the test, on a
   state of the connection that passed it *)
Lemma to_stage_next fx cf st a st' g now id rest : is_env a = false ->
  fstep fx cf st a = Some st' -> f_pc st' = stage_next g now id rest ->
  a = FStep /\ f_pc st = stage_pc g now id rest /\
  exists c, lookup id (ch_conns (f_ch st)) = Some c /\ stage_test fx now (cf_max_idle cf) g c = true.
Proof.
  intros Ha H P. destruct a; try discriminate Ha; finv H; cbn [f_pc f_ch] in *;
    destruct g; try discriminate P; injection P as <- <- <-;
    (split; [reflexivity|]); (split; [reflexivity|]); eexists; (split; [eassumption|]); cbn [stage_test];
    rewrite <- ?gen_is_active, <- ?gen_relay_can_close, <- ?gen_fine_idle;
    match goal with E : _ = false |- _ => first [rewrite E; reflexivity|apply negb_false_iff, E] end.
Qed.

(* the clock value a sweep works with is the clock at its FBegin, and no later sweep has begun *)
Definition pc_now (p : spc) : option Z :=
  match p with
  | SIdle => None
  | SStart now | SCollect now _ _ | SLoop2 now _ | SInb now _ _ | SOutb now _ _ | SRelay now _ _
  | SRecheck now _ _ | SClose now _ _ => Some now
  end.

Lemma fstep_pc_now fx cf st a st' now : a <> FBegin -> fstep fx cf st a = Some st' ->
  pc_now (f_pc st') = Some now -> pc_now (f_pc st) = Some now.
Proof.
  intros Hnb H P. destruct a as [e| | |i|]; try contradiction;
    [apply fstep_env in H as (_ & Hp & _); congruence| | |]; finv H; cbn [f_pc pc_now] in *; congruence.
Qed.

Lemma flab_begin_dec (b : flab) : {b = FBegin} + {b <> FBegin}.
Proof. destruct b; [right|left|right|right|right]; try reflexivity; discriminate. Qed.

Lemma now_prov fx cf t0 : forall ls st now, frun fx cf (finit t0) ls = Some st -> pc_now (f_pc st) = Some now ->
  exists pb tl, ls = pb ++ FBegin :: tl /\ ~ In FBegin tl /\ now = clock t0 (evs_of pb).
Proof.
  induction ls as [|b ls IH] using rev_ind; intros st now H P.
  - cbn [frun] in H. injection H as <-. discriminate P.
  - apply frun_snoc in H as (st1 & H1 & Hb).
    destruct (flab_begin_dec b) as [->|Hnb].
    + finv Hb. cbn [f_pc pc_now] in P. injection P as <-.
      exists ls, []. split; [reflexivity|]. split; [intros []|].
      pose proof (frun_now fx cf ls (finit t0) st1 H1) as Hn. exact Hn.
    + assert (P1 : pc_now (f_pc st1) = Some now) by (eapply fstep_pc_now; [exact Hnb|exact Hb|exact P]).
      destruct (IH st1 now H1 P1) as (pb & tl & -> & Hn & Hc).
      exists pb, (tl ++ [b]). rewrite <- app_assoc. cbn [app]. split; [reflexivity|]. split; [|exact Hc].
      intros Hin. apply in_app_iff in Hin as [Hin|[Hin|[]]]; [exact (Hn Hin)|]. apply Hnb. now symmetry.
Qed.

(* "after the interleaving pre, connection id satisfied P" *)
Definition conn_at (fx : bool) (cf : config) (t0 : Z) (pre : list flab) (id : Z) (P : conn -> Prop) : Prop :=
  exists s c, frun fx cf (finit t0) pre = Some s /\ lookup id (ch_conns (f_ch s)) = Some c /\ P c.

Lemma stage_back fx cf t0 ls st g now id rest :
  frun fx cf (finit t0) ls = Some st -> f_pc st = stage_next g now id rest ->
  exists pre envs st1, ls = pre ++ FStep :: envs /\ env_only envs /\
    frun fx cf (finit t0) pre = Some st1 /\ f_pc st1 = stage_pc g now id rest /\
    conn_at fx cf t0 pre id (fun c => stage_test fx now (cf_max_idle cf) g c = true).
Proof.
  intros H P.
  destruct (last_sweep_step fx cf (finit t0) ls st H)
    as [[_ E]|(pre & a & envs & s1 & s2 & -> & Ha & He & H1 & H2 & E)];
    [rewrite P in E; destruct g; discriminate E|].
  rewrite P in E. destruct (to_stage_next fx cf s1 a s2 g now id rest Ha H2 (eq_sym E)) as (-> & P1 & c & L & T).
  exists pre, envs, s1. repeat split; try assumption. exists s1, c. auto.
Qed.

Lemma conn_at_imp fx cf t0 pre id (P Q : conn -> Prop) :
  (forall c, P c -> Q c) -> conn_at fx cf t0 pre id P -> conn_at fx cf t0 pre id Q.
Proof. intros HPQ (s & c & H & L & Hp). exists s, c. auto. Qed.

(* The weakest correct "only if": when the poller is about to call close on connection id, the
   interleaving so far is
       pb ++ FBegin :: tl ++ FStep :: e1 ++ FStep :: e2 ++ FStep :: e3 ++ FStep :: e4 ++ FStep :: e5
   where no sweep began after pb, e1..e5 are events of other goroutines only, and
     - the sweep's clock value is the clock at pb;
     - just before e1 (IsActive)                the connection was Active;
     - just before e2 (inbound.countCalls)      it had no inbound call;
     - just before e3 (outbound.countCalls)     it had no outbound call;
     - just before e4 (relay.canClose)          it had no relayed call;
     - just before e5 (the re-check, if fx)     it was idle: now - max(stamps) >= MaxIdleTime (saturating). *)
Theorem fine_close_chain fx cf t0 ls st now id rest :
  frun fx cf (finit t0) ls = Some st -> f_pc st = SClose now id rest ->
  exists pb tl e1 e2 e3 e4 e5,
    let p1 := pb ++ FBegin :: tl in
    let p2 := p1 ++ FStep :: e1 in
    let p3 := p2 ++ FStep :: e2 in
    let p4 := p3 ++ FStep :: e3 in
    let p5 := p4 ++ FStep :: e4 in
    ls = p5 ++ FStep :: e5 /\ ~ In FBegin tl /\ now = clock t0 (evs_of pb) /\
    env_only e1 /\ env_only e2 /\ env_only e3 /\ env_only e4 /\ env_only e5 /\
    conn_at fx cf t0 p1 id (fun c => is_active c = true) /\
    conn_at fx cf t0 p2 id (fun c => (k_inb c >? 0) = false) /\
    conn_at fx cf t0 p3 id (fun c => (k_outb c >? 0) = false) /\
    conn_at fx cf t0 p4 id (fun c => relay_can_close c = true) /\
    conn_at fx cf t0 p5 id (fun c => fx = true -> idle_candidate now (cf_max_idle cf) c = true).
Proof.
  intros H P.
  destruct (stage_back fx cf t0 ls st GRecheck now id rest H P) as (p5 & e5 & s5 & -> & E5 & H5 & P5 & C5).
  destruct (stage_back fx cf t0 p5 s5 GRelay now id rest H5 P5) as (p4 & e4 & s4 & -> & E4 & H4 & P4 & C4).
  destruct (stage_back fx cf t0 p4 s4 GOutb now id rest H4 P4) as (p3 & e3 & s3 & -> & E3 & H3 & P3 & C3).
  destruct (stage_back fx cf t0 p3 s3 GInb now id rest H3 P3) as (p2 & e2 & s2 & -> & E2 & H2 & P2 & C2).
  destruct (stage_back fx cf t0 p2 s2 GAct now id rest H2 P2) as (p1 & e1 & s1 & -> & E1 & H1 & P1 & C1).
  destruct (now_prov fx cf t0 p1 s1 now H1) as (pb & tl & -> & Hnb & Hnow); [rewrite P1; reflexivity|].
  exists pb, tl, e1, e2, e3, e4, e5. cbv zeta.
  split; [reflexivity|]. split; [exact Hnb|]. split; [exact Hnow|]. repeat (split; [assumption|]).
  split; [exact (conn_at_imp _ _ _ _ _ _ _ (fun c => proj1 (negb_true_iff _)) C2)|].
  split; [exact (conn_at_imp _ _ _ _ _ _ _ (fun c => proj1 (negb_true_iff _)) C3)|]. split; [exact C4|].
  revert C5. apply conn_at_imp. intros c T ->. cbn [stage_test andb] in T.
  destruct (idle_candidate _ _ c); [reflexivity|discriminate T].
Qed.

(* the same in terms of the history: with the re-check (fx = true), when the poller is about to
   close connection id there was no call frame on it between (start of the sweep - MaxIdleTime)
   and the instant of the re-check -- frames that arrived DURING the sweep included *)
Theorem fine_close_history cf t0 ls st now id rest :
  clock_ok t0 (evs_of ls) -> min_duration < cf_max_idle cf <= max_duration ->
  frun true cf (finit t0) ls = Some st -> f_pc st = SClose now id rest ->
  exists pb mid e5,
    ls = pb ++ FBegin :: mid ++ FStep :: e5 /\ ~ In FBegin mid /\ env_only e5 /\
    now = clock t0 (evs_of pb) /\
    exists la, last_call_activity id t0 None (evs_of (pb ++ FBegin :: mid)) = Some la /\ now - la >= cf_max_idle cf.
Proof.
  intros Hc Hmi H P.
  destruct (stage_back true cf t0 ls st GRecheck now id rest H P)
    as (p5 & e5 & s5 & -> & E5 & H5 & P5 & (s & c5 & Hs & L5 & C5)).
  destruct (now_prov true cf t0 p5 s5 now H5) as (pb & mid & -> & Hnb & Hnow); [rewrite P5; reflexivity|].
  exists pb, mid, e5. split; [rewrite <- app_assoc; reflexivity|].
  split; [exact Hnb|]. split; [exact E5|]. split; [exact Hnow|].
  rewrite evs_of_app in Hc. apply clock_ok_app in Hc as [Hc5 _].
  pose proof (fine_stamp true cf t0 _ s id Hc5 Hs) as Hst. rewrite L5 in Hst.
  exists (Z.max (k_lr c5) (k_lw c5)). split; [exact Hst|].
  cbn [stage_test andb] in C5. rewrite negb_involutive in C5.
  apply Z.le_ge, Z.geb_le. rewrite <- (idle_candidate_ge _ _ c5 Hmi). exact C5.
Qed.

(* without the re-check the "only if" fails at every instant of the sweep *)
Definition should_close_b (now mi : Z) (c : conn) : bool :=
  k_tracked c && (k_state c =? c_connectionActive) && (k_inb c =? 0) && (k_outb c =? 0) &&
  (match k_relay c with None => true | Some n => n =? 0 end) && (now - Z.max (k_lr c) (k_lw c) >=? mi).

Lemma should_close_b_spec now mi c : should_close_b now mi c = true <-> should_close now mi c.
Proof.
  unfold should_close_b, should_close, relay_idle, c_connectionActive.
  destruct (k_relay c) as [n|]; destruct (k_tracked c); cbn [andb]; split; intros H; try discriminate; try lia;
    try (destruct H as [H0 _]; discriminate H0).
Qed.

(* an outbound call is in flight on an otherwise idle connection when the sweep collects it;
   its response arrives between the two loops; the sweep closes the connection *)
Definition refute_cf : config :=
  {| cf_idle_interval := 30; cf_max_idle := 180;
     cf_health := ho_with_defaults {| ho_interval := 0; ho_timeout := 0; ho_failures := 0 |} |}.
Definition refute_pre : list flab :=
  [FEv (ENewConn 0 false); FEv (EPend 0 1 1); FEv (EWrite 0 3); FEv (EAdvance 200)].
Definition refute_sweep : list flab :=
  [FLock; FLook 0; FStep; FEv (ERead 0 4); FEv (EPend 0 1 (-1)); FStep; FStep; FStep; FStep; FStep; FStep; FStep].

Definition conn_sat (fx : bool) (cf : config) (t0 : Z) (ls : list flab) (id : Z) (p : conn -> bool) : bool :=
  match frun fx cf (finit t0) ls with
  | Some s => match lookup id (ch_conns (f_ch s)) with Some c => p c | None => false end
  | None => false
  end.

Theorem fine_unpatched_refuted :
  let ls := refute_pre ++ FBegin :: refute_sweep in
  clock_ok 0 (evs_of ls) /\
  (* the sweep ran to completion and closed connection 0, which was Active when it began *)
  conn_sat false refute_cf 0 refute_pre 0 is_active = true /\
  conn_sat false refute_cf 0 ls 0 (fun c => negb (is_active c)) = true /\
  (exists st, frun false refute_cf (finit 0) ls = Some st /\ f_pc st = SIdle) /\
  (* ... although at no instant from its begin to its end the condition of the statement held *)
  forall k s c, (k <= length refute_sweep)%nat ->
    frun false refute_cf (finit 0) (refute_pre ++ FBegin :: firstn k refute_sweep) = Some s ->
    lookup 0 (ch_conns (f_ch s)) = Some c ->
    ~ should_close (clock 0 (evs_of refute_pre)) (cf_max_idle refute_cf) c.
Proof.
  cbv zeta. split; [vm_compute; repeat split; discriminate|]. split; [vm_compute; reflexivity|].
  split; [vm_compute; reflexivity|]. split; [eexists; split; vm_compute; reflexivity|].
  assert (Hall : forallb (fun k => conn_sat false refute_cf 0 (refute_pre ++ FBegin :: firstn k refute_sweep) 0
                            (fun c => negb (should_close_b (clock 0 (evs_of refute_pre)) (cf_max_idle refute_cf) c)))
                   (seq 0 (S (length refute_sweep))) = true) by (vm_compute; reflexivity).
  intros k s c Hk H L Hs. rewrite forallb_forall in Hall.
  assert (Hin : In k (seq 0 (S (length refute_sweep)))) by (apply in_seq; lia).
  specialize (Hall k Hin). unfold conn_sat in Hall. rewrite H, L in Hall.
  apply should_close_b_spec in Hs. rewrite Hs in Hall. discriminate.
Qed.

(* with the re-check the same interleaving leaves the connection open *)
Lemma fine_patched_example :
  let ls := refute_pre ++ FBegin :: [FLock; FLook 0; FStep; FEv (ERead 0 4); FEv (EPend 0 1 (-1)); FStep; FStep; FStep; FStep; FStep; FStep] in
  conn_sat true refute_cf 0 ls 0 is_active = true /\
  exists st, frun true refute_cf (finit 0) ls = Some st /\ f_pc st = SIdle.
Proof. cbv zeta. split; [vm_compute; reflexivity|]. eexists. split; vm_compute; reflexivity. Qed.

(* one instant at which the whole condition of the statement holds *)
(* Active is never re-entered; the pending counters of a connection grow only when a call starts *)
Definition act_mono (c c' : conn) : Prop := is_active c' = true -> is_active c = true.
Definition cnt_le (c c' : conn) : Prop :=
  k_inb c' <= k_inb c /\ k_outb c' <= k_outb c /\
  match k_relay c, k_relay c' with
  | None, None => True
  | Some n, Some n' => n' <= n
  | _, _ => False
  end.
Definition cmono (c c' : conn) : Prop := act_mono c c' /\ cnt_le c c'.

Lemma cmono_refl c : cmono c c.
Proof. split; [intros H; exact H|]. unfold cnt_le. destruct (k_relay c); lia. Qed.

Lemma cmono_trans c1 c2 c3 : cmono c1 c2 -> cmono c2 c3 -> cmono c1 c3.
Proof.
  intros [A1 (I1 & O1 & R1)] [A2 (I2 & O2 & R2)]. split; [intros H; auto|]. unfold cnt_le in *.
  split; [lia|]. split; [lia|].
  destruct (k_relay c1), (k_relay c2), (k_relay c3); try contradiction; try exact I; lia.
Qed.

Lemma cmono_same c c' : (is_active c' = true -> is_active c = true) ->
  k_inb c' = k_inb c -> k_outb c' = k_outb c -> k_relay c' = k_relay c -> cmono c c'.
Proof. intros A I O R. split; [exact A|]. unfold cnt_le. rewrite I, O, R. destruct (k_relay c); lia. Qed.

Lemma cmono_check c : cmono c (check_exchanges c).
Proof.
  apply cmono_same; try (unfold check_exchanges; destruct (_ && _); reflexivity).
  unfold is_active, check_exchanges. intros H.
  assert (Hs : check_exchanges_state c = c_connectionActive).
  { destruct (_ && _) in H; cbn [set_tracked_h set_state k_state] in H; lia. }
  destruct (k_state c =? c_connectionActive) eqn:E; [reflexivity|]. exfalso. apply (ces_not_active c); [lia|exact Hs].
Qed.

Lemma cmono_closed : op_closed cmono.
Proof.
  split; [exact cmono_refl|exact cmono_trans|exact cmono_check| | | |]; intros; apply cmono_same; try reflexivity; auto.
  intros _. apply active_state. assumption.
Qed.

Lemma act_mono_closed : op_closed act_mono.
Proof.
  destruct cmono_closed as [_ _ Hk Hs Hp Hh Hn].
  split.
  - intros c A. exact A.
  - intros a b c H1 H2 A. exact (H1 (H2 A)).
  - exact (fun c => proj1 (Hk c)).
  - exact (fun c E => proj1 (Hs c E)).
  - exact (fun c => proj1 (Hp c)).
  - exact (fun hs l c => proj1 (Hh hs l c)).
  - exact (fun p c => proj1 (Hn p c)).
Qed.

Lemma cmono_pend w d c : (d >? 0) = false -> cmono c (pend w d c).
Proof.
  intros Hd. unfold pend. rewrite Hd.
  assert (Hdec : forall a b r, a <= k_inb c -> b <= k_outb c ->
            match k_relay c, r with None, None => True | Some n, Some n' => n' <= n | _, _ => False end ->
            cmono c (check_exchanges (set_counts a b (k_pings c) r c))).
  { intros a b r Ha Hb Hr. eapply cmono_trans; [|apply cmono_check]. split; [intros H; exact H|].
    unfold cnt_le. cbn [set_counts k_inb k_outb k_relay]. auto. }
  destruct (w =? 0).
  - destruct (k_inb c <=? 0); [apply cmono_refl|]. apply Hdec; try lia. destruct (k_relay c); [lia|exact I].
  - destruct (w =? 1).
    + destruct (k_outb c <=? 0); [apply cmono_refl|]. apply Hdec; try lia. destruct (k_relay c); [lia|exact I].
    + destruct (k_relay c) as [n|] eqn:R; [|apply cmono_refl].
      destruct (n <=? 0); [apply cmono_refl|]. apply Hdec; lia.
Qed.

Definition call_start_on (id : Z) (a : flab) : bool :=
  match a with FEv (EPend i _ d) => (i =? id) && (d >? 0) | _ => false end.

Lemma ev_on_cmono cf s id e c : call_start_on id (FEv e) = false -> cmono c (ev_on cf s id e c).
Proof.
  intros Hs. destruct e as [dt|i rl|i mt|i mt|i w d|i| |i sent|i o]; cbn [ev_on call_start_on] in *.
  5:{ destruct (i =? id); [apply cmono_pend, Hs|apply cmono_refl]. }
  all: try destruct (i =? id); try destruct (_ && _); try apply cmono_refl.
  - unfold update_read. destruct (isMessageTypeCall mt); [apply cmono_same; auto|apply cmono_refl].
  - unfold update_write. destruct (isMessageTypeCall mt); [apply cmono_same; auto|apply cmono_refl].
  - apply (oc_close _ cmono_closed).
  - apply (oc_close_if_ok _ cmono_closed).
  - apply (oc_ping_start _ cmono_closed).
  - apply (oc_ping_end _ cmono_closed).
Qed.

(* Active is never re-entered, call start or not *)
Lemma ev_on_act_mono cf s id e c : act_mono c (ev_on cf s id e c).
Proof.
  destruct (call_start_on id (FEv e)) eqn:Es; [|apply ev_on_cmono, Es].
  destruct e as [| | | |i w d| | | |]; try discriminate Es. cbn [ev_on call_start_on] in *.
  apply andb_true_iff in Es as [-> _].
  destruct (pend_shape w d c) as (a & b & r & [-> | [-> | ->]]); intros A; try exact A.
  exact (proj1 (cmono_check _) A).
Qed.

Lemma frun_rel (R : conn -> conn -> Prop) fx cf id : op_closed R -> forall l st st' c,
  (forall e s c, In (FEv e) l -> R c (ev_on cf s id e c)) ->
  frun fx cf st l = Some st' -> lookup id (ch_conns (f_ch st)) = Some c ->
  exists c', lookup id (ch_conns (f_ch st')) = Some c' /\ R c c'.
Proof.
  intros HR l st st' c Hl H L.
  apply (frun_inv fx cf (fun s => exists c', lookup id (ch_conns (f_ch s)) = Some c' /\ R c c') l st st');
    [|exists c; split; [exact L|apply (oc_refl R HR)]|exact H].
  intros a s1 s2 Ha (c1 & L1 & M1) E. destruct (is_env a) eqn:Ea.
  - destruct a as [e| | | |]; try discriminate. apply fstep_env in E as (-> & _ & _).
    rewrite step_lookup, L1. eexists. split; [reflexivity|]. exact (oc_trans R HR _ _ _ M1 (Hl e _ _ Ha)).
  - destruct (fstep_sweep_ch fx cf s1 a s2 Ea E) as [->|(now & i & rest & ci & _ & Li & ->)]; [exists c1; auto|].
    cbn [ch_conns]. rewrite lookup_update, L1.
    destruct (Z.eqb_spec i id) as [->|_]; cbn [option_map]; eexists; (split; [reflexivity|]); [|exact M1].
    rewrite L1 in Li. injection Li as <-. exact (oc_trans R HR _ _ _ M1 (oc_close R HR _)).
Qed.

Lemma frun_cmono fx cf id l st st' c :
  (forall a, In a l -> call_start_on id a = false) ->
  frun fx cf st l = Some st' -> lookup id (ch_conns (f_ch st)) = Some c ->
  exists c', lookup id (ch_conns (f_ch st')) = Some c' /\ cmono c c'.
Proof. intros Hl. apply (frun_rel cmono fx cf id cmono_closed). intros e s x He. apply ev_on_cmono, Hl, He. Qed.

Lemma cmono_between fx cf id st0 pre mid s c s' c' :
  frun fx cf st0 pre = Some s -> lookup id (ch_conns (f_ch s)) = Some c ->
  frun fx cf st0 (pre ++ mid) = Some s' -> lookup id (ch_conns (f_ch s')) = Some c' ->
  (forall a, In a mid -> call_start_on id a = false) -> cmono c c'.
Proof.
  intros H L H' L' Hm. rewrite frun_app, H in H'.
  destruct (frun_cmono fx cf id mid s s' c Hm H' L) as (x & Lx & M). congruence.
Qed.

(* Active at the end => Active all along (no proviso) *)
Lemma frun_act_mono fx cf id l st st' c c' :
  frun fx cf st l = Some st' -> lookup id (ch_conns (f_ch st)) = Some c ->
  lookup id (ch_conns (f_ch st')) = Some c' -> is_active c' = true -> is_active c = true.
Proof.
  intros H L L'.
  destruct (frun_rel act_mono fx cf id act_mono_closed l st st' c (fun e s x _ => ev_on_act_mono cf s id e x) H L)
    as (x & Lx & M). rewrite L' in Lx. injection Lx as <-. exact M.
Qed.

(* The statement's condition in full at ONE instant of the sweep: with the re-check, if the
   poller closes connection id (it is about to call close and the connection is still Active)
   and no call started on id between the poller's read of the inbound count and its re-check,
   then at the instant of the re-check the connection was tracked, Active, without pending
   inbound / outbound / relayed call, and now - max(stamps) >= MaxIdleTime for the clock value
   the sweep started with. *)
Theorem fine_close_instant cf t0 ls st now id rest c :
  min_duration < cf_max_idle cf <= max_duration ->
  frun true cf (finit t0) ls = Some st -> f_pc st = SClose now id rest ->
  lookup id (ch_conns (f_ch st)) = Some c -> is_active c = true ->
  exists pb tl e1 e2 e3 e4 e5,
    let p2 := (pb ++ FBegin :: tl ++ FStep :: e1) in
    let p5 := p2 ++ FStep :: e2 ++ FStep :: e3 ++ FStep :: e4 in
    ls = p5 ++ FStep :: e5 /\ ~ In FBegin tl /\ now = clock t0 (evs_of pb) /\
    env_only e1 /\ env_only e2 /\ env_only e3 /\ env_only e4 /\ env_only e5 /\
    ((forall a, In a (e2 ++ e3 ++ e4) -> call_start_on id a = false) ->
     conn_at true cf t0 p5 id (fun c5 => should_close now (cf_max_idle cf) c5)).
Proof.
  intros Hmi H P L A.
  destruct (fine_close_chain true cf t0 ls st now id rest H P)
    as (pb & tl & e1 & e2 & e3 & e4 & e5 & Hls & Hnb & Hnow & E1 & E2 & E3 & E4 & E5 & _ &
        (s2 & c2 & H2 & L2 & C2) & (s3 & c3 & H3 & L3 & C3) & (s4 & c4 & H4 & L4 & C4) & (s5 & c5 & H5 & L5 & C5)).
  cbv zeta in *. exists pb, tl, e1, e2, e3, e4, e5.
  set (p2 := (pb ++ FBegin :: tl) ++ FStep :: e1) in *.
  assert (Ep : ((p2 ++ FStep :: e2) ++ FStep :: e3) ++ FStep :: e4 =
               (pb ++ FBegin :: tl ++ FStep :: e1) ++ FStep :: e2 ++ FStep :: e3 ++ FStep :: e4)
    by (unfold p2; repeat (rewrite <- app_assoc; cbn [app]); reflexivity).
  split; [rewrite Hls, Ep; reflexivity|]. split; [exact Hnb|]. split; [exact Hnow|]. repeat (split; [assumption|]).
  intros Hns. rewrite <- Ep. exists s5, c5. split; [exact H5|]. split; [exact L5|].
  (* the counters did not grow between their reads and the re-check *)
  assert (Hno : forall e, incl e (e2 ++ e3 ++ e4) -> forall a, In a (FStep :: e) -> call_start_on id a = false)
    by (intros e He a [<-|Ha]; [reflexivity|apply Hns, He, Ha]).
  pose proof (cmono_between _ _ _ _ _ _ _ _ _ _ H2 L2 H3 L3 (Hno e2 (incl_appl _ (incl_refl _)))) as M23.
  pose proof (cmono_between _ _ _ _ _ _ _ _ _ _ H3 L3 H4 L4 (Hno e3 (incl_appr _ (incl_appl _ (incl_refl _))))) as M34.
  pose proof (cmono_between _ _ _ _ _ _ _ _ _ _ H4 L4 H5 L5 (Hno e4 (incl_appr _ (incl_appr _ (incl_refl _))))) as M45.
  destruct (cmono_trans _ _ _ M23 (cmono_trans _ _ _ M34 M45)) as [_ (I2 & _ & _)].
  destruct (cmono_trans _ _ _ M34 M45) as [_ (_ & O3 & _)]. destruct M45 as [_ (_ & _ & R4)].
  (* well-formed, and Active at the end => Active at the re-check *)
  pose proof (frun_wf true cf _ _ _ (finit_wf t0) H5) as [_ Hall5]. destruct (Hall5 id c5 L5) as [(Ci & Co & Cr) Ht5].
  assert (A5 : is_active c5 = true).
  { rewrite Hls, frun_app, H5 in H. apply (frun_act_mono true cf id _ s5 st c5 c H L5 L A). }
  assert (Hidle : now - Z.max (k_lr c5) (k_lw c5) >= cf_max_idle cf)
    by (apply Z.le_ge, Z.geb_le; rewrite <- (idle_candidate_ge _ _ c5 Hmi); now apply C5).
  apply active_state in A5. unfold should_close.
  split; [rewrite Ht5, A5; reflexivity|]. split; [exact A5|]. split; [clear - C2 I2 Ci; lia|]. split; [clear - C3 O3 Co; lia|]. split; [|exact Hidle].
  unfold relay_idle. unfold relay_can_close in C4.
  destruct (k_relay c4) as [n4|], (k_relay c5) as [n5|]; try contradiction; [clear - C4 R4 Cr; lia|exact I].
Qed.

(* fine_quiescent in the form of C19_sweep_iff *)
Theorem fine_quiescent_iff fx cf st0 seg st id c :
  f_pc st0 = SIdle -> chan_wf (f_ch st0) -> min_duration < cf_max_idle cf <= max_duration ->
  lookup id (ch_conns (f_ch st0)) = Some c ->
  ~ In FBegin seg -> (forall e, In (FEv e) seg -> ev_conn e <> Some id) ->
  frun fx cf st0 (FBegin :: seg) = Some st -> f_pc st = SIdle ->
  let now := ch_now (f_ch st0) in
  exists c', lookup id (ch_conns (f_ch st)) = Some c' /\
    ((is_active c = true /\ is_active c' = false) <-> should_close now (cf_max_idle cf) c) /\
    (should_close now (cf_max_idle cf) c -> c' = conn_close c) /\
    (~ should_close now (cf_max_idle cf) c -> c' = c).
Proof.
  intros P0 W Hmi L Hnb Hq H P now.
  rewrite (fine_quiescent fx cf st0 seg st id c P0 W L Hnb Hq H P).
  destruct W as [Hnd Hall]. destruct (Hall id c L) as [Hc _].
  exact (sweep_iff (cf_max_idle cf) (f_ch st0) id c Hnd Hmi L Hc).
Qed.

(* every candidate of the second loop was found idle by the first loop *)
Definition cand_list (p : spc) : list Z :=
  match p with
  | SCollect _ _ acc => acc
  | SLoop2 _ cands => cands
  | SInb _ id rest | SOutb _ id rest | SRelay _ id rest | SRecheck _ id rest | SClose _ id rest => id :: rest
  | _ => []
  end.

Lemma fstep_cands_step fx cf st st' x : fstep fx cf st FStep = Some st' ->
  In x (cand_list (f_pc st')) -> In x (cand_list (f_pc st)) /\ pc_now (f_pc st') = pc_now (f_pc st).
Proof.
  intros H Hx. finv H; cbn [f_pc cand_list pc_now In] in *; try contradiction; auto; try tauto.
Qed.

Definition looked (fx : bool) (cf : config) (t0 : Z) (ls : list flab) (now x : Z) : Prop :=
  exists pb tl0 tl1, ls = pb ++ FBegin :: tl0 ++ FLook x :: tl1 /\ ~ In FBegin tl0 /\ ~ In FBegin tl1 /\
    now = clock t0 (evs_of pb) /\
    conn_at fx cf t0 (pb ++ FBegin :: tl0) x (fun c => idle_candidate now (cf_max_idle cf) c = true).

Lemma looked_snoc fx cf t0 ls now x b : b <> FBegin -> looked fx cf t0 ls now x -> looked fx cf t0 (ls ++ [b]) now x.
Proof.
  intros Hb (pb & tl0 & tl1 & -> & N0 & N1 & Hn & Hc). exists pb, tl0, (tl1 ++ [b]).
  split; [repeat (rewrite <- app_assoc; cbn [app]); reflexivity|]. split; [exact N0|]. split; [|auto].
  intros Hin. apply in_app_iff in Hin as [Hin|[Hin|[]]]; [exact (N1 Hin)|]. apply Hb. now symmetry.
Qed.

Lemma cands_looked fx cf t0 : forall ls st now x, frun fx cf (finit t0) ls = Some st ->
  pc_now (f_pc st) = Some now -> In x (cand_list (f_pc st)) -> looked fx cf t0 ls now x.
Proof.
  induction ls as [|b ls IH] using rev_ind; intros st now x H P Hx.
  - cbn [frun] in H. injection H as <-. discriminate P.
  - apply frun_snoc in H as (st1 & H1 & Hb).
    (* an older candidate stays one *)
    assert (Hold : forall y, b <> FBegin -> pc_now (f_pc st1) = Some now -> In y (cand_list (f_pc st1)) ->
              looked fx cf t0 (ls ++ [b]) now y)
      by (intros y Hb' P1 Hy; apply looked_snoc; [exact Hb'|]; now apply (IH st1)).
    destruct b as [e| | |i|].
    + pose proof Hb as Hb'. apply fstep_env in Hb' as (_ & Hp & _). rewrite Hp in *. apply Hold; [discriminate|assumption..].
    + finv Hb. cbn [f_pc cand_list] in Hx. contradiction.
    + finv Hb. cbn [f_pc cand_list] in Hx. contradiction.
    + (* a look: either an older candidate or the one found idle just now *)
      assert (P1 : pc_now (f_pc st1) = Some now) by (eapply fstep_pc_now; [|exact Hb|exact P]; discriminate).
      pose proof (now_prov fx cf t0 ls st1 now H1 P1) as (pb & tl & Els & Hn & Hc).
      specialize (Hold x ltac:(discriminate) P1).
      finv Hb; cbn [f_pc cand_list pc_now] in *; injection P as <-; try (now apply Hold).
      apply in_app_iff in Hx as [Hx|[<-|[]]]; [now apply Hold|]. subst ls.
      exists pb, tl, []. rewrite <- app_assoc. cbn [app]. split; [reflexivity|]. split; [exact Hn|]. split; [intros []|].
      split; [exact Hc|]. exists st1, c. rewrite <- gen_fine_idle. auto.
    + destruct (fstep_cands_step fx cf st1 st x Hb Hx) as [Hx1 Hp]. rewrite Hp in P. apply Hold; [discriminate|assumption..].
Qed.

(* ... in particular the connection the poller is about to close: it was collected by a FLook
   of this same sweep, at which it was idle for MaxIdleTime against the sweep's clock value
   (both code versions; without the re-check this is the only thing known about its idleness) *)
Theorem fine_close_looked fx cf t0 ls st now id rest :
  frun fx cf (finit t0) ls = Some st -> f_pc st = SClose now id rest -> looked fx cf t0 ls now id.
Proof.
  intros H P. apply (cands_looked fx cf t0 ls st now id H); rewrite P; [reflexivity|now left].
Qed.
