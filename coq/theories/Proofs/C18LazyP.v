(* C18: the relay's lazy parsers never offer a RelayHost anything outside the frame they were
   given.  Proofs about Model/RelayLazy.v lazy_callreq and Model/C18LazyFrame.v (hand models;
   tie to the source: Proofs/C18LazyGenP.v).
   Main facts:
     c18_lazy_offsets      an ACCEPTED call req payload has all its offsets inside the sized payload
                           (31 <= ctoff < arg2 start <= arg2 end <= len, arg3 start = arg2 end + 2 <= len
                           or arg2 ends exactly at the end of the payload when it is fragmented)
     c18_lazy_arg2_sized   hence Arg2Iterator / arg2() / arg3() do not panic and read ONLY the sized
                           payload: bytes behind it in the pooled frame's array cannot show
     c18_lazy_iter_sound   the pairs the iterator yields are literally inside the sized payload
     c18_lazyres_arg2      the same for newLazyCallRes: arg2 is a piece of the sized payload *)
From Coq Require Import ZArith List Bool Lia.
From Verif Require Import Base.Wrap Base.Bytes Base.Wire Gen.GenConsts Gen.GenFrame Gen.GenRelayFwd
  Model.TypedBuf Model.Messages Model.Codecs Model.RelayLazy Model.C18LazyFrame
  Spec.Protocol Proofs.CodecP Proofs.CodecsP Proofs.C18RbufP.
Import ListNotations.
Local Open Scope Z_scope.

(* ---------------- the read buffer: errors are sticky, reads only consume ---------------- *)
Definition c18_rle (r' r : rbuf) : Prop :=
  rerr r' = false -> rerr r = false /\ (length (rrem r') <= length (rrem r))%nat.

Lemma c18_rle_refl r : c18_rle r r.
Proof. intros H. split; [exact H|lia]. Qed.

Lemma c18_rle_trans r2 r1 r0 : c18_rle r2 r1 -> c18_rle r1 r0 -> c18_rle r2 r0.
Proof. intros A B H. destruct (A H) as [A1 A2]. destruct (B A1) as [B1 B2]. split; [exact B1|lia]. Qed.

Definition c18_suf (p : list Z) (r : rbuf) : Prop :=
  rerr r = false -> exists k, (k <= length p)%nat /\ rrem r = skipn k p.

(* what every reader built from r_bytes does to the unread bytes: it drops a prefix (none once the
   error is set), and when it ends error free it started error free and the prefix was there *)
Definition c18_adv {A} (m : rbuf -> A * rbuf) : Prop :=
  forall r, exists k, rrem (snd (m r)) = skipn k (rrem r) /\
    (rerr (snd (m r)) = false -> rerr r = false /\ (k <= length (rrem r))%nat).

Lemma c18_skipn_skipn {A} (x y : nat) (l : list A) : skipn x (skipn y l) = skipn (y + x) l.
Proof.
  revert l. induction y as [|y IH]; intros l; [reflexivity|].
  destruct l as [|a l]; [cbn; destruct x; reflexivity|]. cbn [skipn Nat.add]. apply IH.
Qed.

Lemma c18_adv_bytes n : c18_adv (r_bytes n).
Proof.
  intros r. unfold r_bytes. destruct (rerr r) eqn:E; [exists 0%nat; split; [reflexivity|cbn; congruence]|].
  destruct (length (rrem r) <? n)%nat eqn:L; [exists 0%nat; split; [reflexivity|discriminate]|].
  apply Nat.ltb_ge in L. exists n. auto.
Qed.

Lemma c18_adv_pure {A} (f : rbuf -> A) : c18_adv (fun r => (f r, r)).
Proof. intros r. exists 0%nat. split; [reflexivity|]. intros H. split; [exact H|lia]. Qed.

Lemma c18_adv_bind {A B} (m : rbuf -> A * rbuf) (k : A -> rbuf -> B * rbuf) :
  c18_adv m -> (forall a, c18_adv (k a)) -> c18_adv (bindR m k).
Proof.
  intros Hm Hk r. unfold bindR. destruct (Hm r) as (j & Ej & Hj). destruct (m r) as [a r1]. cbn [snd] in Ej, Hj.
  destruct (Hk a r1) as (i & Ei & Hi). exists (j + i)%nat. split; [rewrite Ei, Ej; apply c18_skipn_skipn|].
  intros H. destruct (Hi H) as [E1 L1]. destruct (Hj E1) as [E0 L0]. split; [exact E0|].
  rewrite Ej, skipn_length in L1. lia.
Qed.

Lemma c18_adv_uint n : c18_adv (r_uint n).
Proof. apply c18_adv_bind; [apply c18_adv_bytes|intros b; apply c18_adv_pure]. Qed.

Lemma c18_adv_len8 : c18_adv r_len8.
Proof. apply c18_adv_bind; [apply c18_adv_uint|intros n; apply c18_adv_bytes]. Qed.

Lemma c18_adv_lazy_hdrs n : forall a, c18_adv (lazy_hdrs n a).
Proof.
  induction n as [|n IH]; intros a; [apply (c18_adv_pure (fun _ => a))|].
  apply c18_adv_bind; [apply c18_adv_len8|intros k]. apply c18_adv_bind; [apply c18_adv_len8|intros v; apply IH].
Qed.

Lemma c18_adv_lazyres_hdrs n : forall a, c18_adv (lazyres_hdrs n a).
Proof.
  induction n as [|n IH]; intros a; [apply (c18_adv_pure (fun _ => a))|].
  apply c18_adv_bind; [apply c18_adv_len8|intros k]. apply c18_adv_bind; [apply c18_adv_len8|intros v; apply IH].
Qed.

Lemma c18_adv_rle {A} (m : rbuf -> A * rbuf) r : c18_adv m -> c18_rle (snd (m r)) r.
Proof.
  intros Hm H. destruct (Hm r) as (k & E & Hk). destruct (Hk H) as [E0 L]. split; [exact E0|].
  rewrite E, skipn_length. lia.
Qed.

Lemma c18_adv_bok {A} (m : rbuf -> A * rbuf) r : c18_adv m -> bytes_ok (rrem r) = true -> bytes_ok (rrem (snd (m r))) = true.
Proof. intros Hm H. destruct (Hm r) as (k & -> & _). apply bytes_ok_skipn, H. Qed.

Lemma c18_adv_suf {A} (m : rbuf -> A * rbuf) p r : c18_adv m -> c18_suf p r -> c18_suf p (snd (m r)).
Proof.
  intros Hm S H. destruct (Hm r) as (k & E & Hk). destruct (Hk H) as [E0 L]. destruct (S E0) as (j & J1 & J2).
  exists (j + k)%nat. rewrite E, J2, c18_skipn_skipn. rewrite J2, skipn_length in L. split; [lia|reflexivity].
Qed.

Lemma c18_lazyres_hdrs_rle : forall n a r, c18_rle (snd (lazyres_hdrs n a r)) r.
Proof. intros n a r. apply c18_adv_rle, c18_adv_lazyres_hdrs. Qed.

Lemma c18_bok_lazyres_hdrs : forall n a r, bytes_ok (rrem r) = true -> bytes_ok (rrem (snd (lazyres_hdrs n a r))) = true.
Proof. intros n a r. apply c18_adv_bok, c18_adv_lazyres_hdrs. Qed.

Lemma c18_step n r : rerr (snd (r_bytes n r)) = false ->
  rerr r = false /\ (length (rrem (snd (r_bytes n r))) + n = length (rrem r))%nat.
Proof.
  intros H. destruct (r_bytes_ok n r H) as [A [B [C _]]]. split; [exact A|].
  rewrite C, skipn_length. lia.
Qed.

Definition c18_ge (n : nat) (r' r : rbuf) : Prop :=
  rerr r' = false -> rerr r = false /\ (length (rrem r') + n <= length (rrem r))%nat.

Lemma c18_ge_refl r : c18_ge 0 r r.
Proof. intros H. split; [exact H|lia]. Qed.

Lemma c18_ge_bytes n r : c18_ge n (snd (r_bytes n r)) r.
Proof. intros H. destruct (c18_step n r H) as [E L]. split; [exact E|lia]. Qed.

Lemma c18_ge_uint n r : c18_ge n (snd (r_uint n r)) r.
Proof. rewrite r_uint_snd. apply c18_ge_bytes. Qed.

Lemma c18_ge_adv {A} (m : rbuf -> A * rbuf) r : c18_adv m -> c18_ge 0 (snd (m r)) r.
Proof. intros Hm H. destruct (c18_adv_rle m r Hm H) as [E L]. split; [exact E|lia]. Qed.

(* one link of the parser: the bytes stay bytes, the amount consumed since r0 grows by the link's *)
Lemma c18_ge_walk {A L} {Q : L -> Prop} n {a r0} {m : rbuf -> A * rbuf} {r} {K : A -> rbuf -> L} :
  c18_ge n (snd (m r)) r -> c18_adv m -> c18_ge a r r0 -> bytes_ok (rrem r) = true ->
  (forall x r', x = fst (m r) -> bytes_ok (rrem r') = true -> c18_ge (n + a) r' r0 -> Q (K x r')) ->
  Q (let '(x, r') := m r in K x r').
Proof.
  intros G Hm Ga B H. pose proof (c18_adv_bok m r Hm B) as B'. destruct (m r) as [x r']. apply H; [reflexivity|exact B'|].
  intros E. destruct (G E) as [E1 L1]. destruct (Ga E1) as [E0 L0]. split; [exact E0|]. cbn [snd] in L1. lia.
Qed.

Theorem c18_lazy_offsets p lz : bytes_ok p = true -> zlen p <= 65535 -> lazy_callreq p = (0, lz) ->
  31 <= lz_ctoff lz /\ lz_ctoff lz + 5 <= lz_a2start lz /\
  lz_a2start lz <= lz_a2end lz <= zlen p /\
  (lz_a2frag lz = true -> lz_a2end lz = zlen p /\ lz_a3start lz = 0) /\
  (lz_a2frag lz = false -> lz_a3start lz = lz_a2end lz + 2 /\ lz_a3start lz <= zlen p).
Proof.
  unfold lazy_callreq, r_u8, r_u16. intros Hb Hl.
  match goal with |- ?l = _ -> ?C => set (Q := fun l' : Z * lazyreq => l' = (0, lz) -> C); change (Q l) end.
  (* at least 31 bytes in front of the checksum type ... *)
  apply (c18_ge_walk 30 (c18_ge_bytes _ _) (c18_adv_bytes _) (c18_ge_refl (rb p)) Hb). intros _ r1 _ B1 G1.
  apply (c18_ge_walk 1 (c18_ge_uint _ _) (c18_adv_uint _) G1 B1). intros sl r2 _ B2 G2.
  apply (c18_ge_walk 0 (c18_ge_adv _ _ (c18_adv_bytes _)) (c18_adv_bytes _) G2 B2). intros _ r3 _ B3 G3.
  apply (c18_ge_walk 1 (c18_ge_uint _ _) (c18_adv_uint _) G3 B3). intros nh r4 _ B4 G4.
  apply (c18_ge_walk 0 (c18_ge_adv _ _ (c18_adv_lazy_hdrs _ _)) (c18_adv_lazy_hdrs _ _) G4 B4). intros hs r5 _ B5 G5.
  (* ... at least 5 between it and arg2 ... *)
  apply (c18_ge_walk 1 (c18_ge_uint _ _) (c18_adv_uint _) (c18_ge_refl r5) B5). intros ct r6 _ B6 G6.
  unfold Q at 1. destruct (ct >=? c_checksumCount); [discriminate|].
  match goal with |- ?l = _ -> _ => change (Q l) end.
  apply (c18_ge_walk _ (c18_ge_bytes _ _) (c18_adv_bytes _) G6 B6). intros _ r7 _ B7 G7.
  apply (c18_ge_walk 2 (c18_ge_uint _ _) (c18_adv_uint _) G7 B7). intros a1len r8 _ B8 G8.
  apply (c18_ge_walk _ (c18_ge_bytes _ _) (c18_adv_bytes _) G8 B8). intros method r9 _ B9 G9.
  apply (c18_ge_walk 2 (c18_ge_uint _ _) (c18_adv_uint _) G9 B9). intros a2len r10 -> _ G10.
  pose proof (r_uint_range 2 r9 B9) as V10. change (256 ^ Z.of_nat 2) with 65536 in V10.
  unfold Q. clear Q. set (a2len := fst (r_uint 2 r9)) in *. intros H.
  (* ... and arg2 (then the two bytes of arg3's length) read exactly *)
  pose proof (c18_step (Z.to_nat a2len) r10) as A11.
  destruct (r_bytes (Z.to_nat a2len) r10) as [x10 r11]. cbn [snd] in A11.
  set (frag := (zlen (rrem r11) =? 0) && hasMoreFragments (nth 0 p 0)) in H.
  pose proof (c18_step 2 r11) as A12.
  destruct (r_bytes 2 r11) as [x11 r12']. cbn [snd] in A12.
  assert (E11 : rerr r11 = false /\
     (frag = true -> fst (if frag then (0, r11) else (wrapU 16 (bytes_read p r12'), r12')) = 0) /\
     (frag = false -> rerr r12' = false)).
  { destruct frag; cbn [fst snd] in H |- *.
    - destruct (rerr r11); [discriminate H|]. repeat split; congruence.
    - destruct (rerr r12') eqn:E; [discriminate H|]. destruct (A12 eq_refl) as [E11 _]. repeat split; congruence. }
  destruct E11 as [E11 [F1 F0]].
  destruct (A11 E11) as [E10 L11]. destruct (G10 E10) as [E5 N10]. destruct (G5 E5) as [_ N5]. cbn [rb rrem] in N5.
  assert (Hres : lz = mkLazy (wrapU 16 (bytes_read p r5)) ct method (wrapU 16 (bytes_read p r10))
                   (wrapU 16 (wrapU 16 (bytes_read p r10) + a2len)) frag
                   (fst (if frag then (0, r11) else (wrapU 16 (bytes_read p r12'), r12')))
                   (hs_as hs) (hs_cn hs) (hs_rd hs) (hs_rk hs)).
  { destruct frag; cbn [fst snd] in H |- *.
    - rewrite E11 in H. inversion H. reflexivity.
    - rewrite (F0 eq_refl) in H. inversion H. reflexivity. }
  subst lz. cbn [lz_ctoff lz_a2start lz_a2end lz_a2frag lz_a3start].
  unfold bytes_read, zlen in *.
  assert (Ha2 : Z.of_nat (Z.to_nat a2len) = a2len) by (clear - V10; lia).
  assert (N11 : Z.of_nat (length (rrem r11)) + a2len = Z.of_nat (length (rrem r10))) by (clear - L11 Ha2; lia).
  assert (P5 : wrapU 16 (Z.of_nat (length p) - Z.of_nat (length (rrem r5))) = Z.of_nat (length p) - Z.of_nat (length (rrem r5))).
  { apply wrapU_id; [clear; lia|]. change (2 ^ 16) with 65536. clear - Hl N5. lia. }
  assert (P10 : wrapU 16 (Z.of_nat (length p) - Z.of_nat (length (rrem r10))) = Z.of_nat (length p) - Z.of_nat (length (rrem r10))).
  { apply wrapU_id; [clear; lia|]. change (2 ^ 16) with 65536. clear - Hl N5 N10. lia. }
  rewrite P5, P10.
  assert (P11 : wrapU 16 (Z.of_nat (length p) - Z.of_nat (length (rrem r10)) + a2len) =
                Z.of_nat (length p) - Z.of_nat (length (rrem r11))).
  { rewrite wrapU_id; [clear - N11; lia|clear; lia|]. change (2 ^ 16) with 65536. clear - Hl N5 N10 N11 V10. lia. }
  rewrite P11.
  split; [clear - N5; lia|]. split; [clear - N10; lia|]. split; [clear - N5 N10 N11 V10; lia|]. split.
  - intros Fr. split; [|exact (F1 Fr)].
    unfold frag in Fr. apply andb_true_iff in Fr as [Fr _]. apply Z.eqb_eq in Fr. clear - Fr. lia.
  - intros Fr. rewrite Fr. cbn [fst]. destruct (A12 (F0 Fr)) as [_ L12].
    rewrite wrapU_id; [clear - L12 N11; lia|clear; lia|]. change (2 ^ 16) with 65536. clear - Hl N5 N10 N11 V10 L12. lia.
Qed.

(* ---------------- slices of an array whose prefix is the sized payload ---------------- *)
Lemma c18_slice_prefix (a b : list Z) lo hi : 0 <= lo <= hi -> hi <= zlen a ->
  slice (a ++ b) lo hi = slice a lo hi.
Proof.
  intros H1 H2. unfold slice, zlen in *.
  rewrite skipn_app. rewrite firstn_app.
  replace (Z.to_nat (hi - lo) - length (skipn (Z.to_nat lo) a))%nat with 0%nat by (rewrite skipn_length; lia).
  cbn [firstn]. rewrite app_nil_r. reflexivity.
Qed.

Lemma c18_go_slice_prefix (arr : list Z) n lo hi : 0 <= n <= zlen arr -> 0 <= lo <= hi -> hi <= n ->
  go_slice arr lo hi = Some (slice (firstn (Z.to_nat n) arr) lo hi).
Proof.
  intros Hn H1 H2. unfold go_slice.
  destruct ((lo <? 0) || (hi <? lo) || (zlen arr <? hi)) eqn:E; [lia|].
  rewrite <- (firstn_skipn (Z.to_nat n) arr) at 1.
  rewrite c18_slice_prefix; [reflexivity|exact H1|].
  unfold zlen in *. rewrite firstn_length. lia.
Qed.

(* what the relay host gets from an ACCEPTED call req frame: the slices do not panic and are
   slices of the SIZED payload -- for every content of the array behind it *)
Theorem c18_lazy_arg2_sized arr n lz : bytes_ok arr = true -> 0 <= n <= zlen arr -> n <= 65535 ->
  lazy_callreq (firstn (Z.to_nat n) arr) = (0, lz) ->
  lazy_arg2_arr arr lz = Some (lz_arg2 (firstn (Z.to_nat n) arr) lz) /\
  lazy_arg3_sized (firstn (Z.to_nat n) arr) lz = Some (lz_arg3 (firstn (Z.to_nat n) arr) lz) /\
  lazy_arg2_iter arr lz <> A2Panic.
Proof.
  intros Hb Hn Hl H. set (p := firstn (Z.to_nat n) arr) in *.
  assert (Lp : zlen p = n) by (unfold p, zlen in *; rewrite firstn_length; lia).
  destruct (c18_lazy_offsets p lz (bytes_ok_firstn _ _ Hb) ltac:(lia) H) as (O1 & O2 & O3 & O4 & O5).
  assert (E2 : go_slice arr (lz_a2start lz) (lz_a2end lz) = Some (lz_arg2 p lz)).
  { unfold lz_arg2, p. apply c18_go_slice_prefix; lia. }
  split; [exact E2|]. split.
  - unfold lazy_arg3_sized, lz_arg3, go_slice.
    assert (R : 0 <= lz_a3start lz <= zlen p).
    { destruct (lz_a2frag lz); [destruct (O4 eq_refl) as [_ ->]; lia|destruct (O5 eq_refl); lia]. }
    destruct ((lz_a3start lz <? 0) || (zlen p <? lz_a3start lz) || (zlen p <? zlen p)) eqn:E; [lia|].
    f_equal. unfold slice. apply firstn_all2. unfold zlen. rewrite skipn_length. lia.
  - unfold lazy_arg2_iter. destruct (negb (bytes_eqb (lz_as lz) c_Thrift)); [discriminate|].
    rewrite E2. destruct (kv_iter (lz_arg2 p lz)). discriminate.
Qed.

(* ... hence two frames with the same sized payload offer the same, whatever the bytes behind it *)
Theorem c18_lazy_stale_independent arr arr' n lz : bytes_ok arr = true -> bytes_ok arr' = true ->
  0 <= n <= zlen arr -> 0 <= n <= zlen arr' -> n <= 65535 ->
  firstn (Z.to_nat n) arr = firstn (Z.to_nat n) arr' ->
  lazy_callreq (firstn (Z.to_nat n) arr) = (0, lz) ->
  lazy_arg2_iter arr lz = lazy_arg2_iter arr' lz /\ lazy_arg2_arr arr lz = lazy_arg2_arr arr' lz.
Proof.
  intros Hb Hb' Hn Hn' Hl E H.
  destruct (c18_lazy_arg2_sized arr n lz Hb Hn Hl H) as (A & _ & _).
  rewrite E in H. destruct (c18_lazy_arg2_sized arr' n lz Hb' Hn' Hl H) as (A' & _ & _).
  rewrite E in A. split; [|congruence].
  unfold lazy_arg2_iter. unfold lazy_arg2_arr in A, A'. rewrite A, A'. reflexivity.
Qed.

(* the pairs the iterator yields are literally inside the arg2 region of the SIZED payload,
   in order, at most the announced count and exactly the count when it ends with io.EOF *)
Theorem c18_lazy_iter_sound arr n lz ps fin : bytes_ok arr = true -> 0 <= n <= zlen arr -> n <= 65535 ->
  lazy_callreq (firstn (Z.to_nat n) arr) = (0, lz) ->
  lazy_arg2_iter arr lz = A2Pairs ps fin ->
  let a2 := lz_arg2 (firstn (Z.to_nat n) arr) lz in
  (ps = [] /\ (length a2 < 2)%nat) \/
  exists count rest, 0 <= count <= 65535 /\ a2 = be 2 count ++ flat_map s_pair ps ++ rest /\
    zlen ps <= count /\ (fin = true -> zlen ps = count).
Proof.
  intros Hb Hn Hl H Hi a2.
  destruct (c18_lazy_arg2_sized arr n lz Hb Hn Hl H) as (A & _ & _).
  unfold lazy_arg2_iter in Hi. destruct (negb (bytes_eqb (lz_as lz) c_Thrift)); [discriminate|].
  unfold lazy_arg2_arr in A. rewrite A in Hi. fold a2 in Hi.
  destruct (kv_iter a2) as [ps' fin'] eqn:K. inversion Hi; subst ps' fin'.
  apply (kv_iter_sound a2 ps fin); [|exact K].
  unfold a2, lz_arg2, slice. apply bytes_ok_firstn, bytes_ok_skipn, bytes_ok_firstn, Hb.
Qed.

(* ---------------- call res: arg2 is a piece of the sized payload ---------------- *)
(* one link of a parser that keeps the suffix invariant *)
Lemma c18_suf_walk {A L} {Q : L -> Prop} p {m : rbuf -> A * rbuf} {r} {K : A -> rbuf -> L} :
  c18_adv m -> c18_suf p r -> (forall x r', c18_suf p r' -> Q (K x r')) -> Q (let '(x, r') := m r in K x r').
Proof. intros Hm S H. pose proof (c18_adv_suf m p r Hm S) as S'. destruct (m r) as [x r']. apply H, S'. Qed.

Theorem c18_lazyres_arg2 fl p lr : lazy_callres fl p = (0, lr) ->
  exists off, 0 <= off /\ off + zlen (lr_arg2 lr) <= zlen p /\
    lr_arg2 lr = slice p off (off + zlen (lr_arg2 lr)) /\
    (lr_a2frag lr = true -> off + zlen (lr_arg2 lr) = zlen p).
Proof.
  unfold lazy_callres, r_u8, r_u16.
  assert (S0 : c18_suf p (rb p)) by (intros _; exists 0%nat; split; [lia|reflexivity]).
  match goal with |- ?l = _ -> ?C => set (Q := fun l' : Z * lazyres => l' = (0, lr) -> C); change (Q l) end.
  apply (c18_suf_walk p (c18_adv_bytes 1) S0). intros _ r1 S1.
  apply (c18_suf_walk p (c18_adv_bytes 1) S1). intros _ r2 S2.
  apply (c18_suf_walk p (c18_adv_bytes _) S2). intros _ r3 S3.
  apply (c18_suf_walk p (c18_adv_uint 1) S3). intros nh r4 S4.
  apply (c18_suf_walk p (c18_adv_lazyres_hdrs _ _) S4). intros as_ r5 S5.
  apply (c18_suf_walk p (c18_adv_uint 1) S5). intros ct r6 S6.
  apply (c18_suf_walk p (c18_adv_bytes _) S6). intros _ r7 S7.
  apply (c18_suf_walk p (c18_adv_uint 2) S7). intros n1 r8 S8.
  apply (c18_suf_walk p (c18_adv_bytes _) S8). intros _ r9 S9.
  apply (c18_suf_walk p (c18_adv_uint 2) S9). intros n2 r10 S10.
  unfold Q. clear Q. intros H.
  pose proof (r_bytes_ok (Z.to_nat n2) r10) as A11.
  destruct (r_bytes (Z.to_nat n2) r10) as [a2 r11]. cbn [fst snd] in A11.
  destruct (rerr r11) eqn:E11; [discriminate H|]. inversion H; subst lr; clear H. cbn [lr_arg2 lr_a2frag].
  destruct (A11 eq_refl) as (E10 & L11 & R11 & F11).
  destruct (S10 E10) as (k & K1 & K2). rewrite K2 in *. rewrite skipn_length in L11.
  assert (La2 : zlen a2 = Z.of_nat (Z.to_nat n2)).
  { rewrite F11. unfold zlen. rewrite firstn_length, skipn_length. lia. }
  exists (Z.of_nat k). unfold zlen in *. split; [lia|]. split; [lia|]. split.
  - rewrite F11 at 1. unfold slice. rewrite Nat2Z.id. f_equal. lia.
  - intros Fr. apply andb_true_iff in Fr as [Fr _]. apply Z.eqb_eq in Fr.
    rewrite R11, skipn_length, skipn_length in Fr. lia.
Qed.
