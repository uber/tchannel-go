(* Per-call completeness for property C12: a call that has completed without a fault holds
   no frame.  Builds on the invariants of Proofs/FrameOwnP.v. *)
From Coq Require Import ZArith List Bool Lia.
From Verif Require Import Base.Wrap Base.Wire Gen.GenConsts Spec.FrameOwnSpec Model.FrameOwn Model.FrameOwnCall Proofs.FrameOwnP.
Import ListNotations.
Local Open Scope Z_scope.

(* ------------------------------------------------------------------ what completion leaves behind *)

(* per call: a writer that completed without error and not through SendSystemError has
   flushed its last fragment; a reader that completed has no initial fragment and its current
   fragment is done; a previous fragment that is not done is the current one *)
Definition Wk (s : st) (k : Z) : Prop :=
  w_complete (s_wr s k) = true -> w_err (s_wr s k) = false -> r_quit (s_rdr s k) = false ->
  w_sent (s_wr s k) = true \/ w_cur (s_wr s k) = None.
Definition Rk (s : st) (k : Z) : Prop :=
  r_complete (s_rdr s k) = true ->
  r_init (s_rdr s k) = None /\ forall t, r_cur (s_rdr s k) = Some t -> s_fdone s t = true.
Definition Ak (s : st) (k : Z) : Prop :=
  forall t, r_prev (s_rdr s k) = Some t -> s_fdone s t = false -> r_cur (s_rdr s k) = Some t.

Definition KInv (s : st) : Prop := forall k, Wk s k /\ Rk s k /\ Ak s k.

Lemma kinv_init cap : KInv (init cap).
Proof. intros k. split; [|split]; intro; discriminate. Qed.

Lemma fdone_frag_done t s x : s_fdone s x = true -> s_fdone (frag_done t s) x = true.
Proof. apply frag_done_mono. Qed.

Lemma fdone_frag_done_self t s : s_fdone (frag_done t s) t = true.
Proof. apply frag_done_done. Qed.

Lemma fdone_release_prev k q s x : s_fdone s x = true -> s_fdone (release_prev k q s) x = true.
Proof.
  intros H. unfold release_prev. cbv zeta. destruct (r_prev (s_rdr s k)); [apply fdone_frag_done|]; exact H.
Qed.

Lemma not_done_before (f g : Z -> bool) t : (forall x, f x = true -> g x = true) -> g t = false -> f t = false.
Proof. intros M D. destruct (f t) eqn:E; [rewrite (M t E) in D; discriminate|reflexivity]. Qed.

(* KInv reads the readers, the writers and the done marks, and done marks only appear.
   [s'] differs from [s] in the reader and the writer of call k: *)
Lemma kinv_call s s' k r' w' : KInv s ->
  (forall j, s_rdr s' j = fupd (s_rdr s) k r' j) -> (forall j, s_wr s' j = fupd (s_wr s) k w' j) ->
  (forall t, s_fdone s t = true -> s_fdone s' t = true) ->
  (w_complete w' = true -> w_err w' = false -> r_quit r' = false -> w_sent w' = true \/ w_cur w' = None) ->
  (r_complete r' = true -> r_init r' = None /\ forall t, r_cur r' = Some t -> s_fdone s' t = true) ->
  (forall t, r_prev r' = Some t -> s_fdone s' t = false -> r_cur r' = Some t) ->
  KInv s'.
Proof.
  intros K Er Ew Hd Hw Hr Ha j. unfold Wk, Rk, Ak. rewrite Er, Ew. unfold fupd.
  destruct (j =? k); [auto|]. destruct (K j) as (A & B & C). split; [exact A|]. split.
  - intros Cp. destruct (B Cp) as [B1 B2]. auto.
  - intros t P D. apply C; [exact P|]. exact (not_done_before _ _ t Hd D).
Qed.

Lemma kinv_rdr s s' k r' : KInv s ->
  (forall j, s_rdr s' j = fupd (s_rdr s) k r' j) -> s_wr s' = s_wr s ->
  (forall t, s_fdone s t = true -> s_fdone s' t = true) ->
  (r_quit r' = false -> r_quit (s_rdr s k) = false) ->
  (r_complete r' = true -> r_init r' = None /\ forall t, r_cur r' = Some t -> s_fdone s' t = true) ->
  (forall t, r_prev r' = Some t -> s_fdone s' t = false -> r_cur r' = Some t) ->
  KInv s'.
Proof.
  intros K Er Ew Hd Hq Hr Ha. apply (kinv_call s s' k r' (s_wr s k) K); try assumption.
  - intros j. rewrite Ew. symmetry. apply fupd_same.
  - intros H1 H2 H3. apply (K k); auto.
Qed.

Lemma kinv_wr s s' k w' : KInv s ->
  s_rdr s' = s_rdr s -> (forall j, s_wr s' j = fupd (s_wr s) k w' j) ->
  (forall t, s_fdone s t = true -> s_fdone s' t = true) ->
  (w_complete w' = true -> w_err w' = false -> r_quit (s_rdr s k) = false -> w_sent w' = true \/ w_cur w' = None) ->
  KInv s'.
Proof.
  intros K Er Ew Hd Hw. destruct (K k) as (_ & B & C). apply (kinv_call s s' k (s_rdr s k) w' K); try assumption.
  - intros j. rewrite Er. symmetry. apply fupd_same.
  - intros Cp. destruct (B Cp) as [B1 B2]. auto.
  - intros t P D. apply C; [exact P|]. exact (not_done_before _ _ t Hd D).
Qed.

Lemma kinv_keep s s' : KInv s -> s_rdr s' = s_rdr s -> s_wr s' = s_wr s ->
  (forall t, s_fdone s t = true -> s_fdone s' t = true) -> KInv s'.
Proof.
  intros K Er Ew Hd. apply (kinv_wr s s' 0 (s_wr s 0) K); [exact Er| |exact Hd|apply (K 0)].
  intros j. rewrite Ew. symmetry. apply fupd_same.
Qed.

Lemma kinv_frag_done t s : KInv s -> KInv (frag_done t s).
Proof.
  intros K. apply (kinv_keep s); [exact K|apply frag_done_fields|apply frag_done_fields|].
  intros x. apply fdone_frag_done.
Qed.

(* curFragment := nil, possibly with an error, when the previous fragment is done *)
Lemma kinv_drop_cur s k e : KInv s -> (forall t, r_prev (s_rdr s k) = Some t -> s_fdone s t = true) ->
  let r := s_rdr s k in KInv (set_rdr s k (rd_set r (r_init r) (r_prev r) None e (r_complete r) (r_quit r))).
Proof.
  intros K Hp r. destruct (K k) as (_ & B & _).
  eapply (kinv_rdr s _ k); [exact K|intros j; reflexivity|reflexivity|auto|..]; cbn; auto.
  - intros Cp. split; [apply B; exact Cp|discriminate].
  - intros t P D. rewrite (Hp t P) in D. discriminate.
Qed.

Lemma kinv_fail_reader k s : KInv s -> (forall t, r_prev (s_rdr s k) = Some t -> s_fdone s t = true) ->
  KInv (fail_reader k s).
Proof.
  intros K Hp. apply (kinv_drop_cur (mex_shutdown k s)); [|exact Hp].
  apply (kinv_keep s); auto.
Qed.

Lemma kinv_parse_chunks k pok t s : KInv s -> KInv (parse_chunks k pok t s).
Proof.
  intros K. unfold parse_chunks. cbv zeta. destruct pok; [apply (kinv_keep s); auto|].
  destruct (K k) as (_ & B & C). eapply (kinv_rdr s _ k); [exact K|intros j; reflexivity|reflexivity|auto|..]; cbn; auto.
Qed.

Lemma kinv_fetch_done k s : KInv s -> KInv (fetch_done k s).
Proof.
  intros K. destruct (K k) as (_ & B & C). pose proof (fetch_done_prev_done k s C) as Hp. revert Hp.
  unfold fetch_done. destruct (r_cur (s_rdr s k)) as [t0|]; [|intros _; exact K].
  rewrite frag_done_set_rdr. destruct (frag_done_fields t0 s) as (_ & Er & _). cbn. rewrite fupd_eq. cbn. intros Hp.
  eapply (kinv_rdr (frag_done t0 s) _ k); [apply kinv_frag_done; exact K|intros j; reflexivity|reflexivity|auto|..];
    rewrite ?Er; cbn; auto.
  - intros Cp. split; [apply B; exact Cp|discriminate].
  - intros t P D. rewrite (Hp t P) in D. discriminate.
Qed.

(* every step preserves it (faulty steps included; [app_ok] is not needed) *)
Lemma step_kinv s l s' : Inv s -> KInv s -> step false s l = Some s' -> KInv s'.
Proof.
  intros I K H. destruct l; unfold step in H; cbv zeta in H.
  (* steps that leave readers, writers and done marks alone *)
  all: try (split_step H; some H; try match goal with |- KInv (if ?b then _ else _) => destruct b end;
            (apply (kinv_keep s); [exact K|reflexivity|reflexivity|auto]); fail).
  all: destruct (K k) as (Kw & Kr & Ka).
  - (* LReadCallReq *)
    destruct (x_used (s_mex s k)); [discriminate|]. some H.
    eapply (kinv_call s _ k); [exact K|intros j; reflexivity|intros j; reflexivity|auto|..]; cbn; discriminate.
  - (* LNewMex *)
    destruct (x_used (s_mex s k)); [discriminate|]. some H.
    apply (kinv_call s _ k rdr0 wr0 K); [intros j; reflexivity|intros j; reflexivity|auto|..]; cbn; discriminate.
  - (* LFetch *)
    destruct (r_err (s_rdr s k) || r_complete (s_rdr s k)) eqn:G; [discriminate|]. apply orb_false_iff in G as [_ G].
    pose proof (kinv_fetch_done k s K) as K1. pose proof (fetch_done_prev_done k s Ka) as P1.
    destruct (fetch_done_fields k s) as (_ & R1). cbv zeta in R1.
    set (s1 := fetch_done k s) in *.
    assert (Cp : r_complete (s_rdr s1 k) = false) by (rewrite R1; exact G).
    (* the new fragment t becomes previous and current fragment *)
    assert (At : forall t s2 s3, KInv s2 -> s_rdr s2 = s_rdr s1 -> s_wr s3 = s_wr s2 -> s_fdone s3 = s_fdone s2 ->
              (forall j, s_rdr s3 j = fupd (s_rdr s2) k (rd_set (s_rdr s2 k) None (Some t) (Some t) (r_err (s_rdr s2 k))
                                                          (r_complete (s_rdr s2 k)) (r_quit (s_rdr s2 k))) j) -> KInv s3).
    { intros t s2 s3 K2 E2 Ew Ef Er. eapply (kinv_rdr s2 s3 k); [exact K2|exact Er|exact Ew|rewrite Ef; auto|..]; cbn; auto.
      rewrite E2, Cp. discriminate. }
    destruct (r_init (s_rdr s1 k)) as [t|].
    + some H. apply kinv_parse_chunks. apply (At t s1 _ K1); reflexivity.
    + destruct (x_ctx (s_mex s1 k)); [some H; apply kinv_fail_reader; assumption|].
      destruct (x_q (s_mex s1 k)) as [|t q].
      * destruct (x_errn (s_mex s1 k)); [some H; apply kinv_fail_reader; assumption|discriminate].
      * set (s2 := pop_mex k t q (PLocal k) s1) in *.
        assert (K2 : KInv s2) by (apply (kinv_keep s1); auto).
        destruct (s_ty s t =? 0); [destruct pif_ok; some H|destruct (s_ty s t =? 1); some H].
        -- apply kinv_parse_chunks. apply (At t s2 _ K2); reflexivity.
        -- apply kinv_fail_reader; [apply (kinv_keep s2); auto|exact P1].
        -- set (s3 := p_rel S_rpf_rel t (p_acc t s2)).
           assert (K3 : KInv s3) by (apply (kinv_keep s2); auto).
           destruct (r_inbound (s_rdr s k) && errok); apply kinv_drop_cur; try exact P1; exact K3.
        -- apply kinv_fail_reader; assumption.
  - (* LCloseLast *)
    destruct (r_err (s_rdr s k) || r_complete (s_rdr s k)); [discriminate|].
    destruct (r_cur (s_rdr s k)) as [t|] eqn:Cu; [|discriminate]. some H.
    pose proof (cur_no_init _ _ _ (proj2 I) Cu) as Ini.
    assert (Go : forall s1, KInv s1 -> s_rdr s1 = s_rdr s -> s_fdone s1 = s_fdone s ->
              KInv (frag_done t (set_rdr s1 k (rd_set (s_rdr s1 k) (r_init (s_rdr s1 k)) (r_prev (s_rdr s1 k))
                      (r_cur (s_rdr s1 k)) (r_err (s_rdr s1 k)) true (r_quit (s_rdr s1 k)))))).
    { intros s1 K1 E1 F1. rewrite frag_done_set_rdr. destruct (frag_done_fields t s1) as (_ & Er & _).
      eapply (kinv_rdr (frag_done t s1) _ k); [apply kinv_frag_done; exact K1|intros j; reflexivity|reflexivity|auto|..];
        rewrite ?Er, E1; cbn; auto.
      - intros _. split; [exact Ini|]. intros x X. rewrite Cu in X. injection X as <-. apply frag_done_done.
      - intros x P D. apply Ka; [exact P|]. rewrite <- F1. exact (not_done_before _ _ x (frag_done_mono t s1) D). }
    destruct (r_inbound (s_rdr s k)); apply Go; try reflexivity; [exact K|apply (kinv_keep s); auto].
  - (* LRespErr *)
    some H. eapply (kinv_wr s _ k); [exact K|reflexivity|intros j; reflexivity|auto|]; cbn. discriminate.
  - (* LRespSysErr: the writer completes, and the reader quits *)
    destruct (w_err (s_wr s k)); some H; [exact K|].
    set (s1 := mex_shutdown k _). destruct (release_prev_fields k true s1) as (Er & Ew & _).
    eapply (kinv_call s _ k); [exact K|intros j; rewrite Er; reflexivity|intros j; rewrite Ew; reflexivity|..]; cbn.
    + intros x. apply (fdone_release_prev k true s1).
    + discriminate.
    + intros Cp. destruct (Kr Cp) as [A B]. split; [exact A|]. intros x X. apply (fdone_release_prev k true s1). exact (B x X).
    + discriminate.
  - (* LDispatchFail *)
    some H. destruct (release_prev_fields k true s) as (Er & Ew & _).
    eapply (kinv_rdr s _ k); [exact K|intros j; rewrite Er; reflexivity|exact Ew|..]; cbn.
    + apply fdone_release_prev.
    + discriminate.
    + intros Cp. destruct (Kr Cp) as [A B]. split; [exact A|]. intros x X. apply fdone_release_prev. auto.
    + discriminate.
  - (* LWNew *)
    destruct (negb (x_used (s_mex s k))); [discriminate|].
    destruct (w_err (s_wr s k) || w_complete (s_wr s k)) eqn:G; [discriminate|]. apply orb_false_iff in G as [_ G].
    destruct (match w_cur (s_wr s k) with Some _ => negb (w_sent (s_wr s k)) | None => false end); [discriminate|].
    destruct (x_ctx (s_mex s k) || x_errn (s_mex s k)); [|destruct wok]; some H;
      (eapply (kinv_wr s _ k); [exact K|reflexivity|intros j; reflexivity|auto|]); cbn; try discriminate.
    rewrite G. discriminate.
  - (* LWFlush *)
    destruct (w_err (s_wr s k) || w_complete (s_wr s k) || w_sent (s_wr s k)); [discriminate|].
    destruct (w_cur (s_wr s k)) as [t|]; [|discriminate].
    destruct (x_ctx (s_mex s k) || x_errn (s_mex s k)); [|destruct (send_room s (x_conn (s_mex s k))); [|discriminate]];
      some H; try match goal with |- KInv (if ?b then _ else _) => destruct b end;
      (eapply (kinv_wr s _ k); [exact K|reflexivity|intros j; reflexivity|auto|]); cbn; auto; discriminate.
Qed.

Theorem run_kinv ls : forall s s', Inv s -> KInv s -> run false s ls = Some s' -> Inv s' /\ KInv s'.
Proof.
  intros s s' Iv K. apply (run_ind (fun s => Inv s /\ KInv s)); [|split; assumption].
  intros s0 l s1 [I0 K0] A E. split; [eapply step_inv|eapply step_kinv]; eassumption.
Qed.

(* ------------------------------------------------------------------ a completed call holds no frame *)

Lemma done_holds_nothing s k : KInv s -> call_done s k ->
  forall t, ~ rdr_holds s k t /\ ~ wr_holds s k t.
Proof.
  intros K (Rc & Wc & We & Rq) t. destruct (K k) as (Kw & Kr & Ka). destruct (Kr Rc) as [Ri Rd]. split.
  - intros [H|[H D]]; [congruence|]. pose proof (Ka t H D) as C. rewrite (Rd t C) in D. discriminate.
  - intros [H S]. destruct (Kw Wc We Rq) as [X|X]; congruence.
Qed.

(* on EVERY run of the model -- any schedule, any fault history -- the reader and the writer
   of a call that completed without a fault refer to no frame *)
Theorem completed_call_rw_thm : forall cap ls s k,
  run false (init cap) ls = Some s -> call_done s k ->
  forall t, ~ rdr_holds s k t /\ ~ wr_holds s k t.
Proof.
  intros cap ls s k H D. destruct (run_kinv ls _ _ (init_inv cap) (kinv_init cap) H) as [_ K].
  apply done_holds_nothing; assumption.
Qed.

(* ... hence a completed call whose recvCh is drained holds no frame at all *)
Theorem completed_call_thm : forall cap ls s k,
  run false (init cap) ls = Some s -> call_settled s k -> forall t, ~ call_holds s k t.
Proof.
  intros cap ls s k H [D Q] t [Hq|[Hr|Hw]].
  - rewrite Q in Hq. contradiction.
  - exact (proj1 (completed_call_rw_thm cap ls s k H D t) Hr).
  - exact (proj2 (completed_call_rw_thm cap ls s k H D t) Hw).
Qed.

(* C12_faultfree_all_released without global quiescence: on a run without frame-dropping steps
   every frame ever obtained is released, or waits in a send queue for the writer loop, or is
   held by a call that has NOT completed (or whose recvCh the peer filled beyond the last
   fragment) *)
Theorem noloss_per_call : forall cap ls s,
  run_noloss (init cap) ls = Some s ->
  forall t, In t (gets (history s)) ->
    In t (rels (history s)) \/ (exists c, In t (s_send s c)) \/
    (exists k, call_holds s k t /\ ~ call_settled s k).
Proof.
  intros cap ls s H t G. pose proof (run_noloss_run ls _ _ H) as Hr.
  destruct (no_loss cap ls s H t G) as [R|[[k Hk]|Hc]]; [left; exact R| |right; left; exact Hc].
  right. right. exists k. split; [exact Hk|]. intros St. exact (completed_call_thm cap ls s k Hr St t Hk).
Qed.

Corollary noloss_calls_settled : forall cap ls s,
  run_noloss (init cap) ls = Some s -> (forall k, call_settled s k \/ forall t, ~ call_holds s k t) ->
  forall t, In t (gets (history s)) -> In t (rels (history s)) \/ exists c, In t (s_send s c).
Proof.
  intros cap ls s H All t G. destruct (noloss_per_call cap ls s H t G) as [R|[C|[k [Hk Ns]]]]; [left; exact R|right; exact C|].
  exfalso. destruct (All k) as [St|Nh]; [exact (Ns St)|exact (Nh t Hk)].
Qed.

(* ------------------------------------------------------------------ frames stay with their call *)

Definition Conf (s : st) : Prop := conf (s_trace s).

Theorem run_conf cap ls s : run false (init cap) ls = Some s -> Conf s.
Proof. intros H. apply (t_conf _ _ (proj1 (run_inv ls _ _ (init_inv cap) H))). Qed.

Lemma call_toks_ctoks tr k t : In t (call_toks (rev tr) k) -> In t (ctoks tr k).
Proof.
  unfold call_toks, ctoks. rewrite !in_flat_map. intros (e & He & Ht). exists e. split; [apply in_rev; exact He|].
  destruct e as [s0 t' p|t' p|t'|s0 t']; try contradiction;
    (destruct p; cbn in *; try contradiction; exact Ht).
Qed.

(* C12_faultfree_all_released per completed call: on a run without frame-dropping steps, once
   call k has completed without a fault and its recvCh is drained, every frame the history
   attributes to the call -- every frame that ever waited in its exchange queue or was a
   fragment of its reader or of its writer -- has been released, except response / request
   fragments that still wait in a connection's send queue for the writer loop.  Other calls
   may be in any state. *)
Theorem call_frames_released : forall cap ls s k,
  run_noloss (init cap) ls = Some s -> call_settled s k ->
  forall t, In t (call_toks (history s) k) -> In t (rels (history s)) \/ exists c, In t (s_send s c).
Proof.
  intros cap ls s k H St t Ht. pose proof (run_noloss_run ls _ _ H) as Hr.
  destruct (run_noloss_inv ls _ _ (init_inv cap) (cinv_init cap) H) as [[T S] C].
  pose proof (run_conf cap ls s Hr) as Cf.
  pose proof (Cf t k (call_toks_ctoks _ _ _ Ht)) as P. fold (O s t) in P.
  pose proof (c_acc _ _ C t) as A. unfold accounted in A.
  pose proof (completed_call_thm cap ls s k Hr St t) as Nh. unfold call_holds in Nh.
  destruct (O s t) eqn:E; cbn in P; try discriminate; try (apply Z.eqb_eq in P; subst).
  - left. unfold history. rewrite rels_rev. rewrite <- in_rev. apply own_released; [apply T|exact E].
  - exfalso. apply Nh. left. exact A.
  - exfalso. apply Nh. right. left. exact A.
  - right. exists c. exact A.
  - exfalso. apply Nh. right. right. exact A.
Qed.

(* ------------------------------------------------------------------ the side conditions are needed *)

(* the peer sends one frame more than the response has fragments: the frame is queued (recvCh
   has room), the application closes the last argument, the call is complete -- and the extra
   frame stays in recvCh for good.  No step of this run is in [loses]. *)
Definition extra_frame_witness : list label :=
  [LNewMex 9 1 2; LWNew 9 true; LWAcc 9; LWFlush 9 true; LWrite 1 false;
   LReadFwd 1 (Some 9) 0; LReadFwd 1 (Some 9) 0; LFetch 9 true true true; LAcc 9; LCloseLast 9].

Theorem drained_needed :
  exists s, run_noloss (init 8) extra_frame_witness = Some s /\ call_done s 9 /\
            exists t, In t (x_q (s_mex s 9)) /\ In t (gets (history s)) /\ ~ In t (rels (history s)).
Proof.
  eexists. split; [vm_compute; reflexivity|]. split; [repeat split|].
  exists 2. vm_compute. split; [left; reflexivity|]. split; [tauto|]. intros [H|[H|H]]; try discriminate; exact H.
Qed.

(* InboundCallResponse.SendSystemError after the handler began to write the response: the
   writer is complete without error, the response fragment it had obtained is never sent nor
   released -- why [call_done] asks for r_quit = false *)
Definition syserr_midwrite_witness : list label :=
  [LReadCallReq 1 7; LFetch 7 true true true; LAcc 7; LCloseLast 7; LWNew 7 true; LWAcc 7; LRespSysErr 7].

Theorem quit_needed :
  exists s, run_noloss (init 8) syserr_midwrite_witness = Some s /\
            r_complete (s_rdr s 7) = true /\ w_complete (s_wr s 7) = true /\ w_err (s_wr s 7) = false /\
            x_q (s_mex s 7) = [] /\ wr_holds s 7 1 /\ ~ In 1 (rels (history s)).
Proof.
  eexists. split; [vm_compute; reflexivity|]. vm_compute. repeat split. intros [H|H]; [discriminate|exact H].
Qed.

(* the deadline passes while the last response fragment is being flushed: the writer is
   complete WITH an error and keeps the fragment -- why [call_done] asks for w_err = false *)
Definition timeout_lastflush_witness : list label :=
  [LReadCallReq 1 7; LFetch 7 true true true; LAcc 7; LCloseLast 7; LWNew 7 true; LWAcc 7; LCtx 7; LWFlush 7 true].

Theorem werr_needed :
  exists s, run_noloss (init 8) timeout_lastflush_witness = Some s /\
            r_complete (s_rdr s 7) = true /\ w_complete (s_wr s 7) = true /\ r_quit (s_rdr s 7) = false /\
            x_q (s_mex s 7) = [] /\ wr_holds s 7 1 /\ ~ In 1 (rels (history s)).
Proof.
  eexists. split; [vm_compute; reflexivity|]. vm_compute. repeat split. intros [H|H]; [discriminate|exact H].
Qed.
