(* Proofs about the fragmenting WRITER model (Model/Frag.v, section Writer): section
   "W. Writer" of TARGETS_frag.md.  Main theorem: [writer_correct]. *)
From Coq Require Import ZArith List Bool Lia.
From Verif Require Import Base.Wrap Base.Bytes Gen.GenConsts Model.Crc Model.Frag Spec.FragSpec Spec.FragOk Proofs.CrcP.
Import ListNotations.
Local Open Scope Z_scope.

(* ---- denote_events and frag_events ---- *)

Lemma denote_events_app e1 e2 : denote_events (e1 ++ e2) = fold_left ev_step e2 (denote_events e1).
Proof. unfold denote_events. apply fold_left_app. Qed.

Lemma ev_step_cont_nil acc : ev_step acc (Cont []) = acc.
Proof. destruct acc as [cl cu]. cbn [ev_step fst snd]. rewrite app_nil_r. reflexivity. Qed.

(* the three facts of TARGETS_frag.md in terms of [denote_events] alone *)
Lemma denote_events_cont_nil evs : denote_events (evs ++ [Cont []]) = denote_events evs.
Proof. rewrite denote_events_app. cbn [fold_left]. apply ev_step_cont_nil. Qed.

Lemma denote_events_new_nil evs :
  denote_events (evs ++ [New []]) = (fst (denote_events evs) ++ [snd (denote_events evs)], []).
Proof. rewrite denote_events_app. reflexivity. Qed.

Lemma denote_events_last_app evs K x now : K = Cont \/ K = New ->
  denote_events (evs ++ [K (x ++ now)]) =
  (fst (denote_events (evs ++ [K x])), snd (denote_events (evs ++ [K x])) ++ now).
Proof.
  intros HK. rewrite !denote_events_app. cbn [fold_left].
  destruct HK as [-> | ->]; cbn [ev_step fst snd]; [rewrite app_assoc|]; reflexivity.
Qed.

(* the events of a fragment whose last chunk is [x]: all but the last event do not depend on
   [x], the last one is [Cont x] or [New x] *)
Lemma frag_events_snoc pre : exists evs K, (K = Cont \/ K = New) /\
  forall x, frag_events (pre ++ [x]) = evs ++ [K x].
Proof.
  destruct pre as [|c0 cs].
  - exists [], Cont. split; [left; reflexivity|]. intros x. reflexivity.
  - exists (Cont c0 :: map New cs), New. split; [right; reflexivity|]. intros x.
    cbn [app frag_events]. rewrite map_app. reflexivity.
Qed.

Lemma events_app_last acc pre open now closed cur :
  fold_left ev_step (frag_events (pre ++ [open])) acc = (closed, cur) ->
  fold_left ev_step (frag_events (pre ++ [open ++ now])) acc = (closed, cur ++ now).
Proof.
  destruct (frag_events_snoc pre) as (evs & K & HK & E). rewrite !E, !fold_left_app.
  cbn [fold_left]. set (a := fold_left ev_step evs acc). intros H.
  destruct HK as [-> | ->]; cbn [ev_step] in *.
  - inversion H; subst. rewrite app_assoc. reflexivity.
  - inversion H; subst. reflexivity.
Qed.

Lemma frag_events_new pre open x :
  frag_events ((pre ++ [open]) ++ [x]) = frag_events (pre ++ [open]) ++ [New x].
Proof.
  destruct pre as [|c0 cs]; cbn [app frag_events map]; [reflexivity|].
  rewrite !map_app. reflexivity.
Qed.

Lemma chunks_of_app a b : chunks_of (a ++ b) = chunks_of a ++ chunks_of b.
Proof. unfold chunks_of. apply map_app. Qed.

Lemma events_snoc out f :
  denote_events (flat_map frag_events (chunks_of (out ++ [f]))) =
  fold_left ev_step (frag_events (f_chunks f)) (denote_events (flat_map frag_events (chunks_of out))).
Proof.
  rewrite chunks_of_app, flat_map_app, denote_events_app. cbn [chunks_of map flat_map].
  rewrite app_nil_r. reflexivity.
Qed.


Lemma chunks_size_app a b : chunks_size (a ++ b) = chunks_size a + chunks_size b.
Proof.
  induction a as [|c a IH]; cbn [app chunks_size fold_right]; [reflexivity|].
  unfold chunks_size in IH. rewrite IH. unfold chunks_size. lia.
Qed.

Lemma chunks_size_one c : chunks_size [c] = 2 + zlen c.
Proof. unfold chunks_size. cbn [fold_right]. lia. Qed.

Lemma app_last_snoc pre open now : app_last (pre ++ [open]) now = pre ++ [open ++ now].
Proof.
  induction pre as [|c pre IH]; [reflexivity|].
  cbn [app]. cbn [app_last]. rewrite IH. destruct (pre ++ [open]) eqn:E; [|reflexivity].
  destruct pre; discriminate.
Qed.

(* ---- checksum chain ---- *)

Lemma ck_add_app c a b : ck_add (ck_add c a) b = ck_add c (a ++ b).
Proof.
  unfold ck_add. destruct (ck_kind c =? 1) eqn:E1.
  - cbn [ck_kind ck_val]. cbn [Z.eqb Pos.eqb]. rewrite crc32_update_app_gen. reflexivity.
  - destruct (ck_kind c =? 3) eqn:E3.
    + cbn [ck_kind ck_val]. cbn [Z.eqb Pos.eqb]. rewrite crc32_update_app_gen. reflexivity.
    + rewrite E1, E3. reflexivity.
Qed.

Lemma ck_add_nil c : ck_add c [] = c.
Proof.
  unfold ck_add. destruct c as [k v]. cbn [ck_kind ck_val]. rewrite !crc32_update_nil.
  destruct (k =? 1) eqn:E1; [f_equal; lia|]. destruct (k =? 3) eqn:E3; [f_equal; lia|]. reflexivity.
Qed.

Lemma ck_add_typecode c bs : ck_typecode (ck_add c bs) = ck_typecode c.
Proof. apply ck_add_kind. Qed.

Lemma ck_fold_typecode cs c : ck_typecode (fold_left ck_add cs c) = ck_typecode c.
Proof. apply ck_fold_kind. Qed.

(* the checksum state after all chunks of the fragments [fs] *)
Definition ck_end (c : ckst) (fs : list frag) : ckst :=
  fold_left (fun c f => fold_left ck_add (f_chunks f) c) fs c.

Lemma ck_end_typecode fs c : ck_typecode (ck_end c fs) = ck_typecode c.
Proof.
  revert c; induction fs as [|f fs IH]; intros c; [reflexivity|].
  unfold ck_end in *. cbn [fold_left]. rewrite IH. apply ck_fold_typecode.
Qed.

Lemma ck_end_snoc c fs f : ck_end c (fs ++ [f]) = fold_left ck_add (f_chunks f) (ck_end c fs).
Proof. unfold ck_end. rewrite fold_left_app. reflexivity. Qed.

Lemma ck_chain_snoc fs : forall c f,
  ck_chain c fs ->
  f_ck f = ck_sum (fold_left ck_add (f_chunks f) (ck_end c fs)) ->
  f_ctype f = ck_typecode (ck_end c fs) ->
  ck_chain c (fs ++ [f]).
Proof.
  induction fs as [|g fs IH]; intros c f Hc Hs Ht.
  - cbn [app ck_chain]. auto.
  - cbn [app ck_chain] in *. destruct Hc as (A & B & C). split; [exact A|]. split; [exact B|].
    apply IH; assumption.
Qed.

Lemma ck_fold_snoc cs x c : fold_left ck_add (cs ++ [x]) c = ck_add (fold_left ck_add cs c) x.
Proof. rewrite fold_left_app. reflexivity. Qed.

(* ---- shape of the fragments already emitted ---- *)

Definition isnil {A} (l : list A) : bool := match l with [] => true | _ => false end.

(* fragments that are followed by a further one *)
Fixpoint pre_ok (capf : bool -> Z) (first : bool) (fs : list frag) : Prop :=
  match fs with
  | [] => True
  | f :: r => f_chunks f <> [] /\ chunks_size (f_chunks f) <= capf first /\ f_more f = true /\
              pre_ok capf false r
  end.

Lemma pre_ok_snoc capf fs : forall first f,
  pre_ok capf first fs -> f_chunks f <> [] -> chunks_size (f_chunks f) <= capf (first && isnil fs) ->
  f_more f = true -> pre_ok capf first (fs ++ [f]).
Proof.
  induction fs as [|g fs IH]; intros first f H Hc Hs Hm.
  - cbn [app pre_ok isnil] in *. rewrite andb_true_r in Hs. auto.
  - cbn [app pre_ok isnil] in *. destruct H as (A & B & C & D). rewrite andb_false_r in Hs.
    split; [exact A|]. split; [exact B|]. split; [exact C|]. apply IH; auto.
Qed.

Lemma pre_ok_final capf fs : forall first f,
  pre_ok capf first fs -> f_chunks f <> [] -> chunks_size (f_chunks f) <= capf (first && isnil fs) ->
  f_more f = false -> frames_ok_from capf first (fs ++ [f]).
Proof.
  induction fs as [|g fs IH]; intros first f H Hc Hs Hm.
  - cbn [app frames_ok_from isnil] in *. rewrite andb_true_r in Hs.
    split; [exact Hc|]. split; [exact Hs|]. split; [|exact I].
    rewrite Hm. split; [discriminate|congruence].
  - cbn [app frames_ok_from pre_ok isnil] in *. destruct H as (A & B & C & D). rewrite andb_false_r in Hs.
    split; [exact A|]. split; [exact B|]. split.
    + rewrite C. split; [intros _; destruct fs; discriminate|reflexivity].
    + apply IH; auto.
Qed.

(* Begin and Close where they succeed, as equations *)
Definition arg_state (last : bool) : Z :=
  if last then c_fragmentingWriteInLastArgument else c_fragmentingWriteInArgument.

Lemma arg_state_writing last : is_writing (arg_state last) = true.
Proof. destruct last; reflexivity. Qed.

Section Ops.
  Variable capf : bool -> Z.

  Lemma w_begin_init ck last : 2 < capf true ->
    w_begin capf last (w_init ck) = Some (0, mkWst (arg_state last) 0 [] true [[]] (capf true - 2) ck false).
  Proof.
    intros H. unfold w_begin, w_init. cbn [ws_err ws_state ws_has ws_chunks ws_room ws_out ws_ck ws_done].
    change (c_fragmentingWriteStart =? c_fragmentingWriteStart) with true. cbn. change c_chunkHeaderSize with 2.
    replace (capf true <=? 2) with false by lia. reflexivity.
  Qed.

  Lemma w_begin_waiting last st :
    ws_err st = 0 -> ws_state st = c_fragmentingWriteWaitingForArgument -> ws_has st = true -> 2 < ws_room st ->
    w_begin capf last st =
    Some (0, mkWst (arg_state last) 0 (ws_out st) true (ws_chunks st ++ [[]]) (ws_room st - 2) (ws_ck st) (ws_done st)).
  Proof.
    intros He Hs Hh Hr. unfold w_begin. rewrite He, Hs, Hh. cbn. change c_chunkHeaderSize with 2.
    replace (ws_room st <=? 2) with false by lia. reflexivity.
  Qed.

  Lemma w_close_keep st : ws_err st = 0 -> ws_state st = arg_state false -> 2 < ws_room st ->
    w_close capf st =
    Some (0, mkWst c_fragmentingWriteWaitingForArgument 0 (ws_out st) true (ws_chunks st) (ws_room st) (ws_ck st) (ws_done st)).
  Proof.
    intros He Hs Hr. unfold w_close. rewrite He, Hs. cbn. change c_chunkHeaderSize with 2.
    replace (ws_room st >? 2) with true by lia. reflexivity.
  Qed.

  Lemma w_close_full st : ws_err st = 0 -> ws_state st = arg_state false -> ws_room st <= 2 ->
    w_close capf st =
    Some (0, mkWst c_fragmentingWriteWaitingForArgument 0 (emit st true) true [[]] (capf false - 2) (ws_ck st) (ws_done st)).
  Proof.
    intros He Hs Hr. unfold w_close. rewrite He, Hs. cbn. change c_chunkHeaderSize with 2.
    replace (ws_room st >? 2) with false by lia. reflexivity.
  Qed.

  Lemma w_close_last st : ws_err st = 0 -> ws_state st = arg_state true ->
    w_close capf st = Some (0, mkWst c_fragmentingWriteComplete 0 (emit st false) false [] 0 (ws_ck st) true).
  Proof. intros He Hs. unfold w_close. rewrite He, Hs. reflexivity. Qed.
End Ops.

(* ---- the invariant ---- *)

Section Inv.
  Variable capf : bool -> Z.
  Variable ck0 : ckst.
  Hypothesis Hcap1 : 3 <= capf true.
  Hypothesis Hcap2 : 5 <= capf false.

  (* there is a current fragment; [closed] = arguments closed so far, [cur] = bytes of the
     argument in progress (between arguments: of the last closed one) *)
  Record common (st : wst) (closed : list (list Z)) (cur : list Z) : Prop := {
    cm_err : ws_err st = 0;
    cm_has : ws_has st = true;
    cm_done : ws_done st = false;
    cm_ev : exists pre open, ws_chunks st = pre ++ [open] /\
            fold_left ev_step (frag_events (pre ++ [open]))
              (denote_events (flat_map frag_events (chunks_of (ws_out st)))) = (closed, cur);
    cm_room0 : 0 <= ws_room st;
    cm_room : ws_room st + chunks_size (ws_chunks st) = capf (isnil (ws_out st));
    cm_out : pre_ok capf true (ws_out st);
    cm_chain : ck_chain ck0 (ws_out st);
    cm_ck : ws_ck st = fold_left ck_add (ws_chunks st) (ck_end ck0 (ws_out st))
  }.

  Definition in_arg (st : wst) (closed : list (list Z)) (cur : list Z) (last : bool) : Prop :=
    ws_state st = arg_state last /\ common st closed cur.

  (* between arguments: [args] = the arguments written so far *)
  Definition between (st : wst) (args : list (list Z)) : Prop :=
    (st = w_init ck0 /\ args = []) \/
    (ws_state st = c_fragmentingWriteWaitingForArgument /\ 2 < ws_room st /\
     exists closed cur, common st closed cur /\ args = closed ++ [cur]).

  Definition final (st : wst) (args : list (list Z)) : Prop :=
    ws_state st = c_fragmentingWriteComplete /\ ws_done st = true /\
    denote (chunks_of (ws_out st)) = args /\ frames_ok capf (ws_out st) /\ ck_chain ck0 (ws_out st).

  Lemma common_chunks_ne st closed cur : common st closed cur -> ws_chunks st <> [].
  Proof. intros H. destruct (cm_ev _ _ _ H) as (pre & open & E & _). rewrite E. destruct pre; discriminate. Qed.

  (* finish(more=true) + a fresh continuation fragment with one empty chunk *)
  Lemma emit_common st closed cur s :
    common st closed cur ->
    common (mkWst s 0 (emit st true) true [[]] (capf false - 2) (ws_ck st) (ws_done st)) closed cur.
  Proof.
    intros H. pose proof (common_chunks_ne _ _ _ H) as Hne. destruct H as [He Hh Hd Hev Hr0 Hr Ho Hc Hk].
    destruct Hev as (pre & open & E & Hev).
    unfold emit. constructor; cbn [ws_err ws_has ws_done ws_chunks ws_out ws_room ws_ck].
    - reflexivity.
    - reflexivity.
    - exact Hd.
    - exists [], []. split; [reflexivity|]. rewrite events_snoc. cbn [f_chunks app frag_events map fold_left].
      rewrite ev_step_cont_nil. rewrite E. exact Hev.
    - lia.
    - rewrite chunks_size_one. replace (isnil (ws_out st ++ _)) with false by (destruct (ws_out st); reflexivity).
      change (zlen (@nil Z)) with 0. lia.
    - apply pre_ok_snoc; cbn [f_chunks f_more]; [exact Ho|exact Hne| |reflexivity].
      cbn [andb]. pose proof (zlen_nonneg (ws_chunks st)). lia.
    - apply ck_chain_snoc; cbn [f_chunks f_ck f_ctype]; [exact Hc| |].
      + rewrite Hk. reflexivity.
      + rewrite Hk, ck_fold_typecode. reflexivity.
    - rewrite ck_end_snoc. cbn [f_chunks fold_left]. rewrite ck_add_nil. exact Hk.
  Qed.

  (* ---- Begin ---- *)
  Lemma begin_ok st args last : between st args ->
    exists st', w_begin capf last st = Some (0, st') /\ in_arg st' args [] last.
  Proof.
    intros [[-> ->] | (Hs & Hr & closed & cur & H & ->)].
    - rewrite w_begin_init by lia. eexists. split; [reflexivity|]. split; [reflexivity|].
      constructor; cbn [ws_err ws_has ws_done ws_chunks ws_out ws_room ws_ck]; try reflexivity.
      + exists [], []. split; reflexivity.
      + lia.
      + cbn [app isnil]. rewrite chunks_size_one. change (zlen (@nil Z)) with 0. lia.
      + cbn [app fold_left ck_end]. rewrite ck_add_nil. reflexivity.
    - pose proof (common_chunks_ne _ _ _ H) as Hne. destruct H as [He Hh Hd Hev Hr0 Hrm Ho Hc Hk].
      destruct Hev as (pre & open & E & Hev).
      rewrite (w_begin_waiting capf last st He Hs Hh Hr). eexists. split; [reflexivity|]. split; [reflexivity|].
      constructor; cbn [ws_err ws_has ws_done ws_chunks ws_out ws_room ws_ck]; try reflexivity; try assumption.
      + exists (pre ++ [open]), []. rewrite E. split; [reflexivity|].
        rewrite frag_events_new, fold_left_app, Hev. reflexivity.
      + lia.
      + rewrite chunks_size_app, chunks_size_one. change (zlen (@nil Z)) with 0. lia.
      + rewrite ck_fold_snoc, ck_add_nil. exact Hk.
  Qed.

  (* ---- Flush ---- *)
  Lemma flush_raw_ok st closed cur last : in_arg st closed cur last -> in_arg (w_flush_raw capf st) closed cur last.
  Proof.
    intros [Hs H]. split; [exact Hs|]. unfold w_flush_raw. change c_chunkHeaderSize with 2.
    apply emit_common. exact H.
  Qed.

  Lemma flush_ok st closed cur last : in_arg st closed cur last ->
    exists st', w_flush capf st = Some (0, st') /\ in_arg st' closed cur last.
  Proof.
    intros H. unfold w_flush. destruct H as [Hs H]. rewrite Hs, arg_state_writing.
    eexists. split; [reflexivity|]. apply flush_raw_ok. split; assumption.
  Qed.

  (* ---- Write ---- *)
  (* the non-flushing part of one iteration of w_write_loop *)
  Lemma write_now_ok st closed cur last now :
    in_arg st closed cur last -> zlen now <= ws_room st ->
    in_arg (mkWst (ws_state st) 0 (ws_out st) true (app_last (ws_chunks st) now) (ws_room st - zlen now)
                  (ck_add (ws_ck st) now) (ws_done st)) closed (cur ++ now) last.
  Proof.
    intros [Hs H] Hn. split; [exact Hs|]. destruct H as [He Hh Hd Hev Hr0 Hrm Ho Hc Hk].
    destruct Hev as (pre & open & E & Hev).
    constructor; cbn [ws_err ws_has ws_done ws_chunks ws_out ws_room ws_ck]; try reflexivity; try assumption.
    - exists pre, (open ++ now). rewrite E, app_last_snoc. split; [reflexivity|].
      apply events_app_last. exact Hev.
    - lia.
    - rewrite E, app_last_snoc, chunks_size_app, chunks_size_one, zlen_app.
      rewrite E, chunks_size_app, chunks_size_one in Hrm. lia.
    - rewrite Hk, E, app_last_snoc, !ck_fold_snoc, ck_add_app. reflexivity.
  Qed.

  Lemma firstn_all_z {A} (b : list A) : firstn (Z.to_nat (zlen b)) b = b.
  Proof. unfold zlen. rewrite Nat2Z.id. apply firstn_all. Qed.

  Lemma zlen_firstn {A} (b : list A) n : 0 <= n <= zlen b -> zlen (firstn (Z.to_nat n) b) = n.
  Proof. intros H. unfold zlen in *. rewrite firstn_length. lia. Qed.

  Lemma write_loop_ok fuel : forall b st closed cur last,
    in_arg st closed cur last ->
    (0 < ws_room st -> (length b <= fuel)%nat) ->
    (ws_room st = 0 -> (length b < fuel)%nat) ->
    in_arg (w_write_loop capf fuel b st) closed (cur ++ b) last.
  Proof.
    induction fuel as [|f IH]; intros b st closed cur last H F1 F2;
      pose proof (cm_room0 _ _ _ (proj2 H)) as Hr0; pose proof (zlen_nonneg b) as Hb0;
      cbn [w_write_loop]; set (n := Z.min (zlen b) (Z.max (ws_room st) 0));
      assert (Hn : 0 <= n <= zlen b /\ n <= ws_room st) by lia;
      set (now := firstn (Z.to_nat n) b);
      assert (Hln : zlen now = n) by (apply zlen_firstn; lia);
      pose proof (write_now_ok st closed cur last now H ltac:(lia)) as W; rewrite Hln in W;
      (destruct (n =? zlen b) eqn:En;
        [replace b with now by (subst now; replace n with (zlen b) by lia; apply firstn_all_z); exact W|]).
    - (* without fuel there is nothing left to write *)
      exfalso. unfold zlen in *. lia.
    - apply flush_raw_ok in W.
      replace (cur ++ b) with ((cur ++ now) ++ skipn (Z.to_nat n) b)
        by (rewrite <- app_assoc; subst now; rewrite firstn_skipn; reflexivity).
      apply IH; [exact W| |].
      + intros _. rewrite skipn_length. unfold zlen in *.
        destruct (Z.eq_dec (ws_room st) 0) as [Z0|NZ]; [specialize (F2 Z0); lia|].
        assert (0 < ws_room st) as P by lia. specialize (F1 P). lia.
      + unfold w_flush_raw. cbn [ws_room]. change c_chunkHeaderSize with 2. lia.
  Qed.

  Lemma write_ok st closed cur last b : in_arg st closed cur last ->
    exists st', w_write capf b st = Some (0, st') /\ in_arg st' closed (cur ++ b) last.
  Proof.
    intros H. unfold w_write. rewrite (cm_err _ _ _ (proj2 H)), (proj1 H), arg_state_writing.
    change (0 =? 0) with true. cbn [negb]. eexists. split; [reflexivity|].
    apply write_loop_ok; [exact H| |]; intros _; lia.
  Qed.

  (* ---- Close ---- *)
  Lemma close_ok st closed cur : in_arg st closed cur false ->
    exists st', w_close capf st = Some (0, st') /\ between st' (closed ++ [cur]).
  Proof.
    intros [Hs H]. pose proof (cm_err _ _ _ H) as He. destruct (Z_lt_le_dec 2 (ws_room st)) as [Hr|Hr].
    - rewrite (w_close_keep capf st He Hs Hr). eexists. split; [reflexivity|].
      right. cbn [ws_state ws_room]. split; [reflexivity|]. split; [exact Hr|].
      exists closed, cur. split; [|reflexivity]. destruct H as [_ Hh Hd Hev Hr0 Hrm Ho Hc Hk].
      constructor; cbn [ws_err ws_has ws_done ws_chunks ws_out ws_room ws_ck]; try reflexivity; assumption.
    - rewrite (w_close_full capf st He Hs Hr). eexists. split; [reflexivity|].
      right. cbn [ws_state ws_room]. split; [reflexivity|]. split; [lia|].
      exists closed, cur. split; [|reflexivity]. apply emit_common. exact H.
  Qed.

  Lemma close_last_ok st closed cur : in_arg st closed cur true ->
    exists st', w_close capf st = Some (0, st') /\ final st' (closed ++ [cur]).
  Proof.
    intros [Hs H]. rewrite (w_close_last capf st (cm_err _ _ _ H) Hs). eexists. split; [reflexivity|].
    pose proof (common_chunks_ne _ _ _ H) as Hne. destruct H as [He Hh Hd Hev Hr0 Hrm Ho Hc Hk].
    destruct Hev as (pre & open & E & Hev).
    unfold final, emit. cbn [ws_state ws_done ws_out].
    split; [reflexivity|]. split; [reflexivity|]. split; [|split].
    - unfold denote. rewrite events_snoc. cbn [f_chunks]. rewrite E, Hev. reflexivity.
    - split; [destruct (ws_out st); discriminate|].
      apply pre_ok_final; cbn [f_chunks f_more]; [exact Ho|exact Hne| |reflexivity].
      cbn [andb]. lia.
    - apply ck_chain_snoc; cbn [f_chunks f_ck f_ctype]; [exact Hc| |].
      + rewrite Hk. reflexivity.
      + rewrite Hk, ck_fold_typecode. reflexivity.
  Qed.

  (* ---- scripts ---- *)
  Definition all0 (codes : list Z) : Prop := Forall (fun c => c = 0) codes.

  Lemma all0_snoc codes : all0 codes -> all0 (codes ++ [0]).
  Proof. intros H. apply Forall_app. split; [exact H|]. constructor; [reflexivity|constructor]. Qed.

  Lemma w_run_app ops1 : forall ops2 st codes,
    w_run capf (ops1 ++ ops2) st codes =
    match w_run capf ops1 st codes with
    | None => None
    | Some (codes', st') => w_run capf ops2 st' codes'
    end.
  Proof.
    induction ops1 as [|o ops1 IH]; intros ops2 st codes; [reflexivity|].
    cbn [app w_run]. destruct (w_step capf st o) as [[c st']|]; [apply IH|reflexivity].
  Qed.

  Lemma item_ok i st closed cur last : in_arg st closed cur last ->
    exists st', w_step capf st (item_op i) = Some (0, st') /\ in_arg st' closed (cur ++ arg_bytes [i]) last.
  Proof.
    intros H. unfold arg_bytes. cbn [flat_map]. rewrite app_nil_r. destruct i as [b|]; cbn [item_op w_step].
    - exact (write_ok st closed cur last b H).
    - rewrite app_nil_r. exact (flush_ok st closed cur last H).
  Qed.

  Lemma items_ok items : forall st closed cur last codes,
    in_arg st closed cur last -> all0 codes ->
    exists codes' st', w_run capf (map item_op items) st codes = Some (codes', st') /\
      all0 codes' /\ in_arg st' closed (cur ++ arg_bytes items) last.
  Proof.
    induction items as [|i items IH]; intros st closed cur last codes H Hc.
    - exists codes, st. cbn [map w_run arg_bytes flat_map]. rewrite app_nil_r. auto.
    - cbn [map w_run]. destruct (item_ok i st closed cur last H) as (st1 & E & H1). rewrite E.
      destruct (IH st1 closed _ last (codes ++ [0]) H1 (all0_snoc _ Hc)) as (codes' & st' & R & A & I').
      exists codes', st'. split; [exact R|]. split; [exact A|].
      unfold arg_bytes in *. cbn [flat_map] in *. rewrite app_nil_r, <- app_assoc in I'. exact I'.
  Qed.

  Lemma arg_ops_ok last items st args codes :
    between st args -> all0 codes ->
    exists codes' st', w_run capf (arg_ops last items) st codes = Some (codes', st') /\ all0 codes' /\
      (if last then final st' (args ++ [arg_bytes items]) else between st' (args ++ [arg_bytes items])).
  Proof.
    intros H Hc. unfold arg_ops. cbn [app w_run w_step].
    destruct (begin_ok st args last H) as (st1 & E & H1). rewrite E. rewrite w_run_app.
    destruct (items_ok items st1 args [] last (codes ++ [0]) H1 (all0_snoc _ Hc)) as (codes1 & st2 & R & A & I1).
    rewrite R. cbn [w_run w_step app] in *.
    destruct last.
    - destruct (close_last_ok st2 args _ I1) as (st3 & E3 & B). rewrite E3.
      exists (codes1 ++ [0]), st3. split; [reflexivity|]. split; [apply all0_snoc, A|exact B].
    - destruct (close_ok st2 args _ I1) as (st3 & E3 & B). rewrite E3.
      exists (codes1 ++ [0]), st3. split; [reflexivity|]. split; [apply all0_snoc, A|exact B].
  Qed.

  (* any number of non-last arguments followed by the last one *)
  Definition script (args : list (list witem)) (lastarg : list witem) : list wop :=
    flat_map (arg_ops false) args ++ arg_ops true lastarg.

  Lemma args_ok args : forall st done codes,
    between st done -> all0 codes ->
    exists codes' st', w_run capf (flat_map (arg_ops false) args) st codes = Some (codes', st') /\
      all0 codes' /\ between st' (done ++ map arg_bytes args).
  Proof.
    induction args as [|a args IH]; intros st done codes H Hc.
    - exists codes, st. cbn [flat_map w_run map]. rewrite app_nil_r. auto.
    - cbn [flat_map map]. rewrite w_run_app.
      destruct (arg_ops_ok false a st done codes H Hc) as (codes1 & st1 & R & A & B). rewrite R.
      destruct (IH st1 _ codes1 B A) as (codes2 & st2 & R2 & A2 & B2).
      exists codes2, st2. split; [exact R2|]. split; [exact A2|].
      rewrite <- app_assoc in B2. exact B2.
  Qed.

  Theorem writer_correct_n args lastarg :
    exists codes st,
      w_run capf (script args lastarg) (w_init ck0) [] = Some (codes, st) /\
      Forall (fun c => c = 0) codes /\
      ws_state st = c_fragmentingWriteComplete /\ ws_done st = true /\
      denote (chunks_of (ws_out st)) = map arg_bytes args ++ [arg_bytes lastarg] /\
      frames_ok capf (ws_out st) /\
      ck_chain ck0 (ws_out st).
  Proof.
    unfold script. rewrite w_run_app.
    destruct (args_ok args (w_init ck0) [] [] (or_introl (conj eq_refl eq_refl)) (Forall_nil _))
      as (codes1 & st1 & R & A & B). rewrite R.
    destruct (arg_ops_ok true lastarg st1 _ codes1 B A) as (codes2 & st2 & R2 & A2 & (F1 & F2 & F3 & F4 & F5)).
    exists codes2, st2. cbn [app] in F3. auto 10.
  Qed.
End Inv.


Theorem writer_correct : forall (capf : bool -> Z) ck a1 a2 a3,
  3 <= capf true -> 5 <= capf false ->
  exists codes st,
    w_run capf (script3 a1 a2 a3) (w_init ck) [] = Some (codes, st) /\      (* no panic *)
    Forall (fun c => c = 0) codes /\                                          (* every op returns nil *)
    ws_state st = c_fragmentingWriteComplete /\ ws_done st = true /\
    denote (chunks_of (ws_out st)) = [arg_bytes a1; arg_bytes a2; arg_bytes a3] /\
    frames_ok capf (ws_out st) /\
    ck_chain ck (ws_out st).
Proof.
  intros capf ck a1 a2 a3 H1 H2.
  destruct (writer_correct_n capf ck H1 H2 [a1; a2] a3) as (codes & st & R & H).
  exists codes, st. split; [|exact H].
  rewrite <- R. unfold script, script3. cbn [flat_map]. rewrite app_nil_r, <- app_assoc. reflexivity.
Qed.

(* non-vacuity: the smallest admissible capacities force fragmentation; flushes, empty
   writes and empty arguments included *)
Example writer_correct_instance :
  let capf := fun first : bool => if first then 3 else 5 in
  let a1 := [IWrite [1;2;3;4;5;6;7]; IFlush; IWrite []; IFlush; IFlush; IWrite [8]] in
  let a3 := [IWrite [9;10;11]; IWrite [12;13;14;15]] in
  3 <= capf true /\ 5 <= capf false /\
  option_map (fun p => (map f_chunks (ws_out (snd p)), denote (chunks_of (ws_out (snd p)))))
             (w_run capf (script3 a1 [] a3) (w_init (mkCk 1 0)) []) =
  Some ([[[1]]; [[2;3;4]]; [[5;6;7]]; [[]]; [[]]; [[8]]; [[];[]]; [[];[9]]; [[10;11;12]]; [[13;14;15]]],
        [[1;2;3;4;5;6;7;8]; []; [9;10;11;12;13;14;15]]).
Proof. vm_compute. split; [discriminate|]. split; [discriminate|reflexivity]. Qed.

(* the capacity bounds are needed: below them Begin panics *)
Example writer_small_initial_panics :
  w_run (fun first : bool => if first then 2 else 5) (script3 [] [] []) (w_init (mkCk 0 0)) [] = None.
Proof. reflexivity. Qed.
Example writer_small_continuation_panics :
  w_run (fun first : bool => if first then 3 else 4) (script3 [IWrite [1]] [] []) (w_init (mkCk 0 0)) [] = None.
Proof. reflexivity. Qed.

Print Assumptions writer_correct.
Print Assumptions writer_correct_n.
