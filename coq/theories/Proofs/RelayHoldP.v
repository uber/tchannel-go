(* Proofs about Model/RelayHold.v: with the frame paths as threads whose exits are those of the
   code, the relay item map drains: once no timer is armed and every callback, collection and
   frame path has returned, there are no items, no tombstones and no pending calls.
   Invariant: the item registered under an id is, if it is a tombstone, awaited by a pending
   collection; otherwise its timer is armed, or its timer callback is running, or a THREAD that
   stopped the timer is still on its way to finishRelayItem / failRelayItem. *)
From Coq Require Import ZArith List Bool Lia.
From Verif Require Import Base.Wire Model.MexDrain Model.RelayDrain Model.RelayHold
  Proofs.DrainBaseP Proofs.RelayDrainP.
Import ListNotations.
Local Open Scope Z_scope.

(* A frame path that stopped the timer of a live item (the frame finishes the call, the lookup
   found a live item and Stop() succeeded) ends in finishRelayItem or in failRelayItem,
   whatever the frame looks like and whatever the destination does. *)
Lemma nc_exit_discharges mt parse_ok mutated dest_sent :
  let c := nc_exit true false true true mt parse_ok mutated dest_sent in
  e_fail c || e_finish c = true.
Proof. destruct dest_sent; reflexivity. Qed.

Lemma rc_exit_discharges a b c d queue_ok :
  let e := rc_exit true false true true a b c d queue_ok in
  e_fail e || e_finish e = true.
Proof. destruct queue_ok; reflexivity. Qed.

Lemma tail_discharges x i : holding0 x = true -> e_fail (tail_code x i) || e_finish (tail_code x i) = true.
Proof.
  unfold holding0. intros H. apply andb_true_iff in H as [H Ht]. apply andb_true_iff in H as [Hf Hs].
  destruct i as [mt p m d|a b c d q]; cbn [tail_code]; rewrite Hf, Hs;
    destruct (ht_tomb x); try discriminate.
  - apply nc_exit_discharges.
  - apply rc_exit_discharges.
Qed.

Definition holder (thr : list hthread) (id : Z) : Prop :=
  exists x, In x thr /\ ht_id x = id /\ holding x = true.

Lemma holder_app thr l id : holder thr id -> holder (thr ++ l) id.
Proof. intros (x & Hin & H). exists x. split; [apply in_or_app; left; exact Hin|exact H]. Qed.

Lemma holder_app_new thr x : holding x = true -> holder (thr ++ [x]) (ht_id x).
Proof. intros H. exists x. split; [apply in_or_app; right; left; reflexivity|]. split; [reflexivity|exact H]. Qed.

Lemma holder_upd thr n x x' id :
  nth_error thr n = Some x -> (ht_id x = id -> holding x = true -> ht_id x' = id /\ holding x' = true) ->
  holder thr id -> holder (upd_nth n x' thr) id.
Proof.
  intros Hn Hk (y & Hin & Hy & Hh). destruct (In_upd_nth n x x' y thr Hn Hin) as [H| ->].
  - exists y. auto.
  - exists x'. split; [eapply In_upd_nth_new; eauto|]. apply Hk; assumption.
Qed.

Lemma holder_upd_same thr n x x' :
  nth_error thr n = Some x -> holding x' = true -> holder (upd_nth n x' thr) (ht_id x').
Proof. intros Hn Hh. exists x'. split; [eapply In_upd_nth_new; eauto|auto]. Qed.

Lemma holding_into_fail x : ht_pc x = 0 -> holding x = true -> holding (at_pc x 1) = true.
Proof.
  intros Hp. unfold holding, holding0. cbn [at_pc ht_pc ht_fin ht_stopped ht_tomb]. rewrite Hp.
  destruct (ht_fin x && ht_stopped x && negb (ht_tomb x)); cbn; auto.
Qed.

Lemma tail_done_holds_nothing x i :
  (ht_pc x =? 0) = true -> e_fail (tail_code x i) = false -> e_finish (tail_code x i) = false -> holding x = false.
Proof.
  intros Hpc Hf Hfin. unfold holding. rewrite Hpc. replace (ht_pc x =? 2) with false by lia.
  cbn [orb andb]. rewrite orb_false_r. destruct (holding0 x) eqn:H0; [|reflexivity].
  pose proof (tail_discharges x i H0) as H. rewrite Hf, Hfin in H. discriminate.
Qed.

Lemma returned_hold_nothing thr : forallb (fun x => ht_pc x =? 3) thr = true -> forall id, ~ holder thr id.
Proof.
  intros Hth id (x & Hin & _ & Hh). rewrite forallb_forall in Hth. specialize (Hth x Hin). apply Z.eqb_eq in Hth.
  unfold holding in Hh. rewrite Hth in Hh. discriminate.
Qed.

(* ---- the invariant: Proofs/RelayDrainP.v's, with the threads as holders ------------------- *)

Definition HInv (s : hstate) : Prop := Owned (holder (hs_thr s)) (hs_r s).

Lemma r_delete_tomb_owned held id0 r : Owned held r -> Owned held (r_delete_tomb id0 (drop_gc id0 r)).
Proof.
  intros H. unfold r_delete_tomb. cbn [drop_gc rs_items].
  assert (Hex : OwnedExcept held id0 (drop_gc id0 r)).
  { apply (OwnedExcept_move _ _ _ _ _ (Owned_except _ id0 _ H)); auto. intros id Hne. apply in_remove1_other, Hne. }
  destruct (get_item id0 (rs_items r)) as [it|] eqn:Hg; [destruct (ri_tomb it) eqn:Ht|].
  - apply r_delete_owned, Hex.
  - (* a live item is not what the collection is after *)
    apply (OwnedExcept_close _ id0 _ Hex). cbn [drop_gc rs_items]. rewrite Hg. intros it' [= <-].
    destruct (H id0 it Hg) as [HK HF]. unfold owned in *. rewrite Ht in *. split; assumption.
  - apply (OwnedExcept_close _ id0 _ Hex). cbn [drop_gc rs_items]. rewrite Hg. discriminate.
Qed.

Lemma r_stop_owned (held held' : Z -> Prop) id r it :
  Owned held r -> get_item id (rs_items r) = Some it ->
  (forall id', id' <> id -> held id' -> held' id') ->
  (ri_tomb it = false -> snd (timer_stop (ri_timer it)) = true -> held' id) ->
  Owned held' (r_stop id r).
Proof.
  intros H Hg Hother Hhold. unfold r_stop. rewrite Hg.
  apply (Owned_step _ _ id _ _ H); cbn [with_items rs_items rs_gc rs_firing]; auto.
  - intros id' Hne. apply get_set_other, Hne.
  - rewrite get_set, Z.eqb_refl, Hg. intros it' [= <-].
    exact (owned_stop _ _ r _ _ _ _ _ (H id it Hg) (surjective_pairing _) eq_refl eq_refl Hhold).
Qed.

Lemma HInv_step s l s' : HInv s -> hstep s l = Some s' -> HInv s'.
Proof.
  unfold HInv. intros HI Hs. destruct l as [id0|id0|id0|id0|id0 fin|t i|id0|t|t]; cbn [hstep] in Hs.
  1-3: unfold lift_r in Hs; destruct (rstep (hs_r s) _) as [r'|] eqn:Hr; [|discriminate]; injection Hs as <-;
       refine (proj1 (Owned_rstep_any _ _ _ _ _ HI Hr)); exact I.
  - (* HGc *)
    destruct (has id0 (rs_gc (hs_r s))); [|discriminate]. injection Hs as <-. apply r_delete_tomb_owned, HI.
  - (* HFrame *)
    destruct (get_item id0 (rs_items (hs_r s))) as [it|] eqn:Hg; injection Hs as <-; [|exact HI]. cbn [hs_r hs_thr].
    destruct fin; [|exact (Owned_held _ _ _ (holder_app _ _) HI)].
    apply (r_stop_owned _ _ _ _ it HI Hg); [auto using holder_app|].
    intros Ht Hst. cbn [andb]. rewrite Ht, Hst. apply (holder_app_new _ {| ht_id := id0 |}). reflexivity.
  - (* HTail *)
    destruct (get_ht s t) as [x|] eqn:Hg; [|discriminate].
    destruct (ht_pc x =? 0) eqn:Hpc; [|discriminate].
    pose proof (zindex_nth _ _ _ Hg) as Hn.
    destruct (e_fail (tail_code x i)) eqn:Hf; [|destruct (e_finish (tail_code x i)) eqn:Hfin]; injection Hs as <-;
      cbn [set_ht hs_r hs_thr].
    + (* into failRelayItem: the hold goes along *)
      apply (Owned_held (holder (hs_thr s))); [|exact HI]. intros id.
      apply (holder_upd _ _ x (at_pc x 1) id Hn). intros Hid Hh. split; [exact Hid|apply holding_into_fail; [lia|exact Hh]].
    + (* finishRelayItem *)
      apply finish_with_owned, r_delete_owned.
      apply (OwnedExcept_move _ _ _ _ _ (Owned_except _ (ht_id x) _ HI)); auto.
      intros id Hne. apply (holder_upd _ _ x _ id Hn). congruence.
    + (* the path returns without touching the item: it held nothing *)
      apply (Owned_held (holder (hs_thr s))); [|exact HI]. intros id.
      apply (holder_upd _ _ x _ id Hn). rewrite (tail_done_holds_nothing x i Hpc Hf Hfin). discriminate.
  - (* HFail *)
    injection Hs as <-. exact (Owned_held _ _ _ (holder_app _ _) HI).
  - (* HFailGet *)
    destruct (get_ht s t) as [x|] eqn:Hg; [|discriminate].
    destruct (ht_pc x =? 1) eqn:Hpc; [|discriminate].
    pose proof (zindex_nth _ _ _ Hg) as Hn.
    assert (Hother : forall x' id, id <> ht_id x -> holder (hs_thr s) id -> holder (upd_nth (Z.to_nat t) x' (hs_thr s)) id)
      by (intros x' id Hne; apply (holder_upd _ _ x _ id Hn); congruence).
    destruct (get_item (ht_id x) (rs_items (hs_r s))) as [it|] eqn:Hgi.
    + destruct (snd (timer_stop (ri_timer it))) eqn:Hst; injection Hs as <-; cbn [set_ht hs_r hs_thr];
        apply (r_stop_owned _ _ _ _ it HI Hgi); auto; rewrite Hst.
      * (* stopped: on to Entomb, as a holder *)
        intros _ _. apply (holder_upd_same _ _ x (at_pc x 2) Hn). reflexivity.
      * (* not stopped: the timer callback owns the item *) discriminate.
    + injection Hs as <-. cbn [set_ht hs_r hs_thr]. apply (Owned_step _ _ (ht_id x) _ _ HI); auto.
      rewrite Hgi. discriminate.
  - (* HFailEntomb *)
    destruct (get_ht s t) as [x|] eqn:Hg; [|discriminate].
    destruct (ht_pc x =? 2) eqn:Hpc; [|discriminate]. injection Hs as <-.
    pose proof (zindex_nth _ _ _ Hg) as Hn. cbn [set_ht hs_r hs_thr].
    apply finish_with_owned, r_entomb_owned.
    + apply (OwnedExcept_move _ _ _ _ _ (Owned_except _ (ht_id x) _ HI)); auto.
      intros id Hne. apply (holder_upd _ _ x _ id Hn). congruence.
    + intros it Hgi. exact (owned_tomb _ _ _ _ (HI _ it Hgi)).
Qed.

Lemma HInv_run ls s s' : HInv s -> hrun s ls = Some s' -> HInv s'.
Proof. exact (run_invariant _ _ HInv (fun _ => eq_refl) (fun _ _ _ => eq_refl) HInv_step ls s s'). Qed.

(* ---- counters: tombs, and pending = number of live items ---------------------------------- *)

Definition PInv (r : rstate) : Prop :=
  TInv r /\ rs_pending r + rs_tombs r = Z.of_nat (length (rs_items r)).

Lemma set_item_length id v l : length (set_item id v l) = length l.
Proof.
  induction l as [|[k x] r IH]; cbn [set_item length]; [reflexivity|].
  destruct (k =? id); cbn [length]; [reflexivity|]. rewrite IH. reflexivity.
Qed.

Lemma finish_delete_P id r : PInv r -> PInv (finish_with (r_delete id r)).
Proof.
  intros [HT Hsum]. split; [apply finish_with_T, r_delete_T; exact HT|].
  unfold r_delete. destruct (get_item id (rs_items r)) as [it|] eqn:Hg; [|exact Hsum].
  destruct HT as [Hnd _]. destruct (del_item_spec _ _ _ Hnd Hg) as (_ & _ & Hl).
  destruct (ri_tomb it); cbn [negb finish_with dec_pending rout rs_pending rs_tombs rs_items]; lia.
Qed.

Lemma finish_entomb_P id r : PInv r -> PInv (finish_with (r_entomb id r)).
Proof.
  intros HP. pose proof (r_entomb_T id r (proj1 HP)) as HT'.
  split; [apply finish_with_T; exact HT'|]. clear HT'.
  unfold r_entomb. destruct (rs_maxtombs r <? rs_tombs r).
  - exact (proj2 (finish_delete_P id r HP)).
  - destruct HP as [HT Hsum]. destruct (get_item id (rs_items r)) as [it|] eqn:Hg; [|exact Hsum].
    destruct (ri_tomb it); [exact Hsum|].
    cbn [finish_with dec_pending rout rs_pending rs_tombs rs_items]. rewrite set_item_length. lia.
Qed.

Lemma r_stop_P id r : PInv r -> PInv (r_stop id r).
Proof.
  intros [[Hnd Hc] Hsum]. unfold r_stop. destruct (get_item id (rs_items r)) as [it|] eqn:Hg; [|repeat split; assumption].
  split; [split|]; cbn [with_items rs_items rs_tombs rs_pending].
  - rewrite set_item_fst. exact Hnd.
  - rewrite (set_item_ntombs _ _ _ _ Hg). cbn [ri_tomb]. lia.
  - rewrite set_item_length. exact Hsum.
Qed.

Lemma r_delete_tomb_P id r : PInv r -> PInv (r_delete_tomb id r).
Proof.
  intros HP. unfold r_delete_tomb. destruct (get_item id (rs_items r)) as [it|] eqn:Hg; [|exact HP].
  destruct (ri_tomb it) eqn:Ht; [|exact HP]. destruct HP as [HT Hsum].
  split; [apply r_delete_T; exact HT|].
  unfold r_delete. rewrite Hg, Ht. destruct HT as [Hnd _]. destruct (del_item_spec _ _ _ Hnd Hg) as (_ & _ & Hl).
  cbn [snd rs_pending rs_tombs rs_items]. lia.
Qed.

Lemma PInv_step s l s' : PInv (hs_r s) -> hstep s l = Some s' -> PInv (hs_r s').
Proof.
  intros HP Hs. destruct l as [id0|id0|id0|id0|id0 fin|t i|id0|t|t]; cbn [hstep] in Hs.
  (* the map's own steps: keys and tombstones by TInv_step, the sum label by label *)
  1-3: unfold lift_r in Hs; destruct (rstep (hs_r s) _) as [r'|] eqn:Hr; [|discriminate]; injection Hs as <-; cbn [hs_r];
       split; [exact (TInv_step _ _ _ (proj1 HP) Hr)|]; destruct HP as [HT Hsum]; cbn [rstep] in Hr.
  - destruct (get_item id0 (rs_items (hs_r s))); [discriminate|]. injection Hr as <-.
    cbn [rs_items rs_tombs rs_pending length]. lia.
  - destruct (get_item id0 (rs_items (hs_r s))) as [it0|]; [|discriminate].
    destruct (ri_timer it0 =? 0); [|discriminate]. injection Hr as <-.
    cbn [rs_items rs_tombs rs_pending]. rewrite set_item_length. exact Hsum.
  - destruct (has id0 (rs_firing (hs_r s))); [|discriminate]. injection Hr as <-.
    exact (proj2 (finish_entomb_P id0 (drop_firing id0 (hs_r s)) (conj HT Hsum))).
  - destruct (has id0 (rs_gc (hs_r s))); [|discriminate]. injection Hs as <-. cbn [hs_r].
    apply r_delete_tomb_P. exact HP.
  - destruct (get_item id0 (rs_items (hs_r s))); injection Hs as <-; [|exact HP]. cbn [hs_r].
    destruct fin; [apply r_stop_P|]; exact HP.
  - destruct (get_ht s t) as [x|]; [|discriminate]. destruct (ht_pc x =? 0); [|discriminate].
    destruct (e_fail (tail_code x i)); [injection Hs as <-; exact HP|].
    destruct (e_finish (tail_code x i)); injection Hs as <-; cbn [set_ht hs_r]; [apply finish_delete_P|]; exact HP.
  - injection Hs as <-. exact HP.
  - destruct (get_ht s t) as [x|]; [|discriminate]. destruct (ht_pc x =? 1); [|discriminate].
    destruct (get_item (ht_id x) (rs_items (hs_r s))) as [it|]; [|injection Hs as <-; exact HP].
    destruct (snd (timer_stop (ri_timer it))); injection Hs as <-; cbn [set_ht hs_r]; apply r_stop_P; exact HP.
  - destruct (get_ht s t) as [x|]; [|discriminate]. destruct (ht_pc x =? 2); [|discriminate].
    injection Hs as <-. cbn [set_ht hs_r]. apply finish_entomb_P. exact HP.
Qed.

Lemma PInv_run ls s s' : PInv (hs_r s) -> hrun s ls = Some s' -> PInv (hs_r s').
Proof.
  exact (run_invariant _ _ (fun s => PInv (hs_r s)) (fun _ => eq_refl) (fun _ _ _ => eq_refl) PInv_step ls s s').
Qed.

Lemma PInv_init mt : PInv (rs_init mt).
Proof. split; [split; [constructor|reflexivity]|reflexivity]. Qed.

(* Main theorem: for every maxTombs and every history of a relay item map -- calls admitted,
   timers firing, collections running, frames of any kind arriving on either frame path in any
   interleaving, each path doing after its lookup what the code does (finish, fail, forward or
   swallow, as decided by nc_exit / rc_exit), failRelayItem called from anywhere -- once no timer
   is armed and every callback, collection and frame path has returned, the map holds no item
   and no tombstone, the tombstone counter is 0 and so is the pending counter. *)
Theorem relay_paths_drained : forall mt ls s,
  hrun (hs_init mt) ls = Some s -> hold_quiet s = true ->
  rs_items (hs_r s) = [] /\ rs_tombs (hs_r s) = 0 /\ rs_pending (hs_r s) = 0.
Proof.
  intros mt ls s Hr Hq.
  pose proof (HInv_run ls (hs_init mt) _ (Owned_init _ mt) Hr) as HI.
  pose proof (PInv_run ls (hs_init mt) _ (PInv_init mt) Hr) as [[_ Hc] Hsum].
  unfold hold_quiet in Hq. apply andb_true_iff in Hq as [Hq Hth]. apply andb_true_iff in Hq as [Hq Hfi].
  apply andb_true_iff in Hq as [Hti Hgc].
  assert (Hitems : rs_items (hs_r s) = []).
  { apply (Owned_quiet_empty _ _ HI (returned_hold_nothing _ Hth) Hti).
    - destruct (rs_gc (hs_r s)); [reflexivity|discriminate].
    - destruct (rs_firing (hs_r s)); [reflexivity|discriminate]. }
  rewrite Hitems in *. cbn [ntombs length] in *. repeat split; lia.
Qed.
