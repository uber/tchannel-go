(* Agreement of the REGENERATED message codecs (Gen/GenMessages.v, translated from
   messages.go / tracing.go / frame.go on every run, loops included) with the hand-written
   model Model/Messages.v.  Built on the typed-buffer agreement (Proofs/GenTypedBufP.v):
   the generated message code calls the generated buffer primitives. *)
From Coq Require Import ZArith List Bool Lia.
From Verif Require Import Base.Wrap Base.Bytes Base.GoSem Gen.GenConsts Gen.GenTypedBuf Gen.GenMessages
  Model.TypedBuf Model.Messages Proofs.C18RbufP Proofs.GenTypedBufP.
Import ListNotations.
Local Open Scope Z_scope.

Definition absSpan (s : Span) : span := mkSpan (Span_spanID s) (Span_parentID s) (Span_traceID s) (Span_flags s).
Definition absCallReq (m : callReq) : callreq :=
  mkCallReq (callReq_TimeToLive m) (absSpan (callReq_Tracing m)) (callReq_Service m) (callReq_Headers m).
Definition absCallRes (m : callRes) : callres :=
  mkCallRes (callRes_ResponseCode m) (absSpan (callRes_Tracing m)) (callRes_Headers m).
Definition absError (m : errorMessage) : errmsg :=
  mkErr (errorMessage_errCode m) (absSpan (errorMessage_tracing m)) (errorMessage_message m).
Definition absCancel (m : cancelMessage) : cancelmsg :=
  mkCancel (cancelMessage_ttl m) (absSpan (cancelMessage_tracing m)) (cancelMessage_message m).
Definition absInit (m : initMessage) : initmsg := mkInit (initMessage_Version m) (initMessage_initParams m).
Definition absFH (h : FrameHeader) : fheader :=
  mkFH (FrameHeader_size h) (FrameHeader_messageType h) (FrameHeader_reserved1 h) (FrameHeader_ID h).

(* ================= writers ================= *)
(* a generated write method returning (w.Err(), w): no panic, well-formed, the view of the
   new buffer is the model writer applied to the view of the old one, and the returned error
   is the buffer's error *)
Definition stepWE (gen : option (Z * WriteBuffer)) (g : WriteBuffer) (m : wbuf -> wbuf) : Prop :=
  exists e g', gen = Some (e, g') /\ wfW g' /\ absW g' = m (absW g) /\ abs_werr e = werr (absW g').

Lemma stepW_err g' : wfW g' -> exists e, WriteBuffer_Err g' = Some e /\ abs_werr e = werr (absW g').
Proof. intros _. eexists. split; reflexivity. Qed.

(* sequencing: the generated code is a chain of `match call with None => None | Some w => rest`, the
   model the same chain of `>>`; a write method ends with `return w.Err()` and its caller drops the
   error it returns *)
Lemma stepW_last o g m : stepW o g m -> stepW (match o with None => None | Some w => Some w end) g m.
Proof. intros (w & -> & H). exists w. auto. Qed.

Lemma stepWE_last o g m : stepW o g m ->
  stepWE (match o with None => None | Some w =>
          match WriteBuffer_Err w with None => None | Some e => Some (e, w) end end) g m.
Proof. intros (w & -> & W & A). exists (WriteBuffer_err w), w. auto. Qed.

Lemma stepWE_bind o g m1 k m2 : stepW o g m1 -> (forall w, wfW w -> stepWE (k w) w m2) ->
  stepWE (match o with None => None | Some w => k w end) g (m1 >> m2).
Proof.
  intros (w1 & -> & W1 & A1) Hk. destruct (Hk w1 W1) as (e & w2 & E2 & W2 & A2 & He).
  exists e, w2. unfold seqW. rewrite <- A1. auto.
Qed.

Lemma stepWE_bindE o g m1 k m2 : stepWE o g m1 -> (forall w, wfW w -> stepWE (k w) w m2) ->
  stepWE (match o with None => None | Some (_, w) => k w end) g (m1 >> m2).
Proof.
  intros (e1 & w1 & -> & W1 & A1 & _) Hk. destruct (Hk w1 W1) as (e & w2 & E2 & W2 & A2 & He).
  exists e, w2. unfold seqW. rewrite <- A1. auto.
Qed.

Lemma Span_write_agrees s g : wfW g -> 0 <= Span_flags s < 256 ->
  stepWE (Span_write s g) g (w_span (absSpan s)).
Proof.
  intros W Hf. unfold Span_write.
  apply stepWE_bind; [apply WriteUint64_agrees, W|intros w1 W1].
  apply stepWE_bind; [apply WriteUint64_agrees, W1|intros w2 W2].
  apply stepWE_bind; [apply WriteUint64_agrees, W2|intros w3 W3].
  apply stepWE_last, WriteSingleByte_agrees; assumption.
Qed.

Lemma go_range_stepW {K V : Type} (h : list (K * V)) (f : K -> V -> WriteBuffer -> option WriteBuffer)
      (one : K * V -> wbuf -> wbuf) (all : list (K * V) -> wbuf -> wbuf) :
  all [] = w_nop -> (forall kv r, all (kv :: r) = one kv >> all r) ->
  (forall k v w, wfW w -> stepW (f k v w) w (one (k, v))) ->
  forall g, wfW g -> stepW (go_range h f g) g (all h).
Proof.
  intros Hn Hc Hf. induction h as [|[k v] h IH]; intros g W.
  - rewrite Hn. apply stepW_ret, W.
  - rewrite Hc. exact (stepW_bind _ g _ _ _ (Hf k v g W) IH).
Qed.

Lemma kv_write_agrees (wr : WriteBuffer -> list Z -> option WriteBuffer) (mstr : list Z -> wbuf -> wbuf) k v w :
  (forall w s, wfW w -> stepW (wr w s) w (mstr s)) -> wfW w ->
  stepW (match wr w k with None => None | Some w1 => match wr w1 v with None => None | Some w2 => Some w2 end end) w
        (mstr k >> mstr v).
Proof. intros Hwr W. apply stepW_bind; [apply Hwr, W|intros w1 W1]. apply stepW_last, Hwr, W1. Qed.

Lemma transportHeaders_write_agrees h g : wfW g -> stepW (transportHeaders_write h g) g (w_headers h).
Proof.
  intros W. unfold transportHeaders_write, w_headers.
  apply stepW_bind; [apply WriteByte_agrees, W|intros w1 W1]. apply stepW_last.
  apply (go_range_stepW h _ w_kv8 w_kv8s eq_refl (fun _ _ => eq_refl)); [|exact W1].
  intros k v w Ww. exact (kv_write_agrees _ w_len8 k v w WriteLen8String_agrees Ww).
Qed.

Lemma wrapU32_wrapS64 x : wrapU 32 (wrapS 64 x) = wrapU 32 x.
Proof.
  unfold wrapU, wrapS. change (2 ^ (64 - 1)) with (2 ^ 63).
  pose proof (Z.div_mod (x + 2 ^ 63) (2 ^ 64) ltac:(lia)) as D.
  replace ((x + 2 ^ 63) mod 2 ^ 64 - 2 ^ 63) with (x + (- ((x + 2 ^ 63) / 2 ^ 64) * 2 ^ 32) * 2 ^ 32).
  - apply Z.mod_add. lia.
  - set (q := (x + 2 ^ 63) / 2 ^ 64) in *. set (r := (x + 2 ^ 63) mod 2 ^ 64) in *.
    change (2 ^ 64) with 18446744073709551616 in *. change (2 ^ 63) with 9223372036854775808 in *.
    change (2 ^ 32) with 4294967296 in *. lia.
Qed.

Lemma callReq_write_agrees m g : wfW g -> 0 <= Span_flags (callReq_Tracing m) < 256 ->
  stepWE (callReq_write m g) g (w_callreq (absCallReq m)).
Proof.
  intros W Hf. unfold callReq_write, w_callreq.
  apply stepWE_bind; [rewrite wrapU32_wrapS64; apply WriteUint32_agrees, W|intros w1 W1].
  apply stepWE_bindE; [apply Span_write_agrees; assumption|intros w2 W2].
  apply stepWE_bind; [apply WriteLen8String_agrees, W2|intros w3 W3].
  apply stepWE_last, transportHeaders_write_agrees, W3.
Qed.

Lemma callRes_write_agrees m g : wfW g -> 0 <= Span_flags (callRes_Tracing m) < 256 ->
  stepWE (callRes_write m g) g (w_callres (absCallRes m)).
Proof.
  intros W Hf. unfold callRes_write.
  apply stepWE_bind; [apply WriteByte_agrees, W|intros w1 W1].
  apply stepWE_bindE; [apply Span_write_agrees; assumption|intros w2 W2].
  apply stepWE_last, transportHeaders_write_agrees, W2.
Qed.

Lemma errorMessage_write_agrees m g : wfW g -> 0 <= Span_flags (errorMessage_tracing m) < 256 ->
  stepWE (errorMessage_write m g) g (w_error (absError m)).
Proof.
  intros W Hf. unfold errorMessage_write.
  apply stepWE_bind; [apply WriteByte_agrees, W|intros w1 W1].
  apply stepWE_bindE; [apply Span_write_agrees; assumption|intros w2 W2].
  apply stepWE_last, WriteLen16String_agrees, W2.
Qed.

Lemma cancelMessage_write_agrees m g : wfW g -> 0 <= Span_flags (cancelMessage_tracing m) < 256 ->
  stepWE (cancelMessage_write m g) g (w_cancel (absCancel m)).
Proof.
  intros W Hf. unfold cancelMessage_write.
  apply stepWE_bind; [apply WriteUint32_agrees, W|intros w1 W1].
  apply stepWE_bindE; [apply Span_write_agrees; assumption|intros w2 W2].
  apply stepWE_last, WriteLen16String_agrees, W2.
Qed.

Lemma initMessage_write_agrees m g : wfW g -> stepWE (initMessage_write m g) g (w_init (absInit m)).
Proof.
  intros W. unfold initMessage_write, w_init. cbn [absInit im_version im_params].
  apply stepWE_bind; [apply WriteUint16_agrees, W|intros w1 W1].
  apply stepWE_bind; [rewrite <- w_u16_wrap; apply WriteUint16_agrees, W1|intros w2 W2]. apply stepWE_last.
  apply (go_range_stepW _ _ w_kv16 w_kv16s eq_refl (fun _ _ => eq_refl)); [|exact W2].
  intros k v w Ww. exact (kv_write_agrees _ w_len16 k v w WriteLen16String_agrees Ww).
Qed.

(* FrameHeader.write emits fh.reserved; nothing in the library assigns that field (read
   discards the eight bytes), so it is the zero array: explicit hypothesis *)
Lemma FrameHeader_write_agrees h g : wfW g -> 0 <= FrameHeader_reserved1 h < 256 ->
  FrameHeader_reserved h = repeat 0 8 ->
  stepWE (FrameHeader_write h g) g (w_fheader (absFH h)).
Proof.
  intros W Hr Hz. unfold FrameHeader_write. rewrite Hz.
  apply stepWE_bind; [apply WriteUint16_agrees, W|intros w1 W1].
  apply stepWE_bind; [apply WriteByte_agrees, W1|intros w2 W2].
  apply stepWE_bind; [apply WriteSingleByte_agrees; assumption|intros w3 W3].
  apply stepWE_bind; [apply WriteUint32_agrees, W3|intros w4 W4].
  change (str_slice (repeat 0 8) 0 (zlen (repeat 0 8))) with (Some (repeat 0 8)). cbn iota beta.
  apply stepWE_last, (WriteBytes_agrees w4 (Some (repeat 0 8))), W4.
Qed.

(* ================= readers ================= *)
(* the unread bytes are bytes (Go typing of []byte); kept by every read *)
Definition bokR (g : ReadBuffer) : Prop := bytes_ok (bs_list (ReadBuffer_remaining g)) = true.

Lemma pair_eq {A B} (p : A * B) a b : a = fst p -> b = snd p -> (a, b) = p.
Proof. intros -> ->. destruct p; reflexivity. Qed.

(* from the view of a buffer primitive to the form the message readers are chained in *)
Lemma rd_step {A B} (f : A -> B) gen g (m : rbuf -> B * rbuf) :
  viewR f gen = Some (m (absR g)) -> bytes_ok (rrem (snd (m (absR g)))) = true ->
  exists a g', gen = Some (a, g') /\ (f a, absR g') = m (absR g) /\ bokR g'.
Proof.
  intros H B'. apply viewR_some in H as (a & g' & E & V & S). exists a, g'. split; [exact E|].
  split; [apply pair_eq; assumption|]. unfold bokR. change (bs_list (ReadBuffer_remaining g')) with (rrem (absR g')).
  rewrite S. exact B'.
Qed.

Lemma rd_uint_step k gen g : viewR (fun v : Z => v) gen = Some (r_uint k (absR g)) -> bokR g ->
  exists v g', gen = Some (v, g') /\ (v, absR g') = r_uint k (absR g) /\ bokR g' /\ 0 <= v < 256 ^ Z.of_nat k.
Proof.
  intros H B. destruct (rd_step _ _ _ _ H (bok_r_uint k (absR g) B)) as (v & g' & E & M & B').
  pose proof (r_uint_range k (absR g) B) as R. rewrite <- M in R. exists v, g'. auto.
Qed.

Lemma rd_u8 g : bokR g -> exists v g', ReadBuffer_ReadSingleByte g = Some (v, g') /\ (v, absR g') = r_u8 (absR g) /\ bokR g' /\ 0 <= v < 256.
Proof. intros B. exact (rd_uint_step 1 _ g (ReadSingleByte_agrees g) B). Qed.
Lemma rd_u16 g : bokR g -> exists v g', ReadBuffer_ReadUint16 g = Some (v, g') /\ (v, absR g') = r_u16 (absR g) /\ bokR g' /\ 0 <= v < 65536.
Proof. intros B. exact (rd_uint_step 2 _ g (ReadUint16_agrees g) B). Qed.
Lemma rd_u32 g : bokR g -> exists v g', ReadBuffer_ReadUint32 g = Some (v, g') /\ (v, absR g') = r_u32 (absR g) /\ bokR g' /\ 0 <= v < 2 ^ 32.
Proof. intros B. exact (rd_uint_step 4 _ g (ReadUint32_agrees g) B). Qed.
Lemma rd_u64 g : bokR g -> exists v g', ReadBuffer_ReadUint64 g = Some (v, g') /\ (v, absR g') = r_u64 (absR g) /\ bokR g' /\ 0 <= v < 2 ^ 64.
Proof. intros B. exact (rd_uint_step 8 _ g (ReadUint64_agrees g) B). Qed.

Lemma rd_len8 g : bokR g -> exists s g', ReadBuffer_ReadLen8String g = Some (s, g') /\ (s, absR g') = r_len8 (absR g) /\ bokR g'.
Proof. intros B. exact (rd_step _ _ g r_len8 (ReadLen8String_agrees g B) (bok_r_len 1 (absR g) B)). Qed.
Lemma rd_len16 g : bokR g -> exists s g', ReadBuffer_ReadLen16String g = Some (s, g') /\ (s, absR g') = r_len16 (absR g) /\ bokR g'.
Proof. intros B. exact (rd_step _ _ g r_len16 (ReadLen16String_agrees g B) (bok_r_len 2 (absR g) B)). Qed.

Lemma rd_bytes g n : bokR g -> 0 <= n ->
  exists b g', ReadBuffer_ReadBytes g n = Some (b, g') /\ (bs_list b, absR g') = r_bytes (Z.to_nat n) (absR g) /\ bokR g'.
Proof. intros B Hn. exact (rd_step _ _ g _ (ReadBytes_agrees g n Hn) (bok_r_bytes _ (absR g) B)). Qed.

(* result of a generated read method (r.Err(), message, buffer) against the model reader *)
Definition stepRE {M A} (abs : M -> A) (gen : option (Z * M * ReadBuffer)) (g : ReadBuffer) (m : rbuf -> A * rbuf) : Prop :=
  exists e x g', gen = Some (e, x, g') /\ (abs x, absR g') = m (absR g) /\ bokR g' /\
                 negb (e =? 0) = rerr (absR g').

Lemma Span_read_agrees s g : bokR g -> stepRE absSpan (Span_read s g) g r_span.
Proof.
  intros B. unfold Span_read, stepRE, r_span, bindR, retR.
  destruct (rd_u64 g B) as (v1 & g1 & E1 & M1 & B1 & _). rewrite E1, <- M1.
  destruct (rd_u64 g1 B1) as (v2 & g2 & E2 & M2 & B2 & _). rewrite E2, <- M2.
  destruct (rd_u64 g2 B2) as (v3 & g3 & E3 & M3 & B3 & _). rewrite E3, <- M3.
  destruct (rd_u8 g3 B3) as (v4 & g4 & E4 & M4 & B4 & _). rewrite E4, <- M4.
  cbn. eexists _, _, g4. split; [reflexivity|]. split; [reflexivity|]. split; [exact B4|reflexivity].
Qed.

Lemma go_for_kvs {St : Type} (rd : ReadBuffer -> option (list Z * ReadBuffer)) (mrd : rbuf -> list Z * rbuf)
      (mkvs : nat -> rbuf -> kvs * rbuf) (add : St -> list Z * list Z -> St)
      (body : Z -> ReadBuffer * St -> option (ReadBuffer * St)) :
  (forall g, bokR g -> exists s g', rd g = Some (s, g') /\ (s, absR g') = mrd (absR g) /\ bokR g') ->
  (forall r, mkvs O r = ([], r)) ->
  (forall n r, mkvs (S n) r = (k <- mrd ;; v <- mrd ;; rest <- mkvs n ;; retR ((k, v) :: rest)) r) ->
  (forall i g st, body i (g, st) =
     match rd g with None => None | Some (k, g1) =>
       match rd g1 with None => None | Some (v, g2) => Some (g2, add st (k, v)) end end) ->
  forall n i g st, bokR g ->
    exists g', go_for_nat n i body (g, st) = Some (g', fold_left add (fst (mkvs n (absR g))) st) /\
               absR g' = snd (mkvs n (absR g)) /\ bokR g'.
Proof.
  intros Hrd H0 HS Hb. induction n as [|n IH]; intros i g st B.
  - exists g. rewrite H0. cbn. auto.
  - cbn [go_for_nat]. rewrite Hb, HS. unfold bindR, retR.
    destruct (Hrd g B) as (k & g1 & E1 & M1 & B1). rewrite E1, <- M1.
    destruct (Hrd g1 B1) as (v & g2 & E2 & M2 & B2). rewrite E2, <- M2.
    destruct (IH (i + 1) g2 (add st (k, v)) B2) as (g3 & E3 & A3 & B3). rewrite E3.
    exists g3. destruct (mkvs n (absR g2)) as [rest r3]. cbn in *. auto.
Qed.

Lemma fold_left_snoc (l ch : kvs) : fold_left (fun c kv => c ++ [kv]) l ch = ch ++ l.
Proof.
  revert ch. induction l as [|x l IH]; intros ch; cbn; [rewrite app_nil_r; reflexivity|].
  rewrite IH, <- app_assoc. reflexivity.
Qed.

Lemma transportHeaders_read_agrees ch g : bokR g ->
  exists h g', transportHeaders_read ch g = Some (ch ++ h, g') /\ (h, absR g') = r_headers (absR g) /\ bokR g'.
Proof.
  intros B. unfold transportHeaders_read, r_headers, bindR.
  destruct (rd_u8 g B) as (n & g1 & E1 & M1 & B1 & Rn). rewrite E1, <- M1.
  rewrite wrapS_id by (cbn; lia). unfold go_for.
  match goal with |- context [go_for_nat _ 0 ?f (g1, ch)] =>
    destruct (go_for_kvs ReadBuffer_ReadLen8String r_len8 r_kv8s (fun c kv => c ++ [kv]) f rd_len8
                (fun _ => eq_refl) (fun _ _ => eq_refl) (fun _ _ _ => eq_refl) (Z.to_nat n) 0 g1 ch B1) as (g2 & E2 & A2 & B2)
  end.
  rewrite E2. rewrite fold_left_snoc. eexists _, g2. split; [reflexivity|]. split; [|exact B2].
  apply pair_eq; [reflexivity|exact A2].
Qed.

Lemma callReq_read_agrees m g : bokR g -> stepRE absCallReq (callReq_read m g) g r_callreq.
Proof.
  intros B. unfold callReq_read, stepRE, r_callreq, bindR, retR.
  destruct (rd_u32 g B) as (t & g1 & E1 & M1 & B1 & Rt). rewrite E1, <- M1.
  match goal with |- context [Span_read ?s g1] => destruct (Span_read_agrees s g1 B1) as (e2 & s2 & g2 & E2 & M2 & B2 & _) end.
  rewrite E2, <- M2.
  destruct (rd_len8 g2 B2) as (svc & g3 & E3 & M3 & B3). rewrite E3, <- M3.
  cbn [callReq_Headers set_callReq_Headers].
  destruct (transportHeaders_read_agrees [] g3 B3) as (h & g4 & E4 & M4 & B4). rewrite E4, <- M4.
  cbn. eexists _, _, g4. split; [reflexivity|]. split; [|split; [exact B4|reflexivity]].
  unfold absCallReq. cbn. rewrite (wrapS_id 64 t) by (cbn in *; lia). reflexivity.
Qed.

Lemma wrapU8_id v : 0 <= v < 256 -> wrapU 8 v = v.
Proof. intros H. apply wrapU_id; cbn; lia. Qed.

Lemma callRes_read_agrees m g : bokR g -> stepRE absCallRes (callRes_read m g) g r_callres.
Proof.
  intros B. unfold callRes_read, stepRE, r_callres, bindR, retR.
  destruct (rd_u8 g B) as (c & g1 & E1 & M1 & B1 & Rc). rewrite E1, <- M1.
  match goal with |- context [Span_read ?s g1] => destruct (Span_read_agrees s g1 B1) as (e2 & s2 & g2 & E2 & M2 & B2 & _) end.
  rewrite E2, <- M2.
  cbn [callRes_Headers set_callRes_Headers].
  destruct (transportHeaders_read_agrees [] g2 B2) as (h & g3 & E3 & M3 & B3). rewrite E3, <- M3.
  cbn. eexists _, _, g3. split; [reflexivity|]. split; [|split; [exact B3|reflexivity]].
  unfold absCallRes. cbn. rewrite wrapU8_id by exact Rc. reflexivity.
Qed.

Lemma errorMessage_read_agrees m g : bokR g -> stepRE absError (errorMessage_read m g) g r_error.
Proof.
  intros B. unfold errorMessage_read, stepRE, r_error, bindR, retR.
  destruct (rd_u8 g B) as (c & g1 & E1 & M1 & B1 & Rc). rewrite E1, <- M1.
  match goal with |- context [Span_read ?s g1] => destruct (Span_read_agrees s g1 B1) as (e2 & s2 & g2 & E2 & M2 & B2 & _) end.
  rewrite E2, <- M2.
  destruct (rd_len16 g2 B2) as (msg & g3 & E3 & M3 & B3). rewrite E3, <- M3.
  cbn. eexists _, _, g3. split; [reflexivity|]. split; [|split; [exact B3|reflexivity]].
  unfold absError. cbn. rewrite wrapU8_id by exact Rc. reflexivity.
Qed.

Lemma cancelMessage_read_agrees m g : bokR g -> stepRE absCancel (cancelMessage_read m g) g r_cancel.
Proof.
  intros B. unfold cancelMessage_read, stepRE, r_cancel, bindR, retR.
  destruct (rd_u32 g B) as (t & g1 & E1 & M1 & B1 & Rt). rewrite E1, <- M1.
  match goal with |- context [Span_read ?s g1] => destruct (Span_read_agrees s g1 B1) as (e2 & s2 & g2 & E2 & M2 & B2 & _) end.
  rewrite E2, <- M2.
  destruct (rd_len16 g2 B2) as (msg & g3 & E3 & M3 & B3). rewrite E3, <- M3.
  cbn. eexists _, _, g3. split; [reflexivity|]. split; [|split; [exact B3|reflexivity]]. reflexivity.
Qed.

Lemma fold_init_params l m :
  absInit (fold_left (fun m0 kv => set_initMessage_initParams (initMessage_initParams m0 ++ [kv]) m0) l m)
    = mkInit (initMessage_Version m) (initMessage_initParams m ++ l).
Proof.
  revert m. induction l as [|x l IH]; intros m; cbn [fold_left].
  - rewrite app_nil_r. reflexivity.
  - rewrite IH. cbn. rewrite <- app_assoc. reflexivity.
Qed.

Lemma initMessage_read_agrees m g : bokR g -> stepRE absInit (initMessage_read m g) g r_init.
Proof.
  intros B. unfold initMessage_read, stepRE, r_init, bindR, retR.
  destruct (rd_u16 g B) as (ver & g1 & E1 & M1 & B1 & Rv). rewrite E1, <- M1.
  destruct (rd_u16 g1 B1) as (np & g2 & E2 & M2 & B2 & Rn). rewrite E2, <- M2.
  rewrite wrapS_id by (cbn; lia). unfold go_for.
  match goal with |- context [go_for_nat _ 0 ?f (g2, ?m0)] =>
    destruct (go_for_kvs ReadBuffer_ReadLen16String r_len16 r_kv16s
                (fun mm kv => set_initMessage_initParams (initMessage_initParams mm ++ [kv]) mm) f rd_len16
                (fun _ => eq_refl) (fun _ _ => eq_refl) (fun _ _ _ => eq_refl) (Z.to_nat np) 0 g2 m0 B2) as (g3 & E3 & A3 & B3)
  end.
  rewrite E3. cbn. eexists _, _, g3. split; [reflexivity|]. split; [|split; [exact B3|reflexivity]].
  rewrite fold_init_params. destruct (r_kv16s (Z.to_nat np) (absR g2)) as [ps r3]. cbn in A3 |- *. rewrite A3. reflexivity.
Qed.

(* FrameHeader.read: the eight reserved bytes are consumed and dropped (fh.reserved keeps its
   old value) *)
Lemma FrameHeader_read_agrees h g : bokR g -> stepRE absFH (FrameHeader_read h g) g r_fheader.
Proof.
  intros B. unfold FrameHeader_read, stepRE, r_fheader, bindR, retR.
  destruct (rd_u16 g B) as (sz & g1 & E1 & M1 & B1 & _). rewrite E1, <- M1.
  destruct (rd_u8 g1 B1) as (t & g2 & E2 & M2 & B2 & Rt). rewrite E2, <- M2.
  destruct (rd_u8 g2 B2) as (r1 & g3 & E3 & M3 & B3 & _). rewrite E3, <- M3.
  destruct (rd_u32 g3 B3) as (id & g4 & E4 & M4 & B4 & _). rewrite E4, <- M4.
  pose proof (ReadBytes_agrees g4 8 ltac:(lia)) as H5. apply viewR_some in H5 as (b & g5 & E5 & V5 & S5).
  rewrite E5. change (Z.to_nat 8) with 8%nat in *.
  assert (B5 : bokR g5).
  { unfold bokR. change (bs_list (ReadBuffer_remaining g5)) with (rrem (absR g5)). rewrite S5. apply bok_r_bytes, B4. }
  destruct (r_bytes 8 (absR g4)) as [b' r5]. cbn in V5, S5. subst r5.
  cbn. eexists _, _, g5. split; [reflexivity|]. split; [|split; [exact B5|reflexivity]].
  unfold absFH. cbn. rewrite wrapU8_id by exact Rt. reflexivity.
Qed.

Lemma FrameHeader_read_keeps_reserved h g e h' g' : FrameHeader_read h g = Some (e, h', g') ->
  FrameHeader_reserved h' = FrameHeader_reserved h.
Proof.
  unfold FrameHeader_read. intros H.
  repeat match type of H with
         | match ?x with Some _ => _ | None => _ end = _ => destruct x as [[? ?]|]; [|discriminate]
         end.
  cbn in H. inversion H; subst. reflexivity.
Qed.

Lemma nobody_agrees : (forall x r, noBodyMsg_read x r = Some 0) /\ (forall x w, noBodyMsg_write x w = Some 0) /\
  (forall c r, callResContinue_read c r = Some 0) /\ (forall c w, callResContinue_write c w = Some 0).
Proof. repeat split. Qed.
