(* History-level health theorems on the whole system (Model/IdleHealthSys.v): what the health
   checker of a connection does at a ping outcome, in terms of the pings THE HISTORY shows
   (Spec/IdleHealthHist.v), for every interleaving of sweeps, frames, calls, closes and pings
   over any number of connections; non-interference of ping traffic. *)
From Coq Require Import ZArith List Bool Lia.
From Verif Require Import Base.Wrap Gen.GenConsts Gen.GenFrame Gen.GenHealthIdle
  Spec.IdleHealthSpec Spec.IdleHealthHist Model.Health Model.Idle Model.IdleHealthSys Proofs.IdleP Proofs.HealthP.
Import ListNotations.
Local Open Scope Z_scope.

(* transformations of a connection that do not involve its health goroutine, except that
   reaching Closed makes the goroutine exit *)
Definition passive (c c' : conn) : Prop :=
  k_health c' = k_health c /\
  (is_active c' = true -> is_active c = true) /\
  (k_stopped c' = k_stopped c) /\
  (k_state c = c_connectionClosed -> k_state c' = c_connectionClosed) /\
  (k_hstatus c' = k_hstatus c \/ (k_hstatus c' = 3 /\ is_active c' = false /\ k_hstatus c <> 0)).

Lemma passive_refl c : passive c c.
Proof. unfold passive. repeat split; auto. Qed.

Lemma passive_trans c1 c2 c3 : passive c1 c2 -> passive c2 c3 -> passive c1 c3.
Proof.
  intros (H1 & A1 & S1 & C1 & T1) (H2 & A2 & S2 & C2 & T2). unfold passive.
  split; [congruence|]. split; [auto|]. split; [congruence|]. split; [auto|].
  destruct T2 as [E2|(E2 & N2 & Z2)].
  - rewrite E2. destruct T1 as [E1|(E1 & N1 & Z1)]; [auto|right].
    split; [exact E1|]. split; [|exact Z1].
    destruct (is_active c3) eqn:E; [|reflexivity]. rewrite A2 in N1 by reflexivity. discriminate.
  - right. split; [exact E2|]. split; [exact N2|].
    destruct T1 as [E1|(E1 & N1 & Z1)]; congruence.
Qed.

Lemma passive_same c c' : k_health c' = k_health c -> k_hstatus c' = k_hstatus c ->
  k_stopped c' = k_stopped c -> k_state c' = k_state c -> passive c c'.
Proof. intros Hh Ht Hs Hc. unfold passive, is_active. rewrite Hh, Ht, Hs, Hc. repeat split; auto. Qed.

Lemma passive_check c : passive c (check_exchanges c).
Proof.
  unfold passive. split; [apply k_health_check|]. unfold check_exchanges, is_active.
  destruct (Z.eqb_spec (check_exchanges_state c) c_connectionClosed) as [Hc|Hc];
    [destruct (Z.eqb_spec (k_state c) c_connectionClosed) as [Hk|Hk]|]; cbn [negb andb].
  1,3: cbn [set_state k_state k_hstatus k_stopped];
    (split; [|split; [reflexivity|split; [apply ces_closed_stays|left; reflexivity]]]);
    intros H; apply Z.eqb_eq; destruct (Z.eq_dec (k_state c) c_connectionActive) as [E|E]; [exact E|];
    apply Z.eqb_eq in H; elim (ces_not_active c E H).
  (* the connection becomes Closed here: the goroutine, if there is one, exits *)
  cbn [set_tracked_h set_state k_state k_hstatus k_stopped]. rewrite Hc.
  split; [discriminate|]. split; [reflexivity|]. split; [reflexivity|].
  destruct (Z.eqb_spec (k_hstatus c) 0) as [E0|E0]; [left; symmetry; exact E0|right; auto].
Qed.

Lemma passive_close c : passive c (conn_close c).
Proof.
  unfold conn_close. destruct (k_state c =? c_connectionActive) eqn:E; [|apply passive_refl].
  eapply passive_trans; [|apply passive_check]. apply Z.eqb_eq in E.
  unfold passive, is_active. cbn [set_state k_health k_hstatus k_stopped k_state]. rewrite E.
  split; [reflexivity|]. split; [reflexivity|]. split; [reflexivity|]. split; [discriminate|left; reflexivity].
Qed.

Lemma passive_set_counts a b p r c : passive c (set_counts a b p r c).
Proof. apply passive_same; reflexivity. Qed.

Lemma passive_pend w d c : passive c (pend w d c).
Proof.
  destruct (pend_shape w d c) as (a & b & r & [-> | [-> | ->]]);
    [apply passive_refl|apply passive_set_counts|].
  eapply passive_trans; [apply passive_set_counts|apply passive_check].
Qed.

Lemma passive_update_read now mt c : passive c (update_read now mt c).
Proof. unfold update_read. destruct (isMessageTypeCall mt); [apply passive_same; reflexivity|apply passive_refl]. Qed.
Lemma passive_update_write now mt c : passive c (update_write now mt c).
Proof. unfold update_write. destruct (isMessageTypeCall mt); [apply passive_same; reflexivity|apply passive_refl]. Qed.

Lemma passive_close_if_ok c : passive c (close_if_ok c).
Proof.
  unfold close_if_ok. destruct (negb (is_active c)); [apply passive_refl|].
  destruct (has_pending_calls c); [apply passive_refl|apply passive_close].
Qed.

Definition loop_sync (F : Z) (outs : list outcome) (c : conn) : Prop :=
  health_loop F outs 0 hl_init = (k_health c, None) /\ hl_running (k_health c) = true.

(* the four states of the goroutine (k_hstatus) and what the ping log says in each: while it is
   alive its loop state is the loop run over the outcomes so far and the in-flight flags agree;
   once it has exited on a connection that is still Active it has seen a stop outcome *)
Inductive hview (F : Z) (p : plog) (c : conn) : Prop :=
| hv_none : k_hstatus c = 0 -> hview F p c
| hv_wait : k_hstatus c = 1 -> pl_inflight p = false -> loop_sync F (pl_outs p) c -> hview F p c
| hv_ping : k_hstatus c = 2 -> pl_inflight p = true -> loop_sync F (pl_outs p) c -> hview F p c
| hv_gone : k_hstatus c = 3 -> (is_active c = true -> In PStop (pl_outs p)) -> hview F p c.

Definition hinv (cf : config) (p : plog) (c : conn) : Prop :=
  pl_created p = true /\
  (k_stopped c = true -> k_state c = c_connectionClosed) /\
  ho_enabled (cf_health cf) = negb (k_hstatus c =? 0) /\
  hview (ho_failures (cf_health cf)) p c.

Lemma hinv_passive cf p c c' : passive c c' -> hinv cf p c -> hinv cf p c'.
Proof.
  intros (Hh & Ha & Hs & Hc & Ht) (I1 & I2 & I3 & V).
  split; [exact I1|]. split; [rewrite Hs; auto|].
  destruct Ht as [Ht|(Ht & Hn & Hz)].
  - rewrite Ht. split; [exact I3|].
    destruct V as [E|E Hf L|E Hf L|E G];
      [apply hv_none|apply hv_wait|apply hv_ping|apply hv_gone]; unfold loop_sync; rewrite ?Ht, ?Hh; auto.
  - apply Z.eqb_neq in Hz. rewrite Ht, I3, Hz. split; [reflexivity|].
    apply hv_gone; [exact Ht|congruence].
Qed.

Lemma health_loop_snoc F o : forall outs i l l1,
  health_loop F outs i l = (l1, None) -> hl_running l1 = true ->
  health_loop F (outs ++ [o]) i l =
    (fst (health_iter F o l1), if snd (health_iter F o l1) then Some (i + length outs)%nat else None).
Proof.
  induction outs as [|o1 r IH]; intros i l l1 H Hr; cbn [app health_loop length] in *.
  - injection H as <-. rewrite Hr, Nat.add_0_r. destruct (health_iter F o l) as [l' []]; reflexivity.
  - destruct (hl_running l) eqn:R; [|congruence].
    destruct (health_iter F o1 l) as [l' []]; [discriminate|].
    rewrite (IH (S i) l' l1 H Hr), Nat.add_succ_comm. reflexivity.
Qed.

Lemma hinv_new cf now rl :
  hinv cf {| pl_created := true; pl_inflight := false; pl_outs := [] |} (new_conn now rl (ho_enabled (cf_health cf))).
Proof.
  unfold hinv, new_conn. cbn [k_hstatus k_stopped pl_created].
  split; [reflexivity|]. split; [discriminate|].
  destruct (ho_enabled (cf_health cf)); (split; [reflexivity|]);
    [apply hv_wait; [| |split]|apply hv_none]; reflexivity.
Qed.

Lemma hinv_gone cf p p' c : k_hstatus c <> 1 -> k_hstatus c <> 2 ->
  pl_created p' = true -> incl (pl_outs p) (pl_outs p') -> hinv cf p c -> hinv cf p' c.
Proof.
  intros N1 N2 Hc Hin (I1 & I2 & I3 & V). split; [exact Hc|]. split; [exact I2|]. split; [exact I3|].
  destruct V as [E|E _ _|E _ _|E G]; [apply hv_none; exact E|contradiction|contradiction|].
  apply hv_gone; [exact E|]. intros A. apply Hin, G, A.
Qed.

Lemma ping_start_other F sent c : k_hstatus c <> 1 -> ping_start F sent c = c.
Proof. intros H. unfold ping_start. apply Z.eqb_neq in H. rewrite H. reflexivity. Qed.

Lemma ping_end_other F o c : k_hstatus c <> 2 -> ping_end F o c = c.
Proof. intros H. unfold ping_end. apply Z.eqb_neq in H. rewrite H. reflexivity. Qed.

Lemma hinv_ping_start cf id p c sent : conn_wf c -> hinv cf p c ->
  hinv cf (plog_step id p (EPingStart id sent)) (ping_start (ho_failures (cf_health cf)) sent c).
Proof.
  intros Hwf Hi. pose proof Hi as (I1 & I2 & I3 & V).
  cbn [plog_step]. rewrite Z.eqb_refl, I1. cbn [andb].
  assert (Hgone : k_hstatus c <> 1 -> k_hstatus c <> 2 ->
            hinv cf (if negb (pl_inflight p) && sent
                     then {| pl_created := true; pl_inflight := true; pl_outs := pl_outs p |} else p) c).
  { intros N1 N2. destruct (_ && _); [|exact Hi]. apply (hinv_gone cf p); auto using incl_refl. }
  destruct V as [E|E Hf [Hs Hr]|E Hf _|E G].
  - rewrite ping_start_other by congruence. apply Hgone; congruence.
  - rewrite Hf. cbn [negb andb]. destruct sent.
    + (* the ping is queued: the goroutine now waits for its end *)
      unfold ping_start. rewrite E. cbn [Z.eqb Pos.eqb negb].
      split; [reflexivity|]. split; [exact I2|]. split; [cbn [set_health k_hstatus]; rewrite I3, E; reflexivity|].
      apply hv_ping; [reflexivity|reflexivity|split; assumption].
    + (* it cannot be queued: connection error, Closed, the goroutine has exited *)
      destruct (ping_not_sent (ho_failures (cf_health cf)) c E Hwf) as (P1 & _ & P3 & _).
      split; [exact I1|]. split; [intros _; exact P1|]. split; [rewrite P3, I3, E; reflexivity|].
      apply hv_gone; [exact P3|]. rewrite (closed_not_active _ P1). discriminate.
  - rewrite ping_start_other by congruence. rewrite Hf. exact Hi.
  - rewrite ping_start_other by congruence. apply Hgone; congruence.
Qed.

Lemma health_iter_props F o l0 l closed : health_iter F o l0 = (l, closed) ->
  (closed = true -> hl_running l = false) /\ (hl_running l = false -> closed = false -> o = PStop).
Proof.
  intros Ei. destruct o; cbn [health_iter] in Ei; [|destruct (_ >=? _)|];
    injection Ei as <- <-; cbn [hl_running]; split; congruence.
Qed.

Lemma after_ping_props F o c1 l closed : health_iter F o (k_health c1) = (l, closed) ->
  let c' := after_ping F o c1 in
  k_health c' = l /\ k_stopped c' = k_stopped c1 /\
  (k_state c1 = c_connectionClosed -> k_state c' = c_connectionClosed) /\
  (k_hstatus c' = 1 /\ hl_running l = true /\ closed = false \/
   k_hstatus c' = 3 /\ (is_active c' = true -> o = PStop)).
Proof.
  intros Ei. cbv zeta. unfold after_ping. rewrite Ei.
  destruct (health_iter_props F o _ l closed Ei) as [Hrun Hstop].
  set (c1' := set_health (if hl_running l then 1 else 3) l c1).
  set (c2 := if closed then conn_close c1' else c1').
  assert (P2 : passive c1' c2) by (unfold c2; destruct closed; [apply passive_close|apply passive_refl]).
  destruct P2 as (Qh & _ & Qs & Qc & Qt).
  assert (Hc2 : k_hstatus c2 = 1 /\ hl_running l = true /\ closed = false \/
                k_hstatus c2 = 3 /\ (is_active c2 = true -> o = PStop)).
  { destruct Qt as [Qt|(Qt & Qn & _)]; [|right; split; [exact Qt|congruence]].
    rewrite Qt. cbn [c1' set_health k_hstatus]. destruct (hl_running l) eqn:R.
    - left. split; [reflexivity|]. split; [reflexivity|]. destruct closed; [discriminate (Hrun eq_refl)|reflexivity].
    - right. split; [reflexivity|]. intros A. apply Hstop; [reflexivity|].
      destruct closed; [|reflexivity]. unfold c2 in A. rewrite conn_close_not_active in A. discriminate A. }
  destruct (k_state c2 =? c_connectionClosed) eqn:Ec;
    cbn [set_health k_health k_stopped k_state k_hstatus]; rewrite ?Qh, ?Qs;
    (split; [reflexivity|]); (split; [reflexivity|]); (split; [exact Qc|]); [right|exact Hc2].
  split; [reflexivity|]. apply Z.eqb_eq in Ec. intros A. apply active_state in A. cbn [set_health k_state] in A.
  rewrite Ec in A. discriminate A.
Qed.

Lemma hinv_ping_end cf id p c o : hinv cf p c ->
  hinv cf (plog_step id p (EPingEnd id o)) (ping_end (ho_failures (cf_health cf)) o c).
Proof.
  intros Hi. pose proof Hi as (I1 & I2 & I3 & V).
  cbn [plog_step]. rewrite Z.eqb_refl, I1. cbn [andb].
  set (F := ho_failures (cf_health cf)) in *.
  assert (Hgone : k_hstatus c <> 1 -> k_hstatus c <> 2 ->
            hinv cf (if pl_inflight p
                     then {| pl_created := true; pl_inflight := false; pl_outs := pl_outs p ++ [o] |} else p) c).
  { intros N1 N2. destruct (pl_inflight p); [|exact Hi]. apply (hinv_gone cf p); auto. apply incl_appl, incl_refl. }
  destruct V as [E|E Hf _|E Hf [Hs Hr]|E G].
  - rewrite ping_end_other by congruence. apply Hgone; congruence.
  - rewrite ping_end_other by congruence. rewrite Hf. exact Hi.
  - (* the ping in flight ends: its exchange goes, then the rest of the iteration *)
    rewrite Hf. unfold ping_end. rewrite E. cbn [Z.eqb Pos.eqb negb]. cbv zeta.
    set (c1 := check_exchanges (set_counts (k_inb c) (k_outb c) (k_pings c - 1) (k_relay c) c)).
    assert (P1 : passive c c1) by (eapply passive_trans; [apply passive_set_counts|apply passive_check]).
    destruct P1 as (Ph & _ & Ps & Pc & _).
    pose proof (health_loop_snoc F o (pl_outs p) 0%nat hl_init (k_health c) Hs Hr) as Hsn.
    destruct (health_iter F o (k_health c)) as [l closed] eqn:Ei. cbn [fst snd] in Hsn.
    rewrite <- Ph in Ei.
    destruct (after_ping_props F o c1 l closed Ei) as (A1 & A2 & A3 & A4). cbv zeta in *.
    set (c' := after_ping F o c1) in *.
    split; [reflexivity|]. split; [rewrite A2, Ps; auto|].
    destruct A4 as [(A4 & R & ->)|(A4 & A5)]; (split; [rewrite A4, I3, E; reflexivity|]).
    + apply hv_wait; [exact A4|reflexivity|]. unfold loop_sync. rewrite A1. cbn [pl_outs]. auto.
    + apply hv_gone; [exact A4|]. intros A. cbn [pl_outs]. rewrite (A5 A). apply in_or_app. right. left. reflexivity.
  - rewrite ping_end_other by congruence. apply Hgone; congruence.
Qed.

Definition hrel (cf : config) (id : Z) (p : plog) (s : chan) : Prop :=
  match lookup id (ch_conns s) with
  | Some c => hinv cf p c
  | None => p = plog_init
  end.

Lemma hinv_ev cf s id p e c : conn_wf c -> hinv cf p c -> hinv cf (plog_step id p e) (ev_on cf s id e c).
Proof.
  intros Hwf H.
  assert (Hp : forall f, passive c (f c) -> forall i, hinv cf p (if i =? id then f c else c)).
  { intros f Hf i. destruct (i =? id); [exact (hinv_passive cf p c _ Hf H)|exact H]. }
  destruct e as [dt|i rl|i mt|i mt|i w d|i| |i sent|i o]; cbn [ev_on].
  - exact H.
  - cbn [plog_step]. rewrite (proj1 H), andb_false_r. exact H.
  - apply (Hp _ (passive_update_read _ mt c)).
  - apply (Hp _ (passive_update_write _ mt c)).
  - apply (Hp _ (passive_pend w d c)).
  - apply (Hp _ (passive_close c)).
  - destruct (_ && _); [exact (hinv_passive cf p c _ (passive_close_if_ok c) H)|exact H].
  - destruct (Z.eq_dec i id) as [->|Hne]; [rewrite Z.eqb_refl; apply hinv_ping_start; assumption|].
    cbn [plog_step]. apply Z.eqb_neq in Hne. rewrite Hne. exact H.
  - destruct (Z.eq_dec i id) as [->|Hne]; [rewrite Z.eqb_refl; apply hinv_ping_end; assumption|].
    cbn [plog_step]. apply Z.eqb_neq in Hne. rewrite Hne. exact H.
Qed.

Lemma hrel_step cf id p s e : chan_wf s -> hrel cf id p s -> hrel cf id (plog_step id p e) (step cf s e).
Proof.
  intros Hwf H. unfold hrel in *. rewrite step_lookup.
  destruct (lookup id (ch_conns s)) as [c|] eqn:L; [exact (hinv_ev cf s id p e c (proj2 Hwf id c L) H)|].
  subst p. destruct e as [dt|i rl|i mt|i mt|i w d|i| |i sent|i o]; cbn [plog_step plog_init pl_created negb];
    rewrite ?andb_false_r, ?andb_true_r; try reflexivity.
  destruct (i =? id); [apply hinv_new|reflexivity].
Qed.

Lemma hrel_fold cf id h : forall p s, chan_wf s -> hrel cf id p s ->
  hrel cf id (fold_left (plog_step id) h p) (fold_left (step cf) h s).
Proof.
  induction h as [|e r IH]; intros p s Hwf H; [exact H|]. cbn [fold_left].
  apply IH; [apply wf_step, Hwf|apply hrel_step; assumption].
Qed.

Lemma run_hinv cf t0 h id c : lookup id (ch_conns (run cf t0 h)) = Some c -> hinv cf (ping_log id h) c.
Proof.
  intros L. pose proof (hrel_fold cf id h plog_init (init_chan t0) (run_wf cf t0 []) eq_refl) as H.
  unfold hrel in H. fold (run cf t0 h) in H. now rewrite L in H.
Qed.

(* While the health goroutine of a connection is waiting for its ping: the loop body calls
   Connection.close at this outcome iff the outcome completes the F-th consecutive failure
   since the last success of the pings the history shows, with no stop outcome and no earlier
   such run. *)
Theorem sys_health_decision cf t0 h id c o :
  let F := ho_failures (cf_health cf) in
  1 <= F -> lookup id (ch_conns (run cf t0 h)) = Some c -> k_hstatus c = 2 ->
  ping_inflight id h = true /\
  (snd (health_iter F o (k_health c)) = true <-> health_closes_now (Z.to_nat F) (ping_outcomes id h) o).
Proof.
  intros F HF L H2. destruct (run_hinv cf t0 h id c L) as (_ & _ & _ & V).
  destruct V as [E|E _ _|_ Hf [Hs Hr]|E _]; try congruence. fold F in Hs. split; [exact Hf|].
  unfold health_closes_now, ping_outcomes.
  rewrite <- (health_loop_closes_iff F _ _ HF).
  rewrite (health_loop_snoc F o _ 0%nat hl_init (k_health c) Hs Hr). cbn [snd].
  destruct (snd (health_iter F o (k_health c))); split; intros H; try discriminate; reflexivity.
Qed.

Lemma run_active_not_stopped cf t0 h id c :
  lookup id (ch_conns (run cf t0 h)) = Some c -> is_active c = true -> k_stopped c = false.
Proof.
  intros L Ha. destruct (run_hinv cf t0 h id c L) as (_ & I2 & _).
  destruct (k_stopped c); [|reflexivity]. rewrite (closed_not_active c (I2 eq_refl)) in Ha. discriminate Ha.
Qed.

Lemma after_ping_active F o c1 : k_state c1 = c_connectionActive ->
  is_active (after_ping F o c1) = negb (snd (health_iter F o (k_health c1))).
Proof.
  intros Hs1. unfold after_ping. destruct (health_iter F o (k_health c1)) as [l closed]. cbn [snd].
  set (c1' := set_health (if hl_running l then 1 else 3) l c1).
  assert (Hfin : forall cc, is_active (if k_state cc =? c_connectionClosed then set_health 3 (k_health cc) cc else cc) = is_active cc)
    by (intros cc; destruct (_ =? _); reflexivity).
  rewrite Hfin. destruct closed; cbn [negb]; [apply conn_close_not_active|apply active_state, Hs1].
Qed.

(* The observable form: an Active connection with health checks enabled leaves the Active state
   at a ping outcome iff a ping of it is in flight and the outcome completes the F-th consecutive
   failure (no stop before, never earlier); otherwise it stays Active. *)
Theorem sys_health_iff cf t0 h id c o :
  let F := ho_failures (cf_health cf) in
  1 <= F -> ho_enabled (cf_health cf) = true ->
  lookup id (ch_conns (run cf t0 h)) = Some c -> is_active c = true ->
  exists c', lookup id (ch_conns (step cf (run cf t0 h) (EPingEnd id o))) = Some c' /\
    (is_active c' = false <->
     ping_inflight id h = true /\ health_closes_now (Z.to_nat F) (ping_outcomes id h) o).
Proof.
  intros F HF Hen L Ha.
  destruct (run_hinv cf t0 h id c L) as (_ & _ & I3 & V).
  cbn [step]. rewrite on_conn_lookup, Z.eqb_refl, L. cbn [option_map]. eexists. split; [reflexivity|].
  fold F. destruct V as [E|E Hf _|E _ _|E G].
  - rewrite E, Hen in I3. discriminate I3.
  - rewrite ping_end_other by congruence. split; [congruence|]. intros [Hf' _]. unfold ping_inflight in Hf'. congruence.
  - destruct (sys_health_decision cf t0 h id c o HF L E) as [Hf Hd]. fold F in Hd.
    unfold ping_end. rewrite E. cbn [Z.eqb Pos.eqb negb]. cbv zeta.
    set (c0 := set_counts (k_inb c) (k_outb c) (k_pings c - 1) (k_relay c) c).
    pose proof (check_active c0 (proj1 (active_state c) Ha) (run_active_not_stopped cf t0 h id c L Ha)) as Hs1.
    rewrite (after_ping_active F o _ Hs1), k_health_check. cbn [c0 set_counts k_health].
    destruct (snd (health_iter F o (k_health c))); cbn [negb].
    + split; [intros _; split; [exact Hf|apply Hd; reflexivity]|reflexivity].
    + split; [discriminate|]. intros [_ Hc]. apply Hd in Hc. discriminate.
  - (* the goroutine exited on a connection that is still Active: it saw a stop outcome *)
    rewrite ping_end_other by congruence. split; [congruence|]. intros [_ (_ & _ & _ & Hns)]. exfalso.
    apply (In_nth _ _ POk) in G as (j & Hj & Hn); [|exact Ha].
    unfold ping_outcomes in Hns. apply (Hns j); [lia|]. rewrite app_nth1 by exact Hj. exact Hn.
Qed.

(* An Active connection leaves the Active state only at: a sweep, an application close, the end
   of one of its health-check pings, or a health-check ping that cannot be sent. *)
Lemma ev_on_active cf s id e c : k_state c = c_connectionActive -> k_stopped c = false ->
  k_state (ev_on cf s id e c) = c_connectionActive \/
  e = ETick \/ e = EClose id \/ (exists o, e = EPingEnd id o) \/ e = EPingStart id false.
Proof.
  intros Hst Hns.
  destruct e as [dt|i rl|i mt|i mt|i w d|i| |i sent|i o]; cbn [ev_on]; auto;
    (destruct (Z.eqb_spec i id) as [->|_]; [|auto]).
  - left. unfold update_read. destruct (isMessageTypeCall mt); exact Hst.
  - left. unfold update_write. destruct (isMessageTypeCall mt); exact Hst.
  - left. destruct (pend_shape w d c) as (a & b & r & [-> | [-> | ->]]); [exact Hst|exact Hst|].
    apply check_active; assumption.
  - auto.
  - destruct sent; [left|auto 6]. unfold ping_start. destruct (negb _); exact Hst.
  - right. right. right. left. exists o. reflexivity.
Qed.

Theorem sys_active_left_only_by cf t0 h id c e :
  lookup id (ch_conns (run cf t0 h)) = Some c -> is_active c = true ->
  (forall c', lookup id (ch_conns (step cf (run cf t0 h) e)) = Some c' -> is_active c' = true) \/
  e = ETick \/ e = EClose id \/ (exists o, e = EPingEnd id o) \/ e = EPingStart id false.
Proof.
  intros L Ha.
  destruct (ev_on_active cf (run cf t0 h) id e c (proj1 (active_state c) Ha)
              (run_active_not_stopped cf t0 h id c L Ha)) as [H|H]; [left|right; exact H].
  intros c'. rewrite step_lookup, L. intros [= <-]. apply active_state, H.
Qed.

(* ping traffic never is call activity *)
Lemma ping_frame_not_call mt : is_ping_frame mt = true -> is_call_frame mt = false.
Proof. unfold is_ping_frame, is_call_frame. lia. Qed.

Theorem erase_pings_clock : forall h t0, clock t0 (erase_pings h) = clock t0 h.
Proof.
  induction h as [|e r IH]; intros t0; [reflexivity|]. unfold erase_pings in *. cbn [filter].
  destruct e; cbn [is_ping_traffic negb clock]; try apply IH;
    destruct (is_ping_frame mt); cbn [negb clock]; apply IH.
Qed.

Theorem erase_pings_lca id : forall h t cur,
  last_call_activity id t cur (erase_pings h) = last_call_activity id t cur h.
Proof.
  induction h as [|e r IH]; intros t cur; [reflexivity|]. unfold erase_pings in *. cbn [filter].
  destruct e; cbn [is_ping_traffic negb last_call_activity]; try apply IH;
    (destruct (is_ping_frame mt) eqn:E; cbn [negb last_call_activity]; [|apply IH]);
    rewrite (ping_frame_not_call mt E), andb_false_r, IH; destruct cur; reflexivity.
Qed.

Theorem ping_traffic_stamps cf s e id : is_ping_traffic e = true ->
  option_map stamps (lookup id (ch_conns (step cf s e))) = option_map stamps (lookup id (ch_conns s)).
Proof.
  intros H. rewrite step_lookup.
  destruct (lookup id (ch_conns s)) as [c|]; [|destruct e; try discriminate H; reflexivity].
  cbn [option_map]. rewrite ev_on_stamps.
  destruct e; try discriminate H; try reflexivity; cbn [is_ping_traffic] in H;
    rewrite (ping_frame_not_call mt H), andb_false_r; reflexivity.
Qed.

(* the ping traffic of one connection never influences another connection *)
Lemma step_local cf s1 s2 e id : chan_wf s1 -> chan_wf s2 -> ch_now s1 = ch_now s2 ->
  lookup id (ch_conns s1) = lookup id (ch_conns s2) ->
  lookup id (ch_conns (step cf s1 e)) = lookup id (ch_conns (step cf s2 e)).
Proof.
  intros [N1 _] [N2 _] Hn Hl. rewrite !step_lookup, <- Hl, Hn.
  destruct (lookup id (ch_conns s1)) as [c|] eqn:L1; [|reflexivity]. f_equal.
  destruct e; cbn [ev_on]; rewrite ?Hn; try reflexivity.
  rewrite (sweep_candidates_mem _ s1 id c N1 L1), (sweep_candidates_mem _ s2 id c N2 (eq_sym Hl)), Hn. reflexivity.
Qed.

Definition same_but (id' : Z) (s1 s2 : chan) : Prop :=
  ch_now s1 = ch_now s2 /\ chan_wf s1 /\ chan_wf s2 /\
  (forall id, id <> id' -> lookup id (ch_conns s1) = lookup id (ch_conns s2)).

Lemma ping_traffic_of_conn id' e : is_ping_traffic_of id' e = true ->
  ev_conn e = Some id' /\ (forall i rl, e <> ENewConn i rl) /\ forall t, clock t [e] = t.
Proof.
  intros H. destruct e; try discriminate H; cbn [is_ping_traffic_of] in H;
    try apply andb_true_iff in H as [H _]; apply Z.eqb_eq in H; subst; repeat split; discriminate.
Qed.

Lemma same_but_fold cf id' h : forall s1 s2, same_but id' s1 s2 ->
  same_but id' (fold_left (step cf) (erase_pings_of id' h) s1) (fold_left (step cf) h s2).
Proof.
  induction h as [|e r IH]; intros s1 s2 H; [exact H|]. destruct H as (Hn & W1 & W2 & Heq).
  unfold erase_pings_of in *. cbn [filter fold_left].
  destruct (is_ping_traffic_of id' e) eqn:E; cbn [negb fold_left]; apply IH.
  - (* erased on the left: on the right it touches connection id' only *)
    destruct (ping_traffic_of_conn id' e E) as (Hc & Hnew & Hclk).
    split; [rewrite step_now, Hclk; exact Hn|]. split; [exact W1|]. split; [apply wf_step, W2|].
    intros id Hne. rewrite (other_conns_untouched cf s2 e id id' Hc (not_eq_sym Hne) Hnew). apply Heq, Hne.
  - split; [rewrite !step_now, Hn; reflexivity|]. split; [apply wf_step, W1|]. split; [apply wf_step, W2|].
    intros id Hne. apply step_local; auto.
Qed.

(* Erasing all ping traffic of connection id' from a history changes neither the clock nor the
   state of any other connection. *)
Theorem pings_of_noninterference cf t0 h id id' : id <> id' ->
  ch_now (run cf t0 (erase_pings_of id' h)) = ch_now (run cf t0 h) /\
  lookup id (ch_conns (run cf t0 (erase_pings_of id' h))) = lookup id (ch_conns (run cf t0 h)).
Proof.
  intros Hne. unfold run.
  destruct (same_but_fold cf id' h (init_chan t0) (init_chan t0)) as (Hn & _ & _ & Heq).
  { pose proof (run_wf cf t0 []) as W. split; [reflexivity|]. split; [exact W|]. split; [exact W|reflexivity]. }
  split; [exact Hn|apply Heq, Hne].
Qed.

(* ... hence not the decision of the next sweep on any other connection either *)
Definition sweep_closes (cf : config) (s : chan) (id : Z) : Prop :=
  In id (closed_between (ch_conns s) (ch_conns (step cf s ETick))).

Theorem pings_of_sweep_noninterference cf t0 h id id' : id <> id' ->
  let s1 := run cf t0 (erase_pings_of id' h) in
  let s2 := run cf t0 h in
  (sweep_closes cf s1 id <-> sweep_closes cf s2 id) /\
  lookup id (ch_conns (step cf s1 ETick)) = lookup id (ch_conns (step cf s2 ETick)).
Proof.
  intros Hne s1 s2. subst s1 s2. destruct (pings_of_noninterference cf t0 h id id' Hne) as [Hn Hl].
  pose proof (step_local cf _ _ ETick id (run_wf _ _ _) (run_wf _ _ _) Hn Hl) as Hafter.
  split; [|exact Hafter]. unfold sweep_closes.
  rewrite !closed_between_in by apply run_wf. rewrite Hl, Hafter. tauto.
Qed.
