(* Refinement: on histories of relayed frames (no timers, no arg2 appends, no host errors) the relay model of
   Model/RelayFwd.v (two id tables per connection) emits exactly the outputs of the one-table specification relay
   of Spec/RelaySpec.v. *)
From Coq Require Import ZArith List Bool Lia.
From Verif Require Import Base.Wrap Base.Bytes Gen.GenConsts Gen.GenFrame Gen.GenRelayFwd Model.TypedBuf Model.Messages Model.Crc
  Model.RelayLazy Model.RelayAppend Model.RelayFwd Spec.Protocol Spec.RelaySpec Proofs.RelayFwdP.
From Verif Require Import Proofs.CodecP Proofs.RelayInvP.
Import ListNotations.
Local Open Scope Z_scope.

(* the histories covered: frames of the six relayed types with well-formed bytes; call req frames that the relay's
   lazy parser accepts and that the host routes to some connection without arg2 appends; own id allocations *)
Definition plain (l : label) : Prop :=
  match l with
  | LFrame c h p hd =>
      bytes_ok p = true /\
      In (fh_type h) [c_messageTypeCallReq; c_messageTypeCallReqContinue; c_messageTypeCallRes;
                      c_messageTypeCallResContinue; c_messageTypeError; c_messageTypeCancel] /\
      (fh_type h = c_messageTypeCallReq -> fst (lazy_callreq p) = 0 /\ exists d, hd = HDst d []) /\
      ((fh_type h = c_messageTypeCallRes \/ fh_type h = c_messageTypeCallResContinue) -> p <> [])
  | LOwn _ => True
  | _ => False
  end.

Lemma lazy_callreq_len p : fst (lazy_callreq p) = 0 -> 30 <= zlen p.
Proof.
  destruct (lazy_callreq p) as [code lz] eqn:E. cbn [fst]. intros ->.
  destruct (lazy_callreq_reads p lz E) as (rest & L & _). unfold zlen. lia.
Qed.

(* find_src and find_dst are the same search under two keys *)
Section Find.
  Variables (kc : scall -> nat) (ki : scall -> Z).

  Fixpoint findk (cs : list scall) (c : nat) (id : Z) : option scall :=
    match cs with
    | [] => None
    | x :: r => if Nat.eqb (kc x) c && (ki x =? id) then Some x else findk r c id
    end.

  Lemma findk_some cs c id x : findk cs c id = Some x -> In x cs /\ kc x = c /\ ki x = id.
  Proof.
    induction cs as [|a r IH]; cbn [findk]; [discriminate|].
    destruct (Nat.eqb (kc a) c && (ki a =? id)) eqn:E; intros H.
    - injection H as <-. split; [left; reflexivity|apply key_eqb_true, E].
    - destruct (IH H) as (I & S). split; [right; exact I|exact S].
  Qed.

  Lemma findk_none cs c id : (forall z, In z cs -> kc z = c -> ki z = id -> False) -> findk cs c id = None.
  Proof.
    induction cs as [|a r IH]; intros H; cbn [findk]; [reflexivity|].
    destruct (Nat.eqb (kc a) c && (ki a =? id)) eqn:E.
    - exfalso. apply key_eqb_true in E as [E1 E2]. apply (H a); [left; reflexivity|assumption..].
    - apply IH. intros z Hz. apply H. right; exact Hz.
  Qed.

  Lemma findk_filter f cs c id y : findk cs c id = Some y -> f y = true -> findk (filter f cs) c id = Some y.
  Proof.
    induction cs as [|a r IH]; cbn [findk filter]; [discriminate|].
    destruct (Nat.eqb (kc a) c && (ki a =? id)) eqn:E; intros H Hf.
    - injection H as ->. rewrite Hf. cbn [findk]. rewrite E. reflexivity.
    - destruct (f a); [cbn [findk]; rewrite E|]; apply IH; assumption.
  Qed.

  (* a list in which every element is found under its own key: filtering out all but [x]
     removes exactly the key of [x] *)
  Lemma findk_remove f cs x c id :
    (forall z, In z cs -> findk cs (kc z) (ki z) = Some z) -> In x cs ->
    f x = false -> (forall y, In y cs -> y <> x -> f y = true) ->
    findk (filter f cs) c id = if Nat.eqb c (kc x) && (id =? ki x) then None else findk cs c id.
  Proof.
    intros W Hx Fx Fo.
    destruct (Nat.eqb c (kc x) && (id =? ki x)) eqn:E.
    - apply key_eqb_true in E as [-> ->].
      apply findk_none. intros z Hz S1 S2. apply filter_In in Hz as [Hz Tz].
      pose proof (W z Hz) as Wz. rewrite S1, S2, (W x Hx) in Wz. injection Wz as ->. congruence.
    - apply key_eqb_false in E. destruct (findk cs c id) as [y|] eqn:F.
      + destruct (findk_some _ _ _ _ F) as (Hy & S1 & S2). apply findk_filter; [exact F|].
        apply Fo; [exact Hy|]. intros ->. destruct E as [E|E]; apply E; congruence.
      + apply findk_none. intros z Hz S1 S2. apply filter_In in Hz as [Hz _].
        pose proof (W z Hz) as Wz. rewrite S1, S2 in Wz. congruence.
  Qed.
End Find.

Definition find_src_some := findk_some sc_src sc_orig.
Definition find_dst_some := findk_some sc_dst sc_id.

(* well-formed call list: ids were taken from the destination's counter, both keys are unique *)
Definition WF (cs : list scall) (cnt : nat -> Z) : Prop := forall x, In x cs ->
  0 < sc_id x <= cnt (sc_dst x) /\
  find_src cs (sc_src x) (sc_orig x) = Some x /\
  find_dst cs (sc_dst x) (sc_id x) = Some x.

Lemma WF_src_uniq cs cnt x y : WF cs cnt -> In x cs -> In y cs -> sc_src x = sc_src y -> sc_orig x = sc_orig y -> x = y.
Proof.
  intros W Hx Hy E1 E2. destruct (W x Hx) as (_ & Fx & _). destruct (W y Hy) as (_ & Fy & _).
  rewrite E1, E2 in Fx. congruence.
Qed.

Lemma WF_dst_uniq cs cnt x y : WF cs cnt -> In x cs -> In y cs -> sc_dst x = sc_dst y -> sc_id x = sc_id y -> x = y.
Proof.
  intros W Hx Hy E1 E2. destruct (W x Hx) as (_ & _ & Fx). destruct (W y Hy) as (_ & _ & Fy).
  rewrite E1, E2 in Fx. congruence.
Qed.

Lemma WF_mono cs cnt cnt' : WF cs cnt -> (forall d, cnt d <= cnt' d) -> WF cs cnt'.
Proof. intros W M x Hx. destruct (W x Hx) as (B & F). split; [specialize (M (sc_dst x)); lia|exact F]. Qed.

Definition rm_test (x y : scall) : bool := negb (Nat.eqb (sc_dst y) (sc_dst x) && (sc_id y =? sc_id x)).

Lemma rm_test_self x : rm_test x x = false.
Proof. unfold rm_test. rewrite Nat.eqb_refl, Z.eqb_refl. reflexivity. Qed.

Lemma rm_test_other cs cnt x y : WF cs cnt -> In x cs -> In y cs -> y <> x -> rm_test x y = true.
Proof.
  intros W Hx Hy N. unfold rm_test. destruct (Nat.eqb (sc_dst y) (sc_dst x) && (sc_id y =? sc_id x)) eqn:E; [|reflexivity].
  exfalso. apply N. apply key_eqb_true in E as [E1 E2]. eapply WF_dst_uniq; eassumption.
Qed.

Lemma remove_find_src cs cnt x c id : WF cs cnt -> In x cs ->
  find_src (remove_call cs x) c id = if Nat.eqb c (sc_src x) && (id =? sc_orig x) then None else find_src cs c id.
Proof.
  intros W Hx. apply (findk_remove sc_src sc_orig (rm_test x)); [intros z Hz; apply (W z Hz)|exact Hx|apply rm_test_self|].
  intros y Hy. eapply rm_test_other; eassumption.
Qed.

Lemma remove_find_dst cs cnt x d k : WF cs cnt -> In x cs ->
  find_dst (remove_call cs x) d k = if Nat.eqb d (sc_dst x) && (k =? sc_id x) then None else find_dst cs d k.
Proof.
  intros W Hx. apply (findk_remove sc_dst sc_id (rm_test x)); [intros z Hz; apply (W z Hz)|exact Hx|apply rm_test_self|].
  intros y Hy. eapply rm_test_other; eassumption.
Qed.

Lemma WF_remove cs cnt x : WF cs cnt -> In x cs -> WF (remove_call cs x) cnt.
Proof.
  intros W Hx y Hy. pose proof Hy as Hy'. unfold remove_call in Hy'. apply filter_In in Hy' as [Hy' Ty].
  fold (rm_test x y) in Ty.
  assert (N : y <> x) by (intros ->; rewrite rm_test_self in Ty; discriminate).
  destruct (W y Hy') as (B & Fs & Fd). split; [exact B|]. split.
  - rewrite (remove_find_src cs cnt x _ _ W Hx).
    destruct (Nat.eqb (sc_src y) (sc_src x) && (sc_orig y =? sc_orig x)) eqn:E; [|exact Fs].
    exfalso. apply key_eqb_true in E as [E1 E2].
    apply N. eapply WF_src_uniq; eassumption.
  - rewrite (remove_find_dst cs cnt x _ _ W Hx).
    destruct (Nat.eqb (sc_dst y) (sc_dst x) && (sc_id y =? sc_id x)) eqn:E; [|exact Fd].
    exfalso. apply key_eqb_true in E as [E1 E2].
    apply N. eapply WF_dst_uniq; eassumption.
Qed.

Definition out_rel (o : option item) (f : option scall) : Prop :=
  match o, f with
  | Some it, Some x => it_remap it = sc_id x /\ it_dest it = sc_dst x /\ it_tomb it = false /\ it_mut it = None
  | None, None => True
  | _, _ => False
  end.
Definition in_rel (o : option item) (f : option scall) : Prop :=
  match o, f with
  | Some it, Some x => it_remap it = sc_orig x /\ it_dest it = sc_src x /\ it_tomb it = false
  | None, None => True
  | _, _ => False
  end.

Record R (st : rstate) (ss : sstate) : Prop := {
  r_cnt : forall c, st_count st c = ss_count ss c;
  r_pos : forall c, 0 <= st_count st c;
  r_out : forall c id, out_rel (st_out st c id) (find_src (ss_calls ss) c id);
  r_in : forall d k, in_rel (st_in st d k) (find_dst (ss_calls ss) d k);
  r_wf : WF (ss_calls ss) (ss_count ss)
}.

Lemma R_init cnt0 : (forall c, 0 <= cnt0 c) -> R (init_state cnt0) (mkSS [] cnt0).
Proof. intros H. constructor; cbn; intros; auto. intros x []. Qed.

Lemma bump_eq (f g : nat -> Z) c c' : (forall x, f x = g x) ->
  (if Nat.eqb c' c then f c + 1 else f c') = bump g c c'.
Proof. intros H. unfold bump. rewrite !H. reflexivity. Qed.

Lemma R_own st ss c own : R st ss ->
  R (mkSt (fun c' => if Nat.eqb c' c then st_count st c + 1 else st_count st c') (st_out st) (st_in st) own)
    (mkSS (ss_calls ss) (bump (ss_count ss) c)).
Proof.
  intros [Rc Rp Ro Ri Rw]. constructor; cbn [st_count st_out st_in ss_calls ss_count].
  - intros c'. apply bump_eq, Rc.
  - intros c'. pose proof (Rp c). pose proof (Rp c'). destruct (Nat.eqb c' c); lia.
  - exact Ro.
  - exact Ri.
  - eapply WF_mono; [exact Rw|]. intros d. unfold bump. destruct (Nat.eqb_spec d c); [subst; lia|lia].
Qed.

Lemma R_remove st ss x : R st ss -> In x (ss_calls ss) ->
  R (mkSt (st_count st) (im_set (st_out st) (sc_src x) (sc_orig x) None) (im_set (st_in st) (sc_dst x) (sc_id x) None) (st_own st))
    (mkSS (remove_call (ss_calls ss) x) (ss_count ss)).
Proof.
  intros [Rc Rp Ro Ri Rw] Hx. constructor; cbn [st_count st_out st_in ss_calls ss_count].
  - exact Rc.
  - exact Rp.
  - intros c id. rewrite (remove_find_src _ _ _ c id Rw Hx). unfold im_set.
    destruct (Nat.eqb c (sc_src x) && (id =? sc_orig x)); [exact I|apply Ro].
  - intros d k. rewrite (remove_find_dst _ _ _ d k Rw Hx). unfold im_set.
    destruct (Nat.eqb d (sc_dst x) && (k =? sc_id x)); [exact I|apply Ri].
  - apply WF_remove; assumption.
Qed.

Lemma key_sym (a b : nat) (i j : Z) : Nat.eqb a b && (i =? j) = Nat.eqb b a && (j =? i).
Proof. rewrite (Nat.eqb_sym a b), (Z.eqb_sym i j). reflexivity. Qed.

Lemma R_add st ss c id d sp : R st ss -> st_out st c id = None ->
  R (mkSt (fun c' => if Nat.eqb c' d then st_count st d + 1 else st_count st c')
          (im_set (st_out st) c id (Some (mkItem (st_count st d + 1) d false true sp None)))
          (im_set (st_in st) d (st_count st d + 1) (Some (mkItem id c false false sp None))) (st_own st))
    (mkSS (mkCall c id d (ss_count ss d + 1) :: ss_calls ss) (bump (ss_count ss) d)).
Proof.
  intros [Rc Rp Ro Ri Rw] Hn.
  assert (Fn : find_src (ss_calls ss) c id = None).
  { specialize (Ro c id). rewrite Hn in Ro. destruct (find_src (ss_calls ss) c id); [contradiction|reflexivity]. }
  assert (Fd : find_dst (ss_calls ss) d (ss_count ss d + 1) = None).
  { apply (findk_none sc_dst sc_id). intros z Hz E1 E2. destruct (Rw z Hz) as (B & _). rewrite E1 in B. lia. }
  rewrite <- (Rc d) in *.
  constructor; cbn [st_count st_out st_in ss_calls ss_count].
  - intros c'. apply bump_eq, Rc.
  - intros c'. pose proof (Rp d). pose proof (Rp c'). destruct (Nat.eqb c' d); lia.
  - intros c' id'. cbn [find_src sc_src sc_orig]. unfold im_set. rewrite (key_sym c c' id id').
    destruct (Nat.eqb c' c && (id' =? id)); [|apply Ro]. cbn. repeat split; reflexivity.
  - intros d' k'. cbn [find_dst sc_dst sc_id]. unfold im_set. rewrite (key_sym d d' (st_count st d + 1) k').
    destruct (Nat.eqb d' d && (k' =? st_count st d + 1)); [|apply Ri]. cbn. repeat split; reflexivity.
  - intros x [<-|Hx]; cbn [sc_src sc_orig sc_dst sc_id find_src find_dst].
    + rewrite !Nat.eqb_refl, !Z.eqb_refl. cbn [andb]. unfold bump. rewrite Nat.eqb_refl. rewrite <- (Rc d).
      pose proof (Rp d). repeat split; lia.
    + destruct (Rw x Hx) as (B & Fs & Fdx). split; [|split].
      * unfold bump. destruct (Nat.eqb_spec (sc_dst x) d) as [E|E]; [rewrite E in B; lia|lia].
      * destruct (Nat.eqb c (sc_src x) && (id =? sc_orig x)) eqn:E; [|exact Fs].
        exfalso. apply key_eqb_true in E as [E1 E2]. subst. congruence.
      * destruct (Nat.eqb d (sc_dst x) && (st_count st d + 1 =? sc_id x)) eqn:E; [|exact Fdx].
        exfalso. apply key_eqb_true in E as [E1 E2].
        rewrite <- E1, <- E2, (Rc d) in B. lia.
Qed.

(* the model's and the specification's step on each frame type, in closed form *)
Definition resp_types : list Z := [c_messageTypeCallRes; c_messageTypeCallResContinue; c_messageTypeError].

Lemma receive_req st d h p : receive st d h p c_requestFrame =
  match st_in st d (fh_id h) with
  | None => (false, [], st)
  | Some it => if it_tomb it then (true, [], st)
               else (true, [OFrame d h p],
                     if finishesCall (fh_type h) (flags_of p) then set_item st false d (fh_id h) None else st)
  end.
Proof. reflexivity. Qed.

Lemma receive_resp st c h p : receive st c h p c_responseFrame =
  match st_out st c (fh_id h) with
  | None => (false, [], st)
  | Some it => if it_tomb it then (true, [], st)
               else (true, [OFrame c h p],
                     if finishesCall (fh_type h) (flags_of p) then set_item st true c (fh_id h) None else st)
  end.
Proof. reflexivity. Qed.

Lemma step_cancel maxT st c h p hd : fh_type h = c_messageTypeCancel ->
  step maxT false st (LFrame c h p hd) = Some ([], st).
Proof. intros Ht. cbn [step]. rewrite Ht. reflexivity. Qed.

Lemma step_callreq maxT st c h p hd : fh_type h = c_messageTypeCallReq ->
  step maxT false st (LFrame c h p hd) = handle_callreq maxT st c h p hd.
Proof. intros Ht. cbn [step]. rewrite Ht. reflexivity. Qed.

Lemma step_cont maxT st c h p hd : fh_type h = c_messageTypeCallReqContinue ->
  step maxT false st (LFrame c h p hd) = handle_other st c h p.
Proof. intros Ht. cbn [step]. rewrite Ht. reflexivity. Qed.

Lemma step_resp maxT st c h p hd r : In (fh_type h) resp_types ->
  step maxT false st (LFrame c h p hd) = Some r -> handle_other st c h p = Some r.
Proof.
  intros Hin. cbn [step]. generalize (handle_other st c h p). generalize (handle_callreq maxT st c h p hd).
  generalize (zlen p =? 0). intros z A B.
  destruct Hin as [<-|[<-|[<-|[]]]]; cbn; try (destruct z; [discriminate|]); exact (fun H => H).
Qed.

Lemma handle_other_cont st c h p : fh_type h = c_messageTypeCallReqContinue ->
  handle_other st c h p =
  match st_out st c (fh_id h) with
  | None => Some ([], st)
  | Some it =>
      if it_tomb it then Some ([], st)
      else
        let '(p1, st1) :=
          match it_mut it with
          | Some ck => let '(p', ck') := update_cont_ck p ck in (p', set_item st true c (fh_id h) (Some (with_mut it ck')))
          | None => (p, st)
          end in
        let '(sent, outs, st2) := receive st1 (it_dest it) (set_id h (it_remap it)) p1 c_requestFrame in
        if negb sent then Some (fail_item st2 c true (fh_id h) c_u_relayErrorNotFound) else Some (outs, st2)
  end.
Proof. intros Ht. unfold handle_other. rewrite Ht. reflexivity. Qed.

Lemma handle_other_resp st d h p : In (fh_type h) resp_types ->
  handle_other st d h p =
  match st_in st d (fh_id h) with
  | None => Some ([], st)
  | Some it =>
      if it_tomb it then Some ([], st)
      else
        let '(sent, outs, st2) := receive st (it_dest it) (set_id h (it_remap it)) p c_responseFrame in
        if negb sent then Some (fail_item st2 d false (fh_id h) c_u_relayErrorNotFound)
        else Some (outs, if finishesCall (fh_type h) (flags_of p) then set_item st2 false d (fh_id h) None else st2)
  end.
Proof. intros Hin. unfold handle_other. destruct Hin as [<-|[<-|[<-|[]]]]; reflexivity. Qed.

Lemma fin_is_ends t p : In t resp_types -> finishesCall t (flags_of p) = sp_ends t p.
Proof. intros Hin. destruct Hin as [<-|[<-|[<-|[]]]]; reflexivity. Qed.

Lemma spec_cancel M ss c h p hd : fh_type h = c_messageTypeCancel -> spec_step M ss (LFrame c h p hd) = Some ([], ss).
Proof. intros Ht. cbn [spec_step]. rewrite Ht. reflexivity. Qed.

Lemma spec_callreq M ss c h p d : fh_type h = c_messageTypeCallReq ->
  spec_step M ss (LFrame c h p (HDst d [])) =
  match find_src (ss_calls ss) c (fh_id h) with
  | Some _ => Some ([], ss)
  | None => Some ([OFrame d (sp_with_id h (ss_count ss d + 1)) (sp_clamp M p)],
                  mkSS (mkCall c (fh_id h) d (ss_count ss d + 1) :: ss_calls ss) (bump (ss_count ss) d))
  end.
Proof. intros Ht. cbn [spec_step]. rewrite Ht. reflexivity. Qed.

Lemma spec_cont M ss c h p hd : fh_type h = c_messageTypeCallReqContinue ->
  spec_step M ss (LFrame c h p hd) =
  match find_src (ss_calls ss) c (fh_id h) with
  | None => Some ([], ss)
  | Some x => Some ([OFrame (sc_dst x) (sp_with_id h (sc_id x)) p], ss)
  end.
Proof. intros Ht. cbn [spec_step]. rewrite Ht. reflexivity. Qed.

Lemma spec_resp M ss c h p hd : In (fh_type h) resp_types ->
  spec_step M ss (LFrame c h p hd) =
  match find_dst (ss_calls ss) c (fh_id h) with
  | None => Some ([], ss)
  | Some x => Some ([OFrame (sc_src x) (sp_with_id h (sc_orig x)) p],
                    if sp_ends (fh_type h) p then mkSS (remove_call (ss_calls ss) x) (ss_count ss) else ss)
  end.
Proof. intros Hin. cbn [spec_step]. destruct Hin as [<-|[<-|[<-|[]]]]; reflexivity. Qed.

Lemma fin_req f : finishesCall c_messageTypeCallReq f = false.
Proof. reflexivity. Qed.
Lemma fin_cont19 f : finishesCall c_messageTypeCallReqContinue f = false.
Proof. reflexivity. Qed.

Lemma sim_cont maxT st ss c h p hd o st' : R st ss -> fh_type h = c_messageTypeCallReqContinue ->
  step maxT false st (LFrame c h p hd) = Some (o, st') ->
  exists ss', spec_step (Z.quot maxT ms_ns) ss (LFrame c h p hd) = Some (o, ss') /\ R st' ss'.
Proof.
  intros HR Ht. rewrite (step_cont _ _ _ _ _ _ Ht), (handle_other_cont _ _ _ _ Ht), (spec_cont _ _ _ _ _ _ Ht).
  pose proof (r_out _ _ HR c (fh_id h)) as Ho. unfold out_rel in Ho.
  destruct (st_out st c (fh_id h)) as [it|]; destruct (find_src (ss_calls ss) c (fh_id h)) as [x|] eqn:Fx;
    try contradiction.
  - destruct Ho as (E1 & E2 & E3 & E4). rewrite E3, E4, receive_req. cbn [set_id fh_id fh_type].
    destruct (find_src_some _ _ _ _ Fx) as (Hx & _).
    destruct (r_wf _ _ HR x Hx) as (_ & _ & Fd).
    pose proof (r_in _ _ HR (sc_dst x) (sc_id x)) as Hi. rewrite Fd in Hi. unfold in_rel in Hi.
    rewrite E1, E2. destruct (st_in st (sc_dst x) (sc_id x)) as [it2|]; [|contradiction].
    destruct Hi as (_ & _ & T). rewrite T, Ht, fin_cont19. cbn [negb].
    intros H; injection H as <- <-. exists ss. split; [reflexivity|exact HR].
  - intros H; injection H as <- <-. exists ss. split; [reflexivity|exact HR].
Qed.

Lemma sim_resp maxT st ss c h p hd o st' : R st ss -> In (fh_type h) resp_types ->
  step maxT false st (LFrame c h p hd) = Some (o, st') ->
  exists ss', spec_step (Z.quot maxT ms_ns) ss (LFrame c h p hd) = Some (o, ss') /\ R st' ss'.
Proof.
  intros HR Hin Hs. apply (step_resp _ _ _ _ _ _ _ Hin) in Hs. revert Hs.
  rewrite (handle_other_resp _ _ _ _ Hin), (spec_resp _ _ _ _ _ _ Hin), (fin_is_ends _ p Hin).
  pose proof (r_in _ _ HR c (fh_id h)) as Hi. unfold in_rel in Hi.
  destruct (st_in st c (fh_id h)) as [it|]; destruct (find_dst (ss_calls ss) c (fh_id h)) as [x|] eqn:Fx;
    try contradiction.
  - destruct Hi as (E1 & E2 & E3). rewrite E3, receive_resp. cbn [set_id fh_id fh_type].
    destruct (find_dst_some _ _ _ _ Fx) as (Hx & D1 & D2).
    destruct (r_wf _ _ HR x Hx) as (_ & Fs & _).
    pose proof (r_out _ _ HR (sc_src x) (sc_orig x)) as Ho. rewrite Fs in Ho. unfold out_rel in Ho.
    rewrite E1, E2. destruct (st_out st (sc_src x) (sc_orig x)) as [it2|]; [|contradiction].
    destruct Ho as (_ & _ & T & _). rewrite T, (fin_is_ends _ p Hin). cbn [negb].
    intros H; injection H as <- <-. eexists. split; [reflexivity|].
    destruct (sp_ends (fh_type h) p); [|exact HR].
    rewrite <- D1, <- D2. cbn [set_item st_count st_out st_in st_own]. apply R_remove; assumption.
  - intros H; injection H as <- <-. exists ss. split; [reflexivity|exact HR].
Qed.

Lemma sim_callreq maxT st ss c h p d o st' : max_ok maxT -> R st ss -> bytes_ok p = true ->
  fh_type h = c_messageTypeCallReq -> fst (lazy_callreq p) = 0 ->
  step maxT false st (LFrame c h p (HDst d [])) = Some (o, st') -> (forall c, st_count st' c < 2 ^ 32) ->
  exists ss', spec_step (Z.quot maxT ms_ns) ss (LFrame c h p (HDst d [])) = Some (o, ss') /\ R st' ss'.
Proof.
  intros Hm HR Hb Ht Hl. rewrite (step_callreq _ _ _ _ _ _ Ht), (spec_callreq _ _ _ _ _ _ Ht).
  pose proof (lazy_callreq_len _ Hl) as Hlen.
  unfold handle_callreq. destruct (lazy_callreq p) as [code lz]. cbn [fst] in Hl. subst code.
  change (negb (0 =? 0)) with false. cbv iota.
  pose proof (r_out _ _ HR c (fh_id h)) as Ho. unfold out_rel in Ho.
  destruct (st_out st c (fh_id h)) as [it|] eqn:Eo; destruct (find_src (ss_calls ss) c (fh_id h)) as [x|] eqn:Fx;
    try contradiction.
  - intros H _; injection H as <- <-. exists ss. split; [reflexivity|exact HR].
  - unfold alloc_id. cbv beta iota zeta. rewrite receive_req.
    cbn [set_item set_id fh_id fh_type st_in st_out st_count st_own]. rewrite im_set_eq. cbn [it_tomb].
    rewrite Ht, fin_req. intros H B; injection H as <- <-.
    specialize (B d). cbn [st_count] in B. rewrite Nat.eqb_refl in B. pose proof (r_pos _ _ HR d) as P.
    rewrite (wrapU_id 32 (st_count st d + 1)) by lia.
    eexists. split.
    + rewrite (clamp_ttl_spec maxT p Hm Hb) by lia. rewrite (r_cnt _ _ HR d). reflexivity.
    + apply R_add; assumption.
Qed.

Lemma sim_step maxT st ss l o st' : max_ok maxT -> R st ss -> plain l ->
  step maxT false st l = Some (o, st') -> (forall c, st_count st' c < 2 ^ 32) ->
  exists ss', spec_step (Z.quot maxT ms_ns) ss l = Some (o, ss') /\ R st' ss'.
Proof.
  intros Hm HR Hp Hs B. destruct l as [c h p hd|c|c outb id|c outb id]; cbn [plain] in Hp; try contradiction.
  - destruct Hp as (Hb & Hin & Hreq & _). cbn [In] in Hin.
    destruct Hin as [Ht|[Ht|[Ht|[Ht|[Ht|[Ht|[]]]]]]]; symmetry in Ht.
    + destruct (Hreq Ht) as (Hl & d & ->). eapply sim_callreq; eassumption.
    + eapply sim_cont; eassumption.
    + eapply sim_resp; [exact HR| |exact Hs]. rewrite Ht. left; reflexivity.
    + eapply sim_resp; [exact HR| |exact Hs]. rewrite Ht. right; left; reflexivity.
    + eapply sim_resp; [exact HR| |exact Hs]. rewrite Ht. right; right; left; reflexivity.
    + rewrite (step_cancel _ _ _ _ _ _ Ht) in Hs. injection Hs as <- <-.
      exists ss. split; [apply spec_cancel, Ht|exact HR].
  - cbn [step alloc_id] in Hs. injection Hs as <- <-. eexists. split; [reflexivity|]. apply R_own, HR.
Qed.

Lemma run_sim maxT ls : forall st ss outs st', max_ok maxT -> R st ss -> Forall plain ls ->
  run maxT false ls st = Some (outs, st') -> (forall c, st_count st' c < 2 ^ 32) ->
  exists ss', spec_run (Z.quot maxT ms_ns) ls ss = Some (outs, ss') /\ R st' ss'.
Proof.
  induction ls as [|l r IH]; intros st ss outs st' Hm HR Hp; cbn [run spec_run].
  - intros H _; injection H as <- <-. exists ss. split; [reflexivity|exact HR].
  - destruct (step maxT false st l) as [[o st1]|] eqn:Es; [|discriminate].
    destruct (run maxT false r st1) as [[os st2]|] eqn:Er; [|discriminate].
    intros H B; injection H as <- <-. inversion Hp as [|? ? Pl Pr]; subst.
    assert (B1 : forall c, st_count st1 c < 2 ^ 32).
    { intros c. pose proof (run_count_mono _ _ _ _ _ _ Er c). specialize (B c). lia. }
    destruct (sim_step _ _ _ _ _ _ Hm HR Pl Es B1) as (ss1 & E1 & R1). rewrite E1.
    destruct (IH _ _ _ _ Hm R1 Pr Er B) as (ss2 & E2 & R2). rewrite E2.
    exists ss2. split; [reflexivity|exact R2].
Qed.

Theorem relay_refines_spec : forall maxT cnt0 ls outs st,
  max_ok maxT -> (forall c, 0 <= cnt0 c) -> Forall plain ls ->
  run maxT false ls (init_state cnt0) = Some (outs, st) ->
  (forall c, st_count st c < 2 ^ 32) ->
  exists ss, spec_run (Z.quot maxT ms_ns) ls (mkSS [] cnt0) = Some (outs, ss).
Proof.
  intros maxT cnt0 ls outs st Hm H0 Hp Hr B.
  destruct (run_sim maxT ls _ _ _ _ Hm (R_init cnt0 H0) Hp Hr B) as (ss & E & _). exists ss. exact E.
Qed.

Print Assumptions relay_refines_spec.
