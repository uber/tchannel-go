(* C10, server side: A HANDLER'S SYSTEM ERROR ON A DRAINING CONNECTION IS DELIVERED.

   Model/RespWire.v describes InboundCallResponse.SendSystemError as repaired: the error frame
   is queued on the connection FIRST, doneSending (mex.shutdown -> removeExchange ->
   checkExchanges) runs afterwards.  A connection that is draining after Close cannot reach
   connectionInboundClosed / connectionClosed while a dispatched call still has its exchange
   registered (invariant [drainJ]: without a connection failure, in those two states the only
   registered exchanges are those of call reqs still inside handleCallReq, before the state
   re-check).  So SendSystemError of a dispatched call whose exchange is still registered
   always finds the connection Active or StartClose and -- unless the send buffer is full --
   queues exactly the frame (id, Err); the removal that may close the connection follows it.

   With the opposite order (doneSending first) this is false for the LAST exchange of a
   draining connection: its removal closes the connection and the frame is refused. *)
From Coq Require Import ZArith List Bool Lia.
From Verif Require Import Base.Wire Spec.WireOk Proofs.WireOkP Model.RespWire Proofs.RespWireP.
Import ListNotations.
Local Open Scope Z_scope.

Definition closing (s : cstate) : Prop := s = CInboundClosed \/ s = CClosed.

(* no handler goroutine runs for the call: handleCallReq is not yet past its re-check, or the
   call was declined there / its method could not be read *)
Definition nohandler (p : hpc) : Prop := p = PAdmit \/ p = PDead.

Definition drainJ (st : state) : Prop :=
  stopped st = false -> closing (cst st) ->
  forall id c, get id (calls st) = Some c -> in_ex c = true -> nohandler (h_pc c).

Lemma drain_ext st st' :
  cst st' = cst st -> stopped st' = stopped st -> calls st' = calls st -> drainJ st -> drainJ st'.
Proof. unfold drainJ. intros -> -> ->. exact (fun H => H). Qed.

Lemma inbound_zero l : inbound_count l = 0 -> forall id c, get id l = Some c -> in_ex c = false.
Proof.
  unfold inbound_count. induction l as [|[k c0] r IH]; intros Z0 id c G; cbn [get] in G; [discriminate|].
  cbn [filter snd] in Z0. destruct (in_ex c0) eqn:E0; [cbn [length] in Z0; lia|].
  destruct (k =? id); [inversion G; subst; exact E0 | eapply IH; eassumption].
Qed.

Lemma drain_check st : drainJ st -> drainJ (check_exchanges st).
Proof.
  unfold drainJ, check_exchanges, closing. cbn [stopped calls cst set_cst].
  intros J Hs Hc id c G E. rewrite Hs in Hc.
  destruct (cst st) eqn:Ec.
  - destruct Hc; discriminate.
  - destruct (inbound_count (calls st) =? 0) eqn:Z0.
    + apply Z.eqb_eq in Z0. rewrite (inbound_zero _ Z0 _ _ G) in E. discriminate.
    + destruct Hc; discriminate.
  - apply (J Hs (or_introl eq_refl) id c G E).
  - apply (J Hs (or_intror eq_refl) id c G E).
Qed.

(* the new record of a call is registered only if the old one was, and a call that has not
   passed the re-check of handleCallReq stays there *)
Definition cond (c c' : call) : Prop :=
  in_ex c' = true -> in_ex c = true /\ (nohandler (h_pc c) -> nohandler (h_pc c')).

Lemma drain_put st id c c' :
  drainJ st -> get id (calls st) = Some c -> cond c c' ->
  drainJ (set_calls st (put id c' (calls st))).
Proof.
  unfold drainJ, cond. cbn [stopped cst calls set_calls]. intros J G C Hs Hc x cx Gx Ex.
  destruct (Z.eq_dec x id) as [->|N].
  - rewrite get_put_same in Gx. inversion Gx; subst cx. destruct (C Ex) as [E0 P].
    apply P. apply (J Hs Hc id c G E0).
  - rewrite (get_put_other _ _ _ _ N) in Gx. apply (J Hs Hc x cx Gx Ex).
Qed.

Lemma drain_put_new st id c' :
  drainJ st -> nohandler (h_pc c') -> drainJ (set_calls st (put id c' (calls st))).
Proof.
  unfold drainJ. cbn [stopped cst calls set_calls]. intros J P Hs Hc x cx Gx Ex.
  destruct (Z.eq_dec x id) as [->|N].
  - rewrite get_put_same in Gx. inversion Gx; subst cx. exact P.
  - rewrite (get_put_other _ _ _ _ N) in Gx. apply (J Hs Hc x cx Gx Ex).
Qed.

Lemma drain_commit st id c c' chk :
  drainJ st -> get id (calls st) = Some c -> cond c c' -> drainJ (commit st id c' chk).
Proof.
  intros J G C. unfold commit. pose proof (drain_put st id c c' J G C) as J1.
  destruct chk; [apply drain_check; exact J1 | exact J1].
Qed.

(* a handler API call: the exchange does not come back into the map, and a call that has a
   handler keeps it *)
Lemma drain_hstep st id c l st' :
  drainJ st -> get id (calls st) = Some c -> hstep st id c l = Some st' -> drainJ st'.
Proof.
  intros J G H. destruct (hstep_shape _ _ _ _ _ G H) as [c' chk m fr [[P1 P2] Hloc _ _ _ _ _ _ _] _].
  apply (drain_commit _ id c); [apply (drain_ext st); try reflexivity; exact J | exact G|].
  intros X. split; [exact (Hloc X) | intros [E | E]; contradiction].
Qed.

Lemma drain_not_closing st : ~ closing (cst st) -> drainJ st.
Proof. intros N _ C. contradiction. Qed.

Lemma drain_stopped st : stopped st = true -> drainJ st.
Proof. intros S S'. congruence. Qed.

Lemma drain_close st : drainJ st -> drainJ (conn_close st).
Proof.
  intros J. unfold conn_close. destruct (cst st) eqn:Ec; try exact J.
  apply drain_check. apply drain_not_closing. cbn. unfold closing. intros [X | X]; discriminate.
Qed.

Lemma drain_stop st : drainJ st -> drainJ (conn_stop st).
Proof.
  intros J. unfold conn_stop. destruct (stopped st) eqn:S; [exact J|].
  destruct (mexset_shut st); apply drain_stopped; reflexivity.
Qed.

Lemma drain_qstep st st' : qstep st st' -> drainJ st -> drainJ st'.
Proof.
  induction 1 as [| st id c c' chk G M | st | st | st n | st st' _ IH | st st' r _ IH]; intros J.
  - exact J.
  - apply (drain_commit _ _ c); [exact J | exact G|].
    destruct M as (loc & cx & ech & sh & ep & -> & _ & L). intros X. split; [exact (L X) | exact (fun N => N)].
  - apply drain_close; exact J.
  - apply drain_stop; exact J.
  - apply (drain_ext st); try reflexivity; exact J.
  - apply drain_check, IH, J.
  - apply (drain_ext st'); try reflexivity. apply IH, J.
Qed.

Lemma step_drain st l st' : drainJ st -> step st l = Some st' -> drainJ st'.
Proof.
  intros J H. destruct (step_cases _ _ _ H) as [l id c st' _ G Hs | l st' _ _ Q | l rid st' Rs].
  - eapply drain_hstep; eassumption.
  - eapply drain_qstep; eassumption.
  - assert (Js : forall s full, drainJ s -> drainJ (fst (conn_send_syserr s rid full)))
      by (intros s full Js; destruct (send_syserr_cases s rid full) as [-> | ->];
          [exact Js | apply (drain_ext s); try reflexivity; exact Js]).
    destruct Rs as [full Hrd _ | full Hrd | full Hrd | full Hrd | c full Hrd G Ec | c c1 chk full Hrd G E].
    + apply (drain_ext st); try reflexivity; exact J.
    + apply Js. apply (drain_ext st); try reflexivity; exact J.
    + apply (drain_ext (fst (conn_send_syserr st rid full))); try reflexivity. apply Js, J.
    + apply (drain_ext (set_calls st (put rid new_call (calls st)))); try reflexivity.
      apply drain_put_new; [exact J | left; reflexivity].
    + (* dispatched: the connection is active *)
      apply drain_not_closing. cbn [cst set_rd]. unfold commit. cbn [cst set_calls]. rewrite Ec.
      unfold closing. intros [X | X]; discriminate.
    + (* declined: the call is left without a handler *)
      apply (drain_ext (commit (fst (conn_send_syserr st rid full)) rid (upd_pc c1 PDead) chk)); try reflexivity.
      apply (drain_commit _ _ c); [apply Js, J | destruct (send_syserr_cases st rid full) as [-> | ->]; exact G|].
      apply mexvar_shut in E as (loc & cx & ech & sh & ep & -> & _ & L).
      intros X. split; [exact (L X) | intros _; right; reflexivity].
Qed.

Lemma drain_init prop : drainJ (init_state prop).
Proof. intros _ _ id c G. discriminate G. Qed.

Lemma run_from_drain ls : forall st st', drainJ st -> run_from st ls = Some st' -> drainJ st'.
Proof.
  induction ls as [|l r IH]; intros st st' J H; cbn [run_from] in H.
  - apply Some_inj in H; subst; exact J.
  - destruct (step st l) as [st1|] eqn:E; [|discriminate].
    eapply IH; [eapply step_drain; eassumption | exact H].
Qed.

(* Without a connection failure, a dispatched call whose exchange is still registered keeps
   the connection out of InboundClosed / Closed: it is Active or draining (StartClose). *)
Theorem respwire_drain_state prop ls st id c :
  run prop ls = Some st -> stopped st = false ->
  get id (calls st) = Some c -> in_ex c = true -> h_pc c <> PAdmit -> h_pc c <> PDead ->
  cst st = CActive \/ cst st = CStartClose.
Proof.
  unfold run. intros Hrun Hs G E N1 N2.
  pose proof (run_from_drain _ _ _ (drain_init prop) Hrun) as J.
  destruct (cst st) eqn:Ec; auto; exfalso.
  - destruct (J Hs (or_introl Ec) id c G E); contradiction.
  - destruct (J Hs (or_intror Ec) id c G E); contradiction.
Qed.

(* SendSystemError of such a call, the send buffer not being full, queues exactly its frame *)
Theorem respwire_syserr_step prop ls st id c :
  run prop ls = Some st -> stopped st = false ->
  get id (calls st) = Some c -> h_pc c = PIdle -> in_ex c = true -> w_err c = false ->
  exists st' c', step st (HSysErr id false) = Some st' /\
    sent st' = sent st ++ [(id, Err)] /\
    get id (calls st') = Some c' /\ g_rets c' = g_rets c ++ [0] /\ g_dones c' = true.
Proof.
  intros Hrun Hs G Hpc E We.
  assert (Hst : cst st = CActive \/ cst st = CStartClose).
  { eapply respwire_drain_state; try eassumption; rewrite Hpc; discriminate. }
  cbn [step]. unfold with_call. rewrite G. unfold hstep. rewrite Hpc, We.
  set (st0 := if g_dones c then add_misused st id else st).
  assert (B : cst st0 = cst st /\ sent st0 = sent st) by (unfold st0; destruct (g_dones c); auto).
  destruct B as (B1 & B2).
  assert (Cs : conn_send_syserr st0 id false = (enqueue st0 id Err, true)).
  { unfold conn_send_syserr. rewrite B1. destruct Hst as [-> | ->]; reflexivity. }
  rewrite Cs.
  destruct (done_sending (upd_w c false WComplete (rd_err c))) as [c1 chk] eqn:Ds.
  apply done_sending_eq in Ds as (c0 & (loc & cx & ech & sh & ep & -> & _) & _ & ->).
  eexists. eexists. split; [reflexivity|].
  split; [rewrite sent_commit; cbn [sent enqueue]; rewrite B2; reflexivity|].
  split; [apply get_commit_same | split; reflexivity].
Qed.

Definition ext (st st' : state) : Prop := exists t, sent st' = sent st ++ t.

Lemma run_from_ext ls : forall st st', run_from st ls = Some st' -> ext st st'.
Proof.
  induction ls as [|l r IH]; intros st st' H; cbn [run_from] in H.
  - apply Some_inj in H; subst. exists []. symmetry. apply app_nil_r.
  - destruct (step st l) as [st1|] eqn:E; [|discriminate].
    destruct (step_ghost _ _ _ 0 E) as (_ & [t Et] & _). destruct (IH _ _ H) as [u Eu].
    exists (t ++ u). rewrite Eu, Et. symmetry. apply app_assoc.
Qed.

Lemma run_from_app l1 : forall st l2,
  run_from st (l1 ++ l2) = match run_from st l1 with Some s => run_from s l2 | None => None end.
Proof.
  induction l1 as [|l r IH]; intros st l2; cbn [app run_from]; [reflexivity|].
  destruct (step st l); [apply IH | reflexivity].
Qed.

(* ---- THE DELIVERY THEOREM ------------------------------------------------------------------------
   A run reaches [st1] without a connection failure; the handler of the dispatched call [id],
   whose exchange is still registered and whose response has not failed, now calls
   SendSystemError and the send buffer has room; the run goes on in any way ([ls2]: the
   removal may close the draining connection, the peer may cut it, ...).  If the id is inside
   C10's quantifier (requested once; the handler does not misuse SendSystemError), then the
   frames of the id are, for ever after, those sent before followed by EXACTLY ONE error frame:
   an accepted word, whose only terminal frame is that error frame.  No "or the connection
   closed first" alternative -- also when the call is the last exchange of a draining connection. *)
Theorem respwire_syserr_delivered prop ls1 st1 id c ls2 st :
  run prop ls1 = Some st1 -> stopped st1 = false ->
  get id (calls st1) = Some c -> h_pc c = PIdle -> in_ex c = true -> w_err c = false ->
  run prop (ls1 ++ HSysErr id false :: ls2) = Some st ->
  (req_count id (ls1 ++ HSysErr id false :: ls2) <= 1)%nat ->
  handler_ok id false (ls1 ++ HSysErr id false :: ls2) = true ->
    proj id (sent st) = proj id (sent st1) ++ [Err] /\
    wire_ok (proj id (sent st)) = true /\
    filter terminal (proj id (sent st)) = [Err].
Proof.
  intros H1 Hs G Hpc E We Hrun Hc Hok.
  destruct (respwire_syserr_step prop ls1 st1 id c H1 Hs G Hpc E We) as (st' & c' & Hstep & Hsent & _).
  pose proof Hrun as Hrun'. unfold run in Hrun', H1. rewrite run_from_app, H1 in Hrun'.
  cbn [run_from] in Hrun'. rewrite Hstep in Hrun'.
  destruct (run_from_ext _ _ _ Hrun') as [t Et].
  destruct (respwire_grammar_labels prop _ st Hrun id Hc Hok) as (P & Last & One & _).
  assert (Ep : proj id (sent st) = proj id (sent st1) ++ Err :: proj id t).
  { rewrite Et, Hsent, !proj_app. cbn [proj]. rewrite Z.eqb_refl, <- app_assoc. reflexivity. }
  pose proof (Last _ _ _ Ep eq_refl) as Nil. rewrite Nil in Ep.
  split; [exact Ep|]. split.
  - apply wire_prefix_ok_run in P. destruct P as [q Hq]. rewrite Ep, wire_run_snoc in Hq.
    destruct (wire_run W0 (proj id (sent st1))) as [q1|] eqn:Q1; [|discriminate].
    apply wire_run_end_ok. rewrite Ep, wire_run_snoc, Q1.
    destruct q1; cbn in Hq |- *; congruence.
  - rewrite Ep in One |- *. rewrite filter_app in One |- *. cbn [filter terminal] in One |- *.
    rewrite app_length in One. cbn [length] in One.
    destruct (filter terminal (proj id (sent st1))) as [|x r]; [reflexivity | cbn [length] in One; lia].
Qed.

(* the case the repair is about: the call is the LAST exchange of a connection that is draining
   after Close.  The error frame is queued, the call returns nil, and the removal of the
   exchange then closes the connection. *)
Definition drain_last_labels : list label :=
  [RdCallReq1 7 false; RdCallReq2 true false; RdCallReq3 false; HStart 7 true; HResp 7; CClose].

Lemma respwire_drain_last_example :
  exists st1 c st,
    run false drain_last_labels = Some st1 /\ cst st1 = CStartClose /\ stopped st1 = false /\
    get 7 (calls st1) = Some c /\ h_pc c = PIdle /\ in_ex c = true /\ w_err c = false /\
    inbound_count (calls st1) = 1 /\
    (req_count 7 (drain_last_labels ++ [HSysErr 7 false]) <= 1)%nat /\
    handler_ok 7 false (drain_last_labels ++ [HSysErr 7 false]) = true /\
    run false (drain_last_labels ++ [HSysErr 7 false]) = Some st /\
    proj 7 (sent st) = [Err] /\ cst st = CClosed /\
    (exists c', get 7 (calls st) = Some c' /\ g_rets c' = [0]).
Proof.
  eexists. eexists. eexists. split; [vm_compute; reflexivity|].
  split; [reflexivity|]. split; [reflexivity|]. split; [reflexivity|].
  split; [reflexivity|]. split; [reflexivity|]. split; [reflexivity|]. split; [reflexivity|].
  split; [vm_compute; lia|]. split; [reflexivity|]. split; [vm_compute; reflexivity|].
  split; [reflexivity|]. split; [reflexivity|]. eexists. split; reflexivity.
Qed.
