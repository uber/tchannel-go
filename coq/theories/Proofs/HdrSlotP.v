(* C18: the per-context header slot.  (1) the model of Model/HdrSlot.v (headers through the
   thrift codec, the clients' statement sequences after the retry loop) observes on EVERY
   sequence of operations exactly what Spec/HdrPath.v specifies; (2) consequences stated on
   the model: an answered call leaves exactly its own handler's response headers, and what a
   call shows does not depend on the calls made before it with the same context.  (That the
   statement sequences and slot functions REGENERATED from the Go source, Gen/GenHdrPath.v, are
   the model's holds by computation: Props/C18.v.) *)
From Coq Require Import ZArith List Bool Lia.
From Verif Require Import Base.Wrap Base.Bytes Base.Wire Model.TypedBuf Model.Messages Model.Codecs
  Spec.Protocol Spec.HdrPath Model.HdrSlot Proofs.CodecP Proofs.CodecsP.
Import ListNotations.
Local Open Scope Z_scope.

(* a header map the codec can carry, in canonical form *)
Definition hmap_ok (h : kvs) : Prop := kvs16_ok h /\ canon_map h = h.

Definition hop_ok (o : hop) : Prop :=
  match o with
  | HWith h => hmap_ok h
  | HCall _ _ resp => hmap_ok resp
  | _ => True
  end.

Lemma thrift_wire_ok h : hmap_ok h -> thrift_wire h = Some h.
Proof.
  intros [Hk Hc]. unfold thrift_wire. rewrite (write_theaders_spec h Hk).
  destruct h as [|kv h'] eqn:Eh.
  - pose proof (r_theaders_empty []) as He. rewrite app_nil_r in He. rewrite He.
    cbn [rerr rrem rb zlen length Z.of_nat Z.eqb negb]. reflexivity.
  - rewrite <- Eh in *.
    assert (Hne : h <> []) by (rewrite Eh; discriminate).
    destruct (r_theaders_nonempty h Hk Hne) as [Hrd _].
    specialize (Hrd []). rewrite app_nil_r in Hrd. rewrite Hrd.
    cbn [rerr rrem rb zlen length Z.of_nat Z.eqb negb]. rewrite Hc. reflexivity.
Qed.

(* ---------------- model = specification ---------------- *)
Definition abs_slot (c : hslot) : sctx := (s_req c, s_resp c).
Definition abs_stack (st : hstack) : sstack := (abs_slot (fst st), map abs_slot (snd st)).

Definition stack_ok (st : hstack) : Prop := hmap_ok (s_req (fst st)) /\ Forall (fun c => hmap_ok (s_req c)) (snd st).

Lemma hmap_ok_nil : hmap_ok [].
Proof.
  split; [|reflexivity]. split; [cbn; lia | constructor].
Qed.

Lemma hinit_ok : stack_ok hinit.
Proof. split; [exact hmap_ok_nil | constructor]. Qed.

Lemma answered_cases outcome : answered outcome = true -> outcome = 0 \/ outcome = 1.
Proof. unfold answered. intros H. apply orb_true_iff in H. destruct H as [H|H]; apply Z.eqb_eq in H; auto. Qed.

Lemma do_call_spec c kind outcome resp :
  hmap_ok (s_req c) -> hmap_ok resp ->
  let '(c', ob) := do_call c kind outcome resp in
  (abs_slot c', ob) = spec_call (abs_slot c) outcome resp.
Proof.
  intros Hreq Hresp. destruct c as [req rs]. cbn [s_req] in Hreq.
  unfold do_call, spec_call, abs_slot. cbn [fst snd s_req s_resp].
  fold (answered outcome).
  destruct (kind =? 0).
  - unfold call_thrift, ctx_headers, ctx_resp_headers, ctx_set_resp, ctx_with_headers. cbn [s_req s_resp].
    rewrite (thrift_wire_ok req Hreq). fold (answered outcome).
    destruct (answered outcome) eqn:Ha; cbn [negb].
    + rewrite (thrift_wire_ok resp Hresp). unfold thrift_call_tail. cbn [s_req s_resp].
      destruct (answered_cases _ Ha) as [->| ->]; reflexivity.
    + unfold thrift_call_tail. cbn [s_req s_resp]. reflexivity.
  - unfold call_json, ctx_headers, ctx_resp_headers, ctx_set_resp, ctx_with_headers. cbn [s_req s_resp].
    fold (answered outcome).
    destruct (answered outcome) eqn:Ha; cbn [negb].
    + unfold json_call_tail. cbn [s_req s_resp].
      destruct (answered_cases _ Ha) as [->| ->]; reflexivity.
    + unfold json_call_tail. cbn [s_req s_resp]. reflexivity.
Qed.

Lemma do_call_req c kind outcome resp : s_req (fst (do_call c kind outcome resp)) = s_req c.
Proof.
  destruct c as [req rs]. unfold do_call, call_thrift, call_json, ctx_headers, ctx_resp_headers,
    ctx_set_resp, ctx_with_headers, thrift_call_tail, json_call_tail. cbn [s_req s_resp].
  destruct (kind =? 0).
  - destruct (thrift_wire req); [|reflexivity].
    destruct (negb ((outcome =? 0) || (outcome =? 1))); [reflexivity|].
    destruct (thrift_wire resp); reflexivity.
  - destruct (negb ((outcome =? 0) || (outcome =? 1))); reflexivity.
Qed.

Lemma hstep_spec st o : stack_ok st -> hop_ok o ->
  stack_ok (fst (hstep st o)) /\
  (abs_stack (fst (hstep st o)), snd (hstep st o)) = spec_step (abs_stack st) o.
Proof.
  intros [Hc Hp] Ho. destruct st as [cur par]. cbn [fst snd] in Hc, Hp.
  destruct o as [h| | |kind outcome resp]; cbn [hstep spec_step abs_stack fst snd hop_ok] in *.
  - split; [split; [exact Ho | exact Hp] | reflexivity].
  - split; [split; [exact Hc | constructor; [exact Hc | exact Hp]] |].
    destruct cur; reflexivity.
  - destruct par as [|p par'].
    + split; [split; [exact Hc | exact Hp] | reflexivity].
    + inversion Hp as [|? ? Hp1 Hp2]; subst.
      split; [split; [exact Hp1 | exact Hp2] | reflexivity].
  - pose proof (do_call_spec cur kind outcome resp Hc Ho) as Hs.
    pose proof (do_call_req cur kind outcome resp) as Hr.
    destruct (do_call cur kind outcome resp) as [cur' ob] eqn:Ed. cbn [fst snd] in *.
    split; [split; [cbn [fst]; rewrite Hr; exact Hc | exact Hp] |].
    rewrite <- Hs. reflexivity.
Qed.

Theorem hrun_obs_spec ops : forall st, stack_ok st -> Forall hop_ok ops ->
  hrun_obs st ops = spec_run (abs_stack st) ops.
Proof.
  induction ops as [|o rest IH]; intros st Hst Hops; [reflexivity|].
  inversion Hops as [|? ? Ho Hrest]; subst.
  destruct (hstep_spec st o Hst Ho) as [Hst' Heq].
  cbn [hrun_obs spec_run].
  destruct (hstep st o) as [st' ob] eqn:Es. cbn [fst snd] in *.
  rewrite <- Heq. rewrite (IH st' Hst' Hrest).
  destruct st' as [c' p']. reflexivity.
Qed.

Lemma hfinal_spec ops : forall st, stack_ok st -> Forall hop_ok ops ->
  stack_ok (hfinal st ops) /\ abs_stack (hfinal st ops) = spec_final (abs_stack st) ops.
Proof.
  induction ops as [|o rest IH]; intros st Hst Hops; [split; [exact Hst | reflexivity]|].
  inversion Hops as [|? ? Ho Hrest]; subst.
  destruct (hstep_spec st o Hst Ho) as [Hst' Heq].
  cbn [hfinal spec_final].
  destruct (IH _ Hst' Hrest) as [H1 H2]. split; [exact H1|].
  rewrite H2. f_equal. apply (f_equal fst) in Heq. exact Heq.
Qed.

(* ---------------- consequences, on the specification ---------------- *)
(* the request headers of the contexts on the stack are decided by the caller's own actions *)
Definition req_stack (st : sstack) : hmap * list hmap := (fst (fst st), map fst (snd st)).

Lemma spec_final_req_gen ops : forall st1 st2, req_stack st1 = req_stack st2 ->
  req_stack (spec_final st1 ops) = req_stack (spec_final st2 (caller_ops ops)).
Proof.
  induction ops as [|o rest IH]; intros st1 st2 Heq; [exact Heq|].
  cbn [spec_final caller_ops filter].
  destruct st1 as [[rq1 rs1] par1], st2 as [[rq2 rs2] par2].
  unfold req_stack in Heq. cbn [fst snd] in Heq. injection Heq as Hq Hp.
  destruct o as [h| | |kind outcome resp]; cbn [is_call negb spec_final spec_step fst snd].
  - apply IH. unfold req_stack. cbn [fst snd]. rewrite Hp. reflexivity.
  - apply IH. unfold req_stack. cbn [fst snd map]. rewrite Hq, Hp. reflexivity.
  - apply IH. destruct par1 as [|[a1 b1] p1], par2 as [|[a2 b2] p2]; cbn [map] in Hp; try discriminate.
    + unfold req_stack. cbn [fst snd map]. rewrite Hq. reflexivity.
    + injection Hp as Ha Hp'. unfold req_stack. cbn [fst snd]. cbn [fst] in Ha. rewrite Ha, Hp'. reflexivity.
  - apply IH. unfold spec_call. destruct (answered outcome); unfold req_stack; cbn [fst snd]; rewrite Hq, Hp; reflexivity.
Qed.

Lemma spec_final_req ops st :
  req_stack (spec_final st ops) = req_stack (spec_final st (caller_ops ops)).
Proof. apply spec_final_req_gen. reflexivity. Qed.

Lemma spec_run_app ops1 : forall st ops2,
  spec_run st (ops1 ++ ops2) = spec_run st ops1 ++ spec_run (spec_final st ops1) ops2.
Proof.
  induction ops1 as [|o rest IH]; intros st ops2; [reflexivity|].
  cbn [app spec_run spec_final]. destruct (spec_step st o) as [st' ob]. cbn [fst].
  rewrite IH. reflexivity.
Qed.

Definition last_obs (l : list hobs) : hobs := last l (None, [], []).

Lemma last_app_single {A} (l : list A) x d : last (l ++ [x]) d = x.
Proof. induction l as [|a l IH]; [reflexivity|]. cbn [app]. destruct (l ++ [x]) eqn:E; [destruct l; discriminate|]. exact IH. Qed.

(* An answered call, after ANY sequence of earlier operations: the handler saw exactly the request
   headers of the current context, the caller got the handler's outcome, and the context's
   response headers are exactly the ones this handler set. *)
Lemma spec_call_exact st pre kind outcome resp : answered outcome = true ->
  last_obs (spec_run st (pre ++ [HCall kind outcome resp])) =
  (Some (mkCallObs outcome true (fst (fst (spec_final st pre)))), fst (fst (spec_final st pre)), resp).
Proof.
  intros Ha. unfold last_obs. rewrite spec_run_app. cbn [spec_run].
  destruct (spec_final st pre) as [[rq rs] par]. unfold spec_step, spec_call. rewrite Ha.
  cbn [fst snd]. apply last_app_single.
Qed.

(* ---------------- the same, on the model ---------------- *)
Theorem model_call_exact pre kind outcome resp :
  Forall hop_ok pre -> hmap_ok resp -> answered outcome = true ->
  let c := fst (hfinal hinit pre) in
  last_obs (hrun_obs hinit (pre ++ [HCall kind outcome resp])) =
  (Some (mkCallObs outcome true (ctx_headers c)), ctx_headers c, resp).
Proof.
  intros Hpre Hresp Ha c.
  assert (Hall : Forall hop_ok (pre ++ [HCall kind outcome resp])).
  { apply Forall_app. split; [exact Hpre | constructor; [exact Hresp | constructor]]. }
  rewrite (hrun_obs_spec _ hinit hinit_ok Hall).
  rewrite (spec_call_exact _ pre kind outcome resp Ha).
  destruct (hfinal_spec pre hinit hinit_ok Hpre) as [_ Hf].
  rewrite <- Hf. reflexivity.
Qed.

(* the request headers of the current context are a function of what the CALLER did *)
Lemma model_req_headers pre : Forall hop_ok pre ->
  ctx_headers (fst (hfinal hinit pre)) = fst (req_stack (spec_final (abs_stack hinit) (caller_ops pre))).
Proof.
  intros H. destruct (hfinal_spec pre hinit hinit_ok H) as [_ Hf].
  change (ctx_headers (fst (hfinal hinit pre))) with (fst (req_stack (abs_stack (hfinal hinit pre)))).
  rewrite Hf, spec_final_req. reflexivity.
Qed.

(* History independence: two histories in which the CALLER did the same things (same WithHeaders /
   Child / back-to-parent operations; any calls, with any outcomes and response headers, in
   between) give the same observation for the next answered call. *)
Theorem model_history_independent pre1 pre2 kind outcome resp :
  Forall hop_ok pre1 -> Forall hop_ok pre2 -> hmap_ok resp -> answered outcome = true ->
  caller_ops pre1 = caller_ops pre2 ->
  last_obs (hrun_obs hinit (pre1 ++ [HCall kind outcome resp])) =
  last_obs (hrun_obs hinit (pre2 ++ [HCall kind outcome resp])).
Proof.
  intros H1 H2 Hresp Ha Hc.
  rewrite (model_call_exact pre1 kind outcome resp H1 Hresp Ha), (model_call_exact pre2 kind outcome resp H2 Hresp Ha).
  rewrite (model_req_headers pre1 H1), (model_req_headers pre2 H2), Hc. reflexivity.
Qed.

Theorem hrun_obs_init_spec ops : Forall hop_ok ops -> hrun_obs hinit ops = spec_run sinit ops.
Proof. intros H. exact (hrun_obs_spec ops hinit hinit_ok H). Qed.

(* the harness entry point is the specification, encoded *)
Theorem run_hdrseq_spec c :
  Forall hop_ok (fst (take_list take_hop c)) ->
  run_hdrseq c = flat_map put_hobs (spec_run sinit (fst (take_list take_hop c))).
Proof.
  intros Hok. unfold run_hdrseq. destruct (take_list take_hop c) as [ops r]. cbn [fst] in *.
  rewrite (hrun_obs_spec ops hinit hinit_ok Hok). reflexivity.
Qed.
