(* C17, last clause: a sub-channel call made in a retry attempt avoids the peers already
   tried while untried ones exist -- from the peer selection theorem of C15. *)
From Coq Require Import ZArith List Bool Lia.
From Verif Require Import Base.Wrap Spec.PeerSelect Model.PeerHeap Model.PeerList Proofs.PeerListP Model.Retry.
Import ListNotations.
Local Open Scope Z_scope.

(* The selection of a well-formed list is a member.  If some member of the list has an untried
   host:port, it is a member whose host:port is untried; if some member has an untried host:port
   AND an untried host, it is such a member.  [prev] is the request's selected set (what
   AddSelectedPeer accumulated). *)
Lemma get_avoids_wf l prev d l' p n : wf l -> pl_get l prev d = Some (l', SelOk p, n) ->
  wf l' /\ pl_keys l' = pl_keys l /\ In p (pl_keys l) /\
  ((exists q, In q (pl_keys l) /\ tier2 prev q = true) -> tier2 prev p = true) /\
  ((exists q, In q (pl_keys l) /\ tier1 prev q = true) -> tier1 prev p = true).
Proof.
  intros Hwf Hg. pose proof (get_min_eligible l prev d Hwf) as H. rewrite Hg in H.
  destruct H as ((s & Hin & He & _) & W & K & _).
  split; [exact W|]. split; [exact K|]. split; [eapply wf_key_entry; eassumption|].
  now apply eligible_get_tiers.
Qed.

Theorem get_avoids_tried : forall ops l prev d l' p n,
  lrun pl_empty ops = Some l -> pl_get l prev d = Some (l', SelOk p, n) ->
  ((exists q, In q (pl_keys l) /\ tier2 prev q = true) -> tier2 prev p = true) /\
  ((exists q, In q (pl_keys l) /\ tier1 prev q = true) -> tier1 prev p = true).
Proof.
  intros ops l prev d l' p n Hr Hg. now apply (get_avoids_wf l prev d l' p n (lrun_reach_wf ops l Hr) Hg).
Qed.

Lemma get_host_host_of hp : get_host hp = host_of hp.
Proof. reflexivity. (* the two host functions are the same fixpoint *) Qed.
