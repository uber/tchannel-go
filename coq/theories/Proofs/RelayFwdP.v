(* Proofs about the relay's frame transformation (Model/RelayLazy.v, Model/RelayFwd.v):
   validateRelayMaxTimeout, the ttl clamp, transparency of the forwarded call req frame. *)
From Coq Require Import ZArith List Bool Lia.
From Verif Require Import Base.Wrap Base.Bytes Base.Wire Gen.GenConsts Gen.GenFrame Gen.GenRelayFwd
  Model.TypedBuf Model.Messages Model.Crc Model.Frag Model.FragWire Model.RelayLazy Model.RelayAppend Model.RelayFwd
  Spec.Protocol Spec.RelaySpec Proofs.CodecP Proofs.CodecsP.
Import ListNotations.
Local Open Scope Z_scope.

Definition max_ok (maxT : Z) : Prop := 0 < Z.quot maxT ms_ns <= 4294967295.

Lemma validate_max_ok d : - 2 ^ 63 <= d < 2 ^ 63 -> max_ok (validateRelayMaxTimeout d).
Proof.
  intros Hd. unfold validateRelayMaxTimeout, max_ok, ms_ns.
  assert (Hq : - 2 ^ 63 <= Z.quot d 1000000 < 2 ^ 63) by (Z.to_euclidean_division_equations; lia).
  rewrite (wrapS_id 64) by (change (64 - 1) with 63; lia).
  destruct ((Z.quot d 1000000 >? 0) && (Z.quot d 1000000 <=? 4294967295)) eqn:E.
  - lia.
  - assert (Z.quot c_u_defaultRelayMaxTimeout 1000000 = 120000) as Hdef by reflexivity.
    destruct (d =? 0); rewrite Hdef; lia.
Qed.

Lemma max_ok_range maxT : max_ok maxT -> 0 < maxT < 2 ^ 63.
Proof. unfold max_ok, ms_ns. intros H. Z.to_euclidean_division_equations. lia. Qed.

Lemma skipn_skipn_add {A} (a b : nat) (l : list A) : skipn b (skipn a l) = skipn (a + b) l.
Proof.
  revert l; induction a as [|a IH]; intros l; [reflexivity|].
  destruct l; [rewrite !skipn_nil; reflexivity|]. cbn [skipn plus]. apply IH.
Qed.

Lemma split_1_4 (p : list Z) : p = firstn 1 p ++ firstn 4 (skipn 1 p) ++ skipn 5 p.
Proof.
  change (skipn 5 p) with (skipn (1 + 4) p).
  rewrite <- (skipn_skipn_add 1 4 p). rewrite (firstn_skipn 4 (skipn 1 p)). symmetry. apply firstn_skipn.
Qed.

Lemma skipn_app_exact {A} (a b : list A) n : length a = n -> skipn n (a ++ b) = b.
Proof. intros <-. rewrite skipn_app, skipn_all, Nat.sub_diag. reflexivity. Qed.
Lemma firstn_app_exact {A} (a b : list A) n : length a = n -> firstn n (a ++ b) = a.
Proof. intros <-. rewrite firstn_app, firstn_all, Nat.sub_diag. cbn [firstn]. apply app_nil_r. Qed.

Lemma ttl_bytes_len (p : list Z) : 5 <= zlen p -> length (firstn 4 (skipn 1 p)) = 4%nat.
Proof. unfold zlen. intros H. rewrite firstn_length, skipn_length. lia. Qed.

Lemma ttl_range p : bytes_ok p = true -> 5 <= zlen p -> 0 <= sp_ttl p < 2 ^ 32.
Proof.
  intros Hb Hl. unfold sp_ttl.
  pose proof (unbe_range (firstn 4 (skipn 1 p)) (bytes_ok_firstn _ _ (bytes_ok_skipn _ _ Hb))) as R.
  rewrite (ttl_bytes_len p Hl) in R. exact R.
Qed.

Lemma lazy_ttl_is_spec p : lazy_ttl_ms p = sp_ttl p.
Proof. reflexivity. Qed.

Lemma lazyTTL_small t : 0 <= t < 2 ^ 32 -> lazyTTL t = t * 1000000.
Proof.
  intros H. unfold lazyTTL. rewrite (wrapS_id 64 t) by (change (64 - 1) with 63; lia).
  apply wrapS_id; [lia|]. change (64 - 1) with 63. lia.
Qed.

(* the read buffer: errors are sticky, reads only consume *)
Definition rle (r' r : rbuf) : Prop :=
  rerr r' = false -> rerr r = false /\ (length (rrem r') <= length (rrem r))%nat.

Lemma rle_refl r : rle r r.
Proof. intros H. split; [exact H|lia]. Qed.

Lemma rle_trans r2 r1 r0 : rle r2 r1 -> rle r1 r0 -> rle r2 r0.
Proof. intros A B H. destruct (A H) as [A1 A2]. destruct (B A1) as [B1 B2]. split; [exact B1|lia]. Qed.

Lemma r_bytes_ok n r : rerr (snd (r_bytes n r)) = false ->
  rerr r = false /\ (n <= length (rrem r))%nat /\ rrem (snd (r_bytes n r)) = skipn n (rrem r).
Proof.
  unfold r_bytes. destruct (rerr r) eqn:E; cbn [snd]; [intros H; congruence|].
  destruct (length (rrem r) <? n)%nat eqn:L; cbn [snd rerr rrem]; [discriminate|].
  intros _. apply Nat.ltb_ge in L. split; [reflexivity|]. split; [exact L|reflexivity].
Qed.

Lemma r_bytes_rle n r : rle (snd (r_bytes n r)) r.
Proof.
  intros H. destruct (r_bytes_ok n r H) as [A [B C]]. split; [exact A|].
  rewrite C, skipn_length. lia.
Qed.

Lemma r_uint_snd n r : snd (r_uint n r) = snd (r_bytes n r).
Proof. unfold r_uint, bindR. destruct (r_bytes n r) as [b r']. reflexivity. Qed.

Lemma r_uint_rle n r : rle (snd (r_uint n r)) r.
Proof. rewrite r_uint_snd. apply r_bytes_rle. Qed.

Lemma r_len8_rle r : rle (snd (r_len8 r)) r.
Proof.
  unfold r_len8, bindR, r_string.
  pose proof (r_uint_rle 1 r) as A. unfold r_u8. destruct (r_uint 1 r) as [n r1]. cbn [snd] in A.
  eapply rle_trans; [apply r_bytes_rle|exact A].
Qed.

Lemma lazy_hdrs_rle : forall n a r, rle (snd (lazy_hdrs n a r)) r.
Proof.
  induction n as [|n IH]; intros a r; cbn [lazy_hdrs].
  - unfold retR. cbn [snd]. apply rle_refl.
  - unfold bindR.
    pose proof (r_len8_rle r) as A. destruct (r_len8 r) as [k r1]. cbn [snd] in A.
    pose proof (r_len8_rle r1) as B. destruct (r_len8 r1) as [v r2]. cbn [snd] in B.
    eapply rle_trans; [apply IH|]. eapply rle_trans; [exact B|exact A].
Qed.

(* one read of a parser: name its result and keep what it did to the buffer *)
Tactic Notation "read" constr(L) "as" simple_intropattern(P) ident(A) :=
  pose proof L as A; match type of A with rle (snd ?x) _ => destruct x as P; cbn [snd] in A end.

(* the checksum type is read at least 31 bytes into the payload: 30 fixed bytes up to the service
   length, the header count one more *)
Lemma lazy_callreq_reads p lz : lazy_callreq p = (0, lz) ->
  exists rest : nat, (rest + 31 <= length p)%nat /\ lz_ctoff lz = wrapU 16 (zlen p - Z.of_nat rest).
Proof.
  unfold lazy_callreq, r_u8, r_u16. intros H.
  pose proof (r_bytes_ok (Z.to_nat c_u_serviceLenIndex) (rb p)) as A1.
  destruct (r_bytes (Z.to_nat c_u_serviceLenIndex) (rb p)) as [x0 r1]. cbn [snd] in A1.
  read (r_uint_rle 1 r1) as [sl r2] A2.
  read (r_bytes_rle (Z.to_nat sl) r2) as [x2 r3] A3.
  pose proof (r_uint_snd 1 r3) as A4. pose proof (r_bytes_ok 1 r3) as A4'.
  destruct (r_uint 1 r3) as [nh r4]. cbn [snd] in A4. rewrite <- A4 in A4'. clear A4.
  read (lazy_hdrs_rle (Z.to_nat nh) (mkHsel [] [] [] []) r4) as [hs r5] A5.
  read (r_uint_rle 1 r5) as [ct r6] A6.
  destruct (ct >=? c_checksumCount); [discriminate H|].
  read (r_bytes_rle (Z.to_nat (ChecksumSize ct)) r6) as [x6 r7] A7.
  read (r_uint_rle 2 r7) as [a1len r8] A8.
  read (r_bytes_rle (Z.to_nat a1len) r8) as [method r9] A9.
  read (r_uint_rle 2 r9) as [a2len r10] A10.
  read (r_bytes_rle (Z.to_nat a2len) r10) as [x10 r11] A11.
  set (frag := (zlen (rrem r11) =? 0) && hasMoreFragments (nth 0 p 0)) in H.
  assert (A12 : forall a3 r12,
    (if frag then (0, r11) else let '(_, r) := r_bytes 2 r11 in (wrapU 16 (bytes_read p r), r)) = (a3, r12) ->
    rle r12 r11).
  { intros a3 r12 E. destruct frag.
    - inversion E. apply rle_refl.
    - read (r_bytes_rle 2 r11) as [y r] B. inversion E. subst r12. exact B. }
  destruct (if frag then (0, r11) else let '(_, r) := r_bytes 2 r11 in (wrapU 16 (bytes_read p r), r)) as [a3start r12] eqn:E12.
  specialize (A12 a3start r12 eq_refl).
  destruct (rerr r12) eqn:Er; [discriminate H|].
  inversion H; subst lz; clear H. cbn [lz_ctoff].
  (* chain the reads back to the first one: 30 bytes, then nothing is given back, then the
     header count takes one more byte before the checksum type *)
  assert (R12 : rle r12 r5).
  { eapply rle_trans; [exact A12|]. eapply rle_trans; [exact A11|]. eapply rle_trans; [exact A10|].
    eapply rle_trans; [exact A9|]. eapply rle_trans; [exact A8|]. eapply rle_trans; [exact A7|]. exact A6. }
  destruct (R12 Er) as [E5 _]. destruct (A5 E5) as [E4 L5].
  destruct (A4' E4) as [E3 [L3 S4]].
  destruct (A3 E3) as [E2 L3']. destruct (A2 E2) as [E1 L2].
  destruct (A1 E1) as [_ [L1 S1]]. cbn [rb rrem] in L1, S1.
  change (Z.to_nat c_u_serviceLenIndex) with 30%nat in *.
  rewrite S4, skipn_length in L5. rewrite S1, skipn_length in L2.
  exists (length (rrem r5)). split; [clear - L5 L3 L3' L2 L1; lia|reflexivity].
Qed.

Lemma clamp_ttl_spec maxT p : max_ok maxT -> bytes_ok p = true -> 5 <= zlen p ->
  clamp_ttl maxT p = sp_clamp (Z.quot maxT ms_ns) p.
Proof.
  intros Hm Hb Hl. pose proof (max_ok_range _ Hm) as Hr. pose proof (ttl_range p Hb Hl) as Ht.
  unfold clamp_ttl, sp_clamp. rewrite lazy_ttl_is_spec, (lazyTTL_small _ Ht).
  unfold max_ok, ms_ns in *. rewrite Z.quot_div_nonneg in * by lia.
  set (M := maxT / 1000000) in *.
  assert (HM : M * 1000000 <= maxT < (M + 1) * 1000000).
  { subst M. Z.to_euclidean_division_equations. lia. }
  destruct (sp_ttl p * 1000000 >? maxT) eqn:E.
  - unfold set_ttl, ms_ns. rewrite Z.quot_div_nonneg by lia. fold M.
    rewrite (wrapS_id 64 M) by (change (64 - 1) with 63; lia).
    rewrite (wrapU_id 32 M) by lia.
    replace (Z.min (sp_ttl p) M) with M by lia. reflexivity.
  - replace (Z.min (sp_ttl p) M) with (sp_ttl p) by lia.
    unfold sp_ttl. rewrite <- (ttl_bytes_len p Hl) at 1.
    rewrite be_unbe by (apply bytes_ok_firstn, bytes_ok_skipn, Hb).
    apply split_1_4.
Qed.

Lemma sp_clamp_ttl max_ms p : 0 <= max_ms < 2 ^ 32 -> bytes_ok p = true -> 5 <= zlen p ->
  sp_ttl (sp_clamp max_ms p) = Z.min (sp_ttl p) max_ms.
Proof.
  intros Hm Hb Hl. pose proof (ttl_range p Hb Hl) as Ht.
  unfold sp_clamp. unfold sp_ttl at 1.
  rewrite (skipn_app_exact (firstn 1 p)) by (unfold zlen in Hl; rewrite firstn_length; lia).
  rewrite firstn_app_exact by apply be_length.
  apply unbe_be. change (256 ^ Z.of_nat 4) with (2 ^ 32). lia.
Qed.

Lemma sp_clamp_len max_ms p : 5 <= zlen p -> zlen (sp_clamp max_ms p) = zlen p.
Proof.
  intros Hl. unfold sp_clamp. rewrite !zlen_app, zlen_be. unfold zlen in *.
  rewrite firstn_length, skipn_length. lia.
Qed.

Lemma sp_clamp_bytes_ok max_ms p : bytes_ok p = true -> bytes_ok (sp_clamp max_ms p) = true.
Proof.
  intros Hb. unfold sp_clamp. rewrite !bytes_ok_app, be_bytes_ok, (bytes_ok_firstn 1 p Hb), (bytes_ok_skipn 5 p Hb). reflexivity.
Qed.

(* everything of the call req message header behind the ttl *)
Definition callreq_tail : rbuf -> (span * list Z * kvs) * rbuf :=
  s <- r_span ;; svc <- r_len8 ;; h <- r_headers ;; retR (s, svc, h).

Lemma r_u32_exact l4 rest : length l4 = 4%nat -> r_u32 (rb (l4 ++ rest)) = (unbe l4, rb rest).
Proof.
  intros L. unfold r_u32, r_uint, bindR, r_bytes, rb. cbn [rerr rrem].
  rewrite app_length, L. cbn [Nat.ltb Nat.leb plus].
  rewrite (firstn_app_exact l4 rest 4 L), (skipn_app_exact l4 rest 4 L). reflexivity.
Qed.

Lemma r_callreq_split l4 rest : length l4 = 4%nat ->
  r_callreq (rb (l4 ++ rest)) =
  (let '((s, svc, h), r) := callreq_tail (rb rest) in (mkCallReq (wrapS 64 (unbe l4 * ms_ns)) s svc h, r)).
Proof.
  intros L. unfold r_callreq, callreq_tail. unfold bindR at 1. rewrite (r_u32_exact l4 rest L).
  unfold bindR, retR.
  destruct (r_span (rb rest)) as [s ra]. destruct (r_len8 ra) as [svc rb']. destruct (r_headers rb') as [hh rc]. reflexivity.
Qed.

Lemma r_u8_cons f X : r_u8 (rb (f :: X)) = (f, rb X).
Proof.
  unfold r_u8, r_uint, bindR, r_bytes, rb. cbn [rerr rrem length Nat.ltb Nat.leb firstn skipn].
  reflexivity.
Qed.

Theorem relay_callreq_transparent : forall maxT newid h p,
  max_ok maxT -> bytes_ok p = true -> 5 <= zlen p ->
  let h' := set_id h newid in
  let p' := clamp_ttl maxT p in
  fh_id h' = newid /\ fh_type h' = fh_type h /\ fh_size h' = fh_size h /\ fh_res1 h' = fh_res1 h /\
  zlen p' = zlen p /\ bytes_ok p' = true /\
  (let '(fl, r0) := r_u8 (rb p) in let '(m, r1) := r_callreq r0 in
   let '(fl', r0') := r_u8 (rb p') in let '(m', r1') := r_callreq r0' in
   fl' = fl /\ r1' = r1 /\
   cq_span m' = cq_span m /\ cq_service m' = cq_service m /\ cq_headers m' = cq_headers m /\
   cq_ttl_ns m' = Z.min (cq_ttl_ns m) (Z.quot maxT ms_ns * ms_ns)) /\
  parse_frag_payload c_messageTypeCallReq p' = parse_frag_payload c_messageTypeCallReq p.
Proof.
  intros maxT newid h p Hm Hb Hl. cbv zeta.
  rewrite (clamp_ttl_spec maxT p Hm Hb Hl).
  split; [reflexivity|]. split; [reflexivity|]. split; [reflexivity|]. split; [reflexivity|].
  split; [apply sp_clamp_len, Hl|]. split; [apply sp_clamp_bytes_ok, Hb|].
  pose proof (ttl_range p Hb Hl) as Ht. pose proof (max_ok_range _ Hm) as Hr.
  assert (HM : 0 < Z.quot maxT ms_ns <= 4294967295) by exact Hm.
  set (M := Z.quot maxT ms_ns) in *.
  (* p = f :: t4 ++ rest *)
  assert (Ep : exists f, p = f :: firstn 4 (skipn 1 p) ++ skipn 5 p).
  { pose proof (split_1_4 p) as E. destruct p as [|f p0]; [unfold zlen in Hl; cbn in Hl; lia|].
    exists f. exact E. }
  destruct Ep as [f Ep].
  assert (L4 : length (firstn 4 (skipn 1 p)) = 4%nat) by (apply ttl_bytes_len, Hl).
  set (t4 := firstn 4 (skipn 1 p)) in *. set (rest := skipn 5 p) in *.
  assert (Ec : sp_clamp M p = f :: be 4 (Z.min (sp_ttl p) M) ++ rest).
  { unfold sp_clamp. fold rest. rewrite Ep at 1. reflexivity. }
  rewrite Ec. rewrite Ep at 1 3.
  assert (Hmin : 0 <= Z.min (sp_ttl p) M < 2 ^ 32) by lia.
  split.
  - rewrite !r_u8_cons. rewrite (r_callreq_split t4 rest L4), (r_callreq_split _ rest (be_length 4 _)).
    destruct (callreq_tail (rb rest)) as [[[s svc] hh] r].
    cbn [cq_span cq_service cq_headers cq_ttl_ns].
    split; [reflexivity|]. split; [reflexivity|]. split; [reflexivity|]. split; [reflexivity|]. split; [reflexivity|].
    rewrite unbe_be by (change (256 ^ Z.of_nat 4) with (2 ^ 32); exact Hmin).
    change (unbe t4) with (sp_ttl p). unfold ms_ns in *.
    rewrite !(wrapS_id 64) by (change (64 - 1) with 63; lia).
    rewrite Z.mul_min_distr_nonneg_r by lia. reflexivity.
  - unfold parse_frag_payload. rewrite !r_u8_cons.
    change (c_messageTypeCallReq =? c_messageTypeCallReq) with true. cbv iota.
    rewrite (r_callreq_split t4 rest L4), (r_callreq_split _ rest (be_length 4 _)).
    destruct (callreq_tail (rb rest)) as [[[s svc] hh] r]. reflexivity.
Qed.

(* the 16 header bytes: size:2 type:1 reserved:1 id:4 reserved:8 *)
Lemma frame_out_bytes h p :
  frame_out h p = (be 2 (fh_size h) ++ [fh_type h mod 256; fh_res1 h mod 256]) ++ be 4 (fh_id h)
                  ++ repeat 0 8 ++ firstn (Z.to_nat (fh_size h - c_FrameHeaderSize)) p.
Proof.
  assert (W : writes (w_fheader h)
                (be 2 (fh_size h) ++ [fh_type h mod 256] ++ [fh_res1 h mod 256] ++ be 4 (fh_id h) ++ repeat 0 8)).
  { unfold w_fheader, w_u16, w_u8, w_u32, w_uint.
    repeat (apply seq_writes; [apply w_bytes_writes|]). apply w_bytes_writes. }
  unfold frame_out. destruct W as [W _]. rewrite W; [|reflexivity|].
  - cbn [wout wb app]. rewrite <- !app_assoc. reflexivity.
  - rewrite !zlen_app, !zlen_be. reflexivity.
Qed.

Lemma id_bytes_patched (pre a b rest : list Z) : length pre = 4%nat -> length a = 4%nat ->
  pre ++ b ++ rest = firstn 4 (pre ++ a ++ rest) ++ b ++ skipn 8 (pre ++ a ++ rest).
Proof.
  intros L La. rewrite (firstn_app_exact pre _ 4 L).
  rewrite (app_assoc pre a), skipn_app_exact by (rewrite app_length, L, La; reflexivity). reflexivity.
Qed.

(* continuation, response and error frames: only the id is rewritten *)
Theorem relay_other_transparent : forall newid h p,
  let h' := set_id h newid in
  fh_id h' = newid /\ fh_type h' = fh_type h /\ fh_size h' = fh_size h /\ fh_res1 h' = fh_res1 h /\
  frame_out h' p = firstn 4 (frame_out h p) ++ be 4 newid ++ skipn 8 (frame_out h p).
Proof.
  intros newid h p. cbv zeta. repeat (split; [reflexivity|]).
  rewrite !frame_out_bytes. cbn [set_id fh_size fh_type fh_res1 fh_id].
  apply id_bytes_patched; [rewrite app_length, be_length; reflexivity|apply be_length].
Qed.
