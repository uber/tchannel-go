(* Agreement of the REGENERATED C18 codec pieces (Gen/GenCodecs.v: thrift/arg2 key/value
   iterator, http varint strings; Gen/GenTypedBuf.v: ReadBytes for every Go int) with the
   hand model Model/Codecs.v. *)
From Coq Require Import ZArith List Bool Lia.
From Verif Require Import Base.Wrap Base.Bytes Base.GoSem Gen.GenConsts Gen.GenTypedBuf Gen.GenCodecs
  Model.TypedBuf Model.Messages Model.Codecs Model.UvarintG Proofs.CodecsP Proofs.C18RbufP Proofs.GenTypedBufP Proofs.GenMessagesP.
Import ListNotations.
Local Open Scope Z_scope.

(* ReadBytes(n) for EVERY Go int n, against the model with explicit panics: equal, hence
   never a panic (the slice expressions are guarded, the repaired negative case included) *)
Lemma ReadBytes_go_agrees g n :
  viewR bs_list (ReadBuffer_ReadBytes g n) = r_bytes_go n (absR g).
Proof.
  rewrite ReadBytes_view. unfold r_bytes_go, slice_to. destruct (rerr (absR g)); [reflexivity|].
  destruct ((n <? 0) || (zlen (rrem (absR g)) <? n)); reflexivity.
Qed.

Lemma NewReadBuffer_agrees b : option_map absR (NewReadBuffer b) = Some (rb (bs_list b)).
Proof. reflexivity. Qed.

Lemma NewWriteBuffer_agrees b : exists g, NewWriteBuffer b = Some g /\ wfW g /\ absW g = wb (bs_len b).
Proof.
  eexists. split; [reflexivity|]. apply (rs_whole_wf b 0). left; reflexivity.
Qed.

(* ---- uvarint over the generated ReadByte = the model's r_uvarint ---- *)
Lemma g_uvarint_loop_agrees n : forall i x s g,
  viewR (fun v => v) (g_uvarint_loop n i x s g) = Some (r_uvarint_loop n i x s (absR g)).
Proof.
  induction n as [|n IH]; intros i x s g; [reflexivity|].
  cbn [g_uvarint_loop r_uvarint_loop].
  pose proof (ReadSingleByte_agrees g) as H. unfold ReadBuffer_ReadSingleByte in H.
  pose proof (ReadByte_err g) as He.
  destruct (ReadBuffer_ReadByte g) as [[[b e] g1]|]; [|discriminate].
  cbn in H. inversion H as [H1]. clear H.
  destruct (He b e g1 eq_refl) as [He1|[He1 He2]].
  - subst e. change (negb (ReadBuffer_err g1 =? 0)) with (rerr (absR g1)).
    destruct (rerr (absR g1)); [reflexivity|].
    destruct (b <? 128); [reflexivity|]. apply IH.
  - subst e. cbn [Z.eqb negb].
    assert (R0 : rerr (absR g1) = false) by (unfold absR; cbn; rewrite He2; reflexivity). rewrite R0.
    destruct (b <? 128); [reflexivity|]. apply IH.
Qed.

Lemma g_ReadUvarint_agrees g : viewR (fun v => v) (g_ReadUvarint g) = Some (r_uvarint (absR g)).
Proof. apply g_uvarint_loop_agrees. Qed.

Lemma g_WriteUvarint_agrees g v : wfW g -> stepW (g_WriteUvarint g v) g (w_bytes (put_uvarint 10 v)).
Proof. intros W. apply (WriteBytes_agrees g (Some (put_uvarint 10 v)) W). Qed.

(* ---- http/buf.go ---- *)
Lemma readVarintString_agrees g :
  viewR (fun s => s) (readVarintString g) = r_varint_string (absR g).
Proof.
  unfold readVarintString, r_varint_string.
  pose proof (g_ReadUvarint_agrees g) as H. apply viewR_some in H as (len & g1 & E & V & S). rewrite E.
  destruct (r_uvarint (absR g)) as [len' r1]. cbn in V, S. subst len' r1.
  rewrite ReadString_as_ReadBytes. rewrite <- ReadBytes_go_agrees.
  destruct (ReadBuffer_ReadBytes g1 (wrapS 64 len)) as [[b g2]|]; reflexivity.
Qed.

Lemma writeVarintString_agrees g s : wfW g -> zlen s < 2 ^ 64 ->
  stepW (writeVarintString g s) g (w_varint_string s).
Proof.
  intros W Hs. unfold writeVarintString, w_varint_string.
  rewrite wrapU_id by (pose proof (zlen_nonneg s); lia).
  apply stepW_bind; [apply g_WriteUvarint_agrees, W|intros w1 W1]. apply stepW_last, WriteString_agrees, W1.
Qed.

(* ---- thrift/arg2/kv_iterator.go ---- *)
Definition kv_zero : KeyValIterator := mk_KeyValIterator None 0 None None.

(* what one Next() returns, against the model step kv_next on (leftPairCount, remaining):
   io.EOF when the count is exhausted, typed.ErrEOF when the buffer is short, else the next
   iterator holding key, value, the decremented count and the rest of the buffer *)
Definition kv_result_ok (res : KeyValIterator * Z) (m : option (unit + (list Z * list Z * Z * list Z))) : Prop :=
  match m with
  | None => res = (kv_zero, e_io_EOF)
  | Some (inl _) => res = (kv_zero, e_typed_ErrEOF)
  | Some (inr (k, v, left', rem')) =>
      snd res = 0 /\ bs_list (KeyValIterator_key (fst res)) = k /\ bs_list (KeyValIterator_val (fst res)) = v /\
      KeyValIterator_leftPairCount (fst res) = left' /\ bs_list (KeyValIterator_remaining (fst res)) = rem'
  end.

(* the only error a read buffer ever holds is ErrEOF *)
Definition errR (g : ReadBuffer) : Prop := ReadBuffer_err g = 0 \/ ReadBuffer_err g = e_typed_ErrEOF.

Lemma ReadBytes_errR g n b g' : errR g -> ReadBuffer_ReadBytes g n = Some (b, g') -> errR g'.
Proof.
  intros H. rewrite ReadBytes_cases. destruct (negb (ReadBuffer_err g =? 0)); [intros X; inversion X; subst; exact H|].
  destruct ((n <? 0) || (bs_len (ReadBuffer_remaining g) <? n)); intros X; inversion X; subst.
  - right; reflexivity.
  - exact H.
Qed.

Lemma ReadUint16_errR g v g' : errR g -> ReadBuffer_ReadUint16 g = Some (v, g') -> errR g'.
Proof.
  intros H. unfold ReadBuffer_ReadUint16. destruct (ReadBuffer_ReadBytes g 2) as [[b g1]|] eqn:E; [|discriminate].
  pose proof (ReadBytes_errR g 2 b g1 H E) as H1.
  destruct (negb (bs_isnil b)); [destruct (be_get 2 b); [|discriminate]|]; intros X; inversion X; subst; exact H1.
Qed.

Lemma KeyValIterator_Next_agrees i :
  bytes_ok (bs_list (KeyValIterator_remaining i)) = true -> KeyValIterator_leftPairCount i < 2 ^ 63 ->
  exists res, KeyValIterator_Next i = Some res /\
              kv_result_ok res (kv_next (KeyValIterator_leftPairCount i) (bs_list (KeyValIterator_remaining i))).
Proof.
  intros B Hl. unfold KeyValIterator_Next, kv_next.
  destruct (KeyValIterator_leftPairCount i <=? 0) eqn:L; [eexists; split; reflexivity|].
  apply Z.leb_gt in L. cbn [NewReadBuffer].
  set (g0 := mk_ReadBuffer (KeyValIterator_remaining i) 0).
  change (rb (bs_list (KeyValIterator_remaining i))) with (absR g0).
  assert (B0 : bokR g0) by exact B.
  unfold bindR.
  assert (X0 : errR g0) by (left; reflexivity).
  destruct (rd_u16 g0 B0) as (kl & g1 & E1 & M1 & B1 & R1). pose proof (ReadUint16_errR _ _ _ X0 E1) as X1. rewrite E1, <- M1.
  rewrite wrapS_id by (cbn; lia).
  destruct (rd_bytes g1 kl B1 ltac:(lia)) as (k & g2 & E2 & M2 & B2). pose proof (ReadBytes_errR _ _ _ _ X1 E2) as X2. rewrite E2, <- M2.
  destruct (rd_u16 g2 B2) as (vl & g3 & E3 & M3 & B3 & R3). pose proof (ReadUint16_errR _ _ _ X2 E3) as X3. rewrite E3, <- M3.
  rewrite wrapS_id by (cbn; lia).
  destruct (rd_bytes g3 vl B3 ltac:(lia)) as (v & g4 & E4 & M4 & B4). pose proof (ReadBytes_errR _ _ _ _ X3 E4) as X4. rewrite E4, <- M4.
  cbn [ReadBuffer_Err ReadBuffer_Remaining].
  change (negb (ReadBuffer_err g4 =? 0)) with (rerr (absR g4)).
  destruct (rerr (absR g4)) eqn:Er.
  - eexists. split; [reflexivity|]. cbn.
    destruct X4 as [X4|X4]; [unfold absR in Er; cbn in Er; rewrite X4 in Er; discriminate|].
    rewrite X4. reflexivity.
  - eexists. split; [reflexivity|]. cbn. repeat split; try reflexivity.
    apply wrapS_id; cbn; lia.
Qed.

Lemma NewKeyValIterator_agrees buf : bytes_ok (bs_list buf) = true ->
  NewKeyValIterator buf =
    if bs_len buf <? 2 then Some (kv_zero, e_io_EOF)
    else KeyValIterator_Next (mk_KeyValIterator (rd_drop buf 2) (unbe (firstn 2 (bs_list buf))) None None).
Proof.
  intros B. unfold NewKeyValIterator. destruct (bs_len buf <? 2) eqn:L; [reflexivity|].
  apply Z.ltb_ge in L.
  rewrite bs_slice_take by lia. rewrite bs_slice_drop by lia.
  destruct buf as [l|]; [|unfold bs_len in L; cbn in L; unfold zlen in L; cbn in L; lia].
  unfold bs_len in L. cbn [bs_list] in *. cbn [rd_take rd_drop].
  unfold be_get. cbn [bs_len bs_list]. unfold bs_len. cbn [bs_list].
  change (Z.to_nat 2) with 2%nat.
  rewrite zlen_firstn_nat by (unfold zlen in L; lia). rewrite Z.ltb_irrefl.
  rewrite firstn_firstn, Nat.min_id.
  rewrite (wrapS64_uint 2 _ eq_refl (unbe_firstn_range 2 l B)).
  destruct (KeyValIterator_Next _) as [[a b]|]; reflexivity.
Qed.
