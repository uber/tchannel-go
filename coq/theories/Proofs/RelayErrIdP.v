(* C08 clauses (b)/(c) over the interleaving model of the relay bookkeeping (Model/RelayItems.v):
   WHICH ID a relay-originated error carries and WHICH ITEM a failed send fails.

   reader_error_id   a reader goroutine calls SendSystemError only on the connection it reads from,
                     with the id of the request-direction frame it is handling (never an id of the
                     destination connection, never while handling a response-direction frame);
   reader_fail_key   the item a reader fails on the table it looked its frame up in is the one filed
                     under the id it read; every other item it fails sits in the OTHER table (the
                     receiving relayer's item of the same frame) and, for a response-direction frame,
                     with the reason relay-source-conn-slow (no error frame by design);
   timer_error_id    a timer goroutine sends only the timeout error, on the connection and with the id
                     its timer was started with (the key its item is filed under);
   fail_own_error    the failure path itself: failRelayItem on a live originating item whose timer it
                     stops entombs it and sends the error frame with the item's own connection and id.
   All for every reachable state of runs with fresh request ids, all interleavings. *)
From Coq Require Import ZArith List Bool Lia.
From Verif Require Import Base.Wrap Gen.GenConsts Gen.GenFrame Model.RelayItems Model.RelayErrId
  Proofs.RelayAssocP Proofs.RelayCoreP Proofs.RelayInv9P Proofs.RelayTimerP Proofs.RelayCalmP Proofs.RelayStepP.
Import ListNotations.
Local Open Scope Z_scope.

Lemma frameTypeFor_cases : forall mt ft, frameTypeFor mt = Some ft -> ft = c_requestFrame \/ ft = c_responseFrame.
Proof.
  intros mt ft H. unfold frameTypeFor in H.
  destruct ((mt =? c_messageTypeCallRes) || (mt =? c_messageTypeCallResContinue) || (mt =? c_messageTypeError) || (mt =? c_messageTypePingRes));
    [inversion H; right; reflexivity|].
  destruct ((mt =? c_messageTypeCallReq) || (mt =? c_messageTypeCallReqContinue) || (mt =? c_messageTypePingReq) || (mt =? c_messageTypeCancel));
    [inversion H; left; reflexivity|discriminate].
Qed.

Lemma dir_callreq : forall f, f_mt f = c_messageTypeCallReq -> dir_of f = 0.
Proof. intros f H. unfold dir_of. rewrite H. reflexivity. Qed.

Lemma dir_of_ft : forall f ft, frameTypeFor (f_mt f) = Some ft -> dir_of f = (if ft =? c_responseFrame then 1 else 0).
Proof. intros f ft H. unfold dir_of. rewrite H. reflexivity. Qed.

Lemma dir_of_01 : forall f, dir_of f = 0 \/ dir_of f = 1.
Proof. intro f. unfold dir_of. destruct (frameTypeFor (f_mt f)) as [ft|]; [destruct (ft =? c_responseFrame)|]; auto. Qed.

Lemma dir0_request : forall f, frameTypeFor (f_mt f) <> None -> dir_of f = 0 -> frameTypeFor (f_mt f) = Some c_requestFrame.
Proof.
  intros f Hn H. unfold dir_of in H. destruct (frameTypeFor (f_mt f)) as [ft|] eqn:E; [|contradiction].
  destruct (frameTypeFor_cases _ _ E) as [->| ->]; [reflexivity|]. cbn in H. discriminate.
Qed.

(* the instructions reader k may have on its stack while it handles frame f *)
Definition cur_ok (k : Z) (f : frame) (j : instr) : Prop :=
  match j with
  | IStart k' f' _ | ICanHandle k' f' _ _ | IGetDest k' f' _ _ | IRemoteCan k' f' _ _ _
  | IAddDest k' f' _ _ _ | IAddOrig k' f' _ _ _ _ => k' = k /\ f' = f /\ f_mt f = c_messageTypeCallReq
  | ISendErr k' id' _ => k' = k /\ id' = f_id f /\ dir_of f = 0 /\ frameTypeFor (f_mt f) <> None
  | INcGet k' f' => k' = k /\ f' = f
  | INcChk k' f' ft own _ => k' = k /\ f' = f /\ frameTypeFor (f_mt f) = Some ft /\ own = own_key k f
  | IRcvGet r =>
      r_own r = own_key k f /\ r_ft r = (if dir_of f =? 0 then c_requestFrame else c_responseFrame) /\ frameTypeFor (f_mt f) <> None
  | IRcvChk r rk _ | IRcvEnq r rk _ =>
      r_own r = own_key k f /\ r_ft r = (if dir_of f =? 0 then c_requestFrame else c_responseFrame) /\ frameTypeFor (f_mt f) <> None /\
      key_dir rk = 1 - dir_of f
  | IFailGet t reason | IEntomb t (FromFail reason) =>
      frameTypeFor (f_mt f) <> None /\
      (t = own_key k f \/ (key_dir t = 1 - dir_of f /\ (dir_of f = 1 -> reason = reason_source_slow)))
  | IEntomb _ (FromTimeout _) | ITimerRun _ => False
  | ICb _ _ | IDec _ | ICheck _ | IConnClose _ | IDelete _ _ => True
  end.

Lemma pushes_cur : forall st st1 th code i j k f, Inv st -> In (th, code) (threads st) -> In i code ->
  pushes st st1 i j -> cur_ok k f i -> cur_ok k f j.
Proof.
  intros st st1 th code i j k f HI Hin Hic Hp Hi.
  assert (Hreq : f_mt f = c_messageTypeCallReq -> dir_of f = 0 /\ frameTypeFor (f_mt f) <> None /\ (k, 0, f_id f) = own_key k f).
  { intro Hm. pose proof (dir_callreq _ Hm) as Hd. split; [exact Hd|]. split; [rewrite Hm; discriminate|]. unfold own_key. rewrite Hd. reflexivity. }
  destruct Hp; cbn [cur_ok next_frag r_own r_ft r_f] in Hi |- *; try exact I;
    (* the admission path: everything it pushes is for the call req itself *)
    try solve [destruct Hi as (->&->&Hm); destruct (Hreq Hm) as (Hd&Hn&Ho); rewrite ?Hd; cbn; auto].
  - (* INcGet *) destruct Hi as (->&->). repeat split; try assumption. unfold own_key. rewrite (dir_of_ft _ _ H). reflexivity.
  - (* INcChk *) destruct Hi as (_&_&Eft&Ho). split; [exact Ho|]. split; [|rewrite Eft; discriminate].
    rewrite (dir_of_ft _ _ Eft). destruct (frameTypeFor_cases _ _ Eft) as [->| ->]; reflexivity.
  - (* IRcvGet *) destruct Hi as (Ho&Hf&Hn). repeat split; try assumption.
    unfold RelayCalm.rcv_key. cbn. rewrite Hf. destruct (dir_of_01 f) as [E|E]; rewrite E; reflexivity.
  - destruct Hi as (Ho&_&Hn&_). split; [exact Hn|left; exact Ho].
  - exact Hi.
  - destruct Hi as (Ho&Hf&Hn&Hk). repeat split; assumption.
  - destruct Hi as (Ho&Hf&Hn&Hk). repeat split; assumption.
  - destruct Hi as (Ho&Hf&Hn&Hk). split; [exact Hn|]. right. split; [exact Hk|]. intro E. rewrite Hf, E. reflexivity.
  - destruct Hi as (Ho&Hf&Hn&Hk). split; [exact Hn|]. left. exact Ho.
  - exact Hi.
  - (* the error frame of failRelayItem: the entombed item is an originating one, so it sits in an outbound table *)
    destruct s as [reason|o]; [|contradiction]. pose proof (entomb_orig_dir _ _ _ _ _ _ HI Hin Hic H H1) as Hd.
    destruct Hi as (Hn&[->|[Hk Hs]]).
    + cbn [own_key key_dir fst snd] in Hd. unfold own_key. cbn [key_conn key_id fst snd]. auto.
    + (* a reader handling a response frame fails the other relayer's item with source-conn-slow: no error frame *)
      exfalso. rewrite Hs, Z.eqb_refl in H2 by lia. discriminate.
  - contradiction.
Qed.

(* the instructions the goroutine of timer tm may have on its stack *)
Definition tt_ok (tms : list (Z * timer)) (tm : Z) (j : instr) : Prop :=
  match j with
  | ITimerRun tm' => tm' = tm
  | IEntomb t (FromTimeout o) => o = (key_dir t =? 0) /\ exists x, zlookup tm tms = Some x /\ tm_key x = t
  | ISendErr k id code => code = c_ErrCodeTimeout /\ exists x, zlookup tm tms = Some x /\ tm_key x = (k, 0, id)
  | ICb _ _ | IDec _ | ICheck _ => True
  | _ => False
  end.

Lemma tt_ok_kmono : forall a b tm j, kmono a b -> tt_ok a tm j -> tt_ok b tm j.
Proof.
  intros a b tm j Hk H. destruct j; cbn in *; try exact H.
  - destruct H as [Hc (x&Hx&Hkx)]. split; [exact Hc|]. destruct (Hk _ _ Hx) as (x'&Hx'&Hk'). exists x'. split; [exact Hx'|congruence].
  - destruct s; [exact H|]. destruct H as [Ho (x&Hx&Hkx)]. split; [exact Ho|].
    destruct (Hk _ _ Hx) as (x'&Hx'&Hk'). exists x'. split; [exact Hx'|congruence].
Qed.

Lemma pushes_tt : forall st st1 i j tm, timers_ok (timers st) -> kmono (timers st) (timers st1) ->
  pushes st st1 i j -> tt_ok (timers st) tm i -> tt_ok (timers st1) tm j.
Proof.
  intros st st1 i j tm HT Hkm Hp Hi. destruct Hp; cbn [tt_ok] in Hi |- *; try contradiction; try exact I.
  - (* the timeout Entomb of an originating item *)
    destruct s as [reason|o]; [contradiction|]. destruct Hi as [Ho (x&Hx&Hkx)]. split; [reflexivity|].
    destruct (Hkm _ _ Hx) as (x'&Hx'&Hk'). exists x'. split; [exact Hx'|]. rewrite Hk'. rewrite Ho in H1. apply Z.eqb_eq in H1.
    rewrite Hkx. destruct t as [[a b] c]. cbn in *. subst b. reflexivity.
  - (* ITimerRun *) subst tm0. split; [apply (HT _ _ H)|]. destruct (Hkm _ _ H) as (x'&Hx'&Hk'). exists x'. split; [exact Hx'|exact Hk'].
Qed.

Definition arr_upd (cur : Z -> option frame) (l : label) : Z -> option frame :=
  match l with
  | LArrive k f _ => fun k' => if k' =? k then Some f else cur k'
  | _ => cur
  end.

Fixpoint arr_all (cur : Z -> option frame) (ls : list label) : Z -> option frame :=
  match ls with
  | [] => cur
  | l :: r => arr_all (arr_upd cur l) r
  end.

Lemma arr_all_last : forall ls cur k, arr_all cur ls k = last_arr k ls (cur k).
Proof.
  induction ls as [|l r IH]; intros cur k; cbn; [reflexivity|].
  rewrite IH. destruct l; cbn; try reflexivity. rewrite Z.eqb_sym. reflexivity.
Qed.

Record EInv (st : state) (cur : Z -> option frame) : Prop := {
  e_reader : forall k code, In (TR k, code) (threads st) ->
               exists f, cur k = Some f /\ forall j, In j code -> cur_ok k f j;
  e_timer : forall tm code, In (TT tm, code) (threads st) -> forall j, In j code -> tt_ok (timers st) tm j
}.

Lemma EInv_init : forall cur, EInv init cur.
Proof. intro cur. constructor; cbn; intros; contradiction. Qed.

Lemma EInv_ext : forall st st' cur, EInv st cur -> threads st' = threads st -> kmono (timers st) (timers st') -> EInv st' cur.
Proof.
  intros st st' cur [HR HT] Hth Hk. constructor.
  - intros k code Hin. rewrite Hth in Hin. exact (HR _ _ Hin).
  - intros tm code Hin j Hj. rewrite Hth in Hin. eapply tt_ok_kmono; [exact Hk|]. exact (HT _ _ Hin _ Hj).
Qed.

Lemma EInv_step : forall cf st cur l st', Inv st -> TInv st -> EInv st cur -> step cf st l = Some st' ->
  EInv st' (arr_upd cur l).
Proof.
  intros cf st cur l st' HI HT HE H.
  assert (Hsame : forall s, threads s = threads st -> kmono (timers st) (timers s) -> (forall k f e, l <> LArrive k f e) -> EInv s (arr_upd cur l)).
  { intros s Hth Hk Hn. destruct l; try (eapply EInv_ext; eassumption). exfalso. eapply Hn. reflexivity. }
  assert (Hrd : forall k f e j, l = LArrive k f e -> lookup tid_eqb (TR k) (threads st) = None -> cur_ok k f j ->
            EInv (set_thread st (TR k) [j]) (arr_upd cur l)).
  { intros k f e j -> El Hj. constructor.
    - intros k0 code0 Hin. apply set_thread_in in Hin. destruct Hin as [[Heq ->]|[Hne Hin]]; cbn [arr_upd].
      + inversion Heq. subst k0. exists f. rewrite Z.eqb_refl. split; [reflexivity|]. intros j0 [<-|[]]. exact Hj.
      + destruct (e_reader _ _ HE _ _ Hin) as (f0&Hc0&Hall). exists f0. split; [|exact Hall].
        destruct (k0 =? k) eqn:Ek; [|exact Hc0]. apply Z.eqb_eq in Ek. subst. exfalso. apply Hne. reflexivity.
    - intros tm code0 Hin j0 Hj0. apply set_thread_in in Hin. destruct Hin as [[Heq _]|[_ Hin]]; [discriminate|].
      exact (e_timer _ _ HE _ _ Hin _ Hj0). }
  destruct (Step_of_step _ _ _ _ H) as [k f e El Er|k f e El Er Em|k f e El Er Em|th room i rest st1 pushed El E|tm x Ex Ea El|t Em|k s|k s|k s];
    try (apply Hsame; [reflexivity|apply kmono_refl|intros; discriminate]).
  - (* an ignored frame: the reader of k stays idle *)
    constructor; [|exact (e_timer _ _ HE)].
    intros k0 code Hin. destruct (e_reader _ _ HE _ _ Hin) as (f0&Hc0&Hall). exists f0. split; [|exact Hall]. cbn [arr_upd].
    destruct (k0 =? k) eqn:Ek; [|exact Hc0]. apply Z.eqb_eq in Ek. subst. exfalso.
    apply (lookup_none_notin tid_eqb tid_eqb_ok) in El. apply El. apply (in_map fst) in Hin. exact Hin.
  - apply Z.eqb_eq in Em. eapply EInv_ext; [eapply (Hrd k f e (IStart k f e)); [reflexivity|exact El|cbn; auto]|reflexivity|apply kmono_refl].
  - eapply (Hrd k f e); [reflexivity|exact El|cbn; auto].
  - (* LStep *)
    pose proof (lookup_in tid_eqb tid_eqb_ok _ _ _ El) as Hin0.
    assert (Hkm : kmono (timers st) (timers st1)).
    { eapply exec_kmono; [|exact E]. intros tm' x' Hx'. apply (t_alloc _ HT _ _ Hx'). }
    pose proof (exec_threads _ _ _ _ _ _ E) as Hth.
    constructor.
    + intros k code Hin. apply set_thread_in in Hin. destruct Hin as [[Heq ->]|[_ Hin]].
      * subst th. destruct (e_reader _ _ HE _ _ Hin0) as (f&Hc&Hall). exists f. split; [exact Hc|].
        intros j Hj. apply in_app_or in Hj. destruct Hj as [Hj|Hj].
        -- eapply pushes_cur; [exact HI|exact Hin0|left; reflexivity|eapply exec_pushes; eassumption|apply Hall; left; reflexivity].
        -- apply Hall. right. exact Hj.
      * rewrite Hth in Hin. exact (e_reader _ _ HE _ _ Hin).
    + intros tm code Hin j Hj. change (tt_ok (timers st1) tm j).
      apply set_thread_in in Hin. destruct Hin as [[Heq ->]|[_ Hin]].
      * subst th. apply in_app_or in Hj. destruct Hj as [Hj|Hj].
        -- eapply pushes_tt; [exact (inv_timers _ HI)|exact Hkm|eapply exec_pushes; eassumption|].
           apply (e_timer _ _ HE _ _ Hin0). left. reflexivity.
        -- eapply tt_ok_kmono; [exact Hkm|]. apply (e_timer _ _ HE _ _ Hin0). right. exact Hj.
      * rewrite Hth in Hin. eapply tt_ok_kmono; [exact Hkm|]. exact (e_timer _ _ HE _ _ Hin _ Hj).
  - (* LFire *)
    assert (Hkm : kmono (timers st) (zinsert tm (fired_timer x) (timers st))) by (eapply kmono_same; [exact Ex|reflexivity]).
    constructor.
    + intros k code Hin. apply set_thread_in in Hin. destruct Hin as [[Heq _]|[_ Hin]]; [discriminate|].
      exact (e_reader _ _ HE _ _ Hin).
    + intros tm0 code Hin j Hj. apply set_thread_in in Hin. destruct Hin as [[Heq ->]|[_ Hin]].
      * inversion Heq. subst tm0. destruct Hj as [<-|[]]. reflexivity.
      * eapply tt_ok_kmono; [exact Hkm|]. exact (e_timer _ _ HE _ _ Hin _ Hj).
  - (* LGc *)
    apply Hsame; [apply (gc_fields st t)| |intros; discriminate].
    unfold items_delete_tomb. cbn [set_gcs items]. destruct (klookup t (items st)) as [it|]; [|apply kmono_refl].
    destruct (it_tomb it); [|apply kmono_refl].
    apply (timer_release_kmono (set_items (set_gcs st (remove_one t (gcs st))) (kremove t (items st))) (it_tm it)).
Qed.

Lemma run_fresh_einv : forall cf ls st0 cur st, Inv st0 -> TInv st0 -> LInv st0 -> EInv st0 cur ->
  run_fresh cf st0 ls = Some st -> EInv st (arr_all cur ls).
Proof.
  intros cf ls. induction ls as [|l r IH]; intros st0 cur st HI HT HL HE H; cbn in H |- *.
  - inversion H. subst. exact HE.
  - destruct (fresh_label st0 l) eqn:Ef; [|discriminate]. destruct (step cf st0 l) as [st1|] eqn:Es; [|discriminate].
    eapply IH; [eapply step_inv; eassumption|eapply step_tinv; eassumption|eapply LInv_step; eassumption| |exact H].
    eapply EInv_step; eassumption.
Qed.

Theorem reach_einv : forall cf ls st, run_fresh cf init ls = Some st -> EInv st (arr_all (fun _ => None) ls).
Proof.
  intros cf ls st H. eapply run_fresh_einv; [apply Inv_init|apply TInv_init|apply LInv_init|apply EInv_init|exact H].
Qed.

(* a SendSystemError call of a reader goroutine: on the connection it reads from, with the id of
   the request-direction frame it read last (the frame it is handling) *)
Theorem reader_error_id : forall cf ls st l k k' id' code,
  run_fresh cf init ls = Some st -> err_attempt st l = Some (TR k, k', id', code) ->
  exists f, last_arr k ls None = Some f /\ k' = k /\ id' = f_id f /\
            frameTypeFor (f_mt f) = Some c_requestFrame.
Proof.
  intros cf ls st l k k' id' code Hr Ha. pose proof (reach_einv _ _ _ Hr) as HE.
  destruct l as [| th room | | | | |]; cbn in Ha; try discriminate.
  destruct (lookup tid_eqb th (threads st)) as [[|i rest]|] eqn:El; try discriminate.
  destruct i; try discriminate. inversion Ha. subst. clear Ha.
  apply (lookup_in tid_eqb tid_eqb_ok) in El.
  destruct (e_reader _ _ HE _ _ El) as (f&Hc&Hall). rewrite arr_all_last in Hc.
  destruct (Hall _ (or_introl eq_refl)) as (->&->&Hd&Hn).
  exists f. repeat split; try assumption. apply dir0_request; assumption.
Qed.

(* a failRelayItem call of a reader goroutine handling frame f: the item filed under the id it read
   in the table of the frame's direction, or an item of the other table (the receiving relayer's) --
   which for a response-direction frame is failed with relay-source-conn-slow only *)
Theorem reader_fail_key : forall cf ls st l k t reason,
  run_fresh cf init ls = Some st -> fail_attempt st l = Some (TR k, t, reason) ->
  exists f, last_arr k ls None = Some f /\ frameTypeFor (f_mt f) <> None /\
    (t = own_key k f \/ (key_dir t = 1 - dir_of f /\ (dir_of f = 1 -> reason = reason_source_slow))).
Proof.
  intros cf ls st l k t reason Hr Ha. pose proof (reach_einv _ _ _ Hr) as HE.
  destruct l as [| th room | | | | |]; cbn in Ha; try discriminate.
  destruct (lookup tid_eqb th (threads st)) as [[|i rest]|] eqn:El; try discriminate.
  destruct i; try discriminate. inversion Ha. subst. clear Ha.
  apply (lookup_in tid_eqb tid_eqb_ok) in El.
  destruct (e_reader _ _ HE _ _ El) as (f&Hc&Hall). rewrite arr_all_last in Hc.
  destruct (Hall _ (or_introl eq_refl)) as (Hn&Hk).
  exists f. split; [exact Hc|split; [exact Hn|exact Hk]].
Qed.

(* in particular: an item a reader fails in an OUTBOUND table while it handles a request-direction
   frame is the one filed under the id it read on its own connection *)
Corollary reader_fail_outbound : forall cf ls st l k t reason,
  run_fresh cf init ls = Some st -> fail_attempt st l = Some (TR k, t, reason) -> key_dir t = 0 ->
  exists f, last_arr k ls None = Some f /\
    (dir_of f = 0 -> t = (k, 0, f_id f)) /\ (dir_of f = 1 -> reason = reason_source_slow).
Proof.
  intros cf ls st l k t reason Hr Ha Hd. destruct (reader_fail_key _ _ _ _ _ _ _ Hr Ha) as (f&Hl&Hn&Hk).
  exists f. split; [exact Hl|]. destruct Hk as [->|[Hk Hs]].
  - unfold own_key in *. cbn in Hd. split; [intros E; rewrite E; reflexivity|intro E; lia].
  - split; [intro E; lia|exact Hs].
Qed.

(* the send attempt of a reader: the item it will fail if the frame cannot be queued is its own *)
Theorem reader_send_own : forall cf ls st k r rk lk rest,
  run_fresh cf init ls = Some st -> lookup tid_eqb (TR k) (threads st) = Some (IRcvEnq r rk lk :: rest) ->
  exists f, last_arr k ls None = Some f /\ r_own r = own_key k f /\ key_dir rk = 1 - dir_of f /\
            r_ft r = (if dir_of f =? 0 then c_requestFrame else c_responseFrame).
Proof.
  intros cf ls st k r rk lk rest Hr El. pose proof (reach_einv _ _ _ Hr) as HE.
  apply (lookup_in tid_eqb tid_eqb_ok) in El.
  destruct (e_reader _ _ HE _ _ El) as (f&Hc&Hall). rewrite arr_all_last in Hc.
  destruct (Hall _ (or_introl eq_refl)) as (Ho&Hf&Hn&Hk).
  exists f. repeat split; assumption.
Qed.

(* a SendSystemError call of a timer goroutine: the timeout error, on the connection and with the id
   of the key its timer was started with; that key is the id of a call req read on that connection *)
Theorem timer_error_id : forall cf ls st l tm k' id' code,
  run_fresh cf init ls = Some st -> err_attempt st l = Some (TT tm, k', id', code) ->
  code = c_ErrCodeTimeout /\ In (k', id') (seen st) /\
  exists x, lookup Z.eqb tm (timers st) = Some x /\ tm_key x = (k', 0, id').
Proof.
  intros cf ls st l tm k' id' code Hr Ha. pose proof (reach_einv _ _ _ Hr) as HE.
  destruct (reach_both _ _ _ Hr) as [HI HT].
  destruct l as [| th room | | | | |]; cbn in Ha; try discriminate.
  destruct (lookup tid_eqb th (threads st)) as [[|i rest]|] eqn:El; try discriminate.
  destruct i; try discriminate. inversion Ha. subst. clear Ha.
  apply (lookup_in tid_eqb tid_eqb_ok) in El.
  destruct (e_timer _ _ HE _ _ El _ (or_introl eq_refl)) as (Hc&x&Hx&Hk).
  split; [exact Hc|]. split; [|exists x; split; assumption].
  destruct (t_alloc _ HT _ _ Hx) as [_ [[_ Hs]|[Hd _]]]; rewrite Hk in *; cbn in *; [exact Hs|discriminate].
Qed.

(* a request-direction frame that finds the destination's send queue full: the receiving relayer's
   item and then the reader's own item are failed with relay-dest-conn-slow *)
Lemma dest_slow_fails_own : forall cf st r rk lk, r_ft r = c_requestFrame ->
  exec cf st (IRcvEnq r rk lk) false = (st, [IFailGet rk reason_dest_slow; IFailGet (r_own r) reason_dest_slow]).
Proof. intros cf st r rk lk H. cbn. rewrite H. reflexivity. Qed.

(* failRelayItem on a live originating item whose timer it stops: the item is entombed and the error
   frame is handed to SendSystemError with the item's own connection and id, then Failed and End *)
Lemma fail_own_error : forall cf st t reason it st1 room1 room2,
  items_get st t true = (st1, Some (it, true)) -> it_tomb it = false -> it_orig it = true ->
  reason <> reason_source_slow -> (cf_maxtombs cf <? tomb_count st1 (key_conn t) (key_dir t)) = false ->
  exec cf st (IFailGet t reason) room1 = (st1, [IEntomb t (FromFail reason)]) /\
  exists st2, exec cf st1 (IEntomb t (FromFail reason)) room2 =
    (st2, [ISendErr (key_conn t) (key_id t) c_ErrCodeUnexpected; ICb (it_call it) (CbFailed reason);
           ICb (it_call it) CbEnd; IDec (key_conn t)]).
Proof.
  intros cf st t reason it st1 room1 room2 Hg Ht Ho Hr Hm. split.
  - cbn. rewrite Hg. reflexivity.
  - pose proof (items_get_spec _ _ _ _ _ Hg) as [Hc Hl].
    destruct (klookup t (items st)) as [it0|] eqn:El; [|discriminate]. destruct Hl as [b Hl]. inversion Hl. subst it0 b.
    destruct Hc as (_&Hi&_). cbn [exec]. unfold items_entomb. rewrite Hm, Hi, El, Ht. eexists.
    cbn [it_orig entomb_item it_call]. rewrite Ho. unfold orig_tail.
    destruct (reason =? reason_source_slow) eqn:E; [apply Z.eqb_eq in E; contradiction|]. reflexivity.
Qed.

(* ... and SendSystemError on an open connection whose send queue has room queues exactly that frame *)
Lemma send_err_queued : forall cf st k id code,
  (c_state (get_conn st k) =? c_connectionClosed) = false ->
  exec cf st (ISendErr k id code) true =
    (set_sent st ((k, {| f_mt := c_messageTypeError; f_id := id; f_flags := 0; f_code := code; f_wf := true |}) :: sent st), []).
Proof. intros cf st k id code H. cbn. rewrite H. reflexivity. Qed.
