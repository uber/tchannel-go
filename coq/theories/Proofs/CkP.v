(* The running checksum of a fragment sequence, in closed form. *)
From Coq Require Import ZArith List Bool Lia.
From Verif Require Import Base.Wrap Base.Bytes Model.Crc Model.Frag Spec.FragSpec Spec.FragOk Proofs.FragWP Proofs.CrcP.
Import ListNotations.
Local Open Scope Z_scope.

Lemma fold_ck_add_concat chunks : forall c, fold_left ck_add chunks c = ck_add c (concat chunks).
Proof.
  induction chunks as [|x chunks IH]; intros c; cbn [fold_left concat].
  - symmetry. apply ck_add_nil.
  - rewrite IH, ck_add_app. reflexivity.
Qed.

(* all argument bytes carried by fragments 0..k *)
Definition data_upto (k : nat) (fs : list frag) : list Z := concat (map (fun f => concat (f_chunks f)) (firstn (S k) fs)).

(* ck_chain in closed form: fragment k carries the checksum of ALL argument bytes of the
   message up to and including that fragment, and the (constant) type code *)
Lemma ck_chain_closed : forall fs c k f, ck_chain c fs -> nth_error fs k = Some f ->
  f_ck f = ck_sum (ck_add c (data_upto k fs)) /\ f_ctype f = ck_typecode c.
Proof.
  induction fs as [|g fs IH]; intros c k f H Hk; [destruct k; discriminate|].
  cbn [ck_chain] in H. destruct H as [H1 [H2 H3]].
  destruct k as [|k]; cbn [nth_error] in Hk.
  - inversion Hk; subst g. unfold data_upto. cbn [firstn map concat]. rewrite app_nil_r.
    rewrite <- fold_ck_add_concat. auto.
  - destruct (IH _ k f H3 Hk) as [A B]. split.
    + rewrite A. unfold data_upto. cbn [firstn map concat]. rewrite fold_ck_add_concat, ck_add_app. reflexivity.
    + rewrite B. apply ck_fold_typecode.
Qed.

(* for the two CRC types: the field is the big-endian CRC of the bytes added, started from the
   value v (0 in a new checksum object: then the CRC from scratch of all argument bytes so far) *)
Lemma ck_sum_crc kind v bs : kind = 1 \/ kind = 3 ->
  ck_sum (ck_add (mkCk kind v) bs) = be 4 (crc32_update (if kind =? 1 then poly_ieee else poly_castagnoli) v bs).
Proof. intros [-> | ->]; reflexivity. Qed.

Lemma recv_type_change : forall st c f rest, rs_err st = 0 -> rs_ck st = Some c ->
  ck_typecode c <> f_ctype f ->
  exists st2, r_recv (rs_with_in st (f :: rest)) = Some (7, st2) /\ rs_err st2 = 7.
Proof.
  intros st c f rest He Hc Hn. unfold r_recv, rs_with_in. cbn [rs_err rs_in rs_ck rs_got rs_rel rs_state rs_rem rs_cur rs_more rs_fin].
  rewrite He, Hc. cbn [Z.eqb negb].
  assert (E : (ck_typecode c =? f_ctype f) = false) by (apply Z.eqb_neq; exact Hn).
  rewrite E. cbn [negb andb]. eexists. split; reflexivity.
Qed.
