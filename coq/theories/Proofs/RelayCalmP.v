(* Relay model: the NO-OVERLAP condition on schedules (shared by C09 and C10) and the derivation
   of C09 "nothing is reported after End" from it.

   A goroutine of the relay (the reader of a connection handling one frame, or the goroutine
   of a fired relay timer) ACTS ON call c when
     - a relayItems operation it performs (Get in handleNonCallReq / Receive / failRelayItem,
       Entomb, Delete) hits a live (non-tombstone) item of c, or
     - it is the OnTimer goroutine created by the firing of the timer of a live item of c.
   From that moment until it has finished handling its frame (its code is exhausted) it HOLDS c:
   it may hold a looked-up copy of c's item.  [held] is this ghost relation; it is a function of
   the schedule alone ([held_next]).

   [no_overlap cf ls]: in the schedule ls no goroutine acts on a call that another goroutine
   holds, i.e. no timer of c fires and no other reader touches c while a goroutine holds a
   looked-up copy of c's item.
   [calm cf ls] = no_overlap + [whole]: whenever a Get (handleNonCallReq / Receive) returns a
   live item of call c, the ORIGINATING item of c is still live (no frame of a call is processed
   between the timeout of its originating item and the timeout of its destination item).
   The schedules excluded by [calm] are exactly the schedule classes of the known findings
   relay:nonfinal-frame-vs-timer:report-after-End and relay:response-frame-after-timeout-error. *)
From Coq Require Import ZArith List Bool Lia.
From Verif Require Import Base.Wrap Gen.GenConsts Gen.GenFrame Model.RelayItems Spec.RelayAccount
  Model.RelayCalm Proofs.RelayAssocP Proofs.RelayCoreP Proofs.RelayInv9P Proofs.RelayTimerP Proofs.RelayThmP Proofs.RelaySilentP.
Import ListNotations.
Local Open Scope Z_scope.

Lemma sched_weaken : forall cf (c1 c2 : state -> held -> label -> bool), (forall st h l, c1 st h l = true -> c2 st h l = true) ->
  forall ls st h, sched cf c1 st h ls = true -> sched cf c2 st h ls = true.
Proof.
  intros cf c1 c2 Hw ls. induction ls as [|l r IH]; intros st h H; cbn in *; [reflexivity|].
  apply andb_true_iff in H. destruct H as [H1 H2]. rewrite (Hw _ _ _ H1). cbn.
  destruct (step cf st l); [apply IH; exact H2|reflexivity].
Qed.

Lemma calm_no_overlap : forall cf ls, calm cf ls -> no_overlap cf ls.
Proof.
  intros cf ls. apply sched_weaken. intros st h l H. unfold calm_chk in H. apply andb_true_iff in H. tauto.
Qed.

(* instruction j carries call c (a callback for c, an admission step of c, a looked-up live
   copy of an item of c, a Receive on behalf of c) *)
Definition oncall (c : Z) (j : instr) : bool :=
  match j with
  | ICb c' _ => c' =? c
  | ICanHandle _ _ _ c' | IGetDest _ _ _ c' | IRemoteCan _ _ _ c' _ | IAddDest _ _ _ c' _ | IAddOrig _ _ _ c' _ _ => c' =? c
  | INcChk _ _ _ _ (Some (it, _)) => (it_call it =? c) && negb (it_tomb it)
  | IRcvGet r | IRcvEnq r _ _ => r_call r =? c
  | IRcvChk r _ g =>
      (r_call r =? c) || match g with Some (it, _) => (it_call it =? c) && negb (it_tomb it) | None => false end
  | _ => false
  end.

Lemma reporter_oncall : forall c j, reporter c j = true -> oncall c j = true.
Proof.
  intros c j H. destruct j; cbn in *; try discriminate; try exact H.
  apply andb_true_iff in H. tauto.
Qed.

(* instructions that report nothing but End *)
Definition quiet (j : instr) : bool :=
  match j with
  | IDec _ | ICheck _ | ISendErr _ _ _ | IConnClose _ | IDelete _ _ | IFailGet _ _ | IEntomb _ _ => true
  | ICb _ x => cb_is_end x
  | _ => false
  end.

(* instructions after which (in program order) only quiet ones follow *)
Definition opener (j : instr) : bool :=
  match j with
  | IDec _ | ICheck _ | ISendErr _ _ _ | IConnClose _ => false
  | ICb _ x => cb_is_end x
  | _ => true
  end.

(* a fragment sender with fragments left is sending a non-final frame *)
Definition rcv_good (r : rcv) : bool := negb (0 <? r_more r) || negb (fin_of (r_f r)).
Definition instr_good (j : instr) : bool :=
  match j with IRcvGet r | IRcvChk r _ _ | IRcvEnq r _ _ => rcv_good r | _ => true end.

Fixpoint shape (code : list instr) : bool :=
  match code with
  | [] => true
  | j :: r => instr_good j && (if opener j then forallb quiet r else true) && shape r
  end.

Lemma quiet_no_reporter : forall c j, quiet j = true -> reporter c j = false.
Proof.
  intros c j H. destruct j; cbn in *; try discriminate; try reflexivity.
  rewrite H. apply andb_false_r.
Qed.

Lemma quiet_good : forall j, quiet j = true -> instr_good j = true.
Proof. intros j H. destruct j; cbn in *; try discriminate; reflexivity. Qed.

Lemma forallb_tail : forall (A : Type) (p : A -> bool) a l, forallb p (a :: l) = true -> forallb p l = true.
Proof. intros A p a l H. cbn in H. apply andb_true_iff in H. tauto. Qed.

Lemma shape_quiet : forall R, forallb quiet R = true -> shape R = true.
Proof.
  induction R as [|j r IH]; intro H; cbn; [reflexivity|].
  cbn in H. apply andb_true_iff in H. destruct H as [Hj Hr].
  rewrite (quiet_good _ Hj), (IH Hr), Hr. destruct (opener j); reflexivity.
Qed.

Lemma shape_app_quiet : forall P R, forallb quiet R = true -> shape (P ++ R) = shape P.
Proof.
  intros P R HR. induction P as [|j r IH]; cbn; [apply shape_quiet; exact HR|].
  rewrite IH. rewrite forallb_app, HR, andb_true_r. reflexivity.
Qed.

Lemma shape_head : forall i R, shape (i :: R) = true ->
  instr_good i = true /\ shape R = true /\ (opener i = true -> forallb quiet R = true).
Proof.
  intros i R H. cbn in H. apply andb_true_iff in H. destruct H as [H H3]. apply andb_true_iff in H. destruct H as [H1 H2].
  repeat split; try assumption. intro Ho. rewrite Ho in H2. exact H2.
Qed.

Lemma rcv_good_req : forall d id cont more ft own c m,
  rcv_good {| r_d := d; r_f := req_frame id cont more; r_ft := ft; r_own := own; r_call := c; r_more := m |} = true.
Proof.
  intros. unfold rcv_good. cbn [r_f r_more]. destruct cont; [rewrite fin_req_frame|rewrite fin_req_frame0]; apply orb_true_r.
Qed.

Lemma after_sent_shape_ok : forall r, rcv_good r = true -> shape (after_sent r) = true.
Proof.
  intros r H. unfold after_sent, rcv_good in *.
  destruct (fin_of (r_f r)) eqn:Ef; destruct (0 <? r_more r) eqn:Em; cbn in H; try discriminate; cbn; try reflexivity.
  rewrite rcv_good_req. reflexivity.
Qed.

Lemma exec_shape : forall cf st i room st1 pushed, exec cf st i room = (st1, pushed) -> instr_good i = true ->
  shape pushed = true /\ (opener i = false -> forall j, In j pushed -> exists k, j = ICheck k).
Proof.
  intros cf st i room st1 pushed H Hg.
  destruct (exec_cases _ _ _ _ _ _ H); cbn [opener];
    try (split; [reflexivity|first [discriminate|intros _ j Hj; exact (False_ind _ Hj)]]).
  - split; [|discriminate]. destruct ((e_start e =? 1) || (e_start e =? 2)); [reflexivity|].
    destruct (e_code e =? c_ErrCodeProtocol); reflexivity.
  - split; [|discriminate]. destruct ((e_start e =? 1) || (e_start e =? 2)); [reflexivity|].
    destruct (e_code e =? c_ErrCodeProtocol); reflexivity.
  - split; [|discriminate]. destruct (e_mode e <? 0); [reflexivity|].
    cbn [shape instr_good opener cb_is_end forallb quiet andb]. rewrite rcv_good_req. reflexivity.
  - split; [reflexivity|intros _ j [<-|[]]; eexists; reflexivity].
  - split; [|discriminate].
    destruct ((f_mt f =? c_messageTypeCallRes) && f_wf f), (ft =? c_requestFrame); cbn; unfold rcv_good; cbn; reflexivity.
  - split; [|discriminate]. cbn. cbn in Hg. rewrite Hg. reflexivity.
  - split; [|discriminate]. apply after_sent_shape_ok. exact Hg.
  - split; [|discriminate]. cbn in Hg.
    destruct ((r_ft r =? c_responseFrame) || (f_mt (r_f r) =? c_messageTypeCancel));
      [destruct (dcsSucceeded _ _ _); [|destruct (0 <? zlen _)]|]; cbn; rewrite Hg; reflexivity.
  - split; [|discriminate]. cbn in Hg.
    pose proof (after_sent_shape_ok r Hg) as Ha. unfold after_sent in *.
    destruct (fin_of (r_f r)) eqn:Ef; cbn [app]; [|exact Ha].
    unfold rcv_good in Hg. rewrite Ef in Hg. cbn in Hg. rewrite orb_false_r in Hg. apply negb_true_iff in Hg. rewrite Hg. reflexivity.
  - split; [|discriminate]. destruct g as [[it [|]]|]; reflexivity.
  - split; [|discriminate]. destruct g as [[it [|]]|]; try reflexivity.
    destruct (match s with FromFail _ => it_orig it | FromTimeout o => o end); [|reflexivity].
    unfold orig_tail. destruct s; [destruct (reason =? reason_source_slow)|]; reflexivity.
  - split; [|discriminate]. destruct g as [[it [|]]|]; try reflexivity. destruct (it_orig it); reflexivity.
Qed.

Definition Shape (st : state) : Prop := forall th code, In (th, code) (threads st) -> shape code = true.

Lemma exec_threads : forall cf st i room st1 pushed, exec cf st i room = (st1, pushed) -> threads st1 = threads st.
Proof. intros. eapply exec_cblog. eassumption. Qed.

Lemma step_shape : forall cf st l st', Shape st -> step cf st l = Some st' -> Shape st'.
Proof.
  intros cf st l st' HS H. destruct (step_cases _ _ _ _ H) as [_ Hc]. clear H.
  assert (Hnew : forall s th code, threads s = threads st -> shape code = true -> Shape (set_thread s th code)).
  { intros s th code Hth Hc' th' code' Hin. apply set_thread_in in Hin. rewrite Hth in Hin.
    destruct Hin as [[-> ->]|[_ Hin]]; [exact Hc'|eapply HS; exact Hin]. }
  destruct Hc as [| | |th room i rest st1 pushed El E| |t Emem|]; try exact HS; try (apply Hnew; reflexivity).
  - pose proof (lookup_in tid_eqb tid_eqb_ok _ _ _ El) as Hin0.
    destruct (shape_head _ _ (HS _ _ Hin0)) as (Hg&HR&Hq).
    destruct (exec_shape _ _ _ _ _ _ E Hg) as [Hp Hnil].
    apply Hnew; [apply (exec_threads _ _ _ _ _ _ E)|].
    destruct (opener i) eqn:Eo.
    + rewrite (shape_app_quiet _ _ (Hq eq_refl)). exact Hp.
    + rewrite <- HR. clear -Hnil. specialize (Hnil eq_refl). induction pushed as [|j r IH]; [reflexivity|].
      destruct (Hnil j (or_introl eq_refl)) as [kk ->]. cbn. apply IH. intros j0 Hj0. apply Hnil. right. exact Hj0.
  - destruct (items_delete_tomb_spec (set_gcs st (remove_one t (gcs st))) t) as (_&_&A&_).
    intros th code Hin. rewrite A in Hin. eapply HS. exact Hin.
Qed.

Lemma live_call_in : forall st t it, klookup t (items st) = Some it -> it_tomb it = false -> In (it_call it) (live_call st t).
Proof. intros st t it Hl Ht. unfold live_call. rewrite Hl, Ht. left. reflexivity. Qed.

Lemma after_sent_oncall : forall r c j, In j (after_sent r) -> oncall c j = true -> r_call r = c.
Proof.
  intros r c j Hj Hr. unfold after_sent in Hj. apply in_app_or in Hj. destruct Hj as [Hj|Hj].
  - destruct (fin_of (r_f r)); [|contradiction]. destruct Hj as [<-|[]]. discriminate.
  - destruct (0 <? r_more r); [|contradiction]. destruct Hj as [<-|[<-|[]]]; cbn in Hr; apply Z.eqb_eq in Hr; exact Hr.
Qed.

Lemma pushed_oncall : forall cf st i room st1 pushed c j, exec cf st i room = (st1, pushed) ->
  In j pushed -> oncall c j = true -> oncall c i = true \/ In c (touches_i st i ++ creates_i st i).
Proof.
  intros cf st i room st1 pushed c j H Hj Hr.
  (* admission and the Chk / Enq instructions pass their own call on *)
  destruct (exec_cases _ _ _ _ _ _ H);
    try (left; in_cases Hj; cbn in Hr; try discriminate; exact Hr).
  - (* IStart *)
    right. cbn [touches_i creates_i app]. rewrite E0. destruct Hj as [<-|[]]. cbn in Hr. apply Z.eqb_eq in Hr. left. exact Hr.
  - right. cbn [touches_i creates_i app]. rewrite E0. cbn [orb]. rewrite Ecall.
    in_cases Hj; cbn in Hr; try discriminate; apply Z.eqb_eq in Hr; left; exact Hr.
  - (* INcGet *)
    right. rewrite app_nil_r. cbn [touches_i gets_i]. unfold nc_key. rewrite Eft.
    destruct Hj as [<-|[]]. cbn in Hr. destruct g as [[it b]|]; [|discriminate]. pose proof (items_get_found _ _ _ _ _ _ Eget) as El.
    apply andb_true_iff in Hr. destruct Hr as [Hc Hnt]. apply Z.eqb_eq in Hc. subst c.
    apply negb_true_iff in Hnt. apply live_call_in; assumption.
  - (* INcChk *)
    left. apply orb_false_iff in Echk. destruct Echk as [Et _]. cbn. rewrite Et, andb_true_r.
    in_cases Hj; cbn in Hr; exact Hr.
  - (* IRcvGet *)
    destruct Hj as [<-|[]]. cbn in Hr. apply orb_true_iff in Hr. destruct Hr as [Hr|Hr]; [left; exact Hr|].
    right. rewrite app_nil_r. cbn [touches_i gets_i]. destruct g as [[it b]|]; [|discriminate].
    pose proof (items_get_found _ _ _ _ _ _ Eget) as El.
    apply andb_true_iff in Hr. destruct Hr as [Hc Hnt]. apply Z.eqb_eq in Hc. subst c.
    apply negb_true_iff in Hnt. apply live_call_in; assumption.
  - (* IRcvChk *)
    left. cbn. rewrite (after_sent_oncall _ _ _ Hj Hr), Z.eqb_refl. reflexivity.
  - left. cbn. apply orb_false_iff in Echk. destruct Echk as [Et _]. rewrite Et, andb_true_r.
    apply in_app_or in Hj. destruct Hj as [Hj|[<-|[]]].
    + in_cases Hj; cbn in Hr; try discriminate; rewrite Hr; apply orb_true_r.
    + cbn in Hr. rewrite Hr. reflexivity.
  - (* IRcvEnq *)
    left. cbn. apply in_app_or in Hj. destruct Hj as [Hj|Hj]; [in_cases Hj; discriminate|].
    rewrite (after_sent_oncall _ _ _ Hj Hr). apply Z.eqb_refl.
  - (* IFailGet *)
    destruct g as [[it [|]]|]; in_cases Hj; discriminate.
  - (* IEntomb *)
    right. rewrite app_nil_r. cbn [touches_i].
    destruct g as [[it [|]]|]; try contradiction.
    destruct (items_entomb_done _ _ _ _ _ Eent) as (it0&El&Hnt&Hcall&_).
    apply in_app_or in Hj. destruct Hj as [Hj|[<-|[]]]; [|discriminate].
    destruct (match s with FromFail _ => it_orig it | FromTimeout o => o end); [|contradiction].
    assert (Hcc : it_call it = c).
    { unfold orig_tail in Hj. destruct s; in_cases Hj; cbn in Hr; try discriminate; apply Z.eqb_eq in Hr; exact Hr. }
    rewrite <- Hcc, Hcall. apply live_call_in; assumption.
  - (* IDelete *)
    right. rewrite app_nil_r. cbn [touches_i].
    apply items_delete_call_spec in Edel. destruct Edel as (_&_&_&_&_&_&_&E).
    destruct g as [[it [|]]|]; try contradiction.
    destruct (klookup t (items st)) as [it0|] eqn:El; [|destruct E as [E _]; discriminate].
    destruct E as [[Hg _]|[Hg _]]; [|discriminate]. inversion Hg. subst it0.
    in_cases Hj; cbn in Hr; try discriminate. apply Z.eqb_eq in Hr. subst c.
    apply live_call_in; [exact El|]. apply negb_true_iff. symmetry. assumption.
Qed.

(* ---------------------------------------------------------------- the ghost relation along a run *)

Record HInv (st : state) (h : held) : Prop := {
  h_code : forall th code j c, In (th, code) (threads st) -> In j code -> oncall c j = true -> In (th, c) h;
  h_excl : forall th1 th2 c, In (th1, c) h -> In (th2, c) h -> th1 = th2;
  h_bound : forall th c, In (th, c) h -> c < next_call st;
  h_items : forall t it, In (t, it) (items st) -> it_call it < next_call st
}.

Lemma others_hold_false : forall h th c th2, others_hold h th c = false -> In (th2, c) h -> th2 = th.
Proof.
  intros h th c th2 H Hin. unfold others_hold in H.
  destruct (tid_eqb th2 th) eqn:E; [apply tid_eqb_ok; exact E|]. exfalso.
  assert (Hex : existsb (fun p => negb (tid_eqb (fst p) th) && (snd p =? c)) h = true).
  { apply existsb_exists. exists (th2, c). split; [exact Hin|]. cbn. rewrite E, Z.eqb_refl. reflexivity. }
  congruence.
Qed.

Lemma in_held_next : forall st l st' h th c, In (th, c) (held_next st l st' h) ->
  In (th, c) h \/ (actor l = Some th /\ In c (acquires st l)).
Proof.
  intros st l st' h th c H. unfold held_next in H. destruct (actor l) as [a|]; [|left; exact H].
  assert (G : In (th, c) (map (fun c0 => (a, c0)) (acquires st l) ++ h) -> In (th, c) h \/ (Some a = Some th /\ In c (acquires st l))).
  { intro Hi. apply in_app_or in Hi. destruct Hi as [Hi|Hi]; [|left; exact Hi].
    apply in_map_iff in Hi. destruct Hi as (c0&Heq&Hc). inversion Heq. subst. right. split; [reflexivity|exact Hc]. }
  destruct (lookup tid_eqb a (threads st')); [apply G; exact H|].
  apply filter_In in H. apply G. tauto.
Qed.

Lemma held_next_other : forall st l st' h th c, In (th, c) h -> actor l <> Some th -> In (th, c) (held_next st l st' h).
Proof.
  intros st l st' h th c H Ha. unfold held_next. destruct (actor l) as [a|]; [|exact H].
  assert (Hi : In (th, c) (map (fun c0 => (a, c0)) (acquires st l) ++ h)) by (apply in_or_app; right; exact H).
  destruct (lookup tid_eqb a (threads st')); [exact Hi|].
  apply filter_In. split; [exact Hi|]. cbn. destruct (tid_eqb th a) eqn:E; [|reflexivity].
  apply tid_eqb_ok in E. subst. exfalso. apply Ha. reflexivity.
Qed.

Lemma held_next_self : forall st l st' h th c code, actor l = Some th -> lookup tid_eqb th (threads st') = Some code ->
  In (th, c) h \/ In c (acquires st l) -> In (th, c) (held_next st l st' h).
Proof.
  intros st l st' h th c code Ha Hl H. unfold held_next. rewrite Ha, Hl. apply in_or_app. destruct H as [H|H]; [right; exact H|left].
  apply in_map_iff. exists c. split; [reflexivity|exact H].
Qed.

Lemma lookup_set_thread_self : forall st th code,
  lookup tid_eqb th (threads (set_thread st th code)) = match code with [] => None | _ => Some code end.
Proof.
  intros st th code. rewrite set_thread_threads. destruct code.
  - apply (lookup_remove_eq tid_eqb tid_eqb_ok).
  - apply (lookup_insert_eq tid_eqb tid_eqb_ok).
Qed.

Lemma live_call_item : forall st t c, In c (live_call st t) ->
  exists it, klookup t (items st) = Some it /\ it_tomb it = false /\ it_call it = c.
Proof.
  intros st t c H. unfold live_call in H. destruct (klookup t (items st)) as [it|]; [|contradiction].
  destruct (it_tomb it) eqn:Et; [contradiction|]. destruct H as [<-|[]]. exists it. repeat split. exact Et.
Qed.

Lemma touches_i_item : forall st i c, In c (touches_i st i) -> exists t it, In (t, it) (items st) /\ it_tomb it = false /\ it_call it = c.
Proof.
  intros st i c H.
  assert (G : forall t, In c (live_call st t) -> exists t0 it, In (t0, it) (items st) /\ it_tomb it = false /\ it_call it = c).
  { intros t Ht. apply live_call_item in Ht. destruct Ht as (it&Hl&A&B). exists t, it. split; [eapply (lookup_in key_eqb key_eqb_ok); exact Hl|tauto]. }
  destruct i; cbn in H; try contradiction; try (eapply G; exact H).
  destruct (nc_key k f); [eapply G; exact H|contradiction].
Qed.

Lemma exec_next_call : forall cf st i room st1 pushed, exec cf st i room = (st1, pushed) ->
  next_call st <= next_call st1 /\ forall c, In c (creates_i st i) -> c < next_call st1.
Proof.
  intros cf st i room st1 pushed H.
  assert (Hsame : next_call st1 = next_call st -> creates_i st i = [] ->
                  next_call st <= next_call st1 /\ forall c, In c (creates_i st i) -> c < next_call st1).
  { intros He Hc. rewrite He, Hc. split; [lia|intros c []]. }
  destruct (exec_cases _ _ _ _ _ _ H); try (apply Hsame; reflexivity);
    try (apply Hsame; [|reflexivity]; apply items_get_spec in Eget; destruct Eget as [Eget _]; apply Eget).
  - cbn [creates_i]. rewrite E0. cbn. split; [lia|]. intros c [<-|[]]. lia.
  - cbn [creates_i]. rewrite E0. cbn [orb]. rewrite Ecall. cbn. split; [lia|]. intros c [<-|[]]. lia.
  - cbn [creates_i]. rewrite E0. cbn [orb]. rewrite Ecall. split; [lia|intros c []].
  - apply Hsame; [|reflexivity]. apply items_entomb_spec in Eent. destruct Eent as (_&_&_&_&_&A&_). exact A.
  - apply Hsame; [|reflexivity]. apply items_delete_call_spec in Edel. destruct Edel as (_&_&_&_&_&_&A&_). exact A.
Qed.

Lemma step_hinv : forall cf st h l st', Inv st -> HInv st h -> no_overlap_step st h l = true ->
  step cf st l = Some st' -> HInv st' (held_next st l st' h).
Proof.
  intros cf st h l st' HI HH Hno H. destruct (step_cases _ _ _ _ H) as [_ Hc]. clear H.
  destruct Hc as [| | |th room i rest st1 pushed El E|tm x Ex| |]; try exact HH.
  1, 2: (* LArrive: the new reader's first instruction carries no call *)
    (constructor; [|apply (h_excl _ _ HH)|apply (h_bound _ _ HH)|apply (h_items _ _ HH)];
     intros th code j c Hin Hj Ho; apply set_thread_in in Hin; destruct Hin as [[-> ->]|[_ Hin]];
       [destruct Hj as [<-|[]]; discriminate|eapply (h_code _ _ HH); eassumption]).
  - pose proof (lookup_in tid_eqb tid_eqb_ok _ _ _ El) as Hin0.
    pose proof (exec_threads _ _ _ _ _ _ E) as Hth.
    destruct (exec_next_call _ _ _ _ _ _ E) as [Hnc Hcr].
    assert (Hhead : head_of st th = Some i) by (unfold head_of; rewrite El; reflexivity).
    assert (Hacq : acquires st (LStep th room) = touches_i st i ++ creates_i st i).
    { unfold acquires, touches. rewrite Hhead. reflexivity. }
    assert (Htouch : forall c, In c (touches_i st i) -> others_hold h th c = false).
    { intros c Hc. unfold no_overlap_step in Hno. cbn [actor touches] in Hno. rewrite Hhead in Hno.
      rewrite forallb_forall in Hno. apply negb_true_iff. apply Hno. exact Hc. }
    constructor.
    + intros th' code j c Hin Hj Ho. apply set_thread_in in Hin. destruct Hin as [[-> ->]|[Hne Hin]].
      * apply (held_next_self _ _ _ _ _ _ (pushed ++ rest)); [reflexivity| |].
        { rewrite lookup_set_thread_self. destruct (pushed ++ rest) eqn:Ep; [contradiction|reflexivity]. }
        rewrite Hacq. apply in_app_or in Hj. destruct Hj as [Hj|Hj].
        -- destruct (pushed_oncall _ _ _ _ _ _ _ _ E Hj Ho) as [Hi|Hi]; [left|right; exact Hi].
           eapply (h_code _ _ HH); [exact Hin0|left; reflexivity|exact Hi].
        -- left. eapply (h_code _ _ HH); [exact Hin0|right; exact Hj|exact Ho].
      * apply held_next_other; [|cbn; congruence]. rewrite Hth in Hin. eapply (h_code _ _ HH); eassumption.
    + intros th1 th2 c H1 H2. apply in_held_next in H1. apply in_held_next in H2. rewrite Hacq in *. cbn [actor] in *.
      assert (Hnew : forall tha, In (tha, c) h -> In c (touches_i st i ++ creates_i st i) -> tha = th).
      { intros tha Ha Hc. apply in_app_or in Hc. destruct Hc as [Hc|Hc].
        - eapply others_hold_false; [apply Htouch; exact Hc|exact Ha].
        - exfalso. pose proof (h_bound _ _ HH _ _ Ha) as Hb. destruct i; cbn in Hc; try contradiction.
          destruct ((e_start e =? 0) || (e_start e =? 1) || (e_start e =? 3)); [|contradiction]. destruct Hc as [<-|[]]. lia. }
      destruct H1 as [H1|[A1 C1]], H2 as [H2|[A2 C2]].
      * eapply (h_excl _ _ HH); eassumption.
      * inversion A2. subst th2. eapply Hnew; eassumption.
      * inversion A1. subst th1. symmetry. eapply Hnew; eassumption.
      * congruence.
    + intros tha c Ha. cbn [set_thread set_threads next_call]. apply in_held_next in Ha. destruct Ha as [Ha|[_ Ha]].
      * pose proof (h_bound _ _ HH _ _ Ha). lia.
      * rewrite Hacq in Ha. apply in_app_or in Ha. destruct Ha as [Ha|Ha]; [|apply Hcr; exact Ha].
        apply touches_i_item in Ha. destruct Ha as (t&it&Hit&_&<-). pose proof (h_items _ _ HH _ _ Hit). lia.
    + intros t it Hit. cbn [set_thread set_threads next_call items] in *.
      destruct (exec_items_fields _ _ _ _ _ _ _ _ E Hit) as [(it0&Hi0&Hc&_)|[(k&f&e&c&d&Hi&_&Hc&_)|(k&f&e&c&d&did&Hi&_&Hc&_)]].
      * rewrite Hc. pose proof (h_items _ _ HH _ _ Hi0). lia.
      * subst i. assert (Hh : In (th, c) h) by (eapply (h_code _ _ HH); [exact Hin0|left; reflexivity|cbn; apply Z.eqb_refl]).
        pose proof (h_bound _ _ HH _ _ Hh). lia.
      * subst i. assert (Hh : In (th, c) h) by (eapply (h_code _ _ HH); [exact Hin0|left; reflexivity|cbn; apply Z.eqb_refl]).
        pose proof (h_bound _ _ HH _ _ Hh). lia.
  - assert (Hacq : acquires st (LFire tm) = live_call st (tm_key x)).
    { unfold acquires, touches. rewrite Ex. apply app_nil_r. }
    assert (Htouch : forall c, In c (live_call st (tm_key x)) -> others_hold h (TT tm) c = false).
    { intros c Hc. unfold no_overlap_step in Hno. cbn [actor touches] in Hno. rewrite Ex in Hno.
      rewrite forallb_forall in Hno. apply negb_true_iff. apply Hno. exact Hc. }
    constructor.
    + intros th' code j c Hin Hj Ho. apply set_thread_in in Hin. destruct Hin as [[-> ->]|[Hne Hin]].
      * destruct Hj as [<-|[]]. discriminate.
      * apply held_next_other; [|cbn; congruence]. eapply (h_code _ _ HH); eassumption.
    + intros th1 th2 c H1 H2. apply in_held_next in H1. apply in_held_next in H2. rewrite Hacq in *. cbn [actor] in *.
      destruct H1 as [H1|[A1 C1]], H2 as [H2|[A2 C2]].
      * eapply (h_excl _ _ HH); eassumption.
      * inversion A2. subst th2. eapply others_hold_false; [apply Htouch; exact C2|exact H1].
      * inversion A1. subst th1. symmetry. eapply others_hold_false; [apply Htouch; exact C1|exact H2].
      * congruence.
    + intros tha c Ha. cbn [set_thread set_threads set_timers next_call]. apply in_held_next in Ha. destruct Ha as [Ha|[_ Ha]].
      * apply (h_bound _ _ HH _ _ Ha).
      * rewrite Hacq in Ha. apply live_call_item in Ha. destruct Ha as (it&Hl&_&<-).
        eapply (h_items _ _ HH). eapply (lookup_in key_eqb key_eqb_ok). exact Hl.
    + apply (h_items _ _ HH).
  - (* LGc *)
    gc_delete HI.
    destruct (items_delete (set_gcs st (remove_one t (gcs st))) t) as [st' g] eqn:E. cbn [fst].
    apply items_delete_spec in E. cbn [set_gcs conns gcs threads cblog sent seen next_call items] in E.
    destruct E as (_&_&A&_&_&_&B&D). unfold held_next. cbn [actor].
    constructor; rewrite ?A, ?B; [apply (h_code _ _ HH)|apply (h_excl _ _ HH)|apply (h_bound _ _ HH)|].
    intros t0 it Hin. eapply (h_items _ _ HH).
    destruct (klookup t (items st)); destruct D as [_ Hi]; rewrite Hi in Hin; [|exact Hin].
    apply (in_remove key_eqb key_eqb_ok) in Hin. destruct Hin as [Hin _]. exact Hin.
  - (* LClose, LLost, LDrained: no goroutine acts *)
    destruct Elab as [-> | [-> | ->]]; constructor; cbn; apply HH.
Qed.

Lemma HInv_init : HInv init [].
Proof. constructor; cbn; intros; contradiction. Qed.

Lemma Shape_init : Shape init.
Proof. intros th code []. Qed.

(* ---------------------------------------------------------------- C09: the calm hypothesis of RelaySilentP follows *)

Lemma orig_live_ends : forall st c, Inv st -> orig_live st c = true -> ends c (cblog st) = 0.
Proof.
  intros st c HI H. unfold orig_live in H. apply existsb_exists in H. destruct H as ([t it]&Hin&Hp). cbn in Hp.
  apply andb_true_iff in Hp. destruct Hp as [Hp Hnt]. apply andb_true_iff in Hp. destruct Hp as [Hc Ho].
  apply Z.eqb_eq in Hc. apply negb_true_iff in Hnt. eapply ends_zero_item; eassumption.
Qed.

Lemma calm_step_of : forall st h l, Inv st -> HInv st h -> Shape st -> whole_step st l = true -> calm_step st l.
Proof.
  intros st h l HI HH HS Hw. destruct l as [| th room | | | | |]; try exact I. unfold calm_step.
  destruct (lookup tid_eqb th (threads st)) as [[|i rest]|] eqn:El; try exact I.
  pose proof (lookup_in tid_eqb tid_eqb_ok _ _ _ El) as Hin0.
  assert (Hhead : head_of st th = Some i) by (unfold head_of; rewrite El; reflexivity).
  unfold whole_step in Hw. rewrite Hhead in Hw. rewrite forallb_forall in Hw.
  destruct i; try exact I.
  - destruct x; try exact I. intros th' code j Hin Hj.
    destruct (reporter c j) eqn:Er; [|reflexivity]. exfalso.
    pose proof (h_code _ _ HH _ _ _ _ Hin Hj (reporter_oncall _ _ Er)) as H1.
    assert (H2 : In (th, c) h) by (eapply (h_code _ _ HH); [exact Hin0|left; reflexivity|cbn; apply Z.eqb_refl]).
    pose proof (h_excl _ _ HH _ _ _ H1 H2) as Heq. subst th'.
    pose proof (in_lookup tid_eqb tid_eqb_ok _ _ _ (inv_threads_nd _ HI) Hin) as Hl. rewrite El in Hl. inversion Hl. subst code.
    destruct Hj as [<-|Hj].
    + cbn in Er. rewrite Z.eqb_refl in Er. discriminate.
    + destruct (shape_head _ _ (HS _ _ Hin0)) as (_&_&Hq). specialize (Hq eq_refl). rewrite forallb_forall in Hq.
      rewrite (quiet_no_reporter c j (Hq j Hj)) in Er. discriminate.
  - intros ft it Hft Hl Hnt. apply orig_live_ends; [exact HI|]. apply Hw. cbn [gets_i]. unfold nc_key. rewrite Hft.
    apply live_call_in; assumption.
  - intros it Hl Hnt. apply orig_live_ends; [exact HI|]. apply Hw. cbn [gets_i]. apply live_call_in; assumption.
Qed.

Lemma calm_old : forall cf ls st0 h st, Inv st0 -> HInv st0 h -> Shape st0 ->
  run_fresh cf st0 ls = Some st -> sched cf calm_chk st0 h ls = true -> calm_run cf st0 ls.
Proof.
  intros cf ls. induction ls as [|l r IH]; intros st0 h st HI HH HS H Hc; cbn in *; [exact I|].
  destruct (fresh_label st0 l) eqn:Ef; [|discriminate]. destruct (step cf st0 l) as [st1|] eqn:Es; [|discriminate].
  apply andb_true_iff in Hc. destruct Hc as [Hc1 Hc2]. unfold calm_chk in Hc1. apply andb_true_iff in Hc1. destruct Hc1 as [Hno Hw].
  split; [eapply calm_step_of; eassumption|].
  eapply IH; [eapply step_inv; eassumption|eapply step_hinv; eassumption|eapply step_shape; eassumption|exact H|exact Hc2].
Qed.

(* C09, nothing is reported after End: for every fresh-id schedule without overlap in which no
   frame is processed for a call whose originating item is already completed *)
Theorem silent_after_end_calm : forall cf ls st,
  run_fresh cf init ls = Some st -> calm cf ls -> silent_after_end cb_is_end (cblog st).
Proof.
  intros cf ls st H Hc. eapply silent_after_end_partial_lemma; [exact H|].
  eapply calm_old; [apply Inv_init|apply HInv_init|apply Shape_init|exact H|exact Hc].
Qed.

(* the invariants at the end of a run without overlap, with the ghost it ends in *)
Fixpoint held_run (cf : config) (st : state) (h : held) (ls : list label) : held :=
  match ls with
  | [] => h
  | l :: r => match step cf st l with Some st' => held_run cf st' (held_next st l st' h) r | None => h end
  end.

Lemma reach_hinv : forall cf ls st, run_fresh cf init ls = Some st -> no_overlap cf ls ->
  HInv st (held_run cf init [] ls) /\ Shape st.
Proof.
  intros cf ls. unfold no_overlap.
  assert (G : forall st0 h st, Inv st0 -> HInv st0 h -> Shape st0 -> run_fresh cf st0 ls = Some st ->
            sched cf no_overlap_step st0 h ls = true -> HInv st (held_run cf st0 h ls) /\ Shape st).
  { induction ls as [|l r IH]; intros st0 h st HI HH HS H Hc; cbn in *.
    - inversion H. subst. split; assumption.
    - destruct (fresh_label st0 l) eqn:Ef; [|discriminate]. destruct (step cf st0 l) as [st1|] eqn:Es; [|discriminate].
      apply andb_true_iff in Hc. destruct Hc as [Hc1 Hc2].
      eapply IH; [eapply step_inv; eassumption|eapply step_hinv; eassumption|eapply step_shape; eassumption|exact H|exact Hc2]. }
  intros st H Hc. eapply G; [apply Inv_init|apply HInv_init|apply Shape_init|exact H|exact Hc].
Qed.

(* non-vacuity: the complete relayed call of RelaySilentP is calm; its refuting run has an overlap *)
Example calm_example_calm : sched wit_cf calm_chk init [] calm_example = true.
Proof. vm_compute. reflexivity. Qed.
Example wit_silent_overlap : sched wit_cf no_overlap_step init [] wit_silent = false.
Proof. vm_compute. reflexivity. Qed.
