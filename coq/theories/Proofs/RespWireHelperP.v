(* C10, server side: THE QUANTIFIER WIDENED TO HANDLERS WRITTEN WITH THE HELPERS.

   [handler_ok] (Model/RespWire.v) is the syntactic reading of "handlers that either complete the
   response or send one system error": SendSystemError at most once and never after doneSending
   (HDone).  A handler written the documented way -- an ErrorHandlerFunc that answers through
   NewArgWriter(..).Write / WriteJSON and returns the first error -- leaves that class in one
   situation: the helper's Close of arg3 FAILS at the transport (deadline, cancel, connection
   failure while the final fragment is flushed); Close has then run doneSending, the helper
   returns Close's error and the library calls SendSystemError AFTER HDone.  That is harmless --
   every failing flush marks the response as failed (reqres.go failed), and SendSystemError is
   refused by response.err -- but it has to be proved, for every interleaving.

   [helper_ok id]: SendSystemError of call id at most once, and after HDone only when the final
   flush of that Close did NOT enqueue its fragment (the handler label of the call right before
   HDone is not [HFlushSel id true]): the Close returned an error.  It contains [handler_ok].

   Theorem [helper_ok_not_misused]: in every run such a call never gets past the error check of
   SendSystemError after doneSending.  Hence the whole grammar theorem for it
   ([respwire_grammar_helper]).  Invariant: a call at PDone whose last handler action was not the
   enqueue of the final fragment has response.err set; response.err is never cleared. *)
From Coq Require Import ZArith List Bool Lia.
From Verif Require Import Base.Wire Spec.WireOk Proofs.WireOkP Model.ArgHelper Model.RespWire Proofs.RespWireP.
Import ListNotations.
Local Open Scope Z_scope.

Inductive htrk := TOpen | TDoneOK | TDoneFailed | TSys.

(* handler actions of call [id] *)
Definition hl_of (id : Z) (l : label) : bool :=
  match l with
  | HStart i _ | HResp i | HReadFail i _ | HArgWriter i _ | HFlush i _ | HFlushSel i _
  | HNewFrag i | HClose i _ | HDone i | HSysErr i _ | HSetAppErr i | HBlackhole i
  | HHelperWrite i _ _ => i =? id
  | _ => false
  end.

Definition trk_after (t : htrk) (enq : bool) (l : label) : htrk :=
  match l with
  | HSysErr _ _ => TSys
  | HDone _ => match t with TSys => TSys | _ => if enq then TDoneOK else TDoneFailed end
  | _ => t
  end.

Definition enq_after (l : label) : bool :=
  match l with HFlushSel _ e => e | _ => false end.

Definition sys_allowed (t : htrk) : bool :=
  match t with TOpen | TDoneFailed => true | _ => false end.

Fixpoint helper_ok (id : Z) (t : htrk) (enq : bool) (ls : list label) : bool :=
  match ls with
  | [] => true
  | l :: r =>
      if hl_of id l then
        match l with
        | HSysErr _ _ => sys_allowed t && helper_ok id TSys false r
        | _ => helper_ok id (trk_after t enq l) (enq_after l) r
        end
      else helper_ok id t enq r
  end.

Lemma helper_ok_no_sys id r : forall t e, handler_ok id true r = true -> helper_ok id t e r = true.
Proof.
  induction r as [|l r IH]; intros t e H; [reflexivity|].
  cbn [helper_ok]. destruct (hl_of id l) eqn:HL.
  - destruct l; cbn [hl_of] in HL; try discriminate HL; cbn [handler_ok] in H;
      try (apply IH; exact H);
      try (rewrite HL in H; first [discriminate H | apply IH; exact H]).
  - destruct l; cbn [handler_ok] in H; try (apply IH; exact H);
      cbn [hl_of] in HL; rewrite HL in H; apply IH; exact H.
Qed.

Lemma handler_ok_helper_ok id r : forall e, handler_ok id false r = true -> helper_ok id TOpen e r = true.
Proof.
  induction r as [|l r IH]; intros e H; [reflexivity|].
  cbn [helper_ok]. destruct (hl_of id l) eqn:HL.
  - destruct l; cbn [hl_of] in HL; try discriminate HL; cbn [handler_ok trk_after enq_after] in *;
      try (apply IH; exact H); rewrite HL in H.
    + (* HDone *) destruct e; apply helper_ok_no_sys; exact H.
    + (* HSysErr *) cbn [negb andb sys_allowed] in *. apply helper_ok_no_sys; exact H.
  - destruct l; cbn [handler_ok] in H; try (apply IH; exact H);
      cbn [hl_of] in HL; rewrite HL in H; apply IH; exact H.
Qed.

Lemma hl_of_lid id l : hl_of id l = true <-> lid l = Some id.
Proof. destruct l; cbn; try (split; discriminate); rewrite Z.eqb_eq; split; congruence. Qed.

Definition J (t : htrk) (enq : bool) (c : call) : Prop :=
  (t = TOpen -> g_dones c = false) /\
  (t = TDoneFailed -> g_dones c = true -> w_err c = true) /\
  (h_pc c = PDone -> enq = false -> w_err c = true).

(* steps that are not handler actions of the call *)
Lemma J_aside st id x t enq :
  (forall c, get id (calls st) = Some c -> J t enq c) ->
  x = new_call \/ (exists c, get id (calls st) = Some c /\ aside c x) -> J t enq x.
Proof.
  intros HJ [-> | (c0 & G & K1 & K2 & K3)].
  - unfold J. cbn. split; [reflexivity|]. split; discriminate.
  - destruct (HJ c0 G) as (A & B & C). unfold J. rewrite K1, K2. repeat split; auto.
Qed.

(* a handler action of the call: response.err is kept; a step that ends at PDone without having
   enqueued the final fragment has set it; SendSystemError gets past its guard after doneSending
   only if the response had not failed *)
Lemma hstep_J st id c l st' t enq :
  get id (calls st) = Some c -> hstep st id c l = Some st' -> lid l = Some id ->
  J t enq c -> ~ In id (misused st) ->
  match l with HSysErr _ _ => sys_allowed t = true | _ => True end ->
  ~ In id (misused st') /\
  forall c', get id (calls st') = Some c' -> J (trk_after t enq l) (enq_after l) c'.
Proof.
  intros Hg H L (Ja & Jb & Jc) Hm Hs.
  assert (Hpd : forall i, l = HDone i -> h_pc c = PDone).
  { intros i ->. unfold hstep in H. destruct (h_pc c); try discriminate. reflexivity. }
  destruct (hstep_shape _ _ _ _ _ Hg H) as [c' chk m fr [_ _ _ Hwerr Hdones _ Hdone _ Hmis] _].
  rewrite mis_commit, get_commit_same. cbn [misused log].
  assert (Em : m = []).
  { destruct Hmis as [E | (Gd & We & _ & i & f & ->)]; [exact E | exfalso].
    destruct t; try discriminate Hs;
      [rewrite (Ja eq_refl) in Gd; discriminate | rewrite (Jb eq_refl Gd) in We; discriminate]. }
  subst m. rewrite app_nil_r. split; [exact Hm|]. intros x X. apply Some_inj in X. subst x.
  assert (T2 : h_pc c' = PDone -> enq_after l = false -> w_err c' = true).
  { intros Pd En. destruct (Hdone Pd) as [(i & ->) | W]; [discriminate En | exact W]. }
  unfold J. destruct l; cbn [lid] in L; try discriminate L; cbn [trk_after enq_after] in *;
    try (destruct Hdones as [D | (_ & _ & [(i & X) | (i & f & X)])]; try discriminate X;
         split; [intros Et; rewrite D; auto
                | split; [intros Et Gd; apply Hwerr, Jb; [exact Et | congruence] | exact T2]]).
  - (* HDone *)
    pose proof (Hpd _ eq_refl) as Pd. split; [destruct t, enq; discriminate|]. split; [|exact T2].
    intros Et _. apply Hwerr, Jc; [exact Pd|]. destruct t, enq; try discriminate; reflexivity.
  - (* HSysErr *)
    split; [discriminate|]. split; [discriminate | exact T2].
Qed.

Lemma helper_ok_run ls : forall st st' id t enq,
  run_from st ls = Some st' -> helper_ok id t enq ls = true ->
  (forall c, get id (calls st) = Some c -> J t enq c) ->
  ~ In id (misused st) -> ~ In id (misused st').
Proof.
  induction ls as [|l r IH]; intros st st' id t enq H Hok HJ Hm; cbn [run_from] in H.
  - apply Some_inj in H; subst; exact Hm.
  - destruct (step st l) as [st1|] eqn:E; [|discriminate].
    cbn [helper_ok] in Hok. destruct (hl_of id l) eqn:HL.
    + apply hl_of_lid in HL. destruct (step_own _ _ _ _ E HL) as (c & Hg & Hs).
      assert (Y : match l with HSysErr _ _ => sys_allowed t = true | _ => True end /\
                  helper_ok id (trk_after t enq l) (enq_after l) r = true).
      { destruct l; cbn [trk_after enq_after] in *; try (split; [exact I | exact Hok]).
        apply andb_true_iff in Hok. exact Hok. }
      destruct Y as [Y1 Y2].
      destruct (hstep_J _ _ _ _ _ _ _ Hg Hs HL (HJ c Hg) Hm Y1) as [Hm1 HJ1].
      eapply IH; eassumption.
    + assert (L : lid l <> Some id) by (intros X; apply hl_of_lid in X; congruence).
      eapply IH; [exact H | exact Hok | |].
      * intros x G. eapply J_aside; [exact HJ|]. eapply step_aside; eassumption.
      * destruct (step_ghost _ _ _ id E) as (_ & _ & [-> | (i & Li & ->)]); [exact Hm|].
        intros X. apply in_app_or in X as [X | [X | []]]; [auto | congruence].
Qed.

Theorem helper_ok_not_misused prop ls st id :
  run prop ls = Some st -> helper_ok id TOpen false ls = true -> ~ In id (misused st).
Proof.
  intros H Hok. eapply helper_ok_run; [exact H | exact Hok | | intros []].
  intros c G. discriminate G.
Qed.

Theorem respwire_grammar_helper prop ls st :
  run prop ls = Some st ->
  forall id, (req_count id ls <= 1)%nat -> helper_ok id TOpen false ls = true ->
    wire_prefix_ok (proj id (sent st)) = true /\
    (forall l1 k l2, proj id (sent st) = l1 ++ k :: l2 -> terminal k = true -> l2 = []) /\
    (length (filter terminal (proj id (sent st))) <= 1)%nat /\
    (req_count id ls = O -> proj id (sent st) = []) /\
    (get id (calls st) = None -> proj id (sent st) = [] \/ proj id (sent st) = [Err]).
Proof.
  intros Hrun id Hc Hok.
  assert (E : count_req id (requested st) = req_count id ls).
  { unfold run in Hrun. rewrite (requested_count _ _ _ id Hrun). cbn. lia. }
  pose proof (respwire_grammar prop ls st Hrun id) as G. rewrite E in G.
  apply G; [exact Hc | eapply helper_ok_not_misused; eassumption].
Qed.

(* ---- witnesses ------------------------------------------------------------------------------------------
   call 7 answers through the helper; the deadline passes before the helper's Close of arg3, the
   final flush fails (at checkError, or at the select), Close has run doneSending and returned the
   error, the ErrorHandlerFunc sends its system error: outside [handler_ok], inside [helper_ok];
   nothing is sent, the call is not "misused". *)
Definition close_fails_early : list label :=
  [RdCallReq1 7 false; RdCallReq2 true false; RdCallReq3 false; HStart 7 true; HResp 7;
   HArgWriter 7 1; HClose 7 false; HArgWriter 7 2; HHelperWrite 7 true false; HArgWriter 7 3;
   Deadline 7; HHelperWrite 7 true false; HDone 7; HSysErr 7 false].
Definition close_fails_at_select : list label :=
  [RdCallReq1 7 false; RdCallReq2 true false; RdCallReq3 false; HStart 7 true; HResp 7;
   HArgWriter 7 1; HClose 7 false; HArgWriter 7 2; HHelperWrite 7 true false; HArgWriter 7 3;
   HHelperWrite 7 true false; Deadline 7; HFlushSel 7 false; HDone 7; HSysErr 7 false].

Lemma helper_ok_examples :
  (handler_ok 7 false close_fails_early = false /\ helper_ok 7 TOpen false close_fails_early = true /\
   exists st, run false close_fails_early = Some st /\ proj 7 (sent st) = [] /\ misused st = [] /\
              exists c, get 7 (calls st) = Some c /\ g_rets c = [0; 0; 0; 0; 0; 1; 1]) /\
  (handler_ok 7 false close_fails_at_select = false /\ helper_ok 7 TOpen false close_fails_at_select = true /\
   exists st, run false close_fails_at_select = Some st /\ proj 7 (sent st) = [] /\ misused st = [] /\
              exists c, get 7 (calls st) = Some c /\ g_rets c = [0; 0; 0; 0; 0; 1; 1]) /\
  (* tight: a system error after a Close that DID enqueue the final fragment is outside *)
  helper_ok 7 TOpen false misuse_labels = false.
Proof.
  repeat split; try reflexivity;
    (eexists; split; [vm_compute; reflexivity|]; split; [vm_compute; reflexivity|];
     split; [vm_compute; reflexivity|]; eexists; split; vm_compute; reflexivity).
Qed.
