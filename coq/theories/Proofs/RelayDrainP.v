(* Proofs about Model/RelayDrain.v: relay items and tombstones drain.
   Invariant: the item registered under an id is, if it is a tombstone, awaited by a pending
   GC callback for that id; otherwise its timer is still armed, or somebody who stopped the
   timer still holds the id, or the timer callback is running.  So when no timer is armed and
   no handler / callback / GC is pending the map is empty.  Who holds an id is a parameter of
   the invariant: the ghost list rs_held here, the threads in Proofs/RelayHoldP.v, which
   rests on the same lemmas about Delete, Entomb and Stop. *)
From Coq Require Import ZArith List Bool Lia.
From Verif Require Import Base.Wire Model.MexDrain Model.RelayDrain Proofs.DrainBaseP.
Import ListNotations.
Local Open Scope Z_scope.

Definition KItem (s : rstate) (id : Z) (it : ritem) : Prop :=
  if ri_tomb it then In id (rs_gc s)
  else (ri_timer it = 0 \/ In id (rs_held s) \/ In id (rs_firing s)).

Definition KInv (s : rstate) : Prop :=
  forall id it, get_item id (rs_items s) = Some it -> KItem s id it.

Definition KInvExcept (id0 : Z) (s : rstate) : Prop :=
  forall id it, id <> id0 -> get_item id (rs_items s) = Some it -> KItem s id it.

Lemma KInv_except id0 s : KInv s -> KInvExcept id0 s.
Proof. intros H id it _ Hg. exact (H id it Hg). Qed.

Lemma get_del id id' l :
  get_item id (del_item id' l) = if id =? id' then None else get_item id l.
Proof.
  unfold del_item. induction l as [|[k v] r IH]; cbn [filter get_item fst].
  - destruct (id =? id'); reflexivity.
  - destruct (k =? id') eqn:E; cbn [negb].
    + rewrite IH. destruct (id =? id') eqn:E2; [reflexivity|].
      assert (k =? id = false) as -> by lia. reflexivity.
    + cbn [get_item]. rewrite IH. destruct (k =? id) eqn:E2; [|reflexivity].
      assert (id =? id' = false) as -> by lia. reflexivity.
Qed.

Lemma get_set id id' v l :
  get_item id (set_item id' v l) =
  if id =? id' then (match get_item id' l with Some _ => Some v | None => None end) else get_item id l.
Proof. exact (aget_aset id id' v l). Qed.

Lemma get_set_other id id' v l : id <> id' -> get_item id (set_item id' v l) = get_item id l.
Proof. intros H. rewrite get_set. replace (id =? id') with false by lia. reflexivity. Qed.

Lemma timer_stop_spec t : timer_stop t = if (t =? 0) || (t =? 1) then (1, true) else (t, false).
Proof. unfold timer_stop. destruct (t =? 1), (t =? 0); reflexivity. Qed.

(* the invariant, [held] saying who holds a stopped timer; second clause: a live item
   whose timer is neither armed nor stopped has its callback running *)

Definition owned (held : Z -> Prop) (r : rstate) (id : Z) (it : ritem) : Prop :=
  (if ri_tomb it then In id (rs_gc r) else ri_timer it = 0 \/ held id \/ In id (rs_firing r)) /\
  (ri_tomb it = false -> ri_timer it <> 0 -> ri_timer it <> 1 -> In id (rs_firing r)).

Definition Owned (held : Z -> Prop) (r : rstate) : Prop :=
  forall id it, get_item id (rs_items r) = Some it -> owned held r id it.

Definition OwnedExcept (held : Z -> Prop) (id0 : Z) (r : rstate) : Prop :=
  forall id it, id <> id0 -> get_item id (rs_items r) = Some it -> owned held r id it.

Lemma Owned_except held id0 r : Owned held r -> OwnedExcept held id0 r.
Proof. intros H id it _. apply H. Qed.

Lemma OwnedExcept_close held id0 r :
  OwnedExcept held id0 r -> (forall it, get_item id0 (rs_items r) = Some it -> owned held r id0 it) -> Owned held r.
Proof. intros H H0 id it. destruct (Z.eq_dec id id0) as [->|Hne]; [apply H0|apply H, Hne]. Qed.

Lemma OwnedExcept_move (held held' : Z -> Prop) id0 r r' :
  OwnedExcept held id0 r ->
  (forall id, id <> id0 -> get_item id (rs_items r') = get_item id (rs_items r)) ->
  (forall id, id <> id0 -> In id (rs_gc r) -> In id (rs_gc r')) ->
  (forall id, id <> id0 -> In id (rs_firing r) -> In id (rs_firing r')) ->
  (forall id, id <> id0 -> held id -> held' id) ->
  OwnedExcept held' id0 r'.
Proof.
  intros HO Hit Hgc Hfi Hho id it Hne Hget. rewrite (Hit id Hne) in Hget.
  destruct (HO id it Hne Hget) as [HK HF]. split; [|auto].
  destruct (ri_tomb it); [auto|]. destruct HK as [Hz|[Hh|Hf]]; auto.
Qed.

Lemma Owned_step (held held' : Z -> Prop) id0 r r' :
  Owned held r ->
  (forall id, id <> id0 -> get_item id (rs_items r') = get_item id (rs_items r)) ->
  (forall id, id <> id0 -> In id (rs_gc r) -> In id (rs_gc r')) ->
  (forall id, id <> id0 -> In id (rs_firing r) -> In id (rs_firing r')) ->
  (forall id, id <> id0 -> held id -> held' id) ->
  (forall it, get_item id0 (rs_items r') = Some it -> owned held' r' id0 it) ->
  Owned held' r'.
Proof.
  intros HO Hit Hgc Hfi Hho H0. apply (OwnedExcept_close _ id0); [|exact H0].
  exact (OwnedExcept_move _ _ _ _ _ (Owned_except _ id0 _ HO) Hit Hgc Hfi Hho).
Qed.

Lemma r_delete_owned held id0 r : OwnedExcept held id0 r -> Owned held (snd (r_delete id0 r)).
Proof.
  intros HO id it Hget. unfold r_delete in *.
  destruct (get_item id0 (rs_items r)) eqn:Hg; cbn [snd rs_items] in Hget.
  - rewrite get_del in Hget. destruct (id =? id0) eqn:E; [discriminate|]. apply (HO id it); [lia|exact Hget].
  - apply (HO id it); [congruence|exact Hget].
Qed.

Lemma r_entomb_owned held id0 r :
  OwnedExcept held id0 r ->
  (forall it, get_item id0 (rs_items r) = Some it -> ri_tomb it = true -> In id0 (rs_gc r)) ->
  Owned held (snd (r_entomb id0 r)).
Proof.
  intros HO Htomb. unfold r_entomb. destruct (rs_maxtombs r <? rs_tombs r); [apply r_delete_owned, HO|].
  destruct (get_item id0 (rs_items r)) as [it0|] eqn:Hg; [destruct (ri_tomb it0) eqn:Ht|]; cbn [snd];
    apply (OwnedExcept_close _ id0); try exact HO.
  - rewrite Hg. intros it [= <-]. split; [rewrite Ht; exact (Htomb it0 eq_refl Ht)|congruence].
  - (* the tombstone is awaited by the collection scheduled here *)
    apply (OwnedExcept_move held _ _ r); cbn [rs_items rs_gc rs_firing In]; auto.
    intros id Hne. apply get_set_other, Hne.
  - cbn [rs_items rs_gc]. rewrite get_set, Z.eqb_refl, Hg. intros it [= <-]. split; [left; reflexivity|discriminate].
  - rewrite Hg. discriminate.
Qed.

Lemma finish_with_owned held p : Owned held (snd p) -> Owned held (finish_with p).
Proof. destruct p as [[] r]; exact (fun H => H). Qed.

(* Stop() on the timer of the entry of id: whoever stops a timer holds the id; a timer that cannot
   be stopped any more is running its callback *)
Lemma owned_stop (held held' : Z -> Prop) r r' id it t' st :
  owned held r id it -> timer_stop (ri_timer it) = (t', st) ->
  rs_gc r' = rs_gc r -> rs_firing r' = rs_firing r ->
  (ri_tomb it = false -> st = true -> held' id) ->
  owned held' r' id {| ri_tomb := ri_tomb it; ri_timer := t' |}.
Proof.
  rewrite timer_stop_spec. intros [HK HF] Ets Egc Efi Hst. unfold owned. cbn [ri_tomb ri_timer].
  rewrite Egc, Efi. destruct (ri_tomb it); [split; [exact HK|discriminate]|].
  destruct ((ri_timer it =? 0) || (ri_timer it =? 1)) eqn:E; injection Ets as <- <-.
  - split; [auto|]. intros _ _ H1. contradiction H1. reflexivity.
  - split; [|exact HF]. right. right. apply HF; [reflexivity|lia|lia].
Qed.

Lemma owned_tomb held r id it : owned held r id it -> ri_tomb it = true -> In id (rs_gc r).
Proof. intros [H _] Ht. rewrite Ht in H. exact H. Qed.

Lemma Owned_held (held held' : Z -> Prop) r : (forall id, held id -> held' id) -> Owned held r -> Owned held' r.
Proof.
  intros Hm H id it Hg. destruct (H id it Hg) as [HK HF]. split; [|exact HF].
  destruct (ri_tomb it); [exact HK|]. destruct HK as [Hz|[Hh|Hf]]; auto.
Qed.

(* Model/RelayDrain.v: the holders are the ids in rs_held *)

Definition held_in (s : rstate) (id : Z) : Prop := In id (rs_held s).

Lemma Owned_KInv s : Owned (held_in s) s -> KInv s.
Proof. intros H id it Hg. exact (proj1 (H id it Hg)). Qed.

Lemma Owned_init held mt : Owned held (rs_init mt).
Proof. intros id it H. discriminate. Qed.

Lemma get_stop_effect ct id s it s' :
  get_item id (rs_items s) = Some it -> r_get_stop ct id s = s' ->
  rs_items s' = set_item id {| ri_tomb := ri_tomb it; ri_timer := fst (timer_stop (ri_timer it)) |} (rs_items s) /\
  rs_tombs s' = rs_tombs s /\ rs_gc s' = rs_gc s /\ rs_firing s' = rs_firing s /\
  (forall x, In x (rs_held s) -> In x (rs_held s')) /\
  (ri_tomb it = false -> snd (timer_stop (ri_timer it)) = true -> In id (rs_held s')).
Proof.
  intros Hg <-. unfold r_get_stop. rewrite Hg. destruct (timer_stop (ri_timer it)) as [t' st]. cbn [fst snd].
  destruct ct, st, (ri_tomb it); cbn; repeat split; auto; discriminate.
Qed.

Lemma get_stop_none ct id s : get_item id (rs_items s) = None -> r_get_stop ct id s = if ct then rout s 0 else s.
Proof. intros Hg. unfold r_get_stop. rewrite Hg. reflexivity. Qed.

Lemma get_stop_owned ct id0 s : Owned (held_in s) s -> Owned (held_in (r_get_stop ct id0 s)) (r_get_stop ct id0 s).
Proof.
  intros H. destruct (get_item id0 (rs_items s)) as [it0|] eqn:Hg; [|rewrite (get_stop_none _ _ _ Hg); destruct ct; exact H].
  destruct (get_stop_effect ct id0 s it0 _ Hg eq_refl) as (Ei & _ & Eg & Ef & Hm & Hh).
  apply (Owned_step (held_in s) _ id0 s _ H); rewrite ?Eg, ?Ef; auto.
  - intros id Hne. rewrite Ei. apply get_set_other, Hne.
  - intros id _. apply Hm.
  - rewrite Ei, get_set, Z.eqb_refl, Hg. intros it [= <-].
    exact (owned_stop _ _ s _ _ _ _ _ (H id0 it0 Hg) (surjective_pairing _) Eg Ef Hh).
Qed.

Lemma r_delete_held id r : rs_held (snd (r_delete id r)) = rs_held r.
Proof. unfold r_delete. destruct (get_item id (rs_items r)); reflexivity. Qed.

Lemma r_entomb_held id r : rs_held (snd (r_entomb id r)) = rs_held r.
Proof.
  unfold r_entomb. destruct (rs_maxtombs r <? rs_tombs r); [apply r_delete_held|].
  destruct (get_item id (rs_items r)) as [it|]; [destruct (ri_tomb it)|]; reflexivity.
Qed.

Lemma finish_with_held p : rs_held (finish_with p) = rs_held (snd p).
Proof. destruct p as [[] r]; reflexivity. Qed.

(* the steps that leave the holders alone, whoever the holders are *)
Lemma Owned_rstep_any held s l s' :
  match l with RAdd _ | RFireStart _ | RFireEntomb _ | RGc _ => True | _ => False end ->
  Owned held s -> rstep s l = Some s' -> Owned held s' /\ rs_held s' = rs_held s.
Proof.
  intros Hl H Hs. destruct l as [id0|id0|id0|id0|id0|id0|id0|id0]; try destruct Hl; cbn [rstep] in Hs.
  - (* RAdd *)
    destruct (get_item id0 (rs_items s)) eqn:Hg; [discriminate|]. injection Hs as <-. split; [|reflexivity].
    apply (Owned_step _ _ id0 s _ H); cbn [rs_items get_item]; auto.
    + intros id Hne. replace (id0 =? id) with false by lia. reflexivity.
    + rewrite Z.eqb_refl. intros it [= <-]. split; [left; reflexivity|]. intros _ H0. contradiction H0. reflexivity.
  - (* RFireStart *)
    destruct (get_item id0 (rs_items s)) as [it0|] eqn:Hg; [|discriminate].
    destruct (ri_timer it0 =? 0); [|discriminate]. injection Hs as <-. split; [|reflexivity].
    apply (Owned_step _ _ id0 s _ H); cbn [rs_items rs_gc rs_firing In]; auto.
    + intros id Hne. apply get_set_other, Hne.
    + rewrite get_set, Z.eqb_refl, Hg. intros it [= <-]. destruct (H id0 it0 Hg) as [HK _].
      split; cbn [ri_tomb ri_timer rs_gc rs_firing In]; [|auto]. destruct (ri_tomb it0); auto.
  - (* RFireEntomb *)
    destruct (has id0 (rs_firing s)); [|discriminate]. injection Hs as <-.
    split; [|rewrite finish_with_held; exact (r_entomb_held id0 (drop_firing id0 s))].
    apply finish_with_owned, r_entomb_owned.
    + apply (OwnedExcept_move _ _ _ _ _ (Owned_except _ id0 _ H)); auto. intros id Hne. apply in_remove1_other, Hne.
    + intros it Hg. exact (owned_tomb _ _ _ _ (H id0 it Hg)).
  - (* RGc *)
    destruct (has id0 (rs_gc s)); [|discriminate]. injection Hs as <-. split; [|exact (r_delete_held id0 (drop_gc id0 s))].
    apply r_delete_owned.
    apply (OwnedExcept_move _ _ _ _ _ (Owned_except _ id0 _ H)); auto. intros id Hne. apply in_remove1_other, Hne.
Qed.

Lemma Owned_rstep s l s' : Owned (held_in s) s -> rstep s l = Some s' -> Owned (held_in s') s'.
Proof.
  intros H Hs.
  assert (Hany : match l with RAdd _ | RFireStart _ | RFireEntomb _ | RGc _ => True | _ => False end ->
                 Owned (held_in s') s').
  { intros Hl. destruct (Owned_rstep_any _ _ _ _ Hl H Hs) as [H' Eh]. unfold held_in. rewrite Eh. exact H'. }
  destruct l as [id0|id0|id0|id0|id0|id0|id0|id0]; try exact (Hany I); clear Hany; cbn [rstep] in Hs.
  - injection Hs as <-. apply get_stop_owned, H.
  - injection Hs as <-. apply get_stop_owned, H.
  - (* RFinishHeld *)
    destruct (has id0 (rs_held s)); [|discriminate]. injection Hs as <-.
    apply (Owned_held (held_in (drop_held id0 s))); [unfold held_in; rewrite finish_with_held, r_delete_held; auto|].
    apply finish_with_owned, r_delete_owned.
    apply (OwnedExcept_move _ _ _ _ _ (Owned_except _ id0 _ H)); auto. intros id Hne. apply in_remove1_other, Hne.
  - (* RFailHeld *)
    destruct (has id0 (rs_held s)); [|discriminate]. injection Hs as <-.
    apply (Owned_held (held_in (drop_held id0 s))); [unfold held_in; rewrite finish_with_held, r_entomb_held; auto|].
    apply finish_with_owned, r_entomb_owned.
    + apply (OwnedExcept_move _ _ _ _ _ (Owned_except _ id0 _ H)); auto. intros id Hne. apply in_remove1_other, Hne.
    + intros it Hg. exact (owned_tomb _ _ _ _ (H id0 it Hg)).
Qed.

Lemma Owned_rrun ls s s' : Owned (held_in s) s -> rrun s ls = Some s' -> Owned (held_in s') s'.
Proof.
  exact (run_invariant _ _ (fun s => Owned (held_in s) s) (fun _ => eq_refl) (fun _ _ _ => eq_refl) Owned_rstep ls s s').
Qed.

Lemma Owned_quiet_empty (held : Z -> Prop) r :
  Owned held r -> (forall id, ~ held id) ->
  forallb (fun p => negb (ri_timer (snd p) =? 0)) (rs_items r) = true -> rs_gc r = [] -> rs_firing r = [] ->
  rs_items r = [].
Proof.
  intros H Hh Hti Hgc Hfi. destruct (rs_items r) as [|[k v] l] eqn:Hit; [reflexivity|exfalso].
  destruct (H k v) as [HK _]; [rewrite Hit; cbn [get_item]; rewrite Z.eqb_refl; reflexivity|].
  rewrite Hgc, Hfi in HK. cbn [forallb snd] in Hti. apply andb_true_iff in Hti as [Hv _].
  destruct (ri_tomb v); [exact HK|]. destruct HK as [Hz|[Hk|[]]]; [lia|exact (Hh k Hk)].
Qed.

(* Main theorem: after ANY sequence of steps (any ids, any order of frames, timeouts,
   failures and GC callbacks), once no timer is armed and no handler, timer callback or
   tombstone GC is pending, the map holds neither items nor tombstones. *)
Theorem relay_drained : forall mt ls s,
  rrun (rs_init mt) ls = Some s -> relay_quiet s = true -> rs_items s = [].
Proof.
  intros mt ls s Hr Hq. pose proof (Owned_rrun ls _ _ (Owned_init _ mt) Hr) as H.
  unfold relay_quiet in Hq. apply andb_true_iff in Hq as [Hq Hfi]. apply andb_true_iff in Hq as [Hq Hhe].
  apply andb_true_iff in Hq as [Hti Hgc].
  destruct (rs_gc s) eqn:Eg; [|discriminate]. destruct (rs_held s) eqn:Eh; [|discriminate].
  destruct (rs_firing s) eqn:Ef; [|discriminate].
  apply (Owned_quiet_empty _ s H); auto. unfold held_in. rewrite Eh. intros id [].
Qed.

(* the tombstone counter (needs unique keys, which RAdd's enabledness gives) *)

Fixpoint ntombs (l : list (Z * ritem)) : Z :=
  match l with [] => 0 | (_, v) :: r => zb (ri_tomb v) + ntombs r end.

Definition TInv (s : rstate) : Prop :=
  NoDup (map fst (rs_items s)) /\ rs_tombs s = ntombs (rs_items s).

Lemma get_none_notin id l : get_item id l = None -> ~ In id (map fst l).
Proof.
  induction l as [|[k v] r IH]; cbn [get_item map fst In]; [tauto|].
  destruct (k =? id) eqn:E; [discriminate|]. intros H [Hk|Hin]; [lia|]. exact (IH H Hin).
Qed.

Lemma del_item_notin id l : ~ In id (map fst l) -> del_item id l = l.
Proof.
  unfold del_item. induction l as [|[k v] r IH]; cbn [filter map fst In]; [reflexivity|].
  intros H. assert (k =? id = false) as -> by (destruct (k =? id) eqn:E; [exfalso; apply H; left; lia|reflexivity]).
  cbn [negb]. f_equal. apply IH. tauto.
Qed.

Lemma del_item_fst_subset id l x : In x (map fst (del_item id l)) -> In x (map fst l).
Proof.
  unfold del_item. induction l as [|[k v] r IH]; cbn [filter map fst In]; [tauto|].
  destruct (k =? id); cbn [negb map fst In]; tauto.
Qed.

Lemma del_item_spec id l it :
  NoDup (map fst l) -> get_item id l = Some it ->
  NoDup (map fst (del_item id l)) /\ ntombs (del_item id l) = ntombs l - zb (ri_tomb it) /\
  Z.of_nat (length (del_item id l)) = Z.of_nat (length l) - 1.
Proof.
  induction l as [|[k v] r IH]; cbn [get_item map fst]; [discriminate|].
  intros Hnd Hg. inversion Hnd as [|? ? Hnotin Hnd']; subst.
  unfold del_item. cbn [filter fst]. destruct (k =? id) eqn:E; cbn [negb].
  - injection Hg as <-. assert (k = id) by lia. subst k.
    fold (del_item id r). rewrite (del_item_notin _ _ Hnotin). cbn [ntombs length]. repeat split; [exact Hnd'|lia..].
  - fold (del_item id r). destruct (IH Hnd' Hg) as (H1 & H2 & H3). cbn [map fst ntombs length]. repeat split.
    + constructor; [|exact H1]. intros Hin. apply Hnotin. eapply del_item_fst_subset; exact Hin.
    + rewrite H2. lia.
    + lia.
Qed.

Lemma set_item_fst id v l : map fst (set_item id v l) = map fst l.
Proof.
  induction l as [|[k x] r IH]; cbn [set_item map fst]; [reflexivity|].
  destruct (k =? id); cbn [map fst]; [reflexivity|]. rewrite IH. reflexivity.
Qed.

Lemma set_item_ntombs id v l it :
  get_item id l = Some it -> ntombs (set_item id v l) = ntombs l - zb (ri_tomb it) + zb (ri_tomb v).
Proof.
  induction l as [|[k x] r IH]; cbn [get_item set_item]; [discriminate|].
  destruct (k =? id); intros Hg.
  - injection Hg as <-. cbn [ntombs]. lia.
  - cbn [ntombs]. rewrite (IH Hg). lia.
Qed.

Lemma r_delete_T id s : TInv s -> TInv (snd (r_delete id s)).
Proof.
  intros [Hnd Hc]. unfold r_delete. destruct (get_item id (rs_items s)) as [it|] eqn:Hg; cbn [snd]; [|split; assumption].
  destruct (del_item_spec _ _ _ Hnd Hg) as (H1 & H2 & _). split; cbn [rs_items rs_tombs]; [exact H1|].
  rewrite H2, Hc. destruct (ri_tomb it); cbn [zb]; lia.
Qed.

Lemma r_entomb_T id s : TInv s -> TInv (snd (r_entomb id s)).
Proof.
  intros HT. unfold r_entomb. destruct (rs_maxtombs s <? rs_tombs s); [apply r_delete_T; exact HT|].
  destruct (get_item id (rs_items s)) as [it|] eqn:Hg; cbn [snd]; [|exact HT].
  destruct (ri_tomb it) eqn:Ht; cbn [snd]; [exact HT|].
  destruct HT as [Hnd Hc]. split; cbn [rs_items rs_tombs].
  - rewrite set_item_fst. exact Hnd.
  - rewrite (set_item_ntombs _ _ _ _ Hg), Hc, Ht. cbn [ri_tomb zb]. lia.
Qed.

Lemma finish_with_T r : TInv (snd r) -> TInv (finish_with r).
Proof. destruct r as [ok s]. cbn [snd finish_with]. intros H. destruct ok; exact H. Qed.

Lemma get_stop_T ct id s : TInv s -> TInv (r_get_stop ct id s).
Proof.
  intros [Hnd Hc]. destruct (get_item id (rs_items s)) as [it|] eqn:Hg;
    [|rewrite (get_stop_none _ _ _ Hg); destruct ct; split; assumption].
  destruct (get_stop_effect ct id s it _ Hg eq_refl) as (Ei & Et & _). split; rewrite Ei, ?Et.
  - rewrite set_item_fst. exact Hnd.
  - rewrite (set_item_ntombs _ _ _ _ Hg). cbn [ri_tomb]. lia.
Qed.

Lemma TInv_step s l s' : TInv s -> rstep s l = Some s' -> TInv s'.
Proof.
  intros HT Hs. destruct l as [id0|id0|id0|id0|id0|id0|id0|id0]; cbn [rstep] in Hs.
  - destruct (get_item id0 (rs_items s)) eqn:Hg; [discriminate|]. injection Hs as <-.
    destruct HT as [Hnd Hc]. split; cbn [rs_items rs_tombs map fst ntombs ri_tomb zb].
    + constructor; [apply get_none_notin; exact Hg|exact Hnd].
    + lia.
  - injection Hs as <-. apply get_stop_T. exact HT.
  - injection Hs as <-. apply get_stop_T. exact HT.
  - destruct (has id0 (rs_held s)); [|discriminate]. injection Hs as <-.
    apply finish_with_T. apply r_delete_T. exact HT.
  - destruct (has id0 (rs_held s)); [|discriminate]. injection Hs as <-.
    apply finish_with_T. apply r_entomb_T. exact HT.
  - destruct (get_item id0 (rs_items s)) as [it0|] eqn:Hg; [|discriminate].
    destruct (ri_timer it0 =? 0); [|discriminate]. injection Hs as <-.
    destruct HT as [Hnd Hc]. split; cbn [rs_items rs_tombs].
    + rewrite set_item_fst. exact Hnd.
    + rewrite (set_item_ntombs _ _ _ _ Hg). cbn [ri_tomb]. lia.
  - destruct (has id0 (rs_firing s)); [|discriminate]. injection Hs as <-.
    apply finish_with_T. apply r_entomb_T. exact HT.
  - destruct (has id0 (rs_gc s)); [|discriminate]. injection Hs as <-.
    apply r_delete_T. exact HT.
Qed.

Lemma TInv_run ls s s' : TInv s -> rrun s ls = Some s' -> TInv s'.
Proof. exact (run_invariant _ _ TInv (fun _ => eq_refl) (fun _ _ _ => eq_refl) TInv_step ls s s'). Qed.

Theorem relay_tombs_counter : forall mt ls s,
  rrun (rs_init mt) ls = Some s -> rs_tombs s = ntombs (rs_items s).
Proof.
  intros mt ls s Hr. assert (H0 : TInv (rs_init mt)) by (split; [constructor|reflexivity]).
  exact (proj2 (TInv_run ls _ _ H0 Hr)).
Qed.

Corollary relay_drained_full : forall mt ls s,
  rrun (rs_init mt) ls = Some s -> relay_quiet s = true -> rs_items s = [] /\ rs_tombs s = 0.
Proof.
  intros mt ls s Hr Hq. pose proof (relay_drained mt ls s Hr Hq) as H. split; [exact H|].
  rewrite (relay_tombs_counter mt ls s Hr), H. reflexivity.
Qed.

(* A hazard the model exposes (outside C11's statement; reported for C09/C03): the tombstone GC
   callback deletes by id.  If a handler that had stopped the timer finishes (deletes) an item
   that another goroutine entombed in between, and the same id is registered again before the
   GC callback runs, the callback deletes the NEW, live item: Release() on its armed timer
   panics, and the pending counter is never decremented.  Model-level trace only. *)
Lemma relay_gc_hits_reused_id_hazard :
  exists ls s, rrun (rs_init 30000) ls = Some s /\
    relay_quiet s = true /\ rs_items s = [] /\ rs_pending s = 1 /\ rs_panic s = true.
Proof.
  exists [RAdd 5; RGetStop 5; RFailStop 5; RFailHeld 5; RFinishHeld 5; RAdd 5; RGc 5].
  eexists. split; [vm_compute; reflexivity|]. vm_compute. repeat split; reflexivity.
Qed.
