(* The idle sweep on a relaying channel (Model/IdleRelay.v): the sweep's "no relayed call" test is
   the relay bookkeeping's "no live item and no held unit".

   1. go2v tie (Gen/GenIdleRelay.v): every function of relay.go that ends a relay item gives the
      unit of Relayer.pending back exactly when the model's step pushes IDec; decrementPending /
      the increment of canHandleNewCall / countPending are the model's IDec / ICanHandle /
      c_pending.
   2. C09's invariant (pending = live items + held units, every reachable state) carried to the
      sweep: on a relay connection the sweep's decision is the statement's with "no relayed
      call" read as "no live relay item of the connection and no relay goroutine holding a
      unit of it" -- whichever way the relayed calls ended. *)
From Coq Require Import ZArith List Bool Lia.
From Verif Require Import Base.Wrap Gen.GenConsts Gen.GenFrame Gen.GenRelayFwd Model.RelayItems
  Proofs.RelayAssocP Proofs.RelayCoreP Proofs.RelayInv9P Proofs.RelayTimerP Proofs.RelayThmP.
From Verif Require Import Gen.GenHealthIdle Gen.GenIdleRelay Model.Health Model.Idle Model.IdleRelay Proofs.IdleP.
Import ListNotations.
Local Open Scope Z_scope.

(* ---- 1. the generated end-of-item functions against the model's steps ---------------------- *)

(* decrementPending obligations for connection k in a piece of thread code *)
Definition dec_i (k : Z) (i : instr) : Z := match i with IDec k' => b2z (k' =? k) | _ => 0 end.
Definition decs (k : Z) (code : list instr) : Z := csum (dec_i k) code.

(* what Entomb / deleteCall returned: did the caller take the item (second result), and the
   isOriginator field of the item it got *)
Definition took (g : option (item * bool)) : bool := match g with Some (_, true) => true | _ => false end.
Definition orig_of (g : option (item * bool)) : bool := match g with Some (it, _) => it_orig it | None => false end.

Lemma decs_app : forall k a b, decs k (a ++ b) = decs k a + decs k b.
Proof. intros k a b. apply csum_app. Qed.

Lemma decs_orig_tail : forall k k' id c s, decs k (orig_tail k' id c s) = 0.
Proof.
  intros k k' id c s. unfold orig_tail. destruct s as [r|o]; [|reflexivity].
  destruct (r =? reason_source_slow); reflexivity.
Qed.

(* handleCallReq: the branch "no destination connection, or the selected one cannot take the call" *)
Definition get_dest_rejects (st : state) (k : Z) (f : frame) (e : env) : bool :=
  match RelayItems.lookup key_eqb (k, 0, f_id f) (items st) with Some _ => true | None => e_dest e <? 0 end.

Lemma decs_dec : forall k, decs k [IDec k] = 1.
Proof. intro k. cbn. rewrite Z.eqb_refl. reflexivity. Qed.

Theorem gen_relay_ends :
  (* timeoutRelayItem: the timer goroutine's Entomb step *)
  (forall cf st t o room p,
     p - decs (key_conn t) (snd (exec cf st (IEntomb t (FromTimeout o)) room)) =
     sweepRelayTimeoutPending (took (snd (items_entomb cf st t))) o p) /\
  (* failRelayItem, after Get found the item and stopped its timer: the Entomb step *)
  (forall cf st t r room p,
     p - decs (key_conn t) (snd (exec cf st (IEntomb t (FromFail r)) room)) =
     sweepRelayFailPending true true (took (snd (items_entomb cf st t))) (orig_of (snd (items_entomb cf st t)))
       (r =? reason_source_slow) p) /\
  (* ... and before: Get(id, true) -- nothing further happens unless the item was found and its
     timer stopped by this very call *)
  (forall cf st t r room,
     snd (exec cf st (IFailGet t r) room) = (if took (snd (items_get st t true)) then [IEntomb t (FromFail r)] else []) /\
     (forall found stopped ok orig slow p, found && stopped = false -> sweepRelayFailPending found stopped ok orig slow p = p)) /\
  (* finishRelayItem: the deleteCall step *)
  (forall cf st t lk room p,
     p - decs (key_conn t) (snd (exec cf st (IDelete t lk) room)) =
     sweepRelayFinishPending (took (snd (items_delete_call st t lk))) (orig_of (snd (items_delete_call st t lk))) p) /\
  (forall cf st k f e c room p,
     p - decs k (snd (exec cf st (IGetDest k f e c) room)) = sweepRelayNoDestPending (get_dest_rejects st k f e) p) /\
  (forall cf st k f e c d room p,
     p - decs k (snd (exec cf st (IRemoteCan k f e c d) room)) =
     sweepRelayNoDestPending (negb (relayCanHandleNewCall (c_state (get_conn st d)))) p).
Proof.
  split; [|split; [|split; [|split; [|split]]]].
  - intros cf st t o room p. cbn [exec]. destruct (items_entomb cf st t) as [st' [[it []]|]]; cbn [snd took]; try (cbn; lia).
    rewrite decs_app, decs_dec. destruct o; [rewrite decs_orig_tail|]; cbn; lia.
  - intros cf st t r room p. cbn [exec]. destruct (items_entomb cf st t) as [st' [[it []]|]]; cbn [snd took orig_of]; try (cbn; lia).
    rewrite decs_app, decs_dec. destruct (it_orig it); [rewrite decs_orig_tail; destruct (r =? reason_source_slow)|]; cbn; lia.
  - intros cf st t r room. split.
    + cbn [exec]. destruct (items_get st t true) as [st' [[it []]|]]; reflexivity.
    + intros [] [] ok orig slow p H; try discriminate; reflexivity.
  - intros cf st t lk room p. cbn [exec]. destruct (items_delete_call st t lk) as [st' [[it []]|]]; cbn [snd took orig_of]; try (cbn; lia).
    rewrite decs_app, decs_dec. destruct (it_orig it); cbn; lia.
  - intros cf st k f e c room p. cbn [exec]. unfold get_dest_rejects, sweepRelayNoDestPending.
    destruct (RelayItems.lookup key_eqb (k, 0, f_id f) (items st)) as [it|]; [cbn; rewrite Z.eqb_refl; cbn; lia|].
    destruct (e_dest e =? -1) eqn:E1; [replace (e_dest e <? 0) with true by lia|destruct (e_dest e <? 0)];
      cbn; rewrite ?Z.eqb_refl; cbn; lia.
  - intros cf st k f e c d room p. cbn [exec]. unfold relayCanHandleNewCall, sweepRelayNoDestPending.
    destruct (c_state (get_conn st d) =? c_connectionActive); cbn; rewrite ?Z.eqb_refl; cbn; lia.
Qed.

(* decrementPending = the model's IDec (the counter minus one, a uint32, then the close check by
   the same goroutine); the increment of canHandleNewCall = the counter update of ICanHandle /
   IRemoteCan; countPending is the counter, and hasPendingCalls sees the relay through canClose of
   it only *)
Lemma pending_put : forall st k cn, c_pending (get_conn (put_conn st k cn) k) = c_pending cn.
Proof. intros st k cn. rewrite get_conn_getc. cbn [put_conn set_conns conns]. rewrite getc_insert, Z.eqb_refl. reflexivity. Qed.

Theorem gen_relay_counter :
  (forall cf st k room,
     c_pending (get_conn (fst (exec cf st (IDec k) room)) k) = wrapU 32 (sweepRelayDecrement (c_pending (get_conn st k))) /\
     snd (exec cf st (IDec k) room) = [ICheck k]) /\
  (forall cf st k f e c room,
     c_pending (get_conn (fst (exec cf st (ICanHandle k f e c) room)) k) =
     (if relayCanHandleNewCall (c_state (get_conn st k))
      then wrapU 32 (sweepRelayAdmitPending true (c_pending (get_conn st k)))
      else sweepRelayAdmitPending false (c_pending (get_conn st k)))) /\
  (forall cf st k f e c d room,
     c_pending (get_conn (fst (exec cf st (IRemoteCan k f e c d) room)) d) =
     (if relayCanHandleNewCall (c_state (get_conn st d))
      then wrapU 32 (sweepRelayAdmitPending true (c_pending (get_conn st d)))
      else sweepRelayAdmitPending false (c_pending (get_conn st d)))) /\
  (forall st k, relay_count st k = c_pending (get_conn st k)) /\
  (forall st id c, k_relay c = Some (relay_count st id) ->
     relay_has_pending st id c = has_pending_calls c /\
     relay_has_pending st id c = ((k_inb c >? 0) || (k_outb c >? 0) || negb (c_pending (get_conn st id) =? 0))).
Proof.
  split; [|split; [|split; [|split]]].
  - intros cf st k room. cbn [exec fst snd]. split; [|reflexivity].
    rewrite pending_put. cbn [c_pending]. unfold sweepRelayDecrement. f_equal. lia.
  - intros cf st k f e c room. cbn [exec]. unfold relayCanHandleNewCall, sweepRelayAdmitPending.
    destruct (c_state (get_conn st k) =? c_connectionActive); cbn [fst]; [apply pending_put|reflexivity].
  - intros cf st k f e c d room. cbn [exec]. unfold relayCanHandleNewCall, sweepRelayAdmitPending.
    destruct (c_state (get_conn st d) =? c_connectionActive); cbn [fst]; [apply pending_put|reflexivity].
  - reflexivity.
  - intros st id c H. unfold relay_has_pending, has_pending_calls, relay_can_close, hasPendingCalls, relayCanClose.
    rewrite H. change (relay_count st id) with (c_pending (get_conn st id)).
    destruct ((k_inb c >? 0) || (k_outb c >? 0)); cbn; split; try reflexivity;
      destruct (c_pending (get_conn st id) =? 0); reflexivity.
Qed.

(* ---- 2. pending = live items + held units, read by the sweep ------------------------------- *)

(* what keeps Relayer.pending of connection k up: its live (non-tombstone) items, and the
   goroutines between canHandleNewCall and addRelayItem or between Entomb / deleteCall and
   decrementPending *)
Definition relay_load (st : state) (k : Z) : Z := asum (live_i k) (items st) + tsum (hold_i k) (threads st).

Definition no_live_item (st : state) (k : Z) : Prop :=
  forall t it, In (t, it) (items st) -> key_conn t = k -> it_tomb it = true.
Definition no_held_unit (st : state) (k : Z) : Prop :=
  forall th code i, In (th, code) (threads st) -> In i code -> hold_i k i = 0.

Lemma live_i_nonneg : forall k t it, 0 <= live_i k t it.
Proof. intros k t it. unfold live_i, b2z. destruct ((key_conn t =? k) && negb (it_tomb it)); lia. Qed.

Lemma hold_i_nonneg : forall k i, 0 <= hold_i k i.
Proof.
  intros k i. destruct i; cbn; unfold b2z; try lia;
    repeat match goal with |- context [if ?b then _ else _] => destruct b end; lia.
Qed.

Lemma csum_zero_all : forall f code, (forall i, 0 <= f i) -> csum f code = 0 -> forall i, In i code -> f i = 0.
Proof.
  intros f code Hf. induction code as [|j r IH]; intros Hs i Hin; cbn in *; [contradiction|].
  pose proof (csum_nonneg f r Hf) as Hr. pose proof (Hf j) as Hj.
  destruct Hin as [->|Hin]; [lia|]. apply IH; [lia|exact Hin].
Qed.


Lemma relay_load_nonneg : forall st k, 0 <= relay_load st k.
Proof.
  intros st k. unfold relay_load.
  pose proof (asum_nonneg (live_i k) (items st) (live_i_nonneg k)).
  pose proof (tsum_nonneg (hold_i k) (threads st) (hold_i_nonneg k)). lia.
Qed.

Lemma relay_load_zero : forall st k, relay_load st k = 0 <-> no_live_item st k /\ no_held_unit st k.
Proof.
  intros st k. unfold relay_load.
  pose proof (asum_nonneg (live_i k) (items st) (live_i_nonneg k)) as Ha.
  pose proof (tsum_nonneg (hold_i k) (threads st) (hold_i_nonneg k)) as Ht. split.
  - intro H. assert (H1 : asum (live_i k) (items st) = 0) by lia. assert (H2 : tsum (hold_i k) (threads st) = 0) by lia. split.
    + intros t it Hin Hk. pose proof (asum_zero_all (live_i k) (items st) (live_i_nonneg k) H1 t it Hin) as Hz.
      unfold live_i in Hz. rewrite Hk, Z.eqb_refl in Hz. cbn in Hz. destruct (it_tomb it); [reflexivity|discriminate].
    + intros th code i Hin Hi. unfold tsum in H2.
      pose proof (asum_zero_all (fun _ c => csum (hold_i k) c) (threads st)
                    (fun _ c => csum_nonneg (hold_i k) c (hold_i_nonneg k)) H2 th code Hin) as Hz. cbn in Hz.
      exact (csum_zero_all (hold_i k) code (hold_i_nonneg k) Hz i Hi).
  - intros [Hl Hh]. rewrite (asum_zero _ _ (live_i k) (items st)).
    + unfold tsum. rewrite (asum_zero _ _ (fun _ c => csum (hold_i k) c) (threads st)); [reflexivity|].
      intros th code Hin. apply csum_zero. intros i Hi. exact (Hh th code i Hin Hi).
    + intros t it Hin. unfold live_i. destruct (key_conn t =? k) eqn:E; [|reflexivity].
      apply Z.eqb_eq in E. rewrite (Hl t it Hin E). reflexivity.
Qed.

(* C09_pending_exact, as the sweep reads it *)
Lemma relay_count_exact : forall cf ls st, run_fresh cf RelayItems.init ls = Some st ->
  forall k, relay_count st k = wrapU 32 (relay_load st k).
Proof. intros cf ls st H k. exact (pending_exact_thm cf ls st H k). Qed.

(* every relayed call of the connection has ended, whichever way, and no goroutine is still on
   its way to decrementPending: canClose -- and conversely (fewer than 2^32 calls in flight on the
   connection) *)
Theorem relay_can_close_iff : forall cf ls st, run_fresh cf RelayItems.init ls = Some st -> forall k,
  (no_live_item st k -> no_held_unit st k -> relay_count st k = 0 /\ relayCanClose false (relay_count st k) = true) /\
  (relay_load st k < 2 ^ 32 ->
   (relayCanClose false (relay_count st k) = true <-> no_live_item st k /\ no_held_unit st k)).
Proof.
  intros cf ls st H k. rewrite (relay_count_exact cf ls st H k). split.
  - intros Hl Hh. rewrite (proj2 (relay_load_zero st k) (conj Hl Hh)). split; reflexivity.
  - intro Hb. pose proof (relay_load_nonneg st k) as Hn. unfold wrapU. rewrite Z.mod_small by lia.
    rewrite <- relay_load_zero. unfold relayCanClose. rewrite Z.eqb_eq. tauto.
Qed.

(* The sweep on the combined state: C19_sweep_iff with "no relayed call" spelled out in terms of
   the relay's items and goroutines. *)
Theorem combined_sweep_iff : forall cf ls rc, run_fresh cf RelayItems.init ls = Some (rc_relay rc) -> linked rc ->
  forall mi id c,
  NoDup (map fst (ch_conns (rc_chan rc))) -> min_duration < mi <= max_duration ->
  lookup id (ch_conns (rc_chan rc)) = Some c -> 0 <= k_inb c -> 0 <= k_outb c ->
  relay_load (rc_relay rc) id < 2 ^ 32 ->
  exists c', lookup id (ch_conns (rc_chan (rsweep mi rc))) = Some c' /\
    ((is_active c = true /\ is_active c' = false) <->
     (k_tracked c = true /\ k_state c = c_connectionActive /\ k_inb c = 0 /\ k_outb c = 0 /\
      (no_live_item (rc_relay rc) id /\ no_held_unit (rc_relay rc) id) /\
      ch_now (rc_chan rc) - Z.max (k_lr c) (k_lw c) >= mi)) /\
    (is_active c = true /\ is_active c' = false -> c' = conn_close c) /\
    (~ (is_active c = true /\ is_active c' = false) -> c' = c).
Proof.
  intros cf ls rc H Hlk mi id c Hnd Hmi L Hi Ho Hb. cbn [rsweep rc_chan]. pose proof (Hlk id c L) as Hr.
  assert (Hok : counts_ok c).
  { unfold counts_ok. rewrite Hr. repeat split; try assumption.
    rewrite (relay_count_exact cf ls _ H id). unfold wrapU. apply Z.mod_pos_bound. lia. }
  destruct (sweep_iff mi (rc_chan rc) id c Hnd Hmi L Hok) as (c' & L' & Hiff & Hyes & Hno).
  exists c'. split; [exact L'|].
  assert (Hsc : should_close (ch_now (rc_chan rc)) mi c <->
    (k_tracked c = true /\ k_state c = c_connectionActive /\ k_inb c = 0 /\ k_outb c = 0 /\
      (no_live_item (rc_relay rc) id /\ no_held_unit (rc_relay rc) id) /\ ch_now (rc_chan rc) - Z.max (k_lr c) (k_lw c) >= mi)).
  { unfold should_close, relay_idle. rewrite Hr.
    pose proof (proj2 (relay_can_close_iff cf ls _ H id) Hb) as Hc. unfold relayCanClose in Hc. rewrite Z.eqb_eq in Hc.
    rewrite <- Hc. tauto. }
  split; [rewrite Hiff; exact Hsc|]. split.
  - intro Hcl. apply Hyes. apply Hiff. exact Hcl.
  - intro Hn. apply Hno. intro Hs. apply Hn. apply Hiff. exact Hs.
Qed.

(* The "if" direction on its own, without any bound: a relay connection whose relayed calls have
   all ended -- by completion, by the relay's timeout, by a cancel, by a failed send towards a
   slow destination or source, by a rejection, by the loss of the other connection: every path
   of the relay model -- and that is Active, without local calls and silent for MaxIdleTime IS
   closed by the sweep. *)
Theorem combined_ended_swept : forall cf ls rc, run_fresh cf RelayItems.init ls = Some (rc_relay rc) -> linked rc ->
  forall mi id c,
  NoDup (map fst (ch_conns (rc_chan rc))) -> min_duration < mi <= max_duration ->
  lookup id (ch_conns (rc_chan rc)) = Some c ->
  no_live_item (rc_relay rc) id -> no_held_unit (rc_relay rc) id ->
  k_tracked c = true -> k_state c = c_connectionActive -> k_inb c = 0 -> k_outb c = 0 ->
  ch_now (rc_chan rc) - Z.max (k_lr c) (k_lw c) >= mi ->
  lookup id (ch_conns (rc_chan (rsweep mi rc))) = Some (conn_close c) /\ is_active (conn_close c) = false.
Proof.
  intros cf ls rc H Hlk mi id c Hnd Hmi L Hl Hh Ht Hs Hi Ho Hidle. cbn [rsweep rc_chan]. pose proof (Hlk id c L) as Hr.
  destruct (proj1 (relay_can_close_iff cf ls _ H id) Hl Hh) as [Hz _].
  assert (Hok : counts_ok c). { unfold counts_ok. rewrite Hr, Hz, Hi, Ho. repeat split; lia. }
  destruct (sweep_iff mi (rc_chan rc) id c Hnd Hmi L Hok) as (c' & L' & Hiff & Hyes & _).
  assert (Hsc : should_close (ch_now (rc_chan rc)) mi c).
  { unfold should_close, relay_idle. rewrite Hr, Hz. repeat split; assumption. }
  rewrite (Hyes Hsc) in L'. split; [exact L'|].
  destruct (proj2 Hiff Hsc) as [_ Hc]. rewrite (Hyes Hsc) in Hc. exact Hc.
Qed.

(* The same for the whole channel once the relay is at rest: no relay goroutine has anything left
   to do and no timeout timer is pending (tombstones may still await collection).  Then EVERY
   connection of the relaying channel that is Active, without local calls and silent for
   MaxIdleTime is closed by the next sweep. *)
Theorem relay_quiescent_swept : forall cf ls st, run_fresh cf RelayItems.init ls = Some st -> quiescent st ->
  forall mi s, NoDup (map fst (ch_conns s)) -> min_duration < mi <= max_duration ->
  linked {| rc_relay := st; rc_chan := s |} ->
  forall id c, lookup id (ch_conns s) = Some c ->
  k_tracked c = true -> k_state c = c_connectionActive -> k_inb c = 0 -> k_outb c = 0 ->
  ch_now s - Z.max (k_lr c) (k_lw c) >= mi ->
  lookup id (ch_conns (rc_chan (rsweep mi {| rc_relay := st; rc_chan := s |}))) = Some (conn_close c) /\
  is_active (conn_close c) = false.
Proof.
  intros cf ls st H Hq mi s Hnd Hmi Hlk id c L Ht Hs Hi Ho Hidle.
  destruct (reach_both _ _ _ H) as [HI HT].
  apply (combined_ended_swept cf ls {| rc_relay := st; rc_chan := s |} H Hlk mi id c); try assumption.
  - intros t it Hin _. exact (quiescent_no_live st HI HT Hq t it Hin).
  - intros th code i Hin _. destruct Hq as [Hth _]. cbn [rc_relay] in Hin. rewrite Hth in Hin. contradiction.
Qed.

(* [link] produces a linked combined state and changes nothing else *)
Lemma lookup_link : forall st l id,
  lookup id (map (fun ic => (fst ic, link_conn st (fst ic) (snd ic))) l) =
  match lookup id l with Some c => Some (link_conn st id c) | None => None end.
Proof.
  intros st l id. induction l as [|[i c] r IH]; cbn [map lookup fst snd]; [reflexivity|].
  destruct (i =? id) eqn:E; [apply Z.eqb_eq in E; subst; reflexivity|exact IH].
Qed.

Lemma link_linked : forall st s, linked (link st s).
Proof.
  intros st s id c. cbn [link rc_chan rc_relay link_chan ch_conns]. rewrite lookup_link.
  destruct (lookup id (ch_conns s)) as [c0|]; [|discriminate]. intro E. inversion E. reflexivity.
Qed.

(* ---- non-vacuity: a relayed call that ends by the relay's timeout ------------------------- *)
(* caller connection 0, callee connection 1; the call req is forwarded, nobody answers, both
   timers fire; afterwards neither connection has a live item or a held unit *)
Definition tmo_cf : RelayItems.config := {| cf_maxtombs := 100; cf_cancel := false |}.
Definition tmo_req : frame := {| f_mt := c_messageTypeCallReq; f_id := 7; f_flags := 0; f_code := 0; f_wf := true |}.
Definition tmo_env : env := {| e_start := 0; e_code := 0; e_dest := 1; e_mode := 0 |}.
Fixpoint steps (t : tid) (n : nat) : list label := match n with O => [] | S m => LStep t true :: steps t m end.
Definition tmo_labels : list label :=
  LArrive 0 tmo_req tmo_env :: steps (TR 0) 10 ++
  [LFire 1] ++ steps (TT 1) 4 ++ [LFire 2] ++ steps (TT 2) 7.
Definition tmo_inflight : list label := LArrive 0 tmo_req tmo_env :: steps (TR 0) 10.
Definition state_after (ls : list label) : state :=
  match run_fresh tmo_cf RelayItems.init ls with Some st => st | None => RelayItems.init end.

(* two relay connections that last carried a call frame at time 0; now = 200, MaxIdleTime = 100 *)
Definition tmo_conn : conn :=
  {| k_state := c_connectionActive; k_lr := 0; k_lw := 0; k_inb := 0; k_outb := 0; k_pings := 0; k_relay := Some 0;
     k_stopped := false; k_tracked := true; k_hstatus := 0; k_health := hl_init |}.
Definition tmo_chan : chan := {| ch_now := 200; ch_conns := [(0, tmo_conn); (1, tmo_conn)] |}.
