(* Proofs about Model/Mex.v (property C04). *)
From Coq Require Import ZArith List Bool Lia Arith.
From Verif Require Import Base.Wrap Base.Wire Gen.GenConsts Gen.GenMex Spec.Demux Model.Mex.
Import ListNotations.
Local Open Scope Z_scope.

Lemma prefix_refl {A} (l : list A) : prefix l l.
Proof. exists []. now rewrite app_nil_r. Qed.

Lemma prefix_trans {A} (a b c : list A) : prefix a b -> prefix b c -> prefix a c.
Proof. intros [r1 H1] [r2 H2]. exists (r1 ++ r2). subst. now rewrite app_assoc. Qed.

Lemma prefix_app_r {A} (a b x : list A) : prefix a b -> prefix a (b ++ x).
Proof. intros [r H]. exists (r ++ x). subst. now rewrite app_assoc. Qed.

Lemma subseq_refl {A} (l : list A) : subseq l l.
Proof. induction l as [|x l IH]; constructor; exact IH. Qed.

Lemma subseq_app_r {A} (a b x : list A) : subseq a b -> subseq a (b ++ x).
Proof. intros H; induction H; cbn; constructor; assumption. Qed.

Lemma prefix_subseq {A} (a b : list A) : prefix a b -> subseq a b.
Proof. intros [r ->]. apply subseq_app_r, subseq_refl. Qed.

Lemma prefix_length_eq {A} (a b : list A) : prefix a b -> length a = length b -> a = b.
Proof.
  intros [r H] Hl. subst. rewrite app_length in Hl.
  destruct r as [|x r]; [now rewrite app_nil_r|]. cbn in Hl. lia.
Qed.

(* C04_shuffle *)
Definition has_id (i : Z) (f : frame) : bool := f_id f =? i.

Lemma filter_all_nil {A} (p : A -> bool) (ls : list (list A)) :
  Forall (fun l => l = []) ls -> Forall (fun l => filter p l = []) ls.
Proof. intros H. induction H as [|l ls Hl _ IH]; constructor; [subst; reflexivity|exact IH]. Qed.

(* per-sequence view: every frame of the k-th sequence carries the k-th id *)
Definition tagged (ids : list Z) (seqs : list (list frame)) : Prop :=
  Forall2 (fun i s => Forall (fun f => f_id f = i) s) ids seqs.

Lemma F2_length {A B} (R : A -> B -> Prop) l1 l2 : Forall2 R l1 l2 -> length l1 = length l2.
Proof. intros H; induction H; cbn; congruence. Qed.

Lemma Forall2_split {A B} (R : A -> B -> Prop) a1 a2 b1 b2 :
  length a1 = length b1 -> Forall2 R (a1 ++ a2) (b1 ++ b2) -> Forall2 R a1 b1 /\ Forall2 R a2 b2.
Proof.
  revert b1. induction a1 as [|x a1 IH]; intros [|y b1] Hl H; cbn in *; try discriminate; [auto|].
  inversion H; subst. destruct (IH b1) as [H1 H2]; [lia|assumption|auto].
Qed.

Lemma tagged_app_inv ids ls1 l ls2 :
  tagged ids (ls1 ++ l :: ls2) ->
  exists ids1 i ids2, ids = ids1 ++ i :: ids2 /\ length ids1 = length ls1 /\
    tagged ids1 ls1 /\ Forall (fun f => f_id f = i) l /\ tagged ids2 ls2.
Proof.
  intros H. apply Forall2_app_inv_r in H as (ids1 & idr & H1 & H2 & ->).
  inversion H2 as [|i s idr' ls2' Hi Hr]; subst.
  exists ids1, i, idr'. split; [reflexivity|]. split; [exact (F2_length _ _ _ H1)|]. auto.
Qed.

Lemma filter_skip x w js ss : ~ In (f_id x) js ->
  Forall2 (fun i s => filter (has_id i) w = s) js ss -> Forall2 (fun i s => filter (has_id i) (x :: w) = s) js ss.
Proof.
  intros Hn H. induction H as [|j s js ss Hj _ IH]; constructor.
  - cbn. unfold has_id at 1. destruct (Z.eqb_spec (f_id x) j) as [E|_]; [|exact Hj]. exfalso. apply Hn. now left.
  - apply IH. intros Hin. apply Hn. now right.
Qed.

Lemma shuffle_gen : forall (seqs : list (list frame)) (w : list frame),
  interleaving seqs w -> forall ids, NoDup ids -> tagged ids seqs ->
  Forall2 (fun i s => filter (has_id i) w = s) ids seqs.
Proof.
  intros seqs w H. induction H as [ls Hnil | ls1 x l ls2 w H IH]; intros ids Hnd Ht.
  - clear Hnd. induction Ht as [|i s ids ls _ _ IHt]; constructor; inversion Hnil; subst; auto.
  - destruct (tagged_app_inv _ _ _ _ Ht) as (ids1 & i & ids2 & -> & Hlen & H1 & Hx & H2).
    inversion Hx as [|x' l' Hxi Hl]; subst.
    destruct (Forall2_split _ _ _ _ _ Hlen (IH _ Hnd (Forall2_app H1 (Forall2_cons _ _ Hl H2)))) as [IH1 IH2].
    inversion IH2 as [|i0 s0 idr sr' Hi0 IHr]; subst.
    (* the frame's id is the id of its own sequence only *)
    apply NoDup_remove_2 in Hnd. apply Forall2_app; [|constructor].
    + apply filter_skip; [|exact IH1]. intros Hin. apply Hnd, in_or_app. now left.
    + cbn. unfold has_id at 1. now rewrite Z.eqb_refl.
    + apply filter_skip; [|exact IHr]. intros Hin. apply Hnd, in_or_app. now right.
Qed.

(* C04_ids: NextMessageID *)
Lemma NoDup_map_in {A B} (f : A -> B) (l : list A) :
  (forall x y, In x l -> In y l -> f x = f y -> x = y) -> NoDup l -> NoDup (map f l).
Proof.
  intros Hinj Hnd. induction Hnd as [|x l Hx Hnd IH]; cbn; constructor.
  - intros Hin. apply in_map_iff in Hin as (y & Hy & Hin).
    assert (y = x) by (apply Hinj; [now right|now left|exact Hy]). subst. contradiction.
  - apply IH. intros a b Ha Hb. apply Hinj; now right.
Qed.

Lemma alloc_ids_spec : forall n s,
  alloc_ids n s = map (fun k => wrapU 32 (s + Z.of_nat k)) (seq 1 n).
Proof.
  induction n as [|n IH]; intros s; [reflexivity|].
  cbn [alloc_ids seq map]. rewrite IH, <- (seq_shift n 1), map_map. f_equal. apply map_ext. intros k.
  unfold next_id, wrapU. rewrite Zplus_mod_idemp_l. f_equal. lia.
Qed.

Lemma wrapU32_inj : forall s i j, 0 <= i < 2 ^ 32 -> 0 <= j < 2 ^ 32 ->
  wrapU 32 (s + i) = wrapU 32 (s + j) -> i = j.
Proof.
  intros s i j Hi Hj H. unfold wrapU in H.
  assert (E : (i - j) mod 2 ^ 32 = 0).
  { replace (i - j) with ((s + i) - (s + j)) by lia. rewrite Zminus_mod, H, Z.sub_diag. reflexivity. }
  apply Z.mod_divide in E; [|lia]. destruct E as [q Hq].
  assert (- 2 ^ 32 < i - j < 2 ^ 32) by lia. nia.
Qed.

Lemma alloc_ids_distinct : forall n s, Z.of_nat n <= 2 ^ 32 -> NoDup (alloc_ids n s).
Proof.
  intros n s Hn. rewrite alloc_ids_spec. apply NoDup_map_in; [|apply seq_NoDup].
  intros x y Hx Hy H. apply in_seq in Hx, Hy.
  assert (E : Z.of_nat x - 1 = Z.of_nat y - 1).
  { apply (wrapU32_inj (s + 1)); [lia|lia|].
    replace (s + 1 + (Z.of_nat x - 1)) with (s + Z.of_nat x) by lia.
    replace (s + 1 + (Z.of_nat y - 1)) with (s + Z.of_nat y) by lia. exact H. }
  lia.
Qed.

Lemma alloc_ids_range : forall n s, Forall (fun i => 0 <= i < 2 ^ 32) (alloc_ids n s).
Proof.
  intros n s. rewrite alloc_ids_spec. apply Forall_forall. intros x Hx.
  apply in_map_iff in Hx as (k & <- & _). apply wrapU_range. lia.
Qed.

Lemma upd_length {A} n (f : A -> A) l : length (upd n f l) = length l.
Proof. revert n; induction l as [|x l IH]; intros [|n]; cbn; auto. Qed.

Lemma upd_id {A} n (l : list A) : upd n (fun x => x) l = l.
Proof. revert n; induction l as [|x l IH]; intros [|n]; cbn; congruence. Qed.

Lemma nth_upd_same {A} n (f : A -> A) l e : nth_error l n = Some e -> nth_error (upd n f l) n = Some (f e).
Proof. revert n; induction l as [|x l IH]; intros [|n] H; cbn in *; try discriminate; [congruence|auto]. Qed.

Lemma nth_upd_other {A} n n' (f : A -> A) l : n <> n' -> nth_error (upd n f l) n' = nth_error l n'.
Proof.
  revert n n'; induction l as [|x l IH]; intros [|n] [|n'] H; cbn; auto; try congruence.
Qed.

Lemma nth_upd_inv {A} n n' (f : A -> A) l e' :
  nth_error (upd n f l) n' = Some e' ->
  exists e, nth_error l n' = Some e /\ ((n' = n /\ e' = f e) \/ (n' <> n /\ e' = e)).
Proof.
  intros H. destruct (Nat.eq_dec n n') as [->|Hne].
  - destruct (nth_error l n') as [e|] eqn:E.
    + rewrite (nth_upd_same _ _ _ _ E) in H. inversion H; subst. exists e. auto.
    + exfalso. apply nth_error_None in E. rewrite <- (upd_length n' f) in E.
      apply nth_error_None in E. congruence.
  - rewrite nth_upd_other in H by exact Hne. exists e'. auto.
Qed.

Lemma upd_none {A} n (f : A -> A) l : nth_error l n = None -> upd n f l = l.
Proof. revert n; induction l as [|x l IH]; intros [|n] H; cbn in *; try discriminate; auto. f_equal; auto. Qed.

Lemma nth_snoc_inv {A} (l : list A) x n y :
  nth_error (l ++ [x]) n = Some y -> nth_error l n = Some y \/ (n = length l /\ y = x).
Proof.
  intros H. destruct (Nat.lt_ge_cases n (length l)) as [Hlt|Hge].
  - rewrite nth_error_app1 in H by exact Hlt. auto.
  - rewrite nth_error_app2 in H by exact Hge. right.
    destruct (n - length l)%nat as [|k] eqn:Ek; cbn in H; [|destruct k; discriminate]. split; [lia|congruence].
Qed.

Lemma each_upd {A} (P Q : nat -> A -> Prop) n f l :
  (forall e, nth_error l n = Some e -> P n e -> Q n (f e)) -> (forall k e, k <> n -> P k e -> Q k e) ->
  (forall k e, nth_error l k = Some e -> P k e) -> forall k e, nth_error (upd n f l) k = Some e -> Q k e.
Proof. intros H1 H2 HP k e' He'. apply nth_upd_inv in He' as (e & He & [[-> ->]|[Hne ->]]); auto. Qed.

Lemma some_upd {A} (P : A -> Prop) n f l k :
  (forall e, nth_error l n = Some e -> k = n -> P e -> P (f e)) ->
  (exists e, nth_error l k = Some e /\ P e) -> exists e, nth_error (upd n f l) k = Some e /\ P e.
Proof.
  intros Hf (e & He & HP). destruct (Nat.eq_dec n k) as [->|Hne].
  - exists (f e). rewrite (nth_upd_same _ _ _ _ He). auto.
  - exists e. rewrite nth_upd_other by exact Hne. auto.
Qed.

Lemma some_snoc {A} (P : A -> Prop) l x k :
  (exists e, nth_error l k = Some e /\ P e) -> exists e, nth_error (l ++ [x]) k = Some e /\ P e.
Proof.
  intros (e & He & HP). exists e. split; [|exact HP]. rewrite nth_error_app1; [exact He|].
  apply nth_error_Some. congruence.
Qed.

Lemma each_snoc {A} (P : nat -> A -> Prop) l x :
  P (length l) x -> (forall k e, nth_error l k = Some e -> P k e) -> forall k e, nth_error (l ++ [x]) k = Some e -> P k e.
Proof. intros Hx HP k e He. apply nth_snoc_inv in He as [He|[-> ->]]; auto. Qed.

Lemma lookup_in m id r : lookup id m = Some r -> In (id, r) m.
Proof.
  induction m as [|[k v] m IH]; cbn; [discriminate|].
  destruct (k =? id) eqn:E; intros H.
  - inversion H; subst. left. f_equal. lia.
  - right. auto.
Qed.

Lemma in_lookup m id r : NoDup (map fst m) -> In (id, r) m -> lookup id m = Some r.
Proof.
  induction m as [|[k v] m IH]; cbn; intros Hnd Hin; [contradiction|].
  inversion Hnd as [|? ? Hk Hnd']; subst.
  destruct Hin as [Heq|Hin].
  - inversion Heq; subst. now rewrite Z.eqb_refl.
  - destruct (k =? id) eqn:E; [|auto].
    exfalso. apply Hk. apply in_map_iff. exists (id, r). split; [cbn; lia|exact Hin].
Qed.

Lemma lookup_none m id r : lookup id m = None -> ~ In (id, r) m.
Proof.
  induction m as [|[k v] m IH]; cbn; intros H Hin; [contradiction|].
  destruct (k =? id) eqn:E; [discriminate|].
  destruct Hin as [Heq|Hin]; [inversion Heq; lia|]. exact (IH H Hin).
Qed.

Lemma in_remove_key m id id' r : In (id', r) (remove_key id m) <-> In (id', r) m /\ id' <> id.
Proof.
  unfold remove_key. rewrite filter_In. cbn. split; intros [H1 H2]; split; auto; lia.
Qed.

Lemma NoDup_remove_key m id : NoDup (map fst m) -> NoDup (map fst (remove_key id m)).
Proof.
  induction m as [|[k v] m IH]; cbn; intros H; [constructor|].
  inversion H as [|? ? Hk Hnd]; subst.
  destruct (negb (k =? id)); cbn; [|auto].
  constructor; [|auto]. intros Hin. apply Hk.
  apply in_map_iff in Hin as ([k' v'] & Hk' & Hin). cbn in Hk'. subst.
  apply in_remove_key in Hin as [Hin _]. apply in_map_iff. exists (k, v'). auto.
Qed.

(* what a step can change *)
(* Every step touches at most one exchange.  [mv r rd e rd' e']: what can happen to exchange r
   (e becomes e') together with the reader (rd becomes rd'), the exchanges map and the wire
   staying as they are.  The invariants below are then proved in two layers: per exchange over
   [mv], and over [change] for the list of exchanges, the map and the wire. *)
Definition refusing (e : mex) : Prop := m_dropped e = true \/ m_ctx e <> 0.

(* updates that touch none of the fields the invariants read, except that a context may
   become done and the error latch may become set *)
Definition neutral_at (e e' : mex) : Prop :=
  m_id e' = m_id e /\ m_cap e' = m_cap e /\ m_queue e' = m_queue e /\ m_dropped e' = m_dropped e /\
  m_g e' = m_g e /\ (m_ctx e' = m_ctx e \/ m_ctx e = 0) /\ (m_err e <> 0 -> m_err e' <> 0).

Inductive mv (r : nat) : rpc -> mex -> rpc -> mex -> Prop :=
| mv_neutral rd e e' : neutral_at e e' -> mv r rd e rd e'
| mv_refuse rd f e : rd = RLooked f (Some r) \/ rd = RSelect f r -> refusing e -> mv r rd e RIdle e
| mv_select f e : m_ctx e = 0 -> m_dropped e = false -> mv r (RLooked f (Some r)) e (RSelect f r) e
| mv_deliver f e : zlen (m_queue e) < m_cap e -> mv r (RSelect f r) e RIdle (enqueue f e)
| mv_drop f e : m_err e <> 0 -> mv r (RSelect f r) e RIdle (set_dropped true e)
| mv_recv rd e f q : m_queue e = f :: q -> mexCheckFrame (f_id f) (m_id e) = 0 ->
    mv r rd e rd (g_receive f (set_cpc false (set_queue q e)))
| mv_recv_bad rd e f q : m_queue e = f :: q -> mexCheckFrame (f_id f) (m_id e) <> 0 ->
    mv r rd e rd (set_cpc false (set_queue q e)).

Definition same_core (s s' : st) : Prop :=
  s_exch s' = s_exch s /\ s_reader s' = s_reader s /\ s_wire s' = s_wire s.

Inductive change : st -> st -> Prop :=
| ch_eq s s' : same_core s s' -> s_mexes s' = s_mexes s -> change s s'
| ch_trans s1 s2 s3 : change s1 s2 -> change s2 s3 -> change s1 s3
| ch_mv s s' r f e : s_exch s' = s_exch s -> s_wire s' = s_wire s -> s_mexes s' = upd r f (s_mexes s) ->
    nth_error (s_mexes s) r = Some e -> mv r (s_reader s) e (s_reader s') (f e) -> change s s'
| ch_fwdnil s s' f : s_reader s = RLooked f None -> s_reader s' = RIdle ->
    s_exch s' = s_exch s -> s_wire s' = s_wire s -> s_mexes s' = s_mexes s -> change s s'
| ch_new s s' id cap : 1 <= cap -> lookup id (s_exch s) = None ->
    s_exch s' = (id, length (s_mexes s)) :: s_exch s ->
    s_mexes s' = s_mexes s ++ [new_mex id cap (length (s_wire s))] ->
    s_reader s' = s_reader s -> s_wire s' = s_wire s -> change s s'
| ch_delete s s' id r : lookup id (s_exch s) = Some r ->
    s_exch s' = remove_key id (s_exch s) ->
    s_mexes s' = upd r (g_close (length (s_wire s))) (s_mexes s) ->
    s_reader s' = s_reader s -> s_wire s' = s_wire s -> change s s'
| ch_lookup s s' f : s_reader s = RIdle ->
    s_reader s' = RLooked f (lookup (f_id f) (s_exch s)) ->
    s_wire s' = s_wire s ++ [f] -> s_exch s' = s_exch s ->
    s_mexes s' = match lookup (f_id f) (s_exch s) with
                 | Some r => upd r (g_arrive f) (s_mexes s) | None => s_mexes s end ->
    change s s'.

Lemma same_core_refl s : same_core s s.
Proof. repeat split. Qed.

Lemma ch_reader s r e rd' : nth_error (s_mexes s) r = Some e -> mv r (s_reader s) e rd' e -> change s (set_reader rd' s).
Proof. intros He M. apply (ch_mv _ _ r (fun e => e) e); auto. symmetry. apply upd_id. Qed.

Lemma delete_change id s : change s (fst (fst (delete_exchange id s))).
Proof.
  unfold delete_exchange. destruct (lookup id (s_exch s)) as [r|] eqn:El.
  - eapply ch_delete; [exact El| | | |]; reflexivity.
  - destruct (existsb (Z.eqb id) (s_expired s)); apply ch_eq; repeat split.
Qed.

Lemma remove_change id s : change s (remove_exchange id s).
Proof.
  unfold remove_exchange. pose proof (delete_change id s) as H. destruct (delete_exchange id s) as [[s' b1] b2].
  eapply ch_trans; [exact H|]. destruct (b1 || b2); apply ch_eq; repeat split.
Qed.

Lemma expire_change id s : change s (expire_exchange id s).
Proof.
  unfold expire_exchange. pose proof (delete_change id s) as H. destruct (delete_exchange id s) as [[s' b1] b2].
  eapply ch_trans; [exact H|]. destruct (b1 || b2); apply ch_eq; repeat split.
Qed.

Lemma neutral_refl e : neutral_at e e.
Proof. unfold neutral_at. repeat split; auto. Qed.

Lemma neutral_notify err e : neutral_at e (notify err e).
Proof.
  unfold notify. destruct (m_notified e); [apply neutral_refl|].
  unfold neutral_at; cbn. repeat split; auto. destruct (m_err e =? 0) eqn:E; lia.
Qed.

(* the step rewrites exchange r, found as [He], and possibly the reader: what is left is the [mv] *)
Ltac moves He := eapply ch_mv; [reflexivity|reflexivity|reflexivity|exact He|cbn [s_reader set_reader upd_mex set_mexes]].
Ltac neutral_tac := apply mv_neutral; unfold neutral_at; cbn; repeat split; auto.

Lemma step_obs_change s l : match step_obs true s l with Some (s', _) => change s s' | None => True end.
Proof.
  destruct l; cbn [step_obs].
  (* the exchange e the label works on: the one the reader holds a frame for, or the one it names *)
  4-7: destruct (s_reader s) as [|f [r|]|f r] eqn:Er; try exact I.
  all: try (destruct (nth_error (s_mexes s) r) as [e|] eqn:Ee; [|exact I]).
  - (* LNew *)
    destruct (cap <? 1) eqn:Ec; [exact I|]. destruct (s_shutdown s); [apply ch_eq; repeat split|].
    destruct (lookup id (s_exch s)) eqn:El; [apply ch_eq; repeat split|].
    apply (ch_new _ _ id cap); [lia|exact El| | | |]; reflexivity.
  - (* LLookup *)
    destruct (s_reader s) eqn:Er; try exact I.
    apply (ch_lookup _ _ f); [exact Er|reflexivity| | |]; cbn; destruct (lookup (f_id f) (s_exch s)); reflexivity.
  - (* LFwdNil *)
    destruct (s_reader s) as [|f [r|]|] eqn:Er; try exact I. eapply ch_fwdnil; [exact Er| | | |]; reflexivity.
  - (* LFwdCheck *)
    destruct (negb (m_ctx e =? 0)) eqn:Ec; [|destruct (m_dropped e) eqn:Ed]; apply (ch_reader _ _ _ _ Ee); rewrite Er.
    + apply (mv_refuse _ _ f); [auto|right; lia].
    + apply (mv_refuse _ _ f); [auto|left; exact Ed].
    + apply mv_select; [lia|exact Ed].
  - (* LFwdSend *)
    destruct (zlen (m_queue e) <? m_cap e) eqn:Eq; [|exact I]. moves Ee. rewrite Er. apply mv_deliver. lia.
  - (* LFwdCtxDone *)
    destruct (negb (m_ctx e =? 0)) eqn:Ec; [|exact I].
    apply (ch_reader _ _ _ _ Ee). rewrite Er. apply (mv_refuse _ _ f); [auto|right; lia].
  - (* LFwdErr *)
    destruct (m_err e =? 0) eqn:Eerr; [exact I|].
    destruct (zlen (m_queue e) <? m_cap e) eqn:Eq; moves Ee; rewrite Er; [apply mv_deliver|apply mv_drop]; lia.
  - (* LRecvCheck *)
    destruct (m_cpc e); [exact I|]. destruct (negb (m_ctx e =? 0)); [apply ch_eq; repeat split|]. moves Ee. neutral_tac.
  - (* LRecvFrame *)
    destruct (m_cpc e); [|exact I]. destruct (m_queue e) as [|f q] eqn:Eq; [exact I|].
    destruct (mexCheckFrame (f_id f) (m_id e) =? 0) eqn:Ec; moves Ee.
    + apply mv_recv; [exact Eq|lia].
    + apply (mv_recv_bad _ _ _ f); [exact Eq|lia].
  - (* LRecvCtxDone *)
    destruct (m_cpc e && negb (m_ctx e =? 0)); [|exact I]. moves Ee. neutral_tac.
  - (* LRecvErr *)
    destruct (m_cpc e && negb (m_err e =? 0)); [|exact I].
    destruct (m_queue e) as [|f q] eqn:Eq; [moves Ee; neutral_tac|].
    destruct (mexCheckFrame (f_id f) (m_id e) =? 0) eqn:Ec; moves Ee.
    + apply mv_recv; [exact Eq|lia].
    + apply (mv_recv_bad _ _ _ f); [exact Eq|lia].
  - (* LCtx *)
    destruct ((k =? 1) || (k =? 2)); [|exact I].
    destruct (m_ctx e =? 0) eqn:Ec; [|apply ch_eq; repeat split]. moves Ee. neutral_tac. right. lia.
  - (* LShutCAS *)
    destruct (m_shut e); [apply ch_eq; repeat split|]. moves Ee. neutral_tac.
  - (* LShutNotify *)
    destruct (m_spc e =? 1); [|exact I]. moves Ee. apply mv_neutral. exact (neutral_notify E_MEXSHUTDOWN e).
  - (* LShutRemove *)
    destruct (m_spc e =? 2); [|exact I]. eapply ch_trans; [|apply remove_change]. moves Ee. neutral_tac.
  - (* LExpire *) apply expire_change.
  - (* LRemoveId *) apply remove_change.
  - (* LStopCopy *)
    destruct (err =? 0); [exact I|]. destruct (s_shutdown s); apply ch_eq; repeat split.
  - (* LStopNotify *)
    destruct (nth_error (s_stop s) k) as [[r err]|] eqn:Ek; [|exact I].
    destruct (nth_error (s_mexes s) r) as [e|] eqn:Ee.
    + moves Ee. apply mv_neutral, neutral_notify.
    + apply ch_eq; [repeat split|]. exact (upd_none _ _ _ Ee).
Qed.

Lemma step_change s l s' : step s l = Some s' -> change s s'.
Proof.
  unfold step. pose proof (step_obs_change s l) as H.
  destruct (step_obs true s l) as [[s1 o]|]; cbn; [|discriminate]. intros [= <-]. exact H.
Qed.

(* the exchanges map *)
(* the exchanges map is functional, maps each id to a live exchange carrying that id, and
   an exchange is in the map exactly as long as its ghost interval is open *)
Definition MapWf (s : st) : Prop :=
  NoDup (map fst (s_exch s)) /\
  (forall id r, In (id, r) (s_exch s) ->
     exists e, nth_error (s_mexes s) r = Some e /\ m_id e = id /\ g_to (m_g e) = None) /\
  (forall r e, nth_error (s_mexes s) r = Some e -> g_to (m_g e) = None -> In (m_id e, r) (s_exch s)).

(* fields the map invariant looks at *)
Definition same_map (e e' : mex) : Prop := m_id e' = m_id e /\ g_to (m_g e') = g_to (m_g e).

Lemma MapWf_upd s s' r f :
  s_exch s' = s_exch s -> s_mexes s' = upd r f (s_mexes s) ->
  (forall e, nth_error (s_mexes s) r = Some e -> same_map e (f e)) ->
  MapWf s -> MapWf s'.
Proof.
  intros Hx Hm Hf (Hnd & H2 & H3). unfold MapWf. rewrite Hx, Hm. split; [exact Hnd|]. split.
  - intros id r0 Hin. apply (some_upd (fun e => m_id e = id /\ g_to (m_g e) = None)); [|exact (H2 _ _ Hin)].
    intros e He _ [Hid Hto]. destruct (Hf e He) as [E1 E2]. split; congruence.
  - intros r0 e' He' Hto. apply nth_upd_inv in He' as (e & He & [[-> ->]|[Hne ->]]).
    + destruct (Hf e He) as [E1 E2]. rewrite E1. apply H3; [exact He|congruence].
    + apply H3; assumption.
Qed.

Lemma MapWf_same s s' : s_exch s' = s_exch s -> s_mexes s' = s_mexes s -> MapWf s -> MapWf s'.
Proof. intros Hx Hm H. unfold MapWf. rewrite Hx, Hm. exact H. Qed.

Lemma MapWf_new s s' id e : lookup id (s_exch s) = None -> m_id e = id -> g_to (m_g e) = None ->
  s_exch s' = (id, length (s_mexes s)) :: s_exch s -> s_mexes s' = s_mexes s ++ [e] -> MapWf s -> MapWf s'.
Proof.
  intros Hl Hid Hto Hx Hm (Hnd & H2 & H3). unfold MapWf. rewrite Hx, Hm. split; [|split].
  - cbn. constructor; [|exact Hnd]. intros Hin. apply in_map_iff in Hin as ([k v] & <- & Hin).
    exact (lookup_none _ _ _ Hl Hin).
  - intros id' r' [[= <- <-]|Hin].
    + exists e. rewrite nth_error_app2, Nat.sub_diag by lia. auto.
    + exact (some_snoc _ _ _ _ (H2 _ _ Hin)).
  - intros r' e' He' Hto'. apply nth_snoc_inv in He' as [He'|[-> ->]]; [right; auto|left; congruence].
Qed.

(* deleting id from the map (deleteExchange's first branch) *)
Lemma MapWf_delete s s' id r n :
  lookup id (s_exch s) = Some r ->
  s_exch s' = remove_key id (s_exch s) -> s_mexes s' = upd r (g_close n) (s_mexes s) ->
  MapWf s -> MapWf s'.
Proof.
  intros Hl Hx Hm (Hnd & H2 & H3). unfold MapWf. rewrite Hx, Hm.
  pose proof (lookup_in _ _ _ Hl) as Hin0.
  split; [apply NoDup_remove_key; exact Hnd|]. split.
  - intros id' r' Hin. apply in_remove_key in Hin as [Hin Hne].
    destruct (H2 _ _ Hin) as (e & He & Hid & Hto).
    assert (r' <> r).
    { intros ->. destruct (H2 _ _ Hin0) as (e0 & He0 & Hid0 & _). congruence. }
    exists e. rewrite nth_upd_other by auto. auto.
  - intros r' e' He' Hto. apply nth_upd_inv in He' as (e & He & [[-> ->]|[Hne ->]]).
    + exfalso. unfold g_close, set_g in Hto. cbn in Hto. destruct (g_to (m_g e)); discriminate.
    + apply in_remove_key. split; [apply H3; assumption|].
      intros Heq. apply Hne. specialize (H3 _ _ He Hto). rewrite Heq in H3.
      pose proof (in_lookup _ _ _ Hnd H3). congruence.
Qed.

Definition same_win (e e' : mex) : Prop :=
  m_id e' = m_id e /\ g_from (m_g e') = g_from (m_g e) /\ g_to (m_g e') = g_to (m_g e) /\
  g_arrived (m_g e') = g_arrived (m_g e).

Lemma mv_same_win r rd e rd' e' : mv r rd e rd' e' -> same_win e e'.
Proof.
  intros M. destruct M as [rd e e' (H1 & _ & _ & _ & H5 & _)| | | | | |]; unfold same_win; try rewrite H5; auto.
Qed.

Lemma MapWf_change s s' : change s s' -> MapWf s -> MapWf s'.
Proof.
  intros H. induction H as
    [s s' (Hx & _ & _) Hm | s1 s2 s3 _ IH1 _ IH2 | s s' r f e Hx _ Hm He M | s s' f _ _ Hx _ Hm
    | s s' id cap Hc Hl Hx Hm _ _ | s s' id r Hl Hx Hm _ _ | s s' f _ _ _ Hx Hm]; intros Hw.
  - exact (MapWf_same _ _ Hx Hm Hw).
  - auto.
  - apply (MapWf_upd _ _ _ _ Hx Hm); [|exact Hw]. intros e0 He0. replace e0 with e by congruence.
    destruct (mv_same_win _ _ _ _ _ M) as (H1 & _ & H3 & _). split; assumption.
  - exact (MapWf_same _ _ Hx Hm Hw).
  - exact (MapWf_new _ _ _ (new_mex id cap _) Hl eq_refl eq_refl Hx Hm Hw).
  - exact (MapWf_delete _ _ _ _ _ Hl Hx Hm Hw).
  - destruct (lookup (f_id f) (s_exch s)) as [r|].
    + apply (MapWf_upd _ _ _ _ Hx Hm); [|exact Hw]. intros e _. split; reflexivity.
    + exact (MapWf_same _ _ Hx Hm Hw).
Qed.

(* order invariant *)
Definition holds_not (rd : rpc) (r : nat) : Prop :=
  forall f, rd <> RLooked f (Some r) /\ rd <> RSelect f r.

Definition ord_ok (rd : rpc) (r : nat) (e : mex) : Prop :=
  g_delivered (m_g e) = g_received (m_g e) ++ m_queue e /\
  Forall (fun f => f_id f = m_id e) (g_arrived (m_g e)) /\
  prefix (g_delivered (m_g e)) (g_arrived (m_g e)) /\
  (forall f, rd = RSelect f r -> g_arrived (m_g e) = g_delivered (m_g e) ++ [f] /\ m_dropped e = false) /\
  (m_dropped e = false -> m_ctx e = 0 ->
     (forall f, rd = RLooked f (Some r) -> g_arrived (m_g e) = g_delivered (m_g e) ++ [f]) /\
     (holds_not rd r -> g_arrived (m_g e) = g_delivered (m_g e))) /\
  (m_dropped e = true -> m_err e <> 0) /\
  zlen (m_queue e) <= m_cap e /\ 1 <= m_cap e.

Definition rd_ok (rd : rpc) (mexes : list mex) : Prop :=
  match rd with
  | RIdle | RLooked _ None => True
  | RLooked f (Some r) | RSelect f r => exists e, nth_error mexes r = Some e /\ f_id f = m_id e
  end.

Definition Ord (s : st) : Prop :=
  rd_ok (s_reader s) (s_mexes s) /\
  forall r e, nth_error (s_mexes s) r = Some e -> ord_ok (s_reader s) r e.

Definition held_by (rd : rpc) : option nat :=
  match rd with RLooked _ (Some r) | RSelect _ r => Some r | _ => None end.

Lemma holds_not_other rd r : held_by rd <> Some r -> holds_not rd r.
Proof. intros H f; split; intros ->; apply H; reflexivity. Qed.

Ltac osplit := unfold ord_ok; split; [|split; [|split; [|split; [|split; [|split; [|split]]]]]].

Lemma ord_g_close rd r n e : ord_ok rd r e -> ord_ok rd r (g_close n e).
Proof. intros H. exact H. Qed.

(* the reader moved, or an exchange it does not hold is looked at: nothing to re-establish *)
Lemma ord_unheld rd rd' r e : rd' = rd \/ (holds_not rd r /\ holds_not rd' r) -> ord_ok rd r e -> ord_ok rd' r e.
Proof.
  intros [->|[Hh Hh']]; [auto|]. intros (O1 & O2 & O3 & O4 & O5 & O6 & O7 & O8). osplit; auto.
  - intros f Hf. exfalso. exact (proj2 (Hh' f) Hf).
  - intros Hd Hc. split; [|intros _; apply O5; auto].
    intros f Hf. exfalso. exact (proj1 (Hh' f) Hf).
Qed.

Lemma mv_unheld r rd e rd' e' k : mv r rd e rd' e' -> k <> r -> rd' = rd \/ (holds_not rd k /\ holds_not rd' k).
Proof.
  intros M Hk. destruct M as [|rd f e [->| ->]| | | | |]; auto; right; split; apply holds_not_other; cbn; congruence.
Qed.

Lemma mv_ord r rd e rd' e' : mv r rd e rd' e' -> ord_ok rd r e -> ord_ok rd' r e'.
Proof.
  intros M (O1 & O2 & O3 & O4 & O5 & O6 & O7 & O8).
  destruct M as [rd e e' (Hid & Hcap & Hq & Hd & Hg & Hctx & Herr) | rd f e Hrd Hs | f e Hc Hd | f e Hq | f e He
                | rd e f q Hq Hck | rd e f q Hq Hck].
  - unfold ord_ok. rewrite Hid, Hcap, Hq, Hd, Hg. osplit; auto.
    intros Hd0 Hc0. apply O5; [exact Hd0|destruct Hctx; congruence].
  - osplit; auto; [discriminate|]. intros Hd Hc. exfalso. destruct Hs; congruence.
  - osplit; auto.
    + intros f' [= <-]. split; [|exact Hd]. apply O5; auto.
    + intros _ _. split; [discriminate|]. intros Hh. exfalso. exact (proj2 (Hh f) eq_refl).
  - (* delivered: the frame held was the one arrival not yet delivered *)
    destruct (O4 f eq_refl) as [Ha Hd]. osplit; cbn; auto.
    + rewrite O1, app_assoc. reflexivity.
    + rewrite Ha. apply prefix_refl.
    + discriminate.
    + intros _ _. split; [discriminate|]. intros _. exact Ha.
    + unfold zlen in *. rewrite app_length. cbn. lia.
  - osplit; cbn; auto; discriminate.
  - rewrite Hq in *. osplit; cbn; auto.
    + rewrite O1, <- app_assoc. reflexivity.
    + unfold zlen in *. cbn in O7. lia.
  - (* a queued frame was delivered, so it arrived, so it carries the exchange's id *)
    exfalso. destruct O3 as [rest Hr].
    assert (Hin : In f (g_arrived (m_g e))).
    { rewrite Hr, O1, Hq. apply in_or_app. left. apply in_or_app. right. now left. }
    rewrite Forall_forall in O2. unfold mexCheckFrame in Hck. rewrite (O2 _ Hin), Z.eqb_refl in Hck. now apply Hck.
Qed.

Lemma ord_lookup_hit r e f : f_id f = m_id e -> ord_ok RIdle r e -> ord_ok (RLooked f (Some r)) r (g_arrive f e).
Proof.
  intros Hid (O1 & O2 & O3 & O4 & O5 & O6 & O7 & O8).
  osplit; cbn; auto.
  - apply Forall_app. split; [exact O2|]. constructor; [exact Hid|constructor].
  - apply prefix_app_r. exact O3.
  - discriminate.
  - intros Hd Hc. split.
    + intros f' [= <-]. f_equal. apply O5; auto. now apply holds_not_other.
    + intros Hh. exfalso. exact (proj1 (Hh f) eq_refl).
Qed.

Lemma ord_new rd r id cap from : 1 <= cap -> holds_not rd r -> ord_ok rd r (new_mex id cap from).
Proof.
  intros Hc Hh. osplit; cbn; auto; try discriminate.
  - apply prefix_refl.
  - intros f Hf. exfalso. exact (proj2 (Hh f) Hf).
  - intros _ _. split; [|reflexivity]. intros f Hf. exfalso. exact (proj1 (Hh f) Hf).
  - unfold zlen. cbn. lia.
Qed.

Lemma rd_ok_upd rd r f l : (forall e, nth_error l r = Some e -> m_id (f e) = m_id e) -> rd_ok rd l -> rd_ok rd (upd r f l).
Proof.
  intros Hf H. destruct rd as [|f0 [r0|]|f0 r0]; cbn in *; auto;
    (apply (some_upd (fun e => f_id f0 = m_id e)); [|exact H]); intros e He _ Hid; rewrite Hf; auto.
Qed.

Lemma rd_ok_snoc rd l x : rd_ok rd l -> rd_ok rd (l ++ [x]).
Proof.
  destruct rd as [|f0 [r0|]|f0 r0]; cbn; auto; apply some_snoc.
Qed.

Lemma mv_rd_ok r rd e rd' e' l : mv r rd e rd' e' -> rd_ok rd l -> rd_ok rd' l.
Proof. intros M H. destruct M; auto; exact I. Qed.

Lemma Ord_change s s' : change s s' -> MapWf s -> Ord s -> Ord s'.
Proof.
  intros H. induction H as
    [s s' (Hx & Hr & Hw) Hm | s1 s2 s3 H12 IH1 _ IH2 | s s' r f e Hx Hw Hm He M | s s' f Hr0 Hr Hx Hw Hm
    | s s' id cap Hc Hl Hx Hm Hr Hw | s s' id r Hl Hx Hm Hr Hw | s s' f Hr0 Hr Hw Hx Hm]; intros HW [Hrd Ho];
    unfold Ord; try rewrite Hr; try rewrite Hm.
  - auto.
  - apply IH2; [exact (MapWf_change _ _ H12 HW)|]. apply IH1; auto. split; assumption.
  - (* one exchange moves *) split.
    + apply (mv_rd_ok _ _ _ _ _ _ M), rd_ok_upd; [|exact Hrd].
      intros e0 He0. replace e0 with e by congruence. exact (proj1 (mv_same_win _ _ _ _ _ M)).
    + apply (each_upd (ord_ok (s_reader s))); [| |exact Ho].
      * intros e0 He0. replace e0 with e by congruence. exact (mv_ord _ _ _ _ _ M).
      * intros k e0 Hk. exact (ord_unheld _ _ _ _ (mv_unheld _ _ _ _ _ _ M Hk)).
  - split; [exact I|]. intros r e He. apply (ord_unheld (s_reader s)); [|auto].
    right. split; apply holds_not_other; rewrite ?Hr0; discriminate.
  - (* new *) split; [apply rd_ok_snoc, Hrd|]. apply each_snoc; [|exact Ho].
    apply ord_new; [exact Hc|]. apply holds_not_other. intros E.
    destruct (s_reader s) as [|f0 [r0|]|f0 r0]; cbn in E, Hrd; try discriminate; injection E as ->;
      destruct Hrd as (e0 & He0 & _); rewrite (proj2 (nth_error_None _ _) (Nat.le_refl _)) in He0; discriminate.
  - (* delete *) split; [apply rd_ok_upd; auto|]. apply (each_upd (ord_ok (s_reader s))); auto.
  - (* lookup *)
    destruct HW as (Hnd & HW2 & HW3). rewrite Hr0 in Ho.
    destruct (lookup (f_id f) (s_exch s)) as [r0|] eqn:El.
    + apply lookup_in in El. destruct (HW2 _ _ El) as (e0 & He0 & Hid0 & _). split.
      * exists (g_arrive f e0). rewrite (nth_upd_same _ _ _ _ He0). auto.
      * apply (each_upd (ord_ok RIdle)); [| |exact Ho].
        -- intros e He. apply ord_lookup_hit. congruence.
        -- intros k e Hk. apply ord_unheld. right. split; apply holds_not_other; cbn; congruence.
    + split; [exact I|]. intros r e He. apply (ord_unheld RIdle); [|auto].
      right. split; apply holds_not_other; discriminate.
Qed.

(* window invariant *)
(* the part of the wire between positions [from] and [to] (or its end) *)
Definition seg (w : list frame) (from : nat) (to : option nat) : list frame :=
  match to with
  | None => skipn from w
  | Some t => firstn (t - from) (skipn from w)
  end.

(* the frames carrying the exchange's id that the reader took off the wire while the
   exchange was in the exchanges map *)
Definition window (e : mex) (w : list frame) : list frame :=
  filter (has_id (m_id e)) (seg w (g_from (m_g e)) (g_to (m_g e))).

Definition win_ok (w : list frame) (e : mex) : Prop :=
  g_arrived (m_g e) = window e w /\
  (g_from (m_g e) <= length w)%nat /\
  (forall t, g_to (m_g e) = Some t -> (g_from (m_g e) <= t <= length w)%nat).

Definition Win (s : st) : Prop := forall r e, nth_error (s_mexes s) r = Some e -> win_ok (s_wire s) e.

Lemma win_same w e e' : same_win e e' -> win_ok w e -> win_ok w e'.
Proof.
  intros (H1 & H2 & H3 & H4) (W1 & W2 & W3). unfold win_ok, window. rewrite H1, H2, H3, H4. auto.
Qed.

Lemma skipn_app_le {A} n (a b : list A) : (n <= length a)%nat -> skipn n (a ++ b) = skipn n a ++ b.
Proof. intros H. rewrite skipn_app. replace (n - length a)%nat with O by lia. reflexivity. Qed.

Lemma firstn_app_le {A} n (a b : list A) : (n <= length a)%nat -> firstn n (a ++ b) = firstn n a.
Proof. intros H. rewrite firstn_app. replace (n - length a)%nat with O by lia. cbn. apply app_nil_r. Qed.

Lemma win_new w id cap : win_ok w (new_mex id cap (length w)).
Proof. unfold win_ok, window, seg. cbn. rewrite skipn_all. split; [reflexivity|]. split; [lia|discriminate]. Qed.

Lemma win_close w e : win_ok w e -> win_ok w (g_close (length w) e).
Proof.
  intros (W1 & W2 & W3). unfold win_ok, window, seg, g_close in *. cbn.
  destruct (g_to (m_g e)) as [t|]; [auto|].
  split; [|split; [exact W2|intros t' [= <-]; lia]].
  rewrite W1. f_equal. symmetry. apply firstn_all2. rewrite skipn_length. lia.
Qed.

(* the reader takes f off the wire: it joins the window of the exchange registered under its id ... *)
Lemma win_arrive w e f : g_to (m_g e) = None -> f_id f = m_id e -> win_ok w e -> win_ok (w ++ [f]) (g_arrive f e).
Proof.
  intros Hto Hid (W1 & W2 & W3). unfold win_ok, window, seg, g_arrive in *. cbn. rewrite Hto in *.
  split; [|split; [rewrite app_length; lia|discriminate]].
  rewrite skipn_app_le, filter_app, <- W1 by exact W2. cbn. unfold has_id. now rewrite Hid, Z.eqb_refl.
Qed.

(* ... and of no other: not of one that has left the map, nor of one with another id *)
Lemma win_pass w e f : (g_to (m_g e) = None -> f_id f <> m_id e) -> win_ok w e -> win_ok (w ++ [f]) e.
Proof.
  intros Hne (W1 & W2 & W3). unfold win_ok, window, seg in *. rewrite app_length.
  destruct (g_to (m_g e)) as [t|].
  - destruct (W3 t eq_refl). split; [|split; [lia|intros t' [= <-]; lia]].
    rewrite skipn_app_le, firstn_app_le by (rewrite ?skipn_length; lia). exact W1.
  - split; [|split; [lia|discriminate]].
    rewrite skipn_app_le, filter_app, <- W1 by exact W2. cbn. unfold has_id.
    destruct (Z.eqb_spec (f_id f) (m_id e)) as [E|_]; [now destruct (Hne eq_refl)|now rewrite app_nil_r].
Qed.

Lemma Win_change s s' : change s s' -> MapWf s -> Win s -> Win s'.
Proof.
  intros H. induction H as
    [s s' (Hx & Hr & Hw) Hm | s1 s2 s3 H12 IH1 _ IH2 | s s' r f e Hx Hw Hm He M | s s' f Hr0 Hr Hx Hw Hm
    | s s' id cap Hc Hl Hx Hm Hr Hw | s s' id r Hl Hx Hm Hr Hw | s s' f Hr0 Hr Hw Hx Hm]; intros HM HW;
    unfold Win; try rewrite Hw; try rewrite Hm.
  - exact HW.
  - apply IH2; [exact (MapWf_change _ _ H12 HM)|]. apply IH1; assumption.
  - apply (each_upd (fun _ => win_ok (s_wire s))); [|auto|exact HW].
    intros e0 He0. replace e0 with e by congruence. exact (win_same _ _ _ (mv_same_win _ _ _ _ _ M)).
  - exact HW.
  - apply each_snoc; [apply win_new|exact HW].
  - apply (each_upd (fun _ => win_ok (s_wire s))); [|auto|exact HW]. intros e _. apply win_close.
  - (* lookup: only an exchange in the map under the frame's id is not passed by *)
    assert (Hpass : forall k e, nth_error (s_mexes s) k = Some e -> lookup (f_id f) (s_exch s) <> Some k ->
                      win_ok (s_wire s ++ [f]) e).
    { intros k e He Hk. apply win_pass; [|exact (HW _ _ He)]. intros Hto Hid. apply Hk. rewrite Hid.
      exact (in_lookup _ _ _ (proj1 HM) (proj2 (proj2 HM) _ _ He Hto)). }
    destruct (lookup (f_id f) (s_exch s)) as [r0|] eqn:El.
    + apply (each_upd (fun k e => nth_error (s_mexes s) k = Some e)); auto.
      * intros e He _. destruct HM as (_ & HM2 & _).
        destruct (HM2 _ _ (lookup_in _ _ _ El)) as (e0 & He0 & Hid0 & Hto0). replace e0 with e in * by congruence.
        apply win_arrive; [exact Hto0|now symmetry|exact (HW _ _ He)].
      * intros k e Hk He. apply (Hpass _ _ He). congruence.
    + intros k e He. apply (Hpass _ _ He). discriminate.
Qed.

Definition Inv (s : st) : Prop := MapWf s /\ Ord s /\ Win s.

Lemma Inv_init : Inv init.
Proof.
  split; [|split].
  - split; [constructor|]. split; [intros id r []|]. intros [|r] e H; discriminate.
  - split; [exact I|]. intros [|r] e H; discriminate.
  - intros [|r] e H; discriminate.
Qed.

Lemma Inv_step s l s' : Inv s -> step s l = Some s' -> Inv s'.
Proof.
  intros (HM & HO & HW) H. apply step_change in H.
  split; [exact (MapWf_change _ _ H HM)|]. split; [exact (Ord_change _ _ H HM HO)|exact (Win_change _ _ H HM HW)].
Qed.

Lemma run_from_inv (P : st -> Prop) stp : (forall s l s', P s -> stp s l = Some s' -> P s') ->
  forall ls s s', P s -> run_from stp s ls = Some s' -> P s'.
Proof.
  intros Hstep. induction ls as [|l ls IH]; intros s s' Hi H; cbn in H.
  - inversion H; subst. exact Hi.
  - destruct (stp s l) as [s1|] eqn:E; [|discriminate]. exact (IH _ _ (Hstep _ _ _ Hi E) H).
Qed.

Lemma Inv_run ls s : run ls = Some s -> Inv s.
Proof. exact (run_from_inv Inv step Inv_step ls init s Inv_init). Qed.

(* C04_demux / C04_no_gap *)
Theorem demux : forall ls s r e,
  run ls = Some s -> nth_error (s_mexes s) r = Some e ->
  let g := m_g e in
  (* what was put on the exchange's queue is an initial segment, in arrival order, of the
     frames carrying its id that arrived while it was registered: nothing foreign, nothing
     reordered, nothing skipped *)
  prefix (g_delivered g) (window e (s_wire s)) /\
  subseq (g_delivered g) (window e (s_wire s)) /\
  Forall (fun f => f_id f = m_id e) (g_delivered g) /\
  (* the consumer has received a prefix of it, the rest is still queued, the queue is bounded *)
  g_delivered g = g_received g ++ m_queue e /\
  zlen (m_queue e) <= m_cap e.
Proof.
  intros ls s r e Hrun He g. destruct (Inv_run _ _ Hrun) as (HM & [_ HO] & HW).
  destruct (HO _ _ He) as (O1 & O2 & O3 & _ & _ & _ & O7 & _). destruct (HW _ _ He) as (W1 & _).
  fold g in O1, O2, O3, W1. rewrite <- W1.
  split; [exact O3|]. split; [exact (prefix_subseq _ _ O3)|]. split; [|split; [exact O1|exact O7]].
  destruct O3 as [rest Hr]. rewrite Hr in O2. apply Forall_app in O2. exact (proj1 O2).
Qed.

Theorem no_gap : forall ls s r e,
  run ls = Some s -> nth_error (s_mexes s) r = Some e ->
  prefix (g_received (m_g e)) (window e (s_wire s)) /\
  (length (g_received (m_g e)) = length (window e (s_wire s)) -> g_received (m_g e) = window e (s_wire s)).
Proof.
  intros ls s r e Hrun He. destruct (demux _ _ _ _ Hrun He) as (P & _ & _ & D & _).
  assert (Hp : prefix (g_received (m_g e)) (window e (s_wire s))).
  { eapply prefix_trans; [|exact P]. exists (m_queue e). exact D. }
  split; [exact Hp|]. intros Hl. exact (prefix_length_eq _ _ Hp Hl).
Qed.

(* the ghost interval is the registration interval: an exchange is in the exchanges map
   exactly while its interval is open, under its own id, and ids in the map are distinct *)
Theorem registered_iff : forall ls s,
  run ls = Some s ->
  NoDup (map fst (s_exch s)) /\
  (forall id r, In (id, r) (s_exch s) <->
     exists e, nth_error (s_mexes s) r = Some e /\ m_id e = id /\ g_to (m_g e) = None).
Proof.
  intros ls s Hrun. destruct (Inv_run _ _ Hrun) as ((Hnd & H2 & H3) & _ & _).
  split; [exact Hnd|]. intros id r. split; [apply H2|].
  intros (e & He & <- & Hto). exact (H3 _ _ He Hto).
Qed.

(* a frame is refused only because the exchange's context is done or its error latch is set *)
Definition is_fwd (l : label) : bool :=
  match l with LFwdNil | LFwdCheck | LFwdSend | LFwdCtxDone | LFwdErr => true | _ => false end.

Theorem refusal_cause : forall ls s l s' code,
  run ls = Some s -> is_fwd l = true -> step_obs true s l = Some (s', [code]) -> code <> 0 ->
  exists f r e, (s_reader s = RLooked f (Some r) \/ s_reader s = RSelect f r) /\
    nth_error (s_mexes s) r = Some e /\
    ((m_ctx e <> 0 /\ code = ctx_err (m_ctx e)) \/ (m_err e <> 0 /\ code = m_err e)).
Proof.
  intros ls s l s' code Hrun Hl Hs Hc. destruct (Inv_run _ _ Hrun) as (_ & [_ HO] & _).
  destruct l; try discriminate; cbn in Hs; destruct (s_reader s) as [|f [r|]|f r]; try discriminate.
  1: congruence.
  all: destruct (nth_error (s_mexes s) r) as [e|] eqn:Ee; [|discriminate];
    exists f, r, e; split; [auto|]; split; [exact Ee|].
  - (* LFwdCheck *)
    destruct (negb (m_ctx e =? 0)) eqn:Ec; [injection Hs as _ <-; left; split; [lia|reflexivity]|].
    destruct (m_dropped e) eqn:Ed; [|congruence]. injection Hs as _ <-. right. split; [|reflexivity].
    destruct (HO _ _ Ee) as (_ & _ & _ & _ & _ & O6 & _). exact (O6 Ed).
  - (* LFwdSend *) destruct (zlen (m_queue e) <? m_cap e); [congruence|discriminate].
  - (* LFwdCtxDone *)
    destruct (negb (m_ctx e =? 0)) eqn:Ec; [|discriminate]. injection Hs as _ <-. left. split; [lia|reflexivity].
  - (* LFwdErr *)
    destruct (m_err e =? 0) eqn:Eerr; [discriminate|]. destruct (zlen (m_queue e) <? m_cap e); [congruence|].
    injection Hs as _ <-. right. split; [lia|reflexivity].
Qed.

(* a duplicate live id is rejected and changes nothing; a fresh id on a live set is registered *)
Theorem new_duplicate_rejected : forall s id cap r,
  1 <= cap -> s_shutdown s = false -> lookup id (s_exch s) = Some r ->
  step_obs true s (LNew id cap) = Some (s, [E_DUPLICATE]).
Proof.
  intros s id cap r Hc Hs Hl. cbn. destruct (cap <? 1) eqn:E; [lia|]. rewrite Hs, Hl. reflexivity.
Qed.

Theorem new_fresh_registered : forall s id cap,
  1 <= cap -> s_shutdown s = false -> lookup id (s_exch s) = None ->
  exists s', step_obs true s (LNew id cap) = Some (s', [0; Z.of_nat (length (s_mexes s))]) /\
             lookup id (s_exch s') = Some (length (s_mexes s)).
Proof.
  intros s id cap Hc Hs Hl. cbn. destruct (cap <? 1) eqn:E; [lia|]. rewrite Hs, Hl.
  eexists. split; [reflexivity|]. cbn. now rewrite Z.eqb_refl.
Qed.

(* the pinned code has the gap *)
Definition gap_trace : list label :=
  [LNew 7 2;
   LLookup (mkF 7 1); LFwdCheck; LFwdSend; LLookup (mkF 7 2); LFwdCheck; LFwdSend;
   LStopCopy 10; LStopNotify 0;
   LLookup (mkF 7 3); LFwdCheck; LFwdErr;            (* queue full, latch set: frame 3 dropped *)
   LRecvCheck 0; LRecvFrame 0;                       (* consumer takes frame 1 *)
   LLookup (mkF 7 4); LFwdCheck; LFwdSend;           (* frame 4 is delivered behind the hole *)
   LRecvCheck 0; LRecvFrame 0; LRecvCheck 0; LRecvFrame 0].

Lemma not_prefix_124 : ~ prefix [mkF 7 1; mkF 7 2; mkF 7 4] [mkF 7 1; mkF 7 2; mkF 7 3; mkF 7 4].
Proof. intros [r H]. cbn in H. inversion H. Qed.

Theorem no_gap_pinned_refuted : exists ls s e,
  run_pinned ls = Some s /\ nth_error (s_mexes s) 0 = Some e /\
  ~ prefix (g_received (m_g e)) (window e (s_wire s)).
Proof.
  exists gap_trace.
  destruct (run_pinned gap_trace) as [s|] eqn:E; [|vm_compute in E; discriminate].
  destruct (nth_error (s_mexes s) 0) as [e|] eqn:Ee.
  2:{ exfalso. vm_compute in E. inversion E; subst. discriminate. }
  exists s, e. split; [reflexivity|]. split; [exact Ee|].
  vm_compute in E. inversion E; subst. cbn in Ee. inversion Ee; subst. exact not_prefix_124.
Qed.

(* the same schedule on the repaired code: frame 4 is refused too *)
Example gap_trace_repaired :
  exists s e, run_from step init (firstn 16 gap_trace) = Some s /\ nth_error (s_mexes s) 0 = Some e /\
    step_obs true s LFwdSend = None /\ s_reader s = RIdle /\
    map f_tag (g_delivered (m_g e)) = [1; 2] /\ m_dropped e = true.
Proof. vm_compute. eexists. eexists. repeat split. Qed.

(* who can unregister an exchange *)
Definition is_deleting (l : label) : bool :=
  match l with LShutRemove _ | LExpire _ | LRemoveId _ => true | _ => false end.

(* the labels through which exchange r (carrying id) removes ITSELF from the set *)
Definition own_label (l : label) (r : nat) (id : Z) : Prop :=
  l = LShutRemove r \/ l = LExpire r \/ l = LRemoveId id.

Lemma exch_mono s l s' : step s l = Some s' -> is_deleting l = false -> incl (s_exch s) (s_exch s').
Proof.
  unfold step. destruct (step_obs true s l) as [[s1 o]|] eqn:E; cbn; [|discriminate].
  intros H Hd; inversion H; subst s1; clear H.
  destruct l; try discriminate Hd; cbn in E;
    repeat match type of E with
           | context [match ?x with _ => _ end] => destruct x eqn:?; try discriminate E
           end;
    inversion E; subst; cbn; try apply incl_refl; try (apply incl_tl, incl_refl).
Qed.

Lemma removed_key id0 s id r : In (id, r) (s_exch s) ->
  ~ In (id, r) (s_exch (remove_exchange id0 s)) \/ ~ In (id, r) (s_exch (expire_exchange id0 s)) -> id = id0.
Proof.
  intros Hin Hn. destruct (Z.eq_dec id id0) as [E|E]; [exact E|]. exfalso.
  assert (Hx : In (id, r) (s_exch (fst (fst (delete_exchange id0 s))))).
  { unfold delete_exchange. destruct (lookup id0 (s_exch s)); [cbn; apply in_remove_key; auto|].
    destruct (existsb (Z.eqb id0) (s_expired s)); exact Hin. }
  unfold remove_exchange, expire_exchange in Hn. destruct (delete_exchange id0 s) as [[s' b1] b2].
  destruct (b1 || b2), Hn as [H|H]; exact (H Hx).
Qed.

Lemma NoDup_map_nth {A B} (f : A -> B) l i j a b :
  NoDup (map f l) -> nth_error l i = Some a -> nth_error l j = Some b -> f a = f b -> i = j.
Proof.
  intros Hnd Hi Hj Hf. apply (proj1 (NoDup_nth_error (map f l)) Hnd).
  - apply nth_error_Some. rewrite nth_error_map, Hi. discriminate.
  - rewrite !nth_error_map, Hi, Hj. cbn. congruence.
Qed.

(* PARTIAL (hypothesis: no message id has been re-used on this connection): the step that
   takes an exchange out of the set is one of that exchange's own removal steps *)
Theorem own_removal_partial : forall ls s l s' r e e',
  run ls = Some s -> step s l = Some s' ->
  NoDup (map m_id (s_mexes s)) ->
  nth_error (s_mexes s) r = Some e -> g_to (m_g e) = None ->
  nth_error (s_mexes s') r = Some e' -> g_to (m_g e') <> None ->
  own_label l r (m_id e).
Proof.
  intros ls s l s' r e e' Hrun Hstep Hnd He Hto He' Hto'.
  pose proof (Inv_run _ _ Hrun) as Hinv. destruct (Inv_step _ _ _ Hinv Hstep) as ((_ & HM2' & _) & _ & _).
  destruct Hinv as ((_ & _ & HM3) & _ & _).
  (* the map holds r under e's id before the step and no longer after it *)
  pose proof (HM3 _ _ He Hto) as Hin.
  assert (Hout : ~ In (m_id e, r) (s_exch s')).
  { intros X. destruct (HM2' _ _ X) as (e1 & He1 & _ & Hto1). congruence. }
  destruct (is_deleting l) eqn:Hd; [|destruct Hout; exact (exch_mono _ _ _ Hstep Hd _ Hin)].
  unfold step in Hstep. destruct (step_obs true s l) as [[s1 o]|] eqn:E; cbn in Hstep; [|discriminate].
  injection Hstep as ->. destruct l; try discriminate Hd; cbn in E.
  - destruct (nth_error (s_mexes s) r0) as [e0|] eqn:E0; [|discriminate].
    destruct (m_spc e0 =? 2); [|discriminate]. injection E as <- _.
    left. f_equal. apply (NoDup_map_nth m_id _ _ _ _ _ Hnd E0 He). symmetry.
    exact (removed_key (m_id e0) (upd_mex r0 (set_spc 3) s) _ _ Hin (or_introl Hout)).
  - destruct (nth_error (s_mexes s) r0) as [e0|] eqn:E0; [|discriminate]. injection E as <- _.
    right. left. f_equal. apply (NoDup_map_nth m_id _ _ _ _ _ Hnd E0 He). symmetry.
    exact (removed_key _ _ _ _ Hin (or_intror Hout)).
  - injection E as <- _. right. right. f_equal. symmetry. exact (removed_key _ _ _ _ Hin (or_introl Hout)).
Qed.

(* REFUTED without that hypothesis: removal is keyed by message id, so a stale
   inboundExpired()/shutdown() of an OLDER exchange removes a newer one registered under the
   re-used id (known finding c04:stale-removal-by-id) *)
Theorem own_removal_refuted : exists ls s l s' r e e',
  run ls = Some s /\ step s l = Some s' /\
  nth_error (s_mexes s) r = Some e /\ g_to (m_g e) = None /\
  nth_error (s_mexes s') r = Some e' /\ g_to (m_g e') <> None /\
  ~ own_label l r (m_id e).
Proof.
  exists [LNew 5 2; LExpire 0; LNew 5 2].
  eexists. exists (LExpire 0). eexists. exists 1%nat. eexists. eexists.
  split; [vm_compute; reflexivity|]. split; [vm_compute; reflexivity|].
  split; [vm_compute; reflexivity|]. split; [reflexivity|].
  split; [vm_compute; reflexivity|]. split; [cbn; discriminate|].
  intros [H|[H|H]]; discriminate H.
Qed.

(* a refused frame is final *)
(* exchange r refuses every frame from now on and the reader is not about to deliver to it:
   its delivery log stays D for ever *)
Definition frozen (r : nat) (D : list frame) (s : st) : Prop :=
  (forall f, s_reader s <> RSelect f r) /\
  exists e, nth_error (s_mexes s) r = Some e /\ refusing e /\ g_delivered (m_g e) = D.

Lemma mv_frozen r rd e rd' e' : mv r rd e rd' e' -> (forall g, rd <> RSelect g r) -> refusing e ->
  (forall g, rd' <> RSelect g r) /\ refusing e' /\ g_delivered (m_g e') = g_delivered (m_g e).
Proof.
  intros M Hrd Hs.
  destruct M as [rd e e' (_ & _ & _ & Hd & Hg & Hctx & _)| | f e Hc Hd| f e| f e| |]; unfold refusing in *; cbn; auto.
  - rewrite Hg, Hd. split; [exact Hrd|]. split; [|reflexivity].
    destruct Hs as [Hs|Hs]; [auto|right]. destruct Hctx; congruence.
  - repeat split; auto; discriminate.
  - exfalso. destruct Hs; congruence.
  - destruct (Hrd f eq_refl).
  - destruct (Hrd f eq_refl).
Qed.

Lemma frozen_change r D s s' : change s s' -> frozen r D s -> frozen r D s'.
Proof.
  intros H. induction H as
    [s s' (Hx & Hr & Hw) Hm | s1 s2 s3 H12 IH1 _ IH2 | s s' r1 f e Hx Hw Hm He M | s s' f Hr0 Hr Hx Hw Hm
    | s s' id cap Hc Hl Hx Hm Hr Hw | s s' id r1 Hl Hx Hm Hr Hw | s s' f Hr0 Hr Hw Hx Hm]; intros [Hrd HF];
    unfold frozen; try rewrite Hr; try rewrite Hm.
  - auto.
  - apply IH2, IH1. split; assumption.
  - split.
    + destruct (Nat.eq_dec r r1) as [->|Hne].
      * destruct HF as (e0 & He0 & Hs & _). replace e0 with e in Hs by congruence. apply (mv_frozen _ _ _ _ _ M Hrd Hs).
      * intros g. destruct (mv_unheld _ _ _ _ _ _ M Hne) as [->|[_ H']]; [apply Hrd|apply H'].
    + apply some_upd; [|exact HF]. intros e0 He0 -> [Hs HD]. replace e0 with e in * by congruence.
      destruct (mv_frozen _ _ _ _ _ M Hrd Hs) as (_ & H2 & H3). split; [exact H2|congruence].
  - split; [discriminate|exact HF].
  - split; [exact Hrd|]. exact (some_snoc _ _ _ _ HF).
  - split; [exact Hrd|]. apply some_upd; auto.
  - split; [discriminate|]. destruct (lookup (f_id f) (s_exch s)); [apply some_upd; auto|exact HF].
Qed.

Lemma frozen_run r D ls : forall s s', frozen r D s -> run_from step s ls = Some s' -> frozen r D s'.
Proof.
  apply run_from_inv. intros s l s' HF E. exact (frozen_change _ _ _ _ (step_change _ _ _ E) HF).
Qed.

Lemma run_from_app stp ls1 : forall ls2 s s1 s2,
  run_from stp s ls1 = Some s1 -> run_from stp s1 ls2 = Some s2 -> run_from stp s (ls1 ++ ls2) = Some s2.
Proof.
  induction ls1 as [|l ls1 IH]; intros ls2 s s1 s2 H1 H2; cbn in *.
  - inversion H1; subst. exact H2.
  - destruct (stp s l) as [s0|]; [|discriminate]. exact (IH _ _ _ _ H1 H2).
Qed.

(* once a frame that arrived for an exchange has not been delivered (and the reader is not
   holding a frame for it), nothing is ever delivered to it again: its consumer can receive at
   most what was delivered before the refusal, in every continuation of the schedule *)
Theorem refused_final : forall ls s r e,
  run ls = Some s -> nth_error (s_mexes s) r = Some e ->
  (forall f, s_reader s <> RLooked f (Some r) /\ s_reader s <> RSelect f r) ->
  g_delivered (m_g e) <> window e (s_wire s) ->
  forall ls' s' e', run_from step s ls' = Some s' -> nth_error (s_mexes s') r = Some e' ->
  g_delivered (m_g e') = g_delivered (m_g e) /\ prefix (g_received (m_g e')) (g_delivered (m_g e)).
Proof.
  intros ls s r e Hrun He Hh Hneq ls' s' e' Hrun' He'.
  destruct (Inv_run _ _ Hrun) as (_ & [_ HO] & HW).
  destruct (HO _ _ He) as (_ & _ & _ & _ & O5 & _). destruct (HW _ _ He) as (W1 & _).
  assert (Hs : m_dropped e = true \/ m_ctx e <> 0).
  { destruct (m_dropped e) eqn:Ed; [left; reflexivity|]. destruct (Z.eq_dec (m_ctx e) 0) as [Ec|Ec]; [|right; exact Ec].
    exfalso. apply Hneq. rewrite <- W1. symmetry. apply (proj2 (O5 eq_refl Ec)). exact Hh. }
  assert (HF : frozen r (g_delivered (m_g e)) s).
  { split; [intros f; exact (proj2 (Hh f))|]. exists e. auto. }
  pose proof (frozen_run _ _ _ _ _ HF Hrun') as [_ (e1 & He1 & _ & HD)].
  assert (e1 = e') by congruence. subst e1.
  pose proof (run_from_app _ _ _ _ _ _ Hrun Hrun') as Hrun2.
  destruct (demux _ _ _ _ Hrun2 He') as (P & _ & _ & D & _).
  split; [exact HD|]. rewrite <- HD. exists (m_queue e'). exact D.
Qed.

(* final forms used by Props/C04.v *)
Lemma shuffle : forall (ids : list Z) (seqs : list (list frame)) (w : list frame),
  NoDup ids -> Forall2 (fun i s => Forall (fun f => f_id f = i) s) ids seqs -> interleaving seqs w ->
  Forall2 (fun i s => filter (fun f => f_id f =? i) w = s) ids seqs.
Proof. intros ids seqs w Hnd Ht Hi. exact (shuffle_gen seqs w Hi ids Hnd Ht). Qed.

Lemma shuffle_foreign : forall (ids : list Z) (seqs : list (list frame)) (w : list frame) j,
  Forall2 (fun i s => Forall (fun f => f_id f = i) s) ids seqs -> interleaving seqs w -> ~ In j ids ->
  filter (fun f => f_id f =? j) w = [].
Proof.
  intros ids seqs w j Ht Hi. revert ids Ht. induction Hi as [ls Hnil | ls1 x l ls2 w H IH]; intros ids Ht Hj.
  - reflexivity.
  - destruct (tagged_app_inv _ _ _ _ Ht) as (ids1 & i & ids2 & -> & Hlen & H1 & Hx & H2).
    inversion Hx as [|x' l' Hxi Hl]; subst. cbn.
    destruct (f_id x =? j) eqn:E.
    + exfalso. apply Hj. apply in_or_app. right. left. lia.
    + apply (IH (ids1 ++ f_id x :: ids2)); [|exact Hj]. apply Forall2_app; [exact H1|]. constructor; assumption.
Qed.

Lemma ids_distinct : forall n start, Z.of_nat n <= 2 ^ 32 ->
  NoDup (alloc_ids n start) /\ Forall (fun i => 0 <= i < 2 ^ 32) (alloc_ids n start) /\
  (forall k, (k < n)%nat -> nth_error (alloc_ids n start) k = Some ((start + 1 + Z.of_nat k) mod 2 ^ 32)).
Proof.
  intros n start Hn. split; [exact (alloc_ids_distinct n start Hn)|]. split; [exact (alloc_ids_range n start)|].
  intros k Hk. rewrite alloc_ids_spec, nth_error_map.
  rewrite (nth_error_nth' (seq 1 n) O) by (rewrite seq_length; exact Hk).
  rewrite seq_nth by exact Hk. cbn [option_map]. unfold wrapU. f_equal. f_equal. lia.
Qed.
