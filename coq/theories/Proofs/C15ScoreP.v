(* Property C15: the score a list stores for a peer is the score of the peer's live state.
   Proofs over Model/C15Score.v. *)
From Coq Require Import ZArith List Bool Arith Lia Permutation.
From Verif Require Import Base.Wrap Base.Wire Gen.GenConsts Gen.GenPeers Spec.PeerSelect Spec.C15ScoreSpec
  Model.Retry Model.PeerHeap Model.PeerList Model.ReqSel Model.C15Score
  Proofs.PeerHeapP Proofs.PeerListP.
Import ListNotations.
Local Open Scope Z_scope.

(* ================================================================ 1. scores of one list *)

Lemma bytes_eqb_refl K : bytes_eqb K K = true.
Proof. now apply bytes_eqb_eq. Qed.
Lemma bytes_eqb_neq a b : a <> b -> bytes_eqb a b = false.
Proof. intros H. destruct (bytes_eqb a b) eqn:E; [apply bytes_eqb_eq in E; contradiction|reflexivity]. Qed.
Lemma bytes_eqb_false a b : bytes_eqb a b = false -> a <> b.
Proof. intros E ->. now rewrite bytes_eqb_refl in E. Qed.

Lemma wf_nodup_hps l : wf l -> NoDup (hps (pl_arr l)).
Proof. intros (Hnd & Hperm & _). eapply Permutation_NoDup; eassumption. Qed.

Lemma nodup_hget h p k : NoDup (hps h) -> (p < length h)%nat -> (k < length h)%nat ->
  ps_hp (hget h k) = ps_hp (hget h p) -> k = p.
Proof.
  intros Hnd Hp Hk E. unfold hps in Hnd. rewrite NoDup_nth with (d := ps_hp ps_dflt) in Hnd.
  apply Hnd; rewrite ?map_length; try assumption.
  rewrite !(map_nth ps_hp). exact E.
Qed.

Lemma update_score_hs h hp s h' : hinv h -> NoDup (hps h) -> In hp (hps h) -> update_score h hp s = Some h' ->
  forall K sc, In (K, sc) (map hs h') -> (K = hp /\ sc = s) \/ (K <> hp /\ In (K, sc) (map hs h)).
Proof.
  intros Hinv Hnd Hin E K sc Hent.
  destruct (update_score_spec h hp s Hinv Hin) as (p & h2 & Ep & E2 & _ & _ & P).
  rewrite E in E2. injection E2 as <-.
  destruct (find_pos_some h hp p Ep) as [Hp Ehp].
  apply (Permutation_in _ (ident_hs_perm _ _ P)) in Hent.
  apply in_map_iff in Hent as (z & Ez & Hz). apply In_hget in Hz as (k & Hk & <-).
  rewrite length_set_nth in Hk. unfold hs in Ez. inversion Ez; subst K sc. clear Ez.
  destruct (Nat.eq_dec k p) as [->|Hne].
  - left. rewrite hget_set_eq by exact Hp. split; [exact Ehp|reflexivity].
  - right. rewrite hget_set_neq by congruence. split.
    + intros Eq. apply Hne, (nodup_hget h p k Hnd Hp Hk). congruence.
    + apply (in_map hs), hget_In, Hk.
Qed.

(* PeerList.onPeerChange / updatePeer: the entry of K gets the new score, nothing else changes *)
Lemma pl_update_scores l K s : wf l ->
  exists l', pl_update l K s = Some l' /\ wf l' /\ pl_keys l' = pl_keys l /\
    (forall K' sc, In (K', sc) (peers_of l') ->
       (K' = K /\ sc = s) \/ (K' <> K /\ In (K', sc) (peers_of l))).
Proof.
  intros Hwf. destruct (pl_update_spec l K s Hwf) as (l' & E & W & Ke & _).
  exists l'. split; [exact E|]. split; [exact W|]. split; [exact Ke|].
  pose proof Hwf as (Hnd & Hperm & Hinv). unfold pl_update in E.
  destruct (mem K (pl_keys l)) eqn:Em.
  - apply mem_In in Em.
    assert (Hin : In K (hps (pl_arr l))) by (eapply Permutation_in; eassumption).
    destruct (find_pos_in _ _ Hin) as [p Ep]. rewrite Ep in E.
    destruct (find_pos_some _ _ _ Ep) as [Hp Ehp].
    destruct (ps_score (hget (pl_arr l) p) =? s) eqn:Es.
    + inversion E; subst l'. intros K' sc Hent.
      destruct (bytes_eqb K' K) eqn:Ek; [|right; split; [now apply bytes_eqb_false|exact Hent]].
      apply bytes_eqb_eq in Ek. subst K'. left. split; [reflexivity|].
      unfold peers_of in Hent. apply in_map_iff in Hent as (z & Ez & Hz).
      apply In_hget in Hz as (k & Hk & Ekz). unfold hs in Ez. inversion Ez; subst.
      assert (k = p) by (apply (nodup_hget _ p k (wf_nodup_hps l Hwf) Hp Hk); congruence).
      subst k. apply Z.eqb_eq in Es. exact Es.
    + destruct (update_score (pl_arr l) K s) as [arr|] eqn:Eu; [|discriminate].
      inversion E; subst l'. cbn [peers_of pl_arr]. intros K' sc Hent.
      exact (update_score_hs _ _ _ _ Hinv (wf_nodup_hps l Hwf) Hin Eu K' sc Hent).
  - inversion E; subst l'. intros K' sc Hent. right. split; [|exact Hent].
    intros ->. apply mem_false in Em. apply Em. eapply wf_key_entry; eassumption.
Qed.

(* PeerList.SetStrategy: every entry gets the score the new calculator gives *)
Lemma pl_update_all_scores f : forall order l, wf l ->
  exists l', pl_update_all l f order = Some l' /\ wf l' /\ pl_keys l' = pl_keys l /\
    (forall K sc, In (K, sc) (peers_of l') ->
       (forall K0 s0, In (K0, s0) (peers_of l) -> s0 = f K0 \/ In K0 order) -> sc = f K).
Proof.
  induction order as [|K0 r IH]; intros l Hwf; cbn [pl_update_all].
  - exists l. split; [reflexivity|]. split; [exact Hwf|]. split; [reflexivity|].
    intros K sc H Hall. destruct (Hall K sc H) as [E|[]]. exact E.
  - destruct (pl_update_scores l K0 (f K0) Hwf) as (l1 & E1 & W1 & K1 & S1). rewrite E1.
    destruct (IH l1 W1) as (l2 & E2 & W2 & K2 & A2). exists l2. split; [exact E2|]. split; [exact W2|].
    split; [congruence|].
    intros K sc H Hall. apply (A2 K sc H). intros K' s' H'.
    destruct (S1 K' s' H') as [[-> Es]|[Hne Hold1]]; [left; exact Es|].
    destruct (Hall K' s' Hold1) as [Es|[Eq|Hin]]; [left; exact Es|congruence|right; exact Hin].
Qed.

Lemma iteration_order_all keys order K : In K keys -> In K (iteration_order keys order).
Proof.
  intros Hin. unfold iteration_order.
  set (listed := filter (fun k => mem k keys) (nodup_hp order)).
  apply in_or_app. destruct (mem K listed) eqn:Em.
  - left. now apply mem_In.
  - right. apply filter_In. split; [exact Hin|]. now rewrite Em.
Qed.

Lemma pl_set_strategy_scores l f order : wf l ->
  exists l', pl_set_strategy l f order = Some l' /\ wf l' /\ pl_keys l' = pl_keys l /\
    forall K sc, In (K, sc) (peers_of l') -> sc = f K.
Proof.
  intros Hwf. unfold pl_set_strategy.
  destruct (pl_update_all_scores f (iteration_order (pl_keys l) order) l Hwf) as (l' & E & W & Ke & A).
  exists l'. split; [exact E|]. split; [exact W|]. split; [exact Ke|].
  intros K sc H. apply (A K sc H). intros K0 s0 H0. right.
  apply iteration_order_all. eapply wf_key_entry; eassumption.
Qed.

(* ================================================================ 2. what a thread still owes *)

(* b re-scores K in list j (AResUpd) or is an updatePeer(K) that has not yet passed list j *)
Definition is_upd (j : nat) (K : hostport) (b : sbase) : bool :=
  match b with
  | BAct (AResUpd j' K') => Nat.eqb j' j && bytes_eqb K' K
  | BUpd j' K' => Nat.leb j' j && bytes_eqb K' K
  | _ => false
  end.
Definition owes_b (j : nat) (K : hostport) (bs : list sbase) : bool := existsb (is_upd j K) bs.
Definition owes_i (j : nat) (K : hostport) (i : sinstr) : bool :=
  match i with IB b => is_upd j K b | IIf _ body => owes_b j K body end.
Definition owes (j : nat) (K : hostport) (t : list sinstr) : bool := existsb (owes_i j K) t.
Definition owed (j : nat) (K : hostport) (ts : list (list sinstr)) : bool := existsb (owes j K) ts.

(* a whole Channel.updatePeer(K) is still ahead (possibly behind a root lookup of K itself) *)
Definition is_upd0 (K : hostport) (b : sbase) : bool :=
  match b with BUpd O K' => bytes_eqb K' K | _ => false end.
Definition upd0_b (K : hostport) (bs : list sbase) : bool := existsb (is_upd0 K) bs.
Definition guard_about (g : sguard) (K : hostport) : bool :=
  match g with GRoot K' => bytes_eqb K' K | _ => false end.
Definition upd0_i (K : hostport) (i : sinstr) : bool :=
  match i with IB b => is_upd0 K b | IIf g body => guard_about g K && upd0_b K body end.
Definition upd0 (K : hostport) (t : list sinstr) : bool := existsb (upd0_i K) t.

Definition conn_keys (ct : list sconn) (c : Z) : option (hostport * hostport) :=
  match find_conn ct c with Some x => Some (sc_ann x, sc_dial x) | None => None end.

(* the peers whose attributes an action changes *)
Definition touched (ck : Z -> option (hostport * hostport)) (a : sact) : list hostport :=
  match a with
  | AConnAdd _ K _ | AConnDrop _ K => [K]
  | APend c _ => match ck c with
                 | Some (ann, dial) => ann :: (if alias_of ann dial then [dial] else [])
                 | None => []
                 end
  | _ => []
  end.

(* a connection is only ever added to the peer of its announced or of its dialled host:port *)
Definition act_conn_ok (ck : Z -> option (hostport * hostport)) (a : sact) : bool :=
  match a with
  | AConnAdd c K _ => match ck c with
                      | Some (ann, dial) => bytes_eqb K ann || (alias_of ann dial && bytes_eqb K dial)
                      | None => false
                      end
  | APend c _ => match ck c with Some _ => true | None => false end
  | _ => true
  end.

(* skipping the body of a failed test loses no re-scoring that an existing entry could need *)
Definition guard_okb (g : sguard) (body : list sbase) : bool :=
  forallb (fun b => match b with
                    | BAct (AResUpd j K) =>
                        match g with
                        | GRoot K' => bytes_eqb K' K
                        | GMember j' K' => Nat.eqb j' j && bytes_eqb K' K
                        | GNotMember _ _ => false
                        end
                    | BUpd _ K => match g with GRoot K' => bytes_eqb K' K | _ => false end
                    | _ => true
                    end) body.

(* COVERED: every change of a peer's attributes is followed, in the same thread, by updatePeer of
   that peer *)
Fixpoint cov_b (ck : Z -> option (hostport * hostport)) (bs : list sbase) (after : hostport -> bool) : bool :=
  match bs with
  | [] => true
  | BAct a :: r => act_conn_ok ck a && forallb (fun K => upd0_b K r || after K) (touched ck a) && cov_b ck r after
  | BUpd _ _ :: r => cov_b ck r after
  end.
Fixpoint good (ck : Z -> option (hostport * hostport)) (t : list sinstr) : bool :=
  match t with
  | [] => true
  | IB (BAct a) :: r => act_conn_ok ck a && forallb (fun K => upd0 K r) (touched ck a) && good ck r
  | IB (BUpd _ _) :: r => good ck r
  | IIf g body :: r => cov_b ck body (fun K => upd0 K r) && guard_okb g body && good ck r
  end.

Lemma is_upd0_upd j K b : is_upd0 K b = true -> is_upd j K b = true.
Proof. destruct b as [a|[|j'] K']; cbn; try discriminate. intros ->. reflexivity. Qed.
Lemma upd0_b_owes j K bs : upd0_b K bs = true -> owes_b j K bs = true.
Proof.
  unfold upd0_b, owes_b. rewrite !existsb_exists. intros (b & Hb & E). exists b. split; [exact Hb|now apply is_upd0_upd].
Qed.
Lemma upd0_owes j K t : upd0 K t = true -> owes j K t = true.
Proof.
  unfold upd0, owes. rewrite !existsb_exists. intros (i & Hi & E). exists i. split; [exact Hi|].
  destruct i as [b|g body]; cbn in *; [now apply is_upd0_upd|].
  apply andb_true_iff in E as [_ E]. now apply upd0_b_owes.
Qed.

Lemma owes_app j K a b : owes j K (a ++ b) = owes j K a || owes j K b.
Proof. apply existsb_app. Qed.
Lemma owes_map_IB j K bs : owes j K (map IB bs) = owes_b j K bs.
Proof. unfold owes, owes_b. induction bs as [|b r IH]; cbn; [reflexivity|]. now rewrite IH. Qed.
Lemma upd0_app K a b : upd0 K (a ++ b) = upd0 K a || upd0 K b.
Proof. apply existsb_app. Qed.
Lemma upd0_map_IB K bs : upd0 K (map IB bs) = upd0_b K bs.
Proof. unfold upd0, upd0_b. induction bs as [|b r IH]; cbn; [reflexivity|]. now rewrite IH. Qed.

Lemma forallb_ext_in {A} (f g : A -> bool) l : (forall x, In x l -> f x = g x) -> forallb f l = forallb g l.
Proof. induction l as [|x r IH]; cbn; intros H; [reflexivity|]. rewrite H by (now left). rewrite IH; [reflexivity|]. intros y Hy. apply H. now right. Qed.

Lemma good_app_IB ck bs r : good ck (map IB bs ++ r) = cov_b ck bs (fun K => upd0 K r) && good ck r.
Proof.
  induction bs as [|b bs IH]; cbn [map app good cov_b]; [reflexivity|].
  destruct b as [a|j K]; [|exact IH].
  rewrite IH. rewrite (forallb_ext_in (fun K => upd0 K (map IB bs ++ r)) (fun K => upd0_b K bs || upd0 K r)).
  - now rewrite !andb_assoc.
  - intros K _. now rewrite upd0_app, upd0_map_IB.
Qed.

(* the connection table may grow and pending counts may change: obligations stay *)
Lemma touched_stable ck ck' a : (forall c, ck c <> None -> ck' c = ck c) -> act_conn_ok ck a = true ->
  touched ck' a = touched ck a /\ act_conn_ok ck' a = true.
Proof.
  intros H Hok. destruct a; cbn in *; try (split; reflexivity).
  - destruct (ck c) as [[ann dial]|] eqn:E; [|discriminate]. rewrite (H c) by congruence. rewrite E. now split.
  - destruct (ck c) as [[ann dial]|] eqn:E; [|discriminate]. rewrite (H c) by congruence. rewrite E. now split.
Qed.
Lemma cov_b_stable ck ck' after : (forall c, ck c <> None -> ck' c = ck c) ->
  forall bs, cov_b ck bs after = true -> cov_b ck' bs after = true.
Proof.
  intros H. induction bs as [|b r IH]; cbn [cov_b]; [auto|]. destruct b as [a|j K]; [|exact IH].
  intros E. apply andb_true_iff in E as [E E3]. apply andb_true_iff in E as [E1 E2].
  destruct (touched_stable ck ck' a H E1) as [-> ->]. rewrite E2, (IH E3). reflexivity.
Qed.
Lemma good_stable ck ck' : (forall c, ck c <> None -> ck' c = ck c) ->
  forall t, good ck t = true -> good ck' t = true.
Proof.
  intros H. induction t as [|i r IH]; cbn [good]; [auto|]. destruct i as [[a|j K]|g body].
  - intros E. apply andb_true_iff in E as [E E3]. apply andb_true_iff in E as [E1 E2].
    destruct (touched_stable ck ck' a H E1) as [-> ->]. rewrite E2, (IH E3). reflexivity.
  - exact IH.
  - intros E. apply andb_true_iff in E as [E E3]. apply andb_true_iff in E as [E1 E2].
    rewrite (cov_b_stable ck ck' _ H body E1), E2, (IH E3). reflexivity.
Qed.

Lemma set_thread_length ts i t : length (set_thread ts i t) = length ts.
Proof. revert i; induction ts as [|x r IH]; intros [|i]; cbn; auto. Qed.
Lemma set_thread_In ts i t x : In x (set_thread ts i t) -> x = t \/ In x ts.
Proof.
  revert i; induction ts as [|y r IH]; intros [|i]; cbn; try tauto.
  - intros [<-|H]; auto.
  - intros [<-|H]; auto. destruct (IH i H); auto.
Qed.
Lemma owed_set_thread j K ts i old new : nth_error ts i = Some old ->
  (owes j K old = true -> owes j K new = true) ->
  owed j K ts = true -> owed j K (set_thread ts i new) = true.
Proof.
  revert i; induction ts as [|y r IH]; intros [|i] Hn Himp; cbn in *; try discriminate.
  - inversion Hn; subst y. intros E. apply orb_true_iff in E as [E|E]; [rewrite (Himp E); reflexivity|].
    rewrite E. apply orb_true_r.
  - intros E. apply orb_true_iff in E as [E|E]; [rewrite E; reflexivity|].
    unfold owed in IH. rewrite (IH i Hn Himp E). apply orb_true_r.
Qed.
Lemma owed_after_act j K ts i a r : nth_error ts i = Some (IB (BAct a) :: r) ->
  is_upd j K (BAct a) = false -> owed j K ts = true -> owed j K (set_thread ts i r) = true.
Proof.
  intros Hn Hnu. apply (owed_set_thread j K ts i _ r Hn).
  cbn [owes existsb owes_i]. fold (owes j K r). now rewrite Hnu.
Qed.
Lemma Forall_set_thread (P : list sinstr -> Prop) ts i t : Forall P ts -> P t -> Forall P (set_thread ts i t).
Proof.
  intros H Ht. revert i; induction H as [|x r Hx Hr IH]; intros [|i]; cbn; constructor; auto.
Qed.

(* ================================================================ 3. what the calculators read: frames *)

Lemma attrs_same s s' K : ss_conns s' = ss_conns s -> ss_in s' = ss_in s -> ss_out s' = ss_out s ->
  s_attrs s' K = s_attrs s K.
Proof. intros E1 E2 E3. unfold s_attrs. now rewrite E1, E2, E3. Qed.

Lemma filter_holds_snoc K K0 c m : K <> K0 -> filter (holds K) (m ++ [(K0, c)]) = filter (holds K) m.
Proof.
  intros Hne. rewrite filter_app. cbn. unfold holds at 2. cbn. rewrite bytes_eqb_neq by congruence. apply app_nil_r.
Qed.
Lemma filter_holds_rm1 K K0 c m : K <> K0 -> filter (holds K) (rm1 K0 c m) = filter (holds K) m.
Proof.
  intros Hne. induction m as [|e r IH]; cbn; [reflexivity|].
  destruct (is_pair K0 c e) eqn:Ep.
  - unfold is_pair in Ep. apply andb_true_iff in Ep as [Ep _]. apply bytes_eqb_eq in Ep.
    unfold holds at 2. rewrite Ep, bytes_eqb_neq by congruence. reflexivity.
  - cbn. now rewrite IH.
Qed.

Lemma find_conn_map c d ct c' : find_conn (map (set_pend c d) ct) c' = option_map (set_pend c d) (find_conn ct c').
Proof.
  unfold find_conn. induction ct as [|x r IH]; cbn; [reflexivity|].
  assert (E : sc_id (set_pend c d x) = sc_id x) by (unfold set_pend; destruct (sc_id x =? c); reflexivity).
  rewrite E. destruct (sc_id x =? c'); [reflexivity|exact IH].
Qed.
Lemma conn_keys_map c d ct c' : conn_keys (map (set_pend c d) ct) c' = conn_keys ct c'.
Proof.
  unfold conn_keys. rewrite find_conn_map. destruct (find_conn ct c') as [x|]; cbn; [|reflexivity].
  unfold set_pend. destruct (sc_id x =? c); reflexivity.
Qed.
Lemma find_conn_id ct c x : find_conn ct c = Some x -> sc_id x = c /\ In x ct.
Proof. unfold find_conn. intros E. apply find_some in E as [Hin E]. apply Z.eqb_eq in E. auto. Qed.
Lemma conn_pend_map c d ct c' : c' <> c -> conn_pend (map (set_pend c d) ct) c' = conn_pend ct c'.
Proof.
  intros Hne. unfold conn_pend. rewrite find_conn_map. destruct (find_conn ct c') as [x|] eqn:E; cbn; [|reflexivity].
  destruct (find_conn_id _ _ _ E) as [Ei _]. unfold set_pend. rewrite Ei.
  destruct (c' =? c) eqn:Ec; [apply Z.eqb_eq in Ec; contradiction|reflexivity].
Qed.
Lemma find_conn_snoc ct x c : find_conn ct c <> None -> find_conn (ct ++ [x]) c = find_conn ct c.
Proof.
  unfold find_conn. induction ct as [|y r IH]; cbn; [congruence|].
  destruct (sc_id y =? c); [reflexivity|exact IH].
Qed.
Lemma find_conn_snoc_new ct x : find_conn ct (sc_id x) = None -> find_conn (ct ++ [x]) (sc_id x) = Some x.
Proof.
  unfold find_conn. induction ct as [|y r IH]; cbn; [now rewrite Z.eqb_refl|].
  destruct (sc_id y =? sc_id x); [discriminate|exact IH].
Qed.

(* ================================================================ 4. the invariant *)

Definition ck_of (s : sstate) : Z -> option (hostport * hostport) := conn_keys (ss_conns s).

(* the entry of K in list j is fresh, or a running operation still owes its re-scoring *)
Definition entry_ok (s : sstate) (j : nat) (cl : clist) (K : hostport) (sc : Z) : Prop :=
  sc = live_score s cl K \/ owed j K (ss_thr s) = true.

Record sinv (s : sstate) : Prop := {
  iv_wf : Forall (fun cl => wf (cl_pl cl)) (ss_lists s);
  iv_root : forall cl K, In cl (ss_lists s) -> In K (pl_keys (cl_pl cl)) -> In K (ss_root s);
  iv_ann : forall x, In x (ss_conns s) -> is_nil (sc_ann x) = false;
  iv_hold : forall K c, In (K, c) (ss_in s ++ ss_out s) ->
    exists ann dial, ck_of s c = Some (ann, dial) /\ (K = ann \/ (alias_of ann dial = true /\ K = dial));
  iv_entries : forall j cl K sc, nth_error (ss_lists s) j = Some cl -> In (K, sc) (peers_of (cl_pl cl)) ->
    entry_ok s j cl K sc;
  iv_thr : Forall (fun t => good (ck_of s) t = true) (ss_thr s) }.

Lemma sinv_init n : sinv (s_init n).
Proof.
  split; cbn.
  - apply (chan_init_wf n).
  - intros cl K Hcl HK. exfalso. destruct Hcl as [<-|Hcl]; [exact HK|]. apply repeat_spec in Hcl. subst cl. exact HK.
  - intros x [].
  - intros K c [].
  - intros j cl K sc Hn Hin. exfalso.
    assert (Hcl : In cl (mkCL pl_empty 0 :: repeat (mkCL pl_empty 1) n)) by (eapply nth_error_In; exact Hn).
    destruct Hcl as [<-|Hcl]; [exact Hin|]. apply repeat_spec in Hcl. subst cl. exact Hin.
  - constructor.
Qed.

Lemma nth_error_set_list ls j c j' :
  nth_error (set_list ls j c) j' =
    if Nat.eqb j' j then (if (j <? length ls)%nat then Some c else None) else nth_error ls j'.
Proof.
  revert j j'; induction ls as [|x r IH]; intros [|j] [|j']; cbn [set_list nth_error length Nat.eqb]; try reflexivity.
  - now destruct (Nat.eqb j' j).
  - rewrite IH. destruct (Nat.eqb j' j); [|reflexivity].
    destruct (Nat.ltb_spec j (length r)), (Nat.ltb_spec (S j) (S (length r))); try reflexivity; lia.
Qed.
Lemma set_list_length ls j c : length (set_list ls j c) = length ls.
Proof. revert j; induction ls as [|x r IH]; intros [|j]; cbn; auto. Qed.
Lemma In_set_list ls j c x : In x (set_list ls j c) -> x = c \/ In x ls.
Proof.
  revert j; induction ls as [|y r IH]; intros [|j]; cbn; try tauto.
  - intros [<-|H]; auto.
  - intros [<-|H]; auto. destruct (IH j H); auto.
Qed.

Lemma list_wf s j cl : sinv s -> nth_error (ss_lists s) j = Some cl -> wf (cl_pl cl).
Proof. intros I Hn. exact (nth_error_Forall _ _ _ _ (iv_wf s I) Hn). Qed.

Lemma entry_in_keys s j cl K sc : sinv s -> nth_error (ss_lists s) j = Some cl -> In (K, sc) (peers_of (cl_pl cl)) ->
  In K (pl_keys (cl_pl cl)).
Proof. intros I Hn. apply wf_key_entry. eapply list_wf; eassumption. Qed.

Lemma thread_step_inv s i old new : sinv s -> nth_error (ss_thr s) i = Some old ->
  good (ck_of s) new = true ->
  (forall j cl K sc, nth_error (ss_lists s) j = Some cl -> In (K, sc) (peers_of (cl_pl cl)) ->
     owes j K old = true -> owes j K new = true) ->
  sinv (with_thr s (set_thread (ss_thr s) i new)).
Proof.
  intros I Hn Hg Himp. destruct I as [W R A H E T]. split; cbn; try assumption.
  - intros j cl K sc Hj Hin. destruct (E j cl K sc Hj Hin) as [Ef|Eo]; [left; exact Ef|right].
    cbn. eapply owed_set_thread; [exact Hn| |exact Eo]. now apply (Himp j cl K sc).
  - now apply Forall_set_thread.
Qed.

Lemma thread_good s i t : sinv s -> nth_error (ss_thr s) i = Some t -> good (ck_of s) t = true.
Proof. intros I Hn. exact (nth_error_Forall _ _ _ _ (iv_thr s I) Hn). Qed.

Lemma owes_b_exists j K body : owes_b j K body = true -> exists b, In b body /\ is_upd j K b = true.
Proof. unfold owes_b. rewrite existsb_exists. auto. Qed.

Lemma guard_false_no_entry s g body j cl K sc : sinv s -> guard s g = false -> guard_okb g body = true ->
  nth_error (ss_lists s) j = Some cl -> In (K, sc) (peers_of (cl_pl cl)) -> owes_b j K body = false.
Proof.
  intros I Hg Hok Hn Hin. destruct (owes_b j K body) eqn:Eo; [exfalso|reflexivity].
  apply owes_b_exists in Eo as (b & Hb & Eb).
  unfold guard_okb in Hok. rewrite forallb_forall in Hok. specialize (Hok b Hb).
  pose proof (entry_in_keys s j cl K sc I Hn Hin) as Hkey.
  assert (Hroot : In K (ss_root s)) by (eapply (iv_root s I); [eapply nth_error_In; exact Hn|exact Hkey]).
  destruct b as [a|j' K'']; cbn in Eb.
  - destruct a; try discriminate. apply andb_true_iff in Eb as [Ej Ek].
    apply Nat.eqb_eq in Ej. apply bytes_eqb_eq in Ek. subst j0 K0.
    destruct g as [K'|j' K'|j' K']; cbn in Hg, Hok.
    + apply bytes_eqb_eq in Hok. subst K'. apply mem_false in Hg. contradiction.
    + apply andb_true_iff in Hok as [Ej Ek]. apply Nat.eqb_eq in Ej. apply bytes_eqb_eq in Ek. subst j' K'.
      rewrite Hn in Hg. apply mem_false in Hg. contradiction.
    + discriminate.
  - apply andb_true_iff in Eb as [_ Ek]. apply bytes_eqb_eq in Ek. subst K''.
    destruct g as [K'|j'' K'|j'' K']; cbn in Hg, Hok; try discriminate.
    apply bytes_eqb_eq in Hok. subst K'. apply mem_false in Hg. contradiction.
Qed.

Lemma step_if_inv s i g body r : sinv s -> nth_error (ss_thr s) i = Some (IIf g body :: r) ->
  sinv (with_thr s (set_thread (ss_thr s) i (if guard s g then map IB body ++ r else r))).
Proof.
  intros I Hn. pose proof (thread_good s i _ I Hn) as Hg. cbn [good] in Hg. apply andb_true_iff in Hg as [Hg G3]. apply andb_true_iff in Hg as [G1 G2].
  eapply thread_step_inv; [exact I|exact Hn| |].
  - destruct (guard s g); [|exact G3]. rewrite good_app_IB, G1, G3. reflexivity.
  - intros j cl K sc Hj Hin. cbn [owes existsb owes_i]. fold (owes j K r).
    destruct (guard s g) eqn:Eg.
    + rewrite owes_app, owes_map_IB. auto.
    + rewrite (guard_false_no_entry s g body j cl K sc I Eg G2 Hj Hin). cbn. auto.
Qed.

(* updatePeer at list j0 owes the lists from j0 on: list j0 itself, or the lists after it *)
Lemma leb_split a b : (a <=? b)%nat = (a =? b)%nat || (S a <=? b)%nat.
Proof. destruct (Nat.eqb_spec a b), (Nat.leb_spec a b), (Nat.leb_spec (S a) b); try reflexivity; lia. Qed.

Lemma step_upd_inv s i j0 K0 r : sinv s -> nth_error (ss_thr s) i = Some (IB (BUpd j0 K0) :: r) ->
  sinv (with_thr s (set_thread (ss_thr s) i
          (if (j0 <? length (ss_lists s))%nat
           then IIf (GMember j0 K0) [BAct (AResUpd j0 K0)] :: IB (BUpd (S j0) K0) :: r else r))).
Proof.
  intros I Hn. pose proof (thread_good s i _ I Hn) as Hg. cbn [good] in Hg.
  eapply thread_step_inv; [exact I|exact Hn| |].
  - destruct (j0 <? length (ss_lists s))%nat; [|exact Hg].
    cbn [good cov_b guard_okb forallb act_conn_ok touched]. rewrite Nat.eqb_refl, bytes_eqb_refl, Hg. reflexivity.
  - intros j cl K sc Hj Hin. cbn [owes existsb owes_i is_upd]. fold (owes j K r).
    assert (Hlt : (j < length (ss_lists s))%nat) by (apply nth_error_Some; congruence).
    destruct (Nat.ltb_spec j0 (length (ss_lists s))) as [Hl|Hl].
    + cbn [owes existsb owes_i owes_b is_upd]. fold (owes j K r). rewrite leb_split.
      destruct (j0 =? j)%nat, (S j0 <=? j)%nat, (bytes_eqb K0 K), (owes j K r); cbn; auto.
    + intros E. apply orb_true_iff in E as [E|E]; [|exact E].
      apply andb_true_iff in E as [E _]. apply Nat.leb_le in E. lia.
Qed.

(* an action that leaves the lists alone: peer-lock regions, exchange sets, the root list *)
Lemma act_frame_inv s i a r cs inn out root :
  sinv s -> nth_error (ss_thr s) i = Some (IB (BAct a) :: r) ->
  (forall j K, is_upd j K (BAct a) = false) ->
  (forall c, ck_of s c <> None -> conn_keys cs c = ck_of s c) ->
  (forall K, ~ In K (touched (ck_of s) a) ->
     s_attrs (mkSS cs inn out root (ss_lists s) (ss_thr s)) K = s_attrs s K) ->
  (forall cl K, In cl (ss_lists s) -> In K (pl_keys (cl_pl cl)) -> In K root) ->
  (forall x, In x cs -> is_nil (sc_ann x) = false) ->
  (forall K c, In (K, c) (inn ++ out) ->
     exists ann dial, conn_keys cs c = Some (ann, dial) /\ (K = ann \/ (alias_of ann dial = true /\ K = dial))) ->
  let s1 := mkSS cs inn out root (ss_lists s) (ss_thr s) in sinv (with_thr s1 (set_thread (ss_thr s1) i r)).
Proof.
  intros I Hn Hnu Hck Hat Hroot Hann Hhold. cbn [with_thr ss_conns ss_in ss_out ss_root ss_lists ss_thr].
  pose proof (thread_good s i _ I Hn) as Hg. cbn [good] in Hg.
  apply andb_true_iff in Hg as [Hg G3]. apply andb_true_iff in Hg as [G1 G2].
  rewrite forallb_forall in G2.
  split; cbn [ss_lists ss_root ss_conns ss_in ss_out ss_thr]; try assumption.
  - exact (iv_wf s I).
  - intros j cl K sc Hj Hin. unfold entry_ok. cbn [ss_thr].
    destruct (in_dec (list_eq_dec Z.eq_dec) K (touched (ck_of s) a)) as [Ht|Ht].
    + right. eapply owed_set_thread with (old := IB (BAct a) :: r); [exact Hn|intros _; apply upd0_owes, G2, Ht|].
      (* the thread itself owes it now; owed before is irrelevant: use the thread's own obligation *)
      unfold owed. apply existsb_exists. exists (IB (BAct a) :: r). split; [eapply nth_error_In; exact Hn|].
      cbn [owes existsb owes_i]. fold (owes j K r). rewrite (upd0_owes j K r (G2 K Ht)). apply orb_true_r.
    + destruct (iv_entries s I j cl K sc Hj Hin) as [Ef|Eo].
      * left. unfold live_score in *. rewrite Ef. f_equal. symmetry. apply (Hat K Ht).
      * right. exact (owed_after_act j K _ i a r Hn (Hnu j K) Eo).
  - apply Forall_set_thread.
    + exact (Forall_impl _ (good_stable (ck_of s) (conn_keys cs) Hck) (iv_thr s I)).
    + apply (good_stable (ck_of s) (conn_keys cs) Hck). exact G3.
Qed.

Lemma act_list_inv s i a r j0 cl cl' root :
  sinv s -> nth_error (ss_thr s) i = Some (IB (BAct a) :: r) ->
  nth_error (ss_lists s) j0 = Some cl ->
  wf (cl_pl cl') ->
  (forall K, In K (ss_root s) -> In K root) ->
  (forall K, In K (pl_keys (cl_pl cl')) -> In K root) ->
  (forall K sc, In (K, sc) (peers_of (cl_pl cl')) ->
     sc = calc (cl_strat cl') (s_attrs s K) \/
     (cl_strat cl' = cl_strat cl /\ In (K, sc) (peers_of (cl_pl cl)) /\ is_upd j0 K (BAct a) = false)) ->
  (forall j K, j <> j0 -> is_upd j K (BAct a) = false) ->
  sinv (mkSS (ss_conns s) (ss_in s) (ss_out s) root (set_list (ss_lists s) j0 cl') (set_thread (ss_thr s) i r)).
Proof.
  intros I Hn Hj0 Wf' Hr1 Hr2 Hent Hother.
  pose proof (thread_good s i _ I Hn) as Hg. cbn [good] in Hg.
  apply andb_true_iff in Hg as [_ G3].
  assert (Hlt : (j0 < length (ss_lists s))%nat) by (apply nth_error_Some; congruence).
  split; cbn [ss_lists ss_root ss_conns ss_in ss_out ss_thr].
  - apply set_list_Forall; [exact (iv_wf s I)|exact Wf'].
  - intros c K Hc HK. apply In_set_list in Hc as [->|Hc]; [now apply Hr2|].
    apply Hr1. eapply (iv_root s I); eassumption.
  - exact (iv_ann s I).
  - exact (iv_hold s I).
  - intros j c K sc Hj Hin. rewrite nth_error_set_list in Hj. unfold entry_ok. cbn [ss_thr].
    assert (Hat : forall c0, live_score (mkSS (ss_conns s) (ss_in s) (ss_out s) root (set_list (ss_lists s) j0 cl')
                                          (set_thread (ss_thr s) i r)) c0 K = live_score s c0 K) by reflexivity.
    rewrite Hat.
    destruct (Nat.eqb_spec j j0) as [->|Hne].
    + apply Nat.ltb_lt in Hlt. rewrite Hlt in Hj. inversion Hj; subst c.
      destruct (Hent K sc Hin) as [Ef|(Es & Hold & Hnu)]; [left; exact Ef|].
      destruct (iv_entries s I j0 cl K sc Hj0 Hold) as [Ef|Eo].
      * left. unfold live_score in *. now rewrite Es.
      * right. exact (owed_after_act j0 K _ i a r Hn Hnu Eo).
    + destruct (iv_entries s I j c K sc Hj Hin) as [Ef|Eo]; [left; exact Ef|right].
      exact (owed_after_act j K _ i a r Hn (Hother j K Hne) Eo).
  - apply Forall_set_thread; [exact (iv_thr s I)|exact G3].
Qed.

(* an action that turns out to change nothing (a list that does not exist, Add of a member) *)
Lemma act_noop_inv s i a r :
  sinv s -> nth_error (ss_thr s) i = Some (IB (BAct a) :: r) ->
  (forall j cl K sc, nth_error (ss_lists s) j = Some cl -> In (K, sc) (peers_of (cl_pl cl)) -> is_upd j K (BAct a) = false) ->
  sinv (with_thr s (set_thread (ss_thr s) i r)).
Proof.
  intros I Hn Hnu. pose proof (thread_good s i _ I Hn) as Hg. cbn [good] in Hg.
  apply andb_true_iff in Hg as [_ G3].
  eapply thread_step_inv; [exact I|exact Hn|exact G3|].
  intros j cl K sc Hj Hin. cbn [owes existsb owes_i]. fold (owes j K r). rewrite (Hnu j cl K sc Hj Hin). cbn. auto.
Qed.

(* an action on list j0 through [on_list] that adds no key and leaves the root list alone *)
Lemma on_list_inv s i a r j0 f : sinv s -> nth_error (ss_thr s) i = Some (IB (BAct a) :: r) ->
  (forall j K, j <> j0 -> is_upd j K (BAct a) = false) ->
  (forall cl, nth_error (ss_lists s) j0 = Some cl -> wf (cl_pl cl) ->
     exists cl', f cl = Some cl' /\ wf (cl_pl cl') /\
       (forall K, In K (pl_keys (cl_pl cl')) -> In K (pl_keys (cl_pl cl))) /\
       (forall K sc, In (K, sc) (peers_of (cl_pl cl')) ->
          sc = calc (cl_strat cl') (s_attrs s K) \/
          (cl_strat cl' = cl_strat cl /\ In (K, sc) (peers_of (cl_pl cl)) /\ is_upd j0 K (BAct a) = false))) ->
  exists s1, on_list s j0 f = Some s1 /\ sinv (with_thr s1 (set_thread (ss_thr s1) i r)).
Proof.
  intros I Hn Hother Hf. unfold on_list.
  destruct (nth_error (ss_lists s) j0) as [cl|] eqn:Ej0.
  - destruct (Hf cl eq_refl (list_wf s j0 cl I Ej0)) as (cl' & E & W & Hk & He). rewrite E.
    eexists. split; [reflexivity|].
    apply (act_list_inv s i a r j0 cl cl' (ss_root s) I Hn Ej0 W); auto.
    intros K HK. eapply (iv_root s I); [eapply nth_error_In; exact Ej0|now apply Hk].
  - eexists. split; [reflexivity|]. eapply act_noop_inv; [exact I|exact Hn|].
    intros j cl K sc Hj _. apply Hother. congruence.
Qed.

Lemma on_list_sub_inv s i a r j0 f :
  sinv s -> nth_error (ss_thr s) i = Some (IB (BAct a) :: r) ->
  (forall j K, is_upd j K (BAct a) = false) ->
  (forall cl, wf (cl_pl cl) -> exists l', f cl = Some (mkCL l' (cl_strat cl)) /\ wf l' /\
     (forall K, In K (pl_keys l') -> In K (pl_keys (cl_pl cl))) /\
     (forall e, In e (peers_of l') -> In e (peers_of (cl_pl cl)))) ->
  exists s1, on_list s j0 f = Some s1 /\ sinv (with_thr s1 (set_thread (ss_thr s1) i r)).
Proof.
  intros I Hn Hnu Hf. apply (on_list_inv s i a r j0 _ I Hn); [auto|].
  intros cl _ Wcl. destruct (Hf _ Wcl) as (l' & E & W & Hk & He).
  eexists. split; [exact E|]. split; [exact W|]. split; [exact Hk|].
  intros K sc Hin. right. auto.
Qed.

Lemma root_add_incl K0 r K : In K r -> In K (root_add K0 r).
Proof. unfold root_add. destruct (mem K0 r); [auto|]. intros H. apply in_or_app. now left. Qed.
Lemma root_add_in K0 r : In K0 (root_add K0 r).
Proof. unfold root_add. destruct (mem K0 r) eqn:E; [now apply mem_In|]. apply in_or_app. right. now left. Qed.
Lemma In_rm1 K c m e : In e (rm1 K c m) -> In e m.
Proof. induction m as [|x r IH]; cbn; [auto|]. destruct (is_pair K c x); [auto|]. intros [<-|H]; auto. Qed.

Lemma attrs_conn_add s K K0 c (inb : bool) root ls ts : K <> K0 ->
  s_attrs (mkSS (ss_conns s) (if inb then ss_in s ++ [(K0, c)] else ss_in s)
                (if inb then ss_out s else ss_out s ++ [(K0, c)]) root ls ts) K = s_attrs s K.
Proof.
  intros Hne. unfold s_attrs. cbn [ss_conns ss_in ss_out].
  assert (E1 : filter (holds K) [(K0, c)] = []).
  { cbn. unfold holds. cbn. rewrite bytes_eqb_neq by congruence. reflexivity. }
  destruct inb; rewrite !filter_app, E1, ?app_nil_r; reflexivity.
Qed.

Lemma attrs_conn_drop_in s K K0 c root ls ts : K <> K0 ->
  s_attrs (mkSS (ss_conns s) (rm1 K0 c (ss_in s)) (ss_out s) root ls ts) K = s_attrs s K.
Proof. intros Hne. unfold s_attrs. cbn [ss_conns ss_in ss_out]. rewrite !filter_app, !filter_holds_rm1 by exact Hne. reflexivity. Qed.
Lemma attrs_conn_drop_out s K K0 c root ls ts : K <> K0 ->
  s_attrs (mkSS (ss_conns s) (ss_in s) (rm1 K0 c (ss_out s)) root ls ts) K = s_attrs s K.
Proof. intros Hne. unfold s_attrs. cbn [ss_conns ss_in ss_out]. rewrite !filter_app, !filter_holds_rm1 by exact Hne. reflexivity. Qed.

Lemma attrs_pend s K c d root ls ts :
  (forall e, In e (ss_out s ++ ss_in s) -> holds K e = true -> snd e <> c) ->
  s_attrs (mkSS (map (set_pend c d) (ss_conns s)) (ss_in s) (ss_out s) root ls ts) K = s_attrs s K.
Proof.
  intros H. unfold s_attrs. cbn [ss_conns ss_in ss_out]. f_equal; f_equal.
  - apply map_ext_in. intros e He. apply filter_In in He as [He1 He2]. apply conn_pend_map. now apply H.
  - f_equal. apply map_ext_in. intros e He. apply filter_In in He as [He1 He2]. apply conn_pend_map. now apply H.
Qed.

Lemma step_act_inv s i a r : sinv s -> nth_error (ss_thr s) i = Some (IB (BAct a) :: r) ->
  exists s1, act s a = Some s1 /\ sinv (with_thr s1 (set_thread (ss_thr s1) i r)).
Proof.
  intros I Hn. pose proof (thread_good s i _ I Hn) as Hg. cbn [good] in Hg.
  apply andb_true_iff in Hg as [Hg _]. apply andb_true_iff in Hg as [Hok _].
  pose proof (iv_root s I) as Rt. pose proof (iv_ann s I) as An. pose proof (iv_hold s I) as Hd.
  destruct a as [c K0 inb|c K0|c d|j0 K0|j0 K0 d1 d2|j0 K0|j0 strat order|j0 prev d|j0 prev d|K0]; cbn [act].
  - (* AConnAdd *)
    eexists. split; [reflexivity|].
    apply (act_frame_inv s i (AConnAdd c K0 inb) r _ _ _ _ I Hn);
      try assumption; try reflexivity.
    + intros K Ht. apply attrs_conn_add. intros ->. apply Ht. now left.
    + intros cl K Hcl HK. apply root_add_incl. eapply Rt; eassumption.
    + intros K c' Hin.
      assert (Hold : In (K, c') (ss_in s ++ ss_out s) \/ (K0, c) = (K, c')).
      { rewrite in_app_iff. destruct inb; apply in_app_or in Hin as [Hin|Hin];
          try apply in_app_or in Hin as [Hin|[Hin|[]]]; auto. }
      destruct Hold as [Hold|E]; [exact (Hd K c' Hold)|].
      inversion E; subst K c'. cbn [act_conn_ok] in Hok. fold (ck_of s).
      destruct (ck_of s c) as [[ann dial]|]; [|discriminate]. exists ann, dial. split; [reflexivity|].
      apply orb_true_iff in Hok as [Hk|Hk]; [left; now apply bytes_eqb_eq|right].
      apply andb_true_iff in Hk as [Ha Hk]. split; [exact Ha|now apply bytes_eqb_eq].
  - (* AConnDrop *)
    destruct (existsb (is_pair K0 c) (ss_in s)); (eexists; split; [reflexivity|]).
    + apply (act_frame_inv s i (AConnDrop c K0) r _ _ _ _ I Hn);
        try assumption; try reflexivity.
      * intros K Ht. apply attrs_conn_drop_in. intros ->. apply Ht. now left.
      * intros K c' Hin. apply Hd. rewrite in_app_iff in *. destruct Hin as [Hin|Hin]; [left; eapply In_rm1; exact Hin|now right].
    + apply (act_frame_inv s i (AConnDrop c K0) r _ _ _ _ I Hn);
        try assumption; try reflexivity.
      * intros K Ht. apply attrs_conn_drop_out. intros ->. apply Ht. now left.
      * intros K c' Hin. apply Hd. rewrite in_app_iff in *. destruct Hin as [Hin|Hin]; [now left|right; eapply In_rm1; exact Hin].
  - (* APend *)
    eexists. split; [reflexivity|].
    apply (act_frame_inv s i (APend c d) r _ _ _ _ I Hn);
      try assumption; try reflexivity.
    + intros c0 _. apply conn_keys_map.
    + intros K Ht. apply attrs_pend. intros e He Hh Ec.
      destruct e as [K' c']. cbn in Ec, Hh. subst c'. unfold holds in Hh. cbn in Hh. apply bytes_eqb_eq in Hh. subst K'.
      assert (Hin : In (K, c) (ss_in s ++ ss_out s)) by (apply in_app_or in He; apply in_or_app; tauto).
      destruct (Hd K c Hin) as (ann & dial & Eck & Hk). apply Ht. cbn [touched]. rewrite Eck.
      destruct Hk as [->|[Ha ->]]; [now left|]. rewrite Ha. right. now left.
    + intros x Hx. apply in_map_iff in Hx as (x0 & <- & Hx0). pose proof (An x0 Hx0) as A0.
      unfold set_pend. destruct (sc_id x0 =? c); exact A0.
    + intros K c' Hin. destruct (Hd K c' Hin) as (ann & dial & Eck & Hk). exists ann, dial.
      split; [|exact Hk]. rewrite conn_keys_map. exact Eck.
  - (* AResUpd *)
    apply (on_list_inv s i (AResUpd j0 K0) r j0 _ I Hn).
    { intros j K Hne. cbn. destruct (Nat.eqb_spec j0 j); [congruence|reflexivity]. }
    intros cl _ Wcl. destruct (pl_update_scores (cl_pl cl) K0 (live_score s cl K0) Wcl) as (l' & E & W & Ke & S).
    rewrite E. eexists. split; [reflexivity|]. split; [exact W|]. split; [cbn; now rewrite Ke|].
    intros K sc Hin. cbn [cl_pl cl_strat] in *. destruct (S K sc Hin) as [[-> ->]|[Hne Hold]]; [left; reflexivity|right].
    split; [reflexivity|]. split; [exact Hold|]. cbn. rewrite Nat.eqb_refl. cbn. apply bytes_eqb_neq. congruence.
  - (* AAddLocked *)
    destruct (nth_error (ss_lists s) j0) as [cl|] eqn:Ej0.
    + destruct (mem K0 (pl_keys (cl_pl cl))) eqn:Em.
      * eexists. split; [reflexivity|]. eapply act_noop_inv; [exact I|exact Hn|]. intros; reflexivity.
      * apply mem_false in Em.
        destruct (pl_add_spec (cl_pl cl) K0 (live_score s cl K0) d1 d2 (list_wf s j0 cl I Ej0)) as (l' & n & E & W & _ & Hnew).
        destruct (Hnew Em) as (Ke & _ & _ & _ & P & _).
        rewrite E. eexists. split; [reflexivity|].
        apply (act_list_inv s i (AAddLocked j0 K0 d1 d2) r j0 cl (mkCL l' (cl_strat cl)) (root_add K0 (ss_root s)) I Hn Ej0 W).
        -- intros K HK. now apply root_add_incl.
        -- intros K HK. cbn in HK. rewrite Ke in HK. apply in_app_or in HK as [HK|[<-|[]]]; [|apply root_add_in].
           apply root_add_incl. eapply Rt; [eapply nth_error_In; exact Ej0|exact HK].
        -- intros K sc Hin. cbn [cl_pl cl_strat] in *. apply (Permutation_in _ P) in Hin as [Eq|Hold].
           ++ inversion Eq; subst. left. reflexivity.
           ++ right. auto.
        -- reflexivity.
    + eexists. split; [reflexivity|]. eapply act_noop_inv; [exact I|exact Hn|]. intros; reflexivity.
  - (* ARemove *)
    apply (on_list_sub_inv s i (ARemove j0 K0) r j0 _ I Hn); [reflexivity|]. cbv beta.
    intros cl Wl. destruct (pl_remove_spec (cl_pl cl) K0 Wl) as (l' & ok & E & W & Hf & Ht). rewrite E.
    exists l'. split; [reflexivity|]. split; [exact W|].
    destruct ok; [|destruct (Hf eq_refl) as [-> _]; auto].
    destruct (Ht eq_refl) as (_ & Ke & _ & _ & x & _ & P). split.
    + intros K HK. rewrite Ke in HK. now apply del_In in HK.
    + intros e He. eapply Permutation_in; [apply Permutation_sym, (ident_hs_perm _ (x :: pl_arr l')), P|]. now right.
  - (* ASetStrategy *)
    apply (on_list_inv s i (ASetStrategy j0 strat order) r j0 _ I Hn); [reflexivity|].
    intros cl _ Wcl.
    destruct (pl_set_strategy_scores (cl_pl cl) (fun hp => calc strat (s_attrs s hp)) order Wcl) as (l' & E & W & Ke & S).
    rewrite E. eexists. split; [reflexivity|]. split; [exact W|]. split; [cbn; now rewrite Ke|].
    intros K sc Hin. left. exact (S K sc Hin).
  - (* AGet *)
    apply (on_list_sub_inv s i (AGet j0 prev d) r j0 _ I Hn); [reflexivity|]. cbv beta.
    intros cl Wl. pose proof (get_min_eligible (cl_pl cl) prev d Wl) as G.
    destruct (pl_get (cl_pl cl) prev d) as [[[l' res] n]|]; [|contradiction].
    exists l'. split; [reflexivity|].
    destruct res as [p| |]; [destruct G as (_ & W & Ke & P)|destruct G as [_ ->]; auto|contradiction].
    split; [exact W|]. split; [now rewrite Ke|]. intros e. now apply Permutation_in.
  - (* AGetNew *)
    apply (on_list_sub_inv s i (AGetNew j0 prev d) r j0 _ I Hn); [reflexivity|]. cbv beta.
    intros cl Wl. destruct (pl_getnew_spec (cl_pl cl) prev d Wl) as (l' & res & n & E & W & Ke & _).
    pose proof (getnew_min_eligible (cl_pl cl) prev d Wl) as G. rewrite E in G |- *.
    exists l'. split; [reflexivity|]. split; [exact W|]. split; [now rewrite Ke|].
    destruct res as [p| |]; [destruct G as (_ & _ & P)|destruct G as [_ ->]; auto|destruct G as (_ & _ & _ & P)];
      intros e; now apply Permutation_in.
  - (* ACollect *)
    destruct (can_remove s K0) eqn:Ec; (eexists; split; [reflexivity|]).
    + apply (act_frame_inv s i (ACollect K0) r _ _ _ _ I Hn);
        try assumption; try reflexivity.
      intros cl K Hcl HK. apply del_In. split; [eapply Rt; eassumption|].
      intros ->. unfold can_remove in Ec. apply andb_true_iff in Ec as [_ Ec]. rewrite forallb_forall in Ec.
      specialize (Ec cl Hcl). apply negb_true_iff in Ec. apply mem_false in Ec. contradiction.
    + apply (act_frame_inv s i (ACollect K0) r _ _ _ _ I Hn);
        try assumption; reflexivity.
Qed.

Lemma sstep_inv s i : sinv s -> exists s', sstep s i = Some s' /\ sinv s'.
Proof.
  intros I. unfold sstep. destruct (nth_error (ss_thr s) i) as [[|[[a|j K]|g body] r]|] eqn:Hn.
  - eauto.
  - destruct (step_act_inv s i a r I Hn) as (s1 & E & I1). rewrite E. eauto.
  - pose proof (step_upd_inv s i j K r I Hn) as I1.
    destruct (j <? length (ss_lists s))%nat; eauto.
  - pose proof (step_if_inv s i g body r I Hn) as I1. eauto.
  - eauto.
Qed.

Lemma owed_app j K a b : owed j K (a ++ b) = owed j K a || owed j K b.
Proof. apply existsb_app. Qed.

Lemma add_thr_inv s t : sinv s -> good (ck_of s) t = true -> sinv (add_thr s t).
Proof.
  intros [W R A H E T] Hg. split; cbn; try assumption.
  - intros j cl K sc Hj Hin. destruct (E j cl K sc Hj Hin) as [Ef|Eo]; [left; exact Ef|right].
    unfold add_thr. cbn [with_thr ss_thr]. rewrite owed_app, Eo. reflexivity.
  - apply Forall_app. split; [exact T|]. constructor; [exact Hg|constructor].
Qed.

Lemma conn_keys_snoc ct x c : conn_keys ct c <> None -> conn_keys (ct ++ [x]) c = conn_keys ct c.
Proof.
  unfold conn_keys. intros Hne. rewrite find_conn_snoc; [reflexivity|].
  destruct (find_conn ct c); congruence.
Qed.

Lemma add_conn_inv s x : sinv s -> find_conn (ss_conns s) (sc_id x) = None -> is_nil (sc_ann x) = false ->
  sinv (add_conn s x) /\ ck_of (add_conn s x) (sc_id x) = Some (sc_ann x, sc_dial x).
Proof.
  intros I Hnew Hann. split.
  - assert (Hck : forall c, ck_of s c <> None -> conn_keys (ss_conns s ++ [x]) c = ck_of s c).
    { intros c Hc. now apply conn_keys_snoc. }
    assert (Hat : forall K, s_attrs (add_conn s x) K = s_attrs s K).
    { intros K. unfold s_attrs, add_conn. cbn [ss_conns ss_in ss_out].
      assert (Hp : forall e, In e (ss_out s ++ ss_in s) -> conn_pend (ss_conns s ++ [x]) (snd e) = conn_pend (ss_conns s) (snd e)).
      { intros [K' c'] He. cbn [snd]. unfold conn_pend. rewrite find_conn_snoc; [reflexivity|].
        assert (Hin : In (K', c') (ss_in s ++ ss_out s)) by (apply in_app_or in He as [He|He]; apply in_or_app; auto).
        destruct (iv_hold s I K' c' Hin) as (ann & dial & Eck & _). unfold ck_of, conn_keys in Eck.
        destruct (find_conn (ss_conns s) c'); congruence. }
      f_equal; f_equal.
      - apply map_ext_in. intros e He. apply filter_In in He as [He _]. now apply Hp.
      - f_equal. apply map_ext_in. intros e He. apply filter_In in He as [He _]. now apply Hp. }
    destruct I as [W R A H E T]. split; cbn [add_conn ss_conns ss_in ss_out ss_root ss_lists ss_thr]; try assumption.
    + intros y Hy. apply in_app_or in Hy as [Hy|[<-|[]]]; [now apply A|exact Hann].
    + intros K c Hin. destruct (H K c Hin) as (ann & dial & Eck & Hk). exists ann, dial. split; [|exact Hk].
      unfold ck_of. cbn [ss_conns]. rewrite Hck; [exact Eck|congruence].
    + intros j cl K sc Hj Hin. destruct (E j cl K sc Hj Hin) as [Ef|Eo]; [left|right; exact Eo].
      unfold live_score in *. rewrite Ef. f_equal. symmetry. apply Hat.
    + exact (Forall_impl _ (good_stable (ck_of s) _ Hck) T).
  - unfold ck_of, conn_keys, add_conn. cbn [ss_conns]. now rewrite find_conn_snoc_new.
Qed.

Lemma good_add_to_peer ck c K inb r :
  (match ck c with Some (ann, dial) => bytes_eqb K ann || (alias_of ann dial && bytes_eqb K dial) | None => false end) = true ->
  good ck r = true -> good ck (add_to_peer c K inb ++ r) = true.
Proof.
  intros H Hr. cbn [add_to_peer app good act_conn_ok touched forallb upd0 existsb upd0_i is_upd0].
  apply andb_true_iff. split; [|exact Hr]. apply andb_true_iff. split; [exact H|].
  rewrite bytes_eqb_refl. reflexivity.
Qed.

Lemma good_close_block ck c K r : good ck r = true -> good ck (close_block c K :: r) = true.
Proof.
  intros Hr. cbn [close_block good cov_b act_conn_ok touched forallb upd0_b existsb is_upd0 guard_okb].
  rewrite bytes_eqb_refl, Hr. reflexivity.
Qed.
Lemma good_exch_block ck K r : good ck r = true -> good ck (exch_block K :: r) = true.
Proof. intros Hr. cbn [exch_block good cov_b guard_okb forallb]. rewrite bytes_eqb_refl, Hr. reflexivity. Qed.
Lemma upd0_exch_block K r : upd0 K (exch_block K :: r) = true.
Proof. cbn. now rewrite bytes_eqb_refl. Qed.

Lemma good_prog_exch ck c ann dial d : ck c = Some (ann, dial) -> is_nil ann = false ->
  good ck (prog_exch c ann dial d) = true.
Proof.
  intros Hc Hn. unfold prog_exch, exch_updated, exch_block. rewrite Hn.
  destruct (alias_of ann dial) eqn:Ea;
    cbn [good cov_b guard_okb forallb act_conn_ok touched upd0 existsb upd0_i guard_about upd0_b is_upd0];
    rewrite Hc, Ea; cbn [forallb]; rewrite !bytes_eqb_refl; cbn; rewrite ?orb_true_r; reflexivity.
Qed.

Lemma spawn_conn_inv s c ann dial t : sinv s -> known_conn s c = false -> is_nil ann = false ->
  (forall ck, ck c = Some (ann, dial) -> good ck t = true) ->
  sinv (add_thr (add_conn s (mkSC c ann dial 0)) t).
Proof.
  intros I Ek Ea Ht.
  assert (Hnew : find_conn (ss_conns s) c = None) by (unfold known_conn in Ek; now destruct (find_conn (ss_conns s) c)).
  destruct (add_conn_inv s (mkSC c ann dial 0) I Hnew Ea) as [I1 Eck].
  apply add_thr_inv; [exact I1|]. apply Ht, Eck.
Qed.

Lemma spawn_inv s op : sinv s -> sinv (spawn s op).
Proof.
  intros I. destruct op as [c ann dial|c ann|c|c d|j K d1 d2|j K|j strat order|j prev d|j prev d|K]; cbn [spawn];
    try (apply add_thr_inv; [exact I|reflexivity]).
  - (* OConnect *)
    destruct (known_conn s c || is_nil ann || is_nil dial) eqn:Ek; [exact I|].
    apply orb_false_iff in Ek as [Ek Ed]. apply orb_false_iff in Ek as [Ek Ea].
    apply spawn_conn_inv; [exact I|exact Ek|exact Ea|]. intros ck Eck. unfold prog_connect.
    apply good_add_to_peer; [rewrite Eck, bytes_eqb_refl; reflexivity|].
    destruct (bytes_eqb dial ann) eqn:Eda; cbn [negb]; [reflexivity|].
    rewrite <- (app_nil_r (add_to_peer c dial false)). apply good_add_to_peer; [|reflexivity].
    rewrite Eck. unfold alias_of. rewrite Ed, Eda, bytes_eqb_refl. reflexivity.
  - (* OAccept *)
    destruct (known_conn s c || is_nil ann) eqn:Ek; [exact I|].
    apply orb_false_iff in Ek as [Ek Ea].
    apply spawn_conn_inv; [exact I|exact Ek|exact Ea|]. intros ck Eck. unfold prog_accept.
    rewrite <- (app_nil_r (add_to_peer c ann true)). apply good_add_to_peer; [|reflexivity].
    rewrite Eck, bytes_eqb_refl. reflexivity.
  - (* OClose *)
    destruct (find_conn (ss_conns s) c) as [x|] eqn:Ef; [|exact I].
    apply add_thr_inv; [exact I|]. unfold prog_close. apply good_close_block.
    destruct (alias_of (sc_ann x) (sc_dial x)); [apply good_close_block|]; reflexivity.
  - (* OExch *)
    destruct (find_conn (ss_conns s) c) as [x|] eqn:Ef; [|exact I].
    apply add_thr_inv; [exact I|].
    destruct (find_conn_id _ _ _ Ef) as [_ Hx].
    apply good_prog_exch; [unfold ck_of, conn_keys; now rewrite Ef|exact (iv_ann s I x Hx)].
  - (* OAdd *) destruct (is_nil K); [exact I|]. apply add_thr_inv; [exact I|reflexivity].
Qed.

Lemma sev_inv s e : sinv s -> exists s', sev s e = Some s' /\ sinv s'.
Proof.
  intros I. destruct e as [op|i]; cbn [sev].
  - eexists. split; [reflexivity|now apply spawn_inv].
  - now apply sstep_inv.
Qed.

Lemma srun_inv es : forall s, sinv s -> exists s', srun s es = Some s' /\ sinv s'.
Proof.
  induction es as [|e r IH]; intros s I; cbn [srun]; [eauto|].
  destruct (sev_inv s e I) as (s1 & E & I1). rewrite E. now apply IH.
Qed.

(* ================================================================ 5. the theorems *)

(* no schedule makes the model panic *)
Theorem srun_total n es : exists s, srun (s_init n) es = Some s.
Proof. destruct (srun_inv es (s_init n) (sinv_init n)) as (s & E & _). eauto. Qed.

Lemma reach_inv n es s : srun (s_init n) es = Some s -> sinv s.
Proof. intros E. destruct (srun_inv es (s_init n) (sinv_init n)) as (s' & E' & I). congruence. Qed.

(* at every moment: a stored score is the live one, or a running operation still has the
   re-scoring of exactly this entry ahead *)
Theorem score_fresh_or_owed n es s : srun (s_init n) es = Some s ->
  forall j cl x, nth_error (ss_lists s) j = Some cl -> In x (pl_arr (cl_pl cl)) ->
    ps_score x = live_score s cl (ps_hp x) \/
    exists t, In t (ss_thr s) /\ owes j (ps_hp x) t = true.
Proof.
  intros E j cl x Hj Hx.
  destruct (iv_entries s (reach_inv n es s E) j cl _ _ Hj (in_map hs _ x Hx)) as [Ef|Eo]; [left; exact Ef|right].
  now apply existsb_exists in Eo.
Qed.

Lemma quiescent_owed s j K : quiescent s = true -> owed j K (ss_thr s) = false.
Proof.
  unfold quiescent, owed. intros Q. rewrite forallb_forall in Q.
  destruct (existsb (owes j K) (ss_thr s)) eqn:E; [|reflexivity].
  apply existsb_exists in E as (t & Ht & Eo). specialize (Q t Ht). destruct t; [discriminate Eo|discriminate Q].
Qed.

Lemma inv_fresh s : sinv s -> quiescent s = true ->
  forall cl x, In cl (ss_lists s) -> In x (pl_arr (cl_pl cl)) -> ps_score x = live_score s cl (ps_hp x).
Proof.
  intros I Q cl x Hcl Hx. apply In_nth_error in Hcl as [j Hj].
  destruct (iv_entries s I j cl (ps_hp x) (ps_score x) Hj (in_map hs _ x Hx)) as [Ef|Eo]; [exact Ef|].
  rewrite (quiescent_owed s j (ps_hp x) Q) in Eo. discriminate.
Qed.

(* FRESHNESS: whenever no operation is running, every list holds for every member exactly the
   score its calculator gives the member's live state *)
Theorem score_fresh_quiescent n es s : srun (s_init n) es = Some s -> quiescent s = true ->
  forall cl x, In cl (ss_lists s) -> In x (pl_arr (cl_pl cl)) -> ps_score x = live_score s cl (ps_hp x).
Proof. intros E Q. exact (inv_fresh s (reach_inv n es s E) Q). Qed.

(* hence selection at a quiescent moment returns a peer whose LIVE score is minimal among the
   eligible members (Spec/PeerSelect.v), for every list of the channel *)
Theorem get_least_loaded_live n es s : srun (s_init n) es = Some s -> quiescent s = true ->
  forall cl prev d, In cl (ss_lists s) ->
    match pl_get (cl_pl cl) prev d with
    | Some (_, SelOk p, _) =>
        least_loaded (eligible_get prev (pl_keys (cl_pl cl)))
                     (map (fun x => (ps_hp x, live_score s cl (ps_hp x))) (pl_arr (cl_pl cl))) p
    | Some (_, SelNoPeers, _) => pl_keys (cl_pl cl) = []
    | _ => False
    end.
Proof.
  intros E Q cl prev d Hcl. pose proof (reach_inv n es s E) as I.
  assert (W : wf (cl_pl cl)) by (pose proof (iv_wf s I) as Wf; rewrite Forall_forall in Wf; now apply Wf).
  pose proof (get_min_eligible (cl_pl cl) prev d W) as G.
  destruct (pl_get (cl_pl cl) prev d) as [[[l' res] k]|]; [|exact G].
  destruct res as [p| |]; [|exact (proj1 G)|exact G].
  destruct G as (LL & _). unfold peers_of in LL.
  rewrite (map_ext_in hs (fun x => (ps_hp x, live_score s cl (ps_hp x)))) in LL; [exact LL|].
  intros x Hx. unfold hs. f_equal. exact (score_fresh_quiescent n es s E Q cl x Hcl Hx).
Qed.

(* ================================================================ 6. sequential histories (the harness entry point) *)

Fixpoint seq_run (s : sstate) (ops : list sop) : option sstate :=
  match ops with
  | [] => Some s
  | op :: r => match seq_op s op with Some s' => seq_run s' r | None => None end
  end.

Lemma srun_app a : forall s b, srun s (a ++ b) = match srun s a with Some s' => srun s' b | None => None end.
Proof. induction a as [|e r IH]; intros s b; cbn [app srun]; [reflexivity|]. destruct (sev s e); [apply IH|reflexivity]. Qed.

Lemma seq_run_srun ops : forall s s', seq_run s ops = Some s' -> exists es, srun s es = Some s'.
Proof.
  induction ops as [|op r IH]; intros s s' E; cbn [seq_run] in E.
  - exists []. exact E.
  - destruct (seq_op s op) as [s1|] eqn:E1; [|discriminate]. destruct (IH s1 s' E) as [es Es].
    exists (seq_events s op ++ es). rewrite srun_app. unfold seq_op in E1. now rewrite E1.
Qed.

(* what run_c15score prints after every operation is the specification: stored = live *)
Theorem seq_fresh n ops s : seq_run (s_init n) ops = Some s -> quiescent s = true ->
  forall cl x, In cl (ss_lists s) -> In x (pl_arr (cl_pl cl)) -> ps_score x = live_score s cl (ps_hp x).
Proof.
  intros E Q. destruct (seq_run_srun ops _ _ E) as [es Es]. exact (score_fresh_quiescent n es s Es Q).
Qed.

Theorem seq_total n ops : exists s, seq_run (s_init n) ops = Some s.
Proof.
  assert (H : forall ops s, sinv s -> exists s', seq_run s ops = Some s').
  { clear. induction ops as [|op r IH]; intros s I; cbn [seq_run]; [eauto|].
    destruct (srun_inv (seq_events s op) s I) as (s1 & E1 & I1). unfold seq_op. rewrite E1. now apply IH. }
  apply H, sinv_init.
Qed.

(* ================================================================ 7. the obligation is needed: uncovered programs go stale *)

(* run a thread with program p from state s to its end *)
Definition run_prog (s : sstate) (p : list sinstr) : option sstate :=
  srun (add_thr s p) (repeat (EStep (length (ss_thr s))) 40).

Definition stale_entries (s : sstate) : list (nat * hostport * Z * Z) :=
  flat_map (fun jc => let '(j, cl) := jc in
     flat_map (fun x => if ps_score x =? live_score s cl (ps_hp x) then []
                        else [(j, ps_hp x, ps_score x, live_score s cl (ps_hp x))]) (pl_arr (cl_pl cl)))
    (combine (seq 0 (length (ss_lists s))) (ss_lists s)).

(* peers "r" (announced) and "a" (the address dialled: a forwarder in front of r) *)
Definition hp_r : hostport := [114].
Definition hp_a : hostport := [97].

(* the alias peer is in the channel's list and connected through the forwarder *)
Definition alias_setup : list sop := [OAdd 0 hp_a 0 0; OAdd 0 hp_r 0 0; OConnect 1 hp_r hp_a].

(* connectionCloseStateChange with "drop from every peer, then re-score once" (only the announced peer) *)
Definition close_rescore_once : list sinstr :=
  [IIf (GRoot hp_r) [BAct (AConnDrop 1 hp_r)]; IIf (GRoot hp_a) [BAct (AConnDrop 1 hp_a)]; IIf (GRoot hp_r) [BUpd 0 hp_r]].

(* exchangeUpdated that re-scores the announced peer only *)
Definition exch_announced_only : list sinstr := [IB (BAct (APend 1 1)); IIf (GRoot hp_r) [BUpd 0 hp_r]].

Lemma uncovered_close_goes_stale :
  match seq_run (s_init 0) alias_setup with
  | Some s0 =>
      stale_entries s0 = [] /\ good (ck_of s0) close_rescore_once = false /\
      match run_prog s0 close_rescore_once with
      | Some s1 => quiescent s1 = true /\ stale_entries s1 = [(0%nat, hp_a, 2 ^ 31 - 1, 2 ^ 64 - 1)]
      | None => False
      end
  | None => False
  end.
Proof. vm_compute. repeat split; reflexivity. Qed.

Lemma uncovered_exch_goes_stale :
  match seq_run (s_init 0) alias_setup with
  | Some s0 =>
      good (ck_of s0) exch_announced_only = false /\
      match run_prog s0 exch_announced_only with
      | Some s1 => quiescent s1 = true /\ stale_entries s1 = [(0%nat, hp_a, 2 ^ 31 - 1, 2 ^ 31)]
      | None => False
      end
  | None => False
  end.
Proof. vm_compute. repeat split; reflexivity. Qed.

(* the covered programs of the model on the same history: nothing stale *)
Lemma covered_close_stays_fresh :
  match seq_run (s_init 0) (alias_setup ++ [OExch 1 1; OExch 1 1; OExch 1 (-1); OClose 1]) with
  | Some s =>
      quiescent s = true /\ stale_entries s = [] /\
      map (fun x => (ps_hp x, ps_score x)) (flat_map (fun cl => pl_arr (cl_pl cl)) (ss_lists s)) =
        [(hp_r, 2 ^ 64 - 1); (hp_a, 2 ^ 64 - 1)]
  | None => False
  end.
Proof. vm_compute. repeat split; reflexivity. Qed.

(* ================================================================ 8. the family: ANY covered program *)

(* besides the operations of the model, any thread program may be started, provided it is
   COVERED ([good]): every change of a peer's connections / pending calls is followed, in the same
   thread, by Channel.updatePeer of that very peer (possibly behind a root-list lookup of the same
   host:port), connections are only added to the peers of their announced / dialled host:port, and
   a failed test skips re-scorings of its own subject only.  An uncovered program is not started. *)
Inductive gevent :=
| GEv (e : sevent)
| GProg (p : list sinstr).

Definition gev (s : sstate) (g : gevent) : option sstate :=
  match g with
  | GEv e => sev s e
  | GProg p => Some (if good (ck_of s) p then add_thr s p else s)
  end.

Fixpoint grun (s : sstate) (gs : list gevent) : option sstate :=
  match gs with
  | [] => Some s
  | g :: r => match gev s g with Some s' => grun s' r | None => None end
  end.

Lemma grun_inv gs : forall s, sinv s -> exists s', grun s gs = Some s' /\ sinv s'.
Proof.
  induction gs as [|g r IH]; intros s I; cbn [grun]; [eauto|].
  destruct g as [e|p]; cbn [gev].
  - destruct (sev_inv s e I) as (s1 & E & I1). rewrite E. now apply IH.
  - apply IH. destruct (good (ck_of s) p) eqn:Eg; [now apply add_thr_inv|exact I].
Qed.

Theorem covered_programs_fresh n gs s : grun (s_init n) gs = Some s -> quiescent s = true ->
  forall cl x, In cl (ss_lists s) -> In x (pl_arr (cl_pl cl)) -> ps_score x = live_score s cl (ps_hp x).
Proof.
  intros E Q. destruct (grun_inv gs (s_init n) (sinv_init n)) as (s' & E' & I).
  rewrite E in E'. injection E' as <-. exact (inv_fresh s I Q).
Qed.

Theorem covered_programs_total n gs : exists s, grun (s_init n) gs = Some s.
Proof. destruct (grun_inv gs (s_init n) (sinv_init n)) as (s & E & _). eauto. Qed.
