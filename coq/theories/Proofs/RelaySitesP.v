(* C09: the relay site tables go2v regenerates from relay.go on every run (Gen/GenRelaySites.v)
   are the model's (Model/RelaySites.v), and the model's lookup / decrement instructions behave as
   the rows say.  An edit of a stopTimeout argument, a new Get or Stop site, a decrement of
   Relayer.pending outside decrementPending, or a change of decrementPending's body changes a
   generated table and breaks a proof of this file. *)
From Coq Require Import ZArith List Bool Lia String.
From Verif Require Import Base.Wrap Gen.GenConsts Gen.GenFrame Gen.GenRelaySites Model.RelayItems Model.RelaySites
  Proofs.RelayAssocP.
Import ListNotations.
Local Open Scope Z_scope.

Lemma gen_get_sites : relay_get_sites = rs_get_rows.
Proof. vm_compute. reflexivity. Qed.
Lemma gen_stop_sites : relay_stop_sites = rs_stop_rows.
Proof. vm_compute. reflexivity. Qed.
Lemma gen_pending_sites : relay_pending_sites = rs_pending_rows.
Proof. vm_compute. reflexivity. Qed.
Lemma gen_decbody : relay_decpending_body = rs_decbody_rows.
Proof. vm_compute. reflexivity. Qed.
Lemma gen_deccalls : relay_decpending_calls = rs_deccall_rows.
Proof. vm_compute. reflexivity. Qed.
Lemma gen_checkex : relay_checkex_sites = rs_checkex_rows.
Proof. vm_compute. reflexivity. Qed.

Lemma gen_get_body : relay_get_body = rs_getbody_rows.
Proof. vm_compute. reflexivity. Qed.
Lemma gen_deletetomb_body : relay_deletetomb_body = rs_tombbody_rows.
Proof. vm_compute. reflexivity. Qed.
Lemma gen_gc_sites : relay_gc_sites = rs_gc_rows.
Proof. vm_compute. reflexivity. Qed.

Lemma gen_deletecall_body : relay_deletecall_body = rs_dcbody_rows.
Proof. vm_compute. reflexivity. Qed.
Lemma gen_finish_sites : relay_finish_sites = rs_finish_rows.
Proof. vm_compute. reflexivity. Qed.
Lemma gen_delete_sites : relay_delete_sites = rs_delete_rows.
Proof. vm_compute. reflexivity. Qed.

(* the model's relayItems.deleteCall, case by case as its rows read *)
Lemma items_delete_call_rows : forall (st : state) (t : key) (lk : Z * Z),
  match lookup key_eqb t (items st) with
  | None => items_delete_call st t lk = (st, None)
  | Some it =>
      if (it_dest it =? fst lk) && (it_remap it =? snd lk)
      then items_delete_call st t lk =
             (timer_release (set_items st (remove key_eqb t (items st))) (it_tm it), Some (it, negb (it_tomb it)))
      else items_delete_call st t lk = (st, None)
  end.
Proof.
  intros st t lk. unfold items_delete_call, items_delete. destruct (lookup key_eqb t (items st)) as [it|] eqn:E; [|reflexivity].
  destruct ((it_dest it =? fst lk) && (it_remap it =? snd lk)); reflexivity.
Qed.

(* where the model's finishes get the looked-up identity from: Receive's from the item IRcvChk
   holds, handleNonCallReq's from the caller's own item (the frame went to its destination relayer
   under its destination-side id) *)
Lemma finish_identity_model : forall cf st room,
  (forall r rk it s, it_tomb it || (fin_of (r_f r) && negb s) = false ->
     exists cbs, snd (exec cf st (IRcvChk r rk (Some (it, s))) room) = cbs ++ [IRcvEnq r rk (it_dest it, it_remap it)]) /\
  (forall r rk lk, fin_of (r_f r) = true ->
     snd (exec cf st (IRcvEnq r rk lk) true) = IDelete rk lk :: after_sent r) /\
  (forall r, fin_of (r_f r) = true -> exists tl, after_sent r = IDelete (r_own r) (r_d r, f_id (r_f r)) :: tl) /\
  (forall k f ft own it s, it_tomb it || (fin_of f && negb s) = false ->
     exists cbs r, snd (exec cf st (INcChk k f ft own (Some (it, s))) room) = cbs ++ [IRcvGet r] /\
       r_own r = own /\ (r_d r, f_id (r_f r)) = (it_dest it, it_remap it)).
Proof.
  intros cf st room. split; [|split; [|split]].
  - intros r rk it s H. cbn [exec]. rewrite H. cbn [snd]. eexists. reflexivity.
  - intros r rk lk H. cbn [exec snd]. rewrite H. reflexivity.
  - intros r H. unfold after_sent. rewrite H. eexists. reflexivity.
  - intros k f ft own it s H. cbn [exec]. rewrite H. cbn [snd].
    eexists (_ ++ [_]). eexists. split; [rewrite <- app_assoc; reflexivity|]. split; reflexivity.
Qed.

(* the model's relayItems.Get and relayItems.deleteTomb, case by case as the rows read *)
Lemma items_get_cases : forall (st : state) (t : key) (stop : bool),
  match lookup key_eqb t (items st) with
  | None => items_get st t stop = (st, None)
  | Some it =>
      if stop then items_get st t stop = (fst (timer_stop st (it_tm it)), Some (it, snd (timer_stop st (it_tm it))))
      else items_get st t stop = (st, Some (it, false))
  end.
Proof.
  intros st t stop. unfold items_get. destruct (lookup key_eqb t (items st)) as [it|]; [|reflexivity].
  destruct stop; [|reflexivity]. destruct (timer_stop st (it_tm it)). reflexivity.
Qed.

Lemma items_delete_tomb_cases : forall st t,
  match lookup key_eqb t (items st) with
  | None => items_delete_tomb st t = st
  | Some it =>
      if it_tomb it then items_delete_tomb st t = timer_release (set_items st (remove key_eqb t (items st))) (it_tm it)
      else items_delete_tomb st t = st
  end.
Proof.
  intros st t. unfold items_delete_tomb. destruct (lookup key_eqb t (items st)) as [it|]; [|reflexivity].
  destruct (it_tomb it); reflexivity.
Qed.

Definition fn_getDestination := rs_s2z "Relayer.getDestination".
Definition fn_handleNonCallReq := rs_s2z "Relayer.handleNonCallReq".
Definition fn_Receive := rs_s2z "Relayer.Receive".
Definition fn_failRelayItem := rs_s2z "Relayer.failRelayItem".
Definition fn_decrementPending := rs_s2z "Relayer.decrementPending".

Lemma get_sites_flags : forall fin,
  site_stop relay_get_sites fn_getDestination fin = Some false /\
  site_stop relay_get_sites fn_handleNonCallReq fin = Some fin /\
  site_stop relay_get_sites fn_Receive fin = Some fin /\
  site_stop relay_get_sites fn_failRelayItem fin = Some true.
Proof. intro fin. rewrite gen_get_sites. destruct fin; vm_compute; repeat split; reflexivity. Qed.

(* getDestination's continuation as a function of what its Get returned *)
Definition getdest_via (k : Z) (f : frame) (e : env) (c : Z) (r : state * option (item * bool)) : state * list instr :=
  let '(st', g) := r in
  match g with
  | Some _ => (st', [ICb c (CbFailed reason_duplicate); IDec k; ICb c CbEnd])
  | None =>
      if e_dest e =? -1 then
        (st', [ICb c (CbFailed reason_bad_host); ISendErr k (f_id f) c_ErrCodeDeclined; IDec k; ICb c CbEnd])
      else if e_dest e <? 0 then
        (st', [ICb c (CbFailed reason_conn_failed); ISendErr k (f_id f) c_ErrCodeNetwork; IDec k; ICb c CbEnd])
      else (st', [IRemoteCan k f e c (e_dest e)])
  end.

(* the four lookup instructions of the model call items_get with the flag of their row *)
Theorem get_sites_tie : forall cf st room,
  (forall k f e c b, site_stop relay_get_sites fn_getDestination (fin_of f) = Some b ->
     exec cf st (IGetDest k f e c) room = getdest_via k f e c (items_get st (k, 0, f_id f) b)) /\
  (forall k f ft b, site_stop relay_get_sites fn_handleNonCallReq (fin_of f) = Some b ->
     frameTypeFor (f_mt f) = Some ft ->
     exec cf st (INcGet k f) room =
       (let own := (k, (if ft =? c_responseFrame then 1 else 0), f_id f) in
        let '(st', g) := items_get st own b in (st', [INcChk k f ft own g]))) /\
  (forall r b, site_stop relay_get_sites fn_Receive (fin_of (r_f r)) = Some b ->
     exec cf st (IRcvGet r) room =
       (let rk := (r_d r, (if r_ft r =? c_requestFrame then 1 else 0), f_id (r_f r)) in
        let '(st', g) := items_get st rk b in (st', [IRcvChk r rk g]))) /\
  (forall t reason b fin, site_stop relay_get_sites fn_failRelayItem fin = Some b ->
     exec cf st (IFailGet t reason) room =
       (let '(st', g) := items_get st t b in
        match g with Some (_, true) => (st', [IEntomb t (FromFail reason)]) | _ => (st', []) end)).
Proof.
  intros cf st room. split; [|split; [|split]].
  - intros k f e c b Hb. destruct (get_sites_flags (fin_of f)) as (H1&_). rewrite H1 in Hb. inversion Hb. subst b.
    cbn [exec]. unfold items_get, getdest_via. destruct (lookup key_eqb (k, 0, f_id f) (items st)); reflexivity.
  - intros k f ft b Hb Hft. destruct (get_sites_flags (fin_of f)) as (_&H2&_). rewrite H2 in Hb. inversion Hb. subst b.
    cbn [exec]. rewrite Hft. reflexivity.
  - intros r b Hb. destruct (get_sites_flags (fin_of (r_f r))) as (_&_&H3&_). rewrite H3 in Hb. inversion Hb. subst b.
    reflexivity.
  - intros t reason b fin Hb. destruct (get_sites_flags fin) as (_&_&_&H4). rewrite H4 in Hb. inversion Hb. subst b.
    reflexivity.
Qed.

(* THE DUPLICATE CHECK: a call req whose id has an item -- live or tombstone -- is rejected and
   the step changes NOTHING: not the item, not its timer (armed stays armed, so the timeout of
   the call in flight under that id still fires), not the counters *)
Theorem duplicate_touches_nothing : forall cf st k f e c room it,
  lookup key_eqb (k, 0, f_id f) (items st) = Some it ->
  exec cf st (IGetDest k f e c) room = (st, [ICb c (CbFailed reason_duplicate); IDec k; ICb c CbEnd]).
Proof. intros cf st k f e c room it H. cbn [exec]. rewrite H. reflexivity. Qed.

(* relayTimer.Stop is called from relayItems.Get only: the flag of a row is the only way a
   frame path stops a timer.  In the model: a lookup with flag false leaves the state alone. *)
Lemma items_get_false : forall st t, fst (items_get st t false) = st.
Proof. intros st t. unfold items_get. destruct (lookup key_eqb t (items st)); reflexivity. Qed.

Lemma pending_discipline_gen : pending_discipline relay_pending_sites = true.
Proof. vm_compute. reflexivity. Qed.

Lemma decbody_gen : decbody_ok relay_decpending_body = true.
Proof. vm_compute. reflexivity. Qed.

(* the consequence spelled out: every row that decrements (or otherwise writes) the counter is
   in decrementPending, whose body is exactly the decrement followed by the close check *)
Theorem every_decrement_checks : forall fn op grd,
  In (fn, op, grd) relay_pending_sites -> pending_mutates op = true ->
  fn = rs_s2z "Relayer.decrementPending" /\
  relay_decpending_body = [rs_s2z "r.pending.Dec()"; rs_s2z "r.conn.checkExchanges()"].
Proof.
  intros fn op grd Hin Hm. split; [|exact gen_decbody].
  pose proof pending_discipline_gen as H. unfold pending_discipline in H. rewrite forallb_forall in H.
  specialize (H _ Hin). cbn [fst snd] in H. rewrite Hm in H. apply andb_true_iff in H. destruct H as [H _].
  apply bytes_eqb_eq. exact H.
Qed.

(* the model's decrementPending: the decrement, then the close check by the same goroutine *)
Theorem dec_then_check : forall cf st k room,
  exec cf st (IDec k) room =
    (put_conn st k {| c_state := c_state (get_conn st k); c_pending := wrapU 32 (c_pending (get_conn st k) - 1);
                      c_nextid := c_nextid (get_conn st k) |}, [ICheck k]).
Proof. reflexivity. Qed.

(* the model's callers of decrementPending = the four rows of relay_decpending_calls:
   handleCallReq's rejection branch (every rejection of getDestination and of the remote
   admission), timeoutRelayItem / failRelayItem (a completed Entomb), finishRelayItem (a completed
   Delete).  Each pushes exactly one IDec of the connection, after the call.Failed report. *)
Fixpoint count_dec (k : Z) (code : list instr) : Z :=
  match code with
  | [] => 0
  | IDec k' :: r => (if k' =? k then 1 else 0) + count_dec k r
  | _ :: r => count_dec k r
  end.

Theorem dec_sites_model : forall cf st room,
  (forall k f e c, snd (exec cf st (IGetDest k f e c) room) = [IRemoteCan k f e c (e_dest e)] \/
                   count_dec k (snd (exec cf st (IGetDest k f e c) room)) = 1) /\
  (forall k f e c d, snd (exec cf st (IRemoteCan k f e c d) room) = [IAddDest k f e c d] \/
                     count_dec k (snd (exec cf st (IRemoteCan k f e c d) room)) = 1) /\
  (forall t s, match snd (items_entomb cf st t) with
               | Some (_, true) => count_dec (key_conn t) (snd (exec cf st (IEntomb t s) room)) = 1
               | _ => snd (exec cf st (IEntomb t s) room) = []
               end) /\
  (forall t lk, match snd (items_delete_call st t lk) with
             | Some (_, true) => count_dec (key_conn t) (snd (exec cf st (IDelete t lk) room)) = 1
             | _ => snd (exec cf st (IDelete t lk) room) = []
             end).
Proof.
  intros cf st room. split; [|split; [|split]].
  - intros k f e c. cbn [exec]. destruct (lookup key_eqb (k, 0, f_id f) (items st)); [right; cbn; rewrite Z.eqb_refl; reflexivity|].
    destruct (e_dest e =? -1); [right; cbn; rewrite Z.eqb_refl; reflexivity|].
    destruct (e_dest e <? 0); [right; cbn; rewrite Z.eqb_refl; reflexivity|left; reflexivity].
  - intros k f e c d. cbn [exec]. destruct (c_state (get_conn st d) =? c_connectionActive); [left; reflexivity|].
    right. cbn. rewrite Z.eqb_refl. reflexivity.
  - intros t s. cbn [exec]. destruct (items_entomb cf st t) as [st' g]. cbn [snd].
    destruct g as [[it [|]]|]; try reflexivity. cbn [snd].
    destruct (match s with FromFail _ => it_orig it | FromTimeout o => o end); [|cbn; rewrite Z.eqb_refl; reflexivity].
    unfold orig_tail. destruct s as [reason|o]; [destruct (reason =? reason_source_slow)|]; cbn; rewrite Z.eqb_refl; reflexivity.
  - intros t lk. cbn [exec]. destruct (items_delete_call st t lk) as [st' g]. cbn [snd].
    destruct g as [[it [|]]|]; try reflexivity. cbn [snd].
    destruct (it_orig it); cbn; rewrite Z.eqb_refl; reflexivity.
Qed.
