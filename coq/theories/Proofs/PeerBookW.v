(* Kernel-checked counterexamples:
   - the unrepaired window (known finding c16:peer-collected-during-add): runs of the model of
     the code AS IT IS that reach a quiescent state violating the property;
   - the repaired check-then-append race of Peer.addConnection: a run of the pre-repair step
     function (recheck = false) reaching a quiescent state with a closed connection listed. *)
From Coq Require Import ZArith List Bool Lia.
From Verif Require Import Base.Wrap Gen.GenConsts Model.PeerBook Spec.PeerBookSpec Proofs.PeerBookL Proofs.PeerBookP Proofs.PeerBookS.
Import ListNotations.
Local Open Scope Z_scope.

Definition is_some (p : option pc) : bool := match p with Some _ => true | None => false end.

Lemma quiescent_check s :
  inv_fresh s -> any_thread is_some (s_thr s) (Z.to_nat (s_next s)) = false -> quiescent s.
Proof.
  intros (Hpos & Hthr & _) H t.
  destruct (s_thr s t) as [p|] eqn:E; [|reflexivity]. exfalso.
  assert (Hb : 0 <= t < s_next s) by (apply Hthr; congruence).
  pose proof (any_thread_false _ _ _ H t) as Hn. rewrite E in Hn.
  assert (0 <= t < Z.of_nat (Z.to_nat (s_next s))) by lia. specialize (Hn H0). discriminate Hn.
Qed.

Definition final (recheck : bool) (ls : list label) : st :=
  match run_gen recheck init ls with Some s => s | None => init end.

Definition ran (recheck : bool) (ls : list label) : bool :=
  match run_gen recheck init ls with Some _ => true | None => false end.

Lemma final_run recheck ls : ran recheck ls = true -> run_gen recheck init ls = Some (final recheck ls).
Proof. unfold ran, final. destruct (run_gen recheck init ls); [reflexivity|discriminate]. Qed.

Lemma final_safe ls : run_safe init ls <> None -> run_safe init ls = Some (final true ls).
Proof.
  intros H. destruct (run_safe init ls) as [s|] eqn:E; [|now contradiction H].
  unfold final. now rewrite (run_safe_is_run _ _ _ E).
Qed.

Definition steps (t : Z) (n : nat) : list label := repeat (LStep t) n.

(* ---- W1: the peer is collected while a second connection is being added to it ---- *)
Definition w1 : list label :=
  [LNew c_outbound 11 11] ++ steps 2 5 ++            (* connection 1 to host:port 11, listed under peer 3 *)
  [LNew c_outbound 11 11] ++ steps 5 3 ++            (* connection 4: GetOrAdd returned peer 3; parked before the append *)
  [LChange 1 c_connectionClosed] ++ steps 6 7 ++     (* connection 1 closes: removed, peer 3 judged removable, deleted *)
  steps 5 2.                                          (* connection 4 is appended to the orphan peer 3 *)

Theorem w1_refutes :
  exists ls s, run init ls = Some s /\ quiescent s /\ ~ all_listed s.
Proof.
  exists w1, (final true w1).
  assert (Hrun : run init w1 = Some (final true w1)) by (apply final_run; vm_compute; reflexivity).
  split; [exact Hrun|]. split.
  - apply quiescent_check; [apply (inv0_reach _ _ Hrun)|vm_compute; reflexivity].
  - intros H. destruct (H 4) as [Hr _]; [vm_compute; reflexivity|]. apply Hr. vm_compute. reflexivity.
Qed.

(* ---- W2: the peer is collected between RootPeerList.Add and addSC in PeerList.Add ---- *)
Definition w2 : list label :=
  [LNew c_outbound 11 11] ++ steps 2 5 ++            (* connection 1, peer 3 *)
  [LListAdd 0 11] ++                                  (* PeerList.Add(11): parent.Add returned peer 3 (goroutine 4) *)
  [LChange 1 c_connectionClosed] ++ steps 5 7 ++     (* connection 1 closes, peer 3 is deleted from the root list *)
  steps 4 1.                                          (* addSC on the orphan; the list now references it *)

Theorem w2_refutes :
  exists ls s, run init ls = Some s /\ quiescent s /\ ~ refs_rooted s.
Proof.
  exists w2, (final true w2).
  assert (Hrun : run init w2 = Some (final true w2)) by (apply final_run; vm_compute; reflexivity).
  split; [exact Hrun|]. split.
  - apply quiescent_check; [apply (inv0_reach _ _ Hrun)|vm_compute; reflexivity].
  - intros H. specialize (H 0 11 3). assert (Hin : In (0, 11, 3) (s_lists (final true w2))) by (vm_compute; now left).
    specialize (H Hin). vm_compute in H. discriminate H.
Qed.

(* both are excluded by run_safe *)
Lemma w1_unsafe : run_safe init w1 = None. Proof. vm_compute. reflexivity. Qed.
Lemma w2_unsafe : run_safe init w2 = None. Proof. vm_compute. reflexivity. Qed.

(* ---- W3: the code before the repair (no re-check under the peer lock) ---- *)
Definition w3 : list label :=
  [LNew c_inbound 12 0] ++ steps 2 3 ++              (* inbound connection 1: state check passed, parked before the append *)
  [LChange 1 c_connectionClosed] ++ steps 4 4 ++     (* Channel.Close / idle sweep drive it to Closed; callbacks find nothing *)
  steps 2 2.                                          (* the append *)

Theorem w3_unrepaired_refutes :
  exists ls s, run_gen false init ls = Some s /\ quiescent s /\ run_safe init ls <> None /\
    exists hp pid c, s_root s hp = Some pid /\ In c (p_in (s_peer s pid)) /\ ~ active s c.
Proof.
  exists w3, (final false w3).
  assert (Hrun : run_gen false init w3 = Some (final false w3)) by (apply final_run; vm_compute; reflexivity).
  split; [exact Hrun|]. split; [|split].
  - intros t. vm_compute. destruct t as [|q|q]; [reflexivity| |reflexivity].
    repeat (destruct q as [q|q|]; try reflexivity).
  - vm_compute. discriminate.
  - exists 12, 3, 1. split; [vm_compute; reflexivity|]. split; [vm_compute; now left|].
    vm_compute. discriminate.
Qed.

(* the same schedule on the repaired code leaves the peer's lists empty *)
Lemma w3_repaired : p_in (s_peer (final true w3) 3) = [] /\ p_out (s_peer (final true w3) 3) = [].
Proof. vm_compute. split; reflexivity. Qed.

(* Non-vacuity: a safe run reaching a quiescent state with an outbound connection whose peer
   announced host:port 11 while 21 was dialled (listed under both), one peer-list reference,
   two status callbacks ... *)
Definition ex1 : list label :=
  [LNew c_outbound 11 21] ++ steps 2 8 ++ [LListAdd 0 21] ++ steps 5 1.
Lemma example_listed :
  exists s, run_safe init ex1 = Some s /\ quiescent s /\
    s_root s 11 = Some 3 /\ p_out (s_peer s 3) = [1] /\
    s_root s 21 = Some 4 /\ p_out (s_peer s 4) = [1] /\ p_sc (s_peer s 4) = 1 /\
    s_inch s 1 = true /\ s_log s = [11; 21].
Proof.
  exists (final true ex1).
  assert (Hs : run_safe init ex1 = Some (final true ex1)) by (apply final_safe; vm_compute; discriminate).
  split; [exact Hs|]. split.
  - apply quiescent_check; [apply (inv0_reach ex1), run_safe_is_run, Hs|vm_compute; reflexivity].
  - vm_compute. repeat split; reflexivity.
Qed.

(* ... and one where the connection then closes: both peers are collected, four callbacks. *)
Definition ex2 : list label :=
  [LNew c_outbound 11 21] ++ steps 2 8 ++ [LChange 1 c_connectionClosed] ++ steps 5 12.
Lemma example_collected :
  exists s, run_safe init ex2 = Some s /\ quiescent s /\
    s_root s 11 = None /\ s_root s 21 = None /\ s_inch s 1 = false /\ s_log s = [11; 21; 11; 21].
Proof.
  exists (final true ex2).
  assert (Hs : run_safe init ex2 = Some (final true ex2)) by (apply final_safe; vm_compute; discriminate).
  split; [exact Hs|]. split.
  - apply quiescent_check; [apply (inv0_reach ex2), run_safe_is_run, Hs|vm_compute; reflexivity].
  - vm_compute. repeat split; reflexivity.
Qed.
