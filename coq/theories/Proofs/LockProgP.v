(* Property C05 (b), lock discipline: proofs.
   (1) the checker of Model/LockProg.v is sound for EVERY execution of a lock program
       (fn_ok_sound);
   (2) the generated table (Gen/GenLockProgs.v) passes it: every function of the package
       that touches a lock is balanced, never blocks under a plain mutex and nests locks
       strictly downwards; the lock acquisitions of the call path are of plain mutexes of
       that table;
   (3) threads that follow the discipline, in any interleaving: whenever a mutex is held some
       holder has an enabled step, and the holders alone reach "no mutex held" within the
       length of what is left of their critical sections -- a lock wait is bounded by the
       holders' critical sections; a thread that returns with the lock held blocks a waiter
       for ever;
   (4) every non-panicking execution of a disciplined lock program is such a thread
       (run_is_thread). *)
From Coq Require Import ZArith List Bool Lia.
From Verif Require Import Spec.WaitSpec Spec.LockProgSpec Model.LockProg Gen.GenLockProgs
  Gen.GenWaitSites Model.CallPath Proofs.CallPathP.
Import ListNotations.
Local Open Scope Z_scope.

Lemma hitem_eqb_eq a b : hitem_eqb a b = true <-> a = b.
Proof.
  destruct a as [m r], b as [m' r']. unfold hitem_eqb. cbn [fst snd].
  rewrite andb_true_iff, Z.eqb_eq, Bool.eqb_true_iff. split.
  - intros [H1 H2]. subst. reflexivity.
  - intros H. inversion H. split; reflexivity.
Qed.

Lemma hlist_eqb_eq a : forall b, hlist_eqb a b = true <-> a = b.
Proof.
  induction a as [|x r IH]; intros [|y q]; cbn [hlist_eqb]; try (split; [discriminate|discriminate]).
  - split; reflexivity.
  - rewrite andb_true_iff, hitem_eqb_eq, IH. split.
    + intros [H1 H2]. subst. reflexivity.
    + intros H. inversion H. split; reflexivity.
Qed.

Lemma hst_eqb_eq a b : hst_eqb a b = true <-> a = b.
Proof.
  destruct a as [h d], b as [h' d']. unfold hst_eqb. cbn [h_held h_dfr].
  rewrite andb_true_iff, !hlist_eqb_eq. split.
  - intros [H1 H2]. subst. reflexivity.
  - intros H. inversion H. split; reflexivity.
Qed.

Lemma ctl_eqb_eq a b : ctl_eqb a b = true <-> a = b.
Proof. destruct a, b; cbn; split; intros H; try reflexivity; discriminate H. Qed.

Lemma out_eqb_eq a b : out_eqb a b = true <-> a = b.
Proof.
  destruct a as [c s], b as [c' s']. unfold out_eqb. cbn [fst snd].
  rewrite andb_true_iff, ctl_eqb_eq, hst_eqb_eq. split.
  - intros [H1 H2]. subst. reflexivity.
  - intros H. inversion H. split; reflexivity.
Qed.

Lemma add_out_in o l x : In x (add_out o l) <-> x = o \/ In x l.
Proof.
  induction l as [|y r IH]; cbn [add_out].
  - cbn. intuition.
  - destruct (out_eqb o y) eqn:E.
    + apply out_eqb_eq in E. subst y. cbn. intuition.
    + cbn [In]. rewrite IH. intuition.
Qed.

Lemma union_out_in a b x : In x (union_out a b) <-> In x a \/ In x b.
Proof.
  unfold union_out. induction a as [|y r IH]; cbn [fold_right].
  - cbn. intuition.
  - rewrite add_out_in, IH. cbn [In]. intuition.
Qed.

Lemma loop_outs_in o : forall c s, In (c, s) o ->
  match c with
  | CBrk => In (CFall, s) (loop_outs o)
  | CRet | CPanic => In (c, s) (loop_outs o)
  | _ => True
  end.
Proof.
  induction o as [|[c0 s0] r IH]; intros c s Hin; [destruct Hin|].
  destruct Hin as [E|Hin].
  - inversion E. subst c0 s0. destruct c; cbn [loop_outs]; try exact I; apply add_out_in; left; reflexivity.
  - specialize (IH c s Hin). destruct c; try exact I; cbn [loop_outs]; destruct c0;
      try (apply add_out_in; right); exact IH.
Qed.

Lemma catch_outs_in o : forall c s, In (c, s) o -> In (catch_brk c, s) (catch_outs o).
Proof.
  induction o as [|[c0 s0] r IH]; intros c s Hin; [destruct Hin|].
  cbn [catch_outs]. apply add_out_in. destruct Hin as [E|Hin].
  - inversion E. left. reflexivity.
  - right. apply IH, Hin.
Qed.

Lemma seq_outs_spec k : forall o res, seq_outs k o = Some res ->
  (forall c s, In (c, s) o -> c <> CFall -> In (c, s) res) /\
  (forall s, In (CFall, s) o -> exists o', k s = Some o' /\ incl o' res).
Proof.
  induction o as [|[c0 s0] r IH]; intros res H.
  - split; intros; contradiction.
  - cbn [seq_outs] in H. destruct (seq_outs k r) as [acc|] eqn:Er; [|discriminate H].
    destruct (IH acc eq_refl) as [IH1 IH2].
    (* the head outcome falls through into k, or is kept as it is *)
    assert (Hres : (c0 = CFall /\ exists o', k s0 = Some o' /\ res = union_out o' acc) \/
                   (c0 <> CFall /\ res = add_out (c0, s0) acc)).
    { destruct c0; try (right; split; [discriminate|congruence]).
      left. destruct (k s0) as [o'|]; [|discriminate H]. split; [reflexivity|]. exists o'. split; congruence. }
    destruct Hres as [[-> (o' & Ek & ->)]|[Hc0 ->]]; split.
    + intros c s [[= <- <-]|Hin] Hc; [contradiction|]. apply union_out_in. right. apply IH1; assumption.
    + intros s [[= <-]|Hin].
      * exists o'. split; [exact Ek|]. intros x Hx. apply union_out_in. left. exact Hx.
      * destruct (IH2 s Hin) as [o2 [H1 H2]]. exists o2. split; [exact H1|].
        intros x Hx. apply union_out_in. right. apply H2, Hx.
    + intros c s [E|Hin] Hc; apply add_out_in; [left; symmetry; exact E|right; apply IH1; assumption].
    + intros s [[= E _]|Hin]; [congruence|]. destruct (IH2 s Hin) as [o2 [H1 H2]]. exists o2. split; [exact H1|].
      intros x Hx. apply add_out_in. right. apply H2, Hx.
Qed.

(* (1) soundness of the checker *)
Scheme xs_mind := Minimality for xs Sort Prop
  with xb_mind := Minimality for xb Sort Prop.
Combined Scheme xsb_ind from xs_mind, xb_mind.

Lemma acq_ok_spec held m : acq_ok held m = true -> forall h, In h held -> m < fst h.
Proof.
  unfold acq_ok. intros H h Hin. rewrite forallb_forall in H. specialize (H h Hin). lia.
Qed.

Lemma blk_ok_spec sem held : blk_ok sem held = true -> forall h, In h held -> sem (fst h) = true.
Proof. unfold blk_ok. intros H h Hin. rewrite forallb_forall in H. exact (H h Hin). Qed.

Section Sound.
  Variable sem : Z -> bool.

  (* what the checker has established when it accepts a compound statement.  ([cs] and [cb] are
     one mutual fixpoint: [cbn] would print its body, so each equation is stated once, here) *)
  Lemma cs_alt_inv a b s o : cs sem (SAlt a b) s = Some o ->
    exists x y, cb sem a s = Some x /\ cb sem b s = Some y /\ o = union_out x y.
  Proof.
    change (cs sem (SAlt a b) s) with
      (match cb sem a s, cb sem b s with Some x, Some y => Some (union_out x y) | _, _ => None end).
    destruct (cb sem a s) as [x|], (cb sem b s) as [y|]; try discriminate. intros [= <-]. eauto.
  Qed.

  Lemma cs_loop_inv b s o : cs sem (SLoop b) s = Some o ->
    exists ob, cb sem b s = Some ob /\ loop_inv s ob = true /\ o = add_out (CFall, s) (loop_outs ob).
  Proof.
    change (cs sem (SLoop b) s) with
      (match cb sem b s with Some o => if loop_inv s o then Some (add_out (CFall, s) (loop_outs o)) else None | None => None end).
    destruct (cb sem b s) as [ob|]; [|discriminate]. destruct (loop_inv s ob) eqn:Ei; [|discriminate]. intros [= <-]. eauto.
  Qed.

  Lemma cs_catch_inv b s o : cs sem (SCatch b) s = Some o -> exists ob, cb sem b s = Some ob /\ o = catch_outs ob.
  Proof.
    change (cs sem (SCatch b) s) with (match cb sem b s with Some o => Some (catch_outs o) | None => None end).
    destruct (cb sem b s) as [ob|]; [|discriminate]. intros [= <-]. eauto.
  Qed.

  Lemma cb_cons_inv st r s o : cb sem (BCons st r) s = Some o ->
    exists o1, cs sem st s = Some o1 /\ seq_outs (cb sem r) o1 = Some o.
  Proof.
    change (cb sem (BCons st r) s) with (match cs sem st s with None => None | Some o => seq_outs (cb sem r) o end).
    destruct (cs sem st s) as [o1|]; [|discriminate]. eauto.
  Qed.

  (* an accepted simple statement has the one outcome its execution has *)
  Lemma one_out (x : ctl * hst) (P : Prop) : P -> In x [x] /\ P.
  Proof. intros H. split; [left; reflexivity|exact H]. Qed.

  Lemma check_sound :
    (forall st s c s' tr, xs st s c s' tr ->
       forall o, cs sem st s = Some o -> In (c, s') o /\ Forall (ev_ok sem) tr) /\
    (forall b s c s' tr, xb b s c s' tr ->
       forall o, cb sem b s = Some o -> In (c, s') o /\ Forall (ev_ok sem) tr).
  Proof.
    apply xsb_ind.
    - (* XLock *) intros m rd s o H. cbn [cs] in H. destruct (acq_ok (h_held s) m) eqn:E; [|discriminate H].
      injection H as <-. apply one_out. constructor; [|constructor].
      unfold ev_ok. cbn [fst snd]. apply acq_ok_spec, E.
    - (* XUnlock *) intros m rd s h' Hr o H. cbn [cs] in H. rewrite Hr in H. injection H as <-.
      apply one_out. constructor; [exact I|constructor].
    - (* XUnlockBad *) intros m rd s Hr o H. cbn [cs] in H. rewrite Hr in H. discriminate H.
    - (* XDefer *) intros m rd s o [= <-]. apply one_out. constructor.
    - (* XBlock *) intros s o H. cbn [cs] in H. destruct (blk_ok sem (h_held s)) eqn:E; [|discriminate H].
      injection H as <-. apply one_out. constructor; [|constructor].
      unfold ev_ok. cbn [fst snd]. apply blk_ok_spec, E.
    - (* XCall *) intros blk acq s o H. cbn [cs] in H.
      destruct ((negb blk || blk_ok sem (h_held s)) && forallb (acq_ok (h_held s)) acq) eqn:E; [|discriminate H].
      injection H as <-. apply one_out.
      apply andb_true_iff in E. destruct E as [E1 E2]. apply Forall_app. split.
      + destruct blk; [|constructor]. cbn [negb orb] in E1. constructor; [|constructor].
        unfold ev_ok. cbn [fst snd]. apply blk_ok_spec, E1.
      + apply Forall_forall. intros e He. apply in_map_iff in He. destruct He as [m [Em Hm]]. subst e.
        unfold ev_ok. cbn [fst snd]. rewrite forallb_forall in E2. apply acq_ok_spec, E2, Hm.
    - (* XRet *) intros s o [= <-]. apply one_out. constructor.
    - (* XPanic *) intros s o [= <-]. apply one_out. constructor.
    - (* XBreak *) intros s o [= <-]. apply one_out. constructor.
    - (* XCont *) intros s o [= <-]. apply one_out. constructor.
    - (* XAltL *) intros a b s c s' tr _ IH o H. destruct (cs_alt_inv _ _ _ _ H) as (x & y & Ea & Eb & ->).
      destruct (IH x Ea) as [H1 H2]. split; [apply union_out_in; left; exact H1|exact H2].
    - (* XAltR *) intros a b s c s' tr _ IH o H. destruct (cs_alt_inv _ _ _ _ H) as (x & y & Ea & Eb & ->).
      destruct (IH y Eb) as [H1 H2]. split; [apply union_out_in; right; exact H1|exact H2].
    - (* XLoop0 *) intros b s o H. destruct (cs_loop_inv _ _ _ H) as (ob & _ & _ & ->).
      split; [apply add_out_in; left; reflexivity|constructor].
    - (* XLoopBrk *) intros b s s' tr _ IH o H. destruct (cs_loop_inv _ _ _ H) as (ob & Eb & _ & ->).
      destruct (IH ob Eb) as [H1 H2]. split; [|exact H2]. apply add_out_in. right. exact (loop_outs_in ob CBrk s' H1).
    - (* XLoopExit *) intros b s c s' tr _ IH Hc o H. destruct (cs_loop_inv _ _ _ H) as (ob & Eb & _ & ->).
      destruct (IH ob Eb) as [H1 H2]. split; [|exact H2]. apply add_out_in. right.
      pose proof (loop_outs_in ob c s' H1) as L. destruct Hc as [Hc|Hc]; subst c; exact L.
    - (* XLoopIter: the checker has made sure that an iteration leaves the lock state as it was *)
      intros b s c1 s1 tr1 c2 s2 tr2 _ IH1 Hc _ IH2 o H. destruct (cs_loop_inv _ _ _ H) as (ob & Eb & Ei & _).
      destruct (IH1 ob Eb) as [H1 H2].
      assert (Es : s1 = s).
      { unfold loop_inv in Ei. rewrite forallb_forall in Ei. specialize (Ei (c1, s1) H1). cbn [fst snd] in Ei.
        destruct Hc as [Hc|Hc]; subst c1; apply hst_eqb_eq, Ei. }
      subst s1. destruct (IH2 o H) as [H3 H4]. split; [exact H3|]. apply Forall_app. split; assumption.
    - (* XCatch *) intros b s c s' tr _ IH o H. destruct (cs_catch_inv _ _ _ H) as (ob & Eb & ->).
      destruct (IH ob Eb) as [H1 H2]. split; [apply catch_outs_in, H1|exact H2].
    - (* XNil *) intros s o [= <-]. apply one_out. constructor.
    - (* XStop *) intros st r s c s' tr _ IH Hc o H. destruct (cb_cons_inv _ _ _ _ H) as (o1 & E1 & Hs).
      destruct (IH o1 E1) as [H1 H2]. destruct (seq_outs_spec _ _ _ Hs) as [S1 _].
      split; [apply S1; assumption|exact H2].
    - (* XGo *) intros st r s s1 tr1 c s2 tr2 _ IH1 _ IH2 o H. destruct (cb_cons_inv _ _ _ _ H) as (o1 & E1 & Hs).
      destruct (IH1 o1 E1) as [H1 H2]. destruct (seq_outs_spec _ _ _ Hs) as [_ S2].
      destruct (S2 s1 H1) as [o' [Ho' Hincl]]. destruct (IH2 o' Ho') as [H3 H4].
      split; [apply Hincl, H3|]. apply Forall_app. split; assumption.
  Qed.

  Theorem fn_ok_sound : forall f, fn_ok sem f = true -> lock_disciplined sem f.
  Proof.
    intros f H c s tr Hx. unfold fn_ok in H. destruct (cb sem (lf_body f) hinit) as [o|] eqn:E; [|discriminate H].
    destruct (proj2 check_sound _ _ _ _ _ Hx o E) as [H1 H2]. split; [|exact H2].
    rewrite forallb_forall in H. specialize (H (c, s) H1). unfold exit_okb in H. cbn [fst snd] in H.
    unfold exit_clean. destruct c; try discriminate H.
    - right. split; [left; reflexivity|]. destruct (run_defers (h_dfr s) (h_held s)) as [[|x r]|]; [reflexivity|discriminate H|discriminate H].
    - right. split; [right; reflexivity|]. destruct (run_defers (h_dfr s) (h_held s)) as [[|x r]|]; [reflexivity|discriminate H|discriminate H].
    - left. reflexivity.
  Qed.
End Sound.

(* the checker is not vacuous: it refuses the three shapes the discipline forbids *)
Definition ex_leak : lfunc :=   (* Lock; if err { return }; Unlock; return *)
  mkLfunc [] (B[ SLock 4 false; SAlt (B[ SRet ]) BNil; SUnlock 4 false; SRet ]).
Definition ex_block : lfunc :=  (* Lock; <-ch; Unlock *)
  mkLfunc [] (B[ SLock 4 false; SBlock; SUnlock 4 false ]).
Definition ex_order : lfunc :=  (* a.Lock; b.Lock with a < b *)
  mkLfunc [] (B[ SLock 4 false; SCall false [7]; SUnlock 4 false ]).
Definition ex_good : lfunc :=   (* Lock; r := f(); Unlock; if r != nil { return }; g(); return *)
  mkLfunc [] (B[ SLock 4 false; SCall false [3]; SUnlock 4 false; SAlt (B[ SRet ]) BNil; SCall true [7; 4]; SRet ]).

Lemma checker_refuses : fn_ok (fun _ => false) ex_leak = false /\ fn_ok (fun _ => false) ex_block = false /\
  fn_ok (fun _ => false) ex_order = false /\ fn_ok (fun _ => false) ex_good = true.
Proof. vm_compute. repeat split. Qed.

(* ... and rightly so: the leaking shape HAS an execution that returns with the lock held *)
Lemma leak_not_disciplined : ~ lock_disciplined (fun _ => false) ex_leak.
Proof.
  intros H.
  assert (X : xb (lf_body ex_leak) hinit CRet (mkH [(4, false)] []) ([([], EvAcq 4)] ++ [])).
  { unfold ex_leak. cbn [lf_body]. eapply XGo; [apply XLock|]. apply XStop; [|discriminate].
    apply XAltL. apply XStop; [apply XRet|discriminate]. }
  destruct (H _ _ _ X) as [[E|[_ E]] _]; [discriminate E|]. cbn in E. discriminate E.
Qed.

(* (2) the generated table *)
Theorem lock_progs_disciplined : Forall (lock_disciplined (sem_of lockp_mutexes)) lockp_progs.
Proof. apply (forallb_Forall _ _ _ (fn_ok_sound (sem_of lockp_mutexes))). vm_compute. reflexivity. Qed.

Lemma site_plainb_spec ms l : site_plainb ms l = true -> plain_mutex ms (ls_mutex l).
Proof.
  unfold site_plainb, plain_mutex. intros H. apply existsb_exists in H. destruct H as [x [Hin Hx]].
  apply andb_true_iff in Hx. destruct Hx as [H1 H2]. exists x. split; [exact Hin|]. split; [lia|].
  destruct (lm_sem x); [discriminate H2|reflexivity].
Qed.

Theorem lock_sites_plain : Forall (fun l => plain_mutex lockp_mutexes (ls_mutex l)) (lockp_sites ++ lockp_sites_conn).
Proof. apply (forallb_Forall _ _ _ (site_plainb_spec lockp_mutexes)). vm_compute. reflexivity. Qed.

Definition name_eqb (a b : list Z) : bool := if list_eq_dec Z.eq_dec a b then true else false.
Definition site_in_progs (l : lsite) : bool := existsb (fun f => name_eqb (lf_name f) (ls_fn l)) lockp_progs.

Lemma name_eqb_eq a b : name_eqb a b = true -> a = b.
Proof. unfold name_eqb. destruct (list_eq_dec Z.eq_dec a b) as [e|]; [auto|discriminate]. Qed.

Theorem lock_sites_covered : Forall (fun l => exists f, In f lockp_progs /\ lf_name f = ls_fn l) (lockp_sites ++ lockp_sites_conn).
Proof.
  apply (forallb_Forall site_in_progs); [|vm_compute; reflexivity].
  intros l H. apply existsb_exists in H. destruct H as [f [Hf E]]. exists f. split; [exact Hf|exact (name_eqb_eq _ _ E)].
Qed.

(* (3) threads that follow the discipline *)
Definition tinv (s : tstate) : Prop :=
  Forall (fun th => ops_ok (fst th) (snd th) = true) s /\ NoDup (concat (map fst s)).

Lemma upd_split {A} (d : A) i (l : list A) x : nth i l d <> d ->
  exists l1 l2, l = l1 ++ nth i l d :: l2 /\ upd i x l = l1 ++ x :: l2.
Proof.
  intros H. assert (Hl : (i < length l)%nat).
  { destruct (Nat.lt_ge_cases i (length l)) as [L|L]; [exact L|]. now rewrite nth_overflow in H. }
  clear H. revert l Hl. induction i as [|i IH]; intros [|y r] Hl; cbn [length] in Hl; try lia.
  - exists [], r. split; reflexivity.
  - destruct (IH r ltac:(lia)) as [l1 [l2 [E1 E2]]]. exists (y :: l1), l2. cbn [nth]. split.
    + cbn [app]. f_equal. exact E1.
    + unfold upd in *. cbn [firstn skipn app]. f_equal. exact E2.
Qed.

Lemma existsb_eqb_in m l : existsb (Z.eqb m) l = true <-> In m l.
Proof.
  rewrite existsb_exists. split.
  - intros [x [Hx E]]. apply Z.eqb_eq in E. subst x. exact Hx.
  - intros H. exists m. split; [exact H|apply Z.eqb_refl].
Qed.

Lemma holds_any_spec s m : holds_any s m = true <-> In m (concat (map fst s)).
Proof.
  unfold holds_any. rewrite existsb_exists, in_concat. split.
  - intros [th [Hin H]]. exists (fst th). split; [apply in_map, Hin|apply existsb_eqb_in, H].
  - intros [h [Hh Hm]]. apply in_map_iff in Hh as [th [<- Hin]]. exists th. split; [exact Hin|apply existsb_eqb_in, Hm].
Qed.

Lemma zremove_incl m l x : In x (zremove m l) -> In x l.
Proof.
  induction l as [|y r IH]; cbn [zremove]; [intros []|]. destruct (m =? y); cbn [In]; intuition.
Qed.

Lemma zremove_split m l : In m l -> exists h1 h2, l = h1 ++ m :: h2 /\ zremove m l = h1 ++ h2.
Proof.
  induction l as [|y r IH]; [intros []|]. intros Hin. cbn [zremove]. destruct (Z.eqb_spec m y) as [->|Hne].
  - exists [], r. auto.
  - destruct Hin as [->|Hin]; [contradiction|]. destruct (IH Hin) as (h1 & h2 & E1 & E2).
    exists (y :: h1), h2. cbn [app]. rewrite E2. split; [f_equal; exact E1|reflexivity].
Qed.

(* what a step does: thread i, and only it, goes from [th] to [th'] *)
Inductive thstep (s : tstate) : tlabel -> nat -> list Z * list lop -> list Z * list lop -> Prop :=
| th_acq i held m r : holds_any s m = false -> thstep s (TStep i) i (held, OAcq m :: r) (m :: held, r)
| th_rel i held m r : In m held -> thstep s (TStep i) i (held, ORel m :: r) (zremove m held, r)
| th_event i held r : thstep s (TEvent i) i (held, OWait :: r) (held, r).

Lemma tstep_split s l s' : tstep s l = Some s' ->
  exists i l1 th th' l2, nth i s ([], []) = th /\ s = l1 ++ th :: l2 /\ s' = l1 ++ th' :: l2 /\ thstep s l i th th'.
Proof.
  intros H.
  assert (G : forall i th', nth i s ([], []) <> ([], []) -> thstep s l i (nth i s ([], [])) th' ->
    exists j l1 th th0 l2, nth j s ([], []) = th /\ s = l1 ++ th :: l2 /\ upd i th' s = l1 ++ th0 :: l2 /\ thstep s l j th th0).
  { intros i th' Hn T. destruct (upd_split ([], []) i s th' Hn) as (l1 & l2 & E1 & E2).
    exists i, l1, (nth i s ([], [])), th', l2. auto. }
  destruct l as [i|i]; cbn [tstep] in H; destruct (nth i s ([], [])) as [held ops] eqn:En;
    destruct ops as [|[m|m|] r]; try discriminate H.
  - destruct (holds_any s m) eqn:Eh; [discriminate H|]. injection H as <-.
    apply G; rewrite En; [discriminate|]. constructor. exact Eh.
  - destruct (existsb (Z.eqb m) held) eqn:Eh; [|discriminate H]. injection H as <-.
    apply G; rewrite En; [discriminate|]. constructor. apply existsb_eqb_in, Eh.
  - injection H as <-. apply G; rewrite En; [discriminate|]. constructor.
Qed.

Lemma tstep_inv s l s' : tinv s -> tstep s l = Some s' -> tinv s'.
Proof.
  intros [Hops Hnd] H. destruct (tstep_split _ _ _ H) as (i & l1 & th & th' & l2 & _ & E1 & -> & T).
  assert (Hfree : forall m, holds_any s m = false -> ~ In m (concat (map fst s))).
  { intros m Eh X. apply holds_any_spec in X. congruence. }
  clear H. subst s. apply Forall_app in Hops as [Ho1 Ho2]. inversion Ho2 as [|? ? Hth Ho3]; subst.
  unfold tinv. rewrite map_app, concat_app in *. cbn [map concat] in *.
  enough (ops_ok (fst th') (snd th') = true /\ NoDup (concat (map fst l1) ++ fst th' ++ concat (map fst l2))) as [H1 H2].
  { split; [|exact H2]. apply Forall_app. split; [exact Ho1|]. constructor; assumption. }
  inversion T as [j held m r Eh|j held m r Hin|j held r]; subst; cbn [fst snd ops_ok] in *.
  - apply andb_true_iff in Hth. split; [apply Hth|]. apply (NoDup_Add (Add_app m _ _)). auto.
  - (* the released mutex was held once *)
    apply andb_true_iff in Hth. split; [apply Hth|].
    destruct (zremove_split m held Hin) as (h1 & h2 & -> & ->).
    rewrite <- !app_assoc in *. cbn [app] in Hnd. rewrite app_assoc in Hnd. apply NoDup_remove_1 in Hnd.
    rewrite <- app_assoc in Hnd. exact Hnd.
  - split; [|exact Hnd]. destruct held; [exact Hth|discriminate Hth].
Qed.

Lemma trun_inv ls : forall s s', tinv s -> trun s ls = Some s' -> tinv s'.
Proof.
  induction ls as [|l r IH]; intros s s' Hi H; cbn [trun] in H.
  - injection H as H. subst s'. exact Hi.
  - destruct (tstep s l) as [s1|] eqn:E; [|discriminate H]. eapply IH; [eapply tstep_inv; eassumption|exact H].
Qed.

Lemma tinit_inv threads : Forall (fun ops => ops_ok [] ops = true) threads -> tinv (tinit threads).
Proof.
  intros H. unfold tinit. split.
  - apply Forall_forall. intros th Hin. apply in_map_iff in Hin. destruct Hin as [ops [E Hin]]. subst th.
    cbn [fst snd]. rewrite Forall_forall in H. apply H, Hin.
  - rewrite map_map. cbn [fst]. induction threads as [|x r IH]; cbn [map concat app]; [constructor|].
    apply IH. inversion H. assumption.
Qed.

Lemma exists_min (l : list Z) : l <> [] -> exists m, In m l /\ forall x, In x l -> m <= x.
Proof.
  induction l as [|y r IH]; intros H; [contradiction H; reflexivity|]. destruct r as [|z q].
  - exists y. split; [left; reflexivity|]. intros x [E|[]]. lia.
  - destruct (IH ltac:(discriminate)) as [m [Hin Hm]]. destruct (Z_le_gt_dec y m) as [L|L].
    + exists y. split; [left; reflexivity|]. intros x [E|Hx]; [lia|]. specialize (Hm x Hx). lia.
    + exists m. split; [right; exact Hin|]. intros x [E|Hx]; [lia|apply Hm, Hx].
Qed.

(* PROGRESS: while some mutex is held, the thread that holds the least held mutex has an enabled
   step: it acquires only below what it holds, so what it wants next is free *)
Lemma holder_progress s : tinv s -> ~ all_free s ->
  exists i held ops, nth i s ([], []) = (held, ops) /\ held <> [] /\ exists s', tstep s (TStep i) = Some s'.
Proof.
  intros [Hops Hnd] Hnf.
  assert (Hne : concat (map fst s) <> []).
  { intros E. apply Hnf. apply Forall_forall. intros th Hin.
    destruct (fst th) as [|x r] eqn:Ef; [reflexivity|]. exfalso.
    assert (X : In x (concat (map fst s))) by (apply in_concat; exists (fst th); split; [apply in_map, Hin|rewrite Ef; left; reflexivity]).
    rewrite E in X. destruct X. }
  destruct (exists_min _ Hne) as [m0 [Hm0 Hmin]].
  apply in_concat in Hm0. destruct Hm0 as [h [Hh Hm0]]. apply in_map_iff in Hh. destruct Hh as [th [Eth Hth]]. subst h.
  destruct (In_nth _ _ ([], []) Hth) as [i [Hi En]]. destruct th as [held ops]. cbn [fst] in Hm0.
  exists i, held, ops. split; [exact En|]. split; [intros E; subst held; destruct Hm0|].
  rewrite Forall_forall in Hops. specialize (Hops _ Hth). cbn [fst snd] in Hops.
  cbn [tstep]. rewrite En. destruct ops as [|[m|m|] r].
  - cbn [ops_ok] in Hops. destruct held; [destruct Hm0|discriminate Hops].
  - cbn [ops_ok] in Hops. apply andb_true_iff in Hops. destruct Hops as [Hlt _].
    rewrite forallb_forall in Hlt. specialize (Hlt m0 Hm0).
    destruct (holds_any s m) eqn:Eh.
    + apply holds_any_spec in Eh. specialize (Hmin m Eh). lia.
    + eexists. reflexivity.
  - cbn [ops_ok] in Hops. apply andb_true_iff in Hops. destruct Hops as [Hin _]. rewrite Hin. eexists. reflexivity.
  - cbn [ops_ok] in Hops. destruct held; [destruct Hm0|discriminate Hops].
Qed.

Lemma sections_left_app a b : sections_left (a ++ b) = (sections_left a + sections_left b)%nat.
Proof. unfold sections_left. rewrite map_app, list_sum_app. reflexivity. Qed.

Lemma list_sum_cons' x l : list_sum (x :: l) = (x + list_sum l)%nat.
Proof. reflexivity. Qed.

Lemma sections_left_cons th s : sections_left (th :: s) = (section_left (fst th) (snd th) + sections_left s)%nat.
Proof. reflexivity. Qed.

Lemma sections_left_free s : all_free s -> sections_left s = O.
Proof.
  unfold all_free. induction s as [|[h o] r IH]; intros H; [reflexivity|]. inversion H as [|? ? Hh Hr]. subst.
  cbn [fst] in Hh. subst h. rewrite sections_left_cons, IH by exact Hr. cbn [fst snd]. destruct o; reflexivity.
Qed.

Lemma holder_step_measure s i held ops s' : nth i s ([], []) = (held, ops) -> held <> [] ->
  tstep s (TStep i) = Some s' -> sections_left s = S (sections_left s').
Proof.
  intros En Hne H. destruct (tstep_split _ _ _ H) as (j & l1 & th & th' & l2 & Ej & E1 & -> & T).
  rewrite E1 at 1. rewrite !sections_left_app, !sections_left_cons.
  inversion T; subst; cbn [fst snd]; assert (held0 = held) by congruence; subst held0;
    (destruct held; [contradiction|]); cbn [section_left]; lia.
Qed.

Lemma classic_all_free s : all_free s \/ ~ all_free s.
Proof.
  unfold all_free. induction s as [|[h o] r IH].
  - left. constructor.
  - destruct h as [|x q].
    + destruct IH as [F|F]; [left; constructor; [reflexivity|exact F]|right; intros X; inversion X; contradiction].
    + right. intros X. inversion X as [|? ? Hh]. discriminate Hh.
Qed.

(* BOUNDED WAIT: from any state of disciplined threads the lock holders alone -- no event of
   the environment, no timer, no step of a thread that holds nothing -- reach a state in
   which every mutex is free, in exactly [sections_left s] steps *)
Lemma drain n : forall s, tinv s -> sections_left s = n ->
  exists ls s', Forall is_tstep ls /\ length ls = n /\ trun s ls = Some s' /\ all_free s'.
Proof.
  induction n as [|n IH]; intros s Hi Hn.
  - exists [], s. split; [constructor|]. split; [reflexivity|]. split; [reflexivity|].
    destruct (classic_all_free s) as [F|F]; [exact F|]. exfalso.
    destruct (holder_progress s Hi F) as [i [held [ops [En [Hne [s' Hs]]]]]].
    rewrite (holder_step_measure _ _ _ _ _ En Hne Hs) in Hn. discriminate Hn.
  - destruct (classic_all_free s) as [F|F]; [rewrite (sections_left_free s F) in Hn; discriminate Hn|].
    destruct (holder_progress s Hi F) as [i [held [ops [En [Hne [s1 Hs]]]]]].
    pose proof (holder_step_measure _ _ _ _ _ En Hne Hs) as Hm.
    destruct (IH s1 (tstep_inv _ _ _ Hi Hs) ltac:(lia)) as [ls [s' [H1 [H2 [H3 H4]]]]].
    exists (TStep i :: ls), s'. split; [constructor; [exact I|exact H1]|]. split; [cbn [length]; lia|].
    split; [cbn [trun]; rewrite Hs; exact H3|exact H4].
Qed.

Theorem lock_wait_bounded : forall threads ls s,
  Forall (fun ops => ops_ok [] ops = true) threads -> trun (tinit threads) ls = Some s ->
  (~ all_free s -> exists i held ops, nth i s ([], []) = (held, ops) /\ held <> [] /\ exists s1, tstep s (TStep i) = Some s1) /\
  (exists ls' s', Forall is_tstep ls' /\ length ls' = sections_left s /\ trun s ls' = Some s' /\ all_free s').
Proof.
  intros threads ls s Hok Hrun. pose proof (trun_inv ls _ _ (tinit_inv threads Hok) Hrun) as Hi. split.
  - intros Hnf. apply holder_progress; assumption.
  - apply (drain (sections_left s) s Hi eq_refl).
Qed.

(* the hypotheses are satisfiable, and the bound is tight: two callers and a reader goroutine
   around the exchange set (4) and the state mutex (7), one of them nesting 7 > 4 *)
Example ex_threads : list (list lop) :=
  [[OAcq 4; ORel 4; OWait; OAcq 4; ORel 4]; [OAcq 7; OAcq 4; ORel 4; ORel 7]; [OWait; OAcq 4; ORel 4]].

Lemma ex_threads_ok : Forall (fun ops => ops_ok [] ops = true) ex_threads /\
  exists s, trun (tinit ex_threads) [TStep 1; TStep 1] = Some s /\ sections_left s = 2%nat /\
            tstep s (TStep 0) = None.   (* thread 0 waits for mutex 4 *)
Proof.
  split; [repeat constructor|]. eexists. split; [vm_compute; reflexivity|]. split; vm_compute; reflexivity.
Qed.

(* UNBALANCED: a thread that returns with mutex 4 held (the shape `Lock; if err { return }; Unlock`
   on its error path) is not accepted by [ops_ok], and a second thread that then wants the mutex
   has no enabled step, and nobody else has one either: it waits for ever *)
Theorem leaked_lock_blocks :
  ops_ok [] [OAcq 4] = false /\
  exists s, trun (tinit [[OAcq 4]; [OAcq 4; ORel 4]]) [TStep 0] = Some s /\
    nth 1 s ([], []) = ([], [OAcq 4; ORel 4]) /\ forall l, tstep s l = None.
Proof.
  split; [reflexivity|]. eexists. split; [vm_compute; reflexivity|]. split; [reflexivity|].
  intros [i|i]; destruct i as [|[|i]]; try reflexivity; destruct i; reflexivity.
Qed.

(* the combined table: waits and lock acquisitions of the call path *)
Inductive bsite := BWait (w : wsite) | BLock (l : lsite).

(* a blocking site of the call path is bounded by the caller's deadline if it is a wait with
   an exit bound to the deadline (or the never-blocking release of the semaphore), or the
   acquisition of a plain mutex all of whose users -- every lock program of the package --
   follow the lock discipline (so that the wait is bounded by the holders' critical
   sections, lock_wait_bounded, none of which contains a blocking statement) *)
Definition bsite_bounded (ms : list lmutex) (progs : list lfunc) (b : bsite) : Prop :=
  match b with
  | BWait w => has_deadline_exit w \/ is_release w
  | BLock l => plain_mutex ms (ls_mutex l) /\ (exists f, In f progs /\ lf_name f = ls_fn l) /\
               Forall (lock_disciplined (sem_of ms)) progs
  end.

Definition call_path_sites : list bsite := map BWait wait_sites ++ map BLock (lockp_sites ++ lockp_sites_conn).

Theorem all_blocking_sites_bounded : Forall (bsite_bounded lockp_mutexes lockp_progs) call_path_sites.
Proof.
  unfold call_path_sites. apply Forall_app. split; apply Forall_map; cbn [bsite_bounded]; [exact wait_sites_ok|].
  eapply Forall_impl; [|exact (Forall_and lock_sites_plain lock_sites_covered)].
  intros l [H1 H2]. split; [exact H1|]. split; [exact H2|exact lock_progs_disciplined].
Qed.

(* the tables are not empty and contain what the property text names *)
Definition has_prog (name : list Z) : bool := existsb (fun f => name_eqb (lf_name f) name) lockp_progs.
Definition has_mutex (name : list Z) : bool := existsb (fun x => name_eqb (lm_name x) name && negb (lm_sem x)) lockp_mutexes.
Definition sites_of_mutex (name : list Z) : nat :=
  length (filter (fun l => existsb (fun x => name_eqb (lm_name x) name && (lm_id x =? ls_mutex l)) lockp_mutexes) (lockp_sites ++ lockp_sites_conn)).

(* (4) an execution of a disciplined lock program IS a thread of (3) *)
Section Link.
  Variable sem : Z -> bool.
  Notation ids := (plain_ids sem).

  Lemma ids_cons x h : ids (x :: h) = if sem (fst x) then ids h else fst x :: ids h.
  Proof. unfold plain_ids. cbn [filter]. destruct (sem (fst x)); reflexivity. Qed.

  Lemma in_ids m h : In m (ids h) -> exists x, In x h /\ fst x = m.
  Proof.
    unfold plain_ids. intros H. apply in_map_iff in H. destruct H as [x [E Hx]]. apply filter_In in Hx.
    exists x. split; [apply Hx|exact E].
  Qed.

  Lemma remove1_in x h h1 : remove1 x h = Some h1 -> In x h.
  Proof.
    revert h1. induction h as [|y r IH]; intros h1 H; cbn [remove1] in H; [discriminate H|].
    destruct (hitem_eqb x y) eqn:E; [apply hitem_eqb_eq in E; left; symmetry; exact E|].
    destruct (remove1 x r) as [r'|]; [|discriminate H]. right. eapply IH. reflexivity.
  Qed.

  Lemma in_ids_plain m rd h : In (m, rd) h -> sem m = false -> In m (ids h).
  Proof.
    intros Hin Hs. unfold plain_ids. apply in_map_iff. exists (m, rd). split; [reflexivity|].
    apply filter_In. split; [exact Hin|]. cbn [fst]. now rewrite Hs.
  Qed.

  Lemma remove1_ids m rd : forall h h1, remove1 (m, rd) h = Some h1 -> NoDup (ids h) ->
    ids h1 = (if sem m then ids h else zremove m (ids h)) /\ NoDup (ids h1).
  Proof.
    induction h as [|y r IH]; intros h1 H Hnd; cbn [remove1] in H; [discriminate H|].
    destruct (hitem_eqb (m, rd) y) eqn:E.
    - apply hitem_eqb_eq in E. subst y. injection H as H. subst h1. rewrite ids_cons in *. cbn [fst] in *.
      destruct (sem m); [split; [reflexivity|exact Hnd]|]. cbn [zremove]. rewrite Z.eqb_refl.
      split; [reflexivity|]. inversion Hnd. assumption.
    - destruct (remove1 (m, rd) r) as [r'|] eqn:Er; [|discriminate H]. injection H as H. subst h1.
      rewrite !ids_cons in *. destruct (sem (fst y)) eqn:Es.
      + destruct (IH r' eq_refl Hnd) as [I1 I2]. split; assumption.
      + inversion Hnd as [|? ? Hn Hr]. subst. destruct (IH r' eq_refl Hr) as [I1 I2].
        destruct (sem m) eqn:Esm.
        * split; [rewrite I1; reflexivity|]. constructor; [rewrite I1|exact I2]. exact Hn.
        * cbn [zremove]. destruct (m =? fst y) eqn:Em.
          -- (* the same mutex in another mode below: excluded by NoDup *)
             exfalso. apply Z.eqb_eq in Em. apply Hn. rewrite <- Em.
             exact (in_ids_plain m rd r (remove1_in _ _ _ Er) Esm).
          -- split; [rewrite I1; reflexivity|]. constructor; [|exact I2].
             intros X. apply Hn. rewrite I1 in X. eapply zremove_incl, X.
  Qed.

  Lemma forallb_lt_ids m h : (forall x, In x h -> m < fst x) -> forallb (fun y => m <? y) (ids h) = true.
  Proof.
    intros H. apply forallb_forall. intros y Hy. apply in_ids in Hy. destruct Hy as [x [Hx E]]. subst y.
    specialize (H x Hx). lia.
  Qed.

  Lemma not_in_ids m h : (forall x, In x h -> m < fst x) -> ~ In m (ids h).
  Proof. intros H X. apply in_ids in X. destruct X as [x [Hx E]]. specialize (H x Hx). lia. Qed.

  (* [leads h ops h']: the operations [ops] take a thread that holds the plain mutexes of h to one that
     holds those of h', and are accepted on the way, whatever accepted operations follow *)
  Definition leads (h : list hitem) (ops : list lop) (h' : list hitem) : Prop :=
    NoDup (ids h) -> NoDup (ids h') /\ forall rest, ops_ok (ids h') rest = true -> ops_ok (ids h) (ops ++ rest) = true.

  Lemma leads_nil h : leads h [] h.
  Proof. intros Hnd. auto. Qed.

  Lemma leads_app h a h1 b h' : leads h a h1 -> leads h1 b h' -> leads h (a ++ b) h'.
  Proof.
    intros Ha Hb Hnd. destruct (Ha Hnd) as [Hnd1 A]. destruct (Hb Hnd1) as [Hnd' B]. split; [exact Hnd'|].
    intros rest H. rewrite <- app_assoc. apply A, B, H.
  Qed.

  Lemma leads_acq m rd h : (forall x, In x h -> m < fst x) -> leads h (if sem m then [] else [OAcq m]) ((m, rd) :: h).
  Proof.
    intros He Hnd. rewrite ids_cons. cbn [fst]. destruct (sem m); [auto|]. split.
    - constructor; [apply not_in_ids, He|exact Hnd].
    - intros rest H. cbn [app ops_ok]. now rewrite forallb_lt_ids by exact He.
  Qed.

  Lemma leads_rel m rd h h1 : remove1 (m, rd) h = Some h1 -> leads h (if sem m then [] else [ORel m]) h1.
  Proof.
    intros Hr Hnd. destruct (remove1_ids m rd h h1 Hr Hnd) as [E1 Hnd1]. split; [exact Hnd1|]. rewrite E1.
    destruct (sem m) eqn:Esm; [auto|]. intros rest H. cbn [app ops_ok]. rewrite H, andb_true_r.
    apply existsb_eqb_in. exact (in_ids_plain m rd h (remove1_in _ _ _ Hr) Esm).
  Qed.

  (* a callee takes and releases m *)
  Lemma leads_in m h : (forall x, In x h -> m < fst x) -> leads h (if sem m then [] else [OAcq m; ORel m]) h.
  Proof.
    intros He Hnd. split; [exact Hnd|]. destruct (sem m); [auto|]. intros rest H.
    cbn [app ops_ok existsb zremove]. rewrite forallb_lt_ids, Z.eqb_refl by exact He. exact H.
  Qed.

  Lemma leads_wait h : (forall x, In x h -> sem (fst x) = true) -> leads h [OWait] h.
  Proof.
    intros He Hnd. split; [exact Hnd|]. intros rest H. cbn [app ops_ok].
    assert (E : ids h = []).
    { unfold plain_ids. destruct (filter (fun x => negb (sem (fst x))) h) as [|x q] eqn:Ef; [reflexivity|]. exfalso.
      assert (Hx : In x (filter (fun x => negb (sem (fst x))) h)) by (rewrite Ef; left; reflexivity).
      apply filter_In in Hx. destruct Hx as [Hx Hs]. rewrite (He x Hx) in Hs. discriminate Hs. }
    rewrite E in *. exact H.
  Qed.

  (* a run whose events are all allowed leads from its initial lock state to its final one: each
     event's locks-held annotation is the lock state at that moment *)
  Definition run_leads (s : hst) (s' : hst) (tr : ltrace) : Prop :=
    Forall (ev_ok sem) tr -> leads (h_held s) (ops_of_trace sem tr) (h_held s').

  Lemma run_leads_app s s1 s2 tr1 tr2 : run_leads s s1 tr1 -> run_leads s1 s2 tr2 -> run_leads s s2 (tr1 ++ tr2).
  Proof.
    intros H1 H2 Hok. apply Forall_app in Hok. unfold ops_of_trace. rewrite flat_map_app.
    exact (leads_app _ _ _ _ _ (H1 (proj1 Hok)) (H2 (proj2 Hok))).
  Qed.

  Lemma run_leads_ev s s' e : (ev_ok sem e -> leads (h_held s) (ops_of_ev sem e) (h_held s')) -> run_leads s s' [e].
  Proof.
    intros H Hok. unfold ops_of_trace. cbn [flat_map]. rewrite app_nil_r. apply H. exact (Forall_inv Hok).
  Qed.

  Lemma run_is_leads :
    (forall st s c s' tr, xs st s c s' tr -> run_leads s s' tr) /\
    (forall b s c s' tr, xb b s c s' tr -> run_leads s s' tr).
  Proof.
    (* the structural rules hand on their premise, have an empty trace (or only a refused release, which no
       allowed run contains and which maps to no operation), or concatenate two runs; the events remain *)
    apply xsb_ind; intros; try assumption; try (intros _; apply leads_nil); try (eapply run_leads_app; eassumption).
    - (* XLock *) apply run_leads_ev. exact (leads_acq m rd (h_held s)).
    - (* XUnlock *) apply run_leads_ev. intros _. apply leads_rel with (rd := rd). assumption.
    - (* XBlock *) apply run_leads_ev. exact (leads_wait (h_held s)).
    - (* XCall *) apply (run_leads_app s s s); [destruct blk; [apply run_leads_ev; exact (leads_wait (h_held s))|intros _; apply leads_nil]|].
      induction acq as [|m r IH]; [intros _; apply leads_nil|].
      apply (run_leads_app s s s [_]); [|exact IH]. apply run_leads_ev. exact (leads_in m (h_held s)).
  Qed.

  (* the deferred unlocks at a clean exit *)
  Lemma leads_exit : forall dfr held, run_defers dfr held = Some [] -> leads held (map ORel (ids dfr)) [].
  Proof.
    induction dfr as [|[m rd] r IH]; intros held H; cbn [run_defers] in H.
    - injection H as ->. apply leads_nil.
    - destruct (remove1 (m, rd) held) as [h1|] eqn:Er; [|discriminate H].
      rewrite ids_cons. cbn [fst]. pose proof (leads_app _ _ _ _ _ (leads_rel m rd held h1 Er) (IH h1 H)) as L.
      destruct (sem m); exact L.
  Qed.

  (* THE LINK: every non-panicking execution of a disciplined lock program performs a list of
     lock operations that the thread model accepts *)
  Theorem run_is_thread : forall f, lock_disciplined sem f ->
    forall c s tr, xb (lf_body f) hinit c s tr -> c <> CPanic -> ops_ok [] (thread_of_run sem tr s) = true.
  Proof.
    intros f Hd c s tr Hx Hc. destruct (Hd c s tr Hx) as [Hexit Hev].
    destruct Hexit as [E|[_ E]]; [contradiction|].
    destruct (leads_app _ _ _ _ _ (proj2 run_is_leads _ _ _ _ _ Hx Hev) (leads_exit _ _ E) (NoDup_nil _)) as [_ L].
    unfold thread_of_run, exit_ops. rewrite <- (app_nil_r (_ ++ _)). exact (L [] eq_refl).
  Qed.
End Link.

(* ... so any number of goroutines, each executing any of the generated lock programs along any of
   its paths, in any interleaving, never leave a mutex waiter behind a holder that cannot finish:
   C05_lock_wait_bounded applies to them *)
Theorem generated_programs_bound_lock_waits : forall runs : list (lfunc * ltrace * hst),
  Forall (fun r => let '(f, tr, s) := r in In f lockp_progs /\ exists c, c <> CPanic /\ xb (lf_body f) hinit c s tr) runs ->
  forall ls st, trun (tinit (map (fun r => let '(f, tr, s) := r in thread_of_run (sem_of lockp_mutexes) tr s) runs)) ls = Some st ->
  (~ all_free st -> exists i held ops, nth i st ([], []) = (held, ops) /\ held <> [] /\ exists s1, tstep st (TStep i) = Some s1) /\
  (exists ls' s', Forall is_tstep ls' /\ length ls' = sections_left st /\ trun st ls' = Some s' /\ all_free s').
Proof.
  intros runs Hruns ls st Hrun. eapply lock_wait_bounded; [|exact Hrun].
  apply Forall_forall. intros ops Hin. apply in_map_iff in Hin. destruct Hin as [[[f tr] s] [E Hr]]. subst ops.
  rewrite Forall_forall in Hruns. specialize (Hruns _ Hr). cbn beta iota in Hruns. destruct Hruns as [Hf [c [Hc Hx]]].
  pose proof lock_progs_disciplined as D. rewrite Forall_forall in D. eapply run_is_thread; [apply D, Hf|exact Hx|exact Hc].
Qed.
