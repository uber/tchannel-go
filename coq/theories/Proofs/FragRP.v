(* Proofs about the fragment READER of Model/Frag.v (section "R. Reader" of TARGETS_frag.md).
   Main theorems (all premises: wf fs, ck_new (first_ctype fs) = Some ck0, ck_chain ck0 fs,
   denote (chunks_of fs) = [a1; a2; a3]):
     reader_eof     reads running past EOF: every code 0/12, data = a_i, final state, all released
     reader_helper  the ArgReadHelper path (ReadAll / EnsureEmpty / Close) returns (a_i, 0)
     reader_safe    arbitrary read sizes >= 0: no panic; an argument whose Begin/reads/Close all
                    succeed has data = a_i; data is always a prefix of a_i; errors are sticky
   and the same three statements through r_run of Model/FragWire.v (reader_*_run).
   Invariant: Inv N st h t -- h = what is left of the argument in progress, t = the later
   arguments, computed from the events still to come (split_evs (ev_rest st)). *)
From Coq Require Import ZArith List Bool Lia.
From Verif Require Import Base.Wrap Base.Bytes Base.Wire Gen.GenConsts Model.Crc Model.Frag
  Model.FragWire Spec.FragSpec Spec.FragOk.
Import ListNotations.
Local Open Scope Z_scope.

(* Statement-level definitions *)

Definition wf (fs : list frag) : Prop := exists capf, frames_ok capf fs.
Definition first_ctype (fs : list frag) : Z := match fs with f :: _ => f_ctype f | [] => 0 end.

(* a sequence of Read calls with the given buffer sizes: per read (bytes, code) *)
Fixpoint reads (ns : list Z) (st : rst) : option (list (list Z * Z) * rst) :=
  match ns with
  | [] => Some ([], st)
  | n :: r => match r_read n st with
              | None => None
              | Some (bs, c, st1) =>
                  match reads r st1 with
                  | None => None
                  | Some (l, st2) => Some ((bs, c) :: l, st2)
                  end
              end
  end.

(* one argument: Begin, reads of the given sizes (all of them, also past EOF), Close.
   Result: begin code, per-read (bytes, code), close code, state.  None = panic. *)
Definition arg_read (last : bool) (ns : list Z) (st : rst) : option (Z * list (list Z * Z) * Z * rst) :=
  match r_begin last st with
  | None => None
  | Some (cb, st1) =>
      match reads ns st1 with
      | None => None
      | Some (l, st2) =>
          match r_close st2 with
          | None => None
          | Some (cc, st3) => Some (cb, l, cc, st3)
          end
      end
  end.

(* one argument through the ArgReadHelper: Begin, then ReadAll/EnsureEmpty/Close *)
Definition arg_helper (last : bool) (bufsz : Z) (st : rst) : option (Z * list Z * Z * rst) :=
  match r_begin last st with
  | None => None
  | Some (cb, st1) =>
      match r_helper_read bufsz st1 with
      | None => None
      | Some (bs, c, st2) => Some (cb, bs, c, st2)
      end
  end.

Definition zsum (ns : list Z) : Z := fold_right Z.add 0 ns.
Definition data_of (l : list (list Z * Z)) : list Z := concat (map fst l).

(* codes: 0 = nil, 12 = io.EOF; everything else is an error *)
Definition is_err (c : Z) : Prop := c <> 0 /\ c <> 12.
Definition code_ok (x : list Z * Z) : Prop := snd x = 0 \/ snd x = 12.

Definition arg_ok (cb : Z) (l : list (list Z * Z)) (cc : Z) : Prop := cb = 0 /\ Forall code_ok l /\ cc = 0.

Definition ops_of (cb : Z) (l : list (list Z * Z)) (cc : Z) : list (list Z * Z) := ([], cb) :: l ++ [([], cc)].

(* after the first error every later operation returns that error and no data *)
Fixpoint sticky (l : list (list Z * Z)) : Prop :=
  match l with
  | [] => True
  | x :: r => (is_err (snd x) -> Forall (fun y => y = ([], snd x)) r) /\ sticky r
  end.

(* final state of a completely read message of N fragments *)
Definition r_final (N : Z) (st : rst) : Prop :=
  rs_state st = c_fragmentingReadComplete /\ rs_fin st = true /\ rs_rel st = N /\ rs_err st = 0.

(* Events read from the right: (rest of the argument in progress, later arguments) *)
Definition sp_step (e : chunk_ev) (p : list Z * list (list Z)) : list Z * list (list Z) :=
  match e with
  | Cont c => (c ++ fst p, snd p)
  | New c => ([], (c ++ fst p) :: snd p)
  end.
Definition split_evs (evs : list chunk_ev) : list Z * list (list Z) := fold_right sp_step ([], []) evs.

Lemma denote_events_split evs : forall cl cu,
  fst (fold_left ev_step evs (cl, cu)) ++ [snd (fold_left ev_step evs (cl, cu))]
  = cl ++ (cu ++ fst (split_evs evs)) :: snd (split_evs evs).
Proof.
  induction evs as [|e evs IH]; intros cl cu.
  - cbn. rewrite app_nil_r. reflexivity.
  - cbn [fold_left split_evs fold_right]. fold (split_evs evs).
    destruct e as [c|c]; cbn [ev_step fst snd sp_step]; rewrite IH.
    + rewrite <- app_assoc. reflexivity.
    + rewrite <- app_assoc. cbn [app]. rewrite app_nil_r. reflexivity.
Qed.

Lemma denote_split frags :
  denote frags = fst (split_evs (flat_map frag_events frags)) :: snd (split_evs (flat_map frag_events frags)).
Proof.
  unfold denote, denote_events.
  pose proof (denote_events_split (flat_map frag_events frags) [] []) as H.
  destruct (fold_left ev_step (flat_map frag_events frags) ([], [])) as [closed cur].
  cbn [fst snd app] in H. exact H.
Qed.

Lemma split_evs_app a b : split_evs (a ++ b) = fold_right sp_step (split_evs b) a.
Proof. unfold split_evs. apply fold_right_app. Qed.

(* The reader invariant *)
Definition evs_in (fs : list frag) : list chunk_ev := flat_map frag_events (chunks_of fs).
Definition ev_tail (st : rst) : list chunk_ev := map New (rs_rem st) ++ evs_in (rs_in st).
Definition ev_rest (st : rst) : list chunk_ev := Cont (rs_cur st) :: ev_tail st.

Fixpoint fr_ok (fs : list frag) : Prop :=
  match fs with
  | [] => True
  | f :: r => f_chunks f <> [] /\ (f_more f = true <-> r <> []) /\ fr_ok r
  end.

Lemma frames_ok_from_fr_ok capf : forall fs b, frames_ok_from capf b fs -> fr_ok fs.
Proof.
  induction fs as [|f r IH]; intros b H; cbn [fr_ok frames_ok_from] in *; [exact I|].
  destruct H as (H1 & _ & H3 & H4). split; [exact H1|]. split; [exact H3|]. exact (IH _ H4).
Qed.

Definition ck_ok (st : rst) : Prop :=
  exists c, ck_chain c (rs_in st) /\
            match rs_ck st with Some c' => c' = c | None => ck_new (first_ctype (rs_in st)) = Some c end.

Record Inv (N : Z) (st : rst) (h : list Z) (t : list (list Z)) : Prop := mkInv {
  inv_err : rs_err st = 0;
  inv_split : split_evs (ev_rest st) = (h, t);
  inv_fr : fr_ok (rs_in st);
  inv_more : rs_more st = true <-> rs_in st <> [];
  inv_ck : ck_ok st;
  inv_got : rs_got st + zlen (rs_in st) = N
}.

Ltac prj := cbn [rs_state rs_err rs_rem rs_cur rs_more rs_in rs_ck rs_got rs_rel rs_fin].
Ltac prj_in H := cbn [rs_state rs_err rs_rem rs_cur rs_more rs_in rs_ck rs_got rs_rel rs_fin] in H.
Ltac prj_all := cbn [rs_state rs_err rs_rem rs_cur rs_more rs_in rs_ck rs_got rs_rel rs_fin] in *.

Definition at_eof (st : rst) : Prop := rs_cur st = [] /\ (rs_rem st <> [] \/ rs_more st = false).

Lemma split_rest st :
  split_evs (ev_rest st) = (rs_cur st ++ fst (split_evs (ev_tail st)), snd (split_evs (ev_tail st))).
Proof. reflexivity. Qed.

Lemma split_tail_cons c cs E :
  split_evs (map New (c :: cs) ++ E) = ([], (c ++ fst (split_evs (map New cs ++ E))) :: snd (split_evs (map New cs ++ E))).
Proof. reflexivity. Qed.

Lemma evs_in_cons f r : evs_in (f :: r) = frag_events (f_chunks f) ++ evs_in r.
Proof. reflexivity. Qed.

Lemma zlen_cons {A} (x : A) l : zlen (x :: l) = 1 + zlen l.
Proof. unfold zlen. cbn [length]. lia. Qed.

Lemma zlen_nil_inv {A} (l : list A) : zlen l <= 0 -> l = [].
Proof. destruct l; [reflexivity|]. rewrite zlen_cons. pose proof (zlen_nonneg l). lia. Qed.

Lemma inv_state N st h t s rel fin : Inv N st h t ->
  Inv N (mkRst s 0 (rs_rem st) (rs_cur st) (rs_more st) (rs_in st) (rs_ck st) (rs_got st) rel fin) h t.
Proof. intros [Ie Is If Im Ic Ig]. constructor; prj; try assumption. reflexivity. Qed.

Lemma inv_next_chunk N st h t c cs : Inv N st h t -> rs_cur st = [] -> rs_rem st = c :: cs ->
  h = [] /\ exists a t', t = a :: t' /\
    Inv N (mkRst (rs_state st) 0 cs c (rs_more st) (rs_in st) (rs_ck st) (rs_got st) (rs_rel st) (rs_fin st)) a t'.
Proof.
  intros [Ie Is If Im Ic Ig] Hc Hr. rewrite split_rest, Hc in Is. unfold ev_tail in Is. rewrite Hr, split_tail_cons in Is.
  injection Is as <- <-. split; [reflexivity|]. eexists. eexists. split; [reflexivity|].
  constructor; prj; try assumption; [reflexivity|]. rewrite split_rest. reflexivity.
Qed.

Lemma rs_in_nil_of_more N st h t : Inv N st h t -> rs_more st = false -> rs_in st = [].
Proof.
  intros I Hm. destruct (rs_in st) eqn:E; [reflexivity|].
  pose proof (inv_more _ _ _ _ I) as [_ M]. rewrite E, Hm in M. discriminate M. discriminate.
Qed.

Lemma inv_end N st h t : Inv N st h t -> rs_cur st = [] -> rs_rem st = [] -> rs_more st = false ->
  h = [] /\ t = [] /\ rs_got st = N.
Proof.
  intros I Hc Hr Hm. pose proof (rs_in_nil_of_more _ _ _ _ I Hm) as Ei. destruct I as [Ie Is If Im Ic Ig].
  rewrite split_rest, Hc in Is. unfold ev_tail in Is. rewrite Hr, Ei in Is. injection Is as <- <-.
  rewrite Ei in Ig. change (zlen (@nil frag)) with 0 in Ig. split; [reflexivity|]. split; [reflexivity|lia].
Qed.

Lemma at_eof_nil N st h t : Inv N st h t -> at_eof st -> h = [].
Proof.
  intros I [Hc Hr]. destruct (rs_rem st) as [|c cs] eqn:Er.
  - destruct Hr as [Hr|Hr]; [congruence|]. exact (proj1 (inv_end _ _ _ _ I Hc Er Hr)).
  - exact (proj1 (inv_next_chunk _ _ _ _ _ _ I Hc Er)).
Qed.

(* recvAndParseNextFragment succeeds on well-formed input *)
Lemma recv_ok N st h t :
  Inv N st h t -> rs_cur st = [] -> rs_rem st = [] -> rs_more st = true ->
  exists st', r_recv st = Some (0, st') /\ Inv N st' h t /\
              rs_state st' = rs_state st /\ rs_fin st' = rs_fin st /\
              (length (rs_in st') < length (rs_in st))%nat.
Proof.
  intros [Ie Is If Im Ic Ig] Hc Hr Hm.
  destruct st as [s e rem cur more inn ck got rel fin]. prj_all. subst e cur rem more.
  destruct inn as [|f rest]; [destruct Im as [Im _]; exfalso; apply Im; reflexivity|].
  cbn [fr_ok] in If. destruct If as (Hch & Hmore & Hfr).
  destruct Ic as (c & Hchain & Hck). prj_all. cbn [ck_chain] in Hchain.
  destruct Hchain as (Hsum & Hty & Hrest).
  destruct (f_chunks f) as [|ch chs] eqn:Ech; [congruence|].
  unfold r_recv. prj. cbn [Z.eqb negb].
  replace (match ck with Some c0 => Some c0 | None => ck_new (f_ctype f) end) with (Some c)
    by (destruct ck; [congruence|symmetry; exact Hck]).
  rewrite Hty, Z.eqb_refl, Ech, (proj2 (bytes_eqb_eq _ _) Hsum). cbn [negb andb].
  eexists. split; [reflexivity|]. prj. split; [|split; [reflexivity|split; [reflexivity|cbn [length]; lia]]].
  constructor; prj.
  - reflexivity.
  - rewrite <- Is. unfold ev_rest, ev_tail. prj. rewrite evs_in_cons, Ech.
    cbn [map app frag_events]. unfold split_evs. cbn [fold_right sp_step fst snd app].
    match goal with |- ?x = _ => destruct x; reflexivity end.
  - exact Hfr.
  - exact Hmore.
  - exists (fold_left ck_add (ch :: chs) c). prj. split; [exact Hrest|reflexivity].
  - rewrite zlen_cons in Ig. lia.
Qed.

(* Read *)
Definition read_post (N : Z) (st : rst) (h : list Z) (t : list (list Z)) (n : Z)
           (bs : list Z) (c : Z) (st' : rst) : Prop :=
  exists h', h = bs ++ h' /\ Inv N st' h' t /\
             rs_state st' = rs_state st /\ rs_fin st' = rs_fin st /\
             ((c = 0 /\ zlen bs = n) \/ (c = 12 /\ h' = [] /\ zlen bs < n /\ at_eof st')).

Lemma inv_skip N st h t k : Inv N st h t ->
  exists h1, h = firstn k (rs_cur st) ++ h1 /\
    Inv N (mkRst (rs_state st) (rs_err st) (rs_rem st) (skipn k (rs_cur st)) (rs_more st) (rs_in st)
                 (rs_ck st) (rs_got st) (rs_rel st) (rs_fin st)) h1 t.
Proof.
  intros [Ie Is If Im Ic Ig]. rewrite split_rest in Is. injection Is as Is1 Is2.
  exists (skipn k (rs_cur st) ++ fst (split_evs (ev_tail st))). split.
  - rewrite app_assoc, firstn_skipn. symmetry. exact Is1.
  - constructor; prj; try assumption. rewrite split_rest. unfold ev_tail in *. prj. rewrite Is2. reflexivity.
Qed.

Lemma read_loop_ok N : forall fuel n acc st h t,
  Inv N st h t -> 0 <= n -> (length (rs_in st) < fuel)%nat ->
  exists bs c st', r_read_loop fuel n acc st = Some (acc ++ bs, c, st') /\ read_post N st h t n bs c st'.
Proof.
  induction fuel as [|fuel IH]; intros n acc st h t I Hn Hf; [lia|].
  cbn [r_read_loop]. cbv zeta. set (k := Z.min n (zlen (rs_cur st))).
  destruct (inv_skip N st h t (Z.to_nat k) I) as (h1 & Hh & I1).
  set (bs0 := firstn (Z.to_nat k) (rs_cur st)) in *. set (st1 := mkRst _ _ _ (skipn _ _) _ _ _ _ _ _) in *.
  assert (Hk : zlen bs0 = k) by (unfold bs0, zlen in *; rewrite firstn_length; lia).
  destruct (n - k =? 0) eqn:E.
  - (* the current chunk satisfies the read *)
    exists bs0, 0, st1. split; [reflexivity|]. exists h1.
    split; [exact Hh|]. split; [exact I1|]. split; [reflexivity|]. split; [reflexivity|]. left. lia.
  - (* the current chunk is exhausted *)
    assert (Ec : rs_cur st1 = []).
    { unfold st1. prj. replace (Z.to_nat k) with (length (rs_cur st)) by (unfold zlen in *; lia). apply skipn_all. }
    assert (Eof : at_eof st1 -> read_post N st h t n bs0 12 st1).
    { intros E1. pose proof (at_eof_nil _ _ _ _ I1 E1) as ->. exists [].
      split; [exact Hh|]. split; [exact I1|]. split; [reflexivity|]. split; [reflexivity|].
      right. split; [reflexivity|]. split; [reflexivity|]. split; [lia|exact E1]. }
    destruct (rs_rem st1) as [|r0 rs] eqn:Er; [destruct (rs_more st1) eqn:Em; cbn [negb]|].
    + (* fetch the next fragment *)
      destruct (recv_ok N st1 h1 t I1 Ec Er Em) as (st2 & R & I2 & Hs2 & Hf2 & Hl2). rewrite R. cbn [Z.eqb].
      destruct (IH (n - k) (acc ++ bs0) st2 h1 t I2) as (bs & c & st' & RL & (h' & Hh' & I' & Hs' & Hf' & Hc));
        [clear - E Hn; lia|unfold st1 in Hl2; prj_in Hl2; clear - Hl2 Hf; lia|].
      rewrite RL. exists (bs0 ++ bs), c, st'. split; [rewrite app_assoc; reflexivity|].
      exists h'. split; [rewrite Hh, Hh', app_assoc; reflexivity|]. split; [exact I'|].
      split; [rewrite Hs', Hs2; reflexivity|]. split; [rewrite Hf', Hf2; reflexivity|]. rewrite zlen_app, Hk.
      destruct Hc as [[Hc1 Hc2]|(Hc1 & Hc2 & Hc3 & Hc4)]; [left; split; [exact Hc1|clear - Hc2; lia]|right].
      split; [exact Hc1|]. split; [exact Hc2|]. split; [clear - Hc3; lia|exact Hc4].
    + (* no more fragments: EOF *)
      exists bs0, 12, st1. split; [reflexivity|]. apply Eof. split; [exact Ec|right; exact Em].
    + (* further chunks in this fragment: EOF of this argument *)
      exists bs0, 12, st1. split; [reflexivity|]. apply Eof. split; [exact Ec|left]. rewrite Er. discriminate.
Qed.

Lemma read_ok N st h t n :
  Inv N st h t -> is_reading (rs_state st) = true -> 0 <= n ->
  exists bs c st', r_read n st = Some (bs, c, st') /\ read_post N st h t n bs c st'.
Proof.
  intros I Hr Hn. unfold r_read. rewrite (inv_err _ _ _ _ I), Hr. cbn [Z.eqb negb].
  destruct (read_loop_ok N (S (length (rs_in st))) n [] st h t I Hn ltac:(lia)) as (bs & c & st' & R & P).
  exists bs, c, st'. split; [exact R|exact P].
Qed.

Lemma reads_ok N : forall ns st h t,
  Inv N st h t -> is_reading (rs_state st) = true -> Forall (fun n => 0 <= n) ns ->
  exists l h' st', reads ns st = Some (l, st') /\ Forall code_ok l /\ h = data_of l ++ h' /\
                   Inv N st' h' t /\ rs_state st' = rs_state st /\ rs_fin st' = rs_fin st /\
                   (Forall (fun n => 0 < n) ns -> at_eof st \/ zsum ns > zlen h -> at_eof st').
Proof.
  induction ns as [|n ns IH]; intros st h t I Hr Hns.
  - exists [], h, st. cbn [reads]. split; [reflexivity|]. split; [constructor|]. split; [reflexivity|].
    split; [exact I|]. split; [reflexivity|]. split; [reflexivity|].
    intros _ [H|H]; [exact H|]. cbn in H. pose proof (zlen_nonneg h). lia.
  - pose proof (Forall_inv Hns) as Hn. pose proof (Forall_inv_tail Hns) as Hns'. cbv beta in Hn.
    destruct (read_ok N st h t n I Hr Hn) as (bs & c & st1 & R & (h1 & Hh & I1 & Hs1 & Hf1 & Hc)).
    assert (Hr1 : is_reading (rs_state st1) = true) by (rewrite Hs1; exact Hr).
    destruct (IH st1 h1 t I1 Hr1 Hns') as (l & h' & st' & RS & Hl & Hd & I' & Hs' & Hf' & Heof).
    cbn [reads]. rewrite R, RS. exists ((bs, c) :: l), h', st'.
    split; [reflexivity|]. split.
    { constructor; [|exact Hl]. unfold code_ok. cbn [snd]. destruct Hc as [[-> _]|[-> _]]; [left|right]; reflexivity. }
    split.
    { unfold data_of in *. cbn [map fst concat]. rewrite <- app_assoc, <- Hd. exact Hh. }
    split; [exact I'|]. split; [congruence|]. split; [congruence|].
    intros Hpos Hsum. pose proof (Forall_inv_tail Hpos) as Hpos'. apply Heof; [exact Hpos'|].
    destruct Hc as [[_ Hz]|(_ & _ & _ & He)]; [|left; exact He].
    right. destruct Hsum as [He|Hsum].
    + pose proof (at_eof_nil _ _ _ _ I He) as E. rewrite E in Hh. symmetry in Hh.
      apply app_eq_nil in Hh. destruct Hh as [Hb _]. rewrite Hb in Hz.
      pose proof (Forall_inv Hpos) as Hn0. cbv beta in Hn0. change (zlen (@nil Z)) with 0 in Hz. clear - Hz Hn0. lia.
    + cbn [zsum fold_right] in Hsum. fold (zsum ns) in Hsum. rewrite Hh, zlen_app in Hsum. clear - Hsum Hz. lia.
Qed.

(* Close *)
Lemma is_err_6 : is_err 6. Proof. split; lia. Qed.
Lemma is_err_4 : is_err 4. Proof. split; lia. Qed.
Lemma is_err_5 : is_err 5. Proof. split; lia. Qed.

Lemma close_next_ok N : forall fuel st h t,
  Inv N st h t -> rs_cur st = [] -> (length (rs_in st) < fuel)%nat ->
  exists c st', r_close_next fuel st = Some (c, st') /\
    ((c = 0 /\ h = [] /\ exists a t', t = a :: t' /\ Inv N st' a t' /\
                                      rs_state st' = rs_state st /\ rs_fin st' = rs_fin st)
     \/ (is_err c /\ rs_err st' = c)) /\
    (rs_rem st <> [] -> c = 0).
Proof.
  induction fuel as [|fuel IH]; intros st h t I Hc Hf; [lia|].
  cbn [r_close_next]. destruct (rs_rem st) as [|ch chs] eqn:Er.
  - destruct (rs_more st) eqn:Em; cbn [negb].
    + destruct (recv_ok _ _ _ _ I Hc Er Em) as (st2 & R & I2 & Hs2 & Hf2 & Hl2).
      rewrite R. cbn [Z.eqb negb].
      destruct (zlen (rs_cur st2) >? 0) eqn:Ez.
      * exists 4. eexists. split; [reflexivity|]. split; [|intros H; congruence].
        right. split; [exact is_err_4|reflexivity].
      * destruct (IH st2 h t I2 (zlen_nil_inv (rs_cur st2) ltac:(lia)) ltac:(lia)) as (c & st' & RC & P & _).
        rewrite <- Hs2, <- Hf2. exists c, st'. split; [exact RC|]. split; [exact P|intros H; congruence].
    + exists 6. eexists. split; [reflexivity|]. split; [|intros H; congruence].
      right. split; [exact is_err_6|reflexivity].
  - destruct (inv_next_chunk _ _ _ _ _ _ I Hc Er) as (Eh & a & t' & Et & I').
    exists 0. eexists. split; [reflexivity|]. split; [|reflexivity].
    left. split; [reflexivity|]. split; [exact Eh|]. exists a, t'. prj. split; [exact Et|]. split; [exact I'|].
    split; reflexivity.
Qed.

Lemma close_ok N st h t :
  Inv N st h t -> is_reading (rs_state st) = true ->
  exists c st', r_close st = Some (c, st') /\
    ((c = 0 /\ h = [] /\
      (if rs_state st =? c_fragmentingReadInLastArgument then t = [] /\ r_final N st'
       else exists a t', t = a :: t' /\ Inv N st' a t' /\
                         rs_state st' = c_fragmentingReadWaitingForArgument /\ rs_fin st' = rs_fin st))
     \/ (is_err c /\ rs_err st' = c)) /\
    (at_eof st -> ((rs_state st =? c_fragmentingReadInLastArgument) = true <-> t = []) -> c = 0).
Proof.
  intros I Hr. unfold r_close. rewrite (inv_err _ _ _ _ I), Hr. cbn [Z.eqb negb].
  destruct (zlen (rs_cur st) >? 0) eqn:Ez.
  { exists 4. eexists. split; [reflexivity|]. split; [right; split; [exact is_err_4|reflexivity]|].
    intros [Hc _] _. rewrite Hc in Ez. cbn in Ez. discriminate. }
  assert (Ec : rs_cur st = []) by (apply zlen_nil_inv; lia).
  destruct (rs_state st =? c_fragmentingReadInLastArgument) eqn:El.
  - destruct (rs_rem st) as [|ch chs] eqn:Er; [destruct (rs_more st) eqn:Em|].
    + exists 5. eexists. split; [reflexivity|]. split; [right; split; [exact is_err_5|reflexivity]|].
      intros [_ [H|H]] _; congruence.
    + destruct (inv_end _ _ _ _ I Ec Er Em) as (Eh & Et & Eg).
      exists 0. eexists. split; [reflexivity|]. split; [|reflexivity].
      left. split; [reflexivity|]. split; [exact Eh|]. split; [exact Et|].
      unfold r_final. prj. split; [reflexivity|]. split; [reflexivity|]. split; [exact Eg|reflexivity].
    + (* a further chunk: there is a later argument, this one is not the last *)
      destruct (inv_next_chunk _ _ _ _ _ _ I Ec Er) as (_ & a & t' & Et & _).
      exists 5. eexists. split; [reflexivity|]. split; [right; split; [exact is_err_5|reflexivity]|].
      intros _ [Hl _]. rewrite (Hl eq_refl) in Et. discriminate.
  - destruct (close_next_ok N (S (length (rs_in st))) _ h t
                (inv_state N st h t c_fragmentingReadWaitingForArgument (rs_rel st) (rs_fin st) I) Ec ltac:(prj; lia))
      as (c & st' & RC & P & Q).
    exists c, st'. split; [exact RC|]. split; [exact P|].
    intros [_ He] [_ Hl]. apply Q. prj. destruct He as [He|He]; [exact He|].
    destruct (rs_rem st) eqn:Er; [|discriminate].
    destruct (inv_end _ _ _ _ I Ec Er He) as (_ & Et & _). discriminate (Hl Et).
Qed.

(* Begin, and one whole argument *)
(* between arguments: before the first fragment, or after a Close *)
Definition ready (st : rst) : Prop :=
  (rs_state st = c_fragmentingReadStart /\ rs_cur st = [] /\ rs_rem st = [] /\ rs_more st = true)
  \/ rs_state st = c_fragmentingReadWaitingForArgument.

Definition arg_state (last : bool) : Z :=
  if last then c_fragmentingReadInLastArgument else c_fragmentingReadInArgument.

Lemma begin_ok N st a t last :
  Inv N st a t -> ready st ->
  exists st', r_begin last st = Some (0, st') /\ Inv N st' a t /\
              rs_state st' = arg_state last /\ rs_fin st' = rs_fin st.
Proof.
  intros I Hrd. unfold r_begin. rewrite (inv_err _ _ _ _ I). cbn [Z.eqb negb].
  destruct Hrd as [(Hs & Hc & Hr & Hm)|Hs]; rewrite Hs; cbn -[r_recv].
  - destruct (recv_ok _ _ _ _ I Hc Hr Hm) as (st2 & R & I2 & Hs2 & Hf2 & _).
    rewrite R. cbn [Z.eqb]. eexists. split; [reflexivity|]. prj. fold (arg_state last).
    split; [exact (inv_state N st2 a t _ _ _ I2)|split; [reflexivity|exact Hf2]].
  - eexists. split; [reflexivity|]. prj. fold (arg_state last).
    split; [exact (inv_state N st a t _ _ _ I)|split; reflexivity].
Qed.

Lemma is_reading_arg_state last : is_reading (arg_state last) = true.
Proof. destruct last; reflexivity. Qed.

Lemma arg_state_last last : (arg_state last =? c_fragmentingReadInLastArgument) = last.
Proof. destruct last; reflexivity. Qed.

Definition is_last (t : list (list Z)) : bool := match t with [] => true | _ :: _ => false end.

Lemma is_last_iff t : is_last t = true <-> t = [].
Proof. destruct t; split; intros H; [reflexivity|reflexivity|discriminate|discriminate]. Qed.

Definition after_arg (N : Z) (st : rst) (t : list (list Z)) : Prop :=
  match t with [] => r_final N st | a' :: t' => Inv N st a' t' /\ ready st end.

Lemma after_arg_if N st t :
  (if is_last t then r_final N st else exists a' t', t = a' :: t' /\ Inv N st a' t' /\ ready st) -> after_arg N st t.
Proof. destruct t as [|a' t']; [exact (fun H => H)|]. intros (? & ? & E & H). injection E as <- <-. exact H. Qed.

Lemma arg_read_ok N ns st a t :
  Inv N st a t -> ready st -> Forall (fun n => 0 <= n) ns ->
  exists l cc st', arg_read (is_last t) ns st = Some (0, l, cc, st') /\ Forall code_ok l /\
    (exists h', a = data_of l ++ h') /\
    ((cc = 0 /\ a = data_of l /\ after_arg N st' t) \/ (is_err cc /\ rs_err st' = cc)) /\
    (Forall (fun n => 0 < n) ns -> zsum ns > zlen a -> cc = 0).
Proof.
  intros I Hrd Hns. unfold arg_read.
  destruct (begin_ok N st a t (is_last t) I Hrd) as (st1 & B & I1 & Hs1 & _). rewrite B.
  assert (Hr1 : is_reading (rs_state st1) = true) by (rewrite Hs1; apply is_reading_arg_state).
  destruct (reads_ok N ns st1 a t I1 Hr1 Hns) as (l & h' & st2 & RS & Hl & Hd & I2 & Hs2 & _ & Heof).
  rewrite RS.
  assert (Hr2 : is_reading (rs_state st2) = true) by (rewrite Hs2; exact Hr1).
  destruct (close_ok N st2 h' t I2 Hr2) as (cc & st3 & C & P & Q). rewrite C.
  rewrite Hs2, Hs1, arg_state_last in P, Q.
  exists l, cc, st3. split; [reflexivity|]. split; [exact Hl|]. split; [exists h'; exact Hd|]. split.
  - destruct P as [(P1 & P2 & P3)|P]; [left|right; exact P].
    split; [exact P1|]. split; [rewrite Hd, P2, app_nil_r; reflexivity|]. apply after_arg_if.
    destruct (is_last t); [exact (proj2 P3)|].
    destruct P3 as (a' & t' & P4 & P5 & P6 & _). exists a', t'. split; [exact P4|]. split; [exact P5|right; exact P6].
  - intros Hpos Hsum. apply Q; [|apply is_last_iff]. apply Heof; [exact Hpos|right; exact Hsum].
Qed.

(* once the error is set nothing is done any more *)
Lemma reads_err e : forall ns st, rs_err st = e -> e <> 0 ->
  reads ns st = Some (map (fun _ => ([], e)) ns, st).
Proof.
  induction ns as [|n ns IH]; intros st He Hne; cbn [reads map]; [reflexivity|].
  unfold r_read. rewrite He. replace (negb (e =? 0)) with true by lia. cbv iota.
  rewrite (IH st He Hne). reflexivity.
Qed.

Lemma arg_read_err last ns st e : rs_err st = e -> e <> 0 ->
  arg_read last ns st = Some (e, map (fun _ => ([], e)) ns, e, st).
Proof.
  intros He Hne. unfold arg_read, r_begin. rewrite He. replace (negb (e =? 0)) with true by lia. cbv iota.
  rewrite (reads_err e ns st He Hne). unfold r_close. rewrite He.
  replace (negb (e =? 0)) with true by lia. reflexivity.
Qed.

(* whatever the number of arguments the message denotes *)
Lemma init_inv_any fs ck0 :
  wf fs -> ck_new (first_ctype fs) = Some ck0 -> ck_chain ck0 fs ->
  exists h t, denote (chunks_of fs) = h :: t /\ Inv (zlen fs) (r_init fs) h t /\ ready (r_init fs).
Proof.
  intros [capf [Hne Hfr]] Hck Hchain. rewrite denote_split. eexists _, _. split; [reflexivity|]. split.
  - constructor; unfold r_init; prj.
    + reflexivity.
    + rewrite split_rest. unfold ev_tail. prj. cbn [map app]. unfold evs_in.
      destruct (split_evs (flat_map frag_events (chunks_of fs))); reflexivity.
    + exact (frames_ok_from_fr_ok _ _ _ Hfr).
    + split; [intros _; exact Hne|reflexivity].
    + exists ck0. prj. split; assumption.
    + lia.
  - left. unfold r_init. prj. repeat split; reflexivity.
Qed.

Lemma init_inv fs ck0 a1 a2 a3 :
  wf fs -> ck_new (first_ctype fs) = Some ck0 -> ck_chain ck0 fs ->
  denote (chunks_of fs) = [a1; a2; a3] ->
  Inv (zlen fs) (r_init fs) a1 [a2; a3] /\ ready (r_init fs).
Proof.
  intros Hwf Hck Hchain Hden. destruct (init_inv_any fs ck0 Hwf Hck Hchain) as (h & t & E & H).
  rewrite Hden in E. injection E as <- <-. exact H.
Qed.

Theorem reader_eof : forall fs ck0 a1 a2 a3,
  wf fs -> ck_new (first_ctype fs) = Some ck0 -> ck_chain ck0 fs ->
  denote (chunks_of fs) = [a1; a2; a3] ->
  forall ns1 ns2 ns3,
  Forall (fun n => 0 < n) ns1 -> Forall (fun n => 0 < n) ns2 -> Forall (fun n => 0 < n) ns3 ->
  zsum ns1 > zlen a1 -> zsum ns2 > zlen a2 -> zsum ns3 > zlen a3 ->
  exists l1 st1 l2 st2 l3 st3,
    arg_read false ns1 (r_init fs) = Some (0, l1, 0, st1) /\
    arg_read false ns2 st1 = Some (0, l2, 0, st2) /\
    arg_read true ns3 st2 = Some (0, l3, 0, st3) /\
    Forall code_ok l1 /\ Forall code_ok l2 /\ Forall code_ok l3 /\
    data_of l1 = a1 /\ data_of l2 = a2 /\ data_of l3 = a3 /\
    rs_state st3 = c_fragmentingReadComplete /\ rs_fin st3 = true /\
    rs_rel st3 = Z.of_nat (length fs) /\ rs_err st3 = 0.
Proof.
  intros fs ck0 a1 a2 a3 Hwf Hck Hchain Hden ns1 ns2 ns3 Hp1 Hp2 Hp3 Hs1 Hs2 Hs3.
  assert (W : forall ns, Forall (fun n => 0 < n) ns -> Forall (fun n => 0 <= n) ns).
  { intros ns H. eapply Forall_impl; [|exact H]. cbv beta. intros; lia. }
  destruct (init_inv fs ck0 a1 a2 a3 Hwf Hck Hchain Hden) as [I0 R0].
  destruct (arg_read_ok _ ns1 _ _ _ I0 R0 (W _ Hp1)) as (l1 & cc1 & st1 & A1 & C1 & _ & P1 & Q1).
  specialize (Q1 Hp1 Hs1). subst cc1.
  destruct P1 as [(_ & D1 & I1 & R1)|[[E _] _]]; [|congruence].
  destruct (arg_read_ok _ ns2 _ _ _ I1 R1 (W _ Hp2)) as (l2 & cc2 & st2 & A2 & C2 & _ & P2 & Q2).
  specialize (Q2 Hp2 Hs2). subst cc2.
  destruct P2 as [(_ & D2 & I2 & R2)|[[E _] _]]; [|congruence].
  destruct (arg_read_ok _ ns3 _ _ _ I2 R2 (W _ Hp3)) as (l3 & cc3 & st3 & A3 & C3 & _ & P3 & Q3).
  specialize (Q3 Hp3 Hs3). subst cc3.
  destruct P3 as [(_ & D3 & F1 & F2 & F3 & F4)|[[E _] _]]; [|congruence].
  exists l1, st1, l2, st2, l3, st3.
  repeat (split; [first [assumption | symmetry; assumption]|]). exact F4.
Qed.

(* reader_safe *)
Lemma sticky_app_good pre post :
  Forall code_ok pre -> sticky post -> sticky (pre ++ post).
Proof.
  induction pre as [|x pre IH]; intros Hg Hp; cbn [app sticky]; [exact Hp|].
  split.
  - intros [E1 E2]. pose proof (Forall_inv Hg) as [G|G]; congruence.
  - apply IH; [exact (Forall_inv_tail Hg)|exact Hp].
Qed.

Lemma sticky_all_err e l : Forall (fun y => y = ([], e)) l -> sticky l.
Proof.
  induction l as [|x l IH]; intros H; cbn [sticky]; [exact I|].
  pose proof (Forall_inv H) as Hx. pose proof (Forall_inv_tail H) as Hl. cbv beta in Hx. subst x. cbn [snd].
  split; [intros _; exact Hl|exact (IH Hl)].
Qed.

Lemma sticky_arg l cc rest :
  Forall code_ok l -> (is_err cc -> Forall (fun y => y = ([], cc)) rest) -> sticky rest ->
  sticky (ops_of 0 l cc ++ rest).
Proof.
  intros Hl Hcc Hr. unfold ops_of.
  change (([], 0) :: l ++ [([], cc)]) with ((([], 0) :: l) ++ [([], cc)]). rewrite <- app_assoc.
  apply sticky_app_good; [constructor; [left; reflexivity|exact Hl]|].
  cbn [app sticky snd]. split; assumption.
Qed.

Lemma not_err_0 : ~ is_err 0. Proof. intros [H _]. apply H. reflexivity. Qed.

(* between two arguments: sound, with argument a next, or failed with the sticky error e *)
Definition rd_state (N : Z) (st : rst) (a : list Z) (t : list (list Z)) (e : Z) : Prop :=
  (e = 0 /\ Inv N st a t /\ ready st) \/ (is_err e /\ rs_err st = e).

(* one argument read from either kind of state leaves a state of either kind; its operations are
   sticky in front of any continuation that repeats the error they end with *)
Lemma arg_read_any N ns st a t e : rd_state N st a t e -> Forall (fun n => 0 <= n) ns ->
  exists cb l cc st' e', arg_read (is_last t) ns st = Some (cb, l, cc, st') /\
    (arg_ok cb l cc -> data_of l = a /\ e' = 0) /\ (exists r, a = data_of l ++ r) /\
    match t with [] => e' = 0 -> r_final N st' | a' :: t' => rd_state N st' a' t' e' end /\
    (forall rest, (is_err e' -> Forall (fun y => y = ([], e')) rest) -> sticky rest ->
       sticky (ops_of cb l cc ++ rest) /\ (is_err e -> Forall (fun y => y = ([], e)) (ops_of cb l cc ++ rest))).
Proof.
  intros [(-> & I & R)|(E & S)] Hns.
  - destruct (arg_read_ok N ns st a t I R Hns) as (l & cc & st' & A & C & X & P & _).
    destruct P as [(-> & D & F)|[Ec Sc]].
    + exists 0, l, 0, st', 0. split; [exact A|]. split; [intros _; split; [symmetry; exact D|reflexivity]|].
      split; [exact X|]. split; [destruct t; [intros _; exact F|left; exact (conj eq_refl F)]|].
      intros rest Hr Sr. split; [|intros H; destruct (not_err_0 H)].
      apply sticky_arg; [exact C|intros H; destruct (not_err_0 H)|exact Sr].
    + exists 0, l, cc, st', cc. split; [exact A|]. split; [intros (_ & _ & H); destruct Ec; congruence|].
      split; [exact X|]. split; [destruct t; [intros H; destruct Ec; congruence|right; split; assumption]|].
      intros rest Hr Sr. split; [|intros H; destruct (not_err_0 H)].
      apply sticky_arg; [exact C|exact Hr|exact Sr].
  - (* once the error is set nothing is read and every operation returns it *)
    set (l := map (fun _ : Z => (@nil Z, e)) ns).
    assert (D : data_of l = []) by (unfold l, data_of; clear; induction ns as [|n ns IHn]; [reflexivity|exact IHn]).
    exists e, l, e, st, e. split; [exact (arg_read_err _ ns st e S (proj1 E))|].
    split; [intros [H _]; destruct (proj1 E H)|]. split; [exists a; rewrite D; reflexivity|].
    split; [destruct t; [intros H; destruct E; congruence|right; split; assumption]|].
    intros rest Hr Sr.
    assert (All : Forall (fun y => y = ([], e)) (ops_of e l e ++ rest)).
    { unfold ops_of. cbn [app]. constructor; [reflexivity|]. rewrite <- app_assoc. apply Forall_app.
      split; [|constructor; [reflexivity|exact (Hr E)]].
      apply Forall_forall. intros y Hy. apply in_map_iff in Hy. destruct Hy as (? & <- & _). reflexivity. }
    split; [exact (sticky_all_err e _ All)|intros _; exact All].
Qed.

Theorem reader_safe : forall fs ck0 a1 a2 a3,
  wf fs -> ck_new (first_ctype fs) = Some ck0 -> ck_chain ck0 fs ->
  denote (chunks_of fs) = [a1; a2; a3] ->
  forall ns1 ns2 ns3,
  Forall (fun n => 0 <= n) ns1 -> Forall (fun n => 0 <= n) ns2 -> Forall (fun n => 0 <= n) ns3 ->
  exists cb1 l1 cc1 st1 cb2 l2 cc2 st2 cb3 l3 cc3 st3,
    (* the run never panics *)
    arg_read false ns1 (r_init fs) = Some (cb1, l1, cc1, st1) /\
    arg_read false ns2 st1 = Some (cb2, l2, cc2, st2) /\
    arg_read true ns3 st2 = Some (cb3, l3, cc3, st3) /\
    (* an argument read without error is the argument that was sent *)
    (arg_ok cb1 l1 cc1 -> data_of l1 = a1) /\
    (arg_ok cb2 l2 cc2 -> data_of l2 = a2) /\
    (arg_ok cb3 l3 cc3 -> data_of l3 = a3) /\
    (* in any case the data handed out for an argument is a prefix of it (never shifted) *)
    (exists r1, a1 = data_of l1 ++ r1) /\ (exists r2, a2 = data_of l2 ++ r2) /\ (exists r3, a3 = data_of l3 ++ r3) /\
    (* errors are sticky: after the first one every later op returns it, without data *)
    sticky (ops_of cb1 l1 cc1 ++ ops_of cb2 l2 cc2 ++ ops_of cb3 l3 cc3) /\
    (* and a run without error ends in the final state, every fragment released *)
    (arg_ok cb1 l1 cc1 -> arg_ok cb2 l2 cc2 -> arg_ok cb3 l3 cc3 -> r_final (Z.of_nat (length fs)) st3).
Proof.
  intros fs ck0 a1 a2 a3 Hwf Hck Hchain Hden ns1 ns2 ns3 Hp1 Hp2 Hp3.
  destruct (init_inv fs ck0 a1 a2 a3 Hwf Hck Hchain Hden) as [I0 R0].
  destruct (arg_read_any _ ns1 _ a1 [a2; a3] 0 (or_introl (conj eq_refl (conj I0 R0))) Hp1)
    as (cb1 & l1 & cc1 & st1 & e1 & A1 & S1 & X1 & T1 & K1).
  destruct (arg_read_any _ ns2 st1 a2 [a3] e1 T1 Hp2) as (cb2 & l2 & cc2 & st2 & e2 & A2 & S2 & X2 & T2 & K2).
  destruct (arg_read_any _ ns3 st2 a3 [] e2 T2 Hp3) as (cb3 & l3 & cc3 & st3 & e3 & A3 & S3 & X3 & T3 & K3).
  exists cb1, l1, cc1, st1, cb2, l2, cc2, st2, cb3, l3, cc3, st3.
  split; [exact A1|]. split; [exact A2|]. split; [exact A3|].
  split; [intros H; exact (proj1 (S1 H))|]. split; [intros H; exact (proj1 (S2 H))|].
  split; [intros H; exact (proj1 (S3 H))|]. split; [exact X1|]. split; [exact X2|]. split; [exact X3|].
  split; [|intros _ _ H; exact (T3 (proj2 (S3 H)))].
  (* stickiness from the last argument backwards *)
  destruct (K3 [] (fun _ => Forall_nil _) I) as [St3 All3]. rewrite app_nil_r in St3, All3.
  destruct (K2 _ All3 St3) as [St2 All2]. exact (proj1 (K1 _ All2 St2)).
Qed.

(* reader_helper *)
Definition ev_payload (e : chunk_ev) : list Z := match e with Cont c => c | New c => c end.
Definition evsize (evs : list chunk_ev) : Z := fold_right (fun e a => zlen (ev_payload e) + a) 0 evs.
Definition lsum (t : list (list Z)) : Z := fold_right (fun c a => zlen c + a) 0 t.

Lemma split_size evs : zlen (fst (split_evs evs)) + lsum (snd (split_evs evs)) = evsize evs.
Proof.
  induction evs as [|e evs IH]; [reflexivity|].
  cbn [split_evs fold_right evsize]. fold (split_evs evs). fold (evsize evs).
  destruct e as [c|c]; cbn [sp_step fst snd ev_payload lsum fold_right]; fold (lsum (snd (split_evs evs)));
    rewrite ?zlen_app; change (zlen (@nil Z)) with 0; lia.
Qed.

Lemma evsize_app a b : evsize (a ++ b) = evsize a + evsize b.
Proof. induction a as [|e a IH]; cbn [app evsize fold_right]; [reflexivity|]. fold (evsize (a ++ b)). fold (evsize a). lia. Qed.

Lemma evsize_new cs : evsize (map New cs) = lsum cs.
Proof. induction cs as [|c cs IH]; [reflexivity|]. cbn [map evsize fold_right lsum ev_payload]. fold (evsize (map New cs)). fold (lsum cs). lia. Qed.

Lemma evsize_frag cs : evsize (frag_events cs) = lsum cs.
Proof.
  destruct cs as [|c cs]; [reflexivity|]. cbn [frag_events evsize fold_right ev_payload lsum].
  fold (evsize (map New cs)). fold (lsum cs). rewrite evsize_new. reflexivity.
Qed.

Lemma evsize_in fs : evsize (evs_in fs) = fold_right (fun f a => lsum (f_chunks f) + a) 0 fs.
Proof.
  induction fs as [|f r IH]; [reflexivity|]. rewrite evs_in_cons, evsize_app, evsize_frag, IH. reflexivity.
Qed.

Lemma total_bytes_ge N st h t : Inv N st h t -> zlen h <= total_bytes st.
Proof.
  intros I. pose proof (split_size (ev_rest st)) as S. rewrite (inv_split _ _ _ _ I) in S. cbn [fst snd] in S.
  assert (E : evsize (ev_rest st) = total_bytes st).
  { unfold ev_rest, ev_tail, total_bytes. cbn [evsize fold_right ev_payload].
    fold (evsize (map New (rs_rem st) ++ evs_in (rs_in st))).
    rewrite evsize_app, evsize_new, evsize_in. unfold lsum. lia. }
  assert (L : forall t0, 0 <= lsum t0).
  { induction t0 as [|c t0 IHt]; cbn [lsum fold_right]; [lia|]. fold (lsum t0). pose proof (zlen_nonneg c). lia. }
  pose proof (L t). lia.
Qed.

Lemma readall_ok N bufsz : 0 < bufsz -> forall fuel acc st h t,
  Inv N st h t -> is_reading (rs_state st) = true -> (Z.to_nat (zlen h) < fuel)%nat ->
  exists st', r_readall fuel bufsz acc st = Some (acc ++ h, 0, st') /\ Inv N st' [] t /\ at_eof st' /\
              rs_state st' = rs_state st.
Proof.
  intros Hb. induction fuel as [|fuel IH]; intros acc st h t I Hr Hf; [lia|].
  cbn [r_readall].
  destruct (read_ok N st h t bufsz I Hr (Z.lt_le_incl _ _ Hb)) as (bs & c & st1 & R & (h1 & Hh & I1 & Hs1 & _ & Hc)).
  rewrite R. destruct Hc as [[-> Hz]|(-> & -> & _ & He)].
  - cbn [Z.eqb].
    destruct (IH (acc ++ bs) st1 h1 t I1 ltac:(congruence)) as (st' & RA & I' & E' & Hs').
    { rewrite Hh, zlen_app in Hf. pose proof (zlen_nonneg h1). clear - Hf Hz Hb H. lia. }
    exists st'. rewrite RA, Hh, app_assoc. split; [reflexivity|]. split; [exact I'|]. split; [exact E'|congruence].
  - cbn [Z.eqb]. rewrite app_nil_r in Hh. subst h. exists st1.
    split; [reflexivity|]. split; [exact I1|]. split; [exact He|exact Hs1].
Qed.

(* the arity check is Close's: without it the helper still hands out the argument, and fails only there *)
Lemma helper_any N last bufsz st h t :
  0 < bufsz -> Inv N st h t -> rs_state st = arg_state last ->
  exists cc st', r_helper_read bufsz st = Some (h, cc, st') /\
    ((cc = 0 /\ (if last then t = [] /\ r_final N st'
                 else exists a' t', t = a' :: t' /\ Inv N st' a' t' /\ ready st'))
     \/ (is_err cc /\ rs_err st' = cc)) /\
    ((last = true <-> t = []) -> cc = 0).
Proof.
  intros Hb I Hs.
  assert (Hr : is_reading (rs_state st) = true) by (rewrite Hs; apply is_reading_arg_state).
  unfold r_helper_read.
  destruct (readall_ok N bufsz Hb (S (Z.to_nat (total_bytes st)) + length (rs_in st) + 2) [] st h t I Hr)
    as (st1 & RA & I1 & E1 & Hs1).
  { pose proof (total_bytes_ge _ _ _ _ I) as G. clear - G. lia. }
  rewrite RA. cbn [app Z.eqb negb].
  assert (Hr1 : is_reading (rs_state st1) = true) by congruence.
  destruct (read_ok N st1 [] t 128 I1 Hr1 ltac:(discriminate)) as (bs & c & st2 & R & (h2 & Hh & I2 & Hs2 & _ & Hc)).
  rewrite R. symmetry in Hh. apply app_eq_nil in Hh. destruct Hh as [-> ->].
  destruct Hc as [[_ Hz]|(-> & _ & _ & E2)]; [discriminate Hz|].
  change (zlen (@nil Z) >? 0) with false. cbn [Z.eqb negb andb].
  assert (Hr2 : is_reading (rs_state st2) = true) by congruence.
  destruct (close_ok N st2 [] t I2 Hr2) as (cc & st3 & C & P & Q).
  rewrite Hs2, Hs1, Hs, arg_state_last in P, Q. rewrite C. exists cc, st3.
  split; [reflexivity|]. split; [|exact (Q E2)].
  destruct P as [(P1 & _ & P3)|P]; [left|right; exact P]. split; [exact P1|].
  destruct last; [exact P3|].
  destruct P3 as (a' & t' & P4 & P5 & P6 & _). exists a', t'. split; [exact P4|]. split; [exact P5|right; exact P6].
Qed.

Lemma helper_ok N last bufsz st h t :
  0 < bufsz -> Inv N st h t -> rs_state st = arg_state last -> (last = true <-> t = []) ->
  exists st', r_helper_read bufsz st = Some (h, 0, st') /\
              (if last then r_final N st'
               else exists a' t', t = a' :: t' /\ Inv N st' a' t' /\ ready st').
Proof.
  intros Hb I Hs Hlast. destruct (helper_any N last bufsz st h t Hb I Hs) as (cc & st' & R & P & K).
  rewrite (K Hlast) in *. exists st'. split; [exact R|].
  destruct P as [(_ & P)|[E _]]; [|destruct (not_err_0 E)].
  destruct last; [exact (proj2 P)|exact P].
Qed.

Lemma arg_helper_ok N bufsz st a t :
  0 < bufsz -> Inv N st a t -> ready st ->
  exists st', arg_helper (is_last t) bufsz st = Some (0, a, 0, st') /\ after_arg N st' t.
Proof.
  intros Hb I Hrd. unfold arg_helper.
  destruct (begin_ok N st a t (is_last t) I Hrd) as (st1 & B & I1 & Hs1 & _). rewrite B.
  destruct (helper_ok N (is_last t) bufsz st1 a t Hb I1 Hs1 (is_last_iff t)) as (st' & H & P).
  rewrite H. exists st'. split; [reflexivity|exact (after_arg_if _ _ _ P)].
Qed.

Theorem reader_helper : forall fs ck0 a1 a2 a3,
  wf fs -> ck_new (first_ctype fs) = Some ck0 -> ck_chain ck0 fs ->
  denote (chunks_of fs) = [a1; a2; a3] ->
  forall n1 n2 n3, 0 < n1 -> 0 < n2 -> 0 < n3 ->
  exists st1 st2 st3,
    arg_helper false n1 (r_init fs) = Some (0, a1, 0, st1) /\
    arg_helper false n2 st1 = Some (0, a2, 0, st2) /\
    arg_helper true n3 st2 = Some (0, a3, 0, st3) /\
    rs_state st3 = c_fragmentingReadComplete /\ rs_fin st3 = true /\
    rs_rel st3 = Z.of_nat (length fs) /\ rs_err st3 = 0.
Proof.
  intros fs ck0 a1 a2 a3 Hwf Hck Hchain Hden n1 n2 n3 H1 H2 H3.
  destruct (init_inv fs ck0 a1 a2 a3 Hwf Hck Hchain Hden) as [I0 R0].
  destruct (arg_helper_ok _ n1 _ _ _ H1 I0 R0) as (st1 & A1 & I1 & R1).
  destruct (arg_helper_ok _ n2 _ _ _ H2 I1 R1) as (st2 & A2 & I2 & R2).
  destruct (arg_helper_ok _ n3 _ _ _ H3 I2 R2) as (st3 & A3 & F1 & F2 & F3 & F4).
  exists st1, st2, st3. repeat (split; [assumption|]). exact F4.
Qed.

(* The same runs through [r_run] of Model/FragWire.v (the harness entry point) *)
Definition arg_rops (last : bool) (ns : list Z) : list rop := RBegin last :: map RRead ns ++ [RClose].
Definition reads_obs (l : list (list Z * Z)) : list Z := flat_map (fun x => snd x :: put_bytes (fst x)) l.
Definition arg_obs (cb : Z) (l : list (list Z * Z)) (cc : Z) : list Z := cb :: reads_obs l ++ [cc].

Lemma r_run_reads : forall ns rest st acc,
  r_run (map RRead ns ++ rest) st acc =
  match reads ns st with
  | None => None
  | Some (l, st') => r_run rest st' (acc ++ reads_obs l)
  end.
Proof.
  induction ns as [|n ns IH]; intros rest st acc; cbn [map app reads].
  - unfold reads_obs. cbn [flat_map]. rewrite app_nil_r. reflexivity.
  - cbn [r_run]. destruct (r_read n st) as [[[bs c] st1]|]; [|reflexivity].
    rewrite IH. destruct (reads ns st1) as [[l st2]|]; [|reflexivity].
    unfold reads_obs. cbn [flat_map fst snd]. rewrite <- app_assoc. reflexivity.
Qed.

Lemma r_run_arg last ns rest st acc :
  r_run (arg_rops last ns ++ rest) st acc =
  match arg_read last ns st with
  | None => None
  | Some (cb, l, cc, st') => r_run rest st' (acc ++ arg_obs cb l cc)
  end.
Proof.
  unfold arg_rops, arg_read. cbn [app r_run].
  destruct (r_begin last st) as [[cb st1]|]; [|reflexivity].
  rewrite <- app_assoc, r_run_reads.
  destruct (reads ns st1) as [[l st2]|]; [|reflexivity].
  cbn [app r_run]. destruct (r_close st2) as [[cc st3]|]; [|reflexivity].
  unfold arg_obs. cbn [app]. rewrite <- !app_assoc. reflexivity.
Qed.

Lemma r_run_helper last n rest st acc :
  r_run (RBegin last :: RHelper n :: rest) st acc =
  match arg_helper last n st with
  | None => None
  | Some (cb, bs, c, st') => r_run rest st' ((acc ++ [cb]) ++ c :: put_bytes bs)
  end.
Proof.
  unfold arg_helper. cbn [r_run]. destruct (r_begin last st) as [[cb st1]|]; [|reflexivity].
  destruct (r_helper_read n st1) as [[[bs c] st2]|]; reflexivity.
Qed.

Corollary reader_eof_run : forall fs ck0 a1 a2 a3,
  wf fs -> ck_new (first_ctype fs) = Some ck0 -> ck_chain ck0 fs ->
  denote (chunks_of fs) = [a1; a2; a3] ->
  forall ns1 ns2 ns3,
  Forall (fun n => 0 < n) ns1 -> Forall (fun n => 0 < n) ns2 -> Forall (fun n => 0 < n) ns3 ->
  zsum ns1 > zlen a1 -> zsum ns2 > zlen a2 -> zsum ns3 > zlen a3 ->
  exists l1 l2 l3 st,
    r_run (arg_rops false ns1 ++ arg_rops false ns2 ++ arg_rops true ns3) (r_init fs) []
      = Some (arg_obs 0 l1 0 ++ arg_obs 0 l2 0 ++ arg_obs 0 l3 0, st) /\
    Forall code_ok l1 /\ Forall code_ok l2 /\ Forall code_ok l3 /\
    data_of l1 = a1 /\ data_of l2 = a2 /\ data_of l3 = a3 /\
    r_final (Z.of_nat (length fs)) st.
Proof.
  intros fs ck0 a1 a2 a3 Hwf Hck Hchain Hden ns1 ns2 ns3 Hp1 Hp2 Hp3 Hs1 Hs2 Hs3.
  destruct (reader_eof fs ck0 a1 a2 a3 Hwf Hck Hchain Hden ns1 ns2 ns3 Hp1 Hp2 Hp3 Hs1 Hs2 Hs3)
    as (l1 & st1 & l2 & st2 & l3 & st3 & A1 & A2 & A3 & C1 & C2 & C3 & D1 & D2 & D3 & F1 & F2 & F3 & F4).
  exists l1, l2, l3, st3. split.
  - rewrite r_run_arg, A1, r_run_arg, A2.
    rewrite <- (app_nil_r (arg_rops true ns3)), r_run_arg, A3. cbn [r_run app].
    rewrite <- app_assoc. reflexivity.
  - repeat (split; [assumption|]). unfold r_final. repeat split; assumption.
Qed.

Corollary reader_helper_run : forall fs ck0 a1 a2 a3,
  wf fs -> ck_new (first_ctype fs) = Some ck0 -> ck_chain ck0 fs ->
  denote (chunks_of fs) = [a1; a2; a3] ->
  forall n1 n2 n3, 0 < n1 -> 0 < n2 -> 0 < n3 ->
  exists st,
    r_run [RBegin false; RHelper n1; RBegin false; RHelper n2; RBegin true; RHelper n3] (r_init fs) []
      = Some ([0] ++ 0 :: put_bytes a1 ++ [0] ++ 0 :: put_bytes a2 ++ [0] ++ 0 :: put_bytes a3, st) /\
    r_final (Z.of_nat (length fs)) st.
Proof.
  intros fs ck0 a1 a2 a3 Hwf Hck Hchain Hden n1 n2 n3 H1 H2 H3.
  destruct (reader_helper fs ck0 a1 a2 a3 Hwf Hck Hchain Hden n1 n2 n3 H1 H2 H3)
    as (st1 & st2 & st3 & A1 & A2 & A3 & F1 & F2 & F3 & F4).
  exists st3. split; [|unfold r_final; repeat split; assumption].
  rewrite r_run_helper, A1, r_run_helper, A2, r_run_helper, A3. cbn [r_run app]. rewrite <- !app_assoc. reflexivity.
Qed.

Corollary reader_safe_run : forall fs ck0 a1 a2 a3,
  wf fs -> ck_new (first_ctype fs) = Some ck0 -> ck_chain ck0 fs ->
  denote (chunks_of fs) = [a1; a2; a3] ->
  forall ns1 ns2 ns3,
  Forall (fun n => 0 <= n) ns1 -> Forall (fun n => 0 <= n) ns2 -> Forall (fun n => 0 <= n) ns3 ->
  exists cb1 l1 cc1 cb2 l2 cc2 cb3 l3 cc3 st,
    r_run (arg_rops false ns1 ++ arg_rops false ns2 ++ arg_rops true ns3) (r_init fs) []
      = Some (arg_obs cb1 l1 cc1 ++ arg_obs cb2 l2 cc2 ++ arg_obs cb3 l3 cc3, st) /\
    (arg_ok cb1 l1 cc1 -> data_of l1 = a1) /\
    (arg_ok cb2 l2 cc2 -> data_of l2 = a2) /\
    (arg_ok cb3 l3 cc3 -> data_of l3 = a3) /\
    sticky (ops_of cb1 l1 cc1 ++ ops_of cb2 l2 cc2 ++ ops_of cb3 l3 cc3).
Proof.
  intros fs ck0 a1 a2 a3 Hwf Hck Hchain Hden ns1 ns2 ns3 Hp1 Hp2 Hp3.
  destruct (reader_safe fs ck0 a1 a2 a3 Hwf Hck Hchain Hden ns1 ns2 ns3 Hp1 Hp2 Hp3)
    as (cb1 & l1 & cc1 & st1 & cb2 & l2 & cc2 & st2 & cb3 & l3 & cc3 & st3 &
        A1 & A2 & A3 & G1 & G2 & G3 & _ & _ & _ & S & _).
  exists cb1, l1, cc1, cb2, l2, cc2, cb3, l3, cc3, st3. split.
  - rewrite r_run_arg, A1, r_run_arg, A2.
    rewrite <- (app_nil_r (arg_rops true ns3)), r_run_arg, A3. cbn [r_run app].
    rewrite <- app_assoc. reflexivity.
  - repeat (split; [assumption|]). exact S.
Qed.

(* Non-vacuity: the premises are satisfiable, for every chunk layout and checksum *)
(* fragments with the given more-flags and chunks, checksummed the way the writer does *)
Fixpoint seal (c : ckst) (l : list (bool * list (list Z))) : list frag :=
  match l with
  | [] => []
  | (m, cs) :: r => let c' := fold_left ck_add cs c in
                    mkFrag m (ck_typecode c) (ck_sum c') cs :: seal c' r
  end.

Lemma seal_chain : forall l c, ck_chain c (seal c l).
Proof.
  induction l as [|[m cs] r IH]; intros c; cbn [seal ck_chain f_ck f_ctype f_chunks]; [exact I|].
  split; [reflexivity|]. split; [reflexivity|apply IH].
Qed.

Definition ex_layout : list (bool * list (list Z)) :=
  [(true, [[1;2]; [3]]); (true, [[4]]); (false, [[]; [5;6]])].
Definition ex_fs : list frag := seal (mkCk 0 0) ex_layout.        (* no checksum *)
Definition ex_fs_crc : list frag := seal (mkCk 1 0) ex_layout.    (* crc32 *)
Definition ex_fs_crcc : list frag := seal (mkCk 3 0) ex_layout.   (* crc32c *)

Ltac ok_tac :=
  repeat match goal with
         | |- _ /\ _ => split
         | |- _ <-> _ => split; intros
         | |- _ <> _ => discriminate
         | |- true = true => reflexivity
         | |- True => exact I
         | H : false = true |- _ => discriminate H
         | H : [] <> [] |- _ => exfalso; apply H; reflexivity
         | |- _ <= _ => vm_compute; discriminate
         end.

Lemma ex_premises c : In c [mkCk 0 0; mkCk 1 0; mkCk 3 0] ->
  wf (seal c ex_layout) /\ ck_new (first_ctype (seal c ex_layout)) = Some c /\
  ck_chain c (seal c ex_layout) /\
  denote (chunks_of (seal c ex_layout)) = [[1;2]; [3;4]; [5;6]].
Proof.
  intros Hc. split; [|split; [|split; [apply seal_chain|reflexivity]]].
  - exists (fun _ => 100). unfold frames_ok.
    cbn [seal ex_layout frames_ok_from f_chunks f_more]. ok_tac.
  - cbn in Hc. destruct Hc as [<-|[<-|[<-|[]]]]; reflexivity.
Qed.

Definition run3 (ns1 ns2 ns3 : list Z) (fs : list frag) :=
  match arg_read false ns1 (r_init fs) with
  | None => None
  | Some (cb1, l1, cc1, st1) =>
    match arg_read false ns2 st1 with
    | None => None
    | Some (cb2, l2, cc2, st2) =>
      match arg_read true ns3 st2 with
      | None => None
      | Some (cb3, l3, cc3, st3) =>
          Some ((cb1, l1, cc1), (cb2, l2, cc2), (cb3, l3, cc3), (rs_state st3, rs_err st3, rs_rel st3, rs_fin st3))
      end
    end
  end.

(* reads past EOF *)
Example ex_run_eof : run3 [1;5] [3] [1;1;1] ex_fs_crc =
  Some ((0, [([1], 0); ([2], 12)], 0), (0, [([3;4], 12)], 0), (0, [([5], 0); ([6], 0); ([], 12)], 0), (4, 0, 3, true)).
Proof. vm_compute. reflexivity. Qed.

(* exact-length reads: Close has to fetch fragments itself (its case 4) and still lands on
   the right chunk *)
Example ex_run_exact : run3 [2] [2] [2] ex_fs_crcc =
  Some ((0, [([1;2], 0)], 0), (0, [([3;4], 0)], 0), (0, [([5;6], 0)], 0), (4, 0, 3, true)).
Proof. vm_compute. reflexivity. Qed.

(* a short read: Close reports errMoreDataInArgument and everything after it fails *)
Example ex_run_short : run3 [2] [1] [2;7] ex_fs =
  Some ((0, [([1;2], 0)], 0), (0, [([3], 0)], 4), (4, [([], 4); ([], 4)], 4), (3, 4, 1, false)).
Proof. vm_compute. reflexivity. Qed.

(* A limitation that reader_safe permits (an error, never wrong data): when the LAST
   argument is read with exact-length reads and the message ends with a fragment that
   carries only the empty continuation chunk (the writer produces it on Flush followed by
   Close), Close returns errExpectedMoreArguments (5) although all data was delivered.
   Reading up to EOF (reader_eof / reader_helper) avoids it. *)
Definition ex_tail_layout : list (bool * list (list Z)) := [(true, [[1]; [2]; [3]]); (false, [[]])].
Example ex_last_exact_close :
  denote (chunks_of (seal (mkCk 0 0) ex_tail_layout)) = [[1]; [2]; [3]] /\
  run3 [1] [1] [1] (seal (mkCk 0 0) ex_tail_layout) =
    Some ((0, [([1], 0)], 0), (0, [([2], 0)], 0), (0, [([3], 0)], 5), (2, 5, 0, false)) /\
  run3 [1] [1] [1;1] (seal (mkCk 0 0) ex_tail_layout) =
    Some ((0, [([1], 0)], 0), (0, [([2], 0)], 0), (0, [([3], 0); ([], 12)], 0), (4, 0, 2, true)).
Proof. vm_compute. repeat split; reflexivity. Qed.

Print Assumptions reader_eof.
Print Assumptions reader_helper.
Print Assumptions reader_safe.
Print Assumptions reader_eof_run.
Print Assumptions reader_helper_run.
Print Assumptions reader_safe_run.
