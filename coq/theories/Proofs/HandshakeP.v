(* Proofs about the handshake model (Model/Handshake.v) against Spec/HandshakeSpec.v. *)
From Coq Require Import ZArith List Bool Lia.
From Verif Require Import Base.Wrap Base.Bytes Gen.GenConsts Gen.GenFrame Gen.GenRetry Gen.GenHandshake
  Model.TypedBuf Model.Messages Model.HsText Model.Handshake
  Spec.Protocol Spec.HandshakeSpec Proofs.CodecP Proofs.FrameP Proofs.HsCodecP.
Import ListNotations.
Local Open Scope Z_scope.

(* the map is built by successive assignment: the last pair decides *)
Lemma lookup_snoc k p kv :
  lookup k (p ++ [kv]) = if bytes_eqb (fst kv) k then Some (snd kv) else lookup k p.
Proof. unfold lookup. rewrite fold_left_app. reflexivity. Qed.

Lemma bytes_eqb_refl k : bytes_eqb k k = true.
Proof. apply bytes_eqb_eq. reflexivity. Qed.

Lemma bytes_eqb_false a b : bytes_eqb a b = false <-> a <> b.
Proof. rewrite <- bytes_eqb_eq. destruct (bytes_eqb a b); split; congruence. Qed.

Lemma has_param_snoc k p k' v' : has_param k (p ++ [(k', v')]) <-> has_param k p \/ k' = k.
Proof.
  split.
  - intros [v H]. apply in_app_or in H as [H|[H|[]]]; [left; exists v; exact H|right; congruence].
  - intros [[v H]| ->]; eexists; apply in_or_app; [left; exact H|right; left; reflexivity].
Qed.

Lemma lookup_none k p : lookup k p = None <-> ~ has_param k p.
Proof.
  induction p as [|[k' v'] p IH] using rev_ind; [split; [intros _ [v []]|reflexivity]|].
  rewrite lookup_snoc, has_param_snoc. cbn [fst snd]. destruct (bytes_eqb k' k) eqn:E.
  - apply bytes_eqb_eq in E. split; [discriminate|tauto].
  - apply bytes_eqb_false in E. tauto.
Qed.

Lemma lookup_some k p v : lookup k p = Some v <-> announced k p v.
Proof.
  split.
  - revert v. induction p as [|[k' v'] p IH] using rev_ind; intros v; [discriminate|].
    rewrite lookup_snoc. cbn [fst snd]. destruct (bytes_eqb k' k) eqn:E.
    + apply bytes_eqb_eq in E. intros H. injection H as ->. subst k'.
      exists p, []. split; [reflexivity|intros [w []]].
    + intros H. destruct (IH v H) as (l1 & l2 & -> & N). exists l1, (l2 ++ [(k', v')]).
      split; [rewrite <- app_assoc; reflexivity|]. rewrite has_param_snoc. apply bytes_eqb_false in E. tauto.
  - intros (l1 & l2 & -> & N). induction l2 as [|[k' v'] l2 IH] using rev_ind.
    + rewrite lookup_snoc. cbn [fst snd]. rewrite bytes_eqb_refl. reflexivity.
    + rewrite has_param_snoc in N. rewrite app_comm_cons, app_assoc, lookup_snoc. cbn [fst snd].
      rewrite (proj2 (bytes_eqb_false k' k)) by tauto. apply IH. tauto.
Qed.

Lemma announced_has k p v : announced k p v -> has_param k p.
Proof. intros [l1 [l2 [E _]]]. exists v. subst p. apply in_or_app. right. left. reflexivity. Qed.

Lemma has_suffix_spec s suf : has_suffix s suf = true <-> exists pre, s = pre ++ suf.
Proof.
  unfold has_suffix. split.
  - intros H. apply andb_true_iff in H as [L E]. apply bytes_eqb_eq in E.
    exists (firstn (length s - length suf) s). rewrite <- E at 2. symmetry. apply firstn_skipn.
  - intros [pre ->]. apply andb_true_iff. split.
    + apply Nat.leb_le. rewrite app_length. lia.
    + apply bytes_eqb_eq. rewrite app_length, Nat.add_sub. apply skipn_exact.
Qed.

Lemma is_ephemeral_spec hp : is_ephemeral hp = true <-> ephemeral_hp hp.
Proof.
  unfold is_ephemeral, isEphemeralHostPort, ephemeral_hp. change t_colon0 with [58; 48].
  rewrite !orb_true_iff, !bytes_eqb_eq, has_suffix_spec. tauto.
Qed.

(* parseRemotePeer *)
Definition code_ok (e : herr) : Prop := match e with HSys c _ => 0 <= c < 256 | _ => True end.

Lemma code_ok_protocol msg : code_ok (HSys c_ErrCodeProtocol msg).
Proof. cbn. unfold c_ErrCodeProtocol. lia. Qed.

Lemma parse_spec p addr :
  match parse_remote_peer p addr with
  | inr pi => has_param k_host_port p /\ has_param k_process_name p /\
              identified p addr (pi_hostport pi) (pi_process pi) (pi_ephemeral pi)
  | inl err => code_ok err /\ ~ (has_param k_host_port p /\ has_param k_process_name p)
  end.
Proof.
  unfold parse_remote_peer.
  change c_InitParamHostPort with k_host_port. change c_InitParamProcessName with k_process_name.
  destruct (lookup k_host_port p) as [hp|] eqn:L1.
  2:{ split; [apply code_ok_protocol|]. intros [X _]. apply lookup_none in L1. contradiction. }
  destruct (lookup k_process_name p) as [pn|] eqn:L2.
  2:{ split; [apply code_ok_protocol|]. intros [_ X]. apply lookup_none in L2. contradiction. }
  apply lookup_some in L1. apply lookup_some in L2. cbn [pi_hostport pi_process pi_ephemeral].
  split; [eapply announced_has; exact L1|]. split; [eapply announced_has; exact L2|].
  exists hp. split; [exact L1|]. split; [exact L2|].
  destruct (is_ephemeral hp) eqn:E.
  - left. split; [apply is_ephemeral_spec, E|auto].
  - right. split; [|auto]. intros X. apply is_ephemeral_spec in X. congruence.
Qed.

Definition local_ok (c : hcfg) (hide : bool) : Prop :=
  params_ok (init_params c hide) /\ zlen (s_init protocol_version (init_params c hide)) <= 65519.

Lemma write_message_ok body bs t id :
  writes body bs -> zlen bs <= 65519 -> 0 <= t < 256 ->
  write_message body t id = inr (s_frame t id bs).
Proof.
  intros W L T. unfold write_message.
  rewrite (frame_write_ok c_MaxFramePayloadSize body bs t id W); [|exact L|reflexivity].
  rewrite frame_out_spec; [reflexivity|exact T|exact L].
Qed.

Lemma write_init_ok c hide t id : local_ok c hide -> 0 <= t < 256 ->
  write_message (w_init (mkInit c_CurrentProtocolVersion (init_params c hide))) t id =
    inr (init_frame t id protocol_version (init_params c hide)).
Proof.
  intros [P L] T. apply write_message_ok; [|exact L|exact T].
  apply (w_init_writes (mkInit 2 _)). split; [apply u_ok_2; cbn; lia|exact P].
Qed.

Lemma write_message_err body t id err : write_message body t id = inl err -> code_ok err.
Proof. unfold write_message. destruct (frame_write _ _ _ _) as [[h p]|]; intros H; inversion H. exact I. Qed.

Definition norm_err (e : herr) : herr :=
  match e with
  | HTimeout => HSys c_ErrCodeTimeout t_timeout
  | HEOF => HSys c_ErrCodeNetwork t_EOF
  | _ => e
  end.

Definition err_code (e : herr) : Z := GetSystemErrorCode (goerr_of (norm_err e)).

Lemma err_code_range e : code_ok e -> 0 <= err_code e < 256.
Proof.
  unfold err_code, GetSystemErrorCode.
  destruct e; cbn; intros H; try (unfold c_ErrCodeTimeout, c_ErrCodeNetwork, c_ErrCodeUnexpected; lia).
Qed.

Lemma firstn_zlen {A} (m : Z) (l : list A) : 0 <= m -> zlen (firstn (Z.to_nat m) l) <= m.
Proof. intros H. unfold zlen. pose proof (firstn_le_length (Z.to_nat m) l). lia. Qed.

(* initError always reports: one error frame (spec layout) carrying the id and the code,
   then the close *)
Lemma fail_effects pre id e : code_ok e ->
  exists msg, slen msg <= 65491 /\ hr_err (fail pre id e) <> None /\
    hr_eff (fail pre id e) = pre ++ [Send (DErr id (err_code e) msg) (error_frame id (err_code e) msg); CloseSock].
Proof.
  intros C. unfold fail, init_error. fold (norm_err e). fold (err_code e).
  (* the cut text becomes a variable: as [firstn (Z.to_nat 65491) _] it invites conversion to
     evaluate the unary numeral *)
  change max_init_error_message with 65491.
  pose proof (firstn_zlen 65491 (herr_text (norm_err e)) ltac:(lia)) as L. revert L.
  generalize (firstn (Z.to_nat 65491) (herr_text (norm_err e))). intros msg L.
  exists msg. split; [exact L|].
  rewrite (write_message_ok _ (s_error (err_code e) (spec_span span0) msg)); [split; [discriminate|reflexivity]| | |unfold c_messageTypeError; lia].
  - apply w_error_layout; [apply err_code_range, C|apply u_ok_1; cbn; lia|lia].
  - rewrite zlen_s_error, zlen_spec_span. lia.
Qed.

Lemma fail_conn pre id e : hr_conn (fail pre id e) = None.
Proof. unfold fail. destruct (init_error id e). reflexivity. Qed.

Lemma read_in_frame t r1 id res8 p rest e :
  0 <= t < 256 -> 0 <= r1 < 256 -> 0 <= id < 2 ^ 32 -> length res8 = 8%nat -> zlen p <= 65519 ->
  read_in (frame_bytes t r1 id res8 p ++ rest) e = inr (mkFH (16 + zlen p) t r1 id, p).
Proof.
  intros T R I L8 LP. unfold read_in.
  rewrite frame_bytes_hdr, <- app_assoc, frame_read_in_ok; [reflexivity| |exact L8|reflexivity].
  apply hdr_ok_frame; assumption.
Qed.

Lemma read_message_spec want stream e id payload v params :
  first_frame stream want id payload -> init_payload payload v params ->
  read_message want stream e = (id, inr (mkInit v params)).
Proof.
  intros [r1 [res8 [rest [T [R [I [L8 [Lp ->]]]]]]]] [V [P [junk ->]]].
  unfold read_message. rewrite read_in_frame by assumption. cbn [fh_type fh_id].
  rewrite Z.eqb_refl. cbn [negb]. rewrite (proj1 (r_init_consumes (mkInit v params) (conj V P))). reflexivity.
Qed.

Lemma read_message_other want stream e t id payload :
  first_frame stream t id payload -> t <> want -> exists err, read_message want stream e = (id, inl err).
Proof.
  intros [r1 [res8 [rest [T [R [I [L8 [Lp ->]]]]]]]] N.
  unfold read_message. rewrite read_in_frame by assumption. cbn [fh_type fh_id].
  rewrite (proj2 (Z.eqb_neq t want) N). cbn [negb]. destruct (t =? c_messageTypeError); eexists; reflexivity.
Qed.

Lemma read_error_code payload : bytes_ok payload = true -> code_ok (read_error payload).
Proof.
  intros B. unfold read_error. pose proof (r_uint_range 1 (rb payload) B) as U. fold r_u8 in U.
  unfold r_error, bindR in *. destruct (r_u8 (rb payload)) as [c ra]. destruct (r_span ra) as [s rb'].
  destruct (r_len16 rb') as [m rc]. cbn [retR]. destruct (rerr rc); [exact I|exact U].
Qed.

Lemma read_message_inv want stream e id r : read_message want stream e = (id, r) -> bytes_ok stream = true ->
  match r with
  | inr m => exists payload, first_frame stream want id payload /\ init_payload payload (im_version m) (im_params m)
  | inl err => code_ok err
  end.
Proof.
  intros E B. unfold read_message, read_in in E.
  destruct (frame_read_in stream) as [[[code h] payload] rest] eqn:F.
  destruct (Z.eqb_spec code 0) as [->|C0].
  - destruct (frame_read_in_inv _ _ _ _ F B) as [res8 [Es [L8 [[Us [T [R1 I]]] [Sz Bp]]]]].
    destruct (Z.eqb_spec (fh_type h) want) as [Tw|Tw]; cbn [negb] in E.
    + destruct (r_init (rb payload)) as [m r'] eqn:RI. destruct (rerr r') eqn:RE; injection E as <- <-; [exact Logic.I|].
      destruct (r_init_decodes _ _ _ RI RE Bp) as [_ [_ [? [Ep [-> [V P]]]]]]. cbn [rrem rb] in Ep.
      exists payload. split; [|exact (conj V (conj P (ex_intro _ (rrem r') Ep)))].
      exists (fh_res1 h), res8, rest. rewrite frame_bytes_hdr, <- Sz, <- app_assoc, <- Tw.
      destruct h as [sz ty r1 i]; cbn [fh_size fh_type fh_res1 fh_id] in *. repeat (split; [assumption|]).
      split; [|exact Es]. destruct Us as [_ Us]. change (256 ^ Z.of_nat 2) with 65536 in Us. unfold slen, zlen in *. lia.
    + destruct (fh_type h =? c_messageTypeError); inversion E; subst; [apply read_error_code, Bp|apply code_ok_protocol].
  - destruct (code =? 1); [inversion E; subst; exact Logic.I|].
    destruct e; [|destruct (_ || _)]; inversion E; subst; exact Logic.I.
Qed.

(* The part inboundHandshake and outboundHandshake share: the first frame has to be an init
   message of the wanted type whose id and version pass the direction's test ([bad] names the
   error otherwise) and whose parameters identify the peer. *)
Definition verdict (want : Z) (bad : Z -> Z -> option herr) (c : hcfg) (stream : list Z) (e : ending)
    : Z * (herr + peerinfo) :=
  let '(id, r) := read_message want stream e in
  (id, match r with
       | inl err => inl err
       | inr m => match bad id (im_version m) with
                  | Some err => inl err
                  | None => parse_remote_peer (im_params m) (lc_remote c)
                  end
       end).

Definition opening (want : Z) (P : Z -> Z -> Prop) (stream : list Z) (id : Z) (params : kvs) : Prop :=
  exists payload v, first_frame stream want id payload /\ init_payload payload v params /\ P id v /\
    has_param k_host_port params /\ has_param k_process_name params.

Definition tests (bad : Z -> Z -> option herr) (P : Z -> Z -> Prop) : Prop :=
  forall id v, match bad id v with Some err => code_ok err /\ ~ P id v | None => P id v end.

Lemma verdict_frame want bad c stream e id payload v params :
  first_frame stream want id payload -> init_payload payload v params ->
  verdict want bad c stream e =
    (id, match bad id v with Some err => inl err | None => parse_remote_peer params (lc_remote c) end).
Proof. intros FF IP. unfold verdict. rewrite (read_message_spec _ _ e _ _ _ _ FF IP). reflexivity. Qed.

(* the decoder is a function, so a stream has at most one reading as an opening: whatever
   [verdict] found is that reading *)
Theorem verdict_spec want bad P c stream e : bytes_ok stream = true -> tests bad P ->
  match verdict want bad c stream e with
  | (id, inr pi) => exists params, opening want P stream id params /\
                      identified params (lc_remote c) (pi_hostport pi) (pi_process pi) (pi_ephemeral pi)
  | (_, inl err) => code_ok err /\ forall id params, ~ opening want P stream id params
  end.
Proof.
  intros B HP. unfold verdict. destruct (read_message want stream e) as [id r] eqn:RM.
  assert (U : forall id' params, opening want P stream id' params ->
            exists v, r = inr (mkInit v params) /\ P id v /\ has_param k_host_port params /\ has_param k_process_name params).
  { intros id' params (payload & v & FF & IP & O). rewrite (read_message_spec _ _ e _ _ _ _ FF IP) in RM.
    inversion RM; subst. exists v. split; [reflexivity|exact O]. }
  pose proof (read_message_inv _ _ _ _ _ RM B) as RI. destruct r as [err|m].
  - split; [exact RI|]. intros id' params O. destruct (U _ _ O) as (v & X & _). discriminate.
  - destruct RI as [payload [FF IP]]. specialize (HP id (im_version m)).
    pose proof (parse_spec (im_params m) (lc_remote c)) as PS.
    destruct (bad id (im_version m)) as [err|].
    + split; [apply HP|]. intros id' params O. destruct (U _ _ O) as (v & X & Pv & _).
      inversion X; subst m. apply HP, Pv.
    + destruct (parse_remote_peer (im_params m) (lc_remote c)) as [err|pi].
      * split; [apply PS|]. intros id' params O. destruct (U _ _ O) as (v & X & _ & H12).
        inversion X; subst m. apply PS, H12.
      * exists (im_params m). split; [|apply PS]. exists payload, (im_version m). tauto.
Qed.

(* inboundHandshake *)
Definition bad_req (id v : Z) : option herr :=
  if v <? c_CurrentProtocolVersion then Some (unsupported_version v) else None.

Lemma bad_req_tests : tests bad_req (fun _ v => protocol_version <= v).
Proof.
  intros id v. unfold bad_req, protocol_version, c_CurrentProtocolVersion.
  destruct (Z.ltb_spec v 2); [split; [apply code_ok_protocol|lia]|assumption].
Qed.

Definition init_res_effects (c : hcfg) (id : Z) (pi : peerinfo) : list effect :=
  [Send (DInit t_init_res id protocol_version (init_params c false))
        (init_frame t_init_res id protocol_version (init_params c false));
   Register false pi].

Lemma inbound_verdict c stream e :
  inbound c stream e =
    let '(id, j) := verdict c_messageTypeInitReq bad_req c stream e in
    match j, write_message (w_init (mkInit c_CurrentProtocolVersion (init_params c false))) c_messageTypeInitRes id with
    | inl err, _ | inr _, inl err => fail [] id err
    | inr pi, inr bytes =>
        mkRes (Some pi) None
          [Send (DInit c_messageTypeInitRes id c_CurrentProtocolVersion (init_params c false)) bytes; Register false pi]
    end.
Proof.
  unfold inbound, verdict, bad_req. destruct (read_message _ _ _) as [id [err|m]]; [reflexivity|].
  destruct (_ <? _); [reflexivity|]. destruct (parse_remote_peer _ _); reflexivity.
Qed.

Lemma inbound_run c stream e : local_ok c false ->
  inbound c stream e =
    let '(id, j) := verdict c_messageTypeInitReq bad_req c stream e in
    match j with inl err => fail [] id err | inr pi => mkRes (Some pi) None (init_res_effects c id pi) end.
Proof.
  intros L. rewrite inbound_verdict. destruct (verdict _ _ _ _ _) as [id [err|pi]]; [reflexivity|].
  rewrite (write_init_ok c false c_messageTypeInitRes id L) by (unfold c_messageTypeInitRes; lia). reflexivity.
Qed.

(* outboundHandshake / Connect *)
Definition bad_res (id v : Z) : option herr :=
  if negb (id =? out_req_id) then Some (HSys c_ErrCodeProtocol (t_invalid_id out_req_id id))
  else if negb (v =? c_CurrentProtocolVersion) then Some (unsupported_version v) else None.

Lemma bad_res_tests : tests bad_res (fun id v => id = out_req_id /\ v = protocol_version).
Proof.
  intros id v. unfold bad_res, protocol_version, c_CurrentProtocolVersion.
  destruct (Z.eqb_spec id out_req_id); cbn [negb]; [|split; [apply code_ok_protocol|tauto]].
  destruct (Z.eqb_spec v 2); cbn [negb]; [tauto|split; [apply code_ok_protocol|tauto]].
Qed.

Lemma opening_res stream id params :
  opening c_messageTypeInitRes (fun id v => id = out_req_id /\ v = protocol_version) stream id params <->
  id = out_req_id /\ valid_init_res out_req_id stream params.
Proof.
  split.
  - intros (payload & v & FF & IP & [-> ->] & H12). split; [reflexivity|]. exists payload. auto.
  - intros [-> (payload & FF & IP & H12)]. exists payload, protocol_version. auto.
Qed.

Definition init_req_send (c : hcfg) : effect :=
  Send (DInit t_init_req out_req_id protocol_version (init_params c (lc_hide c)))
       (init_frame t_init_req out_req_id protocol_version (init_params c (lc_hide c))).

Definition connect_effects (c : hcfg) (pi : peerinfo) : list effect :=
  [init_req_send c; Register true pi] ++
  (if bytes_eqb (lc_remote c) (pi_hostport pi) then [] else [AddToPeer (lc_remote c)]).

Lemma connect_verdict c stream e :
  connect c stream e =
    match write_message (w_init (mkInit c_CurrentProtocolVersion (init_params c (lc_hide c)))) c_messageTypeInitReq out_req_id with
    | inl err => fail [] out_req_id err
    | inr bytes =>
        let req := Send (DInit c_messageTypeInitReq out_req_id c_CurrentProtocolVersion (init_params c (lc_hide c))) bytes in
        match snd (verdict c_messageTypeInitRes bad_res c stream e) with
        | inl err => fail [req] out_req_id err
        | inr pi => mkRes (Some pi) None
                      ([req; Register true pi] ++
                       if bytes_eqb (lc_remote c) (pi_hostport pi) then [] else [AddToPeer (lc_remote c)])
        end
    end.
Proof.
  unfold connect, outbound, verdict, bad_res.
  destruct (write_message _ _ _) as [err|bytes]; [rewrite fail_conn; reflexivity|].
  destruct (read_message _ _ _) as [id [err|m]]; cbn [snd]; [rewrite fail_conn; reflexivity|].
  destruct (negb (id =? out_req_id)); [rewrite fail_conn; reflexivity|].
  destruct (negb (_ =? _)); [rewrite fail_conn; reflexivity|].
  destruct (parse_remote_peer _ _) as [err|pi]; [rewrite fail_conn; reflexivity|].
  cbn [hr_conn hr_err hr_eff app]. destruct (bytes_eqb _ _); reflexivity.
Qed.

Lemma connect_run c stream e : local_ok c (lc_hide c) ->
  connect c stream e =
    match snd (verdict c_messageTypeInitRes bad_res c stream e) with
    | inl err => fail [init_req_send c] out_req_id err
    | inr pi => mkRes (Some pi) None (connect_effects c pi)
    end.
Proof.
  intros L. rewrite connect_verdict.
  rewrite (write_init_ok c (lc_hide c) c_messageTypeInitReq out_req_id L) by (unfold c_messageTypeInitReq; lia).
  reflexivity.
Qed.

Lemma frame_opening t r1 id res8 v params junk rest :
  0 <= t < 256 -> 0 <= r1 < 256 -> 0 <= id < 2 ^ 32 -> length res8 = 8%nat ->
  0 <= v < 65536 -> params_ok params -> zlen (s_init v params ++ junk) <= 65519 ->
  first_frame (frame_bytes t r1 id res8 (s_init v params ++ junk) ++ rest) t id (s_init v params ++ junk) /\
  init_payload (s_init v params ++ junk) v params.
Proof.
  intros T R I L8 V P LP. split; [exists r1, res8, rest; auto 10|].
  split; [exact V|]. split; [exact P|]. exists junk. reflexivity.
Qed.

Definition trunc_code (pre : list Z) (e : ending) : Z :=
  match e with
  | Silence => e_timeout
  | PeerClosed => if (zlen pre =? 0) || (zlen pre =? 16) then e_network else e_unexpected
  end.


Lemma verdict_cut want bad c t r1 id res8 p pre e :
  0 <= t < 256 -> 0 <= r1 < 256 -> 0 <= id < 2 ^ 32 -> length res8 = 8%nat -> zlen p <= 65519 ->
  strict_prefix pre (frame_bytes t r1 id res8 p) ->
  exists err, verdict want bad c pre e = (0, inl err) /\ code_ok err /\ err_code err = trunc_code pre e.
Proof.
  intros T R I L8 LP SP. rewrite frame_bytes_hdr in SP.
  pose proof (frame_read_in_short _ res8 p pre (hdr_ok_frame t r1 id p T R I LP) L8 eq_refl SP) as C.
  unfold verdict, read_message, read_in. destruct (frame_read_in pre) as [[[code h] pl] rs]. cbn [fst] in C. subst code.
  change (2 =? 0) with false. change (2 =? 1) with false. cbn iota. unfold trunc_code, c_FrameHeaderSize. destruct e.
  - exists HTimeout. repeat split.
  - destruct ((zlen pre =? 0) || (zlen pre =? 16)); [exists HEOF|exists HUnexpectedEOF]; repeat split.
Qed.

(* statements as used by Props/C13.v *)
Lemma inbound_iff c stream e : bytes_ok stream = true -> local_ok c false ->
  (hr_conn (inbound c stream e) <> None <-> exists id params, valid_init_req stream id params).
Proof.
  intros B L. rewrite (inbound_run c stream e L).
  pose proof (verdict_spec c_messageTypeInitReq _ _ c stream e B bad_req_tests) as V.
  destruct (verdict _ _ _ _ _) as [id [err|pi]].
  - rewrite fail_conn. split; [congruence|]. intros [id' [params O]]. destruct (proj2 V id' params O).
  - destruct V as [params [O _]]. split; [exists id, params; exact O|discriminate].
Qed.

Lemma connect_iff c stream e : bytes_ok stream = true -> local_ok c (lc_hide c) ->
  (hr_conn (connect c stream e) <> None <-> exists params, valid_init_res out_req_id stream params).
Proof.
  intros B L. rewrite (connect_run c stream e L).
  pose proof (verdict_spec c_messageTypeInitRes _ _ c stream e B bad_res_tests) as V.
  destruct (verdict _ _ _ _ _) as [id [err|pi]]; cbn [snd].
  - rewrite fail_conn. split; [congruence|]. intros [params O].
    destruct (proj2 V out_req_id params). apply opening_res. auto.
  - destruct V as [params [O _]]. apply opening_res in O as [_ O]. split; [exists params; exact O|discriminate].
Qed.

Lemma inbound_accept_effects c stream e pi :
  bytes_ok stream = true -> local_ok c false -> hr_conn (inbound c stream e) = Some pi ->
  exists id params,
    valid_init_req stream id params /\
    identified params (lc_remote c) (pi_hostport pi) (pi_process pi) (pi_ephemeral pi) /\
    hr_err (inbound c stream e) = None /\
    hr_eff (inbound c stream e) =
      [Send (DInit t_init_res id protocol_version (init_params c false))
            (init_frame t_init_res id protocol_version (init_params c false));
       Register false pi].
Proof.
  intros B L. rewrite (inbound_run c stream e L).
  pose proof (verdict_spec c_messageTypeInitReq _ _ c stream e B bad_req_tests) as V.
  destruct (verdict _ _ _ _ _) as [id [err|pi']]; [rewrite fail_conn; discriminate|].
  intros H. injection H as ->. destruct V as [params [O ID]]. exists id, params. auto.
Qed.

Lemma connect_accept_effects c stream e pi :
  bytes_ok stream = true -> local_ok c (lc_hide c) -> hr_conn (connect c stream e) = Some pi ->
  exists params,
    valid_init_res out_req_id stream params /\
    identified params (lc_remote c) (pi_hostport pi) (pi_process pi) (pi_ephemeral pi) /\
    hr_err (connect c stream e) = None /\
    hr_eff (connect c stream e) =
      [Send (DInit t_init_req out_req_id protocol_version (init_params c (lc_hide c)))
            (init_frame t_init_req out_req_id protocol_version (init_params c (lc_hide c)));
       Register true pi] ++
      (if bytes_eqb (lc_remote c) (pi_hostport pi) then [] else [AddToPeer (lc_remote c)]).
Proof.
  intros B L. rewrite (connect_run c stream e L).
  pose proof (verdict_spec c_messageTypeInitRes _ _ c stream e B bad_res_tests) as V.
  destruct (verdict _ _ _ _ _) as [id [err|pi']]; cbn [snd]; [rewrite fail_conn; discriminate|].
  intros H. injection H as ->. destruct V as [params [O ID]]. apply opening_res in O as [_ O].
  exists params. auto.
Qed.

Lemma inbound_rejects c stream e : bytes_ok stream = true -> hr_conn (inbound c stream e) = None ->
  exists id err, code_ok err /\ inbound c stream e = fail [] id err.
Proof.
  intros B. rewrite inbound_verdict.
  pose proof (verdict_spec c_messageTypeInitReq _ _ c stream e B bad_req_tests) as V.
  destruct (verdict _ _ _ _ _) as [id [err|pi]]; [intros _; exists id, err; split; [apply V|reflexivity]|].
  destruct (write_message _ _ _) as [err|bytes] eqn:W; [intros _|discriminate].
  exists id, err. split; [exact (write_message_err _ _ _ _ W)|reflexivity].
Qed.

Lemma inbound_reject_effects c stream e :
  bytes_ok stream = true -> hr_conn (inbound c stream e) = None ->
  exists id code msg, 0 <= code < 256 /\ slen msg <= 65491 /\
    hr_err (inbound c stream e) <> None /\
    hr_eff (inbound c stream e) = [Send (DErr id code msg) (error_frame id code msg); CloseSock].
Proof.
  intros B H. destruct (inbound_rejects c stream e B H) as (id & err & C & ->).
  destruct (fail_effects [] id err C) as [msg F]. exists id, (err_code err), msg.
  split; [apply err_code_range, C|exact F].
Qed.

Lemma connect_rejects c stream e : bytes_ok stream = true -> hr_conn (connect c stream e) = None ->
  exists pre err, code_ok err /\
    (pre = [] \/ exists b, pre = [Send (DInit t_init_req out_req_id protocol_version (init_params c (lc_hide c))) b]) /\
    connect c stream e = fail pre out_req_id err.
Proof.
  intros B. rewrite connect_verdict.
  pose proof (verdict_spec c_messageTypeInitRes _ _ c stream e B bad_res_tests) as V.
  destruct (write_message _ _ _) as [err|bytes] eqn:W.
  { intros _. exists [], err. split; [exact (write_message_err _ _ _ _ W)|]. split; [left|]; reflexivity. }
  destruct (verdict _ _ _ _ _) as [id [err|pi]]; cbn [snd]; [intros _|discriminate].
  eexists _, err. split; [apply V|]. split; [right; exists bytes|]; reflexivity.
Qed.

Lemma connect_reject_effects c stream e :
  bytes_ok stream = true -> hr_conn (connect c stream e) = None ->
  exists pre code msg, 0 <= code < 256 /\ slen msg <= 65491 /\
    (pre = [] \/ exists b, pre = [Send (DInit t_init_req out_req_id protocol_version (init_params c (lc_hide c))) b]) /\
    hr_err (connect c stream e) <> None /\
    hr_eff (connect c stream e) = pre ++ [Send (DErr out_req_id code msg) (error_frame out_req_id code msg); CloseSock].
Proof.
  intros B H. destruct (connect_rejects c stream e B H) as (pre & err & C & P & ->).
  destruct (fail_effects pre out_req_id err C) as [msg [L F]]. exists pre, (err_code err), msg.
  split; [apply err_code_range, C|]. split; [exact L|]. split; [exact P|exact F].
Qed.

Lemma inbound_classify c e t r1 id res8 v params junk rest :
  0 <= t < 256 -> 0 <= r1 < 256 -> 0 <= id < 2 ^ 32 -> length res8 = 8%nat ->
  0 <= v < 65536 -> params_ok params -> zlen (s_init v params ++ junk) <= 65519 -> local_ok c false ->
  (hr_conn (inbound c (frame_bytes t r1 id res8 (s_init v params ++ junk) ++ rest) e) <> None <->
   t = t_init_req /\ protocol_version <= v /\ has_param k_host_port params /\ has_param k_process_name params).
Proof.
  intros T R I L8 V P LP LO. destruct (frame_opening t r1 id res8 v params junk rest T R I L8 V P LP) as [FF IP].
  rewrite (inbound_run c _ e LO). destruct (Z.eq_dec t t_init_req) as [->|Nt].
  - rewrite (verdict_frame _ _ c _ e _ _ _ _ FF IP).
    pose proof (bad_req_tests id v) as Hb. pose proof (parse_spec params (lc_remote c)) as PS.
    destruct (bad_req id v).
    { rewrite fail_conn. split; [congruence|]. intros [_ [Vv _]]. destruct (proj2 Hb Vv). }
    destruct (parse_remote_peer params (lc_remote c)).
    { rewrite fail_conn. split; [congruence|]. intros [_ [_ H12]]. destruct (proj2 PS H12). }
    split; [intros _; exact (conj eq_refl (conj Hb (conj (proj1 PS) (proj1 (proj2 PS)))))|discriminate].
  - unfold verdict. destruct (read_message_other c_messageTypeInitReq _ e _ _ _ FF Nt) as [err ->].
    rewrite fail_conn. split; [congruence|]. intros [Et _]. contradiction.
Qed.

Lemma connect_classify c e t r1 id res8 v params junk rest :
  0 <= t < 256 -> 0 <= r1 < 256 -> 0 <= id < 2 ^ 32 -> length res8 = 8%nat ->
  0 <= v < 65536 -> params_ok params -> zlen (s_init v params ++ junk) <= 65519 -> local_ok c (lc_hide c) ->
  (hr_conn (connect c (frame_bytes t r1 id res8 (s_init v params ++ junk) ++ rest) e) <> None <->
   t = t_init_res /\ id = out_req_id /\ v = protocol_version /\
   has_param k_host_port params /\ has_param k_process_name params).
Proof.
  intros T R I L8 V P LP LO. destruct (frame_opening t r1 id res8 v params junk rest T R I L8 V P LP) as [FF IP].
  rewrite (connect_run c _ e LO). destruct (Z.eq_dec t t_init_res) as [->|Nt].
  - rewrite (verdict_frame _ _ c _ e _ _ _ _ FF IP). cbn [snd].
    pose proof (bad_res_tests id v) as Hb. pose proof (parse_spec params (lc_remote c)) as PS.
    destruct (bad_res id v).
    { rewrite fail_conn. split; [congruence|]. intros [_ [Ei [Ev _]]]. destruct (proj2 Hb (conj Ei Ev)). }
    destruct (parse_remote_peer params (lc_remote c)).
    { rewrite fail_conn. split; [congruence|]. intros [_ [_ [_ H12]]]. destruct (proj2 PS H12). }
    split; [intros _|discriminate].
    exact (conj eq_refl (conj (proj1 Hb) (conj (proj2 Hb) (conj (proj1 PS) (proj1 (proj2 PS)))))).
  - unfold verdict. destruct (read_message_other c_messageTypeInitRes _ e _ _ _ FF Nt) as [err ->].
    cbn [snd]. rewrite fail_conn. split; [congruence|]. intros [Et _]. contradiction.
Qed.

Lemma inbound_truncated_effects c e t r1 id res8 p pre :
  0 <= t < 256 -> 0 <= r1 < 256 -> 0 <= id < 2 ^ 32 -> length res8 = 8%nat -> slen p <= 65519 ->
  strict_prefix pre (frame_bytes t r1 id res8 p) ->
  hr_conn (inbound c pre e) = None /\
  exists msg, hr_eff (inbound c pre e) =
    [Send (DErr 0 (trunc_code pre e) msg) (error_frame 0 (trunc_code pre e) msg); CloseSock].
Proof.
  intros T R I L8 LP SP. rewrite inbound_verdict.
  destruct (verdict_cut c_messageTypeInitReq bad_req c t r1 id res8 p pre e T R I L8 LP SP) as [err [-> [C <-]]].
  split; [apply fail_conn|]. destruct (fail_effects [] 0 err C) as [msg [_ [_ E]]]. exists msg. exact E.
Qed.

Lemma connect_truncated_effects c e t r1 id res8 p pre :
  0 <= t < 256 -> 0 <= r1 < 256 -> 0 <= id < 2 ^ 32 -> length res8 = 8%nat -> slen p <= 65519 ->
  strict_prefix pre (frame_bytes t r1 id res8 p) -> local_ok c (lc_hide c) ->
  hr_conn (connect c pre e) = None /\ hr_err (connect c pre e) <> None /\
  exists msg, hr_eff (connect c pre e) =
    [Send (DInit t_init_req out_req_id protocol_version (init_params c (lc_hide c)))
          (init_frame t_init_req out_req_id protocol_version (init_params c (lc_hide c)));
     Send (DErr out_req_id (trunc_code pre e) msg) (error_frame out_req_id (trunc_code pre e) msg); CloseSock].
Proof.
  intros T R I L8 LP SP L. rewrite (connect_run c pre e L).
  destruct (verdict_cut c_messageTypeInitRes bad_res c t r1 id res8 p pre e T R I L8 LP SP) as [err [-> [C <-]]].
  cbn [snd]. split; [apply fail_conn|]. destruct (fail_effects [init_req_send c] out_req_id err C) as [msg [_ [N E]]].
  split; [exact N|]. exists msg. exact E.
Qed.

(* the channel's books over a history *)
Definition att_valid (a : attempt) : Prop :=
  if at_out a then exists params, valid_init_res out_req_id (at_stream a) params
  else exists id params, valid_init_req (at_stream a) id params.

Definition att_ok (a : attempt) : Prop :=
  bytes_ok (at_stream a) = true /\ local_ok (at_cfg a) (if at_out a then lc_hide (at_cfg a) else false).

Lemma handshake_iff a : att_ok a -> (hr_conn (handshake a) <> None <-> att_valid a).
Proof.
  intros [B L]. unfold handshake, att_valid. destruct (at_out a); [apply connect_iff|apply inbound_iff]; assumption.
Qed.

Lemma att_valid_dec a : att_ok a -> att_valid a \/ ~ att_valid a.
Proof.
  intros OK. destruct (hr_conn (handshake a)) eqn:E; [left|right; intros V]; apply (handshake_iff a OK); congruence.
Qed.

Lemma step_invalid ch a : att_ok a -> ~ att_valid a ->
  chan_step ch a = mkChan (ch_conns ch) (ch_peerconns ch) (ch_closed ch + 1).
Proof.
  intros OK NV.
  assert (H : hr_conn (handshake a) = None).
  { destruct (hr_conn (handshake a)) eqn:E; [|reflexivity]. exfalso. apply NV, (handshake_iff a OK). congruence. }
  destruct OK as [B _]. unfold chan_step. unfold handshake in *. destruct (at_out a).
  - destruct (connect_reject_effects _ _ _ B H) as (pre & code & msg & _ & _ & P & _ & E). rewrite E.
    destruct P as [->|[b ->]]; reflexivity.
  - destruct (inbound_reject_effects _ _ _ B H) as (id & code & msg & _ & _ & _ & E). rewrite E. reflexivity.
Qed.

Lemma step_valid_books ch a : att_ok a -> att_valid a ->
  exists pi extra params,
    chan_step ch a = mkChan (ch_conns ch ++ [(at_out a, pi)])
                            (ch_peerconns ch ++ (pi_hostport pi, at_out a) :: extra) (ch_closed ch) /\
    (extra = [] \/ (at_out a = true /\ extra = [(lc_remote (at_cfg a), true)] /\ lc_remote (at_cfg a) <> pi_hostport pi)) /\
    identified params (lc_remote (at_cfg a)) (pi_hostport pi) (pi_process pi) (pi_ephemeral pi).
Proof.
  intros OK V. apply (handshake_iff a OK) in V.
  destruct (hr_conn (handshake a)) as [pi|] eqn:H; [clear V|congruence].
  destruct OK as [B L]. unfold chan_step. unfold handshake in *. exists pi. destruct (at_out a).
  - destruct (connect_accept_effects _ _ _ _ B L H) as (params & _ & ID & _ & E). rewrite E.
    destruct (bytes_eqb (lc_remote (at_cfg a)) (pi_hostport pi)) eqn:Q.
    + exists [], params. split; [reflexivity|]. split; [left; reflexivity|exact ID].
    + exists [(lc_remote (at_cfg a), true)], params. split; [cbn; rewrite <- app_assoc; reflexivity|].
      split; [|exact ID]. right. repeat split. intros X. apply bytes_eqb_eq in X. congruence.
  - destruct (inbound_accept_effects _ _ _ _ B L H) as (id & params & _ & ID & _ & E). rewrite E.
    exists [], params. split; [reflexivity|]. split; [left; reflexivity|exact ID].
Qed.

Inductive count_valid : list attempt -> Z -> Prop :=
| cv_nil : count_valid [] 0
| cv_yes a l n : att_valid a -> count_valid l n -> count_valid (a :: l) (n + 1)
| cv_no a l n : ~ att_valid a -> count_valid l n -> count_valid (a :: l) n.

Lemma history_gen atts : Forall att_ok atts -> forall ch,
  exists n, count_valid atts n /\
    let ch' := fold_left chan_step atts ch in
    zlen (ch_conns ch') = zlen (ch_conns ch) + n /\
    ch_closed ch' = ch_closed ch + (zlen atts - n) /\
    zlen (ch_peerconns ch) + n <= zlen (ch_peerconns ch') <= zlen (ch_peerconns ch) + 2 * n.
Proof.
  induction 1 as [|a atts OK _ IH]; intros ch; cbn [fold_left].
  - exists 0. split; [constructor|]. change (zlen (@nil attempt)) with 0. cbn zeta. lia.
  - destruct (IH (chan_step ch a)) as [n [CV A]]. rewrite zlen_cons. cbn zeta in *.
    destruct (att_valid_dec a OK) as [V|NV].
    + destruct (step_valid_books ch a OK V) as [pi [extra [params [E [X _]]]]]. rewrite E in *.
      cbn [ch_conns ch_peerconns ch_closed] in A. rewrite !zlen_app, !zlen_cons in A.
      change (zlen (@nil (bool * peerinfo))) with 0 in A.
      assert (0 <= zlen extra <= 1) by (destruct X as [->|[_ [-> _]]]; cbv; split; congruence).
      exists (n + 1). split; [constructor; assumption|]. lia.
    + rewrite (step_invalid ch a OK NV) in *. cbn [ch_conns ch_peerconns ch_closed] in A.
      exists n. split; [constructor; assumption|]. lia.
Qed.

Lemma history atts : Forall att_ok atts ->
  exists n, count_valid atts n /\
    zlen (ch_conns (run_channel atts)) = n /\
    ch_closed (run_channel atts) = zlen atts - n /\
    n <= zlen (ch_peerconns (run_channel atts)) <= 2 * n.
Proof.
  intros OK. destruct (history_gen atts OK chan0) as [n [CV [A1 [A2 A3]]]].
  exists n. unfold run_channel. cbn zeta in *. cbn [chan0 ch_conns ch_peerconns ch_closed] in *.
  unfold zlen at 2 in A1. unfold zlen at 1 4 in A3. cbn [length] in *. split; [exact CV|]. lia.
Qed.

Lemma init_deadline_spec now : (forall d, init_deadline (Some d) now = d) /\ init_deadline None now = now + 5000000000.
Proof. split; reflexivity. Qed.
