(* Corollaries that package the relay lemmas in the form stated in Props/C08.v. *)
From Coq Require Import ZArith List Bool Lia.
From Verif Require Import Base.Wrap Base.Bytes Gen.GenConsts Gen.GenFrame Gen.GenRelayFwd
  Model.TypedBuf Model.Messages Model.Crc Model.RelayLazy Model.RelayAppend Model.RelayFwd
  Model.Frag Model.FragWire Spec.RelaySpec Proofs.RelayFwdP Proofs.RelayInvP.
Import ListNotations.
Local Open Scope Z_scope.

Lemma ttl_clamp_bounds : forall maxT p, max_ok maxT -> bytes_ok p = true -> 5 <= zlen p ->
  lazy_ttl_ms (clamp_ttl maxT p) = Z.min (lazy_ttl_ms p) (Z.quot maxT ms_ns) /\
  lazy_ttl_ms (clamp_ttl maxT p) <= lazy_ttl_ms p /\
  lazy_ttl_ms (clamp_ttl maxT p) * ms_ns <= maxT.
Proof.
  intros maxT p Hm Hb Hl. rewrite (clamp_ttl_spec maxT p Hm Hb Hl), !lazy_ttl_is_spec.
  pose proof (max_ok_range _ Hm) as Hr. unfold max_ok, ms_ns in *.
  assert (HM : 0 <= Z.quot maxT 1000000 < 2 ^ 32) by (change (2 ^ 32) with 4294967296; lia).
  rewrite (sp_clamp_ttl _ p HM Hb Hl). rewrite !(lazy_ttl_is_spec p).
  split; [reflexivity|]. split; [lia|].
  Z.to_euclidean_division_equations. lia.
Qed.

Lemma remap_injective : forall maxT pc cnt0 ls outs st, (forall c, 0 <= cnt0 c) ->
  run maxT pc ls (init_state cnt0) = Some (outs, st) -> (forall c, st_count st c < 2 ^ 32) ->
  (forall c1 id1 it1 c2 id2 it2, st_out st c1 id1 = Some it1 -> st_out st c2 id2 = Some it2 ->
     it_dest it1 = it_dest it2 -> it_remap it1 = it_remap it2 -> c1 = c2 /\ id1 = id2) /\
  (forall d k, st_own st d k = true -> st_in st d k = None) /\
  (forall c id it, st_out st c id = Some it ->
     match st_in st (it_dest it) (it_remap it) with
     | None => True
     | Some it' => it_remap it' = id /\ it_dest it' = c
     end).
Proof.
  intros maxT pc cnt0 ls outs st H0 R B. destruct (run_inv maxT pc cnt0 ls outs st H0 R B).
  split; [assumption|]. split; assumption.
Qed.

Lemma fresh_id : forall maxT pc cnt0 ls outs st d, (forall c, 0 <= cnt0 c) ->
  run maxT pc ls (init_state cnt0) = Some (outs, st) -> (forall c, st_count st c < 2 ^ 32) ->
  st_count st d + 1 < 2 ^ 32 ->
  let k := fst (alloc_id st d) in
  k = st_count st d + 1 /\ st_in st d k = None /\ st_own st d k = false /\
  (forall c id it, st_out st c id = Some it -> it_dest it = d -> it_remap it <> k).
Proof.
  intros maxT pc cnt0 ls outs st d H0 R B Hd. apply alloc_fresh; [|exact Hd].
  exact (run_inv maxT pc cnt0 ls outs st H0 R B).
Qed.


(* a protocol-valid first fragment whose arg1 continues in the next frame *)
Definition tiny_first : list Z :=
  [1] ++ [0;0;3;232] ++ repeat 0 25 ++ [1; 115] ++ [0] ++ [0] ++ [0;2; 97;98].

Lemma tiny_frame_dropped : exists p h,
  bytes_ok p = true /\
  (exists f, parse_frag_payload c_messageTypeCallReq p = (0, f) /\ f_more f = true /\ f_chunks f = [[97; 98]]) /\
  fst (lazy_callreq p) <> 0 /\
  fh_type h = c_messageTypeCallReq /\
  (exists st', step 120000000000 false (init_state (fun _ => 1)) (LFrame 0%nat h p (HDst 1%nat [])) = Some ([], st')) /\
  (exists o ss', spec_step 120000 (mkSS [] (fun _ => 1)) (LFrame 0%nat h p (HDst 1%nat [])) = Some ([o], ss')).
Proof.
  exists tiny_first, (mkFH (16 + zlen tiny_first) 3 0 7).
  split; [vm_compute; reflexivity|].
  split; [eexists; split; [vm_compute; reflexivity|split; reflexivity]|].
  split; [vm_compute; discriminate|].
  split; [reflexivity|].
  split; [eexists; vm_compute; reflexivity|].
  eexists. eexists. vm_compute. reflexivity.
Qed.
