(* Model/ClosePinned2.v: [step_p false] is the repaired connection model; [step_p true] (the
   pinned ping test) and the pinned order of InboundCallResponse.SendSystemError refute
   clause (a) of C07 -- accepted calls run to completion and their results are delivered. *)
From Coq Require Import ZArith List Bool Lia.
From Verif Require Import Base.Wrap Gen.GenConsts Model.CloseKernel Model.ConnClose Model.ClosePinned2
  Proofs.CloseKernelP Proofs.ConnCloseP.
Import ListNotations.
Local Open Scope Z_scope.

Lemma tstep_p_false : forall s n p, tstep_p false s n p = tstep s n p.
Proof. intros s n p. destruct p; reflexivity. Qed.

Lemma step_p_false : forall s l, step_p false s l = step s l.
Proof.
  intros s l. destruct l as [k|tid]; [reflexivity|]. cbn [step_p step].
  destruct (nth_error (thr s) tid) as [p|]; [|reflexivity]. rewrite tstep_p_false. reflexivity.
Qed.

Theorem pinned2_false_is_repaired :
  (forall s ls, run (step_p false) s ls = run step s ls) /\
  (forall relay s, Reach (step_p false) (init relay) s <-> Reach step (init relay) s).
Proof. split; intros; [apply run_ext|apply reach_ext]; exact step_p_false. Qed.

(* (d) pinned ping test.  No connection failure occurs in the schedule (no failer thread): call 5
   is dispatched, Close moves the connection to StartClose and returns, ping req 9 arrives.  On
   the pinned tree the ping ends in protocolError: a Protocol error frame is queued,
   stoppedExchanges is set and the inbound exchange set is shut down under the accepted call 5,
   whose exchange is still registered -- the hypothesis [stopped = false] of C07_drain is
   destroyed by a ping, the accepted call is failed. *)
Theorem ping_drain_pinned_refuted : exists s,
  Reach (step_p true) (init false) s /\
  thr s = [PDone oDispatched 5; PDone oCloseOk 0; PDone oProto 9] /\
  In (5, true) (inb (sh s)) /\ st (sh s) = sSC /\
  stopped (sh s) = true /\ inb_shut (sh s) = true /\ outb_shut (sh s) = true /\
  g_replies (sh s) = [(2%nat, 9, eProtocol)].
Proof.
  destruct (run (step_p true) (init false) (ping_witness 6)) as [s|] eqn:E; [|vm_compute in E; discriminate].
  exists s. split; [exists (ping_witness 6); exact E|].
  vm_compute in E. inversion E; subst s; clear E. cbn. repeat split; auto.
Qed.

(* the same history on the repaired model: the ping is answered, nothing else changes *)
Lemma ping_witness_repaired : exists s,
  run step (init false) (ping_witness 2) = Some s /\
  thr s = [PDone oDispatched 5; PDone oCloseOk 0; PDone oPong 9] /\
  In (5, true) (inb (sh s)) /\ st (sh s) = sSC /\ stopped (sh s) = false /\ inb_shut (sh s) = false /\
  g_replies (sh s) = [].
Proof.
  destruct (run step (init false) (ping_witness 2)) as [s|] eqn:E; [|vm_compute in E; discriminate].
  exists s. split; [reflexivity|].
  vm_compute in E. inversion E; subst s; clear E. cbn. repeat split; auto.
Qed.

(* (e) pinned order of InboundCallResponse.SendSystemError.  Call 5 is dispatched, Close, then the
   handler answers with a system error: the pinned code FIRST shuts the exchange down
   (doneSending -> mex.shutdown -> removeExchange -> checkExchanges: thread 2, run to its end).
   In the state reached the connection is Closed, without any connection failure, and the
   SendSystemError that the pinned code issues next queues nothing, whatever the code: the
   result of the accepted call is never delivered. *)
Theorem error_result_pinned_order_refuted : exists s,
  Reach step (init false) s /\
  thr s = [PDone oDispatched 5; PDone oCloseOk 0; PDone oRemoved 5] /\
  st (sh s) = sCl /\ stopped (sh s) = false /\ g_replies (sh s) = [] /\
  forall n code, send_err (sh s) n 5 code = sh s.
Proof.
  destruct (run step (init false) err_removed_first) as [s|] eqn:E; [|vm_compute in E; discriminate].
  exists s. split; [exists err_removed_first; exact E|].
  vm_compute in E. inversion E; subst s; clear E. cbn [thr sh st stopped g_replies].
  repeat split; auto.
Qed.

(* the repaired order on the same history: exactly one frame (5, Busy=3), then Closed *)
Lemma error_witness_repaired : exists s,
  run step (init false) err_sent_first = Some s /\
  thr s = [PDone oDispatched 5; PDone oCloseOk 0; PDone (oErrBase + 3) 5] /\
  st (sh s) = sCl /\ g_replies (sh s) = [(2%nat, 5, 3)] /\ g_stop_closes (sh s) = 1.
Proof.
  destruct (run step (init false) err_sent_first) as [s|] eqn:E; [|vm_compute in E; discriminate].
  exists s. split; [reflexivity|].
  vm_compute in E. inversion E; subst s; clear E. cbn. repeat split; auto.
Qed.
