(* Relay model: the C09 theorems derived from the invariants Inv (RelayInv9P) and TInv (RelayTimerP). *)
From Coq Require Import ZArith List Bool Lia.
From Verif Require Import Base.Wrap Gen.GenConsts Gen.GenFrame Model.RelayItems Spec.RelayAccount
  Proofs.RelayAssocP Proofs.RelayCoreP Proofs.RelayInv9P Proofs.RelayTimerP.
Import ListNotations.
Local Open Scope Z_scope.

Definition cb_is_end (x : cb) : bool := match x with CbEnd => true | _ => false end.

Lemma ends_count_end : forall c log, ends c log = count_end cb_is_end c log.
Proof.
  intros c log. induction log as [|[c' x] r IH]; cbn; [reflexivity|]. rewrite IH. unfold is_end. cbn.
  destruct x; cbn; rewrite ?andb_false_r, ?andb_true_r; try reflexivity.
Qed.

Lemma tsum_nonneg : forall f ths, (forall i, 0 <= f i) -> 0 <= tsum f ths.
Proof. intros f ths Hf. unfold tsum. apply asum_nonneg. intros _ code. apply csum_nonneg. exact Hf. Qed.

(* the End token of a started call is in one of three places; of a call not started, in none *)
Lemma total_split : forall st c, Inv st ->
  0 <= ends c (cblog st) /\ 0 <= tsum (tok_i c) (threads st) /\ 0 <= asum (item_tok c) (items st) /\
  ends c (cblog st) + tsum (tok_i c) (threads st) + asum (item_tok c) (items st) = started c (next_call st) /\
  started c (next_call st) <= 1.
Proof.
  intros st c HI. split; [apply ends_nonneg|]. split; [apply tsum_nonneg, tok_i_nonneg|].
  split; [apply asum_nonneg, item_tok_nonneg|]. split; [apply (inv_total _ HI c)|].
  unfold started, b2z. destruct ((1 <=? c) && (c <? next_call st)); lia.
Qed.

(* End is reported at most once for every call, in every reachable state *)
Theorem end_at_most_once_thm : forall cf ls st, run_fresh cf init ls = Some st ->
  end_at_most_once cb_is_end (cblog st).
Proof.
  intros cf ls st H c. destruct (reach_both _ _ _ H) as [HI _]. rewrite <- ends_count_end.
  pose proof (total_split st c HI). lia.
Qed.

(* no goroutine of the relay has anything left to do and no timeout timer is pending *)
Definition quiescent (st : state) : Prop :=
  threads st = [] /\ forall tm x, lookup Z.eqb tm (timers st) = Some x -> tm_armed x = false.

Lemma quiescent_no_live : forall st, Inv st -> TInv st -> quiescent st ->
  forall t it, In (t, it) (items st) -> it_tomb it = true.
Proof.
  intros st HI HT [Hth Harm] t it Hin. destruct (it_tomb it) eqn:Et; [reflexivity|].
  destruct (t_oblig _ HT _ _ Hin Et) as (x&Hx&[A|[(code&Hc&_)|(_&th&code&j&Hc&_)]]).
  - rewrite (Harm _ _ Hx) in A. discriminate.
  - rewrite Hth in Hc. contradiction.
  - rewrite Hth in Hc. contradiction.
Qed.

(* ... then every call the relay host started has ended exactly once *)
Theorem end_exactly_once_thm : forall cf ls st, run_fresh cf init ls = Some st -> quiescent st ->
  forall c, 1 <= c < next_call st -> end_exactly_once cb_is_end c (cblog st).
Proof.
  intros cf ls st H Hq c Hc. destruct (reach_both _ _ _ H) as [HI HT]. unfold end_exactly_once. rewrite <- ends_count_end.
  destruct (total_split st c HI) as (_&_&_&Ht&_).
  assert (Hth : tsum (tok_i c) (threads st) = 0) by (destruct Hq as [-> _]; reflexivity).
  assert (Hit : forall l, (forall t it, In (t, it) l -> it_tomb it = true) -> asum (item_tok c) l = 0).
  { induction l as [|[t it] r IH]; intro Hall; cbn; [reflexivity|].
    rewrite IH by (intros t' it' Hin; eapply Hall; right; exact Hin).
    unfold item_tok. rewrite (Hall t it (or_introl eq_refl)), andb_false_r. reflexivity. }
  rewrite Hth, (Hit _ (quiescent_no_live _ HI HT Hq)) in Ht.
  unfold started in Ht. replace ((1 <=? c) && (c <? next_call st)) with true in Ht; [cbn [b2z] in Ht; lia|].
  symmetry. apply andb_true_iff. split; [apply Z.leb_le|apply Z.ltb_lt]; lia.
Qed.

(* Relayer.pending is the number of live items of the connection plus the units held by
   goroutines that are between an increment and the Add, or between Entomb/Delete and the decrement *)
Theorem pending_exact_thm : forall cf ls st, run_fresh cf init ls = Some st -> forall k,
  c_pending (get_conn st k) = wrapU 32 (asum (live_i k) (items st) + tsum (hold_i k) (threads st)).
Proof. intros cf ls st H k. destruct (reach_both _ _ _ H) as [HI _]. apply (inv_pending _ HI k). Qed.

(* ... and forgotten: once nothing is left to run and the tombstone GC timers have fired, the
   relay holds no item, no tombstone and no pending count for any connection *)
Theorem forgotten_thm : forall cf ls st, run_fresh cf init ls = Some st -> quiescent st -> gcs st = [] ->
  items st = [] /\ forall k, c_pending (get_conn st k) = 0.
Proof.
  intros cf ls st H Hq Hg. destruct (reach_both _ _ _ H) as [HI HT].
  assert (Hit : items st = []).
  { destruct (items st) as [|[t it] r] eqn:E; [reflexivity|]. exfalso.
    assert (Hin : In (t, it) (items st)) by (rewrite E; left; reflexivity).
    pose proof (quiescent_no_live _ HI HT Hq _ _ Hin) as Ht. destruct (t_tomb _ HT _ _ Hin Ht) as [Hc _]. rewrite Hg in Hc. exact Hc. }
  split; [exact Hit|]. intro k. change (get_conn st k) with (getc (conns st) k). rewrite (inv_pending _ HI k), Hit.
  destruct Hq as [-> _]. reflexivity.
Qed.

(* so a graceful close can complete on every connection: after Close the relayer lets it drain *)
Corollary forgotten_can_close : forall cf ls st k, run_fresh cf init ls = Some st -> quiescent st -> gcs st = [] ->
  c_state (get_conn st k) = c_connectionStartClose ->
  exists st', step cf st (LDrained k) = Some st' /\ c_state (get_conn st' k) = c_connectionClosed.
Proof.
  intros cf ls st k H Hq Hg Hs. destruct (forgotten_thm _ _ _ H Hq Hg) as [_ Hp].
  destruct (reach_both _ _ _ H) as [_ HT].
  unfold step. rewrite (t_nopanic _ HT). cbn [Z.eqb negb]. rewrite Hs, (Hp k). cbn.
  eexists. split; [reflexivity|]. change (get_conn ?s k) with (getc (conns s) k).
  cbn [put_conn set_conns conns]. rewrite getc_insert, Z.eqb_refl. reflexivity.
Qed.

(* the timer pool protocol: no run reaches a Go panic of relay_timer_pool.go (use of a released
   timer, Release of an active timer), and Stop-returned-true excludes the timer firing *)
Theorem timer_protocol_thm : forall cf ls st, run_fresh cf init ls = Some st ->
  panicked st = 0 /\
  forall tm x, lookup Z.eqb tm (timers st) = Some x ->
    (tm_stopped x = true -> tm_armed x = false /\ tm_active x = false /\
       forall code, In (TT tm, code) (threads st) -> code <> [ITimerRun tm]) /\
    (tm_released x = true -> tm_active x = false /\ forall t it, In (t, it) (items st) -> it_tm it <> tm).
Proof.
  intros cf ls st H. destruct (reach_both _ _ _ H) as [HI HT]. split; [apply (t_nopanic _ HT)|].
  intros tm x Hx. destruct (t_phase _ HT _ _ Hx) as (P1&P2&P3&P4). split.
  - intro Hs. destruct (P2 Hs) as [A B]. split; [exact B|]. split; [exact A|].
    intros code Hin Hc. subst code. pose proof (t_code _ HT _ _ Hin) as Hcode. cbn in Hcode.
    destruct Hcode as (_&_&_&y&Hy&Hya&_). rewrite Hx in Hy. inversion Hy. subst y. congruence.
  - intro Hr. split; [apply P3; exact Hr|]. intros t it Hin Heq. destruct (t_item _ HT _ _ Hin) as (y&Hy&_&Hyr).
    rewrite Heq, Hx in Hy. inversion Hy. subst y. congruence.
Qed.
